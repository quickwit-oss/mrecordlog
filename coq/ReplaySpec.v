(* ReplaySpec.v — replaying a suffix of the WAL (properties C01 / C04 / C18, restart halves).
   A spec-level replay on abstract queues whose records are tagged with the index of the entry
   that appended them; the model's replay step (Log.apply_entry) refines it; replaying a
   suffix of a legal log yields, per queue, the same next position and exactly the records
   appended by entries of the suffix; coverage implies equality of the observable state. *)
From Coq Require Import Lia ZArith ZifyN ZifyNat ZifyBool.
From MRL Require Import Bytes BytesProofs Params Record Mem Spec Log SpecRefine RecordProofs.

Definition trec := (nat * (N * bytes))%type.
Definition tqueue := (list trec * N)%type.
Definition tmap := list (bytes * tqueue).

Fixpoint t_get (m : tmap) (q : bytes) : option tqueue :=
  match m with
  | [] => None
  | (n, v) :: r => if bytes_eqb n q then Some v else t_get r q
  end.
Fixpoint t_remove (m : tmap) (q : bytes) : tmap :=
  match m with
  | [] => []
  | (n, v) :: r => if bytes_eqb n q then t_remove r q else (n, v) :: t_remove r q
  end.
Fixpoint t_put (m : tmap) (q : bytes) (v : tqueue) : tmap :=
  match m with
  | [] => [(q, v)]
  | (n, v0) :: r => if bytes_eqb n q then (n, v) :: r else (n, v0) :: t_put r q v
  end.

Definition untag (m : tmap) : smap :=
  map (fun '(n, (recs, nx)) => (n, (map snd recs, nx))) m.

Fixpoint t_append_all (recs : list trec) (next : N) (i : nat) (new : list (N * bytes))
  : option (list trec * N) :=
  match new with
  | [] => Some (recs, next)
  | (p, x) :: r =>
      if p <? next then None else t_append_all (recs ++ [(i, (p, x))]) (p + 1) i r
  end.

Definition t_truncate (recs : list trec) (next p : N) : tqueue :=
  let kept := filter (fun r => p <? fst (snd r)) recs in
  (kept, if isnil kept && (next <=? p + 1) then p + 1 else next).

Definition t_apply (m : tmap) (i : nat) (e : entry) : option tmap :=
  match e with
  | EAppend q pos recs =>
      let '(old, next) := match t_get m q with Some v => v | None => ([], pos) end in
      match t_append_all old next i recs with
      | Some v => Some (t_put m q v)
      | None => None
      end
  | ETruncate q p =>
      match t_get m q with
      | Some (recs, next) => Some (t_put m q (t_truncate recs next p))
      | None => Some m
      end
  | EPosition q p =>
      match t_get m q with
      | Some (recs, next) =>
          if negb (isnil recs) || negb (next =? p) then Some (t_put m q ([], p)) else Some m
      | None => Some (t_put m q ([], p))
      end
  | EDelete q _ => Some (t_remove m q)
  end.

Fixpoint t_replay (m : tmap) (i : nat) (es : list entry) : option tmap :=
  match es with
  | [] => Some m
  | e :: r =>
      match t_apply m i e with
      | Some m' => t_replay m' (S i) r
      | None => None
      end
  end.


Lemma t_get_put_same m q v : t_get (t_put m q v) q = Some v.
Proof. exact (assoc_get_put_same m q v). Qed.

Lemma t_get_put_other m q v q' : q <> q' -> t_get (t_put m q v) q' = t_get m q'.
Proof. exact (assoc_get_put_other m q v q'). Qed.

Lemma t_get_remove_other m q q' : q <> q' -> t_get (t_remove m q) q' = t_get m q'.
Proof. exact (assoc_get_remove_other m q q'). Qed.

Lemma t_get_remove_same m q : t_get (t_remove m q) q = None.
Proof. exact (assoc_get_remove_same m q). Qed.

Definition untag_q (v : tqueue) : squeue := (map snd (fst v), snd v).

Lemma untag_get m q :
  s_get (untag m) q = match t_get m q with Some v => Some (untag_q v) | None => None end.
Proof.
  induction m as [|[n0 [r0 x0]] r IH]; [reflexivity|].
  cbn [untag map s_get t_get]. fold (untag r). destruct (bytes_eqb n0 q); [reflexivity|exact IH].
Qed.

Lemma untag_put m q v : untag (t_put m q v) = s_put (untag m) q (untag_q v).
Proof.
  induction m as [|[n0 [r0 x0]] r IH].
  - destruct v as [rv xv]. reflexivity.
  - cbn [untag map s_put t_put]. fold (untag r).
    destruct (bytes_eqb n0 q); cbn [map].
    + destruct v as [rv xv]. reflexivity.
    + fold (untag (t_put r q v)). now rewrite IH.
Qed.

Lemma untag_remove m q : untag (t_remove m q) = s_remove (untag m) q.
Proof.
  induction m as [|[n0 [r0 x0]] r IH]; [reflexivity|].
  cbn [untag map s_remove t_remove]. fold (untag r).
  destruct (bytes_eqb n0 q); cbn [map]; [exact IH|]. fold (untag (t_remove r q)).
  now rewrite IH.
Qed.

Lemma s_put_put m q a b : s_put (s_put m q a) q b = s_put m q b.
Proof.
  induction m as [|[n0 v0] r IH]; cbn [s_put].
  - now rewrite bytes_eqb_refl.
  - destruct (bytes_eqb n0 q) eqn:E; cbn [s_put]; rewrite E; [reflexivity|now rewrite IH].
Qed.

Lemma map_snd_filter (f : N * bytes -> bool) (l : list trec) :
  map snd (filter (fun r => f (snd r)) l) = filter f (map snd l).
Proof.
  induction l as [|r t IH]; cbn [filter map]; [reflexivity|].
  destruct (f (snd r)); cbn [map]; now rewrite IH.
Qed.

Lemma isnil_map {A B} (f : A -> B) l : isnil (map f l) = isnil l.
Proof. destruct l; reflexivity. Qed.

Lemma append_record_none q file p x :
  append_record q file p x = None -> p < next_position q.
Proof.
  unfold append_record. destruct (N.ltb_spec p (next_position q)) as [H|H]; [trivial|discriminate].
Qed.

Lemma append_all_trefines : forall recs q file (trecs : list trec) i,
  mq_inv q -> map snd trecs = records_of (q_buf q) (q_metas q) ->
  match append_all q file recs with
  | Some q' => exists trecs',
      t_append_all trecs (next_position q) i recs = Some (trecs', next_position q') /\
      map snd trecs' = records_of (q_buf q') (q_metas q') /\ mq_inv q'
  | None => t_append_all trecs (next_position q) i recs = None
  end.
Proof.
  induction recs as [|[p x] r IH]; intros q file trecs i Hi Hm; cbn [append_all t_append_all].
  - exists trecs. split; [reflexivity|]. split; assumption.
  - destruct (append_record q file p x) as [q1|] eqn:E1.
    + destruct (append_record_some _ _ _ _ _ E1) as (Hge & _).
      destruct (append_record_some_refines _ _ _ _ _ Hi E1) as (Hi1 & Hr1 & Hn1).
      destruct (N.ltb_spec p (next_position q)) as [Hlt|_]; [lia|].
      rewrite <- Hn1. apply IH; [exact Hi1|].
      rewrite map_app, Hr1. f_equal. exact Hm.
    + apply append_record_none in E1.
      destruct (N.ltb_spec p (next_position q)) as [_|Hge]; [reflexivity|lia].
Qed.

Lemma untag_abs_get tm qs q :
  untag tm = abs_qs qs ->
  match t_get tm q, qs_get qs q with
  | Some v, Some m => untag_q v = abs_q m
  | None, None => True
  | _, _ => False
  end.
Proof.
  intros H. pose proof (untag_get tm q) as H1. rewrite H, abs_get in H1.
  destruct (t_get tm q) as [v|], (qs_get qs q) as [m|]; try discriminate; [|exact I].
  congruence.
Qed.

Theorem apply_entry_refines qs file i e :
  qs_inv qs -> forall tm, untag tm = abs_qs qs ->
  match apply_entry qs file e with
  | Some qs' => exists tm', t_apply tm i e = Some tm' /\ untag tm' = abs_qs qs' /\ qs_inv qs'
  | None => t_apply tm i e = None
  end.
Proof.
  intros Hi tm Hu. destruct e as [q pos recs|q p|q p|q p]; cbn [apply_entry t_apply].
  - (* EAppend *)
    rewrite qs_contains_get. pose proof (untag_abs_get tm qs q Hu) as Hg.
    destruct (qs_get qs q) as [m|] eqn:E.
    + rewrite E. destruct (t_get tm q) as [[old next]|]; [|destruct Hg].
      unfold untag_q, abs_q in Hg. cbn [fst snd] in Hg. inversion Hg as [[Hr Hn]].
      pose proof (append_all_trefines recs m file old i (qs_inv_get _ _ _ Hi E) Hr) as Ha.
      destruct (append_all m file recs) as [m'|].
      * destruct Ha as (trecs' & Ht & Hr' & Hi'). rewrite Ht.
        eexists. split; [reflexivity|]. split.
        -- rewrite untag_put, Hu, <- abs_put. unfold untag_q, abs_q. cbn [fst snd].
           now rewrite Hr'.
        -- now apply qs_inv_put.
      * now rewrite Ha.
    + destruct (t_get tm q) as [v|]; [destruct Hg|].
      unfold ack_position. rewrite E, qs_get_put_same.
      pose proof (append_all_trefines recs (mq_with_next pos) file [] i
                    (mq_inv_with_next pos) eq_refl) as Ha.
      change (next_position (mq_with_next pos)) with pos in Ha.
      destruct (append_all (mq_with_next pos) file recs) as [m'|].
      * destruct Ha as (trecs' & Ht & Hr' & Hi'). rewrite Ht.
        eexists. split; [reflexivity|]. split.
        -- rewrite untag_put, Hu, <- !abs_put, s_put_put. unfold untag_q, abs_q. cbn [fst snd].
           now rewrite Hr'.
        -- apply qs_inv_put; [|exact Hi']. apply qs_inv_put; [exact Hi|apply mq_inv_with_next].
      * now rewrite Ha.
  - (* ETruncate *)
    pose proof (untag_abs_get tm qs q Hu) as Hg.
    destruct (qs_get qs q) as [m|] eqn:E.
    + destruct (t_get tm q) as [[old next]|]; [|destruct Hg].
      unfold untag_q, abs_q in Hg. cbn [fst snd] in Hg. inversion Hg as [[Hr Hn]].
      pose proof (truncate_head_refines m p (qs_inv_get _ _ _ Hi E)) as Ht.
      destruct (truncate_head m p) as [m' k]. destruct Ht as (Hi' & Hr' & _ & Hn'). cbn [fst].
      eexists. split; [reflexivity|]. split; [|now apply qs_inv_put].
      rewrite untag_put, Hu, <- abs_put. f_equal.
      unfold untag_q, abs_q, t_truncate. cbn [fst snd].
      rewrite (map_snd_filter (fun r => p <? fst r)), Hr, <- Hr'. f_equal.
      rewrite Hn'. rewrite <- (isnil_map snd (filter _ old)).
      rewrite (map_snd_filter (fun r => p <? fst r)), Hr, <- Hr'. reflexivity.
    + destruct (t_get tm q) as [v|]; [destruct Hg|].
      exists tm. split; [reflexivity|]. split; assumption.
  - (* EPosition *)
    pose proof (untag_abs_get tm qs q Hu) as Hg. unfold ack_position.
    destruct (qs_get qs q) as [m|] eqn:E.
    + destruct (t_get tm q) as [[old next]|]; [|destruct Hg].
      unfold untag_q, abs_q in Hg. cbn [fst snd] in Hg. inversion Hg as [[Hr Hn]].
      assert (He : mq_is_empty m = isnil old).
      { unfold mq_is_empty. transitivity (isnil (map snd old)); [|apply isnil_map].
        rewrite Hr. destruct (q_metas m); reflexivity. }
      rewrite He.
      destruct (negb (isnil old) || negb (next_position m =? p)).
      * eexists. split; [reflexivity|]. split.
        -- rewrite untag_put, Hu, <- abs_put. reflexivity.
        -- apply qs_inv_put; [exact Hi|apply mq_inv_with_next].
      * exists tm. split; [reflexivity|]. split; assumption.
    + destruct (t_get tm q) as [v|]; [destruct Hg|].
      eexists. split; [reflexivity|]. split.
      * rewrite untag_put, Hu, <- abs_put. reflexivity.
      * apply qs_inv_put; [exact Hi|apply mq_inv_with_next].
  - (* EDelete *)
    eexists. split; [reflexivity|]. split.
    + rewrite untag_remove, Hu, abs_remove. reflexivity.
    + now apply qs_inv_remove.
Qed.

(* the replay loop of `open`, abstracted: entries with the file they were read from *)
Fixpoint apply_entries (qs : queues) (fes : list (N * entry)) : option queues :=
  match fes with
  | [] => Some qs
  | (f, e) :: r =>
      match apply_entry qs f e with
      | Some qs' => apply_entries qs' r
      | None => None
      end
  end.

Corollary apply_entries_refines : forall fes qs i tm,
  qs_inv qs -> untag tm = abs_qs qs ->
  match apply_entries qs fes with
  | Some qs' => exists tm',
      t_replay tm i (map snd fes) = Some tm' /\ untag tm' = abs_qs qs' /\ qs_inv qs'
  | None => t_replay tm i (map snd fes) = None
  end.
Proof.
  induction fes as [|[f e] r IH]; intros qs i tm Hi Hu; cbn [apply_entries map snd t_replay].
  - exists tm. split; [reflexivity|]. split; assumption.
  - pose proof (apply_entry_refines qs f i e Hi tm Hu) as H1.
    destruct (apply_entry qs f e) as [qs1|].
    + destruct H1 as (tm1 & -> & Hu1 & Hi1). apply IH; assumption.
    + now rewrite H1.
Qed.

(* the effect of an entry on the queue it names *)
Definition q_apply (v : option tqueue) (i : nat) (e : entry) : option (option tqueue) :=
  match e with
  | EAppend _ pos recs =>
      let '(old, next) := match v with Some v => v | None => ([], pos) end in
      match t_append_all old next i recs with
      | Some v' => Some (Some v')
      | None => None
      end
  | ETruncate _ p =>
      match v with
      | Some (recs, next) => Some (Some (t_truncate recs next p))
      | None => Some None
      end
  | EPosition _ p =>
      match v with
      | Some (recs, next) =>
          if negb (isnil recs) || negb (next =? p) then Some (Some ([], p)) else Some v
      | None => Some (Some ([], p))
      end
  | EDelete _ _ => Some None
  end.

Lemma t_apply_spec m i e :
  match t_apply m i e with
  | Some m' =>
      q_apply (t_get m (entry_queue e)) i e = Some (t_get m' (entry_queue e)) /\
      (forall q', entry_queue e <> q' -> t_get m' q' = t_get m q')
  | None => q_apply (t_get m (entry_queue e)) i e = None
  end.
Proof.
  destruct e as [q pos recs|q p|q p|q p]; cbn [t_apply q_apply entry_queue].
  - destruct (match t_get m q with Some v => v | None => ([], pos) end) as [old next].
    destruct (t_append_all old next i recs) as [v'|]; [|reflexivity].
    rewrite t_get_put_same. split; [reflexivity|]. intros q' Hne. now apply t_get_put_other.
  - destruct (t_get m q) as [[recs next]|] eqn:E.
    + rewrite t_get_put_same. split; [reflexivity|]. intros q' Hne. now apply t_get_put_other.
    + rewrite E. split; reflexivity.
  - destruct (t_get m q) as [[recs next]|] eqn:E.
    + destruct (negb (isnil recs) || negb (next =? p)).
      * rewrite t_get_put_same. split; [reflexivity|]. intros q' Hne. now apply t_get_put_other.
      * rewrite E. split; reflexivity.
    + rewrite t_get_put_same. split; [reflexivity|]. intros q' Hne. now apply t_get_put_other.
  - rewrite t_get_remove_same. split; [reflexivity|]. intros q' Hne. now apply t_get_remove_other.
Qed.

Lemma t_apply_some m i e m' :
  t_apply m i e = Some m' ->
  q_apply (t_get m (entry_queue e)) i e = Some (t_get m' (entry_queue e)) /\
  (forall q', entry_queue e <> q' -> t_get m' q' = t_get m q').
Proof. intros H. pose proof (t_apply_spec m i e) as Hs. now rewrite H in Hs. Qed.

Lemma q_apply_some_t_apply m i e v' :
  q_apply (t_get m (entry_queue e)) i e = Some v' ->
  exists m', t_apply m i e = Some m' /\ t_get m' (entry_queue e) = v' /\
             (forall q', entry_queue e <> q' -> t_get m' q' = t_get m q').
Proof.
  intros H. pose proof (t_apply_spec m i e) as Hs.
  destruct (t_apply m i e) as [m'|]; [|congruence].
  destruct Hs as (H1 & H2). exists m'. split; [reflexivity|]. split; [congruence|exact H2].
Qed.

(* one queue after an entry: the queue the entry names went through q_apply, any other is as
   before *)
Lemma t_apply_get m i e m' q :
  t_apply m i e = Some m' ->
  entry_queue e = q /\ q_apply (t_get m q) i e = Some (t_get m' q) \/
  entry_queue e <> q /\ t_get m' q = t_get m q.
Proof.
  intros H. destruct (t_apply_some _ _ _ _ H) as (H1 & H2).
  destruct (bytes_eqb (entry_queue e) q) eqn:E.
  - apply bytes_eqb_eq in E. subst q. left. split; [reflexivity|exact H1].
  - apply bytes_eqb_neq in E. right. split; [exact E|exact (H2 q E)].
Qed.

(* two maps, both changed under one name at most, stay related name by name if they are related
   under that name afterwards; said of the lookup functions, to serve every kind of map here *)
Lemma pointwise_step {V W} (R : V -> W -> Prop) (f f' : bytes -> V) (g g' : bytes -> W) k :
  (forall q, R (f q) (g q)) -> R (f' k) (g' k) ->
  (forall q, k <> q -> f' q = f q) -> (forall q, k <> q -> g' q = g q) ->
  forall q, R (f' q) (g' q).
Proof.
  intros HR Hk Hf Hg q. destruct (bytes_eqb k q) eqn:E.
  - apply bytes_eqb_eq in E. subst q. exact Hk.
  - apply bytes_eqb_neq in E. rewrite (Hf q E), (Hg q E). apply HR.
Qed.

(* a relation between two maps that holds queue by queue survives an entry as soon as q_apply
   carries it across on the queue the entry names *)
Lemma t_apply_rel (R : option tqueue -> option tqueue -> Prop) i e F S F' :
  (forall q, R (t_get F q) (t_get S q)) ->
  t_apply F i e = Some F' ->
  (forall fq', q_apply (t_get F (entry_queue e)) i e = Some fq' ->
     exists sq', q_apply (t_get S (entry_queue e)) i e = Some sq' /\ R fq' sq') ->
  exists S', t_apply S i e = Some S' /\ forall q, R (t_get F' q) (t_get S' q).
Proof.
  intros HR HF Hq. destruct (t_apply_some _ _ _ _ HF) as (HF1 & HF2).
  destruct (Hq _ HF1) as (sq' & HS1 & HR').
  destruct (q_apply_some_t_apply _ _ _ _ HS1) as (S' & HS & <- & HS2).
  exists S'. split; [exact HS|].
  exact (pointwise_step R (t_get F) (t_get F') (t_get S) (t_get S') (entry_queue e) HR HR' HF2 HS2).
Qed.

(* t_append_all in closed form *)

Fixpoint chk_pos (next : N) (new : list (N * bytes)) : option N :=
  match new with
  | [] => Some next
  | (p, x) :: r => if p <? next then None else chk_pos (p + 1) r
  end.

Definition tag_with (i : nat) (new : list (N * bytes)) : list trec := map (pair i) new.

Lemma t_append_all_eq : forall new recs next i,
  t_append_all recs next i new =
  match chk_pos next new with
  | Some n => Some (recs ++ tag_with i new, n)
  | None => None
  end.
Proof.
  induction new as [|[p x] r IH]; intros recs next i; cbn [t_append_all chk_pos tag_with map].
  - now rewrite app_nil_r.
  - destruct (p <? next); [reflexivity|]. rewrite IH.
    destruct (chk_pos (p + 1) r); [|reflexivity]. unfold tag_with. now rewrite <- app_assoc.
Qed.

Lemma chk_pos_bound : forall new next n,
  chk_pos next new = Some n ->
  next <= n /\ Forall (fun r => next <= fst r < n) new.
Proof.
  induction new as [|[p x] r IH]; intros next n H; cbn [chk_pos] in H.
  - inversion H; subst. split; [lia|constructor].
  - destruct (N.ltb_spec p next) as [_|Hge]; [discriminate|].
    destruct (IH _ _ H) as (H1 & H2). split; [lia|]. constructor; [cbn [fst]; lia|].
    eapply Forall_impl; [|exact H2]. cbn beta. intros a Ha. lia.
Qed.

Lemma chk_pos_number_from : forall payloads pos next,
  next <= pos -> payloads <> [] ->
  chk_pos next (number_from pos payloads) = Some (pos + lenN payloads).
Proof.
  induction payloads as [|x r IH]; intros pos next Hle Hne; [congruence|].
  cbn [number_from chk_pos]. destruct (N.ltb_spec pos next) as [Hlt|_]; [lia|].
  destruct r as [|y r'].
  - cbn [number_from chk_pos]. rewrite lenN_cons, lenN_nil. f_equal.
  - rewrite IH by (try lia; discriminate). rewrite (lenN_cons x). f_equal. lia.
Qed.

Lemma t_append_all_number_from recs next i pos payloads :
  next <= pos -> payloads <> [] ->
  t_append_all recs next i (number_from pos payloads) =
  Some (recs ++ tag_with i (number_from pos payloads), pos + lenN payloads).
Proof.
  intros Hle Hne. now rewrite t_append_all_eq, (chk_pos_number_from payloads pos next Hle Hne).
Qed.

(* tags non-decreasing along a queue *)
Fixpoint tags_nd (lo : nat) (l : list trec) : Prop :=
  match l with
  | [] => True
  | r :: t => (lo <= fst r)%nat /\ tags_nd (fst r) t
  end.

Lemma tags_nd_weaken lo lo' l : tags_nd lo l -> (lo' <= lo)%nat -> tags_nd lo' l.
Proof.
  destruct l as [|r t]; cbn [tags_nd]; [trivial|]. intros (H1 & H2) H. split; [lia|exact H2].
Qed.

Lemma tags_nd_ge lo l x : tags_nd lo l -> In x l -> (lo <= fst x)%nat.
Proof.
  revert lo; induction l as [|r t IH]; intros lo H Hin; [destruct Hin|].
  cbn [tags_nd] in H. destruct H as (H1 & H2). destruct Hin as [<-|Hin]; [exact H1|].
  specialize (IH _ H2 Hin). lia.
Qed.

Lemma tags_nd_filter f lo l : tags_nd lo l -> tags_nd lo (filter f l).
Proof.
  revert lo; induction l as [|r t IH]; intros lo H; [exact I|].
  cbn [tags_nd filter] in *. destruct H as (H1 & H2). specialize (IH _ H2).
  destruct (f r).
  - cbn [tags_nd]. split; assumption.
  - eapply tags_nd_weaken; [exact IH|lia].
Qed.

Lemma tags_nd_tag_with lo i new : (lo <= i)%nat -> tags_nd lo (tag_with i new).
Proof.
  revert lo; induction new as [|a r IH]; intros lo H; cbn [tag_with map tags_nd]; [exact I|].
  cbn [fst]. split; [exact H|]. apply IH. lia.
Qed.

Lemma tags_nd_app_tag lo l i new :
  tags_nd lo l -> Forall (fun r => (fst r <= i)%nat) l -> (lo <= i)%nat ->
  tags_nd lo (l ++ tag_with i new).
Proof.
  revert lo; induction l as [|r t IH]; intros lo H Hf Hlo; cbn [app].
  - now apply tags_nd_tag_with.
  - cbn [tags_nd] in *. destruct H as (H1 & H2). inversion Hf as [|? ? Hr Ht]; subst.
    split; [exact H1|]. apply IH; assumption.
Qed.

Lemma tags_nd_filter_suffix k lo l :
  tags_nd lo l ->
  exists l1, l = l1 ++ filter (fun r => (k <=? fst r)%nat) l /\
             Forall (fun r => (fst r < k)%nat) l1.
Proof.
  revert lo; induction l as [|r t IH]; intros lo H.
  - exists []. split; [reflexivity|constructor].
  - cbn [tags_nd] in H. destruct H as (H1 & H2).
    destruct (Nat.leb_spec k (fst r)) as [Hk|Hk].
    + exists []. split; [|constructor]. cbn [app]. symmetry. apply filter_all_true.
      intros x [<-|Hx]; [apply Nat.leb_le; exact Hk|].
      pose proof (tags_nd_ge _ _ _ H2 Hx). apply Nat.leb_le. lia.
    + destruct (IH _ H2) as (l1 & E & Hf). exists (r :: l1). split.
      * cbn [filter]. destruct (Nat.leb_spec k (fst r)) as [Hc|_]; [lia|].
        cbn [app]. f_equal. exact E.
      * constructor; assumption.
Qed.

(* per queue: tags sorted and below the current index, positions below next *)
Definition wfq (i : nat) (v : option tqueue) : Prop :=
  match v with
  | Some (rf, n) =>
      tags_nd 0 rf /\ Forall (fun r => (fst r < i)%nat) rf /\ Forall (fun r => fst (snd r) < n) rf
  | None => True
  end.

Definition wf_tmap (i : nat) (m : tmap) : Prop := forall q, wfq i (t_get m q).

Lemma wfq_mono i j v : (i <= j)%nat -> wfq i v -> wfq j v.
Proof.
  intros Hij. destruct v as [[rf n]|]; [|trivial]. cbn [wfq]. intros (H1 & H2 & H3).
  split; [exact H1|]. split; [|exact H3]. eapply Forall_impl; [|exact H2]. cbn beta. intros a Ha. lia.
Qed.

Lemma Forall_filter {A} (P : A -> Prop) f l : Forall P l -> Forall P (filter f l).
Proof.
  induction l as [|x t IH]; intros H; cbn [filter]; [constructor|].
  inversion H; subst. destruct (f x); [constructor|]; auto.
Qed.

Lemma q_apply_wf i v e v' : wfq i v -> q_apply v i e = Some v' -> wfq (S i) v'.
Proof.
  intros Hw H. destruct e as [q pos recs|q p|q p|q p]; cbn [q_apply] in H.
  - (* EAppend *)
    assert (Hw0 : wfq i (Some (match v with Some v0 => v0 | None => ([], pos) end))).
    { destruct v as [v0|]; [exact Hw|]. cbn [wfq tags_nd]. repeat split; constructor. }
    destruct (match v with Some v0 => v0 | None => ([], pos) end) as [old next].
    rewrite t_append_all_eq in H. destruct (chk_pos next recs) as [n|] eqn:Ec; [|discriminate].
    inversion H; subst v'. cbn [wfq] in *. destruct Hw0 as (H1 & H2 & H3).
    destruct (chk_pos_bound _ _ _ Ec) as (Hn & Hb). split; [|split].
    + apply tags_nd_app_tag; [exact H1| |lia].
      eapply Forall_impl; [|exact H2]. cbn beta. intros a Ha. lia.
    + apply Forall_app. split.
      * eapply Forall_impl; [|exact H2]. cbn beta. intros a Ha. lia.
      * unfold tag_with. apply Forall_map. apply Forall_forall. intros a _. cbn [fst]. lia.
    + apply Forall_app. split.
      * eapply Forall_impl; [|exact H3]. cbn beta. intros a Ha. lia.
      * unfold tag_with. apply Forall_map. eapply Forall_impl; [|exact Hb].
        cbn beta. intros a Ha. cbn [snd]. lia.
  - (* ETruncate *)
    destruct v as [[rf n]|]; inversion H; subst v'; [|exact I].
    cbn [wfq] in Hw. destruct Hw as (H1 & H2 & H3). unfold t_truncate. cbn [wfq].
    split; [now apply tags_nd_filter|]. split.
    + apply Forall_filter. eapply Forall_impl; [|exact H2]. cbn beta. intros a Ha. lia.
    + apply Forall_filter. eapply Forall_impl; [|exact H3]. cbn beta. intros a Ha.
      destruct (isnil _ && (n <=? p + 1)) eqn:Eb; lia.
  - (* EPosition *)
    assert (Hnil : wfq (S i) (Some ([], p))).
    { cbn [wfq tags_nd]. repeat split; constructor. }
    destruct v as [[rf n]|]; [|inversion H; subst; exact Hnil].
    destruct (negb (isnil rf) || negb (n =? p)); inversion H; subst; [exact Hnil|].
    eapply wfq_mono; [|exact Hw]. lia.
  - inversion H; subst. exact I.
Qed.

Lemma t_apply_wf i m e m' : wf_tmap i m -> t_apply m i e = Some m' -> wf_tmap (S i) m'.
Proof.
  intros Hw H q. destruct (t_apply_get _ _ _ _ q H) as [(_ & H1)|(_ & ->)].
  - eapply q_apply_wf; [apply Hw|exact H1].
  - eapply wfq_mono; [|apply Hw]. lia.
Qed.

Lemma t_replay_wf : forall es i m m',
  wf_tmap i m -> t_replay m i es = Some m' -> wf_tmap (i + length es) m'.
Proof.
  induction es as [|e r IH]; intros i m m' Hw H; cbn [t_replay length] in *.
  - inversion H; subst. now rewrite Nat.add_0_r.
  - destruct (t_apply m i e) as [m1|] eqn:E; [|discriminate].
    replace (i + S (length r))%nat with (S i + length r)%nat by lia.
    eapply IH; [|exact H]. eapply t_apply_wf; eauto.
Qed.

Lemma wf_tmap_nil i : wf_tmap i [].
Proof. intros q. exact I. Qed.

Lemma t_replay_app : forall a b m i,
  t_replay m i (a ++ b) =
  match t_replay m i a with
  | Some m' => t_replay m' (i + length a) b
  | None => None
  end.
Proof.
  induction a as [|e r IH]; intros b m i; cbn [app t_replay length].
  - now rewrite Nat.add_0_r.
  - destruct (t_apply m i e) as [m1|]; [|reflexivity]. rewrite IH.
    replace (S i + length r)%nat with (i + S (length r))%nat by lia. reflexivity.
Qed.

(* what the live system writes, relative to the (full) state the entry is applied to *)
Definition legal (m : tmap) (e : entry) : Prop :=
  match e with
  | EAppend q pos recs =>
      exists old next, t_get m q = Some (old, next) /\ next <= pos /\ recs <> [] /\
                       (exists payloads, recs = number_from pos payloads)
  | ETruncate q p => t_get m q <> None
  | EPosition q p =>
      (t_get m q = None /\ p = 0) \/ (exists next, t_get m q = Some ([], next) /\ p = next)
  | EDelete q _ => t_get m q <> None
  end.

(* the same, on the queue the entry names *)
Definition legal_q (v : option tqueue) (e : entry) : Prop :=
  match e with
  | EAppend _ pos recs =>
      exists old next, v = Some (old, next) /\ next <= pos /\ recs <> [] /\
                       (exists payloads, recs = number_from pos payloads)
  | ETruncate _ p => v <> None
  | EPosition _ p => (v = None /\ p = 0) \/ (exists next, v = Some ([], next) /\ p = next)
  | EDelete _ _ => v <> None
  end.

Lemma legal_legal_q m e : legal m e <-> legal_q (t_get m (entry_queue e)) e.
Proof. destruct e; reflexivity. Qed.

(* every entry is legal with respect to the state reached so far *)
Inductive legal_log : tmap -> nat -> list entry -> Prop :=
| ll_nil m i : legal_log m i []
| ll_cons m i e es :
    legal m e ->
    (forall m', t_apply m i e = Some m' -> legal_log m' (S i) es) ->
    legal_log m i (e :: es).

Lemma number_from_nonnil pos payloads : number_from pos payloads <> [] -> payloads <> [].
Proof. destruct payloads; [cbn; congruence|discriminate]. Qed.

Lemma legal_q_apply_some v i e : legal_q v e -> exists v', q_apply v i e = Some v'.
Proof.
  destruct e as [q pos recs|q p|q p|q p]; cbn [legal_q q_apply]; intros H.
  - destruct H as (old & next & -> & Hle & Hne & payloads & ->).
    apply number_from_nonnil in Hne.
    rewrite (t_append_all_number_from old next i pos payloads Hle Hne). eexists; reflexivity.
  - destruct v as [[rf n]|]; eexists; reflexivity.
  - destruct v as [[rf n]|]; [|eexists; reflexivity].
    destruct (negb (isnil rf) || negb (n =? p)); eexists; reflexivity.
  - eexists; reflexivity.
Qed.

Lemma legal_apply_some m i e : legal m e -> exists m', t_apply m i e = Some m'.
Proof.
  intros H. apply legal_legal_q in H. destruct (legal_q_apply_some _ i _ H) as (v' & Hv).
  destruct (q_apply_some_t_apply _ _ _ _ Hv) as (m' & Hm & _). exists m'. exact Hm.
Qed.

Lemma legal_log_cons_inv m i e es :
  legal_log m i (e :: es) ->
  legal m e /\ exists m', t_apply m i e = Some m' /\ legal_log m' (S i) es.
Proof.
  intros H. inversion H as [|? ? ? ? Hl Hr]; subst. split; [exact Hl|].
  destruct (legal_apply_some m i e Hl) as (m' & Hm). exists m'. split; [exact Hm|].
  apply Hr. exact Hm.
Qed.

(* replay never fails on a legal log *)
Theorem legal_log_replay_some : forall es m i,
  legal_log m i es -> exists m', t_replay m i es = Some m'.
Proof.
  induction es as [|e r IH]; intros m i H; cbn [t_replay].
  - eexists; reflexivity.
  - destruct (legal_log_cons_inv _ _ _ _ H) as (_ & m1 & -> & Hr). apply IH. exact Hr.
Qed.

Lemma legal_log_app : forall a b m i,
  legal_log m i (a ++ b) ->
  exists m', t_replay m i a = Some m' /\ legal_log m' (i + length a) b.
Proof.
  induction a as [|e r IH]; intros b m i H; cbn [app t_replay length] in *.
  - exists m. split; [reflexivity|]. now rewrite Nat.add_0_r.
  - destruct (legal_log_cons_inv _ _ _ _ H) as (_ & m1 & -> & Hr).
    destruct (IH _ _ _ Hr) as (m' & Hm & Hl). exists m'. split; [exact Hm|].
    replace (i + S (length r))%nat with (S i + length r)%nat by lia. exact Hl.
Qed.

Definition from_suffix (k : nat) (r : trec) : bool := (k <=? fst r)%nat.

(* F's view of a queue against S's view, k = index of the first entry of the suffix *)
Definition sim_q (k : nat) (fq sq : option tqueue) : Prop :=
  match sq with
  | None => forall rf n, fq = Some (rf, n) -> filter (from_suffix k) rf = []
  | Some (rs, ns) => exists rf, fq = Some (rf, ns) /\ rs = filter (from_suffix k) rf
  end.

Definition sim (k : nat) (F S : tmap) : Prop := forall q, sim_q k (t_get F q) (t_get S q).

Lemma filter_comm {A} (f g : A -> bool) l : filter f (filter g l) = filter g (filter f l).
Proof.
  induction l as [|x t IH]; cbn [filter]; [reflexivity|].
  destruct (f x) eqn:Ef, (g x) eqn:Eg; cbn [filter]; rewrite ?Ef, ?Eg, IH; reflexivity.
Qed.

Lemma filter_from_suffix_tag_with k i new :
  (k <= i)%nat -> filter (from_suffix k) (tag_with i new) = tag_with i new.
Proof.
  intros H. apply filter_all_true. intros x Hx. unfold tag_with in Hx.
  apply in_map_iff in Hx. destruct Hx as (a & <- & _). unfold from_suffix. cbn [fst].
  apply Nat.leb_le. exact H.
Qed.

Lemma filter_pos_nil (p n : N) (rf : list trec) :
  Forall (fun r => fst (snd r) < n) rf -> n <= p + 1 ->
  filter (fun r => p <? fst (snd r)) rf = [].
Proof.
  intros Hf Hn. apply filter_all_false. intros x Hx.
  rewrite Forall_forall in Hf. specialize (Hf x Hx). cbn beta in Hf. lia.
Qed.

Lemma sim_q_step k i fq sq e fq' :
  sim_q k fq sq -> wfq i fq -> legal_q fq e -> (k <= i)%nat ->
  q_apply fq i e = Some fq' ->
  exists sq', q_apply sq i e = Some sq' /\ sim_q k fq' sq'.
Proof.
  intros Hs Hw Hl Hk Hf. destruct e as [q pos recs|q p|q p|q p]; cbn [legal_q q_apply] in *.
  - (* EAppend *)
    destruct Hl as (old & next & -> & Hle & Hne & payloads & ->).
    apply number_from_nonnil in Hne.
    rewrite (t_append_all_number_from old next i pos payloads Hle Hne) in Hf.
    inversion Hf; subst fq'. clear Hf.
    destruct sq as [[rs ns]|]; cbn [sim_q] in Hs.
    + destruct Hs as (rf & E & ->). inversion E; subst rf ns.
      rewrite (t_append_all_number_from _ next i pos payloads Hle Hne).
      eexists. split; [reflexivity|]. cbn [sim_q]. eexists. split; [reflexivity|].
      rewrite filter_app, filter_from_suffix_tag_with by exact Hk. reflexivity.
    + rewrite (t_append_all_number_from [] pos i pos payloads (N.le_refl _) Hne).
      eexists. split; [reflexivity|]. cbn [sim_q]. eexists. split; [reflexivity|].
      rewrite filter_app, filter_from_suffix_tag_with by exact Hk.
      rewrite (Hs old next eq_refl). reflexivity.
  - (* ETruncate *)
    destruct fq as [[rf n]|]; [|congruence]. inversion Hf; subst fq'. clear Hf Hl.
    cbn [wfq] in Hw. destruct Hw as (_ & _ & Hpos).
    destruct sq as [[rs ns]|]; cbn [sim_q] in Hs.
    + destruct Hs as (rf' & E & ->). inversion E; subst rf' ns.
      eexists. split; [reflexivity|]. unfold t_truncate. cbn [sim_q].
      exists (filter (fun r => p <? fst (snd r)) rf). split.
      * f_equal. f_equal. destruct (N.leb_spec n (p + 1)) as [Hn|Hn].
        -- rewrite (filter_pos_nil p n rf Hpos Hn).
           rewrite (filter_pos_nil p n (filter (from_suffix k) rf)); [reflexivity| |exact Hn].
           now apply Forall_filter.
        -- rewrite !andb_false_r. reflexivity.
      * apply filter_comm.
    + eexists. split; [reflexivity|]. cbn [sim_q]. intros rf' n' E. unfold t_truncate in E.
      inversion E; subst rf' n'. rewrite filter_comm, (Hs rf n eq_refl). reflexivity.
  - (* EPosition *)
    destruct Hl as [(-> & ->)|(next & -> & ->)].
    + inversion Hf; subst fq'. clear Hf.
      destruct sq as [[rs ns]|]; cbn [sim_q] in Hs.
      * destruct Hs as (rf & E & _). discriminate.
      * eexists. split; [reflexivity|]. cbn [sim_q]. exists []. split; reflexivity.
    + cbn [isnil negb orb] in Hf. rewrite N.eqb_refl in Hf. cbn [negb] in Hf.
      inversion Hf; subst fq'. clear Hf.
      destruct sq as [[rs ns]|]; cbn [sim_q] in Hs.
      * destruct Hs as (rf & E & ->). inversion E; subst rf ns.
        cbn [filter isnil negb orb]. rewrite N.eqb_refl. cbn [negb].
        eexists. split; [reflexivity|]. cbn [sim_q]. exists []. split; reflexivity.
      * eexists. split; [reflexivity|]. cbn [sim_q]. exists []. split; reflexivity.
  - (* EDelete *)
    inversion Hf; subst fq'. eexists. split; [reflexivity|]. cbn [sim_q]. discriminate.
Qed.

Lemma sim_step k i F S e F' :
  sim k F S -> wf_tmap i F -> legal F e -> (k <= i)%nat ->
  t_apply F i e = Some F' ->
  exists S', t_apply S i e = Some S' /\ sim k F' S'.
Proof.
  intros Hs Hw Hl Hk Hf. apply legal_legal_q in Hl.
  apply (t_apply_rel (sim_q k) i e F S F' Hs Hf). intros fq'.
  apply (sim_q_step k i _ _ e fq' (Hs (entry_queue e)) (Hw (entry_queue e)) Hl Hk).
Qed.

Lemma sim_lockstep k : forall suf i F S,
  sim k F S -> wf_tmap i F -> (k <= i)%nat -> legal_log F i suf ->
  exists F' S', t_replay F i suf = Some F' /\ t_replay S i suf = Some S' /\ sim k F' S'.
Proof.
  induction suf as [|e r IH]; intros i F S Hs Hw Hk Hl; cbn [t_replay].
  - exists F, S. repeat split; try reflexivity. exact Hs.
  - destruct (legal_log_cons_inv _ _ _ _ Hl) as (Hle & F1 & HF1 & Hr).
    destruct (sim_step k i F S e F1 Hs Hw Hle Hk HF1) as (S1 & HS1 & Hs1).
    rewrite HF1, HS1. apply IH; [exact Hs1| |lia|exact Hr].
    eapply t_apply_wf; eauto.
Qed.

Lemma sim_init k F : wf_tmap k F -> sim k F [].
Proof.
  intros Hw q. cbn [t_get sim_q]. intros rf n E. specialize (Hw q). rewrite E in Hw.
  cbn [wfq] in Hw. destruct Hw as (_ & Ht & _). apply filter_all_false. intros x Hx.
  rewrite Forall_forall in Ht. specialize (Ht x Hx). cbn beta in Ht.
  unfold from_suffix. apply Nat.leb_gt. exact Ht.
Qed.

Section Suffix.
Variables (pre suf : list entry) (F : tmap).
Hypothesis Hlegal : legal_log [] 0 (pre ++ suf).
Hypothesis HF : t_replay [] 0 (pre ++ suf) = Some F.

(* the whole log and its suffix, both replayed from nothing with the same tags, end in states
   related by sim *)
Lemma suffix_lockstep :
  exists F' S', t_replay [] 0 (pre ++ suf) = Some F' /\
                t_replay [] (length pre) suf = Some S' /\ sim (length pre) F' S'.
Proof.
  destruct (legal_log_app _ _ _ _ Hlegal) as (F0 & H0 & Hl). cbn [Nat.add] in Hl.
  pose proof (t_replay_wf pre 0 [] F0 (wf_tmap_nil 0) H0) as Hw. cbn [Nat.add] in Hw.
  destruct (sim_lockstep (length pre) suf (length pre) F0 [] (sim_init _ _ Hw) Hw (le_n _) Hl)
    as (F' & S' & HF' & HS' & Hsim).
  exists F', S'. split; [|split; [exact HS'|exact Hsim]].
  rewrite t_replay_app, H0. exact HF'.
Qed.

(* the suffix alone, replayed from nothing with the same tags, does not fail *)
Theorem suffix_replay_some : exists S, t_replay [] (length pre) suf = Some S.
Proof. destruct suffix_lockstep as (F' & S' & _ & HS & _). exists S'. exact HS. Qed.

Variable S : tmap.
Hypothesis HS : t_replay [] (length pre) suf = Some S.

(* strong form: a queue unknown to the suffix replay has, in the full state, no record
   appended by the suffix *)
Theorem suffix_simulation_strong : sim (length pre) F S.
Proof.
  destruct suffix_lockstep as (F' & S' & HF' & HS' & Hsim).
  rewrite HF in HF'. rewrite HS in HS'. inversion HF'; inversion HS'; subst. exact Hsim.
Qed.

Theorem suffix_simulation : forall q,
  t_get S q = None \/
  exists rf n, t_get F q = Some (rf, n) /\
               t_get S q = Some (filter (fun r => length pre <=? fst r)%nat rf, n).
Proof.
  intros q. pose proof (suffix_simulation_strong q) as H.
  destruct (t_get S q) as [[rs ns]|]; [|now left]. right. cbn [sim_q] in H.
  destruct H as (rf & E & ->). exists rf, ns. split; [exact E|reflexivity].
Qed.

Lemma full_wf : wf_tmap (length (pre ++ suf)) F.
Proof. apply (t_replay_wf (pre ++ suf) 0 [] F (wf_tmap_nil 0) HF). Qed.

(* hence the records the suffix replay holds are a list-suffix of the full queue *)
Corollary suffix_simulation_list_suffix : forall q rs n,
  t_get S q = Some (rs, n) ->
  exists dropped, t_get F q = Some (dropped ++ rs, n) /\
                  Forall (fun r => (fst r < length pre)%nat) dropped /\
                  Forall (fun r => (length pre <= fst r)%nat) rs.
Proof.
  intros q rs n E. pose proof (suffix_simulation_strong q) as H. rewrite E in H.
  cbn [sim_q] in H. destruct H as (rf & EF & ->).
  pose proof (full_wf q) as Hw. rewrite EF in Hw. cbn [wfq] in Hw. destruct Hw as (Hnd & _ & _).
  destruct (tags_nd_filter_suffix (length pre) 0 rf Hnd) as (l1 & El & Hl1).
  exists l1. split; [|split; [exact Hl1|]].
  - rewrite EF. f_equal. f_equal. exact El.
  - apply Forall_forall. intros x Hx. apply filter_In in Hx. destruct Hx as (_ & Hx).
    unfold from_suffix in Hx. apply Nat.leb_le in Hx. exact Hx.
Qed.
End Suffix.

(* entries that (re)create the queue they name when replayed *)
Definition creates (e : entry) (q : bytes) : bool :=
  match e with
  | EAppend q' _ _ | EPosition q' _ => bytes_eqb q' q
  | ETruncate _ _ | EDelete _ _ => false
  end.

Definition is_delete (e : entry) : bool := match e with EDelete _ _ => true | _ => false end.

Lemma creates_queue e q : creates e q = true -> entry_queue e = q.
Proof. destruct e; cbn [creates entry_queue]; intros H; try discriminate; now apply bytes_eqb_eq. Qed.

Lemma q_apply_present v i e v' :
  q_apply v i e = Some v' ->
  if creates e (entry_queue e) then v' <> None
  else if is_delete e then v' = None
  else v' = None <-> v = None.
Proof.
  destruct e as [q pos recs|q p|q p|q p]; cbn [q_apply creates is_delete entry_queue];
    rewrite ?bytes_eqb_refl; intros H.
  - destruct (match v with Some v0 => v0 | None => ([], pos) end) as [old next].
    destruct (t_append_all old next i recs); inversion H; subst. discriminate.
  - destruct v as [[rf n]|]; inversion H; subst; [split; discriminate|split; reflexivity].
  - destruct v as [[rf n]|]; [|inversion H; subst; discriminate].
    destruct (negb (isnil rf) || negb (n =? p)); inversion H; subst; discriminate.
  - now inversion H.
Qed.

Lemma q_apply_none_stays i e v' :
  q_apply None i e = Some v' -> creates e (entry_queue e) = false -> v' = None.
Proof.
  intros H Hc. pose proof (q_apply_present _ _ _ _ H) as Hp. rewrite Hc in Hp.
  destruct (is_delete e); [exact Hp|now apply Hp].
Qed.

(* a queue absent before and present after was created in between *)
Lemma created_in q : forall suf i F F',
  t_replay F i suf = Some F' -> t_get F q = None -> t_get F' q <> None ->
  existsb (fun e => creates e q) suf = true.
Proof.
  induction suf as [|e r IH]; intros i F F' H Hn Hh; cbn [t_replay existsb] in *.
  - inversion H; subst. congruence.
  - destruct (creates e q) eqn:Ec; [reflexivity|]. cbn [orb].
    destruct (t_apply F i e) as [F1|] eqn:E1; [|discriminate].
    eapply IH; [exact H| |exact Hh].
    destruct (t_apply_get _ _ _ _ q E1) as [(<- & H1)|(_ & ->)]; [|exact Hn].
    rewrite Hn in H1. eapply q_apply_none_stays; [exact H1|exact Ec].
Qed.

(* if the full replay ends with q, and the suffix creates q (or started with it), the suffix
   replay ends with q as well *)
Lemma has_after q : forall suf i F S F' S',
  t_replay F i suf = Some F' -> t_replay S i suf = Some S' ->
  t_get F' q <> None ->
  existsb (fun e => creates e q) suf = true \/ t_get S q <> None ->
  t_get S' q <> None.
Proof.
  induction suf as [|e r IH]; intros i F S F' S' HF HS Hh Hc; cbn [t_replay existsb] in *.
  - inversion HS; subst. destruct Hc as [Hc|Hc]; [discriminate|exact Hc].
  - destruct (t_apply F i e) as [F1|] eqn:EF; [|discriminate].
    destruct (t_apply S i e) as [S1|] eqn:ES; [|discriminate].
    eapply IH; [exact HF|exact HS|exact Hh|].
    destruct (t_apply_get _ _ _ _ q ES) as [(<- & HS1)|(Hne & ->)].
    + destruct (t_apply_some _ _ _ _ EF) as (HF1 & _).
      pose proof (q_apply_present _ _ _ _ HF1) as HpF.
      pose proof (q_apply_present _ _ _ _ HS1) as HpS.
      destruct (creates e (entry_queue e)); [right; exact HpS|]. cbn [orb] in Hc.
      destruct Hc as [Hc|Hc]; [now left|].
      destruct (is_delete e).
      * (* deleted here, yet there at the end of the full replay: created again later *)
        left. eapply created_in; [exact HF|exact HpF|exact Hh].
      * right. intros HN. apply Hc, HpS, HN.
    + destruct (creates e q) eqn:Ec; [apply creates_queue in Ec; contradiction|exact Hc].
Qed.

Section Covered.
Variables (pre suf : list entry) (F S : tmap).
Hypothesis Hlegal : legal_log [] 0 (pre ++ suf).
Hypothesis HF : t_replay [] 0 (pre ++ suf) = Some F.
Hypothesis HS : t_replay [] (length pre) suf = Some S.
(* every retained record was appended by the suffix; every empty queue is mentioned in it *)
Hypothesis Hcov : forall q rf n, t_get F q = Some (rf, n) ->
  Forall (fun r => (length pre <= fst r)%nat) rf /\
  (rf = [] -> existsb (fun e => creates e q) suf = true).

Theorem covered_suffix_equal_tagged : forall q, t_get S q = t_get F q.
Proof.
  intros q. pose proof (suffix_simulation_strong pre suf F Hlegal HF S HS q) as Hsim.
  destruct (t_get F q) as [[rf n]|] eqn:EF.
  - destruct (Hcov q rf n EF) as (Hall & Hnil).
    assert (Hfil : filter (from_suffix (length pre)) rf = rf).
    { apply filter_all_true. intros x Hx. rewrite Forall_forall in Hall.
      unfold from_suffix. apply Nat.leb_le. apply Hall. exact Hx. }
    assert (Hhas : t_get S q <> None).
    { destruct rf as [|r0 rf'].
      - pose proof HF as HF0. rewrite t_replay_app in HF0.
        destruct (t_replay [] 0 pre) as [F0|]; [|discriminate]. cbn [Nat.add] in HF0.
        eapply (has_after q suf (length pre) F0 [] F S HF0 HS); [congruence|].
        left. now apply Hnil.
      - intros HN. rewrite HN in Hsim. cbn [sim_q] in Hsim.
        specialize (Hsim _ _ eq_refl). rewrite Hfil in Hsim. discriminate. }
    destruct (t_get S q) as [[rs ns]|]; [|congruence]. cbn [sim_q] in Hsim.
    destruct Hsim as (rf' & E & ->). inversion E; subst rf' ns. now rewrite Hfil.
  - destruct (t_get S q) as [[rs ns]|]; [|reflexivity]. cbn [sim_q] in Hsim.
    destruct Hsim as (rf' & E & _). discriminate.
Qed.

Theorem covered_suffix_equal : forall q, s_get (untag S) q = s_get (untag F) q.
Proof. intros q. now rewrite !untag_get, covered_suffix_equal_tagged. Qed.
End Covered.

(* replaying the whole log with `apply_entry` and replaying only the suffix (possibly read
   from other files) give the same observable queues *)
Theorem model_covered_suffix_equal (fpre fsuf fsuf' : list (N * entry)) F :
  let pre := map snd fpre in
  let suf := map snd fsuf in
  map snd fsuf' = suf ->
  legal_log [] 0 (pre ++ suf) ->
  t_replay [] 0 (pre ++ suf) = Some F ->
  (forall q rf n, t_get F q = Some (rf, n) ->
     Forall (fun r => (length pre <= fst r)%nat) rf /\
     (rf = [] -> existsb (fun e => creates e q) suf = true)) ->
  exists qF qS,
    apply_entries [] (fpre ++ fsuf) = Some qF /\ apply_entries [] fsuf' = Some qS /\
    qs_inv qF /\ qs_inv qS /\ abs_qs qF = untag F /\
    forall q, s_get (abs_qs qS) q = s_get (abs_qs qF) q.
Proof.
  intros pre suf Hsuf Hl HF Hcov.
  destruct (suffix_replay_some pre suf Hl) as (S & HS).
  pose proof (apply_entries_refines (fpre ++ fsuf) [] 0 [] qs_inv_nil eq_refl) as H1.
  rewrite map_app in H1. fold pre suf in H1. rewrite HF in H1.
  destruct (apply_entries [] (fpre ++ fsuf)) as [qF|]; [|discriminate].
  destruct H1 as (tmF & EF & HuF & HiF). inversion EF; subst tmF.
  pose proof (apply_entries_refines fsuf' [] (length pre) [] qs_inv_nil eq_refl) as H2.
  rewrite Hsuf, HS in H2.
  destruct (apply_entries [] fsuf') as [qS|]; [|discriminate].
  destruct H2 as (tmS & ES & HuS & HiS). inversion ES; subst tmS.
  exists qF, qS. split; [reflexivity|]. split; [reflexivity|]. split; [exact HiF|].
  split; [exact HiS|]. split; [now symmetry|].
  intros q. rewrite <- HuS, <- HuF.
  apply (covered_suffix_equal pre suf F S Hl HF HS Hcov).
Qed.

(* a concrete instance (the hypotheses are satisfiable) *)

Definition qa : bytes := [x61].
Definition qb : bytes := [x62].
Definition ex_pre : list entry := [EPosition qa 0; EPosition qb 0; EAppend qb 0 (number_from 0 [[x09]])].
Definition ex_suf : list entry :=
  [EAppend qa 0 (number_from 0 [[x01]; [x02]]); ETruncate qa 0; EDelete qb 1;
   EAppend qa 5 (number_from 5 [[x03]]); EPosition qb 0].

Ltac legal_step :=
  apply ll_cons;
  [ first
      [ left; split; reflexivity
      | right; eexists; split; reflexivity
      | do 2 eexists; split; [reflexivity|]; split; [lia|]; split; [discriminate|];
        eexists; reflexivity
      | vm_compute; discriminate ]
  | let m' := fresh "m" in let H := fresh "H" in
    intros m' H; vm_compute in H; inversion H; subst m'; clear H ].

Example ex_legal : legal_log [] 0 (ex_pre ++ ex_suf).
Proof. unfold ex_pre, ex_suf. cbn [app]. repeat legal_step. apply ll_nil. Qed.

Example ex_equal :
  exists qF qS,
    apply_entries [] (map (pair 1) ex_pre ++ map (pair 2) ex_suf) = Some qF /\
    apply_entries [] (map (pair 7) ex_suf) = Some qS /\
    forall q, s_get (abs_qs qS) q = s_get (abs_qs qF) q.
Proof.
  assert (HF : exists F, t_replay [] 0 (ex_pre ++ ex_suf) = Some F) by (eexists; vm_compute; reflexivity).
  destruct HF as (F & HF).
  destruct (model_covered_suffix_equal (map (pair 1) ex_pre) (map (pair 2) ex_suf)
              (map (pair 7) ex_suf) F) as (qF & qS & H1 & H2 & _ & _ & _ & H3).
  - reflexivity.
  - exact ex_legal.
  - exact HF.
  - vm_compute in HF. inversion HF; subst F. clear HF. intros q rf n H.
    cbn [t_get] in H. destruct (bytes_eqb [x61] q) eqn:Ea.
    + apply bytes_eqb_eq in Ea. subst q. inversion H; subst. split.
      * repeat constructor.
      * discriminate.
    + destruct (bytes_eqb [x62] q) eqn:Eb; [|discriminate].
      apply bytes_eqb_eq in Eb. subst q. inversion H; subst. split; [constructor|].
      intros _. reflexivity.
  - exists qF, qS. auto.
Qed.

Print Assumptions apply_entry_refines.
Print Assumptions apply_entries_refines.
Print Assumptions legal_log_replay_some.
Print Assumptions suffix_replay_some.
Print Assumptions suffix_simulation_strong.
Print Assumptions suffix_simulation.
Print Assumptions suffix_simulation_list_suffix.
Print Assumptions covered_suffix_equal_tagged.
Print Assumptions covered_suffix_equal.
Print Assumptions model_covered_suffix_equal.
Print Assumptions ex_equal.
