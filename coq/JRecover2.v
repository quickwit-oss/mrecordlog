(* JRecover2.v — the room that the recovery of a crash image needs for the position entries of
   its own GC, for a call issued from a state satisfying the junk-tolerant invariant: in terms of
   the ghost (crash_boundJ) and of the state alone (crash_phys_bound_ghostJ). *)
From Coq Require Import Lia ZArith ZifyN ZifyNat ZifyBool List Sorted.
From MRL Require Import Bytes BytesProofs Params Names NamesProofs Frame Record Mem Spec Rolling Log
  Driver Hist NoopProofs SpecRefine RecordProofs StreamProofs PolicyProofs GcProofs GhostLog ReplaySpec
  HandleProofs FileStream ResyncProofs QueueIso RestartInv RestartWrite RestartGc RestartStep
  OpenReplay RestartFinal TornProofs TornFile CrashTrace CrashAtomic
  JInv JGc JStep JunkStream JReopen JRecoverL JRecoverP JRecoverL2
  JCrashShape.

Section Recover2.
Variable P : params.
Hypothesis HBS_lo : 7 < BS P.
Hypothesis HBS_hi : BS P <= 65542.
Hypothesis HNB : 1 <= NB P.
Hypothesis Hcrc : forall t p, crcf P t p < 2 ^ 32.
Hypothesis HGC : L_GC P = false.
Hypothesis HIO : L_IO P = false.
Hypothesis HSHORT : L_SHORT P = false.
Hypothesis Hnc : no_zero_collision P.

Local Notation B := (BS P).
Local Notation FB := (FILE_BYTES P).
Local Notation ffp := (first_frame_pos P).
Local Notation enc_of := (enc_of P).
Local Notation encs_of := (encs_of P).
Local Notation cursor_after := (cursor_after P).
Local Notation starts := (starts P).
Local Notation ser := (map entry_ser).
Local Notation H3 f := (f P HBS_lo HBS_hi Hcrc) (only parsing).
Local Notation H2 f := (f P HBS_lo HBS_hi) (only parsing).
Local Notation HW f := (f P HBS_lo HBS_hi HNB Hcrc) (only parsing).
Local Notation HN f := (f P HBS_lo HBS_hi HNB) (only parsing).
Local Notation HG f := (f P HBS_lo HBS_hi HNB Hcrc HGC) (only parsing).

(* the prefix of the state before the call *)
Variable PRE0 : bytes.
Variable OLD0 : list entry.
Variable opos0 : list (N * N).
Variable adm0 : N -> Prop.
Variable cmax0 : nat.
Variable rm0 : N.
Hypothesis Hpre0 : pre_ok PRE0 OLD0 opos0.
Hypothesis Hpc0 : pre_cont P PRE0 (ser OLD0) opos0 adm0 cmax0 rm0.
Hypothesis Hrm0 : rm0 <= 7.
Hypothesis Hadm0 : forall m, adm0 (m * NB P).

Local Notation InvJ0 := (InvJ P PRE0 OLD0 opos0).
Local Notation PInvJ0 := (PInvJ P PRE0 OLD0 opos0).
Local Notation jT0 := (jT P PRE0 OLD0).
Local Notation jpos0 := (jpos P PRE0 OLD0 opos0).
Local Notation jNEW0 := (jNEW OLD0).
Local Notation jser0 := (jser OLD0).

(* room for the position entries of the recovery-time GC (as CrashAtomic.crash_bound) *)
Definition crash_boundJ (G : ghost) (X : list entry) (m : smap) : Prop :=
  forall c extra, pos_extra m extra ->
    lenN (jT0 G) <= c -> c <= cursor_after (lenN PRE0) (ser (jNEW0 G ++ X)) + B ->
    FB * gh_base G + cursor_after c (ser extra) <= FB * (U64_MAX + 1).

Lemma crash_boundJ_ext G X m1 m2 :
  (forall q, s_get m2 q = s_get m1 q) -> crash_boundJ G X m1 -> crash_boundJ G X m2.
Proof.
  clear Hpre0 Hpc0 Hrm0 Hadm0 HGC HIO HSHORT Hnc. clear adm0 cmax0 rm0.
  intros He Hb c extra Hx. apply Hb. apply (pos_extra_ext m2); [intros q; now rewrite He|exact Hx].
Qed.

Lemma pinvJ_E_positions w G :
  PInvJ0 w G ->
  Forall (fun s => (wlo w - gh_base G) * FB <= snd s) (skipn (gh_k G) (jpos0 G)).
Proof.
  intros (_ & _ & _ & _ & _ & _ & _ & _ & _ & _ & HD2 & _). cbn zeta in HD2.
  clear - HD2. induction HD2 as [|x y l1 l2 [Hxy _] _ IH]; constructor; assumption.
Qed.

Lemma crash_boundJ_stream_boundJ G X m : crash_boundJ G X m -> stream_boundJ P PRE0 OLD0 G X.
Proof.
  clear Hpre0 Hpc0 Hrm0 Hadm0 HGC HIO HSHORT Hnc. clear adm0 cmax0 rm0.
  intros Hb. unfold JInv.stream_boundJ.
  pose proof (Hb (cursor_after (lenN PRE0) (ser (jNEW0 G ++ X))) [] (pos_extra_nil m)) as H.
  cbn [map] in H. rewrite (H2 cursor_after_nil) in H. apply H; [|lia].
  rewrite map_app, (H3 cursor_after_app). fold (jser0 G).
  rewrite <- (jT_len P PRE0 OLD0 G). apply (H3 cursor_after_ge).
Qed.

Lemma crash_phys_bound_ghostJ w G X m :
  PInvJ0 w G -> crash_phys_bound P w X m -> crash_boundJ G X m.
Proof.
  clear Hpre0 Hpc0 Hrm0 Hadm0 HGC HIO HSHORT Hnc. clear adm0 cmax0 rm0.
  intros (Hw & _ & _ & Hbase & Hc1 & Hc2 & _) Hb c extra Hx Hlo Hhi. cbn zeta in *.
  pose proof Hw as (Hok & _). destruct (wr_ok_len P (HN HB0) HNB w Hok) as (Hn & Hn1).
  set (c0 := (wlo w - gh_base G) * FB + wpos P w) in *.
  assert (Eabs : wabs P w = gh_base G * FB + c0).
  { unfold wabs, c0, wpos.
    replace (w_file w) with (gh_base G + ((wlo w - gh_base G) + (lenN (w_files w) - 1))) by lia.
    lia. }
  assert (Hsh : forall x es, cursor_after (gh_base G * FB + x) es = gh_base G * FB + cursor_after x es).
  { intros x es. apply (cursor_after_shift P HBS_lo HBS_hi HNB Hcrc). apply (HN mulFB_mod). }
  specialize (Hb (gh_base G * FB + c) extra Hx). rewrite Hsh, Eabs, Hsh in Hb.
  pose proof (ffp_lt7 P HBS_lo HBS_hi HNB (lenN (jT0 G))) as H7.
  assert (HT' : cursor_after (lenN PRE0) (ser (jNEW0 G ++ X)) <= cursor_after c0 (ser X)).
  { rewrite map_app, (H3 cursor_after_app). fold (jser0 G). rewrite <- (jT_len P PRE0 OLD0 G).
    apply (cursor_after_between P HBS_lo HBS_hi HNB Hcrc); assumption. }
  lia.
Qed.

End Recover2.

Print Assumptions crash_phys_bound_ghostJ.
