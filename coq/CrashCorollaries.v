(* CrashCorollaries.v — the crash halves of C04 (positions never regress) and C18 (queue isolation),
   and C12 (a batch append is all-or-nothing), as corollaries of the end-to-end crash theorems
   (CrashAtomic.C02_history, PersistSurvive.C03_process_crash / C03_persisted_survives) and of the
   end-to-end damage theorem (DamageAtomic.C09_damage_tagged).  Each is first a fact on the
   specification alone (next_monotone_prefix, batch_all_or_nothing_spec, s_run_projection), then
   read on the state that recovery returns. *)
From Coq Require Import Lia ZArith ZifyN ZifyNat ZifyBool List Sorted.
From MRL Require Import Bytes BytesProofs Params Names NamesProofs Frame Record Mem Spec Rolling Log
  Driver Hist NoopProofs WriterProofs SpecRefine GhostLog ReplaySpec DeletionSim QueueIso
  RestartInv RestartWrite RestartGc RestartStep OpenReplay RestartFinal RestartCorollaries
  RecordProofs StreamProofs PolicyProofs GcProofs HandleProofs FileStream ResyncProofs
  TornProofs CrashTrace CrashAtomic PersistLogic PersistRecover PersistSurvive
  DamageProofs DamageFile DamageAtomic.
Import ListNotations.


Lemma never_deleted_app q h1 h2 m :
  never_deleted q (h1 ++ h2) (snd (s_run m (h1 ++ h2))) <->
  never_deleted q h1 (snd (s_run m h1)) /\
  never_deleted q h2 (snd (s_run (fst (s_run m h1)) h2)).
Proof.
  rewrite s_run_app. cbn [snd]. unfold never_deleted.
  rewrite BytesProofs.combine_app by (now rewrite s_run_length).
  rewrite forallb_app, andb_true_iff. tauto.
Qed.

Lemma s_run_fst_app m h1 h2 : fst (s_run m (h1 ++ h2)) = fst (s_run (fst (s_run m h1)) h2).
Proof. now rewrite s_run_app. Qed.


(* between any two points i <= j of a run in which no call successfully deletes q, the next
   position of q does not decrease, and q stays there if it was there *)
Theorem next_monotone_prefix h m q i j :
  never_deleted q h (snd (s_run m h)) -> (i <= j)%nat ->
  next_or0 (s_get (fst (s_run m (firstn i h))) q) <= next_or0 (s_get (fst (s_run m (firstn j h))) q) /\
  (s_get (fst (s_run m (firstn i h))) q <> None -> s_get (fst (s_run m (firstn j h))) q <> None).
Proof.
  intros Hnd Hij.
  rewrite <- (firstn_skipn j h) in Hnd. apply never_deleted_app in Hnd as (Hnd & _).
  assert (E : firstn j h = firstn i h ++ firstn (j - i) (skipn i h)).
  { rewrite <- (firstn_skipn i h) at 1. rewrite firstn_app, firstn_firstn, firstn_length.
    replace (Nat.min j i) with i by lia.
    destruct (Nat.le_gt_cases i (length h)) as [Hl|Hl].
    - replace (Nat.min i (length h)) with i by lia. reflexivity.
    - rewrite !(skipn_all2 h) by lia. rewrite !firstn_nil. reflexivity. }
  rewrite E in Hnd |- *. apply never_deleted_app in Hnd as (_ & Hnd).
  rewrite s_run_fst_app.
  destruct (s_run_next_monotone _ _ q Hnd) as (H1 & H2).
  split; [eapply incr_between_le; exact H2|exact H1].
Qed.


(* the positions b <= . < e *)
Definition in_span (b e : N) (r : N * bytes) : bool := (b <=? fst r) && (fst r <? e).

(* a successful, effective append of payloads pl: the batch receives the consecutive positions
   b .. b + |pl| - 1 = last, at or above the previous next position *)
Theorem s_append_batch m q pos pl last :
  snd (s_step m (SAppend q pos pl)) = SAppended (Some last) ->
  exists recs next b,
    s_get m q = Some (recs, next) /\ next <= b /\ pl <> [] /\ b + lenN pl = last + 1 /\
    (pos = Some b \/ pos = None /\ b = next) /\
    s_get (fst (s_step m (SAppend q pos pl))) q = Some (recs ++ s_number b pl, b + lenN pl).
Proof.
  destruct (s_step_q_step m (SAppend q pos pl) q eq_refl) as (A & B). rewrite A, B. clear A B.
  destruct (s_get m q) as [[recs next]|]; [|discriminate]. cbn [q_step].
  assert (Hl : forall a r, 1 <= lenN (a :: r : list bytes)) by (intros; rewrite lenN_cons; lia).
  destruct pos as [p|].
  - destruct (N.eqb_spec (p + 1) next); [discriminate|].
    destruct (N.ltb_spec p next); [discriminate|].
    destruct pl as [|a r]; [discriminate|]. cbn [fst snd]. intros E. injection E as E.
    pose proof (Hl a r). exists recs, next, p. repeat split; try lia; try discriminate; auto.
  - destruct pl as [|a r]; [discriminate|]. cbn [fst snd]. intros E. injection E as E.
    pose proof (Hl a r). exists recs, next, next. repeat split; try lia; try discriminate; auto.
Qed.

(* what is left of the batch s_number b pl in the content v of q: q is there, its next position is
   past the batch, and the records of v with a position of the batch are the records of the batch
   at or above some position t, i.e. (filter_ge_suffix below) a SUFFIX of the batch *)
Definition batch_inv (b : N) (pl : list bytes) (v : option squeue) : Prop :=
  exists recs next t,
    v = Some (recs, next) /\ b + lenN pl <= next /\
    filter (in_span b (b + lenN pl)) recs = filter (fun r => t <=? fst r) (s_number b pl).

Lemma filter_span_number b e p l : e <= p -> filter (in_span b e) (s_number p l) = [].
Proof.
  intros H. apply filter_all_false. intros x Hx. apply s_number_pos in Hx. unfold in_span.
  apply andb_false_iff. right. lia.
Qed.

Lemma filter_ge_ge {A} (f : A -> N) a b l :
  filter (fun r => a <=? f r) (filter (fun r => b <=? f r) l) = filter (fun r => N.max a b <=? f r) l.
Proof.
  rewrite <- filter_andb. apply filter_ext. intros r.
  destruct (N.leb_spec b (f r)), (N.leb_spec a (f r)), (N.leb_spec (N.max a b) (f r));
    cbn [andb]; try reflexivity; lia.
Qed.

Lemma q_step_batch b pl v o v' out :
  q_step v o = (v', out) -> (forall q', o = SDelete q' -> out <> SOk) ->
  batch_inv b pl v -> batch_inv b pl v'.
Proof.
  intros E Hnd (recs & next & t & -> & Hn & Hf).
  assert (Hid : forall out0, (Some (recs, next), out0) = (v', out) -> batch_inv b pl v').
  { intros out0 E0. injection E0 as <- _. exists recs, next, t. auto. }
  assert (Happ : forall p l out0, next <= p ->
            (Some (recs ++ s_number p l, p + lenN l), out0) = (v', out) -> batch_inv b pl v').
  { intros p l out0 Hp E0. injection E0 as <- _. exists (recs ++ s_number p l), (p + lenN l), t.
    split; [reflexivity|]. split; [lia|].
    rewrite filter_app, (filter_span_number _ _ p l) by lia. now rewrite app_nil_r. }
  destruct o as [q|q|q pos l|q p|]; cbn [q_step] in E.
  - exact (Hid _ E).
  - injection E as <- <-. exfalso. exact (Hnd q eq_refl eq_refl).
  - destruct pos as [p|].
    + destruct (N.eqb_spec (p + 1) next); [exact (Hid _ E)|].
      destruct (N.ltb_spec p next); [exact (Hid _ E)|].
      destruct l as [|a l]; [exact (Hid _ E)|]. exact (Happ p _ _ ltac:(lia) E).
    + destruct l as [|a l]; [exact (Hid _ E)|]. exact (Happ next _ _ ltac:(lia) E).
  - cbn zeta in E. injection E as <- _.
    eexists _, _, (N.max (p + 1) t). split; [reflexivity|]. split.
    + destruct (isnil _ && (next <=? p + 1)) eqn:C; [|exact Hn].
      apply andb_true_iff in C as (_ & C). lia.
    + rewrite (filter_ext (fun r => p <? fst r) (fun r => p + 1 <=? fst r)).
      2:{ intros r. destruct (N.ltb_spec p (fst r)), (N.leb_spec (p + 1) (fst r)); try reflexivity; lia. }
      rewrite filter_comm, Hf. apply (filter_ge_ge fst).
  - exact (Hid _ E).
Qed.

Lemma s_step_batch b pl m o q :
  s_deleted q o (snd (s_step m o)) = false ->
  batch_inv b pl (s_get m q) -> batch_inv b pl (s_get (fst (s_step m o)) q).
Proof.
  intros Hd Hb. destruct (addressed q o) eqn:Ea.
  - apply addressed_true in Ea. destruct (s_step_q_step m o q Ea) as (A & B).
    rewrite A. rewrite B in Hd.
    destruct (q_step (s_get m q) o) as [v' out] eqn:E. cbn [fst snd] in *.
    apply (q_step_batch b pl _ _ _ _ E); [|exact Hb].
    intros q' -> ->. cbn [sop_queue] in Ea. injection Ea as ->.
    cbn [s_deleted] in Hd. rewrite bytes_eqb_refl in Hd. discriminate Hd.
  - apply addressed_false in Ea. now rewrite (s_step_other _ _ _ Ea).
Qed.

Lemma s_run_batch b pl q : forall h m,
  never_deleted q h (snd (s_run m h)) ->
  batch_inv b pl (s_get m q) -> batch_inv b pl (s_get (fst (s_run m h)) q).
Proof.
  induction h as [|o h IH]; intros m Hnd Hb; [exact Hb|].
  rewrite s_run_cons in *. cbn [fst snd] in *. apply never_deleted_cons in Hnd as (Hd & Hnd).
  apply IH; [exact Hnd|]. now apply s_step_batch.
Qed.

(* the records at or above a position form a suffix of consecutively numbered records *)
Lemma filter_ge_suffix t : forall l b,
  exists j, filter (fun r : N * bytes => t <=? fst r) (s_number b l) = skipn j (s_number b l).
Proof.
  induction l as [|x l IH]; intros b; [exists 0%nat; reflexivity|].
  cbn [s_number filter fst]. destruct (N.leb_spec t b) as [Hle|Hgt].
  - exists 0%nat. cbn [skipn]. f_equal. apply filter_all_true. intros y Hy.
    apply s_number_pos in Hy. lia.
  - destruct (IH (b + 1)) as (j & Ej). exists (S j). cbn [skipn]. exact Ej.
Qed.

(* Right after the append the whole batch is there; in every later state of
   the same incarnation of q (no successful delete of q since the append), q is there, its next
   position is past the batch, and what q holds of the batch is a suffix of the batch (the batch
   minus a leading part removed by truncation): never a hole, never a missing tail. *)
Theorem batch_later m q pos pl last h2 :
  s_inv m ->
  snd (s_step m (SAppend q pos pl)) = SAppended (Some last) ->
  let b := last + 1 - lenN pl in
  let m2 := fst (s_step m (SAppend q pos pl)) in
  forall k, never_deleted q (firstn k h2) (snd (s_run m2 (firstn k h2))) ->
    exists recs next,
      s_get (fst (s_run m2 (firstn k h2))) q = Some (recs, next) /\ last < next /\
      (exists t, filter (in_span b (last + 1)) recs = filter (fun r => t <=? fst r) (s_number b pl)) /\
      (exists j, filter (in_span b (last + 1)) recs = skipn j (s_number b pl)).
Proof.
  intros Hi Hs b m2 k Hnd.
  destruct (s_append_batch m q pos pl last Hs) as (recs0 & next0 & b0 & Hg & Hb0 & Hpl & Hl & _ & Hg2).
  assert (Eb : b = b0) by (unfold b; lia). rewrite <- Eb in *. clear Eb b0. fold m2 in Hg2.
  assert (H0 : batch_inv b pl (s_get m2 q)).
  { rewrite Hg2. exists (recs0 ++ s_number b pl), (b + lenN pl), 0. split; [reflexivity|].
    split; [lia|]. rewrite filter_app.
    rewrite (filter_all_false _ recs0), (filter_all_true _ (s_number b pl)).
    - cbn [app]. symmetry. apply filter_all_true. intros x _. apply N.leb_le. lia.
    - intros x Hx. apply s_number_pos in Hx. unfold in_span. apply andb_true_iff. split; lia.
    - intros x Hx. pose proof (Hi _ _ Hg x Hx) as Hlt. cbn [fst snd] in Hlt. unfold in_span.
      apply andb_false_iff. left. lia. }
  destruct (s_run_batch b pl q _ _ Hnd H0) as (recs & next & t & Eg & Hn & Hf).
  replace (last + 1) with (b + lenN pl) by lia.
  exists recs, next. split; [exact Eg|]. split; [lia|]. split; [exists t; exact Hf|].
  destruct (filter_ge_suffix t pl b) as (j & Ej). exists j. now rewrite Hf.
Qed.

(* In every earlier state from which q is not deleted until the append,
   the next position of q is at most the first position of the batch, and q holds no record with
   a position of the batch (every retained position is below the next position). *)
Theorem batch_earlier m0 h1 q pos pl last :
  s_inv m0 ->
  snd (s_step (fst (s_run m0 h1)) (SAppend q pos pl)) = SAppended (Some last) ->
  let b := last + 1 - lenN pl in
  forall k, never_deleted q (skipn k h1) (snd (s_run (fst (s_run m0 (firstn k h1))) (skipn k h1))) ->
    forall recs next, s_get (fst (s_run m0 (firstn k h1))) q = Some (recs, next) ->
      next <= b /\ (forall x, In x recs -> fst x < b) /\ filter (in_span b (last + 1)) recs = [].
Proof.
  intros Hi Hs b k Hnd recs next Hg.
  destruct (s_append_batch _ q pos pl last Hs) as (recs1 & next1 & b0 & Hg1 & Hb0 & _ & Hl & _).
  assert (Eb : b = b0) by (unfold b; lia). rewrite <- Eb in *. clear Eb b0.
  rewrite <- (firstn_skipn k h1), s_run_fst_app in Hg1.
  destruct (s_run_next_monotone _ _ q Hnd) as (_ & Hm). apply incr_between_le in Hm.
  rewrite Hg, Hg1 in Hm. cbn [next_or0] in Hm.
  assert (Hlt : forall x, In x recs -> fst x < next).
  { intros x Hx. exact (s_run_inv (firstn k h1) m0 Hi _ _ Hg x Hx). }
  split; [lia|]. split; [intros x Hx; specialize (Hlt x Hx); lia|].
  apply filter_all_false. intros x Hx. specialize (Hlt x Hx). unfold in_span.
  apply andb_false_iff. left. lia.
Qed.

(* over a history split h1 ++ [SAppend q pos pl] ++ h2, for every prefix of the run: *)
Theorem batch_all_or_nothing_spec m0 h1 q pos pl h2 last :
  s_inv m0 ->
  let m1 := fst (s_run m0 h1) in
  snd (s_step m1 (SAppend q pos pl)) = SAppended (Some last) ->
  let b := last + 1 - lenN pl in
  let m2 := fst (s_step m1 (SAppend q pos pl)) in
  let h := h1 ++ SAppend q pos pl :: h2 in
  forall k, (k <= length h)%nat ->
    let mk := fst (s_run m0 (firstn k h)) in
    (* before the append *)
    ((k <= length h1)%nat /\
     (never_deleted q (skipn k h1) (snd (s_run mk (skipn k h1))) ->
      forall recs next, s_get mk q = Some (recs, next) ->
        next <= b /\ filter (in_span b (last + 1)) recs = [])) \/
    (* after the append *)
    ((length h1 < k)%nat /\
     let k2 := (k - S (length h1))%nat in
     mk = fst (s_run m2 (firstn k2 h2)) /\
     (never_deleted q (firstn k2 h2) (snd (s_run m2 (firstn k2 h2))) ->
      exists recs next j,
        s_get mk q = Some (recs, next) /\ last < next /\
        filter (in_span b (last + 1)) recs = skipn j (s_number b pl))).
Proof.
  intros Hi m1 Hs b m2 h k Hk mk.
  destruct (Nat.le_gt_cases k (length h1)) as [Hle|Hgt]; [left|right]; (split; [exact Hle || exact Hgt|]).
  - assert (E : firstn k h = firstn k h1).
    { unfold h. rewrite firstn_app. replace (k - length h1)%nat with 0%nat by lia.
      cbn [firstn]. apply app_nil_r. }
    unfold mk. rewrite E. intros Hnd recs next Hg.
    destruct (batch_earlier m0 h1 q pos pl last Hi Hs k Hnd recs next Hg) as (H1 & _ & H3). auto.
  - cbn zeta. set (k2 := (k - S (length h1))%nat).
    assert (E : firstn k h = h1 ++ SAppend q pos pl :: firstn k2 h2).
    { unfold h. rewrite firstn_app, firstn_all2 by lia.
      replace (k - length h1)%nat with (S k2) by (unfold k2; lia). reflexivity. }
    assert (Emk : mk = fst (s_run m2 (firstn k2 h2))).
    { unfold mk. rewrite E, s_run_fst_app. fold m1. rewrite s_run_cons. reflexivity. }
    split; [exact Emk|]. intros Hnd.
    destruct (batch_later m1 q pos pl last h2 (s_run_inv h1 m0 Hi) Hs k2 Hnd)
      as (recs & next & Hg & Hn & _ & (j & Hj)).
    exists recs, next, j. rewrite Emk. auto.
Qed.

Print Assumptions next_monotone_prefix.
Print Assumptions s_append_batch.
Print Assumptions batch_later.
Print Assumptions batch_earlier.
Print Assumptions batch_all_or_nothing_spec.

(* non-vacuity, by computation: queue a holds positions 0,1; a batch of three gets 2,3,4
   (last = 4); a later truncate(a, ..=2) and one more append: what is left of the batch is its
   suffix [3;4] — and batch_later says so *)
Module ExampleBatch.
Definition qa : bytes := ["a"%byte].
Definition pay (c : byte) : bytes := [c; c].
Definition h1 : list sop := [SCreate qa; SAppend qa None [pay "x"%byte; pay "y"%byte]].
Definition pl : list bytes := [pay "a"%byte; pay "b"%byte; pay "c"%byte].
Definition h2 : list sop := [STruncate qa 2; SAppend qa None [pay "z"%byte]].
Definition m1 : smap := fst (s_run [] h1).

Example batch_ex_computed :
  snd (s_step m1 (SAppend qa None pl)) = SAppended (Some 4) /\
  never_deleted qa h2 (snd (s_run (fst (s_step m1 (SAppend qa None pl))) h2)) /\
  match s_get (fst (s_run [] (h1 ++ SAppend qa None pl :: h2))) qa with
  | Some (recs, next) =>
      next = 6 /\ filter (in_span 2 5) recs = skipn 1 (s_number 2 pl) /\ map fst recs = [3; 4; 5]
  | None => False
  end.
Proof. vm_compute. repeat split; reflexivity. Qed.

Example batch_ex_theorem :
  exists recs next,
    s_get (fst (s_run (fst (s_step m1 (SAppend qa None pl))) (firstn 2 h2))) qa = Some (recs, next) /\
    4 < next /\
    (exists t, filter (in_span 2 5) recs = filter (fun r => t <=? fst r) (s_number 2 pl)) /\
    (exists j, filter (in_span 2 5) recs = skipn j (s_number 2 pl)).
Proof.
  exact (batch_later m1 qa None pl 4 h2 (s_run_inv h1 [] s_inv_nil) (proj1 batch_ex_computed) 2%nat
           (proj1 (proj2 batch_ex_computed))).
Qed.
End ExampleBatch.

(* the specification calls of a history *)
Definition sops (h : list (op * bool)) : list sop := map (fun ot => sop_of (fst ot)) h.

Lemma sops_app a b : sops (a ++ b) = sops a ++ sops b.
Proof. apply map_app. Qed.

Lemma sops_firstn m h : firstn m (sops h) = sops (firstn m h).
Proof. apply firstn_map. Qed.

(* the reads of a state of the log against a state of the specification *)
Lemma reads_of_spec st m q :
  qs_inv (s_qs st) -> s_get (abs_qs (s_qs st)) q = s_get m q ->
  (forall lo hi, log_range st q lo hi = s_range m q lo hi) /\
  log_last_position st q = s_last_position m q /\
  log_last_record st q = s_last_record m q /\
  log_next st q = next_or0 (s_get m q).
Proof.
  intros Hi Hg. repeat split; intros.
  - rewrite log_range_refines by assumption. unfold s_range. now rewrite Hg.
  - rewrite log_last_position_refines. unfold s_last_position. now rewrite Hg.
  - rewrite log_last_record_refines by assumption. unfold s_last_record. now rewrite Hg.
  - now rewrite <- log_next_abs, Hg.
Qed.

(* what a queue holds is what the specification gives it when it runs only the calls addressed
   to it, from any map that agrees with the starting one on that queue *)
Lemma reads_of_projection st m m0 cs q :
  qs_inv (s_qs st) -> s_get m0 q = s_get m q ->
  s_get (abs_qs (s_qs st)) q = s_get (fst (s_run m cs)) q ->
  let mq := fst (s_run m0 (filter (addressed q) cs)) in
  s_get (abs_qs (s_qs st)) q = s_get mq q /\
  (forall lo hi, log_range st q lo hi = s_range mq q lo hi) /\
  log_last_position st q = s_last_position mq q /\
  log_last_record st q = s_last_record mq q /\
  log_next st q = next_or0 (s_get mq q).
Proof.
  intros Hi H0 Hs mq.
  assert (Hg : s_get (abs_qs (s_qs st)) q = s_get mq q).
  { rewrite Hs. exact (proj1 (s_run_projection cs m m0 q (eq_sym H0))). }
  split; [exact Hg|]. exact (reads_of_spec st mq q Hi Hg).
Qed.

(* two states of the log with the same content of q *)
Lemma reads_of_abs st s q :
  s_get (abs_qs (s_qs st)) q = s_get (abs_qs (s_qs s)) q ->
  log_next st q = log_next s q /\ log_last_position st q = log_last_position s q /\
  (qs_get (s_qs s) q <> None -> qs_get (s_qs st) q <> None).
Proof.
  intros E. split; [now rewrite <- !log_next_abs, E|].
  split; [rewrite !log_last_position_refines; unfold s_last_position; now rewrite E|].
  rewrite !abs_get in E. intros Hs.
  destruct (qs_get (s_qs s) q); [|now destruct Hs]. destruct (qs_get (s_qs st) q); discriminate.
Qed.

Lemma s_run_nth_out m h1 o h2 :
  nth_error (snd (s_run m (h1 ++ o :: h2))) (length h1) = Some (snd (s_step (fst (s_run m h1)) o)).
Proof.
  rewrite s_run_app. cbn [snd]. rewrite nth_error_app2 by (rewrite s_run_length; lia).
  rewrite s_run_length, Nat.sub_diag, s_run_cons. reflexivity.
Qed.

Section Crash.
Variable P : params.
Hypothesis HBS_lo : 7 < BS P.
Hypothesis HBS_hi : BS P <= 65542.
Hypothesis HNB : 1 <= NB P.
Hypothesis Hcrc : forall t p, crcf P t p < 2 ^ 32.
Hypothesis HGC : L_GC P = false.
Hypothesis HIO : L_IO P = false.
Hypothesis HSHORT : L_SHORT P = false.
Hypothesis Hnc : no_zero_collision P.

Local Notation HW f := (f P HBS_lo HBS_hi HNB Hcrc) (only parsing).
Local Notation HG f := (f P HBS_lo HBS_hi HNB Hcrc HGC) (only parsing).
Local Notation HN f := (f P HBS_lo HBS_hi HNB) (only parsing).
Local Notation HA f := (f P HBS_lo HBS_hi HNB Hcrc HGC HIO HSHORT Hnc) (only parsing).
Local Notation Inv := (Inv P).
Local Notation stream_bound := (stream_bound P).
Local Notation absq st := (abs_qs (s_qs st)).
Local Notation stN st h m := (fst (run P st (firstn m h))).


Lemma run_no_io h : forall st G,
  Inv st G -> hist_wf P st h -> stream_bound G (map snd (run_log P st h)) ->
  Forall no_io (snd (run P st h)).
Proof.
  induction h as [|[o t] h IH]; intros st G HI Hwf Hb; [constructor|].
  destruct (HG step_advance st G o t h HI Hwf Hb) as (_ & Hwf1 & _ & Hno & G1 & HI1 & _ & _ & _ & Hb2).
  rewrite run_cons. cbn [snd]. constructor; [exact Hno|exact (IH _ G1 HI1 Hwf1 Hb2)].
Qed.

Lemma run_spec h st G :
  Inv st G -> hist_wf P st h -> stream_bound G (map snd (run_log P st h)) ->
  exists souts,
    map out_logical (snd (run P st h)) = map Some souts /\
    s_run (absq st) (sops h) = (absq (fst (run P st h)), souts).
Proof.
  intros HI Hwf Hb.
  destruct (QueueIso.no_io_logical _ (forall_no_io _ (run_no_io h st G HI Hwf Hb))) as (souts & Hl).
  exists souts. split; [exact Hl|].
  pose proof (run_refines P h st (Inv_qs_inv P _ _ HI)) as R.
  destruct (run P st h) as [st' outs]. exact (proj2 R souts Hl).
Qed.

Lemma run_spec_fst h st G :
  Inv st G -> hist_wf P st h -> stream_bound G (map snd (run_log P st h)) ->
  fst (s_run (absq st) (sops h)) = absq (fst (run P st h)).
Proof. intros HI Hwf Hb. destruct (run_spec h st G HI Hwf Hb) as (souts & _ & E). now rewrite E. Qed.

Lemma run_spec_prefix h st G m :
  Inv st G -> hist_wf P st h -> stream_bound G (map snd (run_log P st h)) ->
  fst (s_run (absq st) (firstn m (sops h))) = absq (stN st h m).
Proof.
  intros HI Hwf Hb. rewrite <- (firstn_skipn m h) in Hwf, Hb.
  destruct (HG run_segment _ _ st G HI Hwf Hb) as (Hwf1 & Hb1 & _).
  rewrite sops_firstn. exact (run_spec_fst _ st G HI Hwf1 Hb1).
Qed.

(* a successful delete of q observed on the log is one of the specification *)
Lemma run_never_deleted h st G q :
  Inv st G -> hist_wf P st h -> stream_bound G (map snd (run_log P st h)) ->
  log_never_deleted q h (snd (run P st h)) ->
  never_deleted q (sops h) (snd (s_run (absq st) (sops h))).
Proof.
  intros HI Hwf Hb Hnd. destruct (run_spec h st G HI Hwf Hb) as (souts & Hl & E).
  rewrite E. cbn [snd]. exact (proj1 (proj2 (run_observations P q h st souts Hl)) Hnd).
Qed.

(* C04 along a run of the log: between the start and any call boundary, if no call of the
   history successfully deletes q *)
Lemma log_next_prefix h st G q m :
  Inv st G -> hist_wf P st h -> stream_bound G (map snd (run_log P st h)) ->
  log_never_deleted q h (snd (run P st h)) ->
  log_next st q <= log_next (stN st h m) q /\
  (qs_get (s_qs st) q <> None -> qs_get (s_qs (stN st h m)) q <> None).
Proof.
  intros HI Hwf Hb Hnd.
  pose proof (run_never_deleted h st G q HI Hwf Hb Hnd) as Hnd'.
  destruct (next_monotone_prefix (sops h) (absq st) q 0 m Hnd' ltac:(lia)) as (H1 & H2).
  rewrite (run_spec_prefix h st G m HI Hwf Hb) in H1, H2. cbn [firstn s_run fst] in H1, H2.
  rewrite !log_next_abs in H1. split; [exact H1|].
  rewrite !abs_get in H2. intros Hq.
  destruct (qs_get (s_qs st) q); [|now destruct Hq].
  destruct (qs_get (s_qs (stN st h m)) q); [discriminate|]. exfalso. apply H2; [discriminate|reflexivity].
Qed.

Lemma stN_skip st h i m : (i <= m)%nat -> (i <= length h)%nat ->
  stN st h m = stN (stN st h i) (skipn i h) (m - i).
Proof.
  intros Him Hi. replace m with (i + (m - i))%nat at 1 by lia. now apply (HN stN_add).
Qed.

(* the call boundary right after call number |h1| of h1 ++ (o, t) :: h2 *)
Lemma stN_after_call st h h1 o t h2 :
  h = h1 ++ (o, t) :: h2 ->
  (S (length h1) <= length h)%nat /\
  stN st h (S (length h1)) = fst (step P (fst (run P st h1)) o t).
Proof.
  intros ->. split; [rewrite app_length; cbn [length]; lia|].
  replace (S (length h1)) with (length h1 + 1)%nat by lia.
  rewrite (HN stN_app_ge). cbn [firstn run]. now destruct (step P (fst (run P st h1)) o t).
Qed.

Section Setting.
(* a persist point: the restart invariant holds and nothing is buffered *)
Variables (st0 : state) (G0 : ghost).
Hypothesis HI0 : Inv st0 G0.
Hypothesis Hp0 : w_pending (s_wr st0) = [].
(* any further history, under any policy *)
Variable h : list (op * bool).
Hypothesis Hwf : hist_wf P st0 h.
Hypothesis Hb : stream_bound G0 (map snd (run_log P st0 h)).
Hypothesis Hcb : CB P st0 h.
(* the events it adds *)
Variable evs : list event.
Hypothesis Hevs : c_ev (w_ctx (s_wr (fst (run P st0 h)))) = rev evs ++ c_ev (w_ctx (s_wr st0)).

Local Notation fs0 := (c_fs (w_ctx (s_wr st0))).
Local Notation crash_dir cut k := (fold_left apply_event (crash_events evs cut k) fs0).

(* C03_process_crash, read on the specification: the recovered state is the SPECIFICATION state
   after a prefix of the calls *)
Lemma crash_spec cut k pol hint :
  exists m st_r,
    (m <= length h)%nat /\ open P (crash_dir cut k) None pol hint = OpenOk st_r /\
    qs_inv (s_qs st_r) /\
    (forall q, s_get (absq st_r) q = s_get (absq (stN st0 h m)) q) /\
    (forall q, s_get (absq st_r) q = s_get (fst (s_run (absq st0) (firstn m (sops h)))) q).
Proof.
  destruct (HA C03_process_crash st0 G0 HI0 Hp0 h Hwf Hb Hcb evs Hevs cut k pol hint)
    as (m & st_r & Hm & Ho & Hq).
  exists m, st_r. split; [exact Hm|]. split; [exact Ho|]. split; [exact (open_inv P _ _ _ _ _ Ho)|].
  split; [exact Hq|]. intros q. now rewrite (run_spec_prefix h st0 G0 m HI0 Hwf Hb).
Qed.

(* Whatever the policy and wherever the process crashes in h, recovery gives every queue the
   next position (hence the last position) the specification gives it after a prefix of the
   calls; if no call of h successfully deletes q, that is never below the next position q had at
   the persist point, and q is still there if it was there. *)
Theorem crash_next_positions cut k pol hint :
  exists m st_r,
    (m <= length h)%nat /\ open P (crash_dir cut k) None pol hint = OpenOk st_r /\
    (forall q, log_next st_r q = next_or0 (s_get (fst (s_run (absq st0) (firstn m (sops h)))) q) /\
               log_last_position st_r q =
                 s_last_position (fst (s_run (absq st0) (firstn m (sops h)))) q) /\
    (forall q, log_next st_r q = log_next (stN st0 h m) q /\
               log_last_position st_r q = log_last_position (stN st0 h m) q) /\
    (forall q, log_never_deleted q h (snd (run P st0 h)) ->
               log_next st0 q <= log_next st_r q /\
               (qs_get (s_qs st0) q <> None -> qs_get (s_qs st_r) q <> None)).
Proof.
  destruct (crash_spec cut k pol hint) as (m & st_r & Hm & Ho & Hi & Hq & Hs).
  exists m, st_r. split; [exact Hm|]. split; [exact Ho|].
  split; [|split].
  - intros q. destruct (reads_of_spec st_r _ q Hi (Hs q)) as (_ & H2 & _ & H4). auto.
  - intros q. destruct (reads_of_abs st_r _ q (Hq q)) as (H1 & H2 & _). auto.
  - intros q Hnd. destruct (log_next_prefix h st0 G0 q m HI0 Hwf Hb Hnd) as (H1 & H2).
    destruct (reads_of_abs st_r _ q (Hq q)) as (-> & _ & H3). auto.
Qed.

(* If call number i left nothing buffered and the crash happens after it returned,
   the recovered state is that of a prefix of length m >= i, and every queue that is not deleted
   by the calls after i recovers a next position at or above the one it had after call i. *)
Theorem crash_next_after_persist i evs_i :
  (i <= length h)%nat ->
  let st_i := stN st0 h i in
  w_pending (s_wr st_i) = [] ->
  c_ev (w_ctx (s_wr st_i)) = rev evs_i ++ c_ev (w_ctx (s_wr st0)) ->
  forall cut k pol hint, lenN evs_i <= cut ->
  exists m st_r,
    (i <= m)%nat /\ (m <= length h)%nat /\
    open P (crash_dir cut k) None pol hint = OpenOk st_r /\
    (forall q, log_next st_r q = next_or0 (s_get (fst (s_run (absq st0) (firstn m (sops h)))) q)) /\
    (forall q, log_next st_r q = log_next (stN st0 h m) q) /\
    (forall q, log_never_deleted q (skipn i h) (snd (run P st_i (skipn i h))) ->
               log_next st_i q <= log_next st_r q /\
               (qs_get (s_qs st_i) q <> None -> qs_get (s_qs st_r) q <> None)).
Proof.
  intros Hi st_i Hpi Hevi cut k pol hint Hcut.
  destruct (HA C03_persisted_survives st0 G0 h evs i evs_i HI0 Hp0 Hwf Hb Hcb Hevs Hi Hpi Hevi
              cut k pol hint Hcut) as (m & st_r & Him & Hm & Ho & Hq).
  exists m, st_r. split; [exact Him|]. split; [exact Hm|]. split; [exact Ho|].
  assert (Hn : forall q, log_next st_r q = log_next (stN st0 h m) q).
  { intros q. exact (proj1 (reads_of_abs st_r _ q (Hq q))). }
  split; [intros q; now rewrite Hn, (run_spec_prefix h st0 G0 m HI0 Hwf Hb), log_next_abs|].
  split; [exact Hn|]. intros q Hnd.
  pose proof Hwf as Hwf'. pose proof Hb as Hb'. rewrite <- (firstn_skipn i h) in Hwf', Hb'.
  destruct (HG run_segment _ _ st0 G0 HI0 Hwf' Hb') as (_ & _ & Gi & HIi & Hwf2 & Hb2).
  fold st_i in HIi, Hwf2, Hb2.
  destruct (log_next_prefix (skipn i h) st_i Gi q (m - i) HIi Hwf2 Hb2 Hnd) as (H1 & H2).
  unfold st_i in H1, H2 at 2. rewrite <- (stN_skip st0 h i m Him Hi) in H1, H2. fold st_i in H1.
  destruct (reads_of_abs st_r _ q (Hq q)) as (-> & _ & H3). auto.
Qed.

(* After recovery from a crash anywhere in h, under any policy, what a queue q holds — and so
   what range / last_position / last_record answer for q — is what the SPECIFICATION gives q when
   it runs only the calls addressed to q among the first m calls, from any map that agrees with
   the persist point on q.  The calls to the other queues, including those whose truncations and
   deletions made the garbage collector delete files before the crash, have no influence. *)
Theorem crash_projection cut k pol hint :
  exists m st_r,
    (m <= length h)%nat /\ open P (crash_dir cut k) None pol hint = OpenOk st_r /\
    forall q m0, s_get m0 q = s_get (absq st0) q ->
      let mq := fst (s_run m0 (filter (addressed q) (firstn m (sops h)))) in
      s_get (absq st_r) q = s_get mq q /\
      (forall lo hi, log_range st_r q lo hi = s_range mq q lo hi) /\
      log_last_position st_r q = s_last_position mq q /\
      log_last_record st_r q = s_last_record mq q /\
      log_next st_r q = next_or0 (s_get mq q).
Proof.
  destruct (crash_spec cut k pol hint) as (m & st_r & Hm & Ho & Hi & _ & Hs).
  exists m, st_r. split; [exact Hm|]. split; [exact Ho|]. intros q m0 H0.
  exact (reads_of_projection st_r _ m0 _ q Hi H0 (Hs q)).
Qed.

(* The history contains a batch append: h = h1 ++ (append_records(q, pos, pl)) :: h2, which
   answered Ok(Some last).  The batch is s_number b pl with b = last + 1 - |pl|.  In the state
   after ANY prefix m of h:
   - if the prefix stops before the append (m <= |h1|): q holds NO record of the batch (no record
     with one of its positions), provided q is not deleted between that prefix and the append;
   - if the prefix contains the append: what q holds of the batch is a SUFFIX of the batch — all
     of it, or all of it above the highest later truncation point, possibly nothing — provided q
     is not deleted between the append and the end of the prefix.
   Never a hole, never a missing tail. *)
Definition batch_at (h1 : list (op * bool)) (q : bytes) (pl : list bytes) (h2 : list (op * bool))
           (st2 : state) (last : N) (m : nat) (v : option squeue) : Prop :=
  let b := last + 1 - lenN pl in
  ((m <= length h1)%nat /\
   (log_never_deleted q (skipn m h1) (snd (run P (stN st0 h1 m) (skipn m h1))) ->
    forall recs next, v = Some (recs, next) ->
      next <= b /\ filter (in_span b (last + 1)) recs = [])) \/
  ((length h1 < m)%nat /\
   let k2 := (m - S (length h1))%nat in
   (log_never_deleted q (firstn k2 h2) (snd (run P st2 (firstn k2 h2))) ->
    exists recs next j,
      v = Some (recs, next) /\ last < next /\
      filter (in_span b (last + 1)) recs = skipn j (s_number b pl))).

Lemma batch_at_prefix h1 q pos pl t h2 last nb :
  h = h1 ++ (OAppend q pos pl, t) :: h2 ->
  let st1 := fst (run P st0 h1) in
  snd (step P st1 (OAppend q pos pl) t) = OutAppend (Some last) nb ->
  let st2 := fst (step P st1 (OAppend q pos pl) t) in
  forall m, (m <= length h)%nat ->
    batch_at h1 q pl h2 st2 last m (s_get (absq (stN st0 h m)) q).
Proof.
  intros Eh st1 Hout st2 m Hm. unfold batch_at. cbn zeta. set (b := last + 1 - lenN pl).
  pose proof Hwf as Hwf'. pose proof Hb as Hb'. rewrite Eh in Hwf', Hb'.
  destruct (HG run_segment h1 _ st0 G0 HI0 Hwf' Hb') as (Hwf1 & Hb1 & G1 & HI1 & HwfR & HbR).
  fold st1 in HI1, HwfR, HbR.
  change ((OAppend q pos pl, t) :: h2) with ([(OAppend q pos pl, t)] ++ h2) in HwfR, HbR.
  destruct (HG run_segment _ h2 st1 G1 HI1 HwfR HbR) as (_ & _ & G2 & HI2 & Hwf2 & Hb2).
  assert (Est2 : fst (run P st1 [(OAppend q pos pl, t)]) = st2).
  { cbn [run]. unfold st2. now destruct (step P st1 (OAppend q pos pl) t). }
  rewrite Est2 in HI2, Hwf2, Hb2.
  pose proof (run_spec_fst h1 st0 G0 HI0 Hwf1 Hb1) as E1. fold st1 in E1.
  pose proof (step_refines P st1 (OAppend q pos pl) t (Inv_qs_inv P _ _ HI1)) as R.
  destruct (step P st1 (OAppend q pos pl) t) as [sx ox] eqn:Es. cbn [fst snd] in Hout, st2.
  subst ox. destruct R as (_ & R). specialize (R _ eq_refl). cbn [sop_of] in R. fold st2 in R.
  pose proof (abs_s_inv _ (Inv_qs_inv P _ _ HI0)) as Hinv0.
  assert (Hsops : sops h = sops h1 ++ SAppend q pos pl :: sops h2).
  { rewrite Eh, sops_app. reflexivity. }
  assert (Hlen : length (sops h) = length h) by apply map_length.
  assert (Hlen1 : length (sops h1) = length h1) by apply map_length.
  pose proof (batch_all_or_nothing_spec (absq st0) (sops h1) q pos pl (sops h2) last Hinv0) as A.
  cbn zeta in A. rewrite E1, R in A. cbn [fst snd] in A. specialize (A eq_refl m).
  rewrite <- Hsops, Hlen, Hlen1 in A. specialize (A Hm).
  rewrite (run_spec_prefix h st0 G0 m HI0 Hwf Hb) in A. fold b in A.
  destruct A as [(Hle & A)|(Hgt & _ & A)]; [left|right]; (split; [exact Hle || exact Hgt|]).
  - intros Hnd recs next Hg.
    assert (Ek : stN st0 h1 m = stN st0 h m).
    { rewrite Eh. symmetry. apply (HN stN_app_le). exact Hle. }
    pose proof Hwf1 as Hwf1'. pose proof Hb1 as Hb1'. rewrite <- (firstn_skipn m h1) in Hwf1', Hb1'.
    destruct (HG run_segment _ _ st0 G0 HI0 Hwf1' Hb1') as (_ & _ & Gm & HIm & Hwfm & Hbm).
    pose proof (run_never_deleted _ _ Gm q HIm Hwfm Hbm Hnd) as Hnd'.
    rewrite Ek in Hnd'.
    unfold sops in Hnd' at 1 2. rewrite <- skipn_map in Hnd'. fold (sops h1) in Hnd'.
    exact (A Hnd' recs next Hg).
  - cbn zeta. intros Hnd.
    pose proof Hwf2 as Hwf2'. pose proof Hb2 as Hb2'.
    rewrite <- (firstn_skipn (m - S (length h1)) h2) in Hwf2', Hb2'.
    destruct (HG run_segment _ _ st2 G2 HI2 Hwf2' Hb2') as (Hwfk & Hbk & _).
    pose proof (run_never_deleted _ _ G2 q HI2 Hwfk Hbk Hnd) as Hnd'.
    rewrite <- sops_firstn in Hnd'.
    exact (A Hnd').
Qed.

(* Wherever the process crashes in h, under any policy, the recovered state is that of a
   prefix of h: the batch is recovered as nothing (prefix before the append), or as a suffix of
   itself (prefix containing the append). *)
Theorem batch_crash h1 q pos pl t h2 last nb :
  h = h1 ++ (OAppend q pos pl, t) :: h2 ->
  let st1 := fst (run P st0 h1) in
  snd (step P st1 (OAppend q pos pl) t) = OutAppend (Some last) nb ->
  let st2 := fst (step P st1 (OAppend q pos pl) t) in
  forall cut k pol hint,
  exists m st_r,
    (m <= length h)%nat /\ open P (crash_dir cut k) None pol hint = OpenOk st_r /\
    (forall q', s_get (absq st_r) q' = s_get (absq (stN st0 h m)) q') /\
    batch_at h1 q pl h2 st2 last m (s_get (absq st_r) q).
Proof.
  intros Eh st1 Hout st2 cut k pol hint.
  destruct (crash_spec cut k pol hint) as (m & st_r & Hm & Ho & _ & Hq & _).
  exists m, st_r. split; [exact Hm|]. split; [exact Ho|]. split; [exact Hq|].
  rewrite Hq. exact (batch_at_prefix h1 q pos pl t h2 last nb Eh Hout m Hm).
Qed.

(* If the batch append left nothing buffered (e.g. policy Always) and the process
   crashes after it returned, the batch is never recovered as "nothing because too early": the
   recovered prefix contains the append, and q holds a suffix of the batch as long as q is not
   deleted by the later calls of that prefix. *)
Theorem batch_crash_persisted h1 q pos pl t h2 last nb evs_i :
  h = h1 ++ (OAppend q pos pl, t) :: h2 ->
  let st1 := fst (run P st0 h1) in
  snd (step P st1 (OAppend q pos pl) t) = OutAppend (Some last) nb ->
  let st2 := fst (step P st1 (OAppend q pos pl) t) in
  let b := last + 1 - lenN pl in
  w_pending (s_wr st2) = [] ->
  c_ev (w_ctx (s_wr st2)) = rev evs_i ++ c_ev (w_ctx (s_wr st0)) ->
  forall cut k pol hint, lenN evs_i <= cut ->
  exists m st_r,
    (length h1 < m)%nat /\ (m <= length h)%nat /\
    open P (crash_dir cut k) None pol hint = OpenOk st_r /\
    let k2 := (m - S (length h1))%nat in
    (log_never_deleted q (firstn k2 h2) (snd (run P st2 (firstn k2 h2))) ->
     exists recs next j,
       s_get (absq st_r) q = Some (recs, next) /\ last < next /\
       filter (in_span b (last + 1)) recs = skipn j (s_number b pl)).
Proof.
  intros Eh st1 Hout st2 b Hp2 Hev2 cut k pol hint Hcut.
  destruct (stN_after_call st0 h h1 _ t h2 Eh) as (Hi & Esti). fold st1 in Esti. fold st2 in Esti.
  destruct (HA C03_persisted_survives st0 G0 h evs (S (length h1)) evs_i HI0 Hp0 Hwf Hb Hcb Hevs Hi)
    with (cut := cut) (k := k) (pol := pol) (hint := hint) as (m & st_r & Him & Hm & Ho & Hq);
    try (rewrite Esti; assumption); [exact Hcut|].
  exists m, st_r. split; [lia|]. split; [exact Hm|]. split; [exact Ho|].
  pose proof (batch_at_prefix h1 q pos pl t h2 last nb Eh Hout m Hm) as A.
  rewrite <- Hq in A. destruct A as [(Hle & _)|(_ & A)]; [lia|]. exact A.
Qed.

End Setting.

(* the flush-per-operation policy: a crash during the call that follows a history of calls and
   clean restarts from a fresh directory *)

Section Always.
Variables (a : bool) (st0 : state) (h : list hop) (st : state) (outs : list outcome).
Variables (o : op) (tick : bool) (st' : state) (out : outcome).
Hypothesis Hopen : open P [] None (PAlways a) [] = OpenOk st0.
Hypothesis Hrun : hrun P st0 h = Some (st, outs).
Hypothesis Hok : hist_ok P st0 h.
Hypothesis Hal : always_hist a h.
Hypothesis Hop : op_wf_strict (s_qs st) o.
Hypothesis Hcb1 : crash_phys_bound P (s_wr st) (map snd (step_log P st o)) (absq st).
Hypothesis Hcb2 : crash_phys_bound P (s_wr st) (map snd (step_log P st o)) (absq st').
Hypothesis Hstep : step P st o tick = (st', out).

Local Notation calls := (map sop_of (hcalls h)).
Local Notation m_before := (fst (s_run [] calls)).
Local Notation m_after := (fst (s_run [] (calls ++ [sop_of o]))).

(* C02_history with the links it leaves implicit: the outcomes are the specification's, and the
   two candidate states are the abstractions of the states before and after the call *)
Lemma always_crash_spec :
  exists souts so evs,
    map out_logical outs = map Some souts /\ out_logical out = Some so /\
    snd (s_run [] calls) = souts /\ snd (s_step m_before (sop_of o)) = so /\
    (forall q, s_get m_before q = s_get (absq st) q) /\
    (forall q, s_get m_after q = s_get (absq st') q) /\
    c_ev (w_ctx (s_wr st')) = rev evs ++ c_ev (w_ctx (s_wr st)) /\
    forall cut k pol hint,
      exists st_r,
        open P (fold_left apply_event (crash_events evs cut k) (c_fs (w_ctx (s_wr st)))) None pol hint
          = OpenOk st_r /\ qs_inv (s_qs st_r) /\
        ((forall q, s_get (absq st_r) q = s_get m_before q) \/
         (forall q, s_get (absq st_r) q = s_get m_after q)).
Proof.
  destruct (HA C02_history a st0 h st outs o tick st' out Hopen Hrun Hok Hal Hop Hcb1 Hcb2 Hstep)
    as (mb & souts & ma & so & evs & Erun & Estep & Eso & Hev & Hall).
  pose proof (inv_fresh P HBS_lo HBS_hi HNB (PAlways a) st0 Hopen) as HI0.
  destruct (hrun_inv P HBS_lo HBS_hi HNB Hcrc HGC HIO h st0 gh_fresh HI0 Hok)
    as (st1 & outs1 & G & Er & HI & _ & _ & Hspec).
  rewrite Hrun in Er. injection Er as <- <-.
  destruct (Hspec [] ) as (m' & souts' & Erun' & Hm' & Hl).
  { destruct (FileStream.open_fresh P HBS_lo HBS_hi HNB (PAlways a)) as (c & _ & Eo).
    rewrite Eo in Hopen. injection Hopen as <-. reflexivity. }
  rewrite Erun in Erun'. injection Erun' as <- <-.
  assert (Eb : m_before = mb) by now rewrite Erun.
  assert (Ea : m_after = ma).
  { rewrite s_run_fst_app, Eb. cbn [s_run]. rewrite Estep. reflexivity. }
  pose proof (step_refines P st o tick (Inv_qs_inv P st G HI)) as Href.
  rewrite Hstep in Href. destruct Href as (_ & Href). specialize (Href so Eso).
  destruct (s_step_ext mb (absq st) (sop_of o) Hm') as (_ & Hs2).
  rewrite Href, Estep in Hs2. cbn [fst] in Hs2.
  exists souts, so, evs. rewrite Ea, Eb, Erun, Estep. cbn [fst snd].
  repeat (split; [assumption || reflexivity|]).
  intros cut k pol hint. destruct (Hall cut k pol hint) as (st_r & Ho & Hc).
  exists st_r. split; [exact Ho|]. split; [exact (open_inv P _ _ _ _ _ Ho)|exact Hc].
Qed.

(* The recovered next / last positions of every queue are those of the state before
   the in-flight call or those of the state after it; unless that call is a successful delete of
   q, the next position of q is at or above what it was before the call. *)
Theorem crash_next_always :
  exists evs,
    c_ev (w_ctx (s_wr st')) = rev evs ++ c_ev (w_ctx (s_wr st)) /\
    forall cut k pol hint,
      exists st_r,
        open P (fold_left apply_event (crash_events evs cut k) (c_fs (w_ctx (s_wr st)))) None pol hint
          = OpenOk st_r /\
        ((forall q, log_next st_r q = log_next st q /\
                    log_last_position st_r q = log_last_position st q) \/
         (forall q, log_next st_r q = log_next st' q /\
                    log_last_position st_r q = log_last_position st' q)) /\
        (forall q, l_deleted q (o, tick) out = false -> log_next st q <= log_next st_r q).
Proof.
  destruct always_crash_spec as (souts & so & evs & Hl & Eso & _ & Eso' & Hmb & Hma & Hev & Hall).
  exists evs. split; [exact Hev|]. intros cut k pol hint.
  destruct (Hall cut k pol hint) as (st_r & Ho & Hi & Hc). exists st_r. split; [exact Ho|].
  assert (Hpos : forall s, (forall q, s_get (absq st_r) q = s_get (absq s) q) ->
            forall q, log_next st_r q = log_next s q /\
                      log_last_position st_r q = log_last_position s q).
  { intros s Hs q. destruct (reads_of_abs st_r s q (Hs q)) as (H1 & H2 & _). auto. }
  assert (Hmono : forall q, l_deleted q (o, tick) out = false -> log_next st q <= log_next st' q).
  { intros q Hd. rewrite (l_deleted_logical P q st o tick st' out so Hstep Eso), <- Eso' in Hd.
    destruct (s_step_next m_before (sop_of o) q Hd) as (_ & Hn & _).
    replace (fst (s_step m_before (sop_of o))) with m_after in Hn.
    - now rewrite Hmb, Hma, !log_next_abs in Hn.
    - rewrite s_run_fst_app. cbn [s_run]. now destruct (s_step m_before (sop_of o)). }
  destruct Hc as [Hc|Hc].
  - assert (Hs : forall q, s_get (absq st_r) q = s_get (absq st) q) by (intros q; now rewrite Hc, Hmb).
    split; [left; exact (Hpos st Hs)|]. intros q _. rewrite (proj1 (Hpos st Hs q)). lia.
  - assert (Hs : forall q, s_get (absq st_r) q = s_get (absq st') q) by (intros q; now rewrite Hc, Hma).
    split; [right; exact (Hpos st' Hs)|]. intros q Hd. rewrite (proj1 (Hpos st' Hs q)).
    exact (Hmono q Hd).
Qed.

(* What q recovers to is what the specification gives q when it runs only the calls
   addressed to q, among the completed calls or among those plus the in-flight call. *)
Theorem crash_projection_always :
  exists evs,
    c_ev (w_ctx (s_wr st')) = rev evs ++ c_ev (w_ctx (s_wr st)) /\
    forall cut k pol hint,
      exists st_r calls_r,
        open P (fold_left apply_event (crash_events evs cut k) (c_fs (w_ctx (s_wr st)))) None pol hint
          = OpenOk st_r /\
        (calls_r = calls \/ calls_r = calls ++ [sop_of o]) /\
        forall q,
          let mq := fst (s_run [] (filter (addressed q) calls_r)) in
          s_get (absq st_r) q = s_get mq q /\
          (forall lo hi, log_range st_r q lo hi = s_range mq q lo hi) /\
          log_last_position st_r q = s_last_position mq q /\
          log_last_record st_r q = s_last_record mq q /\
          log_next st_r q = next_or0 (s_get mq q).
Proof.
  destruct always_crash_spec as (souts & so & evs & _ & _ & _ & _ & _ & _ & Hev & Hall).
  exists evs. split; [exact Hev|]. intros cut k pol hint.
  destruct (Hall cut k pol hint) as (st_r & Ho & Hi & Hc).
  destruct Hc as [Hc|Hc]; exists st_r; eexists; (split; [exact Ho|]).
  - split; [left; reflexivity|]. intros q. exact (reads_of_projection st_r [] [] _ q Hi eq_refl (Hc q)).
  - split; [right; reflexivity|]. intros q. exact (reads_of_projection st_r [] [] _ q Hi eq_refl (Hc q)).
Qed.

(* The history contains a batch append to q that answered Ok(Some last), and q is
   never deleted in h.  After a crash during the next call, q recovers a suffix of the batch —
   or is absent because the in-flight call is a successful delete of q that took effect. *)
Theorem batch_crash_always c1 q pos pl c2 last nb :
  hcalls h = c1 ++ OAppend q pos pl :: c2 ->
  nth_error outs (length c1) = Some (OutAppend (Some last) nb) ->
  log_never_deleted q (hcalls_t h) outs ->
  let b := last + 1 - lenN pl in
  exists evs,
    c_ev (w_ctx (s_wr st')) = rev evs ++ c_ev (w_ctx (s_wr st)) /\
    forall cut k pol hint,
      exists st_r,
        open P (fold_left apply_event (crash_events evs cut k) (c_fs (w_ctx (s_wr st)))) None pol hint
          = OpenOk st_r /\
        ((l_deleted q (o, tick) out = true /\ s_get (absq st_r) q = None) \/
         exists recs next j,
           s_get (absq st_r) q = Some (recs, next) /\ last < next /\
           filter (in_span b (last + 1)) recs = skipn j (s_number b pl)).
Proof.
  intros Ec Hnth Hnd b.
  destruct always_crash_spec as (souts & so & evs & Hl & Eso & Esouts & Eso' & Hmb & Hma & Hev & Hall).
  exists evs. split; [exact Hev|]. intros cut k pol hint.
  destruct (Hall cut k pol hint) as (st_r & Ho & Hi & Hc). exists st_r. split; [exact Ho|].
  (* the calls, split at the append *)
  set (s1 := map sop_of c1). set (s2 := map sop_of c2).
  assert (Ecalls : calls = s1 ++ SAppend q pos pl :: s2).
  { rewrite Ec, map_app. reflexivity. }
  assert (Hl1 : length s1 = length c1) by apply map_length.
  set (m1 := fst (s_run [] s1)).
  assert (Hout : snd (s_step m1 (SAppend q pos pl)) = SAppended (Some last)).
  { pose proof (s_run_nth_out [] s1 (SAppend q pos pl) s2) as E.
    rewrite <- Ecalls, Esouts, Hl1 in E.
    pose proof (f_equal (fun l => nth_error l (length c1)) Hl) as E2. cbn beta in E2.
    rewrite !nth_error_map, Hnth, E in E2. cbn [option_map out_logical] in E2.
    fold m1 in E2. congruence. }
  set (m2 := fst (s_step m1 (SAppend q pos pl))).
  assert (Eb : m_before = fst (s_run m2 s2)).
  { rewrite Ecalls, s_run_fst_app. fold m1. now rewrite s_run_cons. }
  (* q is not deleted after the append *)
  apply (proj2 (hrun_observations P q h st0 st outs souts Hrun Hl)) in Hnd.
  rewrite <- Esouts, Ecalls in Hnd. apply never_deleted_app in Hnd as (_ & Hnd). fold m1 in Hnd.
  rewrite s_run_cons in Hnd. cbn [snd] in Hnd. apply never_deleted_cons in Hnd as (_ & Hnd).
  fold m2 in Hnd.
  pose proof (s_run_inv s1 [] s_inv_nil) as Hinv1. fold m1 in Hinv1.
  pose proof (batch_later m1 q pos pl last (s2 ++ [sop_of o]) Hinv1 Hout) as A.
  cbn zeta in A. fold b m2 in A.
  assert (Hbefore : exists recs next j, s_get m_before q = Some (recs, next) /\ last < next /\
                      filter (in_span b (last + 1)) recs = skipn j (s_number b pl)).
  { specialize (A (length s2)). rewrite firstn_app, firstn_all, Nat.sub_diag in A.
    cbn [firstn] in A. rewrite app_nil_r in A.
    destruct (A Hnd) as (recs & next & Hg & Hn & _ & (j & Hj)).
    exists recs, next, j. rewrite Eb. auto. }
  destruct Hc as [Hc|Hc].
  - right. rewrite Hc. exact Hbefore.
  - pose proof (l_deleted_logical P q st o tick st' out so Hstep Eso) as Ed. rewrite <- Eso' in Ed.
    assert (Ea : m_after = fst (s_run m2 (s2 ++ [sop_of o]))).
    { rewrite Ecalls, <- app_assoc, s_run_fst_app. fold m1. cbn [app]. now rewrite s_run_cons. }
    destruct (s_deleted q (sop_of o) (snd (s_step m_before (sop_of o)))) eqn:Hd.
    + left. split; [exact Ed|]. rewrite Hc, s_run_fst_app. cbn [s_run].
      destruct (sop_of o) as [q'|q'|q' pos' pl'|q' p'|]; try discriminate Hd.
      cbn [s_deleted s_step] in Hd |- *.
      destruct (s_get m_before q') eqn:Eg; cbn [snd] in Hd; [|discriminate Hd].
      apply bytes_eqb_eq in Hd. subst q'. cbn [fst]. apply s_get_remove_same.
    + right. specialize (A (S (length s2))).
      rewrite firstn_all2 in A by (rewrite app_length; cbn [length]; lia).
      destruct A as (recs & next & Hg & Hn & _ & (j & Hj)).
      { apply never_deleted_app. split; [exact Hnd|]. rewrite <- Eb.
        unfold never_deleted. cbn [s_run]. destruct (s_step m_before (sop_of o)) as [mx ox].
        cbn [snd combine forallb fst] in Hd |- *. now rewrite Hd. }
      exists recs, next, j. rewrite Hc, Ea. auto.
Qed.

End Always.
End Crash.

Print Assumptions crash_next_positions.
Print Assumptions crash_next_after_persist.
Print Assumptions crash_next_always.
Print Assumptions crash_projection.
Print Assumptions crash_projection_always.
Print Assumptions batch_crash.
Print Assumptions batch_crash_persisted.
Print Assumptions batch_crash_always.

(* The replay of the kept log E1s ++ E2 (the entry x between them lost), read from any files:
   every record of every queue of the result was appended by an entry of the full log
   pre ++ E1s ++ x :: E2 OTHER than the lost one (index |pre| + |E1s|). *)
Lemma dmg_replay_origin (pre E1s E2 : list entry) (x : entry) (tags : list N) qD :
  legal_log [] 0 (pre ++ E1s ++ x :: E2) ->
  length tags = length (E1s ++ E2) ->
  replay_entries [] (combine tags (E1s ++ E2)) = Some qD ->
  forall q m rec, qs_get qD q = Some m -> In rec (records_of (q_buf m) (q_metas m)) ->
    exists idx pos recs,
      idx <> (length pre + length E1s)%nat /\
      nth_error (pre ++ E1s ++ x :: E2) idx = Some (EAppend q pos recs) /\ In rec recs.
Proof.
  intros Hleg Hlen Hrep q m rec Eq Hin.
  destruct (damaged_suffix_replay pre E1s E2 x Hleg) as (F & Dd & _ & HD & _).
  set (k := length pre) in *.
  (* the model's replay is the untagging of the tagged one *)
  set (f := combine tags (E1s ++ E2)) in *.
  assert (Ef : map snd f = E1s ++ E2) by (apply map_snd_combine; exact Hlen).
  set (f1 := firstn (length E1s) f). set (f2 := skipn (length E1s) f).
  assert (E1 : map snd f1 = E1s).
  { unfold f1. rewrite <- firstn_map, Ef, firstn_app, firstn_all, Nat.sub_diag. cbn [firstn].
    apply app_nil_r. }
  assert (E2' : map snd f2 = E2).
  { unfold f2. rewrite <- skipn_map, Ef, skipn_app, skipn_all, Nat.sub_diag. reflexivity. }
  destruct (replay_dmg_refines k f1 f2 Dd) as (qD' & EqD & HuD & _).
  { rewrite E1, E2'. exact HD. }
  unfold f1, f2 in EqD. rewrite firstn_skipn, Hrep in EqD. injection EqD as <-.
  pose proof (untag_abs_get Dd qD q HuD) as Hu. rewrite Eq in Hu.
  destruct (t_get Dd q) as [[rd nd]|] eqn:Et; [|contradiction].
  unfold untag_q, abs_q in Hu. cbn [fst snd] in Hu. injection Hu as Hr _.
  rewrite <- Hr in Hin. apply in_map_iff in Hin. destruct Hin as (r & <- & Hin).
  (* the origin of r in the two stages of the tagged replay *)
  unfold t_replay_dmg in HD. destruct (t_replay [] k E1s) as [M|] eqn:EM; [|discriminate].
  destruct (t_replay_origin q r _ _ _ _ _ _ HD Et Hin)
    as [(rf & n & EqM & HinM)|(j & pos & recs & Ej & En & Hr')].
  - destruct (t_replay_origin q r _ _ _ _ _ _ EM EqM HinM)
      as [(rf0 & n0 & E0 & _)|(j & pos & recs & Ej & En & Hr')]; [discriminate|].
    assert (Hj : (j < length E1s)%nat) by (apply nth_error_Some; congruence).
    exists (k + j)%nat, pos, recs. split; [lia|]. split; [|exact Hr'].
    rewrite nth_error_app2 by (unfold k; lia). replace (k + j - length pre)%nat with j by (unfold k; lia).
    now rewrite nth_error_app1.
  - exists (S (k + length E1s) + j)%nat, pos, recs. split; [lia|]. split; [|exact Hr'].
    rewrite nth_error_app2 by (unfold k; lia).
    replace (S (k + length E1s) + j - length pre)%nat with (length E1s + S j)%nat by (unfold k; lia).
    rewrite nth_error_app2 by lia.
    replace (length E1s + S j - length E1s)%nat with (S j) by lia. exact En.
Qed.

Section Damage.
Variable P : params.
Hypothesis HBS_lo : 7 < BS P.
Hypothesis HBS_hi : BS P <= 65542.
Hypothesis HNB : 1 <= NB P.
Hypothesis Hcrc : forall t p, crcf P t p < 2 ^ 32.
Hypothesis HGC : L_GC P = false.
Hypothesis HIO : L_IO P = false.

Local Notation HN f := (f P HBS_lo HBS_hi HNB) (only parsing).
Local Notation HF f := (f P HBS_lo HBS_hi HNB Hcrc HGC HIO) (only parsing).
Local Notation Inv := (Inv P).
Local Notation damaged_dir := (damaged_dir P).
Local Notation dmg_bound := (dmg_bound P).

(* an invariant of DamageAtomic.C09_damage_tagged that its statement does not export: the state
   open recovers from the damaged directory IS the replay of the kept log without X. *)
Theorem C09_damage_is_replay st G i X ex ed k fs_d :
  Inv st G -> damaged_dir st G i X ex ed k fs_d -> dmg_bound st G ->
  forall pol hint, exists st_r tags,
    open P fs_d None pol hint = OpenOk st_r /\
    length tags = length (map snd (firstn i (gh_E G)) ++ dmg_E2 G i) /\
    replay_entries [] (combine tags (map snd (firstn i (gh_E G)) ++ dmg_E2 G i)) = Some (s_qs st_r).
Proof.
  intros HI Hdir Hbound pol hint.
  destruct (HF C09_damage_replay st G i X ex ed k fs_d HI Hdir Hbound pol hint)
    as (st_r & tags & _ & Hopen & Hlen & EqD & _).
  now exists st_r, tags.
Qed.

(* F = the tagged replay of everything ever written: a record of F carries the index, in
   gh_ALL G, of the entry that appended it; the index of the damaged entry X is gh_k G + i.
   (a) [C09_damage_tagged] every retained record NOT tagged with X's index is recovered;
   (b) every recovered record was appended by an entry of the log OTHER than X: the recovered
       queues contain no record tagged with X's index. *)
Theorem C09_damage_exact st G i X ex ed k fs_d :
  Inv st G -> damaged_dir st G i X ex ed k fs_d -> dmg_bound st G ->
  forall pol hint, exists st_r F,
    open P fs_d None pol hint = OpenOk st_r /\
    t_replay [] 0 (gh_ALL G) = Some F /\
    qs_inv (s_qs st_r) /\
    nth_error (gh_ALL G) (gh_k G + i) = Some X /\
    (forall q rf nf, t_get F q = Some (rf, nf) ->
       forall r, In r rf -> fst r <> (gh_k G + i)%nat ->
         exists m, qs_get (s_qs st_r) q = Some m /\
                   In (snd r) (records_of (q_buf m) (q_metas m))) /\
    (forall q m rec, qs_get (s_qs st_r) q = Some m -> In rec (records_of (q_buf m) (q_metas m)) ->
       exists idx pos recs,
         idx <> (gh_k G + i)%nat /\
         nth_error (gh_ALL G) idx = Some (EAppend q pos recs) /\ In rec recs).
Proof.
  intros HI Hdir Hbound pol hint.
  destruct (HF C09_damage_tagged st G i X ex ed k fs_d HI Hdir Hbound pol hint)
    as (st_r & F & Ho & EF & Hinv & Hpos).
  destruct (C09_damage_is_replay st G i X ex ed k fs_d HI Hdir Hbound pol hint)
    as (st_r' & tags & Ho' & Hlen & Hrep).
  rewrite Ho in Ho'. injection Ho' as <-.
  destruct Hdir as ((fX & HX) & _).
  exists st_r, F. split; [exact Ho|]. split; [exact EF|]. split; [exact Hinv|].
  split; [exact (HN dmg_nth G i X fX HX)|]. split; [exact Hpos|].
  intros q m rec Eq Hin.
  pose proof (dmg_ALL G i X fX HX) as HALL. unfold dmg_E1 in HALL. rewrite <- app_assoc in HALL.
  destruct HI as (_ & (_ & Hleg & _)). rewrite HALL in Hleg.
  destruct (dmg_replay_origin _ _ _ X tags _ Hleg Hlen Hrep q m rec Eq Hin)
    as (idx & pos & recs & Hne & Hn & Hr).
  exists idx, pos, recs. rewrite HALL.
  rewrite gh_before_length, map_length in Hne.
  destruct (nth_error_split _ _ _ HX) as [_ Li]. rewrite Li in Hne. auto.
Qed.

(* The batch: entry number j of the kept log is the AppendRecords entry EAppend q b recs.  The
   retained records of the batch in st are the records of F's queue q tagged gh_k G + j.

   (other)  The damaged entry is ANOTHER one (i <> j): every retained record of the batch is
   recovered, in q, same position, same payload. *)
Theorem batch_damage_other st G i X ex ed k fs_d j fB q b recs :
  Inv st G -> damaged_dir st G i X ex ed k fs_d -> dmg_bound st G ->
  nth_error (gh_E G) j = Some (fB, EAppend q b recs) -> j <> i ->
  forall pol hint, exists st_r F,
    open P fs_d None pol hint = OpenOk st_r /\
    t_replay [] 0 (gh_ALL G) = Some F /\
    forall rf nf, t_get F q = Some (rf, nf) ->
      forall r, In r rf -> fst r = (gh_k G + j)%nat ->
        In (snd r) recs /\
        exists m, qs_get (s_qs st_r) q = Some m /\
                  In (snd r) (records_of (q_buf m) (q_metas m)).
Proof.
  intros HI Hdir Hbound Hj Hji pol hint.
  destruct (HF C09_damage_tagged st G i X ex ed k fs_d HI Hdir Hbound pol hint)
    as (st_r & F & Ho & EF & _ & Hpos).
  exists st_r, F. split; [exact Ho|]. split; [exact EF|].
  intros rf nf Eq r Hin Ht. split.
  - exact (proj2 (HN tag_appended_by G j _ fB F q rf nf r Hj EF Eq Hin Ht)).
  - apply (Hpos q rf nf Eq r Hin). lia.
Qed.

(* the same without tags: if the damaged entry is not an AppendRecords entry for q holding that
   very record, every record retained in q — in particular all that is retained of any batch
   appended to q — is recovered *)
Theorem batch_damage_other_untagged st G i X ex ed k fs_d q :
  Inv st G -> damaged_dir st G i X ex ed k fs_d -> dmg_bound st G ->
  forall pol hint, exists st_r,
    open P fs_d None pol hint = OpenOk st_r /\
    forall m pos payload,
      qs_get (s_qs st) q = Some m ->
      In (pos, payload) (records_of (q_buf m) (q_metas m)) ->
      ~ appended_by X q (pos, payload) ->
      exists m', qs_get (s_qs st_r) q = Some m' /\
                 In (pos, payload) (records_of (q_buf m') (q_metas m')).
Proof.
  intros HI Hdir Hbound pol hint.
  destruct (HF C09_damage_costs_one_entry st G i X ex ed k fs_d HI Hdir Hbound pol hint)
    as (st_r & Ho & _ & H).
  exists st_r. split; [exact Ho|]. intros m pos payload. apply H.
Qed.

(* (self)  The damaged entry IS the batch's AppendRecords entry (X = EAppend q b recs): every
   retained record of every queue that is not of the batch is recovered, and NO record of the
   batch is: every recovered record was appended by another entry of the log.  In particular, if
   no other entry of the log appended one of these (position, payload) pairs to q, none of them is
   in the recovered q: the batch is lost as a whole, never in part. *)
Theorem batch_damage_self st G i ex ed k fs_d q b recs :
  Inv st G -> damaged_dir st G i (EAppend q b recs) ex ed k fs_d -> dmg_bound st G ->
  forall pol hint, exists st_r F,
    open P fs_d None pol hint = OpenOk st_r /\
    t_replay [] 0 (gh_ALL G) = Some F /\
    (* everything else is recovered *)
    (forall q' rf nf, t_get F q' = Some (rf, nf) ->
       forall r, In r rf -> fst r <> (gh_k G + i)%nat ->
         exists m, qs_get (s_qs st_r) q' = Some m /\
                   In (snd r) (records_of (q_buf m) (q_metas m))) /\
    (* nothing of the batch is *)
    (forall q' m rec, qs_get (s_qs st_r) q' = Some m -> In rec (records_of (q_buf m) (q_metas m)) ->
       exists idx pos recs',
         idx <> (gh_k G + i)%nat /\
         nth_error (gh_ALL G) idx = Some (EAppend q' pos recs') /\ In rec recs') /\
    ((forall idx pos recs', idx <> (gh_k G + i)%nat ->
        nth_error (gh_ALL G) idx = Some (EAppend q pos recs') ->
        forall rec, In rec recs -> ~ In rec recs') ->
     forall m rec, qs_get (s_qs st_r) q = Some m -> In rec recs ->
       ~ In rec (records_of (q_buf m) (q_metas m))).
Proof.
  intros HI Hdir Hbound pol hint.
  destruct (C09_damage_exact st G i _ ex ed k fs_d HI Hdir Hbound pol hint)
    as (st_r & F & Ho & EF & _ & _ & Hpos & Hneg).
  exists st_r, F. split; [exact Ho|]. split; [exact EF|]. split; [exact Hpos|].
  split; [exact Hneg|].
  intros Huniq m rec Eq Hin Hrec.
  destruct (Hneg q m rec Eq Hrec) as (idx & pos & recs' & Hne & Hn & Hr).
  exact (Huniq idx pos recs' Hne Hn rec Hin Hr).
Qed.

End Damage.

Print Assumptions dmg_replay_origin.
Print Assumptions C09_damage_is_replay.
Print Assumptions C09_damage_exact.
Print Assumptions batch_damage_other.
Print Assumptions batch_damage_other_untagged.
Print Assumptions batch_damage_self.
