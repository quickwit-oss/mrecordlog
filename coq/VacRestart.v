(* VacRestart.v — vacuity audit: the theorems of PropC01 / PropC04 / PropC18 whose premises
   are the global invariant Inv, hist_ok, restart_bound / reopen_bound, stream_bound.
   Every Example below applies the Prop theorem itself to concrete data: all premises are
   discharged, so the hypothesis set is satisfiable, and by a non-trivial witness (roll-overs,
   GC passes that unlink files, restarts, two queues). The instance is RestartFinal.Example:
   BS = 32, NB = 2, constant checksum, history h_ex (12 steps, 3 restarts). *)
From Coq Require Import Lia ZArith ZifyN ZifyNat ZifyBool List.
From MRL Require Import Bytes BytesProofs Params Names Frame Record Mem Spec Rolling Log Hist
  WriterProofs SpecRefine RecordProofs StreamProofs ResyncProofs GhostLog ReplaySpec QueueIso
  RestartInv RestartWrite RestartStep OpenReplay RestartFinal RestartCorollaries VacBase.
From MRL Require PropC01 PropC04 PropC18.
Import ListNotations.
Import RestartFinal.Example.

Local Notation HPx := (Px_BS_lo) (only parsing).

Lemma inv_ex : exists G, Inv Px st_ex G /\ gh_base G = 0.
Proof.
  exact (inv_hrun_fresh Px Px_BS_lo Px_BS_hi Px_NB Px_crc eq_refl eq_refl _ _ _ _ _ open_st0 hist_ok_ex hrun_ex).
Qed.

(* C01_restart_identity: RestartFinal.Example.C01_ex is the lemma behind it applied to this
   instance; here the Prop theorem itself *)
Example C01_restart_identity_inst : forall pol hint, exists st',
  restart Px st_ex pol hint = OpenOk st' /\
  (forall q, s_get (abs_qs (s_qs st')) q = s_get (abs_qs (s_qs st_ex)) q) /\
  (forall q lo hi, log_range st' q lo hi = log_range st_ex q lo hi) /\
  (forall q, log_last_position st' q = log_last_position st_ex q) /\
  (forall q, log_last_record st' q = log_last_record st_ex q).
Proof.
  exact (PropC01.C01_restart_identity Px Px_BS_lo Px_BS_hi Px_NB Px_crc eq_refl eq_refl
           PNothing st0 h_ex st_ex outs_ex open_st0 hrun_ex hist_ok_ex restart_bound_ex).
Qed.

Example C01_history_spec_inst :
  exists st outs m souts,
    hrun Px st0 h_ex = Some (st, outs) /\
    s_run [] (map sop_of (hcalls h_ex)) = (m, souts) /\
    (forall q, s_get m q = s_get (abs_qs (s_qs st)) q) /\ map out_logical outs = map Some souts.
Proof.
  exact (PropC01.C01_history_spec Px Px_BS_lo Px_BS_hi Px_NB Px_crc eq_refl eq_refl
           PNothing st0 h_ex open_st0 hist_ok_ex).
Qed.

Lemma C01_inv_reopen_premises_satisfiable :
  exists G, Inv Px st_ex G /\ reopen_bound Px st_ex G.
Proof.
  destruct inv_ex as (G & HI & _). exists G. split; [exact HI|].
  exact (restart_reopen_bound Px Px_BS_lo Px_BS_hi Px_NB Px_crc st_ex G HI restart_bound_ex).
Qed.

Example C01_inv_reopen_inst : forall pol hint, exists st',
  open Px (c_fs (drop_log st_ex)) None pol hint = OpenOk st' /\
  (forall q, s_get (abs_qs (s_qs st')) q = s_get (abs_qs (s_qs st_ex)) q) /\ s_pol st' = pol.
Proof.
  intros pol hint. destruct C01_inv_reopen_premises_satisfiable as (G & HI & Hb).
  destruct (PropC01.C01_inv_reopen Px Px_BS_lo Px_BS_hi Px_NB Px_crc eq_refl eq_refl st_ex G HI Hb
              pol hint) as (st' & G' & Ho & _ & Heq & _ & Hp & _).
  exists st'. auto.
Qed.

(* the next call: an append of three records to qa that rolls over into two new files *)
Definition o_next : op := OAppend qa None [pay "n"%byte; pay "m"%byte; pay "k"%byte].
Definition st_next : state := Eval vm_compute in fst (step Px st_ex o_next false).
Definition out_next : outcome := Eval vm_compute in snd (step Px st_ex o_next false).
Lemma step_next : step Px st_ex o_next false = (st_next, out_next).
Proof. vm_compute. reflexivity. Qed.

Example next_rolls_over :
  w_files (s_wr st_ex) = [4; 5; 6] /\ w_files (s_wr st_next) = [4; 5; 6; 7; 8] /\
  out_next = OutAppend (Some 9) 109.
Proof. vm_compute. repeat split; reflexivity. Qed.

Lemma op_wf_next : op_wf_strict (s_qs st_ex) o_next.
Proof. unfold o_next. wf_tac. Qed.

Lemma phys_bound_next : phys_bound Px (s_wr st_ex) (map snd (step_log Px st_ex o_next)).
Proof. bound_tac. Qed.

Lemma no_io_next : forall e, out_next <> OutIo e.
Proof. intros e H. discriminate H. Qed.

Lemma C01_step_premises_satisfiable :
  exists G, Inv Px st_ex G /\ op_wf_strict (s_qs st_ex) o_next /\
            RestartWrite.stream_bound Px G (map snd (step_log Px st_ex o_next)) /\
            step Px st_ex o_next false = (st_next, out_next) /\ (forall e, out_next <> OutIo e).
Proof.
  destruct inv_ex as (G & HI & _). exists G. split; [exact HI|]. split; [exact op_wf_next|].
  split; [|split; [exact step_next|exact no_io_next]].
  exact (phys_stream_bound Px Px_BS_lo Px_BS_hi Px_NB Px_crc _ _ _ (proj1 HI) phys_bound_next).
Qed.

Example C01_no_io_needed_inst : no_io (snd (step Px st_ex o_next false)).
Proof.
  destruct C01_step_premises_satisfiable as (G & HI & Hop & Hsb & _).
  exact (PropC01.C01_no_io_needed Px Px_BS_lo Px_BS_hi Px_NB Px_crc eq_refl st_ex G o_next false
           HI Hop Hsb).
Qed.

Example C01_inv_step_inst : exists G', Inv Px st_next G'.
Proof.
  destruct C01_step_premises_satisfiable as (G & HI & Hop & Hsb & Hs & Hno).
  destruct (PropC01.C01_inv_step Px Px_BS_lo Px_BS_hi Px_NB Px_crc eq_refl st_ex G o_next false
              st_next out_next HI Hop Hsb Hs Hno) as (G' & HI' & _).
  now exists G'.
Qed.

Example C01_inv_fresh_inst : Inv Px st0 gh_fresh.
Proof. exact (PropC01.C01_inv_fresh Px Px_BS_lo Px_BS_hi Px_NB PNothing st0 open_st0). Qed.

(* C01_live_is_replay / C01_logged_entries_roundtrip: nodup_names, qs_wf, op_wf, gstep *)
Lemma nodup_ex : nodup_names (s_qs st_ex).
Proof. destruct inv_ex as (G & HI & _). exact (Inv_nodup Px _ _ HI). Qed.

Example C01_live_is_replay_inst :
  exists es, replay_entries (s_qs st_ex) es = Some (s_qs st_next) /\ es <> [].
Proof.
  pose proof (PropC01.C01_instrumentation_erases Px st_ex [] o_next false) as [E1 E2].
  rewrite step_next in E1, E2. cbn [fst snd] in E1, E2.
  destruct (gstep Px (@pair state glog st_ex []) o_next false) as [[st' L'] out] eqn:Eg.
  cbn [fst snd] in E1, E2. subst st' out.
  destruct (PropC01.C01_live_is_replay Px st_ex [] o_next false st_next L' out_next nodup_ex Eg
              no_io_next) as (es & EL & Hr).
  exists es. split; [exact Hr|]. intros ->. cbn [replay_entries] in Hr.
  vm_compute in Hr. discriminate Hr.
Qed.

Example C01_logged_entries_roundtrip_inst :
  exists es, snd (fst (gstep Px (@pair state glog st_ex []) o_next false)) = [] ++ es /\
    Forall (fun fe => entry_deser (entry_ser (snd fe)) = Some (snd fe)) es.
Proof.
  destruct inv_ex as (G & HI & _).
  destruct (gstep Px (@pair state glog st_ex []) o_next false) as [[st' L'] out] eqn:Eg.
  assert (Hop : op_wf (s_qs st_ex) o_next).
  { apply op_wf_strict_wf. exact op_wf_next. }
  cbn [fst snd].
  exact (PropC01.C01_logged_entries_roundtrip Px st_ex [] o_next false st' L' out
           (Inv_qs_wf Px _ _ HI) Hop Eg).
Qed.

(* C01_history_is_replay: a history from the empty log (the fresh state has no queue) *)
Definition h_calls : list (op * bool) :=
  [(OCreate qa, false); (OAppend qa None [pay "x"%byte; pay "y"%byte], false);
   (OCreate qb, true); (OTruncate qa 0 [qb], false); (ODelete qb [], false)].

Example C01_history_is_replay_inst :
  replay_entries [] (snd (fst (grun Px (@pair state glog st0 []) h_calls))) =
  Some (s_qs (fst (fst (grun Px (@pair state glog st0 []) h_calls)))).
Proof.
  destruct (grun Px (@pair state glog st0 []) h_calls) as [[st' L'] outs] eqn:Eg. cbn [fst snd].
  apply (PropC01.C01_history_is_replay Px (s_wr st0) PNothing h_calls st' L' outs).
  - exact Eg.
  - intros out e Hin. replace outs with (snd (grun Px (@pair state glog st0 []) h_calls)) in Hin
      by (rewrite Eg; reflexivity).
    vm_compute in Hin. repeat (destruct Hin as [<-|Hin]; [discriminate|]). destruct Hin.
Qed.

(* C01_replay_refines_spec: qs_inv qs and untag tm = abs_qs qs, for a NON-EMPTY state (qs, tm):
   the state reached by replaying ex_pre, obtained from the theorem applied to the empty one *)
Import ReplaySpec.
Example C01_replay_refines_spec_inst :
  exists qs tm, qs <> [] /\ qs_inv qs /\ untag tm = abs_qs qs /\
    exists qs' tm', apply_entries qs (map (pair 2) ex_suf) = Some qs' /\
      t_replay tm 3 (map snd (map (pair 2) ex_suf)) = Some tm' /\ untag tm' = abs_qs qs' /\
      qs_inv qs'.
Proof.
  pose proof (PropC01.C01_replay_refines_spec (map (pair 1) ex_pre) [] 0 [] qs_inv_nil eq_refl) as H1.
  destruct (apply_entries [] (map (pair 1) ex_pre)) as [qs|] eqn:E1; [|vm_compute in E1; discriminate E1].
  destruct H1 as (tm & Ht & Hu & Hi). exists qs, tm.
  split; [intros ->; vm_compute in E1; discriminate E1|]. split; [exact Hi|]. split; [exact Hu|].
  pose proof (PropC01.C01_replay_refines_spec (map (pair 2) ex_suf) qs 3 tm Hi Hu) as H2.
  destruct (apply_entries qs (map (pair 2) ex_suf)) as [qs'|] eqn:E2.
  - destruct H2 as (tm' & Ht' & Hu' & Hi'). exists qs', tm'. auto.
  - exfalso. vm_compute in E1. injection E1 as <-. vm_compute in E2. discriminate E2.
Qed.

(* C01_suffix_simulation / C01_suffix_is_list_suffix / C01_covered_suffix_equal /
   C01_model_covered_suffix_equal: ReplaySpec.ex_legal, ex_equal (ex_equal applies
   model_covered_suffix_equal with all premises).  The other three on the same log: *)
Definition F_ex : tmap :=
  Eval vm_compute in match t_replay [] 0 (ex_pre ++ ex_suf) with Some F => F | None => [] end.
Definition S_ex : tmap :=
  Eval vm_compute in match t_replay [] (length ex_pre) ex_suf with Some F => F | None => [] end.
Lemma F_ex_eq : t_replay [] 0 (ex_pre ++ ex_suf) = Some F_ex. Proof. vm_compute. reflexivity. Qed.
Lemma S_ex_eq : t_replay [] (length ex_pre) ex_suf = Some S_ex. Proof. vm_compute. reflexivity. Qed.

Example replay_ex_shape :
  F_ex = [(ReplaySpec.qa, ([(3%nat, (1, [x02])); (6%nat, (5, [x03]))], 6)); (ReplaySpec.qb, ([], 0))] /\
  S_ex = F_ex.
Proof. vm_compute. split; reflexivity. Qed.

Example C01_suffix_simulation_inst : forall q,
  t_get S_ex q = None \/
  exists rf n, t_get F_ex q = Some (rf, n) /\
    t_get S_ex q = Some (filter (fun r => PeanoNat.Nat.leb (length ex_pre) (fst r)) rf, n).
Proof. exact (PropC01.C01_suffix_simulation ex_pre ex_suf F_ex ex_legal F_ex_eq S_ex S_ex_eq). Qed.

Example C01_suffix_is_list_suffix_inst :
  exists dropped, t_get F_ex ReplaySpec.qa = Some (dropped ++ [(3%nat, (1, [x02])); (6%nat, (5, [x03]))], 6).
Proof.
  destruct (PropC01.C01_suffix_is_list_suffix ex_pre ex_suf F_ex ex_legal F_ex_eq S_ex S_ex_eq
              ReplaySpec.qa [(3%nat, (1, [x02])); (6%nat, (5, [x03]))] 6 eq_refl) as (d & H & _).
  now exists d.
Qed.

Lemma coverage_ex : forall q rf n, t_get F_ex q = Some (rf, n) ->
  Forall (fun r : nat * (N * bytes) => (length ex_pre <= fst r)%nat) rf /\
  (rf = [] -> existsb (fun e => creates e q) ex_suf = true).
Proof.
  intros q rf n H. unfold F_ex in H. cbn [t_get] in H.
  destruct (bytes_eqb [x61] q) eqn:Ea.
  - apply bytes_eqb_eq in Ea. subst q. inversion H; subst. split.
    + repeat constructor.
    + discriminate.
  - destruct (bytes_eqb [x62] q) eqn:Eb; [|discriminate].
    apply bytes_eqb_eq in Eb. subst q. inversion H; subst. split; [constructor|].
    intros _. reflexivity.
Qed.

Example C01_covered_suffix_equal_inst : forall q, s_get (untag S_ex) q = s_get (untag F_ex) q.
Proof.
  exact (PropC01.C01_covered_suffix_equal ex_pre ex_suf F_ex S_ex ex_legal F_ex_eq S_ex_eq coverage_ex).
Qed.

Example C01_model_covered_suffix_equal_inst :
  exists qF qS,
    apply_entries [] (map (pair 1) ex_pre ++ map (pair 2) ex_suf) = Some qF /\
    apply_entries [] (map (pair 7) ex_suf) = Some qS /\ abs_qs qF = untag F_ex /\
    forall q, s_get (abs_qs qS) q = s_get (abs_qs qF) q.
Proof.
  destruct (PropC01.C01_model_covered_suffix_equal (map (pair 1) ex_pre) (map (pair 2) ex_suf)
              (map (pair 7) ex_suf) F_ex) as (qF & qS & H1 & H2 & _ & _ & H3 & H4).
  - reflexivity.
  - exact ex_legal.
  - exact F_ex_eq.
  - exact coverage_ex.
  - exists qF, qS. auto.
Qed.

(* PropC04 (restart half) and PropC18 (restart half) *)
Local Notation qA := RestartFinal.Example.qa.
Local Notation qB := RestartFinal.Example.qb.
Import RestartCorollaries.ExampleCorollaries.

Example C04_positions_fresh_with_restarts_inst :
  incr_between 0 (log_next st_ex qA) (log_lasts qA (hcalls_t h_ex) outs_ex) /\
  log_lasts qA (hcalls_t h_ex) outs_ex = [1; 2; 5; 6].
Proof.
  split; [|vm_compute; reflexivity].
  exact (proj1 (PropC04.C04_positions_fresh_with_restarts Px Px_BS_lo Px_BS_hi Px_NB Px_crc eq_refl
                  eq_refl PNothing st0 h_ex st_ex outs_ex qA open_st0 hist_ok_ex hrun_ex
                  (proj1 positions_ex))).
Qed.

(* C04_after_truncate_with_restarts: h_ex = h1 ++ truncate(qa, ..=2) :: h2 with two restarts and
   a second truncate in h2 *)
Definition h1_ex : list hop := firstn 6 h_ex.
Definition h2_ex : list hop := skipn 7 h_ex.
Lemma h_ex_split : h_ex = h1_ex ++ HCall (OTruncate qA 2 [qB]) false :: h2_ex.
Proof. reflexivity. Qed.
Definition st1_ex : state :=
  Eval vm_compute in match hrun Px st0 h1_ex with Some (s, _) => s | None => st_dummy end.
Definition outs1_ex : list outcome :=
  Eval vm_compute in match hrun Px st0 h1_ex with Some (_, o) => o | None => [] end.
Definition outs2_ex : list outcome := Eval vm_compute in skipn 6 outs_ex.

Example C04_after_truncate_with_restarts_inst :
  incr_between (2 + 1) (log_next st_ex qA) (log_lasts qA (hcalls_t h2_ex) outs2_ex) /\
  log_lasts qA (hcalls_t h2_ex) outs2_ex = [6].
Proof.
  split; [|vm_compute; reflexivity].
  refine (proj1 (proj2 (PropC04.C04_after_truncate_with_restarts Px Px_BS_lo Px_BS_hi Px_NB Px_crc
            eq_refl eq_refl PNothing st0 h1_ex qA 2 [qB] false h2_ex st1_ex outs1_ex st_ex 3 45 outs2_ex
            open_st0 _ _ _ _))).
  - rewrite <- h_ex_split. exact hist_ok_ex.
  - vm_compute. reflexivity.
  - vm_compute. reflexivity.
  - vm_compute. reflexivity.
Qed.

(* C04_restart_keeps_next / C04_next_position_survives_restart: one more restart of st_ex *)
Definition stR : state :=
  Eval vm_compute in match restart Px st_ex (PAlways true) [qB] with OpenOk s => s | _ => st_dummy end.
Lemma restart_stR : restart Px st_ex (PAlways true) [qB] = OpenOk stR.
Proof. vm_compute. reflexivity. Qed.

Example C04_restart_keeps_next_inst :
  (forall q, log_next stR q = log_next st_ex q) /\
  (forall q, log_last_position stR q = log_last_position st_ex q).
Proof.
  destruct inv_ex as (G & HI & _).
  exact (PropC04.C04_restart_keeps_next Px Px_BS_lo Px_BS_hi Px_NB Px_crc eq_refl eq_refl st_ex G
           (PAlways true) [qB] stR HI restart_bound_ex restart_stR).
Qed.

Example C04_next_position_survives_restart_inst :
  forall q, log_last_position stR q = log_last_position st_ex q.
Proof.
  exact (proj1 (PropC04.C04_next_position_survives_restart Px Px_BS_lo Px_BS_hi Px_NB Px_crc eq_refl
                  eq_refl PNothing st0 h_ex st_ex outs_ex (PAlways true) [qB] stR open_st0 hrun_ex
                  hist_ok_ex restart_bound_ex restart_stR)).
Qed.

Example C18_projection_with_restarts_inst :
  exists st1 outs1 st2 outs2 souts2,
    hrun Px st0 h_ex = Some (st1, outs1) /\
    hrun Px st0 (hproj qB h_ex) = Some (st2, outs2) /\
    s_get (abs_qs (s_qs st1)) qB = s_get (abs_qs (s_qs st2)) qB /\
    (forall lo hi, log_range st1 qB lo hi = log_range st2 qB lo hi) /\
    log_last_position st1 qB = log_last_position st2 qB /\
    log_last_record st1 qB = log_last_record st2 qB /\
    map out_logical outs2 = map Some souts2 /\
    map out_logical (keep_outs (on_queue qB) (hcalls_t h_ex) outs1) = map Some souts2.
Proof.
  exact (PropC18.C18_projection_with_restarts Px Px_BS_lo Px_BS_hi Px_NB Px_crc eq_refl eq_refl
           PNothing st0 h_ex qB open_st0 hist_ok_ex hist_ok_proj_qb).
Qed.

(* C18_others_and_restarts_invisible: from st_ex (under the invariant), calls on qb and a restart;
   qa is untouched although the truncate of qb lets the GC run *)
Definition h_other : list hop :=
  [HCall (OAppend qB None [pay "r"%byte]) false; HRestart (PDelay false) [qA];
   HCall (OTruncate qB 1 [qA]) true].
Definition st_other : state :=
  Eval vm_compute in match hrun Px st_ex h_other with Some (s, _) => s | None => st_dummy end.
Definition outs_other : list outcome :=
  Eval vm_compute in match hrun Px st_ex h_other with Some (_, o) => o | None => [] end.

Lemma hist_ok_other : hist_ok Px st_ex h_other.
Proof.
  unfold h_other. call_tac. restart_tac qB 0. call_tac. exact I.
Qed.

Example C18_others_and_restarts_invisible_inst :
  s_get (abs_qs (s_qs st_other)) qA = s_get (abs_qs (s_qs st_ex)) qA /\
  (forall lo hi, log_range st_other qA lo hi = log_range st_ex qA lo hi) /\
  log_last_position st_other qA = log_last_position st_ex qA /\
  log_last_record st_other qA = log_last_record st_ex qA.
Proof.
  destruct inv_ex as (G & HI & _).
  apply (PropC18.C18_others_and_restarts_invisible Px Px_BS_lo Px_BS_hi Px_NB Px_crc eq_refl eq_refl
           h_other qA st_ex G st_other outs_other HI hist_ok_other).
  - vm_compute. reflexivity.
  - intros o Hin. cbn in Hin. destruct Hin as [<-|[<-|[]]]; cbn; intros H; discriminate H.
Qed.

Example others_ex_shape :
  outs_other = [OutAppend (Some 1) 51; OutTruncate 2 26] /\
  abs_qs (s_qs st_other) = [(qA, ([(6, pay "v"%byte)], 7)); (qB, ([], 2))].
Proof. vm_compute. split; reflexivity. Qed.
