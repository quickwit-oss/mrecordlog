(* VacAudit3.v — vacuity audit of PowerCorollaries.v, AllocBound.v and HeaderDamage.v: their theorems
   applied to concrete, non-trivial data with ALL their premises discharged.
     Module Power : PowerCorollaries.v (power-loss halves of C04 / C18 / C12) in the setting
                    VacAudit2.SatCrash (P_sat 32 2, PDelay true, 14 calls, roll-overs, two GC passes,
                    a persist point in the middle), no_zero_collision included.
     Module Alloc : AllocBound.v (C10, allocation): a six-file directory with a damaged frame
                    header, records of two queues in memory; the reader stopped in the middle of
                    a three-block record; a directory on which the bound is less than 1.5 times
                    the memory actually used.
     Module HD    : HeaderDamage.v (C08): header_damage_resync and header_damage_written on a
                    stream whose damaged block is block 1 and the damage is the length field of
                    the header of the MIDDLE frame of a three-block entry; ~ stopped_in shown.
   Conventions of VacuityAudit.v / VacAudit2.v: <id>_<theorem>_inst; big checks by boolean
   reflection; no Prop goal containing `open` is ever vm_computed. *)
From Coq Require Import Lia ZArith ZifyN ZifyNat ZifyBool List.
From MRL Require Import Bytes BytesProofs Params Names Frame Record Mem Spec Rolling Log Driver Hist
  WriterProofs SpecRefine RecordProofs StreamProofs ResyncProofs GhostLog ReplaySpec QueueIso
  PersistProofs TornProofs DamageProofs RestartInv RestartWrite RestartStep OpenReplay RestartFinal
  RestartCorollaries CrashTrace NzcVacuous CrashAtomic DamageAtomic PersistRecover PersistSurvive
  PersistShape PersistImage CrashCorollaries PowerLoss PowerCorollaries OpenTerm AllocBound
  AllocBoundTest HeaderDamageEv HeaderDamage VacBase VacCrash VacAudit2.
From MRL Require HeaderDamageEx.
Import ListNotations.

Lemma synced_later_true name evs : synced_later name evs = true -> In (EvSyncData name) evs.
Proof.
  induction evs as [|e r IH]; cbn [synced_later]; [discriminate|].
  destruct e; try (intros H; right; exact (IH H)).
  intros H. apply orb_true_iff in H. destruct H as [H|H].
  - apply bytes_eqb_eq in H. subst. left. reflexivity.
  - right. exact (IH H).
Qed.

(* every write is followed by a sync of its file *)
Fixpoint all_synced_b (evs : list event) : bool :=
  match evs with
  | [] => true
  | EvWrite n _ _ :: r => synced_later n r && all_synced_b r
  | _ :: r => all_synced_b r
  end.

Lemma all_synced_b_tl e r : all_synced_b (e :: r) = true -> all_synced_b r = true.
Proof.
  destruct e; cbn [all_synced_b]; try (intros H; exact H).
  intros H. apply andb_true_iff in H. exact (proj2 H).
Qed.

Lemma all_synced_b_ok evs : all_synced_b evs = true -> all_synced evs.
Proof.
  induction evs as [|e r IH]; intros H name pre off d post E.
  - destruct pre; discriminate E.
  - destruct pre as [|e' pre'].
    + cbn [app] in E. inversion E; subst. cbn [all_synced_b] in H.
      apply andb_true_iff in H. apply synced_later_true. exact (proj1 H).
    + cbn [app] in E. inversion E; subst.
      exact (IH (all_synced_b_tl _ _ H) name pre' off d post eq_refl).
Qed.

Lemma wr_all_synced_by w : all_synced_b (chrono (w_ctx w)) = true -> wr_all_synced w.
Proof. intros H. unfold wr_all_synced. apply all_synced_b_ok. exact H. Qed.

Module Power.
Import SatCrash.
Local Notation TH f := (f Ps Ps_BS_lo Ps_BS_hi Ps_NB Ps_crc eq_refl eq_refl eq_refl Ps_nzc) (only parsing).
Local Notation power_img cut :=
  (fold_left apply_event (power_events evs_cr cut) (c_fs (w_ctx (s_wr stp)))) (only parsing).

(* the setting is not degenerate for power loss: 75 events, 19 of them writes; at 31 of the 76
   cuts the power-loss trace is shorter than the process-crash trace at the same cut (unsynced
   writes are dropped) *)
Example power_setting_shape :
  length evs_cr = 75%nat /\
  length (filter (fun e => match e with EvWrite _ _ _ => true | _ => false end) evs_cr) = 19%nat /\
  length (filter (fun c => negb (Nat.eqb (length (power_events evs_cr c))
                                         (length (crash_events evs_cr c 0))))
                 (map N.of_nat (seq 0 76))) = 31%nat.
Proof. vm_compute. repeat split; reflexivity. Qed.

Lemma C04_power_next_positions_inst : forall cut pol hint,
  exists m st_r, (m <= length h_cr)%nat /\
    open Ps (power_img cut) None pol hint = OpenOk st_r /\
    (forall q, log_next st_r q =
               next_or0 (s_get (fst (s_run (abs_qs (s_qs stp)) (firstn m (sops h_cr)))) q) /\
               log_last_position st_r q =
               s_last_position (fst (s_run (abs_qs (s_qs stp)) (firstn m (sops h_cr)))) q) /\
    (forall q, log_next st_r q = log_next (fst (run Ps stp (firstn m h_cr))) q /\
               log_last_position st_r q = log_last_position (fst (run Ps stp (firstn m h_cr))) q) /\
    (* neither queue is deleted in h_cr: their next positions never fall below 3 and 0 *)
    3 <= log_next st_r qa /\ qs_get (s_qs st_r) qb <> None.
Proof.
  setting G0 HI Hp Hwf Hsb Hcb Hev. intros cut pol hint.
  destruct (TH power_next_positions stp G0 HI Hp h_cr Hwf Hsb evs_cr Hev Hcb cut pol hint)
    as (m & st_r & Hm & Ho & H1 & H2 & H3).
  exists m, st_r. split; [exact Hm|]. split; [exact Ho|]. split; [exact H1|]. split; [exact H2|].
  split.
  - destruct (H3 qa (no_delete_never qa h_cr eq_refl _)) as [Hn _].
    replace (log_next stp qa) with 3 in Hn by (vm_compute; reflexivity). exact Hn.
  - destruct (H3 qb (no_delete_never qb h_cr eq_refl _)) as [_ Hn].
    apply Hn. vm_compute. discriminate.
Qed.

(* call i = 4 (the explicit persist with fsync, after a buffered append) is a POWER persist
   point: nothing buffered (pend_i) and every write synced (synced_i); 29 events up to it *)
Lemma C04_power_next_after_persist_inst : forall cut pol hint, 29 <= cut ->
  exists m st_r, (4 <= m)%nat /\ (m <= length h_cr)%nat /\
    open Ps (power_img cut) None pol hint = OpenOk st_r /\
    (forall q, log_next st_r q =
               next_or0 (s_get (fst (s_run (abs_qs (s_qs stp)) (firstn m (sops h_cr)))) q)) /\
    (forall q, log_next st_r q = log_next (fst (run Ps stp (firstn m h_cr))) q) /\
    5 <= log_next st_r qa /\ 3 <= log_next st_r qb /\
    qs_get (s_qs st_r) qa <> None /\ qs_get (s_qs st_r) qb <> None.
Proof.
  setting G0 HI Hp Hwf Hsb Hcb Hev. intros cut pol hint Hcut.
  destruct (TH power_next_after_persist stp G0 HI Hp h_cr Hwf Hsb evs_cr Hev Hcb
              4%nat evs_i (proj2 evs_i_len) pend_i synced_i evs_i_ok cut pol hint
              ltac:(rewrite (proj1 evs_i_len); exact Hcut))
    as (m & st_r & Hm1 & Hm2 & Ho & H1 & H2 & H3).
  exists m, st_r. split; [exact Hm1|]. split; [exact Hm2|]. split; [exact Ho|]. split; [exact H1|].
  split; [exact H2|].
  destruct (H3 qa (no_delete_never qa (skipn 4 h_cr) eq_refl _)) as [Hna Hqa].
  destruct (H3 qb (no_delete_never qb (skipn 4 h_cr) eq_refl _)) as [Hnb Hqb].
  replace (log_next (fst (run Ps stp (firstn 4 h_cr))) qa) with 5 in Hna by (vm_compute; reflexivity).
  replace (log_next (fst (run Ps stp (firstn 4 h_cr))) qb) with 3 in Hnb by (vm_compute; reflexivity).
  split; [exact Hna|]. split; [exact Hnb|].
  split; [apply Hqa|apply Hqb]; vm_compute; discriminate.
Qed.

Lemma C18_power_projection_inst : forall cut pol hint,
  exists m st_r, (m <= length h_cr)%nat /\
    open Ps (power_img cut) None pol hint = OpenOk st_r /\
    (forall q m0, s_get m0 q = s_get (abs_qs (s_qs stp)) q ->
       let mq := fst (s_run m0 (filter (addressed q) (firstn m (sops h_cr)))) in
       s_get (abs_qs (s_qs st_r)) q = s_get mq q /\
       (forall lo hi, log_range st_r q lo hi = s_range mq q lo hi) /\
       log_last_position st_r q = s_last_position mq q /\
       log_last_record st_r q = s_last_record mq q /\ log_next st_r q = next_or0 (s_get mq q)).
Proof.
  setting G0 HI Hp Hwf Hsb Hcb Hev.
  exact (TH power_projection stp G0 HI Hp h_cr Hwf Hsb evs_cr Hev Hcb).
Qed.

Lemma C18_power_projection_after_persist_inst : forall cut pol hint, 29 <= cut ->
  exists m st_r, (4 <= m)%nat /\ (m <= length h_cr)%nat /\
    open Ps (power_img cut) None pol hint = OpenOk st_r /\
    (forall q m0, s_get m0 q = s_get (abs_qs (s_qs stp)) q ->
       let mq := fst (s_run m0 (filter (addressed q) (firstn m (sops h_cr)))) in
       s_get (abs_qs (s_qs st_r)) q = s_get mq q /\
       (forall lo hi, log_range st_r q lo hi = s_range mq q lo hi) /\
       log_last_position st_r q = s_last_position mq q /\
       log_last_record st_r q = s_last_record mq q /\ log_next st_r q = next_or0 (s_get mq q)).
Proof.
  setting G0 HI Hp Hwf Hsb Hcb Hev. intros cut pol hint Hcut.
  refine (TH power_projection_after_persist stp G0 HI Hp h_cr Hwf Hsb evs_cr Hev Hcb
            4%nat evs_i (proj2 evs_i_len) pend_i synced_i evs_i_ok cut pol hint _).
  rewrite (proj1 evs_i_len). exact Hcut.
Qed.

(* the projection is not the identity here: m0 knows qa as it is at the persist point and nothing
   of qb; running only the calls addressed to qa from m0 gives what qa holds after 4, 5, 10 calls *)
Definition m0_a : smap := match s_get (abs_qs (s_qs stp)) qa with Some v => [(qa, v)] | None => [] end.
Example projection_nontrivial :
  s_get m0_a qa = s_get (abs_qs (s_qs stp)) qa /\ s_get m0_a qb = None /\
  s_get (abs_qs (s_qs stp)) qb <> None /\
  map (fun m => option_map (fun rn => (map fst (fst rn), snd rn))
                  (s_get (fst (s_run m0_a (filter (addressed qa) (firstn m (sops h_cr))))) qa))
      [4; 5; 10]%nat =
    [Some ([0; 1; 2; 3; 4], 5); Some ([], 5); Some ([5; 6], 7)].
Proof. vm_compute. repeat split; try reflexivity. discriminate. Qed.

(* C12: the batch is the append of three records to qb (call 2 of h_cr) *)
Lemma C12_batch_power_inst : forall cut pol hint,
  exists m st_r, (m <= length h_cr)%nat /\
    open Ps (power_img cut) None pol hint = OpenOk st_r /\
    (forall q', s_get (abs_qs (s_qs st_r)) q' =
                s_get (abs_qs (s_qs (fst (run Ps stp (firstn m h_cr))))) q') /\
    batch_at Ps stp h1_b qb pl_b h2_b
      (fst (step Ps (fst (run Ps stp h1_b)) (OAppend qb None pl_b) true)) 2 m
      (s_get (abs_qs (s_qs st_r)) qb).
Proof.
  setting G0 HI Hp Hwf Hsb Hcb Hev.
  exact (TH batch_power stp G0 HI Hp h_cr Hwf Hsb evs_cr Hev Hcb h1_b qb None pl_b true
           h2_b 2 112 h_cr_split out_b).
Qed.

(* the timer ticks on the batch append under PDelay true: persist(FlushAndFsync), so the append
   itself leaves nothing buffered and every write synced; 24 events up to its return.
   (C03_fsync_durable does not cover this call — it is not an Always policy — so the premise is
   checked on the trace itself.) *)
Lemma synced_b :
  wr_all_synced (s_wr (fst (step Ps (fst (run Ps stp h1_b)) (OAppend qb None pl_b) true))).
Proof.
  replace (fst (step Ps (fst (run Ps stp h1_b)) (OAppend qb None pl_b) true)) with st_b
    by (vm_compute; reflexivity).
  apply wr_all_synced_by. vm_compute. reflexivity.
Qed.

(* ... whereas after calls 3, 8 and 10 (buffered appends that filled a block, which is written
   without sync) some write is not synced, and after calls 1 and 6 something is buffered: the
   two premises are real restrictions; (all written synced, bytes buffered) after 0..10 calls *)
Example not_synced_elsewhere :
  map (fun k => (all_synced_b (chrono (w_ctx (s_wr (fst (run Ps stp (firstn k h_cr)))))),
                 lenN (w_pending (s_wr (fst (run Ps stp (firstn k h_cr)))))))
      (seq 0 11) =
  [(true, 0); (true, 26); (true, 0); (false, 26); (true, 0); (true, 0); (true, 29); (true, 0);
   (false, 10); (true, 0); (false, 16)].
Proof. vm_compute. reflexivity. Qed.

Lemma C12_batch_power_persisted_inst : forall cut pol hint, 24 <= cut ->
  exists m st_r, (length h1_b < m)%nat /\ (m <= length h_cr)%nat /\
    open Ps (power_img cut) None pol hint = OpenOk st_r /\
    (* qb is never deleted: what is recovered of the batch is a suffix of it *)
    exists recs next j,
      s_get (abs_qs (s_qs st_r)) qb = Some (recs, next) /\ 2 < next /\
      filter (in_span (2 + 1 - lenN pl_b) (2 + 1)) recs = skipn j (s_number (2 + 1 - lenN pl_b) pl_b).
Proof.
  setting G0 HI Hp Hwf Hsb Hcb Hev. intros cut pol hint Hcut.
  destruct (TH batch_power_persisted stp G0 HI Hp h_cr Hwf Hsb evs_cr Hev Hcb h1_b qb None pl_b
              true h2_b 2 112 evs_b h_cr_split out_b pend_b synced_b evs_b_ok cut pol hint
              ltac:(rewrite evs_b_len; exact Hcut))
    as (m & st_r & Hm1 & Hm2 & Ho & Hb).
  exists m, st_r. split; [exact Hm1|]. split; [exact Hm2|]. split; [exact Ho|].
  apply Hb. exact (no_delete_never qb _ (no_delete_firstn _ h2_b eq_refl) _).
Qed.

(* independent check by computation (not via the theorems): the power-loss image at EVERY cut
   0..75 is opened and the recovered abstract state compared with the states after the prefixes
   of h_cr: number of cuts recovered to the state after m calls (first matching m), m = 0..10,
   and number of cuts that fail; and the least m over the cuts >= 29 (after the persist point,
   call 4 — which does not change the abstract state, so the first match is 3) and >= 24 (after
   the batch append, call 2) *)
Definition pverdict (c : N) : option nat :=
  match open Ps (power_img c) None PNothing [] with
  | OpenOk st_r =>
      find (fun m => CrashExample.smap_ext_eqb (abs_qs (s_qs st_r))
                       (abs_qs (s_qs (fst (run Ps stp (firstn m h_cr))))))
           (seq 0 11)
  | _ => None
  end.
Definition pcensus : list nat * nat * list nat * list nat :=
  let cuts := map N.of_nat (seq 0 76) in
  let vs := map pverdict cuts in
  let least cs := fold_right (fun c acc => match pverdict c with Some m => Nat.min m acc | None => acc end)
                             99%nat cs in
  (map (fun m => length (filter (fun v => match v with Some m' => Nat.eqb m m' | None => false end) vs))
       (seq 0 11),
   length (filter (fun v => match v with None => true | _ => false end) vs),
   [least (filter (fun c => 29 <=? c) cuts)], [least (filter (fun c => 24 <=? c) cuts)]).
Lemma pverdict_tab c : pverdict c = verdict_of (power_img c).
Proof.
  unfold pverdict, verdict_of.
  destruct (open Ps _ None PNothing []); [apply find_refs|reflexivity..].
Qed.

(* every power-loss image is one of the process-crash images (C03_power_is_crash), so the
   verdicts are read from the table of SatCrash and nothing is opened here *)
Definition pimg_ix : list N :=
  Eval vm_compute in indices fs_key fs_eqb (keyed fs_key imgs_cr)
                       (map (fun c => power_img c) (map N.of_nat (seq 0 76))).
Lemma pimg_ix_ok :
  map (fun c => power_img c) (map N.of_nat (seq 0 76)) = map (pick imgs_cr []) pimg_ix.
Proof. vm_eq. Qed.

Definition pverdicts : list (option nat) := Eval vm_compute in map (pick img_verdicts None) pimg_ix.
Lemma pverdicts_ok : map pverdict (map N.of_nat (seq 0 76)) = pverdicts.
Proof.
  rewrite (map_ext _ _ pverdict_tab), <- (map_map (fun c => power_img c) verdict_of), pimg_ix_ok,
    map_pick, img_verdicts_ok.
  vm_eq.
Qed.

Example pcensus_cr : pcensus = ([10; 13; 5; 11; 0; 14; 0; 11; 0; 12; 0]%nat, 0%nat, [3%nat], [2%nat]).
Proof.
  unfold pcensus.
  (* the least verdict over the cuts from 29 (24) on: over a suffix of the table *)
  rewrite !(fold_right_map pverdict
              (fun v acc => match v with Some m => Nat.min m acc | None => acc end)).
  change (filter (fun c => 29 <=? c) (map N.of_nat (seq 0 76))) with (skipn 29 (map N.of_nat (seq 0 76))).
  change (filter (fun c => 24 <=? c) (map N.of_nat (seq 0 76))) with (skipn 24 (map N.of_nat (seq 0 76))).
  rewrite <- !skipn_map, pverdicts_ok. reflexivity.
Qed.
End Power.

Module Alloc.
Import SatCrash.

Definition damage_file (fs : fsT) (n off : N) (d : bytes) : fsT :=
  map (fun kv => if bytes_eqb (fst kv) (filename n)
                 then (fst kv, match snd kv with FFile b => FFile (write_at b off d) | e => e end)
                 else kv) fs.

(* the directory after call 4 of SatCrash.h_cr (files 0-5 of 64 bytes = 2 blocks of 32; eight
   records of qa and qb, one entry spread over three blocks), with the checksum field of the
   first frame header of file 1 overwritten (the Last frame of the first batch of qa) *)
Definition fs_a : fsT := Eval vm_compute in damage_file (c_fs (w_ctx (s_wr st_i))) 1 0 ["007"%byte].
Definition st_a : state :=
  Eval vm_compute in match open Ps fs_a None PNothing [] with OpenOk s => s | _ => st_dummy end.
Lemma open_a : open Ps fs_a None PNothing [] = OpenOk st_a.
Proof. vm_compute. reflexivity. Qed.

Lemma C10_open_alloc_bound_inst :
  log_memory_used Ps st_a <= alloc_factor (RMS Ps) * (wal_bytes fs_a + FILE_BYTES Ps).
Proof. exact (open_alloc_bound Ps fs_a None PNothing [] st_a open_a). Qed.

(* six listed files, the damaged entry (records 0, 1 of qa) is lost, six records in memory:
   206 = 2 (names) + 60 (payloads) + 6 * 24 (metadata) <= 2 * (384 + 64) = 896 *)
Example alloc_inst_numbers :
  list_wal_numbers fs_a = [0; 1; 2; 3; 4; 5] /\
  show st_a = ([1; 2; 3; 4; 5], 58, 0, [(qa, [2; 3; 4], 5); (qb, [0; 1; 2], 3)]) /\
  show st_i = ([0; 1; 2; 3; 4; 5], 58, 0, [(qa, [0; 1; 2; 3; 4], 5); (qb, [0; 1; 2], 3)]) /\
  (log_memory_used Ps st_a, wal_bytes fs_a, FILE_BYTES Ps, alloc_factor (RMS Ps)) = (206, 384, 64, 2).
Proof. vm_compute. repeat split; reflexivity. Qed.

(* the bound is not trivially slack: on AllocBoundTest.fs_dense (four full files of blocks of
   nine empty records, real CRC-32, RMS = 24) memory 1729 against the bound 2 * (1016 + 254) =
   2540: more than two thirds of it *)
Lemma C10_open_alloc_bound_tight_inst :
  exists st, open Pd fs_dense None PNothing [] = OpenOk st /\
    log_memory_used Pd st <= alloc_factor (RMS Pd) * (wal_bytes fs_dense + FILE_BYTES Pd) /\
    alloc_factor (RMS Pd) * (wal_bytes fs_dense + FILE_BYTES Pd) < 2 * log_memory_used Pd st /\
    2 * (alloc_factor (RMS Pd) * (wal_bytes fs_dense + FILE_BYTES Pd)) < 3 * log_memory_used Pd st.
Proof.
  destruct (mem_of_some _ _ _ fs_dense_mem) as (st & Ho & Hm).
  exists st. split; [exact Ho|].
  split; [exact (open_alloc_bound Pd fs_dense None PNothing [] st Ho)|].
  rewrite Hm.
  replace (alloc_factor (RMS Pd) * (wal_bytes fs_dense + FILE_BYTES Pd)) with 2540
    by (vm_compute; reflexivity).
  split; lia.
Qed.

(* a longer directory of the same kind (NB = 8: each file has 8 blocks; 6 files): the constant
   term FILE_BYTES weighs less: memory 10369 against the bound 2 * (6096 + 1016) = 14224, more
   than 70% of it (the limit of this family is 216 / 254 = 85%) *)
Definition Pd8 : params := mkParams 127 8 Crc.crc32 24 false false false.
Definition dblk8 (i : N) : bytes :=
  frame_bytes Pd8 Full (entry_ser (EAppend ["q"%byte] (9 * i) (empties 9 (9 * i)))).
Definition dfile8 (j : N) : bytes := concat (map (fun k => dblk8 (8 * j + k)) [0; 1; 2; 3; 4; 5; 6; 7]).
Definition fs_dense8 : fsT := map (fun j => (filename j, FFile (dfile8 j))) [0; 1; 2; 3; 4; 5].
Lemma fs_dense8_mem :
  (mem_of Pd8 (open Pd8 fs_dense8 None PNothing []), wal_bytes fs_dense8, FILE_BYTES Pd8,
   alloc_factor (RMS Pd8)) = (Some 10369, 6096, 1016, 2).
Proof. vm_compute. reflexivity. Qed.

Lemma C10_open_alloc_bound_tight8_inst :
  exists st, open Pd8 fs_dense8 None PNothing [] = OpenOk st /\
    log_memory_used Pd8 st <= alloc_factor (RMS Pd8) * (wal_bytes fs_dense8 + FILE_BYTES Pd8) /\
    7 * (alloc_factor (RMS Pd8) * (wal_bytes fs_dense8 + FILE_BYTES Pd8)) < 10 * log_memory_used Pd8 st.
Proof.
  pose proof fs_dense8_mem as [[[Hmem Hw]%pair_equal_spec Hf]%pair_equal_spec Ha]%pair_equal_spec.
  destruct (mem_of_some _ _ _ Hmem) as (st & Ho & Hm).
  exists st. split; [exact Ho|].
  split; [exact (open_alloc_bound Pd8 fs_dense8 None PNothing [] st Ho)|].
  rewrite Hm, Hw, Hf, Ha. reflexivity.
Qed.

Definition rd_dummy : rreaderS := mkRd (ctx_init [] None) [] 0 0 0 [].
Definition c_a : ioctx := Eval vm_compute in fst (rd_open Ps (ctx_init fs_a None)).
Definition rd_a : rreaderS :=
  Eval vm_compute in match snd (rd_open Ps (ctx_init fs_a None)) with Ok rd => rd | _ => rd_dummy end.
Lemma rd_open_a : rd_open Ps (ctx_init fs_a None) = (c_a, Ok rd_a).
Proof. vm_compute. reflexivity. Qed.

(* the replay stopped by the frame fuel (3 frames per record) in the middle of the three-record
   batch of qb, which takes 4 frames over 3 blocks and 2 files *)
Definition rr_a : rreader_t := Eval vm_compute in fst (replay_loop Ps 20 3 (rr_open rreaderS rd_a) []).
Lemma replay_a : replay_loop Ps 20 3 (rr_open rreaderS rd_a) [] = (rr_a, RpFuel).
Proof. vm_compute. reflexivity. Qed.

Lemma C10_open_reader_buffer_bound_inst :
  lenN (rr_buf rr_a) + unread Ps (c_fs (rd_ctx rd_a)) rr_a <= wal_bytes fs_a + FILE_BYTES Ps.
Proof. exact (open_reader_buffer_bound Ps fs_a None c_a rd_a 20 3 rr_a RpFuel rd_open_a replay_a). Qed.

(* 75 bytes assembled (three frames of 25), 64 bytes of the directory not yet passed, against
   384 + 64; at the start the potential is 384 - 32 (the first block is in hand) *)
Example buffer_inst_numbers :
  (lenN (rr_buf rr_a), rr_within rr_a, unread Ps (c_fs (rd_ctx rd_a)) rr_a,
   unread Ps (c_fs (rd_ctx rd_a)) (rr_open rreaderS rd_a), wal_bytes fs_a + FILE_BYTES Ps)
  = (75, true, 64, 384, 448).
Proof. vm_compute. reflexivity. Qed.

(* a second instance, with a fault plan: the third read fails persistently; rd_open succeeds
   (it makes one read) and the loop stops on the I/O error, 31 bytes of a record in the buffer *)
Definition plan_r : fplan := mkPlan SRead 2 true IoOther.
Definition c_f : ioctx := Eval vm_compute in fst (rd_open Ps (ctx_init fs_a (Some plan_r))).
Definition rd_f : rreaderS :=
  Eval vm_compute in match snd (rd_open Ps (ctx_init fs_a (Some plan_r))) with Ok rd => rd | _ => rd_dummy end.
Lemma rd_open_f : rd_open Ps (ctx_init fs_a (Some plan_r)) = (c_f, Ok rd_f).
Proof. vm_compute. reflexivity. Qed.
Definition rr_f : rreader_t := Eval vm_compute in fst (replay_loop Ps 20 20 (rr_open rreaderS rd_f) []).
Definition r_f : replay_result := Eval vm_compute in snd (replay_loop Ps 20 20 (rr_open rreaderS rd_f) []).
Lemma replay_f : replay_loop Ps 20 20 (rr_open rreaderS rd_f) [] = (rr_f, r_f).
Proof. vm_compute. reflexivity. Qed.
Lemma C10_open_reader_buffer_bound_fault_inst :
  lenN (rr_buf rr_f) + unread Ps (c_fs (rd_ctx rd_f)) rr_f <= wal_bytes fs_a + FILE_BYTES Ps.
Proof.
  exact (open_reader_buffer_bound Ps fs_a (Some plan_r) c_f rd_f 20 20 rr_f r_f rd_open_f replay_f).
Qed.
Example buffer_fault_numbers :
  (r_f, lenN (rr_buf rr_f), unread Ps (c_fs (rd_ctx rd_f)) rr_f, c_nread (rd_ctx (fr_rd (rr_fr rr_f)))) =
  (RpIo IoOther, 31, 320, 3).
Proof. vm_compute. reflexivity. Qed.
End Alloc.

(* HeaderDamage.v: the damaged block is block 1, the damage hits the header of the Middle frame of a
   three-block entry *)
Module HD.
Import DamageAtomic.Example.
Local Notation rframe := (read_frame Pc vecr (vr_next Pc) vr_block).
Local Notation K f := (f Pc Pc_BS_lo Pc_BS_hi Pc_crc) (only parsing).

Fixpoint lay_bytes (a : N) (xs : list fspec) : bytes :=
  match xs with
  | [] => []
  | x :: r => pad_of Pc a ++ fs_bytes x ++ lay_bytes (a + lenN (pad_of Pc a) + 7 + lenN (fs_pl x)) r
  end.
Fixpoint lay_chk (a : N) (xs : list fspec) : bool :=
  match xs with
  | [] => true
  | x :: r => (lenN (fs_c4 x) =? 4) && (lenN (fs_pl x) <=? max_writable Pc (BS Pc - a mod BS Pc)) &&
              lay_chk (a + lenN (pad_of Pc a) + 7 + lenN (fs_pl x)) r
  end.
Lemma lay_chk_ok xs : forall a, lay_chk a xs = true -> layout Pc a xs (lay_bytes a xs).
Proof.
  induction xs as [|x r IH]; intros a H; cbn [lay_bytes]; [constructor|].
  cbn [lay_chk] in H. apply andb_true_iff in H. destruct H as [H H3].
  apply andb_true_iff in H. destruct H as [H1 H2].
  apply N.eqb_eq in H1. apply N.leb_le in H2.
  apply LY_cons; [exact H1|exact H2|apply IH; exact H3].
Qed.

(* BS = 32, real CRC-32.  e1: one Full frame at 0..10 (block 0).  big (60 bytes): a First frame
   at 10..32 (15 bytes), a MIDDLE frame filling block 1 (32..64, 25 bytes), a Last frame at
   64..91 (20 bytes).  5 bytes of padding.  e3: one Full frame at 96..108 (block 3). *)
Definition e1 : bytes := ["a"; "b"; "c"]%byte.
Definition big : bytes := Eval vm_compute in map (fun k => n2b (N.of_nat k)) (seq 65 60).
Definition e3 : bytes := ["h"; "e"; "l"; "l"; "o"]%byte.

Definition w : vecw := Eval vm_compute in fst (mem_write_all Pc (mkVecW 0 []) ([e1] ++ [big] ++ [e3])).
Definition ns : list N := Eval vm_compute in snd (mem_write_all Pc (mkVecW 0 []) ([e1] ++ [big] ++ [e3])).
Lemma write_ok : mem_write_all Pc (mkVecW 0 []) ([e1] ++ [big] ++ [e3]) = (w, ns).
Proof. vm_compute. reflexivity. Qed.

Definition t1 : bytes := Eval vm_compute in encs_of Pc 0 [e1].
Definition tb : bytes := Eval vm_compute in encs_of Pc 10 [big].
Definition t3 : bytes := Eval vm_compute in encs_of Pc 91 [e3].
Definition t : bytes := Eval vm_compute in vw_buf w.
Lemma t_split : t = t1 ++ tb ++ t3.
Proof. vm_compute. reflexivity. Qed.
Definition S : bytes := Eval vm_compute in mem_stream Pc t.
(* ONE byte overwritten: the low byte of the length field of the Middle frame header (at 32 in
   the stream, i.e. offset 0 of block 1): 25 -> 5 *)
Definition D : bytes := Eval vm_compute in write_at S 36 ["005"%byte].

Example shape :
  (lenN t1, lenN tb, lenN t3, lenN t, lenN S) = (10, 81, 17, 108, 160) /\
  sliceN 32 39 S = le_enc 4 (crcf Pc (n2b (ft_code Middle)) (sliceN 15 40 big)) ++ le_enc 2 25 ++
                   [n2b (ft_code Middle)] /\
  sliceN 32 39 D = le_enc 4 (crcf Pc (n2b (ft_code Middle)) (sliceN 15 40 big)) ++ le_enc 2 5 ++
                   [n2b (ft_code Middle)] /\
  sliceN 64 71 S = le_enc 4 (crcf Pc (n2b (ft_code Last)) (dropN 40 big)) ++ le_enc 2 20 ++
                   [n2b (ft_code Last)].
Proof. vm_compute. repeat split; reflexivity. Qed.

Definition xs : list fspec :=
  [good_fs Pc Full e1; good_fs Pc First (takeN 15 big); good_fs Pc Middle (sliceN 15 40 big);
   good_fs Pc Last (dropN 40 big); good_fs Pc Full e3].

Lemma lay : layout Pc 0 xs t.
Proof.
  replace t with (lay_bytes 0 xs) by (vm_compute; reflexivity).
  apply lay_chk_ok. vm_compute. reflexivity.
Qed.

Lemma rel1 : encs_rel Pc 0 [e1] t1.
Proof. change t1 with (encs_of Pc 0 [e1]). apply (K encs_of_rel). Qed.
Lemma relb : encs_rel Pc (lenN t1) [big] tb.
Proof. change tb with (encs_of Pc 10 [big]). apply (K encs_of_rel). Qed.
Lemma rel3 : encs_rel Pc (lenN t1 + lenN tb) [e3] t3.
Proof. change t3 with (encs_of Pc 91 [e3]). apply (K encs_of_rel). Qed.

Lemma dmg : damaged_in_block Pc D (t1 ++ tb ++ t3) 1.
Proof. rewrite <- t_split. unfold damaged_in_block. repeat split; vm_compute; congruence. Qed.

(* the reader's way through block 1 of D: the damaged Middle header at 0 (valid type, length 5,
   CRC mismatch), then cursor 12, in the middle of the payload, where the type byte is not a
   frame type: the rest of the block is skipped *)
Lemma reach_set o : reach Pc D 1 o -> o = 0 \/ o = 12.
Proof.
  induction 1 as [|c c' res Hr IH Hc E]; [left; reflexivity|].
  destruct IH as [->| ->]; vm_compute in E; inversion E; auto.
Qed.

Example reach_12 : reach Pc D 1 12.
Proof.
  apply (reach_step Pc D 1 0 12 FCorrupt); [constructor|vm_compute; congruence|].
  vm_compute. reflexivity.
Qed.

Lemma path_ok : NoEmbeddedPath Pc D 1 t.
Proof.
  apply (K NoEmbeddedPath_of_X D 1 t xs lay).
  apply (K HeaderDamageEx.path_chk_sound 3); vm_compute; [congruence|reflexivity].
Qed.

Lemma not_stopped : ~ stopped_in Pc D 1.
Proof.
  intros [H|(o & Hr & Ho & Hz)].
  - vm_compute in H. discriminate H.
  - destruct (reach_set o Hr) as [->| ->]; vm_compute in Hz; discriminate Hz.
Qed.

(* header_damage_resync with ALL premises discharged: es1 = [e1] (block 0), esb = [big]
   (blocks 0-2, its Middle frame is block 1), es3 = [e3] (block 3) *)
Theorem C08_header_damage_resync_inst :
  exists mid, delivered (mem_read_stream Pc D) = [e1] ++ mid ++ [e3] /\ sublist mid [big].
Proof.
  apply (K header_damage_resync [e1] [big] [e3] t1 tb t3 D 1 rel1 relb rel3).
  - exact dmg.
  - vm_compute. congruence.
  - right. vm_compute. congruence.
  - rewrite <- t_split. exact path_ok.
  - exact not_stopped.
Qed.

(* what the reader actually delivers: the entry before, two corruptions (the damaged Middle
   frame; the Last frame without its beginning), the entry after *)
Lemma out : mem_read_stream Pc D = [MrEntry e1; MrCorrupt; MrCorrupt; MrEntry e3; MrEnd].
Proof. vm_compute. reflexivity. Qed.

(* header_damage_written: from the writer's call, the three pieces being those of the writer *)
Theorem C08_header_damage_written_inst :
  let out := mem_read_stream Pc D in
  ~ In MrFuel out /\
  sublist (delivered out) ([e1] ++ [big] ++ [e3]) /\
  exists mid tail,
    delivered out = [e1] ++ mid ++ tail /\ sublist mid [big] /\
    (tail = [e3] \/ (tail = [] /\ stopped_in Pc D 1)).
Proof.
  destruct (K header_damage_written [e1] [big] [e3] w ns D 1 write_ok)
    as (t1' & tb' & t3' & Ew & R1 & Rb & R3 & H).
  pose proof (K encs_rel_encs_of _ _ _ R1) as E1. subst t1'.
  pose proof (K encs_rel_encs_of _ _ _ Rb) as Eb. subst tb'.
  apply H.
  - change (vw_buf w) with t. rewrite t_split. exact dmg.
  - vm_compute. congruence.
  - right. vm_compute. congruence.
  - change (vw_buf w) with t. exact path_ok.
Qed.

(* the same with the damage on the TYPE byte of the Middle header (3 -> 9, not a frame type):
   the block is skipped at once; header_damage_resync again *)
Definition D2 : bytes := Eval vm_compute in write_at S 38 ["009"%byte].
Lemma dmg2 : damaged_in_block Pc D2 (t1 ++ tb ++ t3) 1.
Proof. rewrite <- t_split. unfold damaged_in_block. repeat split; vm_compute; congruence. Qed.
Lemma reach_set2 o : reach Pc D2 1 o -> o = 0.
Proof.
  induction 1 as [|c c' res Hr IH Hc E]; [reflexivity|].
  subst c. vm_compute in E. inversion E; auto.
Qed.
Lemma path_ok2 : NoEmbeddedPath Pc D2 1 t.
Proof.
  apply (K NoEmbeddedPath_of_X D2 1 t xs lay).
  apply (K HeaderDamageEx.path_chk_sound 2); vm_compute; [congruence|reflexivity].
Qed.
Lemma not_stopped2 : ~ stopped_in Pc D2 1.
Proof.
  intros [H|(o & Hr & Ho & Hz)].
  - vm_compute in H. discriminate H.
  - rewrite (reach_set2 o Hr) in Hz. vm_compute in Hz. discriminate Hz.
Qed.
Theorem C08_header_damage_resync_type_inst :
  exists mid, delivered (mem_read_stream Pc D2) = [e1] ++ mid ++ [e3] /\ sublist mid [big].
Proof.
  apply (K header_damage_resync [e1] [big] [e3] t1 tb t3 D2 1 rel1 relb rel3).
  - exact dmg2.
  - vm_compute. congruence.
  - right. vm_compute. congruence.
  - rewrite <- t_split. exact path_ok2.
  - exact not_stopped2.
Qed.
End HD.

Print Assumptions Power.C04_power_next_positions_inst.
Print Assumptions Power.C04_power_next_after_persist_inst.
Print Assumptions Power.C18_power_projection_inst.
Print Assumptions Power.C18_power_projection_after_persist_inst.
Print Assumptions Power.C12_batch_power_inst.
Print Assumptions Power.C12_batch_power_persisted_inst.
Print Assumptions Power.pcensus_cr.
Print Assumptions Alloc.C10_open_alloc_bound_inst.
Print Assumptions Alloc.C10_open_alloc_bound_tight_inst.
Print Assumptions Alloc.C10_open_alloc_bound_tight8_inst.
Print Assumptions Alloc.C10_open_reader_buffer_bound_inst.
Print Assumptions Alloc.C10_open_reader_buffer_bound_fault_inst.
Print Assumptions HD.C08_header_damage_resync_inst.
Print Assumptions HD.C08_header_damage_written_inst.
Print Assumptions HD.C08_header_damage_resync_type_inst.

(* COVERAGE
   theorem                                   instance (all premises discharged)
   PowerCorollaries.power_next_positions      Power.C04_power_next_positions_inst
   PowerCorollaries.power_next_after_persist  Power.C04_power_next_after_persist_inst   (i = 4, 29 <= cut)
   PowerCorollaries.power_projection          Power.C18_power_projection_inst
   PowerCorollaries.power_projection_after_persist
                                              Power.C18_power_projection_after_persist_inst
   PowerCorollaries.batch_power               Power.C12_batch_power_inst
   PowerCorollaries.batch_power_persisted     Power.C12_batch_power_persisted_inst      (24 <= cut)
   AllocBound.open_alloc_bound                Alloc.C10_open_alloc_bound_inst, _tight_inst (68%),
                                              _tight8_inst (72%)
   AllocBound.open_reader_buffer_bound        Alloc.C10_open_reader_buffer_bound_inst (RpFuel, 75
                                              bytes assembled), _fault_inst (RpIo)
   HeaderDamage.header_damage_resync          HD.C08_header_damage_resync_inst (block 1, length
                                              field of a Middle header), _type_inst (type byte)
   HeaderDamage.header_damage_written         HD.C08_header_damage_written_inst
   No premise set was found unsatisfiable or only trivially satisfiable.  Remarks:
   - wr_all_synced after the batch append (batch_power_persisted) holds in SatCrash although the
     policy is PDelay true, because the timer ticks on that call; C03_fsync_durable does not
     derive it (its premise fsync_call wants an Always policy for appends), so it is checked on
     the trace by all_synced_b.  Along h_cr the two persist-point premises fail after calls
     1, 3, 6, 8, 10 (Power.not_synced_elsewhere).
   - ~ stopped_in (header_damage_resync) needs a block after the damaged one and no all-zero
     header on the reader's way through it: here the reader visits cursors 0 and 12 of block 1. *)
