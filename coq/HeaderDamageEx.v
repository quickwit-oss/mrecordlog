(* HeaderDamageEx.v — instances for HeaderDamage.v, by computation with the real CRC-32
   (params Pc of DamageAtomic.Example: BS = 32):
   (A) finding F4: a payload embedding the byte image of a CRC-valid frame + ONE overwritten
       byte (the length field of the previous frame): the reader delivers an entry that was
       never written; this stream violates NoEmbedded / NoEmbeddedPath, all other premises
       of header_damage_sublist hold: the hypothesis is necessary.
   (B) non-vacuity: the same entries with another value of the same length byte: the premises
       of header_damage_local hold (NoEmbeddedPath does, although the all-offsets form
       NoEmbedded does not), damage is confined to block 0 and the entry of block 1 is delivered.
   (C) the claim "every entry lying entirely outside the damaged block is delivered" is FALSE
       in the model: a damaged length field makes the reader land on zero payload bytes,
       which read as the end of the log; the entry of block 1 is lost although NoEmbedded
       holds (even in its all-offsets form).  Hence the disjunct `tail = []`. *)
From Coq Require Import Lia ZArith ZifyN ZifyNat ZifyBool List.
From MRL Require Import Bytes BytesProofs Params Frame Driver StreamProofs DamageProofs TornProofs
  ResyncProofs HeaderDamageEv HeaderDamage.
From MRL Require DamageAtomic VacBase.
Import ListNotations.
Import DamageAtomic.Example.

Local Notation rframe := (read_frame Pc vecr (vr_next Pc) vr_block).
Local Notation K f := (f Pc Pc_BS_lo Pc_BS_hi Pc_crc) (only parsing).

Definition fspec_eqb (x y : fspec) : bool :=
  bytes_eqb (fs_c4 x) (fs_c4 y) && (ft_code (fs_ty x) =? ft_code (fs_ty y)) &&
  bytes_eqb (fs_pl x) (fs_pl y).

Lemma fspec_eqb_eq x y : fspec_eqb x y = true -> x = y.
Proof.
  destruct x as [c ty pl], y as [c' ty' pl']. unfold fspec_eqb. cbn [fs_c4 fs_ty fs_pl].
  intros H. apply andb_true_iff in H as [H H3]. apply andb_true_iff in H as [H1 H2].
  apply bytes_eqb_eq in H1, H3. subst.
  assert (ty = ty') by (destruct ty, ty'; try reflexivity; discriminate H2). subst. reflexivity.
Qed.

(* the frames of a written stream, by parsing; a checker for layout *)
Section Parse.
Variable P : params.

Fixpoint parse (fuel : nat) (a : N) (e : bytes) : list fspec :=
  match fuel with
  | O => []
  | S f =>
      match e with
      | [] => []
      | _ =>
          let e1 := dropN (lenN (pad_of P a)) e in
          let len := le_dec (sliceN 4 6 e1) in
          match ft_of_code (le_dec (sliceN 6 7 e1)) with
          | Some t => mkFS (takeN 4 e1) t (sliceN 7 (7 + len) e1)
                      :: parse f (a + lenN (pad_of P a) + 7 + len) (dropN (7 + len) e1)
          | None => []
          end
      end
  end.

Fixpoint layout_b (a : N) (xs : list fspec) (e : bytes) : bool :=
  match xs with
  | [] => isnil e
  | x :: r =>
      let pre := pad_of P a ++ fs_bytes x in
      (lenN (fs_c4 x) =? 4) && (lenN (fs_pl x) <=? max_writable P (BS P - a mod BS P)) &&
      bytes_eqb (takeN (lenN pre) e) pre &&
      layout_b (a + lenN (pad_of P a) + 7 + lenN (fs_pl x)) r (dropN (lenN pre) e)
  end.

Lemma layout_b_sound xs : forall a e, layout_b a xs e = true -> layout P a xs e.
Proof.
  induction xs as [|x r IH]; intros a e H; cbn [layout_b] in H.
  - destruct e; [constructor|discriminate].
  - apply andb_true_iff in H as [H Hr]. apply andb_true_iff in H as [H Hpre].
    apply andb_true_iff in H as [Hc4 Hfit].
    apply N.eqb_eq in Hc4. apply N.leb_le in Hfit. apply bytes_eqb_eq in Hpre.
    rewrite <- (takeN_dropN (lenN (pad_of P a ++ fs_bytes x)) e), Hpre, <- app_assoc.
    apply LY_cons; [exact Hc4|exact Hfit|]. apply IH. exact Hr.
Qed.
End Parse.

(* checkers for NoEmbeddedX / NoEmbeddedPathX *)
Section Genuine.
Variable P : params.
Hypothesis HBS_lo : 7 < BS P.
Hypothesis HBS_hi : BS P <= 65542.
Hypothesis Hcrc : forall t p, crcf P t p < 2 ^ 32.

(* is (position q, the CRC-valid frame t p) one of the frames of xs? *)
Definition genuine_in (xs : list fspec) (q : N) (t : ftype) (p : bytes) : bool :=
  existsb (fun qx => (fst qx =? q) && fspec_eqb (snd qx) (good_fs P t p)) (fpos P 0 xs).

Lemma genuine_in_sound xs q t p : genuine_in xs q t p = true -> In (q, good_fs P t p) (fpos P 0 xs).
Proof.
  intros H. apply existsb_exists in H as ([q' x] & Hin & Hq). cbn [fst snd] in Hq.
  apply andb_true_iff in Hq as [Hq1 Hq2]. apply N.eqb_eq in Hq1. apply fspec_eqb_eq in Hq2.
  subst. exact Hin.
Qed.

(* the reader's walk through block b from cursor c, as reach describes it: whatever it accepts
   must be a frame of xs at that place; the walk ends where the cursor stays (a zero header) or
   leaves no room for a header *)
Fixpoint path_chk (fuel : nat) (D : bytes) (b : N) (xs : list fspec) (c : N) : bool :=
  match fuel with
  | O => false
  | S f =>
      match read_frame P vecr (vr_next P) vr_block (rd_at P D b c) with
      | (fr', res) =>
          match res with FOk t p => genuine_in xs (b * BS P + c) t p | _ => true end &&
          ((fr_cursor fr' =? c) || (BS P <? fr_cursor fr' + 7) || path_chk f D b xs (fr_cursor fr'))
      end
  end.

Lemma path_chk_sound fuel D b xs :
  (b + 1) * BS P <= lenN D -> path_chk fuel D b xs 0 = true -> NoEmbeddedPathX P D b xs.
Proof.
  intros Hblk H. apply (accepted_genuine_path P HBS_lo HBS_hi Hcrc); [exact Hblk|].
  (* every cursor on the path with room for a header is one the walk has checked *)
  assert (Hall : forall o, reach P D b o -> o + 7 <= BS P -> exists f, path_chk (S f) D b xs o = true).
  { induction 1 as [|c c' res Hr IH Hc E]; intros Ho.
    - destruct fuel as [|f]; [discriminate H|]. exists f. exact H.
    - destruct (IH Hc) as (f & Hf). pose proof Hf as Hf0. cbn [path_chk] in Hf. rewrite E in Hf.
      unfold StreamProofs.rd_at in Hf. cbn [fr_cursor] in Hf.
      apply andb_true_iff in Hf as [_ Hn]. rewrite !orb_true_iff in Hn.
      destruct Hn as [[Hn|Hn]|Hn].
      + apply N.eqb_eq in Hn. subst c'. exists f. exact Hf0.
      + apply N.ltb_lt in Hn. lia.
      + destruct f as [|f']; [discriminate Hn|]. exists f'. exact Hn. }
  intros o Hr Ho fr' t p E. destruct (Hall o Hr Ho) as (f & Hf).
  cbn [path_chk] in Hf. rewrite E in Hf. apply andb_true_iff in Hf as [Hg _].
  exact (genuine_in_sound _ _ _ _ Hg).
Qed.
End Genuine.

Definition acc_chk (D : bytes) (b : N) (xs : list fspec) : bool :=
  VacBase.all_lt (BS Pc - 6) (fun o =>
    match rframe (rd_at Pc D b o) with
    | (_, FOk t p) =>
        genuine_in Pc xs (b * BS Pc + o) t p
    | _ => true
    end).

Lemma acc_chk_sound D b xs :
  (b + 1) * BS Pc <= lenN D -> acc_chk D b xs = true -> NoEmbeddedX Pc D b xs.
Proof.
  intros Hblk H. apply (K accepted_genuine_all); [exact Hblk|].
  intros o Ho fr' t p E.
  pose proof (VacBase.all_lt_spec _ _ H o ltac:(lia)) as Ho'. cbv beta in Ho'. rewrite E in Ho'.
  exact (genuine_in_sound Pc _ _ _ _ Ho').
Qed.

Definition evil : bytes := ["e"; "v"; "i"; "l"]%byte.
Definition e1 : bytes := ["a"; "b"; "c"]%byte.
Definition e2 : bytes := ["x"; "y"]%byte ++ frame_bytes Pc Full evil.
Definition e3 : bytes := ["h"; "e"; "l"; "l"; "o"]%byte.

Lemma written_rel es t :
  vw_buf (fst (mem_write_all Pc (mkVecW 0 []) es)) = t -> encs_rel Pc 0 es t.
Proof.
  intros E. destruct (K mem_write_all_spec es (mkVecW 0 [])) as (ns & t' & Hall & Hes & _).
  rewrite Hall in E. cbn [fst vw_buf app] in E. subst t'. exact Hes.
Qed.

Module A.
Definition es : list bytes := [e1; e2; e3].
Definition t : bytes := Eval vm_compute in vw_buf (fst (mem_write_all Pc (mkVecW 0 []) es)).
Definition S : bytes := Eval vm_compute in mem_stream Pc t.
(* one byte overwritten: the low byte of the length field of the first frame, 3 -> 12 *)
Definition D : bytes := Eval vm_compute in write_at S 4 ["012"%byte].

Definition xs : list fspec := [good_fs Pc Full e1; good_fs Pc Full e2; good_fs Pc Full e3].

Lemma rel : encs_rel Pc 0 es t.
Proof. apply written_rel. vm_compute. reflexivity. Qed.

Lemma dmg : damaged_in_block Pc D t 0.
Proof. unfold damaged_in_block. repeat split; vm_compute; congruence. Qed.

Lemma lay : layout Pc 0 xs t.
Proof. apply layout_b_sound. vm_compute. reflexivity. Qed.

(* what the reader delivers: a Corruption, then an entry that was never written; the entry of
   block 1 is untouched *)
Lemma out : mem_read_stream Pc D = [MrCorrupt; MrEntry evil; MrEntry e3; MrEnd].
Proof. vm_compute. reflexivity. Qed.

Lemma not_sublist : ~ sublist (delivered (mem_read_stream Pc D)) es.
Proof.
  rewrite out. cbn [delivered flat_map app]. intros H.
  pose proof (sublist_In _ _ evil H (or_introl eq_refl)) as Hin.
  destruct Hin as [E|[E|[E|[]]]]; vm_compute in E; discriminate E.
Qed.

(* the stream violates the hypothesis, even in its weakest (path) form: offset 19 is on the
   reader's path and carries the image of a CRC-valid frame that the writer did not put there *)
Lemma reach19 : reach Pc D 0 19.
Proof.
  apply (reach_step Pc D 0 0 19 FCorrupt); [constructor|vm_compute; congruence|].
  vm_compute. reflexivity.
Qed.

Lemma violates_path : ~ NoEmbeddedPath Pc D 0 t.
Proof.
  intros H. specialize (H xs lay eq_refl 19 reach19 Full evil).
  assert (Hin : In (0 * BS Pc + 19, good_fs Pc Full evil) (fpos Pc 0 xs)).
  { apply H; [vm_compute; congruence|vm_compute; reflexivity]. }
  vm_compute in Hin. destruct Hin as [E|[E|[E|[]]]]; discriminate E.
Qed.

Lemma violates : ~ NoEmbedded Pc D 0 t.
Proof. intros H. exact (violates_path (NoEmbedded_path Pc D 0 t H)). Qed.

(* so the conclusion of header_damage_sublist fails while its other premises hold *)
Theorem NoEmbedded_necessary :
  encs_rel Pc 0 es t /\ damaged_in_block Pc D t 0 /\
  ~ sublist (delivered (mem_read_stream Pc D)) es /\ ~ NoEmbeddedPath Pc D 0 t.
Proof. exact (conj rel (conj dmg (conj not_sublist violates_path))). Qed.
End A.

Module B.
Definition es : list bytes := A.es.
Definition t : bytes := A.t.
Definition xs : list fspec := A.xs.
(* the length field of the SECOND frame: 13 -> 5; the reader then lands inside the embedded
   frame image (not at its start) *)
Definition D : bytes := Eval vm_compute in write_at A.S 14 ["005"%byte].

Lemma dmg : damaged_in_block Pc D t 0.
Proof. unfold damaged_in_block. repeat split; vm_compute; congruence. Qed.

(* the reader's path through block 0 is 0, 10, 22; the one frame it accepts (at 0) is e1's *)
Lemma path_ok : NoEmbeddedPath Pc D 0 t.
Proof.
  apply (K NoEmbeddedPath_of_X D 0 t xs A.lay).
  apply (K path_chk_sound 4); vm_compute; [congruence|reflexivity].
Qed.

(* the all-offsets form does not hold here: the embedded image still stands at offset 19 *)
Lemma all_offsets_fails : ~ NoEmbedded Pc D 0 t.
Proof.
  intros H. specialize (H xs A.lay eq_refl 19 Full evil).
  assert (Hin : In (0 * BS Pc + 19, good_fs Pc Full evil) (fpos Pc 0 xs)).
  { apply H; [vm_compute; congruence|vm_compute; reflexivity]. }
  vm_compute in Hin. destruct Hin as [E|[E|[E|[]]]]; discriminate E.
Qed.

(* header_damage_local applied with ALL its premises discharged:
   es1 = [], esb = [e1; e2] (block 0), es3 = [e3] (block 1) *)
Definition tb : bytes := Eval vm_compute in encs_of Pc 0 [e1; e2].
Definition t3 : bytes := Eval vm_compute in encs_of Pc 30 [e3].

Lemma relb : encs_rel Pc (lenN (@nil byte)) [e1; e2] tb.
Proof. change tb with (encs_of Pc 0 [e1; e2]). apply (K encs_of_rel). Qed.
Lemma rel3 : encs_rel Pc (lenN (@nil byte) + lenN tb) [e3] t3.
Proof. change t3 with (encs_of Pc 30 [e3]). apply (K encs_of_rel). Qed.

Theorem instance :
  let out := mem_read_stream Pc D in
  ~ In MrFuel out /\ sublist (delivered out) ([] ++ [e1; e2] ++ [e3]) /\
  exists mid tail, delivered out = [] ++ mid ++ tail /\ sublist mid [e1; e2] /\
                   (tail = [e3] \/ (tail = [] /\ stopped_in Pc D 0)).
Proof.
  apply (K header_damage_local [] [e1; e2] [e3] [] tb t3 D 0 (ES_nil Pc 0) relb rel3).
  - exact dmg.
  - vm_compute. congruence.
  - right. vm_compute. congruence.
  - exact path_ok.
Qed.

Lemma out : mem_read_stream Pc D = [MrEntry e1; MrCorrupt; MrCorrupt; MrEntry e3; MrEnd].
Proof. vm_compute. reflexivity. Qed.
End B.

Module C.
Definition z12 : bytes := zerosN 12.
Definition es : list bytes := [e1; z12; e3].
Definition t : bytes := Eval vm_compute in vw_buf (fst (mem_write_all Pc (mkVecW 0 []) es)).
Definition S : bytes := Eval vm_compute in mem_stream Pc t.
(* the length field of the first frame: 3 -> 10; the reader lands on the zero payload of the
   second entry *)
Definition D : bytes := Eval vm_compute in write_at S 4 ["010"%byte].
Definition xs : list fspec := [good_fs Pc Full e1; good_fs Pc Full z12; good_fs Pc Full e3].

Lemma rel : encs_rel Pc 0 es t.
Proof. apply written_rel. vm_compute. reflexivity. Qed.

Lemma dmg : damaged_in_block Pc D t 0.
Proof. unfold damaged_in_block. repeat split; vm_compute; congruence. Qed.

Lemma lay : layout Pc 0 xs t.
Proof. apply layout_b_sound. vm_compute. reflexivity. Qed.

(* NoEmbedded holds, in the all-offsets form *)
Lemma noemb : NoEmbedded Pc D 0 t.
Proof.
  apply (K NoEmbedded_of_X D 0 t xs lay).
  apply acc_chk_sound; [vm_compute; congruence|]. vm_compute. reflexivity.
Qed.

(* e3 lies entirely in block 1, the damage entirely in block 0, and e3 is NOT delivered *)
Lemma out : mem_read_stream Pc D = [MrCorrupt; MrEnd].
Proof. vm_compute. reflexivity. Qed.

Theorem later_entries_can_be_lost :
  encs_rel Pc 0 es t /\ damaged_in_block Pc D t 0 /\ NoEmbedded Pc D 0 t /\
  sliceN 32 64 D = sliceN 32 64 S /\
  sliceN 32 44 S = frame_bytes Pc Full e3 /\
  ~ In e3 (delivered (mem_read_stream Pc D)).
Proof.
  split; [exact rel|]. split; [exact dmg|]. split; [exact noemb|].
  split; [vm_compute; reflexivity|]. split; [vm_compute; reflexivity|].
  rewrite out. cbn. tauto.
Qed.
End C.

Print Assumptions A.NoEmbedded_necessary.
Print Assumptions A.violates.
Print Assumptions B.instance.
Print Assumptions B.all_offsets_fails.
Print Assumptions C.later_entries_can_be_lost.
