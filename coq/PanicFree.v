(* PanicFree.v — property C10, panic half: the panic sites of the Rust code reachable from
   `MultiRecordLog::open` and from the read accessors, each with its GUARD (the condition, on the
   values of the model at the mirrored point, under which the Rust expression does not panic),
   and the proof that every guard holds on ANY directory content.

   The model is total (slices truncate, `-` saturates, nth defaults), so "does not panic" is
   stated here as a family of predicates `f_guards args`, one per model function f, that mirror
   the control flow of f and collect the guards of the sites met along the way.

   Conventions.
   - A site is named  <file>:<line>  (lines of /repo/src, `#[cfg(mrecordlog_verif)]` ignored).
   - usize is taken to be 64 bits; U64 = 2^64.
   - Sites that panic in every profile (slice/index out of range, unwrap on None, assert!,
     split_at, copy_from_slice, try_into().unwrap()) are plain conjuncts.
   - Sites that panic only with overflow checks (debug profile) are conjuncts wrapped in
     `ovf dbg (...)`: they are required only when dbg = true.  `f_guards false` is the release
     profile, `f_guards true` the debug profile.  Subtractions that cannot underflow are proved
     unconditionally (they are listed as overflow sites all the same).
   The table of all sites with their status is at the end of the file. *)
From Coq Require Import Lia ZArith ZifyN ZifyNat ZifyBool.
From MRL Require Import Bytes BytesProofs Params Names NamesProofs Frame Record Mem Rolling Log
     SpecRefine RecordProofs OpenTerm WriterProofs Crc.

Definition U64 : N := 18446744073709551616.          (* 2^64 *)
Lemma U64_pow : U64 = 2 ^ 64. Proof. reflexivity. Qed.

(* a debug-profile-only panic: required only when overflow checks are compiled in *)
Definition ovf (dbg : bool) (X : Prop) : Prop := dbg = true -> X.

Lemma ovf_false X : ovf false X. Proof. intros H; discriminate H. Qed.

Lemma le_dec_lt_2 bs : lenN bs <= 2 -> le_dec bs < 65536.
Proof.
  intros H. pose proof (le_dec_bound bs) as Hb.
  assert (256 ^ lenN bs <= 256 ^ 2) by (apply N.pow_le_mono_r; lia).
  change (256 ^ 2) with 65536 in *. lia.
Qed.

Lemma le_dec_lt_8 bs : lenN bs <= 8 -> le_dec bs < U64.
Proof.
  intros H. pose proof (le_dec_bound bs) as Hb.
  assert (256 ^ lenN bs <= 256 ^ 8) by (apply N.pow_le_mono_r; lia).
  change (256 ^ 8) with U64 in *. lia.
Qed.

Ltac inj H := apply pair_equal_spec in H; destruct H as [<- <-].

Section Guards.
Variable P : params.
Variable dbg : bool.
Notation OVF := (ovf dbg).

(* rolling/directory.rs:26  `&file_name[4..]`   and  :30 `file_name[4..].parse()`
   (str slicing: panics if 4 > len or 4 is not a char boundary).  Reached only after
   `file_name.len() != 24` and `!file_name.starts_with("wal-")` both failed; the four leading
   bytes are then ASCII, so 4 is a char boundary (file_name is a &str: valid UTF-8 by type). *)
Definition filename_to_position_guards (s : bytes) : Prop :=
  if negb (lenN s =? 24) then True
  else if negb (bytes_eqb (takeN 4 s) wal_prefix) then True
  else 4 <= lenN s.

Lemma filename_to_position_guards_hold s : filename_to_position_guards s.
Proof.
  unfold filename_to_position_guards.
  destruct (N.eqb_spec (lenN s) 24) as [E|E]; cbn [negb]; [|exact I].
  destruct (negb _); [exact I|lia].
Qed.

(* the `for dir_entry_res in read_dir` loop: filename_to_position on every regular file *)
Definition scan_guards (fs : fsT) : Prop :=
  forall name e, In (name, e) fs ->
  match e with FFile _ => filename_to_position_guards name | _ => True end.

Lemma scan_guards_hold fs : scan_guards fs.
Proof. intros name [b| |] _; try exact I. apply filename_to_position_guards_hold. Qed.

(* rolling/file_number.rs:17 `self.files.first().unwrap()`, :22 `self.files.last().unwrap()`:
   the tracker must not be empty *)
Definition tracker_guard (files : list N) : Prop := files <> [].

(* Directory::open + RollingReader::open.
   file_number.rs:12  `from_file_numbers(vec![0]).unwrap()`     (FileTracker::new, empty listing)
   directory.rs:72    `files.first()`                            (on the new tracker [0])
   directory.rs:88    `self.files.last()`                        (ensure_last_file_has_full_size)
   directory.rs:151   `directory.first_file_number()`            (RollingReader::open)         *)
Definition rd_open_guards (c0 : ioctx) : Prop :=
  let c := ctx_ev c0 EvReadDir in
  match fault_point c SReadDir with
  | (_, Some _) => True
  | (c1, None) =>
      scan_guards (c_fs c1) /\
      tracker_guard [0] /\
      let listed := list_wal_numbers (c_fs c1) in
      tracker_guard (match listed with [] => [0] | _ => listed end)
  end.

Lemma rd_open_guards_hold c0 : rd_open_guards c0.
Proof.
  unfold rd_open_guards. destruct (fault_point _ _) as [c1 [e|]]; [exact I|].
  split; [apply scan_guards_hold|]. split; [discriminate|].
  destruct (list_wal_numbers (c_fs c1)); discriminate.
Qed.

(* In Rust the block is a `Box<[u8; BLOCK_NUM_BYTES]>`: its length is BS by type.  In the model
   it is a byte list, so this is an invariant to prove: read_block returns a block only when
   pos + BS <= len.  The invariant also records that the blocks read so far fit in the file
   (used for the offset computed by into_writer). *)
Definition rd_ok (rd : rreaderS) : Prop :=
  lenN (rd_block rd) = BS P /\ In (rd_file rd) (rd_files rd) /\
  (rd_block_id rd + 1) * BS P <= rd_pos rd /\
  rd_pos rd <= lenN (fcontent (c_fs (rd_ctx rd)) (rd_file rd)).

Lemma read_block_ok c n pos c' pos' r :
  read_block P c n pos = (c', pos', r) ->
  c_fs c' = c_fs c /\
  match r with
  | Ok (Some blk) => lenN blk = BS P /\ pos' = pos + BS P /\ pos + BS P <= lenN (fcontent (c_fs c) n)
  (* an injected UnexpectedEof is absorbed as a short read with the position unchanged *)
  | Ok None => pos' = pos \/ pos' = N.max pos (lenN (fcontent (c_fs c) n))
  | Err _ => pos' = pos
  end.
Proof.
  intros H. apply read_block_spec in H. destruct H as [Hfs H]. split; [exact Hfs|].
  destruct r as [[blk|]|e]; [|exact H..].
  destruct H as (Hp & Hle & ->). split; [rewrite lenN_sliceN; lia|]. split; [exact Hp|exact Hle].
Qed.

Lemma rd_next_ok rd rd' r :
  rd_ok rd -> rd_next P rd = (rd', r) ->
  rd_ok rd' /\ c_fs (rd_ctx rd') = c_fs (rd_ctx rd).
Proof.
  intros (Hb & Hf & Hp1 & Hp2) H. apply rd_next_inv in H. cbv zeta in H.
  destruct H as (c' & Hc' & Hm).
  assert (Hsame : (exists pos', rd_pos rd <= pos' /\
                     pos' <= N.max (rd_pos rd) (lenN (fcontent (c_fs (rd_ctx rd)) (rd_file rd))) /\
                     rd' = mkRd c' (rd_files rd) (rd_file rd) (rd_block_id rd) pos' (rd_block rd)) ->
                  rd_ok rd' /\ c_fs (rd_ctx rd') = c_fs (rd_ctx rd)).
  { intros (pos' & Hge & Hmax & ->). unfold rd_ok.
    cbn [rd_ctx rd_files rd_file rd_pos rd_block rd_block_id]. rewrite Hc'.
    repeat split; try assumption; lia. }
  destruct r as [[|]|e]; [|exact (Hsame Hm)..].
  destruct Hm as [[Hle ->]|(n & Hin & Hle & ->)]; unfold rd_ok;
    cbn [rd_ctx rd_files rd_file rd_pos rd_block rd_block_id]; rewrite Hc';
    (split; [|reflexivity]); (split; [rewrite lenN_sliceN; lia|]).
  - split; [exact Hf|]. split; [lia|exact Hle].
  - unfold files_after in Hin. apply filter_In in Hin.
    split; [apply Hin|]. split; [lia|exact Hle].
Qed.

Definition fs_bounded (fs : fsT) : Prop := forall n, lenN (fcontent fs n) <= FILE_BYTES P.

Lemma fs_bounded_put fs name b :
  fs_bounded fs -> lenN b <= FILE_BYTES P -> fs_bounded (fs_put fs name (FFile b)).
Proof.
  intros Hb Hl n. rewrite fcontent_put. destruct (bytes_eqb name (filename n)); [exact Hl|apply Hb].
Qed.

Lemma create_file_bounded c n c' r :
  create_file P c n = (c', r) -> fs_bounded (c_fs c) -> fs_bounded (c_fs c').
Proof.
  unfold create_file. destruct (fs_get (c_fs c) (filename n)); intros H Hb; inversion H; subst.
  - exact Hb.
  - cbn [c_fs ctx_ev ctx_fs]. apply fs_bounded_put; [|rewrite lenN_zerosN; lia].
    apply fs_bounded_put; [exact Hb|]. rewrite lenN_nil. lia.
Qed.

Lemma ensure_last_full_bounded c files c' r :
  ensure_last_full P c files = (c', r) -> fs_bounded (c_fs c) -> fs_bounded (c_fs c').
Proof.
  unfold ensure_last_full. destruct (last_opt files) as [n|]; [|intros H Hb; inversion H; subst; exact Hb].
  destruct (lenN (file_content c n) <? FILE_BYTES P); [|intros H Hb; inversion H; subst; exact Hb].
  destruct (open_file c n) as [c1 [u|e]] eqn:Ho; apply open_file_fs in Ho;
    intros H Hb; inversion H; subst.
  - cbn [c_fs ctx_ev ctx_fs]. apply fs_bounded_put; [rewrite Ho; exact Hb|].
    rewrite lenN_set_len. lia.
  - rewrite Ho. exact Hb.
Qed.

Lemma rd_open_tail_ok c2 files c rd :
  files <> [] -> rd_open_tail P c2 files = (c, Ok rd) ->
  rd_ok rd /\ rd_ctx rd = c /\ (fs_bounded (c_fs c2) -> fs_bounded (c_fs c)).
Proof.
  intros Hne H.
  destruct (rd_open_tail_inv _ _ _ _ _ H) as (c3 & u & c4 & u' & pos & blk & He & Ho & Hr & ->).
  assert (Hb3 : fs_bounded (c_fs c2) -> fs_bounded (c_fs c3)).
  { destruct (L_SHORT P); [inversion He; subst; tauto|].
    eapply ensure_last_full_bounded; exact He. }
  apply open_file_fs in Ho.
  apply read_block_ok in Hr. destruct Hr as (Hfs & Hl & Hpos & Hle).
  split; [|split; [reflexivity|]].
  - unfold rd_ok. cbn [rd_ctx rd_files rd_file rd_pos rd_block rd_block_id].
    rewrite Hfs. repeat split; try assumption; try lia.
    destruct files as [|f l]; [congruence|now left].
  - intros Hb2. rewrite Hfs, Ho. exact (Hb3 Hb2).
Qed.

Lemma rd_open_ok c0 c rd :
  rd_open P c0 = (c, Ok rd) ->
  rd_ok rd /\ rd_ctx rd = c /\ (fs_bounded (c_fs c0) -> fs_bounded (c_fs c)).
Proof.
  rewrite rd_open_eq. pose proof (fault_point_fs (ctx_ev c0 EvReadDir) SReadDir) as Hf.
  destruct (fault_point (ctx_ev c0 EvReadDir) SReadDir) as [c1 [e|]]; cbn [fst] in Hf;
    [intros H; inversion H|].
  cbn [c_fs ctx_ev] in Hf. rewrite <- Hf.
  destruct (list_wal_numbers (c_fs c1)) as [|x l]; [|apply rd_open_tail_ok; discriminate].
  destruct (create_file P c1 0) as [c' [u|e]] eqn:Ec; [|intros H; inversion H].
  intros H. apply rd_open_tail_ok in H; [|discriminate]. destruct H as (H1 & H2 & H3).
  split; [exact H1|]. split; [exact H2|]. intros Hb. apply H3.
  eapply create_file_bounded; [exact Ec|exact Hb].
Qed.

Section FrameReader.
Variable R : Type.
Variable rnext : R -> R * res bool.
Variable rblock : R -> bytes.

(* frame/header.rs:55  `assert_eq!(data.len(), HEADER_LEN)`
   frame/header.rs:56-58  `data[0]` .. `data[6]`                                       *)
Definition header_deser_guards (hdr : bytes) : Prop := lenN hdr = HEADER_LEN /\ 6 < lenN hdr.

(* get_frame_header + the rest of read_frame, on the block in place.
   frame/reader.rs:68  `&self.reader.block()[self.cursor..][..HEADER_LEN]`
   frame/reader.rs:85  `self.cursor += HEADER_LEN`                        (overflow)
   frame/reader.rs:86  `self.cursor + header.len()`                       (overflow)
   frame/reader.rs:93  `&self.reader.block()[self.cursor..][..header.len()]`
   frame/reader.rs:94  `self.cursor += header.len()`                      (overflow, same sum) *)
Definition read_here_guards (fr1 : freader R) : Prop :=
  let blk := rblock (fr_rd fr1) in
  let c := fr_cursor fr1 in
  c <= lenN blk /\ HEADER_LEN <= lenN (dropN c blk) /\
  let hdr := sliceN c (c + HEADER_LEN) blk in
  if all_zero hdr then True
  else
    header_deser_guards hdr /\
    let len := le_dec (sliceN 4 6 hdr) in
    match ft_of_code (le_dec (dropN 6 hdr)) with
    | None => True
    | Some t =>
        let c1 := c + HEADER_LEN in
        OVF (c1 < U64) /\ OVF (c1 + len < U64) /\
        if BS P <? c1 + len then True
        else c1 <= lenN blk /\ len <= lenN (dropN c1 blk)
    end.

(* frame/reader.rs:47  `crate::BLOCK_NUM_BYTES - self.cursor`   (usize underflow) *)
Definition read_frame_guards (fr : freader R) : Prop :=
  fr_cursor fr <= BS P /\
  if need_skip P fr then
    match rnext (fr_rd fr) with
    | (r', Ok true) => read_here_guards (mkFR r' 0 false)
    | _ => True
    end
  else read_here_guards fr.

(* RecordReader::go_next has no site of its own (extend_from_slice only allocates) *)
Fixpoint go_next_guards (fuel : nat) (rr : rreader R) : Prop :=
  match fuel with
  | O => True
  | S fuel' =>
      read_frame_guards (rr_fr rr) /\
      match read_frame P R rnext rblock (rr_fr rr) with
      | (fr', FOk t payload) =>
          let within := if is_first_frame t then true else rr_within rr in
          let buf := if is_first_frame t then [] else rr_buf rr in
          if within then
            let buf' := buf ++ payload in
            if is_last_frame t then True
            else go_next_guards fuel' (mkRR fr' buf' true)
          else go_next_guards fuel' (mkRR fr' buf within)
      | _ => True
      end
  end.

Variable Rok : R -> Prop.
Hypothesis Rok_block : forall r, Rok r -> lenN (rblock r) = BS P.
Hypothesis Rok_next : forall r r' x, Rok r -> rnext r = (r', x) -> Rok r'.
Hypothesis HBS : 7 <= BS P.
Hypothesis HBSu : dbg = true -> BS P + 65536 <= U64.

Definition fr_ok (fr : freader R) : Prop := Rok (fr_rd fr) /\ fr_cursor fr <= BS P.

Lemma read_here_guards_hold fr1 :
  Rok (fr_rd fr1) -> fr_cursor fr1 + 7 <= BS P -> read_here_guards fr1.
Proof.
  intros Hr Hc. unfold read_here_guards, header_deser_guards, HEADER_LEN.
  pose proof (Rok_block _ Hr) as Hl.
  split; [lia|]. split; [rewrite lenN_dropN; lia|].
  set (hdr := sliceN _ _ _).
  assert (Hh : lenN hdr = 7) by (unfold hdr; rewrite lenN_sliceN; lia).
  destruct (all_zero hdr); [exact I|]. split; [lia|].
  destruct (ft_of_code _) as [t|]; [|exact I].
  assert (Hlen : le_dec (sliceN 4 6 hdr) < 65536).
  { apply le_dec_lt_2. pose proof (lenN_sliceN_le 4 6 hdr). lia. }
  split; [intros Hd; specialize (HBSu Hd); lia|].
  split; [intros Hd; specialize (HBSu Hd); lia|].
  destruct (N.ltb_spec (BS P) (fr_cursor fr1 + 7 + le_dec (sliceN 4 6 hdr))); [exact I|].
  split; [lia|]. rewrite lenN_dropN. lia.
Qed.

Lemma read_here_ok fr1 fr' r :
  Rok (fr_rd fr1) -> fr_cursor fr1 + 7 <= BS P ->
  read_here P rblock fr1 = (fr', r) -> fr_ok fr'.
Proof.
  intros Hr Hc. unfold read_here, HEADER_LEN, fr_ok.
  destruct (all_zero _); [intros H; inversion H; subst; split; [exact Hr|lia]|].
  destruct (ft_of_code _) as [t|].
  - destruct (N.ltb_spec (BS P) (fr_cursor fr1 + 7 + le_dec (sliceN 4 6
        (sliceN (fr_cursor fr1) (fr_cursor fr1 + 7) (rblock (fr_rd fr1)))))) as [Hlt|Hge].
    + intros H; inversion H; subst; cbn [fr_rd fr_cursor]. split; [exact Hr|lia].
    + destruct (_ =? _); intros H; inversion H; subst; cbn [fr_rd fr_cursor]; (split; [exact Hr|lia]).
  - intros H; inversion H; subst; cbn [fr_rd fr_cursor]. split; [exact Hr|lia].
Qed.

Lemma need_skip_false (fr : freader R) : need_skip P fr = false -> fr_cursor fr + 7 <= BS P.
Proof. unfold need_skip, HEADER_LEN. destruct (fr_corrupt fr); cbn [orb]; [discriminate|]. lia. Qed.

Theorem read_frame_guards_hold fr : fr_ok fr -> read_frame_guards fr.
Proof.
  intros [Hr Hc]. unfold read_frame_guards. split; [exact Hc|].
  destruct (need_skip P fr) eqn:En.
  - destruct (rnext (fr_rd fr)) as [r' [[|]|e]] eqn:Ex; try exact I.
    apply read_here_guards_hold; cbn [fr_rd fr_cursor]; [eapply Rok_next; eauto|lia].
  - apply read_here_guards_hold; [exact Hr|now apply need_skip_false].
Qed.

Lemma read_frame_ok fr fr' r :
  fr_ok fr -> read_frame P R rnext rblock fr = (fr', r) -> fr_ok fr'.
Proof.
  intros [Hr Hc]. rewrite read_frame_eq.
  destruct (need_skip P fr) eqn:En.
  - destruct (rnext (fr_rd fr)) as [r' [[|]|e]] eqn:Ex.
    + apply read_here_ok; cbn [fr_rd fr_cursor]; [eapply Rok_next; eauto|lia].
    + intros H; inversion H; subst. split; cbn [fr_rd fr_cursor]; [eapply Rok_next; eauto|exact Hc].
    + intros H; inversion H; subst. split; cbn [fr_rd fr_cursor]; [eapply Rok_next; eauto|exact Hc].
  - apply read_here_ok; [exact Hr|now apply need_skip_false].
Qed.

Theorem go_next_guards_hold : forall fuel rr, fr_ok (rr_fr rr) -> go_next_guards fuel rr.
Proof.
  induction fuel as [|fuel IH]; intros rr Hok; cbn [go_next_guards]; [exact I|].
  split; [now apply read_frame_guards_hold|].
  destruct (read_frame P R rnext rblock (rr_fr rr)) as [fr' res] eqn:Er.
  pose proof (read_frame_ok _ _ _ Hok Er) as Hok'.
  destruct res as [t payload|e| |]; try exact I.
  destruct (if is_first_frame t then true else rr_within rr).
  - destruct (is_last_frame t); [exact I|]. apply IH. exact Hok'.
  - apply IH. exact Hok'.
Qed.

Lemma go_next_ok : forall fuel rr rr' r,
  fr_ok (rr_fr rr) -> go_next P R rnext rblock fuel rr = (rr', r) -> fr_ok (rr_fr rr').
Proof.
  apply (go_next_fr_rule P R rnext rblock (fun _ => fr_ok) (fun fr _ => fr_ok fr)).
  - intros fr Hok. exact Hok.
  - intros _ fr fr' x Hok Er. pose proof (read_frame_ok _ _ _ Hok Er) as Hok'.
    destruct x; [split|..]; exact Hok'.
Qed.
End FrameReader.

(* record.rs: MultiPlexedRecord::deserialize and the MultiRecord iterator *)

(* MultiRecord::next, iterated (by MultiRecord::new to validate, and a second time by the replay
   loop, multi_record_log.rs:71).  `off` is self.byte_offset; the model's multi_parse works on
   the suffix `dropN off whole` (lemma multi_parse_suffix below).
   record.rs:264  `&self.buffer[self.byte_offset..]`
   record.rs:271  `buffer[0..8].try_into().unwrap()`
   record.rs:272  `buffer[8..HEADER_LEN].try_into().unwrap()`
   record.rs:274  `&buffer[HEADER_LEN..]`
   record.rs:281  `self.byte_offset += HEADER_LEN + len`   (overflow: proved <= buffer length)
   record.rs:283  `&buffer[..len]`                                                        *)
Fixpoint multi_guards (fuel : nat) (whole : bytes) (off : N) : Prop :=
  match fuel with
  | O => True
  | S fuel' =>
      if off =? lenN whole then True
      else
        off <= lenN whole /\
        let buf := dropN off whole in
        if lenN buf <? 12 then True
        else
          8 <= lenN buf /\ lenN (sliceN 0 8 buf) = 8 /\
          12 <= lenN buf /\ lenN (sliceN 8 12 buf) = 4 /\
          let len := le_dec (sliceN 8 12 buf) in
          let body := dropN 12 buf in
          if lenN body <? len then True
          else
            len <= lenN body /\
            off + (12 + len) <= lenN whole /\
            multi_guards fuel' whole (off + (12 + len))
  end.

Theorem multi_guards_hold : forall fuel whole off, off <= lenN whole -> multi_guards fuel whole off.
Proof.
  induction fuel as [|fuel IH]; intros whole off Hoff; cbn [multi_guards]; [exact I|].
  destruct (off =? lenN whole); [exact I|]. split; [exact Hoff|].
  pose proof (lenN_dropN off whole) as Hd.
  destruct (N.ltb_spec (lenN (dropN off whole)) 12) as [|H12]; [exact I|].
  split; [lia|]. split; [rewrite lenN_sliceN; lia|].
  split; [lia|]. split; [rewrite lenN_sliceN; lia|].
  pose proof (lenN_dropN 12 (dropN off whole)) as Hb.
  destruct (N.ltb_spec (lenN (dropN 12 (dropN off whole))) (le_dec (sliceN 8 12 (dropN off whole))))
    as [|Hlen]; [exact I|].
  split; [exact Hlen|]. split; [lia|]. apply IH. lia.
Qed.

(* the suffix the model parses next is the buffer at the advanced byte_offset *)
Lemma multi_parse_suffix (whole : bytes) off len :
  dropN len (dropN 12 (dropN off whole)) = dropN (off + (12 + len)) whole.
Proof. rewrite !dropN_dropN. f_equal; lia. Qed.

(* MultiPlexedRecord::deserialize.
   record.rs:158  `buffer.split_at(HEADER_LEN)`            (HEADER_LEN = 11 here)
   record.rs:159  `header[0]`
   record.rs:160  `header[1..9].try_into().unwrap()`
   record.rs:161  `header[9..HEADER_LEN].try_into().unwrap()`
   record.rs:170  `body.split_at(queue_len)`
   record.rs:173  `queue_bytes[..truncated_len]`            (in the error! of the non-UTF-8 branch)
   record.rs:180  `MultiRecord::new(payload)`  -> multi_guards                              *)
Definition entry_deser_guards (buf : bytes) : Prop :=
  if lenN buf <? 11 then True
  else
    11 <= lenN buf /\
    let header := takeN 11 buf in
    let body := dropN 11 buf in
    0 < lenN header /\
    let tag := le_dec (takeN 1 buf) in
    if negb ((1 <=? tag) && (tag <=? 4)) then True
    else
      9 <= lenN header /\ lenN (sliceN 1 9 header) = 8 /\
      11 <= lenN header /\ lenN (sliceN 9 11 header) = 2 /\
      let qlen := le_dec (sliceN 9 11 buf) in
      if lenN body <? qlen then True
      else
        qlen <= lenN body /\
        let q := takeN qlen body in
        let payload := dropN qlen body in
        if negb (utf8_valid q) then N.min (lenN q) 10 <= lenN q
        else match tag with
             | 4 => multi_guards (multi_fuel payload) payload 0
             | _ => True
             end.

Theorem entry_deser_guards_hold buf : entry_deser_guards buf.
Proof.
  unfold entry_deser_guards.
  destruct (N.ltb_spec (lenN buf) 11) as [|H11]; [exact I|].
  assert (Hh : lenN (takeN 11 buf) = 11) by (rewrite lenN_takeN; lia).
  split; [exact H11|]. split; [lia|].
  destruct (negb _); [exact I|].
  split; [lia|]. split; [rewrite lenN_sliceN; lia|].
  split; [lia|]. split; [rewrite lenN_sliceN; lia|].
  destruct (N.ltb_spec (lenN (dropN 11 buf)) (le_dec (sliceN 9 11 buf))) as [|Hq]; [exact I|].
  split; [exact Hq|].
  destruct (negb _); [lia|].
  destruct (le_dec (takeN 1 buf)) as [|[p|[p|[p|p|]|]|]]; try exact I.
  apply multi_guards_hold. lia.
Qed.

(* mem/queue.rs:80  `record.position + 1`   (OVERFLOW; MemQueue::next_position) *)
Definition next_position_guards (q : mq) : Prop :=
  match last_opt (q_metas q) with
  | Some m => OVF (m_pos m + 1 < U64)
  | None => True
  end.

(* MemQueue::append_record.
   mem/queue.rs:94   `self.next_position()`                       -> next_position_guards
   mem/queue.rs:105  `record_meta.file_number.take().unwrap()`    (after `== Some(file_number)`) *)
Definition append_record_guards (q : mq) (file target : N) : Prop :=
  next_position_guards q /\
  if target <? next_position q then True
  else match last_opt (q_metas q) with
       | Some m => if opt_N_eqb (m_file m) file then m_file m <> None else True
       | None => True
       end.

(* multi_record_log.rs:71-83: `for record in records { ... append_record ... }` *)
Fixpoint append_all_guards (q : mq) (file : N) (recs : list (N * bytes)) : Prop :=
  match recs with
  | [] => True
  | (p, payload) :: r =>
      append_record_guards q file p /\
      match append_record q file p payload with
      | Some q' => append_all_guards q' file r
      | None => True
      end
  end.

(* MemQueue::truncate_head.
   mem/queue.rs:175  `truncate_up_to_pos + 1`   (OVERFLOW; also :176, :183, :193)
   mem/queue.rs:175  `self.next_position()`                       -> next_position_guards
   mem/queue.rs:186  `self.record_metas[first_record_to_keep]`
   mem/queue.rs:187  `self.record_metas.drain(..first_record_to_keep)`
   mem/queue.rs:189  `record_meta.start_offset -= start_offset_to_keep`   (usize underflow)
   mem/queue.rs:192 -> mem/rolling_buffer.rs:36  `self.buffer.drain(..first_pos_to_keep)`  *)
Definition truncate_head_guards (q : mq) (p : N) : Prop :=
  if p <? q_start q then True
  else
    OVF (p + 1 < U64) /\
    next_position_guards q /\
    if next_position q <=? p + 1 then True
    else
      let k := idx_ge (p + 1) (q_metas q) in
      k < lenN (q_metas q) /\
      k <= lenN (q_metas q) /\
      let kept := dropN k (q_metas q) in
      let off := match kept with m :: _ => m_off m | [] => 0 end in
      (forall m, In m kept -> off <= m_off m) /\
      off <= lenN (q_buf q).

(* the body of the replay loop for one record (multi_record_log.rs:62-99).
   MemQueues::append_record (queues.rs:92) and ::truncate (queues.rs:158) look the queue up with
   `?` / `if let`, MemQueues::ack_position (queues.rs:119) calls next_position only on an empty
   queue (`||` short-circuits), where it has no `+ 1`: no further site. *)
Definition apply_entry_guards (qs : queues) (file : N) (e : entry) : Prop :=
  match e with
  | EAppend q pos recs =>
      let qs1 := if qs_contains qs q then qs else ack_position qs q pos in
      match qs_get qs1 q with
      | Some mqv => append_all_guards mqv file recs
      | None => True
      end
  | ETruncate q p =>
      match qs_get qs q with
      | Some mqv => truncate_head_guards mqv p
      | None => True
      end
  | EPosition _ _ | EDelete _ _ => True
  end.

Definition mq_small (q : mq) : Prop :=
  q_start q < U64 /\ forall m, In m (q_metas q) -> m_pos m + 1 < U64.

Definition qs_all (Q : bytes -> mq -> Prop) (qs : queues) : Prop :=
  forall n q, In (n, q) qs -> Q n q.
Definition qs_small : queues -> Prop := qs_all (fun _ => mq_small).

(* what an entry must satisfy for the debug profile *)
Definition entry_small (e : entry) : Prop :=
  match e with
  | EAppend _ _ recs => forall r, In r recs -> fst r + 1 < U64
  | ETruncate _ p => p + 1 < U64
  | _ => True
  end.

Lemma qs_all_nil Q : qs_all Q []. Proof. intros n q []. Qed.

Lemma qs_get_In' qs n q : qs_get qs n = Some q -> In (n, q) qs.
Proof.
  induction qs as [|[n0 q0] r IH]; intros H; [discriminate|].
  cbn [qs_get] in H. destruct (bytes_eqb n0 n) eqn:E.
  - apply bytes_eqb_eq in E. inversion H; subst. now left.
  - right. now apply IH.
Qed.

Lemma qs_all_get Q qs n q : qs_all Q qs -> qs_get qs n = Some q -> Q n q.
Proof. intros Hi H. eapply Hi. apply qs_get_In'. exact H. Qed.

Lemma qs_all_put Q qs n q : qs_all Q qs -> Q n q -> qs_all Q (qs_put qs n q).
Proof.
  intros Hi Hq. induction qs as [|[n0 q0] r IH].
  - intros n' q' [E|[]]. inversion E; subst. exact Hq.
  - cbn [qs_put]. destruct (bytes_eqb n0 n) eqn:Eb.
    + apply bytes_eqb_eq in Eb. subst n0.
      intros n' q' [E|Hin]; [inversion E; subst; exact Hq|]. eapply Hi. right. exact Hin.
    + intros n' q' [E|Hin]; [eapply Hi; left; exact E|].
      eapply IH; [|exact Hin]. intros n1 q1 H1. eapply Hi. right. exact H1.
Qed.

Lemma qs_all_remove Q qs n : qs_all Q qs -> qs_all Q (qs_remove qs n).
Proof.
  intros Hi. induction qs as [|[n0 q0] r IH].
  - intros n' q' [].
  - assert (Hr : qs_all Q r) by (intros n1 q1 H1; eapply Hi; right; exact H1).
    cbn [qs_remove]. destruct (bytes_eqb n0 n); [exact (IH Hr)|].
    intros n' q' [E|Hin]; [eapply Hi; left; exact E|]. eapply IH; eauto.
Qed.

Lemma qs_all_ack Q qs n next :
  qs_all Q qs -> Q n (mq_with_next next) -> qs_all Q (ack_position qs n next).
Proof.
  intros Hi Hn. unfold ack_position. destruct (qs_get qs n) as [q|].
  - destruct (negb (mq_is_empty q) || negb (next_position q =? next)); [|exact Hi].
    apply qs_all_put; assumption.
  - apply qs_all_put; assumption.
Qed.

Lemma mq_small_with_next n : n < U64 -> mq_small (mq_with_next n).
Proof. intros H. split; [exact H|intros m []]. Qed.

Lemma In_take_last_file m ms :
  In m (take_last_file ms) -> exists m0, In m0 ms /\ m_pos m0 = m_pos m.
Proof.
  induction ms as [|m1 r IH]; [intros []|].
  rewrite take_last_file_cons. destruct r as [|m2 r'].
  - intros [E|[]]. subst m. exists m1. split; [now left|reflexivity].
  - intros [E|Hin].
    + subst m. exists m1. split; [now left|reflexivity].
    + destruct (IH Hin) as (m0 & H0 & Hp). exists m0. split; [now right|exact Hp].
Qed.

Lemma In_dropN {A} k (l : list A) x : In x (dropN k l) -> In x l.
Proof. intros H. rewrite <- (takeN_dropN k l). apply in_or_app. now right. Qed.

Lemma append_record_small q file target payload q' :
  mq_small q -> target + 1 < U64 ->
  append_record q file target payload = Some q' -> mq_small q'.
Proof.
  intros [Hs Hm] Ht H. apply append_record_some in H. destruct H as [_ ->].
  split; cbn [q_start q_metas].
  - destruct (_ && _); lia.
  - intros m Hin. apply in_app_or in Hin. destruct Hin as [Hin|[E|[]]].
    + destruct (metas_before_cases q file) as [E|E]; rewrite E in Hin.
      * now apply Hm.
      * destruct (In_take_last_file _ _ Hin) as (m0 & H0 & Hp). rewrite <- Hp. now apply Hm.
    + subst m. cbn [m_pos]. exact Ht.
Qed.

Lemma append_all_small : forall recs q file q',
  mq_small q -> (forall r, In r recs -> fst r + 1 < U64) ->
  append_all q file recs = Some q' -> mq_small q'.
Proof.
  induction recs as [|[p x] r IH]; intros q file q' Hs Hr H; cbn [append_all] in H.
  - inversion H; subst. exact Hs.
  - destruct (append_record q file p x) as [q1|] eqn:E1; [|discriminate].
    eapply IH; [|intros r0 H0; apply Hr; now right|exact H].
    eapply append_record_small; [exact Hs| |exact E1]. apply (Hr (p, x)). now left.
Qed.

Lemma truncate_head_small q p :
  mq_small q -> p + 1 < U64 -> mq_small (fst (truncate_head q p)).
Proof.
  intros [Hs Hm] Hp. unfold truncate_head.
  destruct (p <? q_start q); [split; assumption|].
  destruct (next_position q <=? p + 1); cbn [fst].
  - split; [exact Hp|intros m []].
  - split; [exact Hp|]. cbn [q_metas]. intros m Hin. apply in_map_iff in Hin.
    destruct Hin as (m0 & <- & H0). cbn [rebase m_pos]. apply Hm. eapply In_dropN. exact H0.
Qed.

(* apply_entry keeps a property of the named queues that a fresh queue has and that appending
   to and truncating the entry's own queue keep *)
Lemma apply_entry_all Q qs file e qs' :
  qs_all Q qs ->
  Q (entry_queue e) (mq_with_next (entry_pos e)) ->
  (forall m, Q (entry_queue e) m ->
     match e with
     | EAppend _ _ recs => forall m', append_all m file recs = Some m' -> Q (entry_queue e) m'
     | ETruncate _ p => Q (entry_queue e) (fst (truncate_head m p))
     | _ => True
     end) ->
  apply_entry qs file e = Some qs' -> qs_all Q qs'.
Proof.
  intros Hi Hn Hm H.
  destruct e as [q pos recs|q p|q p|q p]; cbn [apply_entry entry_queue entry_pos] in *.
  - set (qs1 := if qs_contains qs q then qs else ack_position qs q pos) in *.
    assert (Hi1 : qs_all Q qs1).
    { unfold qs1. destruct (qs_contains qs q); [exact Hi|now apply qs_all_ack]. }
    destruct (qs_get qs1 q) as [m|] eqn:E; [|discriminate].
    destruct (append_all m file recs) as [m'|] eqn:Ea; [|discriminate].
    inversion H; subst. apply qs_all_put; [exact Hi1|].
    exact (Hm m (qs_all_get _ _ _ _ Hi1 E) m' Ea).
  - destruct (qs_get qs q) as [m|] eqn:E; inversion H; subst; [|exact Hi].
    apply qs_all_put; [exact Hi|]. exact (Hm m (qs_all_get _ _ _ _ Hi E)).
  - inversion H; subst. now apply qs_all_ack.
  - inversion H; subst. now apply qs_all_remove.
Qed.

Lemma apply_entry_small qs file e qs' :
  qs_small qs -> entry_small e -> entry_pos e < U64 ->
  apply_entry qs file e = Some qs' -> qs_small qs'.
Proof.
  intros Hi He Hp.
  apply (apply_entry_all (fun _ => mq_small)); [exact Hi|now apply mq_small_with_next|].
  intros m Hm. destruct e as [q pos recs|q p|q p|q p]; cbn [entry_small] in He; try exact I.
  - intros m' Ea. eapply append_all_small; [exact Hm|exact He|exact Ea].
  - apply truncate_head_small; [exact Hm|exact He].
Qed.

Lemma next_position_guards_hold q : (dbg = true -> mq_small q) -> next_position_guards q.
Proof.
  intros Hs. unfold next_position_guards. destruct (last_opt (q_metas q)) as [m|] eqn:E; [|exact I].
  intros Hd. apply (Hs Hd). now apply last_opt_In.
Qed.

Lemma append_record_guards_hold q file target :
  (dbg = true -> mq_small q) -> append_record_guards q file target.
Proof.
  intros Hs. split; [now apply next_position_guards_hold|].
  destruct (target <? next_position q); [exact I|].
  destruct (last_opt (q_metas q)) as [m|]; [|exact I].
  destruct (m_file m) as [f|]; cbn [opt_N_eqb]; [|exact I].
  destruct (f =? file); [discriminate|exact I].
Qed.

Theorem append_all_guards_hold : forall recs q file,
  (dbg = true -> mq_small q /\ forall r, In r recs -> fst r + 1 < U64) ->
  append_all_guards q file recs.
Proof.
  induction recs as [|[p x] r IH]; intros q file Hs; cbn [append_all_guards]; [exact I|].
  split; [apply append_record_guards_hold; intros Hd; apply (Hs Hd)|].
  destruct (append_record q file p x) as [q1|] eqn:E1; [|exact I].
  apply IH. intros Hd. destruct (Hs Hd) as [Hq Hr]. split.
  - eapply append_record_small; [exact Hq| |exact E1]. apply (Hr (p, x)). now left.
  - intros r0 H0. apply Hr. now right.
Qed.

Lemma metas_ok_off lp lo len ms m :
  metas_ok lp lo len ms -> In m ms -> lo <= m_off m /\ m_off m <= len.
Proof.
  revert lp lo; induction ms as [|m0 r IH]; intros lp lo H Hin; [destruct Hin|].
  cbn [metas_ok] in H. destruct H as (H1 & H2 & H3). pose proof (metas_ok_lo_le _ _ _ _ H3) as H4.
  destruct Hin as [->|Hin]; [lia|]. specialize (IH _ _ H3 Hin). lia.
Qed.

Lemma idx_ge_lt p : forall ms m,
  last_opt ms = Some m -> p <= m_pos m -> idx_ge p ms < lenN ms.
Proof.
  induction ms as [|m0 r IH]; intros m Hl Hp; [discriminate|].
  cbn [idx_ge]. rewrite lenN_cons. destruct (N.ltb_spec (m_pos m0) p) as [Hlt|Hge]; [|lia].
  rewrite last_opt_cons in Hl. destruct (last_opt r) as [y|] eqn:E.
  - inversion Hl; subst y. specialize (IH _ eq_refl Hp). lia.
  - inversion Hl; subst m0. lia.
Qed.

Theorem truncate_head_guards_hold q p :
  mq_inv q -> (dbg = true -> mq_small q /\ p + 1 < U64) -> truncate_head_guards q p.
Proof.
  intros (Hm & Hf & He) Hs. unfold truncate_head_guards.
  destruct (N.ltb_spec p (q_start q)) as [|Hge]; [exact I|].
  split; [intros Hd; apply (Hs Hd)|].
  split; [apply next_position_guards_hold; intros Hd; apply (Hs Hd)|].
  destruct (N.leb_spec (next_position q) (p + 1)) as [|Hlt]; [exact I|].
  unfold next_position in Hlt.
  destruct (last_opt (q_metas q)) as [ml|] eqn:El; [|lia].
  assert (Hk : idx_ge (p + 1) (q_metas q) < lenN (q_metas q)).
  { eapply idx_ge_lt; [exact El|lia]. }
  split; [exact Hk|]. split; [lia|].
  pose proof (metas_ok_drop_idx (p + 1) _ _ _ _ Hm) as Hd.
  set (kept := dropN (idx_ge (p + 1) (q_metas q)) (q_metas q)) in *.
  destruct kept as [|m0 r]; [split; [intros m []|lia]|].
  cbn [metas_ok] in Hd. destruct Hd as (H1 & H2 & H3).
  pose proof (metas_ok_lo_le _ _ _ _ H3) as H4.
  split; [|exact H4].
  intros m [->|Hin]; [lia|]. destruct (metas_ok_off _ _ _ _ _ H3 Hin). lia.
Qed.

Theorem apply_entry_guards_hold qs file e :
  qs_inv qs -> (dbg = true -> qs_small qs /\ entry_small e /\ entry_pos e < U64) ->
  apply_entry_guards qs file e.
Proof.
  intros Hi Hs. destruct e as [q pos recs|q p|q p|q p]; cbn [apply_entry_guards]; try exact I.
  - set (qs1 := if qs_contains qs q then qs else ack_position qs q pos).
    destruct (qs_get qs1 q) as [m|] eqn:E; [|exact I].
    apply append_all_guards_hold. intros Hd. destruct (Hs Hd) as (H1 & H2 & H3).
    cbn [entry_small entry_pos] in *. split; [|exact H2].
    assert (Hi1 : qs_small qs1).
    { unfold qs1. destruct (qs_contains qs q); [exact H1|].
      apply qs_all_ack; [exact H1|now apply mq_small_with_next]. }
    exact (qs_all_get _ _ _ _ Hi1 E).
  - destruct (qs_get qs q) as [m|] eqn:E; [|exact I].
    apply truncate_head_guards_hold; [eapply qs_inv_get; eauto|].
    intros Hd. destruct (Hs Hd) as (H1 & H2 & H3). cbn [entry_small] in H2.
    split; [exact (qs_all_get _ _ _ _ H1 E)|exact H2].
Qed.

(* The replay loop of open_with_prefs (multi_record_log.rs:48-103) *)

Fixpoint replay_loop_guards (fuel gofuel : nat) (rr : rreader_t) (qs : queues) : Prop :=
  match fuel with
  | O => True
  | S fuel' =>
      let file := rd_file (fr_rd (rr_fr rr)) in
      go_next_guards rreaderS (rd_next P) rd_block gofuel rr /\
      match go_next P rreaderS (rd_next P) rd_block gofuel rr with
      | (rr', RRecord) =>
          entry_deser_guards (rr_buf rr') /\
          match entry_deser (rr_buf rr') with
          | None => replay_loop_guards fuel' gofuel rr' qs
          | Some e =>
              apply_entry_guards qs file e /\
              match apply_entry qs file e with
              | Some qs' => replay_loop_guards fuel' gofuel rr' qs'
              | None => True
              end
          end
      | (rr', REnd) => True
      | (rr', RCorrupt) => replay_loop_guards fuel' gofuel rr' qs
      | (rr', RIo e) => if L_IO P then replay_loop_guards fuel' gofuel rr' qs else True
      | (rr', RFuel) => True
      end
  end.

(* the hypothesis of the debug profile: every entry decoded during replay is small *)
Fixpoint replay_small (fuel gofuel : nat) (rr : rreader_t) (qs : queues) : Prop :=
  match fuel with
  | O => True
  | S fuel' =>
      let file := rd_file (fr_rd (rr_fr rr)) in
      match go_next P rreaderS (rd_next P) rd_block gofuel rr with
      | (rr', RRecord) =>
          match entry_deser (rr_buf rr') with
          | None => replay_small fuel' gofuel rr' qs
          | Some e =>
              entry_small e /\
              match apply_entry qs file e with
              | Some qs' => replay_small fuel' gofuel rr' qs'
              | None => True
              end
          end
      | (rr', REnd) => True
      | (rr', RCorrupt) => replay_small fuel' gofuel rr' qs
      | (rr', RIo e) => if L_IO P then replay_small fuel' gofuel rr' qs else True
      | (rr', RFuel) => True
      end
  end.

(* queue names fit the u16 length field (needed by the writes of the recovery-time GC) *)
Definition qs_names_short : queues -> Prop := qs_all (fun n _ => lenN n <= 65535).

Lemma apply_entry_names qs file e qs' :
  qs_names_short qs -> lenN (entry_queue e) <= 65535 ->
  apply_entry qs file e = Some qs' -> qs_names_short qs'.
Proof.
  intros Hi Hn. apply (apply_entry_all (fun n _ => lenN n <= 65535)); [exact Hi|exact Hn|].
  intros m _. destruct e; try exact I; [intros m' _; exact Hn|exact Hn].
Qed.

Lemma entry_deser_bounds buf e :
  entry_deser buf = Some e -> lenN (entry_queue e) <= 65535 /\ entry_pos e < U64.
Proof.
  intros H. apply entry_deser_wf in H. destruct H as (_ & Hq & Hp & _).
  change (2 ^ 16) with 65536 in Hq. change (2 ^ 64) with U64 in Hp. lia.
Qed.

Section Replay.
Variable fs0 : fsT.
Hypothesis HBS : 7 <= BS P.
Hypothesis HBSu : dbg = true -> BS P + 65536 <= U64.

Definition rok (rd : rreaderS) : Prop := rd_ok rd /\ c_fs (rd_ctx rd) = fs0.
Definition frok (fr : freader rreaderS) : Prop := fr_ok rreaderS rok fr.

Lemma rok_block r : rok r -> lenN (rd_block r) = BS P.
Proof. intros [H _]. apply H. Qed.

Lemma rok_next r r' x : rok r -> rd_next P r = (r', x) -> rok r'.
Proof.
  intros [H E] Hn. destruct (rd_next_ok _ _ _ H Hn) as [H' E']. split; [exact H'|congruence].
Qed.

Lemma go_next_frok fuel rr rr' r :
  frok (rr_fr rr) -> go_next P rreaderS (rd_next P) rd_block fuel rr = (rr', r) -> frok (rr_fr rr').
Proof. apply (go_next_ok rreaderS (rd_next P) rd_block rok rok_block rok_next HBS HBSu). Qed.

Theorem replay_loop_guards_hold : forall fuel gofuel rr qs,
  frok (rr_fr rr) -> qs_inv qs ->
  (dbg = true -> qs_small qs /\ replay_small fuel gofuel rr qs) ->
  replay_loop_guards fuel gofuel rr qs.
Proof.
  induction fuel as [|fuel IH]; intros gofuel rr qs Hok Hi Hs; cbn [replay_loop_guards]; [exact I|].
  split.
  { apply (go_next_guards_hold rreaderS (rd_next P) rd_block rok rok_block rok_next HBS HBSu).
    exact Hok. }
  cbn [replay_small] in Hs.
  destruct (go_next P rreaderS (rd_next P) rd_block gofuel rr) as [rr1 res] eqn:Eg.
  pose proof (go_next_frok _ _ _ _ Hok Eg) as Hok1.
  destruct res as [| | |e|]; try exact I.
  - split; [apply entry_deser_guards_hold|].
    destruct (entry_deser (rr_buf rr1)) as [e|] eqn:Ed; [|apply IH; assumption].
    destruct (entry_deser_bounds _ _ Ed) as [Hq Hp].
    split.
    { apply apply_entry_guards_hold; [exact Hi|]. intros Hd. destruct (Hs Hd) as (H1 & H2 & _).
      split; [exact H1|split; [exact H2|exact Hp]]. }
    destruct (apply_entry qs (rd_file (fr_rd (rr_fr rr))) e) as [qs1|] eqn:Ea; [|exact I].
    apply IH; [exact Hok1|eapply apply_entry_inv; eauto|].
    intros Hd. destruct (Hs Hd) as (H1 & H2 & H3). split; [|exact H3].
    eapply apply_entry_small; eauto.
  - apply IH; assumption.
  - destruct (L_IO P); [apply IH; assumption|exact I].
Qed.

(* what the replay loop leaves behind *)
Lemma replay_loop_post : forall fuel gofuel rr qs rr' res,
  frok (rr_fr rr) -> replay_loop P fuel gofuel rr qs = (rr', res) -> frok (rr_fr rr').
Proof.
  intros fuel gofuel.
  apply (replay_loop_reader P gofuel (fun rr => frok (rr_fr rr))). intros rr rr1 x. apply go_next_frok.
Qed.

Lemma replay_loop_names : forall fuel gofuel rr qs rr' qs',
  qs_names_short qs -> replay_loop P fuel gofuel rr qs = (rr', RpDone qs') -> qs_names_short qs'.
Proof.
  intros fuel gofuel rr qs rr' qs'.
  apply (replay_loop_rule P gofuel (fun _ _ qs => qs_names_short qs)
           (fun _ r => match r with RpDone qs' => qs_names_short qs' | _ => True end)).
  - intros _ qs0 _. exact I.
  - intros _ rr0 qs0 rr1 x Hi _. destruct x as [| | |e|]; try exact Hi; try exact I.
    + destruct (entry_deser (rr_buf rr1)) as [e|] eqn:Ed; [|exact Hi].
      destruct (entry_deser_bounds _ _ Ed) as [Hq _].
      destruct (apply_entry qs0 (rd_file (fr_rd (rr_fr rr0))) e) as [qs1|] eqn:Ea; [|exact I].
      eapply apply_entry_names; eauto.
    + destruct (L_IO P); [exact Hi|exact I].
Qed.

Lemma replay_loop_small : forall fuel gofuel rr qs rr' qs',
  qs_small qs -> replay_small fuel gofuel rr qs ->
  replay_loop P fuel gofuel rr qs = (rr', RpDone qs') -> qs_small qs'.
Proof.
  intros fuel gofuel rr qs rr' qs' Hi Hs.
  apply (replay_loop_rule P gofuel (fun f rr qs => qs_small qs /\ replay_small f gofuel rr qs)
           (fun _ r => match r with RpDone qs' => qs_small qs' | _ => True end)).
  - intros _ qs0 _. exact I.
  - intros f0 rr0 qs0 rr1 x [Hi0 Hs0] Hgo. cbn [replay_small] in Hs0. rewrite Hgo in Hs0.
    destruct x as [| | |e|]; try exact I.
    + destruct (entry_deser (rr_buf rr1)) as [e|] eqn:Ed; [|split; assumption].
      destruct (entry_deser_bounds _ _ Ed) as [_ Hp]. destruct Hs0 as [He Hs0].
      destruct (apply_entry qs0 (rd_file (fr_rd (rr_fr rr0))) e) as [qs1|] eqn:Ea; [|exact I].
      split; [|exact Hs0]. eapply apply_entry_small; eauto.
    + exact Hi0.
    + split; assumption.
    + destruct (L_IO P); [split; assumption|exact I].
  - split; assumption.
Qed.
End Replay.

(* The read accessors (and the debug-log block of run_gc_if_necessary) *)

(* RollingBuffer::get_range(start..end) over the two VecDeque slices.
   mem/rolling_buffer.rs:69  `&left_part_of_queue[start..end]`
   mem/rolling_buffer.rs:71,72  `start - left.len()`, `end - left.len()`     (usize underflow)
   mem/rolling_buffer.rs:74  `&right_part_of_queue[start..end]`
   mem/rolling_buffer.rs:81  `Vec::with_capacity(end - start)`   (underflow; in release the wrapped
                              value makes with_capacity panic with "capacity overflow")
   mem/rolling_buffer.rs:82  `&left_part_of_queue[start..]`
   mem/rolling_buffer.rs:83  `end - left.len()`                               (usize underflow)
   mem/rolling_buffer.rs:84  `&right_part_of_queue[..end]`
   (lines 56 and 61, `pos + 1`, belong to bound kinds the callers never pass: only a..b and a..) *)
Definition ring_guards (left right : bytes) (s e : N) : Prop :=
  if e <? lenN left then s <= e /\ e <= lenN left
  else if lenN left <=? s then
    lenN left <= s /\ lenN left <= e /\
    s - lenN left <= e - lenN left /\ e - lenN left <= lenN right
  else
    s <= e /\ s <= lenN left /\ lenN left <= e /\ e - lenN left <= lenN right.

(* whatever way the ring buffer happens to be split *)
Definition get_range_guards (buf : bytes) (s e : N) : Prop :=
  forall left right, left ++ right = buf -> ring_guards left right s e.

Lemma get_range_guards_hold buf s e : s <= e -> e <= lenN buf -> get_range_guards buf s e.
Proof.
  intros Hs He left right <-. rewrite lenN_app in He. unfold ring_guards.
  destruct (N.ltb_spec e (lenN left)); [lia|].
  destruct (N.leb_spec (lenN left) s); lia.
Qed.

(* the closure of MemQueue::range's `.map` on record idx (mem/queue.rs:151-163).
   mem/queue.rs:150,152  `self.record_metas[idx]`  with idx in start_idx..len: in range by the
                          Range itself (an empty range when start_idx > len)
   mem/queue.rs:158      `get_range(start_offset..end_offset)`
   mem/queue.rs:160      `get_range(start_offset..)`                                        *)
Fixpoint records_guards (buf : bytes) (ms : list meta) : Prop :=
  match ms with
  | [] => True
  | m :: r =>
      let stop := match r with m' :: _ => m_off m' | [] => lenN buf end in
      get_range_guards buf (m_off m) stop /\ records_guards buf r
  end.

(* MemQueue::range: the iterator maps the records from start_idx on for as long as take_while's
   predicate `range.contains(position)` holds *)
Fixpoint range_iter_guards (buf : bytes) (lo hi : bound) (ms : list meta) : Prop :=
  match ms with
  | [] => True
  | m :: r =>
      if in_bounds lo hi (m_pos m) then
        let stop := match r with m' :: _ => m_off m' | [] => lenN buf end in
        get_range_guards buf (m_off m) stop /\ range_iter_guards buf lo hi r
      else True
  end.

Definition mq_range_guards (q : mq) (lo hi : bound) : Prop :=
  range_iter_guards (q_buf q) lo hi (dropN (range_start_idx lo (q_metas q)) (q_metas q)).

(* MemQueue::last_record: mem/queue.rs:72 `get_range(record.start_offset..)` *)
Definition mq_last_record_guards (q : mq) : Prop :=
  match last_opt (q_metas q) with
  | Some m => get_range_guards (q_buf q) (m_off m) (lenN (q_buf q))
  | None => True
  end.

Lemma records_guards_ok buf : forall ms lp lo,
  metas_ok lp lo (lenN buf) ms -> records_guards buf ms.
Proof.
  induction ms as [|m r IH]; intros lp lo H; cbn [records_guards]; [exact I|].
  cbn [metas_ok] in H. destruct H as (H1 & H2 & H3). split; [|eapply IH; exact H3].
  pose proof (metas_ok_lo_le _ _ _ _ H3) as H4.
  apply get_range_guards_hold.
  - destruct r as [|m' r']; [exact H4|]. cbn [metas_ok] in H3. lia.
  - destruct r as [|m' r']; [lia|]. cbn [metas_ok] in H3. destruct H3 as (_ & _ & H5).
    apply metas_ok_lo_le in H5. exact H5.
Qed.

Lemma records_guards_dropN buf : forall ms k, records_guards buf ms -> records_guards buf (dropN k ms).
Proof.
  induction ms as [|m r IH]; intros k H; [exact H|].
  cbn [dropN]. destruct (k =? 0); [exact H|]. apply IH. apply H.
Qed.

Lemma range_iter_guards_ok buf lo hi : forall ms, records_guards buf ms -> range_iter_guards buf lo hi ms.
Proof.
  induction ms as [|m r IH]; intros H; cbn [range_iter_guards]; [exact I|].
  destruct (in_bounds lo hi (m_pos m)); [|exact I]. destruct H as [H1 H2]. split; [exact H1|now apply IH].
Qed.

Theorem mq_range_guards_hold q lo hi : mq_inv q -> mq_range_guards q lo hi.
Proof.
  intros (Hm & _ & _). unfold mq_range_guards. apply range_iter_guards_ok, records_guards_dropN.
  eapply records_guards_ok. exact Hm.
Qed.

Theorem mq_last_record_guards_hold q : mq_inv q -> mq_last_record_guards q.
Proof.
  intros (Hm & _ & _). unfold mq_last_record_guards.
  destruct (last_opt (q_metas q)) as [m|] eqn:E; [|exact I].
  apply last_opt_In in E. destruct (metas_ok_off _ _ _ _ _ Hm E).
  apply get_range_guards_hold; lia.
Qed.

(* the public accessors of MultiRecordLog (multi_record_log.rs:323-367); the lookups return
   Result (MissingQueue), never unwrap.
   range          -> MemQueue::range
   last_record    -> MemQueue::last_record
   last_position  -> MemQueue::last_position = next_position().checked_sub(1): queue.rs:80 OVERFLOW
   summary        -> per queue: start_position, last_position (queue.rs:80 OVERFLOW), first_file_number
   list_queues    -> no site
   resource_usage -> only usize sums/products of in-memory sizes (see the table)            *)
Definition log_range_guards (st : state) (q : bytes) (lo hi : bound) : Prop :=
  match qs_get (s_qs st) q with Some m => mq_range_guards m lo hi | None => True end.
Definition log_last_record_guards (st : state) (q : bytes) : Prop :=
  match qs_get (s_qs st) q with Some m => mq_last_record_guards m | None => True end.
Definition log_last_position_guards (st : state) (q : bytes) : Prop :=
  match qs_get (s_qs st) q with Some m => next_position_guards m | None => True end.
Definition log_summary_guards (st : state) : Prop :=
  forall n q, In (n, q) (s_qs st) -> next_position_guards q.

Theorem accessors_guards_hold st :
  qs_inv (s_qs st) -> (dbg = true -> qs_small (s_qs st)) ->
  forall q lo hi,
    log_range_guards st q lo hi /\ log_last_record_guards st q /\
    log_last_position_guards st q /\ log_summary_guards st.
Proof.
  intros Hi Hs q lo hi.
  unfold log_range_guards, log_last_record_guards, log_last_position_guards, log_summary_guards.
  repeat split.
  - destruct (qs_get (s_qs st) q) as [m|] eqn:E; [|exact I].
    apply mq_range_guards_hold. eapply qs_inv_get; eauto.
  - destruct (qs_get (s_qs st) q) as [m|] eqn:E; [|exact I].
    apply mq_last_record_guards_hold. eapply qs_inv_get; eauto.
  - destruct (qs_get (s_qs st) q) as [m|] eqn:E; [|exact I].
    apply next_position_guards_hold. intros Hd. exact (qs_all_get _ _ _ _ (Hs Hd) E).
  - intros n m Hin. apply next_position_guards_hold. intros Hd. exact (Hs Hd _ _ Hin).
Qed.

(* multi_record_log.rs:313-319, executed only when the DEBUG tracing level is enabled:
   :315 `self.in_mem_queues.get_queue(queue).unwrap()`  for queue in list_queues()
   :316 `queue.range(..).next()`                          -> mq_range_guards q Unb Unb
   :317 `queue.last_position()`                           -> next_position_guards         *)
Definition debug_log_guards (qs : queues) : Prop :=
  forall n, In n (map fst qs) ->
  match qs_get qs n with
  | Some q => mq_range_guards q Unb Unb /\ next_position_guards q
  | None => False
  end.

Lemma qs_get_key qs n : In n (map fst qs) -> qs_get qs n <> None.
Proof.
  induction qs as [|[n0 q0] r IH]; [intros []|].
  cbn [map fst qs_get]. intros [E|Hin].
  - subst n0. rewrite bytes_eqb_refl. discriminate.
  - destruct (bytes_eqb n0 n); [discriminate|now apply IH].
Qed.

Lemma debug_log_guards_hold qs :
  qs_inv qs -> (dbg = true -> qs_small qs) -> debug_log_guards qs.
Proof.
  intros Hi Hs n Hin. pose proof (qs_get_key _ _ Hin) as Hk.
  destruct (qs_get qs n) as [q|] eqn:E; [|congruence]. split.
  - apply mq_range_guards_hold. eapply qs_inv_get; eauto.
  - apply next_position_guards_hold. intros Hd. exact (qs_all_get _ _ _ _ (Hs Hd) E).
Qed.

(* into_writer, and the writes of the recovery-time GC *)

(* RollingReader::into_writer + RollingWriter::forward (all overflow-only).
   rolling/directory.rs:172  `self.block_id * crate::BLOCK_NUM_BYTES`
   rolling/directory.rs:241  `self.offset += num_bytes`
   (directory.rs:173 `offset as u64`, :240 `num_bytes as i64` are casts: no panic)          *)
Definition into_writer_guards (rd : rreaderS) (cursor : N) : Prop :=
  OVF (rd_block_id rd * BS P < U64) /\ OVF (rd_block_id rd * BS P + cursor < U64).

(* RollingWriter::write (BlockWrite).
   rolling/directory.rs:266  `assert!(buf.len() <= self.num_bytes_remaining_in_block())`
   rolling/directory.rs:267  `self.offset + buf.len()`                      (overflow)
   rolling/file_number.rs:64 `*curr.file_number + 1u64`                     (OVERFLOW; FileTracker::inc)
   (directory.rs:314 `BLOCK_NUM_BYTES - (self.offset % BLOCK_NUM_BYTES)` cannot underflow;
    directory.rs:294 `self.offset += buf.len()` is the same sum as :267 or starts from 0)    *)
Definition wr_write_guards (w : rwriter) (data : bytes) : Prop :=
  match data with
  | [] => True
  | _ =>
      let len := lenN data in
      len <= wr_rem P w /\
      OVF (w_off w + len < U64) /\
      if FILE_BYTES P <? w_off w + len then
        let w1 := sync_dir (sync_data (bw_flush w)) in
        match tracker_next (w_files w1) (w_file w1) with
        | Some _ => True
        | None => OVF (w_file w1 + 1 < U64)
        end
      else True
  end.

(* the padding half of FrameWriter::write_frame *)
Definition pad_step (w : rwriter) : rwriter * res N :=
  let rem := wr_rem P w in
  if rem <? HEADER_LEN
  then match wr_write P w (zerosN rem) with
       | (w1, Ok _) => (w1, Ok rem)
       | (w1, Err e) => (w1, Err e)
       end
  else (w, Ok 0).

Lemma write_frame_eq w t payload :
  write_frame P rwriter (wr_write P) (wr_rem P) w t payload =
  match pad_step w with
  | (w1, Err e) => (w1, Err e)
  | (w1, Ok padded) =>
      match wr_write P w1 (frame_bytes P t payload) with
      | (w2, Ok _) => (w2, Ok (padded + (HEADER_LEN + lenN payload)))
      | (w2, Err e) => (w2, Err e)
      end
  end.
Proof.
  unfold write_frame, pad_step. destruct (wr_rem P w <? HEADER_LEN); [|reflexivity].
  destruct (wr_write P w (zerosN (wr_rem P w))) as [w1 [u|e]]; reflexivity.
Qed.

(* FrameWriter::write_frame.
   frame/writer.rs:33  `&zero_bytes[..num_bytes_remaining_in_block]`       (zero_bytes: [u8; 7])
   frame/writer.rs:37  `self.buffer[..record_len].split_at_mut(HEADER_LEN)` (buffer: [u8; BS])
   frame/writer.rs:38  `buffer_record.copy_from_slice(payload)`             (equal lengths)
   frame/header.rs:19  `assert!(payload.len() < crate::BLOCK_NUM_BYTES)`
   frame/header.rs:44  `assert_eq!(dest.len(), HEADER_LEN)`; :45-47 `dest[..4]`, `dest[4..6]`,
                        `dest[6]` and their copy_from_slice (4 = 4, 2 = 2)
   frame/writer.rs:33,40  `self.wrt.write(..)`                              -> wr_write_guards
   (frame/header.rs:22 `payload.len() as u16` truncates silently; no panic)                  *)
Definition write_frame_guards (w : rwriter) (t : ftype) (payload : bytes) : Prop :=
  let rem := wr_rem P w in
  (if rem <? HEADER_LEN then rem <= HEADER_LEN /\ wr_write_guards w (zerosN rem) else True) /\
  match pad_step w with
  | (_, Err _) => True
  | (w1, Ok _) =>
      let record_len := HEADER_LEN + lenN payload in
      record_len <= BS P /\ HEADER_LEN <= record_len /\
      record_len - HEADER_LEN = lenN payload /\
      lenN payload < BS P /\
      lenN (header_bytes (crcf P (n2b (ft_code t)) payload) (lenN payload) t) = HEADER_LEN /\
      wr_write_guards w1 (frame_bytes P t payload)
  end.

(* RecordWriter::write_record's loop.
   recordlog/writer.rs:61  `&payload[..frame_payload_len]`
   recordlog/writer.rs:62  `&payload[frame_payload_len..]`
   (frame/writer.rs:59 `available - HEADER_LEN` is guarded by `>=`; recordlog/writer.rs:65
    `num_bytes_written += .. as u64`: u64 sum of bytes written, not covered)                  *)
Fixpoint wrl_guards (fuel : nat) (w : rwriter) (is_first : bool) (payload : bytes) : Prop :=
  match fuel with
  | O => True
  | S fuel' =>
      let n := N.min (max_writable P (wr_rem P w)) (lenN payload) in
      n <= lenN payload /\
      let frame_payload := takeN n payload in
      let rest := dropN n payload in
      let is_last := isnil rest in
      write_frame_guards w (frame_type is_first is_last) frame_payload /\
      match write_frame P rwriter (wr_write P) (wr_rem P) w (frame_type is_first is_last)
                        frame_payload with
      | (_, Err _) => True
      | (w1, Ok _) => if is_last then True else wrl_guards fuel' w1 false rest
      end
  end.

(* record_log_writer.write_record(record):  record.rs:111 `assert!(queue.len() <= u16::MAX)` in
   serialize, then the loop *)
Definition write_entry_guards (st : state) (e : entry) : Prop :=
  lenN (entry_queue e) <= 65535 /\
  wrl_guards (record_fuel P (entry_ser e)) (s_wr st) true (entry_ser e).

(* record_empty_queues_position (multi_record_log.rs:238-256).
   :242 `queue.next_position()`        -> next_position_guards (the queue is empty: no `+ 1` met)
   :250 `num_bytes_written += ..`       (u64 sum of bytes written, not covered)               *)
Fixpoint record_positions_guards (st : state) (names : list bytes) : Prop :=
  match names with
  | [] => True
  | n :: r =>
      match qs_get (s_qs st) n with
      | None => record_positions_guards st r
      | Some q =>
          next_position_guards q /\
          write_entry_guards st (EPosition n (next_position q)) /\
          match write_entry P st (EPosition n (next_position q)) with
          | (_, Err _) => True
          | (st1, Ok _) => record_positions_guards st1 r
          end
      end
  end.

(* run_gc_if_necessary (multi_record_log.rs:292-321).
   rolling/directory.rs:103  `self.files.first()` (unwrap, file_number.rs:17) after `count() >= 2 &&`
   rolling/file_number.rs:37 `self.files.first().unwrap()` in take_first_unused, after `len() < 2`
                             returned None: at each iteration of Directory::gc the tracker has
                             the shape f :: _ :: _  (the pattern of gc_loop)
   multi_record_log.rs:313-319  the debug-log block                          -> debug_log_guards *)
Definition run_gc_guards (st : state) (hint : list bytes) : Prop :=
  (2 <= lenN (w_files (s_wr st)) -> tracker_guard (w_files (s_wr st))) /\
  (if has_deletable st
   then record_positions_guards st (pick_order hint (empty_names (s_qs st)))
   else True) /\
  debug_log_guards (s_qs st).

(* b: how many more roll-overs the file numbers can take (debug profile only) *)
Definition wr_inv (b : N) (w : rwriter) : Prop :=
  w_off w <= FILE_BYTES P /\
  (dbg = true -> w_file w + b < U64 /\ forall f, In f (w_files w) -> f + b < U64).

Lemma wr_inv_mono b b' w : wr_inv b w -> b' <= b -> wr_inv b' w.
Proof.
  intros [H1 H2] Hb. split; [exact H1|]. intros Hd. destruct (H2 Hd) as [H3 H4].
  split; [lia|]. intros f Hf. specialize (H4 f Hf). lia.
Qed.

Definition name_budget (n : bytes) : N := 2 * ((11 + lenN n) / (BS P - HEADER_LEN) + 3).
Definition names_budget (names : list bytes) : N :=
  fold_right (fun n acc => name_budget n + acc) 0 names.
Definition gc_budget (st : state) (hint : list bytes) : N :=
  names_budget (pick_order hint (empty_names (s_qs st))).

Section Writer.
Hypothesis HBS : 7 <= BS P.
Hypothesis HNB : 0 < NB P.
Hypothesis Hu : dbg = true -> FILE_BYTES P + BS P < U64.

Lemma BS_le_FILE : BS P <= FILE_BYTES P.
Proof.
  unfold FILE_BYTES. rewrite <- (N.mul_1_r (BS P)) at 1. apply N.mul_le_mono_l. lia.
Qed.

Lemma wr_rem_bounds w : 1 <= wr_rem P w /\ wr_rem P w <= BS P.
Proof.
  unfold wr_rem. assert (w_off w mod BS P < BS P) by (apply N.mod_lt; lia). lia.
Qed.

Lemma roll_prep_fields w :
  w_files (sync_dir (sync_data (bw_flush w))) = w_files w /\
  w_file (sync_dir (sync_data (bw_flush w))) = w_file w /\
  w_off (sync_dir (sync_data (bw_flush w))) = w_off w /\
  w_pending (sync_dir (sync_data (bw_flush w))) = [].
Proof.
  unfold sync_dir, sync_data, bw_flush, wr_ctx, flush_buf.
  destruct (w_pending w) eqn:E; cbn [w_files w_file w_off w_pending]; rewrite ?E; repeat split.
Qed.

Lemma flush_buf_fields w :
  w_files (flush_buf w) = w_files w /\ w_file (flush_buf w) = w_file w /\ w_off (flush_buf w) = w_off w.
Proof. unfold flush_buf. destruct (w_pending w); repeat split. Qed.

Lemma bw_write_all_fields w d :
  w_files (bw_write_all P w d) = w_files w /\ w_file (bw_write_all P w d) = w_file w /\
  w_off (bw_write_all P w d) = w_off w + lenN d.
Proof.
  unfold bw_write_all, bw_write_all0.
  destruct (flush_buf_fields w) as (F1 & F2 & F3).
  destruct (lenN d <? BS P - lenN (w_pending w)); cbn [w_files w_file w_off]; [repeat split|].
  destruct (BS P - lenN (w_pending w) <? lenN d);
    destruct (BS P <=? lenN d); cbn [w_files w_file w_off]; rewrite ?F1, ?F2, ?F3; repeat split.
Qed.

Lemma tracker_next_In files cur x : tracker_next files cur = Some x -> In x files.
Proof.
  induction files as [|y r IH]; cbn [tracker_next]; [discriminate|].
  destruct (cur <? y); [intros H; inversion H; now left|]. intros H. right. now apply IH.
Qed.

Theorem wr_write_guards_hold w data :
  wr_inv 1 w -> lenN data <= wr_rem P w -> wr_write_guards w data.
Proof.
  intros [Ho Hf] Hl. unfold wr_write_guards. destruct data as [|x d]; [exact I|].
  pose proof (wr_rem_bounds w) as Hr.
  split; [exact Hl|]. split; [intros Hd; specialize (Hu Hd); lia|].
  destruct (FILE_BYTES P <? w_off w + lenN (x :: d)); [|exact I].
  destruct (roll_prep_fields w) as (F1 & F2 & _). rewrite F1, F2.
  destruct (tracker_next (w_files w) (w_file w)); [exact I|].
  intros Hd. exact (proj1 (Hf Hd)).
Qed.

Lemma wr_write_post b w data w' r :
  wr_inv (b + 1) w -> lenN data <= wr_rem P w -> wr_write P w data = (w', r) -> wr_inv b w'.
Proof.
  intros Hi Hl H. pose proof Hi as [Ho Hf]. unfold wr_write in H.
  destruct data as [|x d]; [inversion H; subst; eapply wr_inv_mono; [exact Hi|lia]|].
  pose proof (wr_rem_bounds w) as Hr. pose proof BS_le_FILE as HBF.
  destruct (N.ltb_spec (FILE_BYTES P) (w_off w + lenN (x :: d))) as [Hroll|Hno].
  - destruct (roll_prep_fields w) as (F1 & F2 & F3 & F4).
    set (w1 := sync_dir (sync_data (bw_flush w))) in *.
    destruct (tracker_next (w_files w1) (w_file w1)) as [nxt|] eqn:Et.
    + destruct (open_file (w_ctx w1) nxt) as [c [u|e]]; inj H.
      * destruct (bw_write_all_fields (mkWr c (w_files w1) nxt 0 []) (x :: d)) as (G1 & G2 & G3).
        split; [rewrite G3; cbn [w_off]; lia|]. rewrite G1, G2. cbn [w_files w_file].
        intros Hd. destruct (Hf Hd) as [H3 H4]. apply tracker_next_In in Et. rewrite F1 in *.
        split; [specialize (H4 _ Et); lia|]. intros f Hin. specialize (H4 _ Hin). lia.
      * unfold wr_ctx. cbn [w_off w_file w_files]. rewrite F1, F2, F3.
        eapply wr_inv_mono; [exact Hi|lia].
    + destruct (create_file P (w_ctx w1) (w_file w1 + 1)) as [c [u|e]]; inj H.
      * destruct (bw_write_all_fields (mkWr c (insert_sorted (w_file w1 + 1) (w_files w1))
                                            (w_file w1 + 1) 0 []) (x :: d)) as (G1 & G2 & G3).
        split; [rewrite G3; cbn [w_off]; lia|]. rewrite G1, G2. cbn [w_files w_file].
        rewrite F1, F2. intros Hd. destruct (Hf Hd) as [H3 H4].
        split; [lia|]. intros f Hin. apply insert_sorted_In in Hin.
        destruct Hin as [->|Hin]; [lia|]. specialize (H4 _ Hin). lia.
      * rewrite F1, F2, F3.
        split; [exact Ho|]. cbn [w_off w_file w_files]. intros Hd. destruct (Hf Hd) as [H3 H4].
        split; [lia|]. intros f Hin. specialize (H4 _ Hin). lia.
  - inj H. destruct (bw_write_all_fields w (x :: d)) as (G1 & G2 & G3).
    split; [rewrite G3; lia|]. rewrite G1, G2. intros Hd. destruct (Hf Hd) as [H3 H4].
    split; [lia|]. intros f Hin. specialize (H4 _ Hin). lia.
Qed.

Lemma wr_write_noroll w data w' r :
  w_off w + lenN data <= FILE_BYTES P -> wr_write P w data = (w', r) ->
  w_off w' = w_off w + lenN data.
Proof.
  intros Hno H. unfold wr_write in H.
  destruct data as [|x d]; [inversion H; subst; rewrite lenN_nil; lia|].
  destruct (N.ltb_spec (FILE_BYTES P) (w_off w + lenN (x :: d))) as [Hroll|_]; [lia|].
  inj H. apply bw_write_all_fields.
Qed.

(* padding never rolls over when the offset is within the file: the block ends inside the file *)
Lemma pad_arith off :
  off <= FILE_BYTES P -> BS P - off mod BS P < 7 ->
  off + (BS P - off mod BS P) <= FILE_BYTES P /\ (off + (BS P - off mod BS P)) mod BS P = 0.
Proof.
  intros Ho Hr. unfold FILE_BYTES in *.
  assert (Hb : BS P <> 0) by lia.
  pose proof (N.div_mod off (BS P) Hb) as Hdm. pose proof (N.mod_lt off (BS P) Hb) as Hlt.
  set (q := off / BS P) in *. set (r := off mod BS P) in *.
  assert (Hq : q + 1 <= NB P).
  { destruct (N.le_gt_cases (q + 1) (NB P)) as [|Hgt]; [assumption|].
    assert (NB P <= q) by lia.
    assert (BS P * NB P <= BS P * q) by (apply N.mul_le_mono_l; assumption). lia. }
  assert (Hm : BS P * (q + 1) <= BS P * NB P) by (apply N.mul_le_mono_l; assumption).
  assert (Hs : off + (BS P - r) = BS P * (q + 1)) by (rewrite N.mul_add_distr_l, N.mul_1_r; lia).
  rewrite Hs. split; [exact Hm|]. rewrite N.mul_comm. apply N.mod_mul. exact Hb.
Qed.

Lemma pad_step_post b w w1 r1 :
  wr_inv (b + 1) w -> pad_step w = (w1, r1) ->
  wr_inv b w1 /\ (forall k, r1 = Ok k -> max_writable P (wr_rem P w) + 7 <= wr_rem P w1).
Proof.
  intros Hi H. pose proof Hi as [Ho Hf]. unfold pad_step, HEADER_LEN in H.
  pose proof (wr_rem_bounds w) as Hr. unfold max_writable, HEADER_LEN.
  destruct (N.ltb_spec (wr_rem P w) 7) as [Hlt|Hge].
  - destruct (wr_write P w (zerosN (wr_rem P w))) as [w2 r2] eqn:Ew.
    assert (Hl : lenN (zerosN (wr_rem P w)) <= wr_rem P w) by (rewrite lenN_zerosN; lia).
    pose proof (wr_write_post _ _ _ _ _ Hi Hl Ew) as Hi2.
    unfold wr_rem in Hlt. destruct (pad_arith _ Ho Hlt) as [Ha1 Ha2].
    assert (Hno : w_off w + lenN (zerosN (wr_rem P w)) <= FILE_BYTES P)
      by (rewrite lenN_zerosN; exact Ha1).
    pose proof (wr_write_noroll _ _ _ _ Hno Ew) as Hoff. rewrite lenN_zerosN in Hoff.
    destruct r2 as [u|e]; inversion H; subst w1 r1; (split; [exact Hi2|]); intros k Hk; [|discriminate].
    assert (Hr2 : wr_rem P w2 = BS P) by (unfold wr_rem in Hoff |- *; rewrite Hoff, Ha2; lia).
    rewrite Hr2.
    destruct (N.leb_spec 7 (wr_rem P w)); lia.
  - inversion H; subst w1 r1. split; [eapply wr_inv_mono; [exact Hi|lia]|]. intros k _.
    destruct (N.leb_spec 7 (wr_rem P w)); lia.
Qed.

Theorem write_frame_guards_hold w t payload :
  wr_inv 2 w -> lenN payload <= max_writable P (wr_rem P w) -> write_frame_guards w t payload.
Proof.
  intros Hi Hl. unfold write_frame_guards. pose proof (wr_rem_bounds w) as Hr.
  assert (Hmw : max_writable P (wr_rem P w) + 7 <= BS P).
  { unfold max_writable, HEADER_LEN. destruct (N.leb_spec 7 (wr_rem P w)); lia. }
  split.
  - unfold HEADER_LEN. destruct (N.ltb_spec (wr_rem P w) 7); [|exact I]. split; [lia|].
    apply wr_write_guards_hold; [eapply wr_inv_mono; [exact Hi|lia]|rewrite lenN_zerosN; lia].
  - destruct (pad_step w) as [w1 r1] eqn:Ep.
    destruct (pad_step_post 1 _ _ _ Hi Ep) as [Hi1 Hk].
    destruct r1 as [k|e]; [|exact I]. specialize (Hk k eq_refl). unfold HEADER_LEN.
    split; [lia|]. split; [lia|]. split; [lia|]. split; [lia|]. split.
    + apply lenN_header_bytes.
    + apply wr_write_guards_hold; [exact Hi1|]. rewrite lenN_frame_bytes. unfold HEADER_LEN. lia.
Qed.

Lemma write_frame_post b w t payload w' r :
  wr_inv (b + 2) w -> lenN payload <= max_writable P (wr_rem P w) ->
  write_frame P rwriter (wr_write P) (wr_rem P) w t payload = (w', r) -> wr_inv b w'.
Proof.
  intros Hi Hl H. rewrite write_frame_eq in H.
  destruct (pad_step w) as [w1 r1] eqn:Ep.
  assert (Hi' : wr_inv (b + 1 + 1) w) by (eapply wr_inv_mono; [exact Hi|lia]).
  destruct (pad_step_post _ _ _ _ Hi' Ep) as [Hi1 Hk].
  destruct r1 as [k|e].
  - specialize (Hk k eq_refl).
    destruct (wr_write P w1 (frame_bytes P t payload)) as [w2 r2] eqn:Ew.
    assert (Hi2 : wr_inv b w2).
    { eapply wr_write_post; [exact Hi1| |exact Ew]. rewrite lenN_frame_bytes. unfold HEADER_LEN. lia. }
    destruct r2; inversion H; subst; exact Hi2.
  - inversion H; subst. eapply wr_inv_mono; [exact Hi1|lia].
Qed.

Theorem wrl_guards_hold : forall fuel w isf payload,
  wr_inv (2 * N.of_nat fuel) w -> wrl_guards fuel w isf payload.
Proof.
  induction fuel as [|fuel IH]; intros w isf payload Hi; cbn [wrl_guards]; [exact I|].
  set (n := N.min (max_writable P (wr_rem P w)) (lenN payload)).
  assert (Hn : lenN (takeN n payload) <= max_writable P (wr_rem P w))
    by (rewrite lenN_takeN; unfold n; lia).
  split; [unfold n; lia|]. split.
  - apply write_frame_guards_hold; [eapply wr_inv_mono; [exact Hi|lia]|exact Hn].
  - destruct (write_frame P rwriter (wr_write P) (wr_rem P) w
                (frame_type isf (isnil (dropN n payload))) (takeN n payload)) as [w1 [k|e]] eqn:Ew;
      [|exact I].
    destruct (isnil (dropN n payload)); [exact I|]. apply IH.
    eapply write_frame_post; [|exact Hn|exact Ew]. eapply wr_inv_mono; [exact Hi|lia].
Qed.

Lemma wrl_post : forall fuel b w isf payload acc w' r,
  wr_inv (b + 2 * N.of_nat fuel) w ->
  write_record_loop P rwriter (wr_write P) (wr_rem P) fuel w isf payload acc = (w', r) ->
  wr_inv b w'.
Proof.
  induction fuel as [|fuel IH]; intros b w isf payload acc w' r Hi H; cbn [write_record_loop] in H.
  - inversion H; subst. eapply wr_inv_mono; [exact Hi|lia].
  - set (n := N.min (max_writable P (wr_rem P w)) (lenN payload)) in *.
    assert (Hn : lenN (takeN n payload) <= max_writable P (wr_rem P w))
      by (rewrite lenN_takeN; unfold n; lia).
    destruct (write_frame P rwriter (wr_write P) (wr_rem P) w
                (frame_type isf (isnil (dropN n payload))) (takeN n payload)) as [w1 [k|e]] eqn:Ew.
    + assert (Hi1 : wr_inv (b + 2 * N.of_nat fuel) w1).
      { eapply write_frame_post; [|exact Hn|exact Ew]. eapply wr_inv_mono; [exact Hi|lia]. }
      destruct (isnil (dropN n payload)).
      * inversion H; subst. eapply wr_inv_mono; [exact Hi1|lia].
      * eapply IH; [exact Hi1|exact H].
    + inversion H; subst. eapply write_frame_post; [|exact Hn|exact Ew].
      eapply wr_inv_mono; [exact Hi|lia].
Qed.

Lemma entry_budget_position n p :
  2 * N.of_nat (record_fuel P (entry_ser (EPosition n p))) = name_budget n.
Proof.
  unfold record_fuel, name_budget. rewrite N2Nat.id, lenN_entry_ser.
  cbn [entry_queue entry_payload_bytes]. rewrite N.add_0_r. reflexivity.
Qed.

Theorem write_entry_guards_hold st e :
  wr_inv (2 * N.of_nat (record_fuel P (entry_ser e))) (s_wr st) ->
  lenN (entry_queue e) <= 65535 -> write_entry_guards st e.
Proof. intros Hi Hq. split; [exact Hq|]. apply wrl_guards_hold. exact Hi. Qed.

Lemma write_entry_post b st e st' r :
  wr_inv (b + 2 * N.of_nat (record_fuel P (entry_ser e))) (s_wr st) ->
  write_entry P st e = (st', r) -> wr_inv b (s_wr st') /\ s_qs st' = s_qs st.
Proof.
  intros Hi H. unfold write_entry, write_record in H.
  destruct (write_record_loop P rwriter (wr_write P) (wr_rem P) (record_fuel P (entry_ser e))
              (s_wr st) true (entry_ser e) 0) as [w r0] eqn:Ew.
  inversion H; subst st' r. cbn [set_wr s_wr s_qs]. split; [|reflexivity].
  eapply wrl_post; [exact Hi|exact Ew].
Qed.

Theorem record_positions_guards_hold : forall names st,
  qs_names_short (s_qs st) -> (dbg = true -> qs_small (s_qs st)) ->
  wr_inv (names_budget names) (s_wr st) -> record_positions_guards st names.
Proof.
  induction names as [|n r IH]; intros st Hn Hs Hi; cbn [record_positions_guards]; [exact I|].
  cbn [names_budget fold_right] in Hi. fold (names_budget r) in Hi.
  destruct (qs_get (s_qs st) n) as [q|] eqn:E.
  - split; [apply next_position_guards_hold; intros Hd; exact (qs_all_get _ _ _ _ (Hs Hd) E)|].
    split.
    + apply write_entry_guards_hold.
      * rewrite entry_budget_position. eapply wr_inv_mono; [exact Hi|lia].
      * cbn [entry_queue]. apply qs_get_In' in E. eapply Hn; exact E.
    + destruct (write_entry P st (EPosition n (next_position q))) as [st1 [k|e]] eqn:Ew; [|exact I].
      destruct (write_entry_post (names_budget r) _ _ _ _ ltac:(rewrite entry_budget_position, N.add_comm; exact Hi) Ew)
        as [Hi1 Hq1].
      apply IH; [rewrite Hq1; exact Hn|rewrite Hq1; exact Hs|exact Hi1].
  - apply IH; [exact Hn|exact Hs|]. eapply wr_inv_mono; [exact Hi|lia].
Qed.

Theorem run_gc_guards_hold st hint :
  qs_inv (s_qs st) -> qs_names_short (s_qs st) -> (dbg = true -> qs_small (s_qs st)) ->
  wr_inv (gc_budget st hint) (s_wr st) -> run_gc_guards st hint.
Proof.
  intros Hq Hn Hs Hi. unfold run_gc_guards. split; [|split].
  - intros H2 E. rewrite E, lenN_nil in H2. lia.
  - destruct (has_deletable st); [|exact I]. apply record_positions_guards_hold; assumption.
  - apply debug_log_guards_hold; assumption.
Qed.
End Writer.

(* everything up to and including into_writer (multi_record_log.rs:44-105) *)
Definition open_read_guards (fuel : nat) (fs : fsT) (plan : option fplan) : Prop :=
  rd_open_guards (ctx_init fs plan) /\
  match rd_open P (ctx_init fs plan) with
  | (_, Err _) => True
  | (_, Ok rd) =>
      replay_loop_guards fuel fuel (rr_open rreaderS rd) [] /\
      match replay_loop P fuel fuel (rr_open rreaderS rd) [] with
      | (rr, RpDone _) => into_writer_guards (fr_rd (rr_fr rr)) (fr_cursor (rr_fr rr))
      | _ => True
      end
  end.

(* the recovery-time GC (multi_record_log.rs:113) *)
Definition open_gc_guards (fuel : nat) (fs : fsT) (plan : option fplan) (pol : policy)
           (hint : list bytes) : Prop :=
  match rd_open P (ctx_init fs plan) with
  | (_, Err _) => True
  | (_, Ok rd) =>
      match replay_loop P fuel fuel (rr_open rreaderS rd) [] with
      | (rr, RpDone qs) =>
          let fr := rr_fr rr in
          let w := rd_into_writer P (fr_rd fr) (fr_cursor fr) in
          run_gc_guards (mkSt w qs pol) hint
      | _ => True
      end
  end.

Definition open_with_guards (fuel : nat) (fs : fsT) (plan : option fplan) (pol : policy)
           (hint : list bytes) : Prop :=
  open_read_guards fuel fs plan /\ open_gc_guards fuel fs plan pol hint.

Definition open_guards (fs : fsT) (plan : option fplan) (pol : policy) (hint : list bytes) : Prop :=
  open_with_guards (open_fuel P fs) fs plan pol hint.

(* the hypothesis of the debug profile, on the run of open itself: every entry decoded by the
   replay is small, and the file numbers leave room for the roll-overs of the GC writes *)
Definition open_small (fuel : nat) (fs : fsT) (plan : option fplan) (pol : policy)
           (hint : list bytes) : Prop :=
  match rd_open P (ctx_init fs plan) with
  | (_, Err _) => True
  | (_, Ok rd) =>
      replay_small fuel fuel (rr_open rreaderS rd) [] /\
      match replay_loop P fuel fuel (rr_open rreaderS rd) [] with
      | (rr, RpDone qs) =>
          let fr := rr_fr rr in
          let st := mkSt (rd_into_writer P (fr_rd fr) (fr_cursor fr)) qs pol in
          forall f, In f (rd_files (fr_rd fr)) -> f + gc_budget st hint < U64
      | _ => True
      end
  end.

Lemma frok_open fs0 rd : rd_ok rd -> c_fs (rd_ctx rd) = fs0 -> frok fs0 (rr_fr (rr_open rreaderS rd)).
Proof. intros H E. split; [split; assumption|]. cbn. lia. Qed.

Lemma into_writer_bound fs0 fr :
  frok fs0 fr ->
  rd_block_id (fr_rd fr) * BS P + fr_cursor fr <= lenN (fcontent fs0 (rd_file (fr_rd fr))).
Proof.
  intros [[(_ & _ & H1 & H2) E] Hc]. rewrite E in H2.
  rewrite N.mul_add_distr_r, N.mul_1_l in H1. lia.
Qed.

Theorem open_read_guards_hold fuel fs plan pol hint :
  7 <= BS P ->
  (dbg = true -> FILE_BYTES P + BS P + 65536 <= U64 /\ fs_bounded fs /\
                 open_small fuel fs plan pol hint) ->
  open_read_guards fuel fs plan.
Proof.
  intros HBS Hd. unfold open_read_guards. split; [apply rd_open_guards_hold|].
  unfold open_small in Hd.
  destruct (rd_open P (ctx_init fs plan)) as [c [rd|e]] eqn:Eo; [|exact I].
  destruct (rd_open_ok _ _ _ Eo) as (Hok & Hctx & Hbnd). cbn [ctx_init c_fs] in Hbnd.
  assert (HBSu : dbg = true -> BS P + 65536 <= U64) by (intros D; destruct (Hd D) as [? _]; lia).
  assert (Hfr : frok (c_fs c) (rr_fr (rr_open rreaderS rd))) by (apply frok_open; [exact Hok|now rewrite Hctx]).
  split.
  - apply (replay_loop_guards_hold (c_fs c) HBS HBSu); [exact Hfr|apply qs_inv_nil|].
    intros D. destruct (Hd D) as (_ & _ & Hs & _). split; [apply qs_all_nil|exact Hs].
  - destruct (replay_loop P fuel fuel (rr_open rreaderS rd) []) as [rr res] eqn:Er.
    destruct res as [qs| |e|]; try exact I.
    pose proof (replay_loop_post (c_fs c) HBS HBSu _ _ _ _ _ _ Hfr Er) as Hfr'.
    pose proof (into_writer_bound _ _ Hfr') as Hb.
    unfold into_writer_guards. split; intros D; destruct (Hd D) as (Hu & Hfb & _);
      specialize (Hbnd Hfb (rd_file (fr_rd (rr_fr rr)))); lia.
Qed.

Theorem open_gc_guards_hold fuel fs plan pol hint :
  7 <= BS P -> 0 < NB P -> fs_bounded fs ->
  (dbg = true -> FILE_BYTES P + BS P + 65536 <= U64 /\ open_small fuel fs plan pol hint) ->
  open_gc_guards fuel fs plan pol hint.
Proof.
  intros HBS HNB Hfb Hd. unfold open_gc_guards. unfold open_small in Hd.
  destruct (rd_open P (ctx_init fs plan)) as [c [rd|e]] eqn:Eo; [|exact I].
  destruct (rd_open_ok _ _ _ Eo) as (Hok & Hctx & Hbnd). cbn [ctx_init c_fs] in Hbnd.
  specialize (Hbnd Hfb).
  assert (HBSu : dbg = true -> BS P + 65536 <= U64) by (intros D; destruct (Hd D) as [? _]; lia).
  assert (Hu : dbg = true -> FILE_BYTES P + BS P < U64) by (intros D; destruct (Hd D) as [? _]; lia).
  assert (Hfr : frok (c_fs c) (rr_fr (rr_open rreaderS rd))) by (apply frok_open; [exact Hok|now rewrite Hctx]).
  destruct (replay_loop P fuel fuel (rr_open rreaderS rd) []) as [rr res] eqn:Er.
  destruct res as [qs| |e|]; try exact I.
  pose proof (replay_loop_post (c_fs c) HBS HBSu _ _ _ _ _ _ Hfr Er) as Hfr'.
  pose proof (into_writer_bound _ _ Hfr') as Hb.
  specialize (Hbnd (rd_file (fr_rd (rr_fr rr)))).
  apply (run_gc_guards_hold HBS HNB Hu); cbn [s_qs s_wr].
  - eapply replay_loop_inv; [apply qs_inv_nil|exact Er].
  - eapply replay_loop_names; [|exact Er]. intros n q [].
  - intros D. destruct (Hd D) as (_ & Hs & _).
    eapply replay_loop_small; [apply qs_all_nil|exact Hs|exact Er].
  - split; [unfold rd_into_writer; cbn [w_off]; lia|].
    intros D. destruct (Hd D) as (_ & _ & Hf). unfold rd_into_writer at 1 3. cbn [w_file w_files].
    split; [|exact Hf]. apply Hf. destruct Hfr' as [[(_ & Hin & _) _] _]. exact Hin.
Qed.

Theorem open_with_guards_hold fuel fs plan pol hint :
  7 <= BS P -> 0 < NB P -> fs_bounded fs ->
  (dbg = true -> FILE_BYTES P + BS P + 65536 <= U64 /\ open_small fuel fs plan pol hint) ->
  open_with_guards fuel fs plan pol hint.
Proof.
  intros HBS HNB Hfb Hd. split.
  - apply (open_read_guards_hold fuel fs plan pol hint HBS).
    intros D. destruct (Hd D). repeat split; assumption.
  - now apply open_gc_guards_hold.
Qed.

(* the queues open returns are small when the replayed entries were *)
Theorem open_with_small fuel fs plan pol hint st :
  open_small fuel fs plan pol hint ->
  open_with P fuel fs plan pol hint = OpenOk st -> qs_small (s_qs st).
Proof.
  intros Hs H.
  destruct (open_with_ok _ _ _ _ _ _ _ H) as (c & rd & rr & qs & k & Ho & Er & Hg).
  unfold open_small in Hs. rewrite Ho in Hs. destruct Hs as [Hs _].
  apply (f_equal (fun x => s_qs (fst x))) in Hg. cbv beta in Hg.
  rewrite run_gc_qs in Hg. cbn [fst s_qs] in Hg. rewrite <- Hg.
  eapply replay_loop_small; [apply qs_all_nil|exact Hs|exact Er].
Qed.

End Guards.

(* Release profile, ANY directory content (any names, kinds, lengths, bytes), any fault plan:
   no site of the directory scan, the rolling reader, the frame reader, the record reader, the
   record deserialisation, the replay into MemQueues or into_writer can panic. *)
Theorem open_read_panic_free P fs plan :
  7 <= BS P -> open_read_guards P false (open_fuel P fs) fs plan.
Proof.
  intros HBS. apply (open_read_guards_hold P false _ fs plan PNothing [] HBS). intros D; discriminate D.
Qed.

(* Release profile, the whole of open including the recovery-time GC and its writes: for every
   directory whose WAL files are not longer than FILE_NUM_BYTES.  The extra premise is
   necessary: see overlong_shape below. *)
Theorem open_panic_free P fs plan pol hint :
  7 <= BS P -> 0 < NB P -> fs_bounded P fs -> open_guards P false fs plan pol hint.
Proof.
  intros HBS HNB Hfb. apply open_with_guards_hold; try assumption. intros D; discriminate D.
Qed.

(* with the strict bound 7 < BS *)
Corollary open_panic_free' P fs plan pol hint :
  7 < BS P -> 0 < NB P -> fs_bounded P fs -> open_guards P false fs plan pol hint.
Proof. intros H. apply open_panic_free. lia. Qed.

(* Debug profile (overflow checks on): additionally no arithmetic overflow, provided the sizes
   fit, every entry decoded during replay is small (record positions and truncate positions
   < 2^64 - 1) and the file numbers leave room for the roll-overs of the GC writes. *)
Theorem open_debug_panic_free P fs plan pol hint :
  7 <= BS P -> 0 < NB P -> FILE_BYTES P + BS P + 65536 <= U64 -> fs_bounded P fs ->
  open_small P (open_fuel P fs) fs plan pol hint ->
  open_guards P true fs plan pol hint.
Proof.
  intros HBS HNB Hu Hfb Hs. apply open_with_guards_hold; try assumption. intros _. split; assumption.
Qed.

(* The read accessors, on any state satisfying the representation invariant ... *)
Theorem accessors_panic_free st :
  qs_inv (s_qs st) ->
  forall q lo hi,
    log_range_guards st q lo hi /\ log_last_record_guards st q /\
    log_last_position_guards false st q /\ log_summary_guards false st.
Proof. intros Hi. apply accessors_guards_hold; [exact Hi|]. intros D; discriminate D. Qed.

Theorem accessors_debug_panic_free st :
  qs_inv (s_qs st) -> qs_small (s_qs st) ->
  forall q lo hi,
    log_range_guards st q lo hi /\ log_last_record_guards st q /\
    log_last_position_guards true st q /\ log_summary_guards true st.
Proof. intros Hi Hs. apply accessors_guards_hold; [exact Hi|]. intros _. exact Hs. Qed.

(* ... in particular on whatever open returns, for ANY directory *)
Corollary accessors_after_open P fs plan pol hint st :
  open P fs plan pol hint = OpenOk st ->
  forall q lo hi,
    log_range_guards st q lo hi /\ log_last_record_guards st q /\
    log_last_position_guards false st q /\ log_summary_guards false st.
Proof. intros H. apply accessors_panic_free. eapply open_inv. exact H. Qed.

Corollary accessors_after_open_debug P fs plan pol hint st :
  open_small P (open_fuel P fs) fs plan pol hint ->
  open P fs plan pol hint = OpenOk st ->
  forall q lo hi,
    log_range_guards st q lo hi /\ log_last_record_guards st q /\
    log_last_position_guards true st q /\ log_summary_guards true st.
Proof.
  intros Hs H. apply accessors_debug_panic_free; [eapply open_inv; exact H|].
  eapply open_with_small; [exact Hs|exact H].
Qed.

(* what the release profile computes: wrapping u64 addition *)
Definition wadd (a b : N) : N := (a + b) mod U64.

Lemma wadd_exact a b : a + b < U64 -> wadd a b = a + b.
Proof. intros H. unfold wadd. apply N.mod_small. exact H. Qed.

(* MemQueue::next_position with u64 arithmetic *)
Definition next_position_u64 (q : mq) : N :=
  match last_opt (q_metas q) with Some m => wadd (m_pos m) 1 | None => q_start q end.

(* mem/queue.rs:80: with every record position < 2^64 - 1 the sum does not overflow, and the
   model's N arithmetic agrees with the u64 arithmetic of the code *)
Theorem next_position_no_overflow q :
  mq_small q -> next_position q < U64 /\ next_position_u64 q = next_position q.
Proof.
  intros [Hs Hm]. unfold next_position, next_position_u64.
  destruct (last_opt (q_metas q)) as [m|] eqn:E; [|split; [exact Hs|reflexivity]].
  apply last_opt_In in E. specialize (Hm _ E). split; [exact Hm|now apply wadd_exact].
Qed.

(* mem/queue.rs:175,176,183,193: `truncate_up_to_pos + 1` *)
Theorem truncate_pos_no_overflow p : p < U64 - 1 -> p + 1 < U64 /\ wadd p 1 = p + 1.
Proof. intros H. assert (p + 1 < U64) by (unfold U64 in *; lia). split; [assumption|now apply wadd_exact]. Qed.

(* rolling/file_number.rs:64: `*curr.file_number + 1u64` *)
Theorem file_inc_no_overflow f : f < U64 - 1 -> f + 1 < U64 /\ wadd f 1 = f + 1.
Proof. exact (truncate_pos_no_overflow f). Qed.

(* smallness is an invariant of the replay: apply_entry_small, replay_loop_small, open_with_small
   above; the entries themselves always carry positions < 2^64 (entry_deser_bounds) *)

(* F6: the known counterexample shape *)
(* one file, one block: a CRC-valid (real CRC-32) Full frame holding an AppendRecords entry whose
   record sits at position 2^64 - 1 = u64::MAX, then zeros *)
Definition P6 : params := mkParams 64 2 Crc.crc32 24 false false false.
Definition q6 : bytes := ["q"%byte].
Definition e6 : entry := EAppend q6 (U64 - 1) [(U64 - 1, ["x"%byte])].
Definition wal6 : bytes := set_len (frame_bytes P6 Full (entry_ser e6)) (FILE_BYTES P6).
Definition fs6 : fsT := [(filename 0, FFile wal6)].
(* open succeeds; the queue's next position is 2^64 = u64::MAX + 1: `record.position + 1`
   (mem/queue.rs:80) overflows in last_position() / summary() - and in open itself if anything
   else touches the queue or if DEBUG tracing is on; the release profile wraps to 0 *)
Example f6_shape :
  exists st q,
    open P6 fs6 None (PAlways false) [] = OpenOk st /\
    qs_get (s_qs st) q6 = Some q /\
    next_position q = U64 /\ next_position_u64 q = 0 /\
    ~ log_last_position_guards true st q6 /\
    ~ log_summary_guards true st.
Proof.
  eexists. eexists. split; [vm_compute; reflexivity|].
  split; [vm_compute; reflexivity|].
  split; [vm_compute; reflexivity|]. split; [vm_compute; reflexivity|]. split.
  - intros H. vm_compute in H. specialize (H eq_refl). discriminate H.
  - intros H. specialize (H _ _ (or_introl eq_refl)). vm_compute in H.
    specialize (H eq_refl). discriminate H.
Qed.
(* the release-profile theorem applies to it all the same *)
Example f6_release_ok : open_guards P6 false fs6 None (PAlways false) [].
Proof.
  apply open_panic_free; [vm_compute; discriminate|reflexivity|].
  intros n. unfold fcontent, fs6. cbn [fs_get]. destruct (bytes_eqb (filename 0) (filename n)).
  - unfold wal6. rewrite lenN_set_len. lia.
  - rewrite lenN_nil. lia.
Qed.

(* and the hypothesis of the debug theorem fails on it, as it must *)
Example f6_not_small : ~ open_small P6 (open_fuel P6 fs6) fs6 None (PAlways false) [].
Proof.
  intros H. destruct f6_shape as (st & q & Ho & Hq & Hn & _).
  pose proof (open_with_small _ _ _ _ _ _ st H Ho) as Hs.
  pose proof (qs_all_get _ _ _ _ Hs Hq) as Hm.
  destruct (next_position_no_overflow _ Hm) as [Hlt _]. rewrite Hn in Hlt. lia.
Qed.

(* an over-long WAL file makes the GC writes of open hit an assert! *)
(* rolling/directory.rs:266 `assert!(buf.len() <= self.num_bytes_remaining_in_block())` is
   reachable from open when the file the reader ends in is longer than FILE_NUM_BYTES:
   into_writer then starts the writer at an offset beyond FILE_NUM_BYTES with fewer than
   HEADER_LEN bytes left in the block; the padding write of the first GC frame rolls over to a
   new file (offset = the padding, NOT a multiple of the block size), and the frame that follows,
   sized for a whole block by max_writable_frame_length, exceeds what is left of the block.
   Here with BS = 16, NB = 2 (FILE_BYTES = 32) and a constant checksum:
     wal-0 (32 bytes): the entry RecordPosition{"q", 0} in a First + a Last frame
     wal-1 (48 bytes): two garbage blocks, then a 5-byte Full frame ending at cursor 12
   Replay ends in block 2 of wal-1 at cursor 12: offset 44 > 32, 4 bytes left in the block;
   wal-0 is deletable and "q" is empty, so the GC writes RecordPosition{"q", 0}: 4 padding bytes
   (roll-over to wal-2, offset 4), then a 16-byte frame while 12 bytes remain: the assert fails.
   With the constants of the crate the same takes a wal file of more than NUM_BLOCKS_PER_FILE
   blocks and an empty queue whose name has about 32750 bytes or more.  Confirmed on the
   unmodified crate (scratch copy, cfg(test): 4 blocks per file; a 5-block wal-1 and a queue name
   of 32760 bytes): `MultiRecordLog::open` panics at src/rolling/directory.rs:266 in both the
   debug and the release profile. *)
Definition P16 : params := mkParams 16 2 (fun _ _ => 5) 0 false false false.
Definition ff (n : N) : bytes := map (fun _ => "255"%byte) (zerosN n).
Definition walX0 : bytes :=
  frame_bytes P16 First (takeN 9 (entry_ser (EPosition q6 0))) ++
  frame_bytes P16 Last (dropN 9 (entry_ser (EPosition q6 0))) ++ zerosN 6.
Definition walX1 : bytes := ff 32 ++ frame_bytes P16 Full (zerosN 5) ++ zerosN 4.
Definition fsX : fsT := [(filename 0, FFile walX0); (filename 1, FFile walX1)].

Example overlong_lengths : lenN walX0 = FILE_BYTES P16 /\ lenN walX1 = FILE_BYTES P16 + BS P16.
Proof. vm_compute. split; reflexivity. Qed.

(* the (total) model goes on and reports success *)
Example overlong_model_ok :
  exists st, open P16 fsX None (PAlways false) [] = OpenOk st.
Proof. eexists. vm_compute. reflexivity. Qed.

(* the state open has reached when it calls run_gc_if_necessary *)
Definition after_replay (P : params) (fuel : nat) (fs : fsT) (plan : option fplan) (pol : policy)
  : option state :=
  match rd_open P (ctx_init fs plan) with
  | (_, Ok rd) =>
      match replay_loop P fuel fuel (rr_open rreaderS rd) [] with
      | (rr, RpDone qs) =>
          Some (mkSt (rd_into_writer P (fr_rd (rr_fr rr)) (fr_cursor (rr_fr rr))) qs pol)
      | _ => None
      end
  | _ => None
  end.

Lemma open_gc_guards_after P dbg fuel fs plan pol hint :
  open_gc_guards P dbg fuel fs plan pol hint =
  match after_replay P fuel fs plan pol with
  | Some st => run_gc_guards P dbg st hint
  | None => True
  end.
Proof.
  unfold open_gc_guards, after_replay.
  destruct (rd_open P (ctx_init fs plan)) as [c [rd|e]]; [|reflexivity].
  destruct (replay_loop P fuel fuel (rr_open rreaderS rd) []) as [rr [qs| |e|]]; reflexivity.
Qed.

(* the writer starts at offset 44 with 4 bytes left in its block, and the guard of the assert
   fails in the first GC write: in Rust, open panics *)
Example overlong_shape :
  exists st,
    after_replay P16 (open_fuel P16 fsX) fsX None (PAlways false) = Some st /\
    w_off (s_wr st) = 44 /\ wr_rem P16 (s_wr st) = 4 /\
    ~ record_positions_guards P16 false st [q6].
Proof.
  eexists. split; [vm_compute; reflexivity|].
  split; [vm_compute; reflexivity|]. split; [vm_compute; reflexivity|].
  intros H. vm_compute in H.
  repeat match goal with X : _ /\ _ |- _ => destruct X end.
  match goal with X : Gt = Gt -> False |- _ => exact (X eq_refl) end.
Qed.

Example overlong_open_panics :
  ~ open_gc_guards P16 false (open_fuel P16 fsX) fsX None (PAlways false) [].
Proof.
  rewrite open_gc_guards_after. destruct overlong_shape as (st & E & _ & _ & Hn). rewrite E.
  intros (_ & H & _). apply Hn.
  assert (Hd : has_deletable st = true).
  { clear -E. vm_compute in E. inversion E. vm_compute. reflexivity. }
  rewrite Hd in H.
  assert (Hp : pick_order [] (empty_names (s_qs st)) = [q6]).
  { clear -E. vm_compute in E. inversion E. vm_compute. reflexivity. }
  rewrite Hp in H. exact H.
Qed.

(* the read half is fine on it (open_read_panic_free has no premise on the lengths) *)
Example overlong_read_ok : open_read_guards P16 false (open_fuel P16 fsX) fsX None.
Proof. apply open_read_panic_free. vm_compute. discriminate. Qed.

(* consequently the statement without the premise on the lengths is false *)
Example open_panic_free_needs_bounded_files :
  ~ (forall P fs plan pol hint, 7 < BS P -> open_guards P false fs plan pol hint).
Proof.
  intros H. apply overlong_open_panics.
  destruct (H P16 fsX None (PAlways false) [] ltac:(vm_compute; reflexivity)) as [_ Hg]. exact Hg.
Qed.

Print Assumptions open_read_panic_free.
Print Assumptions open_panic_free.
Print Assumptions open_panic_free'.
Print Assumptions open_debug_panic_free.
Print Assumptions accessors_panic_free.
Print Assumptions accessors_debug_panic_free.
Print Assumptions accessors_after_open.
Print Assumptions accessors_after_open_debug.
Print Assumptions next_position_no_overflow.
Print Assumptions truncate_pos_no_overflow.
Print Assumptions file_inc_no_overflow.
Print Assumptions f6_shape.
Print Assumptions f6_release_ok.
Print Assumptions f6_not_small.
Print Assumptions overlong_shape.
Print Assumptions overlong_open_panics.
Print Assumptions overlong_model_ok.
Print Assumptions overlong_read_ok.
Print Assumptions open_panic_free_needs_bounded_files.

(* Table of sites *)
(*
 Status legend
   PROVED        : guard proved for ANY directory content and any fault plan (release theorem
                   open_read_panic_free / accessors_after_open; premise 7 <= BS only)
   PROVED/bounded: guard proved when no WAL file is longer than FILE_NUM_BYTES (open_panic_free;
                   premises 7 <= BS, 0 < NB, fs_bounded)
   FALSE         : guard fails on a concrete directory (counterexample in this file)
   OVF           : overflow-only site (panics only with overflow checks); "proved if" gives the
                   hypothesis of the debug theorems (open_debug_panic_free,
                   accessors_after_open_debug)
   NOT COVERED   : with the reason

 A. PANIC SITES OF EVERY PROFILE, reachable from MultiRecordLog::open
  rolling/directory.rs:26,30   &file_name[4..], file_name[4..]        PROVED  filename_to_position_guards_hold
                               (the char-boundary half rests on &str being UTF-8: not modelled)
  rolling/file_number.rs:12    from_file_numbers(vec![0]).unwrap()    PROVED  rd_open_guards_hold (constant)
  rolling/file_number.rs:17    files.first().unwrap()  called from
       directory.rs:72 (new tracker), :97/:151 (first_file_number),
       :103 (after count() >= 2), file_number.rs:37 (after len() >= 2) PROVED  rd_open_guards_hold, run_gc_guards_hold
                               (the tracker is never empty: rd_ok keeps rd_file in rd_files)
  rolling/file_number.rs:22    files.last().unwrap()  (directory.rs:88) PROVED rd_open_guards_hold
  frame/reader.rs:68           block()[cursor..][..HEADER_LEN]         PROVED  read_here_guards_hold
                               (needs: every block has exactly BS bytes - read_block_ok, rd_next_ok,
                                rd_open_ok - and cursor + 7 <= BS - need_skip_false)
  frame/header.rs:55           assert_eq!(data.len(), HEADER_LEN)      PROVED  read_here_guards_hold
  frame/header.rs:56-58        data[0] .. data[6]                      PROVED  read_here_guards_hold
  frame/reader.rs:93           block()[cursor..][..header.len()]       PROVED  read_here_guards_hold
                               (after the check `cursor + len > BLOCK_NUM_BYTES` of line 86)
  record.rs:158                buffer.split_at(11)                     PROVED  entry_deser_guards_hold
  record.rs:159                header[0]                               PROVED  entry_deser_guards_hold
  record.rs:160                header[1..9].try_into().unwrap()        PROVED  entry_deser_guards_hold
  record.rs:161                header[9..11].try_into().unwrap()       PROVED  entry_deser_guards_hold
  record.rs:170                body.split_at(queue_len)                PROVED  entry_deser_guards_hold
  record.rs:173                queue_bytes[..truncated_len]            PROVED  entry_deser_guards_hold
  record.rs:264                &self.buffer[self.byte_offset..]        PROVED  multi_guards_hold
  record.rs:271                buffer[0..8].try_into().unwrap()        PROVED  multi_guards_hold
  record.rs:272                buffer[8..12].try_into().unwrap()       PROVED  multi_guards_hold
  record.rs:274                &buffer[HEADER_LEN..]                   PROVED  multi_guards_hold
  record.rs:283                &buffer[..len]                          PROVED  multi_guards_hold
                               (both iterations: MultiRecord::new and multi_record_log.rs:71)
  mem/queue.rs:105             file_number.take().unwrap()             PROVED  append_record_guards_hold
  mem/queue.rs:186             record_metas[first_record_to_keep]      PROVED  truncate_head_guards_hold (mq_inv, idx_ge_lt)
  mem/queue.rs:187             record_metas.drain(..first_record_to_keep) PROVED truncate_head_guards_hold
  mem/rolling_buffer.rs:36     buffer.drain(..first_pos_to_keep)       PROVED  truncate_head_guards_hold (offsets inside the buffer)
  multi_record_log.rs:315      get_queue(queue).unwrap()  (DEBUG log)  PROVED  debug_log_guards_hold
  multi_record_log.rs:316      queue.range(..)            (DEBUG log)  PROVED  debug_log_guards_hold (see C)
  record.rs:111                assert!(queue.len() <= u16::MAX)        PROVED  write_entry_guards via qs_names_short
                               (names in memory were decoded from a u16 length: entry_deser_bounds,
                                replay_loop_names)
  recordlog/writer.rs:61,62    &payload[..n], &payload[n..]            PROVED  wrl_guards_hold
  frame/writer.rs:33           &zero_bytes[..remaining]                PROVED  write_frame_guards_hold
  frame/writer.rs:37           buffer[..record_len].split_at_mut(7)    PROVED  write_frame_guards_hold
  frame/writer.rs:38           buffer_record.copy_from_slice(payload)  PROVED  write_frame_guards_hold
  frame/header.rs:19           assert!(payload.len() < BLOCK_NUM_BYTES) PROVED write_frame_guards_hold
  frame/header.rs:44-47        assert_eq!(dest.len(), 7), dest[..4], dest[4..6], dest[6] PROVED write_frame_guards_hold
       (the five writer sites above are stated inside write_frame_guards, whose proof as a whole
        is under the premises of PROVED/bounded; they do not themselves depend on the offset)
  rolling/directory.rs:266     assert!(buf.len() <= num_bytes_remaining_in_block())
                               PROVED/bounded  wr_write_guards_hold, pad_step_post
                               FALSE for a directory with an over-long WAL file:
                               overlong_shape, overlong_open_panics,
                               open_panic_free_needs_bounded_files (confirmed on the
                               crate: open panics at rolling/directory.rs:266)

 B. NOT COVERED (every profile)
  persist_policy.rs:98         Instant::now() + interval (panics if the sum overflows): depends on
                               the PersistPolicy argument, not on the directory; time is not modelled
  allocation failure / stack   abort rather than unwind; outside the model
  tracing macros, std I/O      assumed panic-free (errors are Results: modelled as IoError)

 C. PANIC SITES OF EVERY PROFILE in the read accessors (on any state with qs_inv, in particular
    on whatever open returns for ANY directory: accessors_after_open)
  mem/queue.rs:150,152         record_metas[idx], idx in start_idx..len   PROVED (in range by the Range)
  mem/queue.rs:158,160,72      get_range(a..b), get_range(a..)  ->
  mem/rolling_buffer.rs:69     &left[start..end]                       PROVED  get_range_guards_hold
  mem/rolling_buffer.rs:74     &right[start..end]                      PROVED  get_range_guards_hold
  mem/rolling_buffer.rs:81     Vec::with_capacity(end - start)         PROVED  get_range_guards_hold
  mem/rolling_buffer.rs:82     &left[start..]                          PROVED  get_range_guards_hold
  mem/rolling_buffer.rs:84     &right[..end]                           PROVED  get_range_guards_hold
                               (for every split of the ring buffer; from mq_inv: offsets non-decreasing
                                and <= the buffer length: mq_range_guards_hold, mq_last_record_guards_hold)
  last_position, summary, list_queues, resource_usage: no site of this kind

 D. OVERFLOW SITES (debug profile only)
  mem/queue.rs:80              record.position + 1  (next_position; reached from append_record,
                               truncate_head, last_position, summary, the DEBUG log)
                               OVF proved if every record position met during replay is < 2^64 - 1
                               (next_position_guards_hold, next_position_no_overflow, replay_loop_small,
                               open_with_small); FALSE otherwise: f6_shape (known finding F6)
  mem/queue.rs:175,176,183,193 truncate_up_to_pos + 1
                               OVF proved if every Truncate position met during replay is < 2^64 - 1
                               (truncate_head_guards_hold, truncate_pos_no_overflow)
  rolling/file_number.rs:64    *curr.file_number + 1
                               OVF proved if every file number f of the directory satisfies
                               f + gc_budget < 2^64, gc_budget bounding the number of roll-overs of
                               the GC writes (wr_write_guards_hold, file_inc_no_overflow).  NB: "every
                               file number < 2^64 - 1" alone is not enough when the GC writes roll
                               over more than once (2^64 - 2 -> 2^64 - 1 -> overflow)
  frame/reader.rs:47           BLOCK_NUM_BYTES - cursor                PROVED unconditionally (cursor <= BS)
  frame/reader.rs:85,86,94     cursor += 7, cursor + len, cursor += len  OVF proved if BS + 65536 <= 2^64
  record.rs:281                byte_offset += 12 + len                 PROVED unconditionally (<= buffer length)
  mem/queue.rs:189             start_offset -= start_offset_to_keep    PROVED unconditionally (offsets non-decreasing)
  mem/rolling_buffer.rs:71,72,83  start - left.len(), end - left.len() PROVED unconditionally
  rolling/directory.rs:172,241 block_id * BS, offset += cursor         OVF proved if fs_bounded and FILE_BYTES + BS < 2^64
  rolling/directory.rs:267,294 offset + buf.len(), offset += buf.len() OVF proved if fs_bounded and FILE_BYTES + BS < 2^64
  rolling/directory.rs:314     BS - offset % BS                        cannot underflow (BS > 0)
  frame/writer.rs:59           available - HEADER_LEN                  cannot underflow (guarded by >=)
  NOT COVERED (sizes of in-memory objects or byte counters, bounded by the address space / by the
  bytes written; the model has no such bound):
  rolling/directory.rs:195     block_id += 1            (bounded by file length / BS: rd_ok)
  mem/queue.rs:144             idx + 1                  (<= record_metas.len())
  mem/rolling_buffer.rs:35     self.len() * 9 / 8
  mem/queue.rs:198,199,203,204; mem/queues.rs:170,176; rolling/directory.rs:250   (resource_usage)
  multi_record_log.rs:250; recordlog/writer.rs:65; frame/writer.rs:34,36,42       (byte counters)
*)
