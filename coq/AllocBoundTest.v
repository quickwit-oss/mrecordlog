(* AllocBoundTest.v — the allocation bound of AllocBound.v evaluated on concrete adversarial
   directories (executable model, real CRC), and two negative results:
   - the bound against FILE_BYTES * (number of WAL files) is FALSE for arbitrary directories:
     a WAL file longer than FILE_BYTES is read to its end;
   - the factor alloc_factor (RMS) = 2 for RMS = 24 cannot be replaced by 1.
   Only N / option N valued terms are evaluated. *)
From Coq Require Import Lia ZArith.
From MRL Require Import Bytes BytesProofs Params Names Frame Record Mem Rolling Log Crc
                        OpenTerm AllocBound.

Definition mem_of (P : params) (r : open_result) : option N :=
  match r with OpenOk st => Some (log_memory_used P st) | _ => None end.

Lemma mem_of_some P r m :
  mem_of P r = Some m -> exists st, r = OpenOk st /\ log_memory_used P st = m.
Proof.
  destruct r as [st|e c|c|c]; cbn [mem_of]; intros H; inversion H; subst.
  exists st. split; reflexivity.
Qed.

Fixpoint empties (k : nat) (p : N) : list (N * bytes) :=
  match k with O => [] | S k' => (p, []) :: empties k' (p + 1) end.

(* one WAL file eight times longer than FILE_BYTES *)
Definition Pt : params := mkParams 32 1 Crc.crc32 24 false false false.
(* one block = one Full frame = one AppendRecords entry with one empty record (+ 1 pad byte) *)
Definition blk (i : N) : bytes :=
  frame_bytes Pt Full (entry_ser (EAppend ["q"%byte] i [(i, [])])) ++ [x00].
Definition long_file : bytes := concat (map blk [0;1;2;3;4;5;6;7]).
Definition fs_long : fsT := [(filename 0, FFile long_file)].

Lemma fs_long_mem : mem_of Pt (open Pt fs_long None PNothing []) = Some 193.
Proof. vm_compute. reflexivity. Qed.
Lemma fs_long_sizes :
  (lenN long_file, list_wal_numbers fs_long, FILE_BYTES Pt, alloc_factor (RMS Pt))
  = (256, [0], 32, 2).
Proof. vm_compute. reflexivity. Qed.

(* memory 193 > 2 * (32 * 1) + 2 * 32 = 128: the premise of open_alloc_bound_count
   (no listed file longer than FILE_BYTES) cannot be dropped *)
Theorem alloc_count_bound_needs_premise :
  exists P fs st,
    open P fs None PNothing [] = OpenOk st /\
    alloc_factor (RMS P) * (FILE_BYTES P * N.of_nat (length (list_wal_numbers fs)))
      + alloc_factor (RMS P) * FILE_BYTES P < log_memory_used P st.
Proof.
  exists Pt, fs_long. destruct (mem_of_some _ _ _ fs_long_mem) as (st & Ho & Hm).
  exists st. split; [exact Ho|]. rewrite Hm.
  pose proof fs_long_sizes as [[[_ H2]%pair_equal_spec H3]%pair_equal_spec H4]%pair_equal_spec.
  rewrite H2, H3, H4. cbn [length]. lia.
Qed.

(* dense empty records: factor 1 is not enough *)
Definition Pd : params := mkParams 127 2 Crc.crc32 24 false false false.
(* one block = one Full frame = one AppendRecords entry with 9 empty records: 7+11+1+9*12 *)
Definition dblk (i : N) : bytes :=
  frame_bytes Pd Full (entry_ser (EAppend ["q"%byte] (9 * i) (empties 9 (9 * i)))).
Definition dfile (j : N) : bytes := dblk (2 * j) ++ dblk (2 * j + 1).
Definition fs_dense : fsT :=
  [(filename 0, FFile (dfile 0)); (filename 1, FFile (dfile 1));
   (filename 2, FFile (dfile 2)); (filename 3, FFile (dfile 3))].

Lemma fs_dense_mem : mem_of Pd (open Pd fs_dense None PNothing []) = Some 1729.
Proof. vm_compute. reflexivity. Qed.
Lemma fs_dense_sizes : (wal_bytes fs_dense, fs_bytes fs_dense, FILE_BYTES Pd) = (1016, 1016, 254).
Proof. vm_compute. reflexivity. Qed.

(* every file has exactly FILE_BYTES bytes; memory 1729 > 1 * (1016 + 254), <= 2 * (1016 + 254) *)
Theorem alloc_factor_one_insufficient :
  exists P fs st,
    open P fs None PNothing [] = OpenOk st /\
    1 * (wal_bytes fs + FILE_BYTES P) < log_memory_used P st /\
    1 * (fs_bytes fs + FILE_BYTES P) < log_memory_used P st.
Proof.
  exists Pd, fs_dense. destruct (mem_of_some _ _ _ fs_dense_mem) as (st & Ho & Hm).
  exists st. split; [exact Ho|]. rewrite Hm.
  pose proof fs_dense_sizes as [[H1 H2]%pair_equal_spec H3]%pair_equal_spec.
  rewrite H1, H2, H3. lia.
Qed.

(* other shapes (the inequality of open_alloc_bound, numerically) *)
(* many queues with one-byte names: 19 bytes in the file for 1 byte in memory *)
Definition Pq : params := mkParams 19 4 Crc.crc32 24 false false false.
Definition qblk (i : N) : bytes := frame_bytes Pq Full (entry_ser (EPosition [n2b (65 + i)] 0)).
Definition fs_queues : fsT :=
  [(filename 0, FFile (qblk 0 ++ qblk 1 ++ qblk 2 ++ qblk 3));
   (filename 1, FFile (qblk 4 ++ qblk 5 ++ qblk 6 ++ qblk 7))].
Lemma fs_queues_mem :
  (mem_of Pq (open Pq fs_queues None PNothing []), wal_bytes fs_queues, FILE_BYTES Pq)
  = (Some 8, 152, 76).
Proof. vm_compute. reflexivity. Qed.

(* one record of 20 empty records spread over 11 frames / blocks *)
Definition Pm : params := mkParams 32 11 Crc.crc32 24 false false false.
Definition big : bytes := entry_ser (EAppend ["q"%byte] 0 (empties 20 0)).
Fixpoint chunks (fuel : nat) (first : bool) (b : bytes) : bytes :=
  match fuel with
  | O => []
  | S f =>
      let last := lenN b <=? 25 in
      frame_bytes Pm (frame_type first last) (takeN 25 b) ++
      (if last then [] else chunks f false (dropN 25 b))
  end.
Definition fs_multi : fsT := [(filename 5, FFile (chunks 20 true big))].
Lemma fs_multi_mem :
  (mem_of Pm (open Pm fs_multi None PNothing []), lenN big, wal_bytes fs_multi, FILE_BYTES Pm)
  = (Some 481, 252, 329, 352).
Proof. vm_compute. reflexivity. Qed.

Definition fs_garbage : fsT := [(filename 5, FFile (le_enc 100 123456789123456789123456789))].
Lemma fs_garbage_mem : mem_of Pm (open Pm fs_garbage None PNothing []) = Some 0.
Proof. vm_compute. reflexivity. Qed.

Print Assumptions alloc_count_bound_needs_premise.
Print Assumptions alloc_factor_one_insufficient.
