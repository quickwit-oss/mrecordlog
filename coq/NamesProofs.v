(* NamesProofs.v — property C17: exactly the names `wal-<20 decimal digits>` (value <= u64::MAX)
   are WAL files; printing and parsing are mutually inverse. *)
From Coq Require Import Lia ZArith ZifyN ZifyNat ZifyBool.
From MRL Require Import Bytes BytesProofs Names.
Ltac Zify.zify_post_hook ::= Z.div_mod_to_equations.

Lemma b2n_digit d : b2n (digit d) = 48 + d mod 10.
Proof. unfold digit. rewrite b2n_n2b. lia. Qed.

Lemma is_digit_digit d : is_digit (digit d) = true.
Proof. unfold is_digit. rewrite b2n_digit. lia. Qed.

Lemma is_digit_spec b : is_digit b = true <-> 48 <= b2n b <= 57.
Proof. unfold is_digit. lia. Qed.

Lemma digit_of_is_digit b m :
  is_digit b = true -> digit (m * 10 + (b2n b - 48)) = b.
Proof.
  intros Hb. apply is_digit_spec in Hb. unfold digit.
  replace (48 + (m * 10 + (b2n b - 48)) mod 10) with (b2n b) by lia.
  apply n2b_b2n.
Qed.

Lemma length_dec_digits k n : length (dec_digits k n) = k.
Proof.
  revert n; induction k as [|k IH]; intros n; cbn [dec_digits]; [reflexivity|].
  rewrite app_length, IH. cbn [length]. lia.
Qed.

Lemma lenN_dec_digits k n : lenN (dec_digits k n) = N.of_nat k.
Proof. now rewrite lenN_length, length_dec_digits. Qed.

Lemma forallb_is_digit_dec_digits k n : forallb is_digit (dec_digits k n) = true.
Proof.
  revert n; induction k as [|k IH]; intros n; cbn [dec_digits]; [reflexivity|].
  rewrite forallb_app, IH. cbn [forallb]. now rewrite is_digit_digit.
Qed.

Lemma parse_dec_app a b acc : parse_dec (a ++ b) acc = parse_dec b (parse_dec a acc).
Proof.
  revert acc; induction a as [|x a IH]; intros acc; cbn [app parse_dec]; [reflexivity|].
  apply IH.
Qed.

Lemma pow10_succ k : 10 ^ N.of_nat (S k) = 10 * 10 ^ N.of_nat k.
Proof.
  replace (N.of_nat (S k)) with (N.succ (N.of_nat k)) by lia. apply N.pow_succ_r'.
Qed.

Lemma pow10_pos k : 0 < 10 ^ N.of_nat k.
Proof. pose proof (N.pow_nonzero 10 (N.of_nat k)). lia. Qed.

Lemma parse_dec_dec_digits k n acc :
  parse_dec (dec_digits k n) acc = acc * 10 ^ N.of_nat k + n mod 10 ^ N.of_nat k.
Proof.
  revert n acc; induction k as [|k IH]; intros n acc; cbn [dec_digits].
  - cbn [parse_dec]. change (10 ^ N.of_nat 0) with 1. rewrite N.mod_1_r. lia.
  - rewrite parse_dec_app, IH. cbn [parse_dec]. rewrite b2n_digit, pow10_succ.
    pose proof (pow10_pos k) as Hp.
    rewrite (N.mod_mul_r n 10 (10 ^ N.of_nat k)) by lia.
    set (p := 10 ^ N.of_nat k) in *.
    set (q := (n / 10) mod p).
    set (r := n mod 10).
    replace (48 + r - 48) with r by lia. lia.
Qed.

Lemma parse_dec_bound ds :
  forallb is_digit ds = true -> parse_dec ds 0 < 10 ^ N.of_nat (length ds).
Proof.
  induction ds as [|x l IH] using rev_ind; intros Hd.
  - cbn. lia.
  - rewrite forallb_app in Hd. apply andb_true_iff in Hd as [Hl Hx].
    cbn [forallb] in Hx. rewrite andb_true_r in Hx. apply is_digit_spec in Hx.
    specialize (IH Hl).
    rewrite parse_dec_app. cbn [parse_dec].
    rewrite app_length. cbn [length]. rewrite Nat.add_1_r, pow10_succ.
    set (p := 10 ^ N.of_nat (length l)) in *. lia.
Qed.

Lemma dec_digits_parse_dec ds :
  forallb is_digit ds = true -> dec_digits (length ds) (parse_dec ds 0) = ds.
Proof.
  induction ds as [|x l IH] using rev_ind; intros Hd.
  - reflexivity.
  - rewrite forallb_app in Hd. apply andb_true_iff in Hd as [Hl Hx].
    cbn [forallb] in Hx. rewrite andb_true_r in Hx.
    specialize (IH Hl).
    rewrite parse_dec_app. cbn [parse_dec].
    rewrite app_length. cbn [length]. rewrite Nat.add_1_r. cbn [dec_digits].
    rewrite (digit_of_is_digit x _ Hx). f_equal.
    apply is_digit_spec in Hx.
    replace ((parse_dec l 0 * 10 + (b2n x - 48)) / 10) with (parse_dec l 0) by lia.
    exact IH.
Qed.

Lemma lenN_wal_prefix : lenN wal_prefix = 4.
Proof. reflexivity. Qed.

Lemma U64_MAX_lt_pow : U64_MAX < 10 ^ N.of_nat 20.
Proof. now vm_compute. Qed.

Lemma filename_length : forall n, lenN (filename n) = 24.
Proof.
  intros n. unfold filename. rewrite lenN_app, lenN_wal_prefix, lenN_dec_digits. lia.
Qed.

Theorem parse_print : forall n, n <= U64_MAX -> filename_to_position (filename n) = Some n.
Proof.
  intros n Hn. unfold filename_to_position.
  rewrite filename_length. rewrite N.eqb_refl. cbn [negb].
  unfold filename.
  cbv zeta.
  pose proof (takeN_app_exact wal_prefix (dec_digits 20 n)) as Ht.
  pose proof (dropN_app_exact wal_prefix (dec_digits 20 n)) as Hd.
  rewrite lenN_wal_prefix in Ht, Hd. rewrite Ht, !Hd, bytes_eqb_refl. cbn [negb].
  rewrite forallb_is_digit_dec_digits. cbn [negb].
  rewrite parse_dec_dec_digits.
  pose proof U64_MAX_lt_pow as Hu.
  rewrite N.mod_small by lia. rewrite N.mul_0_l, N.add_0_l.
  destruct (N.leb_spec n U64_MAX) as [_|Hc]; [reflexivity|lia].
Qed.

Theorem parse_exact : forall s n, filename_to_position s = Some n -> s = filename n /\ n <= U64_MAX.
Proof.
  intros s n H. unfold filename_to_position in H.
  destruct (N.eqb_spec (lenN s) 24) as [Hlen|Hlen]; cbn [negb] in H; [|discriminate].
  destruct (bytes_eqb (takeN 4 s) wal_prefix) eqn:Hpre; cbn [negb] in H; [|discriminate].
  destruct (forallb is_digit (dropN 4 s)) eqn:Hdig; cbn [negb] in H; [|discriminate].
  destruct (N.leb_spec (parse_dec (dropN 4 s) 0) U64_MAX) as [Hle|Hgt]; [|discriminate].
  injection H as Hv. subst n. split; [|exact Hle].
  apply bytes_eqb_eq in Hpre.
  unfold filename.
  assert (Hl : length (dropN 4 s) = 20%nat).
  { pose proof (lenN_dropN 4 s) as Hd. rewrite lenN_length in Hd. lia. }
  rewrite <- Hl, (dec_digits_parse_dec _ Hdig), <- Hpre.
  symmetry. apply takeN_dropN.
Qed.

Corollary filename_inj : forall a b, a <= U64_MAX -> b <= U64_MAX -> filename a = filename b -> a = b.
Proof.
  intros a b Ha Hb E.
  pose proof (parse_print a Ha) as Pa. pose proof (parse_print b Hb) as Pb.
  rewrite E in Pa. congruence.
Qed.

Corollary parse_none_not_filename :
  forall s, filename_to_position s = None -> forall n, n <= U64_MAX -> s <> filename n.
Proof.
  intros s Hs n Hn E. subst s. rewrite (parse_print n Hn) in Hs. discriminate.
Qed.

(* Summary form of C17: a name is accepted iff it is the printed form of a u64. *)
Corollary parse_some_iff :
  forall s n, filename_to_position s = Some n <-> (s = filename n /\ n <= U64_MAX).
Proof.
  intros s n. split; [apply parse_exact|]. intros [-> Hn]. now apply parse_print.
Qed.

Local Open Scope byte_scope.

Example ex_filename_1 :
  filename 1 = ["w";"a";"l";"-";"0";"0";"0";"0";"0";"0";"0";"0";"0";"0";"0";"0";"0";"0";"0";"0";"0";"0";"0";"1"].
Proof. now vm_compute. Qed.

Example ex_roundtrip_max : filename_to_position (filename U64_MAX) = Some U64_MAX.
Proof. now vm_compute. Qed.

(* wal-18446744073709551616 : 20 digits, u64::MAX + 1 *)
Example ex_above_u64_rejected :
  filename_to_position (wal_prefix ++ dec_digits 20 (U64_MAX + 1)) = None.
Proof. now vm_compute. Qed.

(* wal-99999999999999999999 *)
Example ex_all_nines_rejected :
  filename_to_position (wal_prefix ++ dec_digits 20 99999999999999999999) = None.
Proof. now vm_compute. Qed.

(* 23 bytes: 19 digits *)
Example ex_23_bytes_rejected :
  filename_to_position (wal_prefix ++ dec_digits 19 7) = None.
Proof. now vm_compute. Qed.

(* 25 bytes: 21 digits *)
Example ex_25_bytes_rejected :
  filename_to_position (wal_prefix ++ dec_digits 21 7) = None.
Proof. now vm_compute. Qed.

(* wal_00000000000000000001 *)
Example ex_underscore_prefix_rejected :
  filename_to_position (["w";"a";"l";"_"] ++ dec_digits 20 1) = None.
Proof. now vm_compute. Qed.

(* a non-digit among the 20 *)
Example ex_non_digit_rejected :
  filename_to_position (wal_prefix ++ dec_digits 19 1 ++ ["a"]) = None.
Proof. now vm_compute. Qed.
