(* WriterProofs.v — property C15: the byte count returned by every writing call is the number
   of bytes the call handed to the WAL (frame headers, payload, end-of-block padding, GC position
   entries).  Proved generically for the frame/record writer over any block writer that has a
   byte counter, then for the rolling writer (bytes in the OS-level write events + bytes still in
   the BufWriter), then for every API call. *)
From Coq Require Import Lia ZArith ZifyN ZifyNat ZifyBool.
From MRL Require Import Bytes BytesProofs Params Names Frame Record Mem Rolling Log Hist NoopProofs.

Section Generic.
Variable P : params.
Variable W : Type.
Variable wwrite : W -> bytes -> W * res unit.
Variable wrem : W -> N.
Variable wcount : W -> N.            (* bytes accepted so far *)
Hypothesis wwrite_count : forall w d w', wwrite w d = (w', Ok tt) -> wcount w' = wcount w + lenN d.

Lemma lenN_header_bytes crc len t : lenN (header_bytes crc len t) = 7.
Proof.
  unfold header_bytes. rewrite !lenN_app, !length_le_enc, lenN_cons, lenN_nil. reflexivity.
Qed.

Lemma lenN_frame_bytes t p : lenN (frame_bytes P t p) = HEADER_LEN + lenN p.
Proof. unfold frame_bytes. rewrite lenN_app, lenN_header_bytes. reflexivity. Qed.

Lemma write_frame_count w t p w' n :
  write_frame P W wwrite wrem w t p = (w', Ok n) -> wcount w' = wcount w + n.
Proof.
  unfold write_frame.
  destruct (N.ltb_spec (wrem w) HEADER_LEN) as [Hlt|Hge].
  - destruct (wwrite w (zerosN (wrem w))) as [w1 [[]|e]] eqn:E1; [|discriminate].
    destruct (wwrite w1 (frame_bytes P t p)) as [w2 [[]|e]] eqn:E2; [|discriminate].
    intros H; inversion H; subst; clear H.
    apply wwrite_count in E1. apply wwrite_count in E2.
    rewrite lenN_zerosN in E1. rewrite lenN_frame_bytes in E2. lia.
  - destruct (wwrite w (frame_bytes P t p)) as [w2 [[]|e]] eqn:E2; [|discriminate].
    intros H; inversion H; subst; clear H.
    apply wwrite_count in E2. rewrite lenN_frame_bytes in E2. lia.
Qed.

Lemma write_record_loop_count fuel : forall w isf payload acc w' n,
  write_record_loop P W wwrite wrem fuel w isf payload acc = (w', Ok n) ->
  wcount w' + acc = wcount w + n.
Proof.
  induction fuel as [|fuel IH]; intros w isf payload acc w' n; cbn [write_record_loop].
  - intros H; inversion H; subst. reflexivity.
  - destruct (write_frame P W wwrite wrem w _ _) as [w1 [k|e]] eqn:E; [|discriminate].
    apply write_frame_count in E.
    destruct (isnil (dropN _ payload)).
    + intros H; inversion H; subst. lia.
    + intros H. apply IH in H. lia.
Qed.

(* C15, generic: the count returned by write_record is the number of bytes accepted by the
   block writer during the call *)
Theorem write_record_count w payload w' n :
  write_record P W wwrite wrem w payload = (w', Ok n) -> wcount w' = wcount w + n.
Proof. unfold write_record. intros H. apply write_record_loop_count in H. lia. Qed.
End Generic.

Fixpoint ev_bytes (evs : list event) : N :=
  match evs with
  | [] => 0
  | EvWrite _ _ d :: r => lenN d + ev_bytes r
  | _ :: r => ev_bytes r
  end.

(* bytes the writer has accepted: those in OS-level write events + those still buffered *)
Definition accepted (w : rwriter) : N := ev_bytes (c_ev (w_ctx w)) + lenN (w_pending w).

Section Rolling.
Variable P : params.

Lemma flush_buf_accepted w : accepted (flush_buf w) = accepted w.
Proof.
  unfold flush_buf, accepted. destruct (w_pending w) as [|b r] eqn:E; [now rewrite E|].
  cbn [w_ctx w_pending os_write ctx_ev ctx_fs c_ev ev_bytes]. rewrite lenN_nil. lia.
Qed.

(* flushing aside, a persist only appends events that carry no bytes *)
Lemma wr_persist_accepted w a : accepted (wr_persist w a) = accepted w.
Proof. rewrite <- (flush_buf_accepted w). now destruct a. Qed.

Lemma bw_write_all_accepted w d : accepted (bw_write_all P w d) = accepted w + lenN d.
Proof.
  unfold bw_write_all, bw_write_all0.
  destruct (N.ltb_spec (lenN d) (BS P - lenN (w_pending w))) as [H1|H1].
  - unfold accepted. cbn [w_ctx w_pending]. rewrite lenN_app. lia.
  - set (w1 := if BS P - lenN (w_pending w) <? lenN d then flush_buf w else w).
    assert (Hw1 : accepted w1 = accepted w).
    { unfold w1. destruct (_ <? _); [apply flush_buf_accepted|reflexivity]. }
    destruct (N.leb_spec (BS P) (lenN d)) as [H2|H2].
    + unfold accepted in *. cbn [w_ctx w_pending os_write ctx_ev ctx_fs c_ev ev_bytes]. lia.
    + unfold accepted in *. cbn [w_ctx w_pending]. rewrite lenN_app. lia.
Qed.

Lemma fault_point_frame c s :
  c_ev (fst (fault_point c s)) = c_ev c /\ c_fs (fst (fault_point c s)) = c_fs c.
Proof.
  unfold fault_point. destruct (c_plan c) as [p|]; destruct s; cbn;
    try destruct (_ && _); split; reflexivity.
Qed.

Lemma fault_point_ev c s : c_ev (fst (fault_point c s)) = c_ev c.
Proof. apply fault_point_frame. Qed.

Lemma open_file_ev_bytes c n c' r : open_file c n = (c', r) -> ev_bytes (c_ev c') = ev_bytes (c_ev c).
Proof.
  unfold open_file. pose proof (fault_point_ev c SOpen) as Hf.
  destruct (fault_point c SOpen) as [c1 [e|]]; cbn [fst] in Hf.
  - intros H; inversion H; subst. now rewrite Hf.
  - destruct (fs_get (c_fs c1) (filename n)) as [[b| |]|]; intros H; inversion H; subst;
      cbn [ctx_ev c_ev ev_bytes]; now rewrite Hf.
Qed.

Lemma create_file_ev_bytes c n c' r :
  create_file P c n = (c', r) -> ev_bytes (c_ev c') = ev_bytes (c_ev c).
Proof.
  unfold create_file. destruct (fs_get (c_fs c) (filename n)); intros H; inversion H; subst;
    cbn [ctx_ev ctx_fs c_ev ev_bytes]; reflexivity.
Qed.

Lemma wr_write_accepted w d w' :
  wr_write P w d = (w', Ok tt) -> accepted w' = accepted w + lenN d.
Proof.
  unfold wr_write. destruct d as [|b d'] eqn:Ed.
  - intros H; inversion H; subst. rewrite lenN_nil. lia.
  - rewrite <- Ed. clear Ed.
    set (w1 := sync_dir (sync_data (bw_flush w))).
    assert (Hw1 : accepted w1 = accepted w).
    { exact (wr_persist_accepted w true). }
    destruct (N.ltb_spec (FILE_BYTES P) (w_off w + lenN d)) as [Hroll|Hfit].
    + assert (Hp1 : w_pending w1 = []).
      { unfold w1, sync_dir, sync_data, bw_flush, wr_ctx, flush_buf.
        destruct (w_pending w) eqn:E; cbn [w_pending]; [exact E|reflexivity]. }
      destruct (tracker_next (w_files w1) (w_file w1)) as [nxt|].
      * destruct (open_file (w_ctx w1) nxt) as [c [[]|e]] eqn:Eo; [|discriminate].
        intros H; inversion H; subst; clear H.
        rewrite bw_write_all_accepted. apply open_file_ev_bytes in Eo.
        unfold accepted in *. cbn [w_ctx w_pending]. rewrite Hp1 in Hw1.
        rewrite lenN_nil in *. lia.
      * destruct (create_file P (w_ctx w1) (w_file w1 + 1)) as [c [[]|e]] eqn:Ec; [|discriminate].
        intros H; inversion H; subst; clear H.
        rewrite bw_write_all_accepted. apply create_file_ev_bytes in Ec.
        unfold accepted in *. cbn [w_ctx w_pending]. rewrite Hp1 in Hw1.
        rewrite lenN_nil in *. lia.
    + intros H; inversion H; subst. apply bw_write_all_accepted.
Qed.

Definition st_accepted (st : state) : N := accepted (s_wr st).

Lemma write_entry_frame st e : exists w, fst (write_entry P st e) = set_wr st w.
Proof.
  unfold write_entry.
  destruct (write_record P rwriter (wr_write P) (wr_rem P) (s_wr st) (entry_ser e)) as [w r].
  now exists w.
Qed.

Lemma record_positions_frame names : forall st acc,
  exists w, fst (record_positions P st names acc) = set_wr st w.
Proof.
  induction names as [|nm r IH]; intros st acc; cbn [record_positions].
  - exists (s_wr st). now destruct st.
  - destruct (qs_get (s_qs st) nm) as [q|]; [|apply IH].
    destruct (write_entry_frame st (EPosition nm (next_position q))) as [w Hw].
    destruct (write_entry P st (EPosition nm (next_position q))) as [st1 [k|e]]; cbn [fst] in Hw;
      subst st1; [|now exists w].
    apply (IH (set_wr st w)).
Qed.

Lemma run_gc_frame st hint : exists w, fst (run_gc_if_necessary P st hint) = set_wr st w.
Proof.
  unfold run_gc_if_necessary. destruct (has_deletable st); [|exists (s_wr st); now destruct st].
  unfold record_empty_queues_position.
  destruct (record_positions_frame (pick_order hint (empty_names (s_qs st))) st 0) as [w Hw].
  destruct (record_positions P st _ 0) as [st1 [k|e]]; cbn [fst] in Hw; subst st1; [|now exists w].
  destruct (L_GC P && (k =? 0)); destruct (gc_loop _ _ _) as [[c files] [[]|e]]; eexists; reflexivity.
Qed.

Lemma write_entry_count st e st' n :
  write_entry P st e = (st', Ok n) -> st_accepted st' = st_accepted st + n.
Proof.
  unfold write_entry.
  destruct (write_record P rwriter (wr_write P) (wr_rem P) (s_wr st) (entry_ser e)) as [w r] eqn:E.
  intros H; inversion H; subst; clear H.
  unfold st_accepted. cbn [set_wr s_wr].
  eapply (write_record_count P rwriter (wr_write P) (wr_rem P) accepted); [|exact E].
  intros w0 d w0' Hw. now apply wr_write_accepted.
Qed.

Lemma persist_accepted st a : st_accepted (persist st a) = st_accepted st.
Proof. unfold persist, st_accepted. cbn [set_wr s_wr]. apply wr_persist_accepted. Qed.

Lemma persist_on_policy_accepted st tick : st_accepted (persist_on_policy st tick) = st_accepted st.
Proof.
  unfold persist_on_policy. destruct (s_pol st) as [|a|a]; [reflexivity| |apply persist_accepted].
  destruct tick; [apply persist_accepted|reflexivity].
Qed.

Lemma record_positions_count names : forall st acc st' n,
  record_positions P st names acc = (st', Ok n) -> st_accepted st' + acc = st_accepted st + n.
Proof.
  induction names as [|nm r IH]; intros st acc st' n; cbn [record_positions].
  - intros H; inversion H; subst. reflexivity.
  - destruct (qs_get (s_qs st) nm) as [q|]; [|apply IH].
    destruct (write_entry P st (EPosition nm (next_position q))) as [st1 [k|e]] eqn:E; [|discriminate].
    apply write_entry_count in E. intros H. apply IH in H. lia.
Qed.

Lemma gc_loop_ev_bytes files : forall c refd c' files' r,
  gc_loop c files refd = (c', files', r) -> ev_bytes (c_ev c') = ev_bytes (c_ev c).
Proof.
  induction files as [|f rest IH]; intros c refd c' files' r; cbn [gc_loop].
  - intros H; inversion H; subst. reflexivity.
  - destruct rest as [|g rest'].
    + intros H; inversion H; subst. reflexivity.
    + destruct (refd f).
      * intros H; inversion H; subst. reflexivity.
      * destruct (fs_get (c_fs c) (filename f)) as [[b| |]|].
        -- intros H. apply IH in H. rewrite H. reflexivity.
        -- intros H; inversion H; subst. reflexivity.
        -- intros H. apply IH in H. rewrite H. reflexivity.
        -- intros H; inversion H; subst. reflexivity.
Qed.

Lemma run_gc_count st hint st' n :
  run_gc_if_necessary P st hint = (st', Ok n) -> st_accepted st' = st_accepted st + n.
Proof.
  unfold run_gc_if_necessary. destruct (has_deletable st); [|intros H; inversion H; subst; lia].
  unfold record_empty_queues_position.
  destruct (record_positions P st _ 0) as [st1 [k|e]] eqn:E; [|discriminate].
  apply record_positions_count in E.
  set (st2 := if L_GC P && (k =? 0) then st1 else persist st1 true).
  assert (H2 : st_accepted st2 = st_accepted st1).
  { unfold st2. destruct (_ && _); [reflexivity|apply persist_accepted]. }
  replace (if L_GC P && (k =? 0) then (st1, Ok k) else (persist st1 true, Ok k))
    with (st2, @Ok N k) by (unfold st2; destruct (_ && _); reflexivity).
  destruct (gc_loop (w_ctx (s_wr st2)) (w_files (s_wr st2)) _) as [[c files] [[]|e]] eqn:G; [|discriminate].
  intros H; inversion H; subst; clear H.
  apply gc_loop_ev_bytes in G.
  unfold st_accepted, accepted in *. cbn [set_wr s_wr w_ctx w_pending]. lia.
Qed.

Definition reported (o : outcome) : N := match outcome_bytes o with Some n => n | None => 0 end.
Fixpoint sum_reported (outs : list outcome) : N :=
  match outs with [] => 0 | o :: r => reported o + sum_reported r end.

Definition is_io (o : outcome) : bool := match o with OutIo _ => true | _ => false end.

Lemma wr_persist_drained w a : w_pending (wr_persist w a) = [].
Proof.
  unfold wr_persist, sync_dir, sync_data, bw_flush, wr_ctx, flush_buf.
  destruct a; destruct (w_pending w) eqn:E; cbn [w_pending]; try exact E; reflexivity.
Qed.

Lemma persist_pol st a : s_pol (persist st a) = s_pol st.
Proof. reflexivity. Qed.

Lemma persist_drained st a : w_pending (s_wr (persist st a)) = [].
Proof. unfold persist. cbn [set_wr s_wr]. apply wr_persist_drained. Qed.

Lemma persist_on_policy_qs st tick : s_qs (persist_on_policy st tick) = s_qs st.
Proof.
  unfold persist_on_policy. destruct (s_pol st) as [|f|f]; [|destruct tick|]; reflexivity.
Qed.

Lemma write_entry_pol st e st' r : write_entry P st e = (st', r) -> s_pol st' = s_pol st.
Proof. intros H. destruct (write_entry_frame st e) as [w Hw]. rewrite H in Hw. cbn [fst] in Hw. now subst st'. Qed.

Lemma run_gc_pol st hint st' r : run_gc_if_necessary P st hint = (st', r) -> s_pol st' = s_pol st.
Proof. intros H. destruct (run_gc_frame st hint) as [w Hw]. rewrite H in Hw. cbn [fst] in Hw. now subst st'. Qed.

(* a call that does not fail with an I/O error returns the state as it was and reports no bytes,
   or ends with a persist of a state st3 that has accepted exactly the reported count and still has
   the policy of the start: an unconditional persist, or (append, truncate) persist_on_policy *)
Lemma step_ok_form st o tick st' out :
  step P st o tick = (st', out) -> is_io out = false ->
  (st' = st /\ reported out = 0) \/
  exists st3, st_accepted st3 = st_accepted st + reported out /\ s_pol st3 = s_pol st /\
    ((exists a, s_wr st' = s_wr (persist st3 a)) \/
     (s_wr st' = s_wr (persist_on_policy st3 tick) /\
      (forall q, o <> OCreate q) /\ (forall q h, o <> ODelete q h))).
Proof.
  assert (Hsame : forall out0, reported out0 = 0 -> (st, out0) = (st', out) ->
            st' = st /\ reported out = 0).
  { intros out0 H0 H; inversion H; subst. now split. }
  destruct o as [q|q hint|q pos payloads|q p hint|a]; cbn [step].
  - unfold create_queue. destruct (qs_contains (s_qs st) q); [intros H _; left; revert H; now apply Hsame|].
    destruct (write_entry P st (EPosition q 0)) as [st1 [k|e]] eqn:E;
      intros H; inversion H; subst; clear H; [intros _|discriminate].
    right. exists st1. split; [exact (write_entry_count _ _ _ _ E)|].
    split; [exact (write_entry_pol _ _ _ _ E)|]. left. now exists true.
  - unfold delete_queue. destruct (qs_get (s_qs st) q) as [m|]; [|intros H _; left; revert H; now apply Hsame].
    destruct (write_entry P st _) as [st1 [k|e]] eqn:E; [|intros H; inversion H; subst; discriminate].
    destruct (run_gc_if_necessary P _ hint) as [st3 [k2|e]] eqn:G;
      intros H; inversion H; subst; clear H; [intros _|discriminate].
    right. exists st3. split; [|split; [|left; now exists true]].
    + apply write_entry_count in E. apply run_gc_count in G.
      unfold st_accepted, reported in *. cbn [set_qs s_wr outcome_bytes] in *. lia.
    + apply run_gc_pol in G. apply write_entry_pol in E. cbn [set_qs s_pol] in G. congruence.
  - destruct (append_records_cases P st q pos payloads tick)
      as [[out0 [Hn Eq]]|(m & position & m' & _ & _ & _ & _ & _ & Eq)]; rewrite Eq.
    + intros H _; left; revert H. apply Hsame. unfold reported.
      destruct (noop_zero_bytes _ _ _ Hn) as [Hb|Hb]; now rewrite Hb.
    + destruct (write_entry P st _) as [st1 [k|e]] eqn:E;
        intros H; inversion H; subst; clear H; [intros _|discriminate].
      right. exists st1. split; [exact (write_entry_count _ _ _ _ E)|].
      split; [exact (write_entry_pol _ _ _ _ E)|]. right. repeat split; discriminate.
  - unfold truncate. destruct (qs_get (s_qs st) q) as [m|]; [|intros H _; left; revert H; now apply Hsame].
    destruct (write_entry P st _) as [st1 [k|e]] eqn:E; [|intros H; inversion H; subst; discriminate].
    destruct (truncate_head m p) as [m' ev].
    destruct (run_gc_if_necessary P _ hint) as [st3 [k2|e]] eqn:G;
      intros H; inversion H; subst; clear H; [intros _|discriminate].
    right. exists st3. split; [|split; [|right; repeat split; discriminate]].
    + apply write_entry_count in E. apply run_gc_count in G.
      unfold st_accepted, reported in *. cbn [set_qs s_wr outcome_bytes] in *. lia.
    + apply run_gc_pol in G. apply write_entry_pol in E. cbn [set_qs s_pol] in G. congruence.
  - intros H _; inversion H; subst. right. exists st. split; [cbn; lia|].
    split; [reflexivity|]. left. now exists a.
Qed.

(* whatever the call, unless it fails with an I/O error, the bytes accepted by the WAL writer
   grow by exactly the count it reports (nothing, when it reports none) *)
Lemma step_accounted st o tick st' out :
  step P st o tick = (st', out) -> is_io out = false ->
  st_accepted st' = st_accepted st + reported out.
Proof.
  intros Hs Hio.
  destruct (step_ok_form _ _ _ _ _ Hs Hio) as [[-> Hr]|(st3 & <- & _ & [[a E]|[E _]])].
  - lia.
  - unfold st_accepted at 1. rewrite E. apply persist_accepted.
  - unfold st_accepted at 1. rewrite E. apply persist_on_policy_accepted.
Qed.

(* C15: whatever the call, the wal_bytes_written it reports is exactly the growth of the bytes
   accepted by the WAL writer during the call *)
Theorem step_bytes_exact st o tick st' out n :
  step P st o tick = (st', out) -> outcome_bytes out = Some n ->
  st_accepted st' = st_accepted st + n.
Proof.
  intros Hs Hn. rewrite (step_accounted _ _ _ _ _ Hs).
  - unfold reported. now rewrite Hn.
  - destruct out; try reflexivity. discriminate.
Qed.

(* under a flush-per-operation policy (and for create/delete under any policy) a call that
   reports a byte count leaves nothing buffered, provided nothing was buffered before *)
Lemma step_drained st o tick st' out n a :
  step P st o tick = (st', out) -> outcome_bytes out = Some n ->
  w_pending (s_wr st) = [] ->
  (s_pol st = PAlways a \/ (exists q, o = OCreate q) \/ (exists q h, o = ODelete q h)) ->
  w_pending (s_wr st') = [].
Proof.
  intros Hs Hn Hp Hpol.
  assert (Hio : is_io out = false) by (destruct out; try reflexivity; discriminate).
  destruct (step_ok_form _ _ _ _ _ Hs Hio)
    as [[-> _]|(st3 & _ & Hp3 & [[a0 E]|(E & Hnc & Hnd)])]; [exact Hp|rewrite E..].
  - apply persist_drained.
  - destruct Hpol as [Hpol|[[q Hq]|[q [h Hq]]]]; [|destruct (Hnc _ Hq)|destruct (Hnd _ _ Hq)].
    unfold persist_on_policy. rewrite Hp3, Hpol. apply persist_drained.
Qed.

(* C15 in terms of what reached the files: with a flush-per-operation policy the reported count
   is the number of bytes in the OS-level write events of the call *)
Theorem step_bytes_in_write_events st o tick st' out n a :
  step P st o tick = (st', out) -> outcome_bytes out = Some n ->
  w_pending (s_wr st) = [] ->
  (s_pol st = PAlways a \/ (exists q, o = OCreate q) \/ (exists q h, o = ODelete q h)) ->
  ev_bytes (c_ev (w_ctx (s_wr st'))) = ev_bytes (c_ev (w_ctx (s_wr st))) + n.
Proof.
  intros Hs Hn Hp Hpol.
  pose proof (step_drained _ _ _ _ _ _ _ Hs Hn Hp Hpol) as Hd.
  pose proof (step_bytes_exact _ _ _ _ _ _ Hs Hn) as Hb.
  unfold st_accepted, accepted in Hb. rewrite Hp, Hd, lenN_nil in Hb. lia.
Qed.

(* the running sum of the reported counts tracks the bytes accepted by the WAL writer *)
Theorem run_bytes_tracked : forall h st st' outs,
  run P st h = (st', outs) -> forallb (fun o => negb (is_io o)) outs = true ->
  st_accepted st' = st_accepted st + sum_reported outs.
Proof.
  induction h as [|[o tick] h IH]; intros st st' outs; cbn [run].
  - intros H; inversion H; subst. cbn. lia.
  - destruct (step P st o tick) as [st1 out] eqn:Es. destruct (run P st1 h) as [st2 outs2] eqn:Er.
    intros H; inversion H; subst; clear H. cbn [forallb sum_reported].
    intros Hio. apply andb_prop in Hio. destruct Hio as [Hio1 Hio2].
    apply negb_true_iff in Hio1.
    rewrite (IH _ _ _ Er Hio2), (step_accounted _ _ _ _ _ Es Hio1). lia.
Qed.
End Rolling.
