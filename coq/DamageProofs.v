(* DamageProofs.v — properties C09 / detected-damage half of C08, stream level:
   damage confined to the checksum / payload bytes of frames costs exactly the entries hit.
   Same setting as StreamProofs.v (in-memory writer vecw / block reader vecr of Driver.v). *)
From Coq Require Import Lia ZArith ZifyN ZifyNat ZifyBool.
From MRL Require Import Bytes BytesProofs Params Frame Driver StreamProofs TornProofs.

(* c4: the 4 checksum bytes as found in the stream; len field and type byte are those of the
   payload p / type t, i.e. intact *)
Definition dframe (c4 : bytes) (t : ftype) (p : bytes) : bytes :=
  c4 ++ le_enc 2 (lenN p) ++ [n2b (ft_code t)] ++ p.

Definition dheader (c4 : bytes) (len : N) (t : ftype) : bytes :=
  c4 ++ le_enc 2 len ++ [n2b (ft_code t)].

Lemma dframe_header c4 t p : dframe c4 t p = dheader c4 (lenN p) t ++ p.
Proof. unfold dframe, dheader. now rewrite <- !app_assoc. Qed.

Lemma lenN_dheader c4 len t : lenN c4 = 4 -> lenN (dheader c4 len t) = 7.
Proof. intros H. unfold dheader. rewrite !lenN_app, length_le_enc, H. reflexivity. Qed.

Lemma lenN_dframe c4 t p : lenN c4 = 4 -> lenN (dframe c4 t p) = 7 + lenN p.
Proof. intros H. rewrite dframe_header, lenN_app, lenN_dheader by exact H. reflexivity. Qed.

Lemma dheader_header c4 len t : lenN c4 = 4 -> dheader c4 len t = header_bytes (le_dec c4) len t.
Proof.
  intros H. unfold dheader, header_bytes. rewrite lenN_length in H.
  replace 4%nat with (length c4) by lia. now rewrite le_enc_dec.
Qed.

Section C09.
Variable P : params.
Hypothesis HBS_lo : 7 < BS P.
Hypothesis HBS_hi : BS P <= 65542.
Hypothesis Hcrc : forall t p, crcf P t p < 2 ^ 32.

Local Notation B := (BS P).
Local Notation rframe := (read_frame P vecr (vr_next P) vr_block).
Local Notation gonext := (go_next P vecr (vr_next P) vr_block).
Local Notation pad_of := (pad_of P).
Local Notation chunk_of := (chunk_of P).
Local Notation enc_rel := (enc_rel P).
Local Notation encs_rel := (encs_rel P).
Local Notation rd_at := (rd_at P).
Local Notation at_pos := (at_pos P).
Local Notation stream_ok := (stream_ok P).
Local Notation H3 f := (f P HBS_lo HBS_hi Hcrc) (only parsing).
Local Notation H2 f := (f P HBS_lo HBS_hi) (only parsing).
Local Notation mod_kB := (H2 StreamProofs.mod_kB).
Local Notation mod_kc := (H2 StreamProofs.mod_kc).
Local Notation mod_lt_B := (H2 StreamProofs.mod_lt_B).
Local Notation blocks_room := (H2 StreamProofs.blocks_room).
Local Notation read_all_end := (H2 StreamProofs.read_all_end).
Local Notation read_frame_skip := (H3 StreamProofs.read_frame_skip).
Local Notation read_frame_at := (H3 StreamProofs.read_frame_at).
Local Notation read_frame_here := (H3 StreamProofs.read_frame_here).
Local Notation read_frame_end := (H3 StreamProofs.read_frame_end).
Local Notation go_next_record := (H3 StreamProofs.go_next_record).
Local Notation read_all_entries := (H3 StreamProofs.read_all_entries).
Local Notation mem_stream_shape := (H3 StreamProofs.mem_stream_shape).
Local Notation enc_rel_frames := (H3 StreamProofs.enc_rel_frames).
Local Notation encs_rel_len := (H3 StreamProofs.encs_rel_len).
Local Notation lenN_take_chunk := (H3 StreamProofs.lenN_take_chunk).
Local Notation chunk_le_maxw := (H3 StreamProofs.chunk_le_maxw).
Local Notation chunk_le := (H3 StreamProofs.chunk_le).
Local Notation mem_write_all_spec := (H3 StreamProofs.mem_write_all_spec).

Lemma frame_bytes_dframe t p :
  frame_bytes P t p = dframe (le_enc 4 (crcf P (n2b (ft_code t)) p)) t p.
Proof. unfold frame_bytes, header_bytes, dframe. now rewrite <- !app_assoc. Qed.

(* what read_frame answers for a frame with intact len / type fields *)
Definition frame_verdict (c4 : bytes) (t : ftype) (p : bytes) : fresult :=
  if crcf P (n2b (ft_code t)) p =? le_dec c4 then FOk t p else FCorrupt.

Lemma read_frame_gen_here S k c pre c4 t p post :
  S = pre ++ dframe c4 t p ++ post -> lenN c4 = 4 -> lenN pre = k * B + c ->
  c + 7 + lenN p <= B -> (k + 1) * B <= lenN S ->
  rframe (rd_at S k c) = (rd_at S k (c + 7 + lenN p), frame_verdict c4 t p).
Proof.
  intros HS Hc4 Hpre Hfit _.
  rewrite dframe_header, dheader_header, <- app_assoc in HS by exact Hc4.
  apply (H3 read_frame_payload S k c pre (le_dec c4) t p post HS Hpre Hfit).
  pose proof (le_dec_bound c4) as Hb. rewrite Hc4 in Hb. exact Hb.
Qed.

(* at a writer position a: the reader first skips the zero padding, if any
   (TornProofs.at_pos_pad) *)
Lemma read_frame_gen_at S fr a pre c4 t fp post :
  stream_ok S -> at_pos S fr a ->
  S = pre ++ pad_of a ++ dframe c4 t fp ++ post -> lenN pre = a -> lenN c4 = 4 ->
  lenN fp <= max_writable P (B - a mod B) ->
  exists fr', rframe fr = (fr', frame_verdict c4 t fp) /\
              at_pos S fr' (a + lenN (pad_of a) + 7 + lenN fp).
Proof.
  intros Hok Hat HS Hpre Hc4 Hfp.
  destruct (H2 pad_geom a) as (k' & c' & Ha' & Hc' & Hmw & _). rewrite Hmw in Hfp.
  assert (HlenS : lenN S = a + lenN (pad_of a) + 7 + lenN fp + lenN post).
  { rewrite HS, !lenN_app, lenN_dframe by exact Hc4. lia. }
  assert (Hblk : (k' + 1) * B <= lenN S) by (apply (H3 block_exists S k' c' 7 Hok); lia).
  rewrite (H3 at_pos_pad S fr a k' c' Hok Hat Ha' Hc' Hblk).
  rewrite (read_frame_gen_here S k' c' (pre ++ pad_of a) c4 t fp post).
  - eexists. split; [reflexivity|]. exists k', (c' + 7 + lenN fp). repeat split; lia.
  - rewrite HS, <- app_assoc. reflexivity.
  - exact Hc4.
  - rewrite lenN_app. lia.
  - lia.
  - exact Hblk.
Qed.

Lemma frame_verdict_bad c4 t p :
  le_dec c4 <> crcf P (n2b (ft_code t)) p -> frame_verdict c4 t p = FCorrupt.
Proof.
  intros H. unfold frame_verdict.
  destruct (N.eqb_spec (crcf P (n2b (ft_code t)) p) (le_dec c4)) as [E|_]; [congruence|reflexivity].
Qed.

Lemma frame_verdict_good c4 t p :
  le_dec c4 = crcf P (n2b (ft_code t)) p -> frame_verdict c4 t p = FOk t p.
Proof. intros H. unfold frame_verdict. rewrite H, N.eqb_refl. reflexivity. Qed.

(* block-relative form (cf. StreamProofs.read_frame_here) *)
Lemma read_frame_bad_crc S k c pre c4 t p' post :
  S = pre ++ (c4 ++ le_enc 2 (lenN p') ++ [n2b (ft_code t)] ++ p') ++ post ->
  lenN c4 = 4 -> le_dec c4 <> crcf P (n2b (ft_code t)) p' ->
  lenN pre = k * B + c -> c + 7 + lenN p' <= B -> (k + 1) * B <= lenN S ->
  rframe (rd_at S k c) = (rd_at S k (c + 7 + lenN p'), FCorrupt) /\
  fr_corrupt (rd_at S k (c + 7 + lenN p')) = false /\
  at_pos S (rd_at S k (c + 7 + lenN p')) (lenN pre + 7 + lenN p').
Proof.
  intros HS Hc4 Hbad Hpre Hfit Hlen.
  rewrite (read_frame_gen_here S k c pre c4 t p' post HS Hc4 Hpre Hfit Hlen).
  rewrite frame_verdict_bad by exact Hbad.
  split; [reflexivity|]. split; [reflexivity|].
  exists k, (c + 7 + lenN p'). repeat split; lia.
Qed.

(* writer-position form (cf. StreamProofs.read_frame_at): the reader ends exactly where
   the undamaged frame would have left it, and the block is not flagged *)
Lemma read_frame_bad_crc_at S fr a pre c4 t p' post :
  stream_ok S -> at_pos S fr a ->
  S = pre ++ pad_of a ++ dframe c4 t p' ++ post -> lenN pre = a ->
  lenN c4 = 4 -> le_dec c4 <> crcf P (n2b (ft_code t)) p' ->
  lenN p' <= max_writable P (B - a mod B) ->
  exists fr', rframe fr = (fr', FCorrupt) /\ fr_corrupt fr' = false /\
              at_pos S fr' (a + lenN (pad_of a) + 7 + lenN p').
Proof.
  intros Hok Hat HS Hpre Hc4 Hbad Hfit.
  destruct (read_frame_gen_at S fr a pre c4 t p' post Hok Hat HS Hpre Hc4 Hfit) as (fr' & Hrf & Hat').
  rewrite frame_verdict_bad in Hrf by exact Hbad.
  exists fr'. split; [exact Hrf|]. split; [|exact Hat'].
  destruct Hat' as (k & c & _ & _ & _ & ->). reflexivity.
Qed.

(* frames that are not first frames are ignored while within = false: the rest of an entry
   (written by the writer from a, first-flag false) is skipped, one fuel unit per frame *)
Lemma go_next_skip a f p e k :
  enc_rel a f p e k -> f = false ->
  forall S pre post fr,
    stream_ok S -> at_pos S fr a -> S = pre ++ e ++ post -> lenN pre = a ->
    exists fr',
      at_pos S fr' (a + lenN e) /\
      forall fuel rbuf,
        gonext (k + fuel) (mkRR fr rbuf false) = gonext fuel (mkRR fr' rbuf false).
Proof.
  induction 1 as [a f p Hd | a f p e k Hd Hr IH];
    intros Hf S pre post fr Hok Hat HS Hpre; subst f.
  - rewrite <- app_assoc in HS.
    destruct (read_frame_at S fr a pre _ _ post Hok Hat HS Hpre (chunk_le_maxw a p))
      as (fr' & Hrf & Hat').
    exists fr'. split.
    + apply (at_pos_eq P _ _ _ _ Hat'). rewrite lenN_app, lenN_frame_bytes. lia.
    + intros fuel rbuf. exact (go_next_ignored P fuel fr fr' rbuf true _ Hrf).
  - rewrite <- !app_assoc in HS.
    destruct (read_frame_at S fr a pre _ _ (e ++ post) Hok Hat HS Hpre (chunk_le_maxw a p))
      as (fr' & Hrf & Hat').
    set (fb := frame_bytes P (frame_type false false) (takeN (chunk_of a p) p)) in *.
    rewrite lenN_take_chunk in Hat'.
    destruct (IH eq_refl S (pre ++ pad_of a ++ fb) post fr') as (fr'' & Hat'' & Hgo).
    + exact Hok.
    + exact Hat'.
    + rewrite HS, <- !app_assoc. reflexivity.
    + rewrite !lenN_app. unfold fb. rewrite lenN_frame_bytes, lenN_take_chunk. lia.
    + exists fr''. split.
      * apply (at_pos_eq P _ _ _ _ Hat'').
        rewrite !lenN_app. unfold fb. rewrite lenN_frame_bytes, lenN_take_chunk. lia.
      * intros fuel rbuf. cbn [Nat.add]. rewrite (go_next_ignored P _ fr fr' rbuf false _ Hrf).
        apply Hgo.
Qed.

(* enc_dmg a f p e e' k: e is what the writer emits for payload p at cursor a (as enc_rel),
   and e' is e with exactly one frame damaged in its checksum and / or payload bytes only
   (same length; len field and type byte intact) so that the CRC check fails *)
Inductive enc_dmg : N -> bool -> bytes -> bytes -> bytes -> nat -> Prop :=
| ED_last a f p c4 p' :
    dropN (chunk_of a p) p = [] ->
    lenN c4 = 4 -> lenN p' = chunk_of a p ->
    le_dec c4 <> crcf P (n2b (ft_code (frame_type f true))) p' ->
    enc_dmg a f p
      (pad_of a ++ frame_bytes P (frame_type f true) (takeN (chunk_of a p) p))
      (pad_of a ++ dframe c4 (frame_type f true) p') 1
| ED_here a f p c4 p' e k :
    dropN (chunk_of a p) p <> [] ->
    lenN c4 = 4 -> lenN p' = chunk_of a p ->
    le_dec c4 <> crcf P (n2b (ft_code (frame_type f false))) p' ->
    enc_rel (a + lenN (pad_of a) + 7 + chunk_of a p) false (dropN (chunk_of a p) p) e k ->
    enc_dmg a f p
      (pad_of a ++ frame_bytes P (frame_type f false) (takeN (chunk_of a p) p) ++ e)
      (pad_of a ++ dframe c4 (frame_type f false) p' ++ e) (S k)
| ED_later a f p e e' k :
    dropN (chunk_of a p) p <> [] ->
    enc_dmg (a + lenN (pad_of a) + 7 + chunk_of a p) false (dropN (chunk_of a p) p) e e' k ->
    enc_dmg a f p
      (pad_of a ++ frame_bytes P (frame_type f false) (takeN (chunk_of a p) p) ++ e)
      (pad_of a ++ frame_bytes P (frame_type f false) (takeN (chunk_of a p) p) ++ e') (S k).

Lemma enc_dmg_orig a f p e e' k : enc_dmg a f p e e' k -> enc_rel a f p e k.
Proof.
  induction 1 as [a f p c4 p' Hd Hc4 Hl Hbad | a f p c4 p' e k Hd Hc4 Hl Hbad Hr
                 | a f p e e' k Hd Hr IH].
  - now apply ER_last.
  - now apply ER_more.
  - now apply ER_more.
Qed.

Lemma enc_dmg_len a f p e e' k : enc_dmg a f p e e' k -> lenN e' = lenN e.
Proof.
  induction 1 as [a f p c4 p' Hd Hc4 Hl Hbad | a f p c4 p' e k Hd Hc4 Hl Hbad Hr
                 | a f p e e' k Hd Hr IH].
  - rewrite !lenN_app, lenN_frame_bytes, lenN_dframe, lenN_take_chunk by exact Hc4. lia.
  - rewrite !lenN_app, lenN_frame_bytes, lenN_dframe, lenN_take_chunk by exact Hc4. lia.
  - rewrite !lenN_app, IH. reflexivity.
Qed.

Lemma encs_rel_app_inv es1 : forall a es2 t,
  encs_rel a (es1 ++ es2) t ->
  exists t1 t2, t = t1 ++ t2 /\ encs_rel a es1 t1 /\ encs_rel (a + lenN t1) es2 t2.
Proof.
  induction es1 as [|y es1 IH]; intros a es2 t H.
  - exists [], t. rewrite (@lenN_nil byte), N.add_0_r. repeat split; [constructor|exact H].
  - cbn [app] in H. inversion H as [|a' p ps e k t' He Hes]; subst.
    destruct (IH _ _ _ Hes) as (t1 & t2 & -> & H1 & H2).
    exists (e ++ t1), t2. rewrite <- app_assoc. split; [reflexivity|]. split.
    + econstructor; eassumption.
    + rewrite lenN_app. replace (a + (lenN e + lenN t1)) with (a + lenN e + lenN t1) by lia.
      exact H2.
Qed.

(* the open-style reading loop over a whole stream, with the fuel mem_roundtrip uses *)
Definition mem_open_reader (D : bytes) : rreader vecr :=
  rr_open vecr (mkVecR (dropN B D) (takeN B D)).
Definition mem_read_stream (D : bytes) : list mem_read :=
  let fuel := N.to_nat (lenN D / HEADER_LEN + lenN D / B + 4) in
  mem_read_all P fuel fuel (mem_open_reader D).

Lemma at_pos_open D : B <= lenN D -> at_pos D (rr_fr (mem_open_reader D)) 0.
Proof.
  exact (H3 rr_start_at D).
Qed.

Lemma stream_fuel_ok t :
  lenN t + 7 <=
  7 * N.of_nat (N.to_nat (lenN (mem_stream P t) / HEADER_LEN + lenN (mem_stream P t) / B + 4)).
Proof.
  destruct (mem_stream_shape t) as (z & nb & _ & HlenS & Hnb).
  unfold HEADER_LEN. set (D := mem_stream P t) in *.
  pose proof (N.div_mod (lenN D) 7) as Hdm. pose proof (N.mod_lt (lenN D) 7) as Hlt.
  set (r := lenN D mod 7) in *. clearbody r. nodiv. lia.
Qed.

(* Any number of damaged frames, in any entries: the route of every theorem below.
   The stream is described as a sequence of frames laid out at the writer's positions
   (layout); the reader is then shown to follow an abstract machine on the list of frames
   (ago / aread), whatever the payload bytes are. *)

Record fspec := mkFS { fs_c4 : bytes; fs_ty : ftype; fs_pl : bytes }.
Definition fs_bytes (x : fspec) : bytes := dframe (fs_c4 x) (fs_ty x) (fs_pl x).
Definition fs_good (x : fspec) : bool :=
  crcf P (n2b (ft_code (fs_ty x))) (fs_pl x) =? le_dec (fs_c4 x).

Lemma frame_verdict_fs x :
  frame_verdict (fs_c4 x) (fs_ty x) (fs_pl x) =
  if fs_good x then FOk (fs_ty x) (fs_pl x) else FCorrupt.
Proof. reflexivity. Qed.

(* frames (each preceded by the padding the writer inserts) from position a on *)
Inductive layout : N -> list fspec -> bytes -> Prop :=
| LY_nil a : layout a [] []
| LY_cons a x xs e :
    lenN (fs_c4 x) = 4 ->
    lenN (fs_pl x) <= max_writable P (B - a mod B) ->
    layout (a + lenN (pad_of a) + 7 + lenN (fs_pl x)) xs e ->
    layout a (x :: xs) (pad_of a ++ fs_bytes x ++ e).

Lemma layout_app a xs e1 : layout a xs e1 ->
  forall ys e2, layout (a + lenN e1) ys e2 -> layout a (xs ++ ys) (e1 ++ e2).
Proof.
  induction 1 as [a | a x xs e Hc4 Hfit Hl IH]; intros ys e2 H2.
  - rewrite (@lenN_nil byte), N.add_0_r in H2. exact H2.
  - cbn [app]. rewrite <- !app_assoc. apply LY_cons; [exact Hc4|exact Hfit|].
    apply IH. unfold fs_bytes in H2. rewrite !lenN_app, lenN_dframe in H2 by exact Hc4.
    replace (a + lenN (pad_of a) + 7 + lenN (fs_pl x) + lenN e)
      with (a + (lenN (pad_of a) + (7 + lenN (fs_pl x) + lenN e))) by lia.
    exact H2.
Qed.

Lemma layout_len a xs e : layout a xs e -> 7 * N.of_nat (length xs) <= lenN e.
Proof.
  induction 1 as [a | a x xs e Hc4 Hfit Hl IH].
  - cbn [length]. rewrite (@lenN_nil byte). lia.
  - cbn [length]. unfold fs_bytes. rewrite !lenN_app, lenN_dframe by exact Hc4. lia.
Qed.

(* one go_next call on a list of frames: remaining frames, buffer, within, result *)
Fixpoint ago (xs : list fspec) (buf : bytes) (w : bool) : list fspec * bytes * bool * rresult :=
  match xs with
  | [] => ([], buf, w, REnd)
  | x :: xs' =>
      if fs_good x then
        let w1 := if is_first_frame (fs_ty x) then true else w in
        let b0 := if is_first_frame (fs_ty x) then [] else buf in
        if w1 then
          if is_last_frame (fs_ty x) then (xs', b0 ++ fs_pl x, false, RRecord)
          else ago xs' (b0 ++ fs_pl x) true
        else ago xs' b0 w1
      else (xs', buf, false, RCorrupt)
  end.

(* the whole reading loop on a list of frames *)
Fixpoint aread (xs : list fspec) (buf : bytes) (w : bool) : list mem_read :=
  match xs with
  | [] => [MrEnd]
  | x :: xs' =>
      if fs_good x then
        let w1 := if is_first_frame (fs_ty x) then true else w in
        let b0 := if is_first_frame (fs_ty x) then [] else buf in
        if w1 then
          if is_last_frame (fs_ty x)
          then MrEntry (b0 ++ fs_pl x) :: aread xs' (b0 ++ fs_pl x) false
          else aread xs' (b0 ++ fs_pl x) true
        else aread xs' b0 w1
      else MrCorrupt :: aread xs' buf false
  end.

Lemma ago_shape xs : forall buf w xs' b' w' r,
  ago xs buf w = (xs', b', w', r) ->
  (r = REnd \/ ((r = RRecord \/ r = RCorrupt) /\ (length xs' < length xs)%nat)).
Proof.
  induction xs as [|x xs IH]; intros buf w xs' b' w' r H; cbn [ago] in H.
  - inversion H; subst. left; reflexivity.
  - destruct (fs_good x).
    + destruct (if is_first_frame (fs_ty x) then true else w).
      * destruct (is_last_frame (fs_ty x)).
        -- inversion H; subst. right. cbn [length]. split; [left; reflexivity|lia].
        -- apply IH in H. cbn [length]. destruct H as [H|[H1 H2]]; [left; exact H|right; split; [exact H1|lia]].
      * apply IH in H. cbn [length]. destruct H as [H|[H1 H2]]; [left; exact H|right; split; [exact H1|lia]].
    + inversion H; subst. right. cbn [length]. split; [right; reflexivity|lia].
Qed.

Lemma aread_ago xs : forall buf w,
  aread xs buf w =
  match ago xs buf w with
  | (xs', b', w', RRecord) => MrEntry b' :: aread xs' b' w'
  | (xs', b', w', RCorrupt) => MrCorrupt :: aread xs' b' w'
  | _ => [MrEnd]
  end.
Proof.
  induction xs as [|x xs IH]; intros buf w; cbn [ago aread].
  - reflexivity.
  - destruct (fs_good x); [|reflexivity].
    destruct (if is_first_frame (fs_ty x) then true else w).
    + destruct (is_last_frame (fs_ty x)); [reflexivity|apply IH].
    + apply IH.
Qed.

(* the reader sits at a writer frame boundary of the stream S, with frames xs still ahead *)
Definition on_boundary (S : bytes) (z nb : N) (fr : freader vecr) (xs : list fspec) : Prop :=
  exists pre e,
    S = pre ++ e ++ zerosN z /\ lenN S = (nb + 1) * B /\ lenN pre + lenN e <= nb * B /\
    layout (lenN pre) xs e /\ at_pos S fr (lenN pre).

(* go_next follows ago, and stops on a frame boundary again: the reader never looks at the
   stream anywhere else, so nothing needs to be assumed about payload contents
   ("no embedded frames" is not needed here) *)
Lemma go_next_layout a xs e :
  layout a xs e ->
  forall S pre z nb fr buf w g xs' b' w' r,
    S = pre ++ e ++ zerosN z -> lenN S = (nb + 1) * B -> lenN pre + lenN e <= nb * B ->
    lenN pre = a -> at_pos S fr a -> (length xs + 1 <= g)%nat ->
    ago xs buf w = (xs', b', w', r) ->
    exists fr',
      gonext g (mkRR fr buf w) = (mkRR fr' b' w', r) /\
      (r <> REnd -> on_boundary S z nb fr' xs').
Proof.
  induction 1 as [a | a x xs e Hc4 Hfit Hl IH];
    intros S pre z nb fr buf w g xs' b' w' r HS HlenS Hnb Hpre Hat Hg Hago.
  - cbn [ago] in Hago. inversion Hago; subst xs' b' w' r.
    destruct g as [|g]; [cbn [length] in Hg; lia|].
    destruct (read_frame_end S pre z nb fr) as (fr' & Hrf).
    + rewrite HS. reflexivity.
    + exact HlenS.
    + rewrite (@lenN_nil byte) in Hnb. lia.
    + rewrite Hpre. exact Hat.
    + exists fr'. split; [|congruence]. exact (go_next_notavail P g fr fr' buf w Hrf).
  - destruct g as [|g]; [lia|]. cbn [length] in Hg.
    assert (Hok : stream_ok S) by (exists (nb + 1); exact HlenS).
    rewrite <- !app_assoc in HS. unfold fs_bytes in HS.
    destruct (read_frame_gen_at S fr a pre _ _ _ (e ++ zerosN z) Hok Hat HS Hpre Hc4 Hfit)
      as (fr1 & Hrf & Hat1).
    rewrite frame_verdict_fs in Hrf.
    set (pre1 := pre ++ pad_of a ++ dframe (fs_c4 x) (fs_ty x) (fs_pl x)).
    assert (HS1 : S = pre1 ++ e ++ zerosN z).
    { unfold pre1. rewrite HS, <- !app_assoc. reflexivity. }
    assert (Hpre1 : lenN pre1 = a + lenN (pad_of a) + 7 + lenN (fs_pl x)).
    { unfold pre1. rewrite !lenN_app, lenN_dframe by exact Hc4. lia. }
    assert (Hnb1 : lenN pre1 + lenN e <= nb * B).
    { unfold fs_bytes in Hnb. rewrite !lenN_app, lenN_dframe in Hnb by exact Hc4. lia. }
    assert (Hbd : on_boundary S z nb fr1 xs).
    { exists pre1, e. rewrite <- Hpre1 in Hl, Hat1.
      split; [exact HS1|]. split; [exact HlenS|]. split; [exact Hnb1|]. split; [exact Hl|exact Hat1]. }
    cbn [ago] in Hago. cbn [go_next rr_fr rr_buf rr_within]. rewrite Hrf.
    destruct (fs_good x).
    + destruct (if is_first_frame (fs_ty x) then true else w) eqn:Ew.
      * destruct (is_last_frame (fs_ty x)).
        -- inversion Hago; subst xs' b' w' r. exists fr1. split; [reflexivity|].
           intros _. exact Hbd.
        -- apply (IH S pre1 z nb fr1 _ _ g xs' b' w' r HS1 HlenS Hnb1 Hpre1 Hat1); [lia|exact Hago].
      * apply (IH S pre1 z nb fr1 _ _ g xs' b' w' r HS1 HlenS Hnb1 Hpre1 Hat1); [lia|exact Hago].
    + inversion Hago; subst xs' b' w' r. exists fr1. split; [reflexivity|].
      intros _. exact Hbd.
Qed.

Lemma aread_length xs : forall buf w, (length (aread xs buf w) <= length xs + 1)%nat.
Proof.
  induction xs as [|x xs IH]; intros buf w; cbn [aread length Nat.add]; [lia|].
  destruct (fs_good x).
  - destruct (if is_first_frame (fs_ty x) then true else w).
    + destruct (is_last_frame (fs_ty x)); [cbn [length]; apply le_n_S | apply le_S]; apply IH.
    + apply le_S, IH.
  - cbn [length]. apply le_n_S, IH.
Qed.

(* outer fuel: one unit per result; inner fuel: one unit per frame *)
Lemma mem_read_all_layout fuel : forall S z nb fr xs buf w g,
  on_boundary S z nb fr xs ->
  (length (aread xs buf w) <= fuel)%nat -> (length xs + 1 <= g)%nat ->
  mem_read_all P fuel g (mkRR fr buf w) = aread xs buf w.
Proof.
  induction fuel as [|fuel IH]; intros S z nb fr xs buf w g Hbd Hfuel Hg; rewrite aread_ago in Hfuel.
  { destruct (ago xs buf w) as [[[xs' b'] w'] [| | | |]]; cbn [length] in Hfuel; lia. }
  destruct Hbd as (pre & e & HS & HlenS & Hnb & Hl & Hat).
  destruct (ago xs buf w) as [[[xs' b'] w'] r] eqn:Hago.
  destruct (go_next_layout _ _ _ Hl S pre z nb fr buf w g xs' b' w' r HS HlenS Hnb eq_refl Hat Hg Hago)
    as (fr' & Hgo & Hbd').
  cbn [mem_read_all]. rewrite Hgo, aread_ago, Hago.
  destruct (ago_shape _ _ _ _ _ _ _ Hago) as [->|[[->| ->] Hlt]]; cbn [length] in Hfuel.
  - reflexivity.
  - cbn [rr_buf]. f_equal. apply (IH S z nb); [apply Hbd'; discriminate|lia|lia].
  - f_equal. apply (IH S z nb); [apply Hbd'; discriminate|lia|lia].
Qed.

(* reading a whole stream made of frames xs (then zeros) = running the abstract reader *)
Theorem read_layout xs t fuel g :
  layout 0 xs t ->
  (length (aread xs [] false) <= fuel)%nat -> lenN t + 7 <= 7 * N.of_nat g ->
  mem_read_all P fuel g (mem_open_reader (mem_stream P t)) = aread xs [] false.
Proof.
  intros Hl Hfuel Hg. pose proof (layout_len _ _ _ Hl) as Hn.
  destruct (mem_stream_shape t) as (z & nb & Hshape & HlenS & Hnb).
  set (S := mem_stream P t) in *.
  unfold mem_open_reader, rr_open.
  apply (mem_read_all_layout _ S z nb); [|exact Hfuel|lia].
  exists [], t. rewrite (@lenN_nil byte), N.add_0_l.
  split; [exact Hshape|]. split; [exact HlenS|]. split; [exact Hnb|]. split; [exact Hl|].
  apply (at_pos_open S). lia.
Qed.

(* with the fuel of mem_roundtrip *)
Theorem read_stream_layout xs t :
  layout 0 xs t -> mem_read_stream (mem_stream P t) = aread xs [] false.
Proof.
  intros Hl. unfold mem_read_stream. cbv zeta.
  pose proof (stream_fuel_ok t) as Hf. pose proof (layout_len _ _ _ Hl) as Hn.
  pose proof (aread_length xs [] false) as Hlen.
  apply (read_layout xs t _ _ Hl); [lia | exact Hf].
Qed.

(* frame x stands where the writer put the frame (first-flag f, last-flag l) of payload p at
   cursor a: type byte and len field intact, 4 checksum bytes and chunk-many payload bytes of
   any value, such that either the CRC check fails or the payload is the original one *)
Definition frame_for (a : N) (f l : bool) (p : bytes) (x : fspec) : Prop :=
  fs_ty x = frame_type f l /\ lenN (fs_c4 x) = 4 /\ lenN (fs_pl x) = chunk_of a p /\
  (fs_good x = true -> fs_pl x = takeN (chunk_of a p) p).

Inductive enc_any : N -> bool -> bytes -> list fspec -> bytes -> Prop :=
| EA_last a f p x :
    dropN (chunk_of a p) p = [] -> frame_for a f true p x ->
    enc_any a f p [x] (pad_of a ++ fs_bytes x)
| EA_more a f p x xs e :
    dropN (chunk_of a p) p <> [] -> frame_for a f false p x ->
    enc_any (a + lenN (pad_of a) + 7 + chunk_of a p) false (dropN (chunk_of a p) p) xs e ->
    enc_any a f p (x :: xs) (pad_of a ++ fs_bytes x ++ e).

Fixpoint countbad (xs : list fspec) : nat :=
  match xs with
  | [] => 0
  | x :: r => if fs_good x then countbad r else Datatypes.S (countbad r)
  end.

Lemma chunk_fits a p : chunk_of a p <= max_writable P (B - a mod B).
Proof. unfold StreamProofs.chunk_of. lia. Qed.

Lemma enc_any_layout a f p xs e : enc_any a f p xs e -> layout a xs e.
Proof.
  induction 1 as [a f p x Hd (Ht & Hc4 & Hl & Hg) | a f p x xs e Hd (Ht & Hc4 & Hl & Hg) Hr IH].
  - rewrite <- (app_nil_r (fs_bytes x)). apply LY_cons; [exact Hc4| |constructor].
    rewrite Hl. apply chunk_fits.
  - apply LY_cons; [exact Hc4| |rewrite Hl; exact IH].
    rewrite Hl. apply chunk_fits.
Qed.

(* the damaged bytes occupy exactly the place of the bytes the writer emitted *)
Lemma enc_any_orig a f p xs e :
  enc_any a f p xs e -> exists e0, enc_rel a f p e0 (length xs) /\ lenN e0 = lenN e.
Proof.
  induction 1 as [a f p x Hd (Ht & Hc4 & Hl & Hg) | a f p x xs e Hd (Ht & Hc4 & Hl & Hg) Hr IH].
  - eexists. split; [apply ER_last; exact Hd|].
    unfold fs_bytes. rewrite !lenN_app, lenN_frame_bytes, lenN_dframe, lenN_take_chunk by exact Hc4. lia.
  - destruct IH as (e0 & He0 & Hlen0).
    eexists. split; [apply ER_more; [exact Hd|exact He0]|]. cbn [length].
    unfold fs_bytes. rewrite !lenN_app, lenN_frame_bytes, lenN_dframe, lenN_take_chunk by exact Hc4. lia.
Qed.

Lemma aread_buf_false xs : forall b1 b2, aread xs b1 false = aread xs b2 false.
Proof.
  induction xs as [|x xs IH]; intros b1 b2; cbn [aread]; [reflexivity|].
  destruct (fs_good x).
  - destruct (is_first_frame (fs_ty x)); [reflexivity|]. apply IH.
  - f_equal. apply IH.
Qed.

Lemma aread_tail_skip a f p xs e :
  enc_any a f p xs e -> f = false ->
  forall rest buf,
    aread (xs ++ rest) buf false = repeat MrCorrupt (countbad xs) ++ aread rest buf false.
Proof.
  induction 1 as [a f p x Hd (Ht & Hc4 & Hl & Hg) | a f p x xs e Hd (Ht & Hc4 & Hl & Hg) Hr IH];
    intros Hf rest buf; subst f; cbn [app aread countbad]; rewrite Ht;
    cbn [frame_type is_first_frame]; destruct (fs_good x); cbn [repeat app];
    rewrite ?IH by reflexivity; reflexivity.
Qed.

Lemma aread_entry_good a f p xs e :
  enc_any a f p xs e -> forallb fs_good xs = true ->
  forall rest buf w, f = true \/ w = true ->
    aread (xs ++ rest) buf w =
    MrEntry ((if f then [] else buf) ++ p) :: aread rest ((if f then [] else buf) ++ p) false.
Proof.
  induction 1 as [a f p x Hd (Ht & Hc4 & Hl & Hg) | a f p x xs e Hd (Ht & Hc4 & Hl & Hg) Hr IH];
    intros Hall rest buf w Hfw; cbn [forallb] in Hall; apply andb_true_iff in Hall as [Hgx Hall];
    pose proof (collecting f w Hfw) as Hw;
    cbn [app aread]; rewrite Hgx, Ht, is_first_frame_type, is_last_frame_type, Hw, (Hg Hgx).
  - rewrite (takeN_whole p _ Hd). reflexivity.
  - rewrite (IH Hall rest _ true) by (right; reflexivity).
    cbn match. rewrite <- app_assoc, takeN_dropN. reflexivity.
Qed.

Lemma aread_entry_bad a f p xs e :
  enc_any a f p xs e -> forallb fs_good xs = false ->
  forall rest buf w,
    aread (xs ++ rest) buf w = repeat MrCorrupt (countbad xs) ++ aread rest [] false.
Proof.
  induction 1 as [a f p x Hd (Ht & Hc4 & Hl & Hg) | a f p x xs e Hd (Ht & Hc4 & Hl & Hg) Hr IH];
    intros Hall rest buf w; cbn [forallb] in Hall; cbn [app aread countbad].
  - rewrite andb_true_r in Hall. rewrite Hall. cbn [repeat app]. f_equal. apply aread_buf_false.
  - destruct (fs_good x) eqn:Hgx.
    + cbn [andb] in Hall. rewrite Ht, is_first_frame_type, is_last_frame_type.
      destruct (if f then true else w); apply (IH Hall).
    + cbn [repeat app]. f_equal.
      rewrite (aread_tail_skip _ _ _ _ _ Hr eq_refl). f_equal. apply aread_buf_false.
Qed.

(* a list of entries, each written at the writer's position, each frame intact or damaged *)
Inductive encs_any : N -> list (bytes * list fspec) -> bytes -> Prop :=
| EAS_nil a : encs_any a [] []
| EAS_cons a p xs e pxs t :
    enc_any a true p xs e -> encs_any (a + lenN e) pxs t ->
    encs_any a ((p, xs) :: pxs) (e ++ t).

(* what the reader reports for one entry: the entry if no frame was hit, otherwise one
   Corruption per damaged frame (and nothing else) *)
Definition entry_out (px : bytes * list fspec) : list mem_read :=
  if forallb fs_good (snd px) then [MrEntry (fst px)]
  else repeat MrCorrupt (countbad (snd px)).

Lemma encs_any_layout a pxs t : encs_any a pxs t -> layout a (flat_map snd pxs) t.
Proof.
  induction 1 as [a | a p xs e pxs t He Hes IH]; cbn [flat_map snd].
  - constructor.
  - apply layout_app; [exact (enc_any_layout _ _ _ _ _ He)|exact IH].
Qed.

Lemma encs_any_orig a pxs t :
  encs_any a pxs t -> exists t0, encs_rel a (map fst pxs) t0 /\ lenN t0 = lenN t.
Proof.
  induction 1 as [a | a p xs e pxs t He Hes (t0 & Ht0 & Hlen0)]; cbn [map fst].
  - exists []. split; [constructor|reflexivity].
  - destruct (enc_any_orig _ _ _ _ _ He) as (e0 & He0 & Hlen).
    exists (e0 ++ t0). split.
    + econstructor; [exact He0|]. rewrite Hlen. exact Ht0.
    + rewrite !lenN_app. lia.
Qed.

Lemma aread_entries a pxs t :
  encs_any a pxs t ->
  forall buf, aread (flat_map snd pxs) buf false = flat_map entry_out pxs ++ [MrEnd].
Proof.
  induction 1 as [a | a p xs e pxs t He Hes IH]; intros buf; cbn [flat_map snd].
  - reflexivity.
  - unfold entry_out at 1. cbn [fst snd]. destruct (forallb fs_good xs) eqn:Hall.
    + rewrite (aread_entry_good _ _ _ _ _ He Hall) by (left; reflexivity).
      cbn [app]. f_equal. apply IH.
    + rewrite (aread_entry_bad _ _ _ _ _ He Hall), <- app_assoc. f_equal. apply IH.
Qed.

(* any entries damaged, each in any number of frames: the reader delivers exactly the
   entries none of whose frames were hit, in order and intact, reports one Corruption per
   damaged frame at the place of the entry it belongs to, and reaches the end of the log *)
Theorem read_damaged_general pxs t :
  encs_any 0 pxs t ->
  mem_read_stream (mem_stream P t) = flat_map entry_out pxs ++ [MrEnd].
Proof.
  intros H. rewrite (read_stream_layout _ _ (encs_any_layout _ _ _ H)).
  apply (aread_entries _ _ _ H).
Qed.

Definition delivered (out : list mem_read) : list bytes :=
  flat_map (fun r => match r with MrEntry b => [b] | _ => [] end) out.
Definition corruptions (out : list mem_read) : nat :=
  length (filter (fun r => match r with MrCorrupt => true | _ => false end) out).

Inductive sublist {A} : list A -> list A -> Prop :=
| SL_nil : sublist [] []
| SL_skip x l1 l2 : sublist l1 l2 -> sublist l1 (x :: l2)
| SL_keep x l1 l2 : sublist l1 l2 -> sublist (x :: l1) (x :: l2).

Definition intact (px : bytes * list fspec) : bool := forallb fs_good (snd px).

Lemma delivered_app a b : delivered (a ++ b) = delivered a ++ delivered b.
Proof. unfold delivered. apply flat_map_app. Qed.

Lemma delivered_repeat n : delivered (repeat MrCorrupt n) = [].
Proof. induction n as [|n IH]; [reflexivity|exact IH]. Qed.

Lemma corruptions_app a b : (corruptions (a ++ b) = corruptions a + corruptions b)%nat.
Proof. unfold corruptions. rewrite filter_app, app_length. reflexivity. Qed.

Lemma corruptions_repeat n : corruptions (repeat MrCorrupt n) = n.
Proof. induction n as [|n IH]; [reflexivity|]. unfold corruptions in *. cbn [repeat filter length]. now rewrite IH. Qed.

Lemma delivered_out pxs :
  delivered (flat_map entry_out pxs ++ [MrEnd]) = map fst (filter intact pxs).
Proof.
  rewrite delivered_app. cbn [delivered flat_map app]. rewrite app_nil_r.
  induction pxs as [|[p xs] pxs IH]; [reflexivity|].
  cbn [flat_map filter]. rewrite delivered_app, IH. unfold entry_out, intact. cbn [fst snd].
  destruct (forallb fs_good xs); [reflexivity|]. rewrite delivered_repeat. reflexivity.
Qed.

Lemma corruptions_out pxs :
  corruptions (flat_map entry_out pxs ++ [MrEnd]) =
  fold_right Nat.add 0%nat (map (fun px => countbad (snd px)) pxs).
Proof.
  rewrite corruptions_app. replace (corruptions [MrEnd]) with 0%nat by reflexivity.
  rewrite Nat.add_0_r.
  induction pxs as [|[p xs] pxs IH]; [reflexivity|].
  cbn [flat_map map fold_right snd]. rewrite corruptions_app, IH. f_equal.
  unfold entry_out. cbn [fst snd].
  destruct (forallb fs_good xs) eqn:Hall; [|apply corruptions_repeat].
  clear -Hall. induction xs as [|x xs IHx]; [reflexivity|].
  cbn [forallb] in Hall. apply andb_true_iff in Hall as [Hx Hall].
  cbn [countbad]. rewrite Hx. apply IHx. exact Hall.
Qed.

Lemma sublist_filter_map {A C} (g : A -> C) (h : A -> bool) l :
  sublist (map g (filter h l)) (map g l).
Proof.
  induction l as [|x l IH]; cbn [filter map]; [constructor|].
  destruct (h x); cbn [map]; constructor; exact IH.
Qed.

(* the entries delivered are exactly the untouched ones: a subsequence of the entries written;
   a damaged entry is never turned into data; the Corruptions count the damaged frames *)
Theorem C09_general pxs t :
  encs_any 0 pxs t ->
  exists t0,
    encs_rel 0 (map fst pxs) t0 /\ lenN t0 = lenN t /\
    let out := mem_read_stream (mem_stream P t) in
    out = flat_map entry_out pxs ++ [MrEnd] /\
    delivered out = map fst (filter intact pxs) /\
    sublist (delivered out) (map fst pxs) /\
    corruptions out = fold_right Nat.add 0%nat (map (fun px => countbad (snd px)) pxs).
Proof.
  intros H. destruct (encs_any_orig _ _ _ H) as (t0 & Ht0 & Hlen).
  exists t0. split; [exact Ht0|]. split; [exact Hlen|].
  cbv zeta. rewrite (read_damaged_general _ _ H).
  split; [reflexivity|]. rewrite delivered_out.
  split; [reflexivity|]. split; [apply sublist_filter_map|apply corruptions_out].
Qed.

Definition good_fs (t : ftype) (p : bytes) : fspec :=
  mkFS (le_enc 4 (crcf P (n2b (ft_code t)) p)) t p.

Lemma good_fs_good t p : fs_good (good_fs t p) = true.
Proof.
  unfold fs_good, good_fs. cbn [fs_c4 fs_ty fs_pl].
  rewrite le_dec_enc_small by apply Hcrc. apply N.eqb_refl.
Qed.

Lemma good_fs_bytes t p : fs_bytes (good_fs t p) = frame_bytes P t p.
Proof. unfold fs_bytes, good_fs. cbn [fs_c4 fs_ty fs_pl]. now rewrite frame_bytes_dframe. Qed.

Lemma frame_for_good a f l p :
  frame_for a f l p (good_fs (frame_type f l) (takeN (chunk_of a p) p)).
Proof.
  unfold frame_for, good_fs. cbn [fs_c4 fs_ty fs_pl].
  split; [reflexivity|]. split; [apply length_le_enc|]. split; [apply lenN_take_chunk|reflexivity].
Qed.

Lemma frame_for_bad a f l p c4 p' :
  lenN c4 = 4 -> lenN p' = chunk_of a p ->
  le_dec c4 <> crcf P (n2b (ft_code (frame_type f l))) p' ->
  frame_for a f l p (mkFS c4 (frame_type f l) p') /\ fs_good (mkFS c4 (frame_type f l) p') = false.
Proof.
  intros Hc4 Hl Hbad.
  assert (Hg : fs_good (mkFS c4 (frame_type f l) p') = false).
  { unfold fs_good. cbn [fs_c4 fs_ty fs_pl].
    destruct (N.eqb_spec (crcf P (n2b (ft_code (frame_type f l))) p') (le_dec c4)); [congruence|reflexivity]. }
  split; [|exact Hg]. unfold frame_for. rewrite Hg. cbn [fs_c4 fs_ty fs_pl].
  repeat split; [exact Hc4|exact Hl|discriminate].
Qed.

Lemma enc_rel_any a f p e k :
  enc_rel a f p e k ->
  exists xs, enc_any a f p xs e /\ forallb fs_good xs = true /\ length xs = k.
Proof.
  induction 1 as [a f p Hd | a f p e k Hd Hr (xs & Hany & Hall & Hlen)].
  - eexists [_]. rewrite <- good_fs_bytes. split; [apply EA_last; [exact Hd|apply frame_for_good]|].
    cbn [forallb length]. rewrite good_fs_good. split; reflexivity.
  - eexists (_ :: xs). rewrite <- good_fs_bytes.
    split; [apply EA_more; [exact Hd|apply frame_for_good|exact Hany]|].
    cbn [forallb length]. rewrite good_fs_good, Hall, Hlen. split; reflexivity.
Qed.

Lemma countbad_allgood xs : forallb fs_good xs = true -> countbad xs = 0%nat.
Proof.
  induction xs as [|x xs IH]; [reflexivity|]. cbn [forallb countbad].
  intros H. apply andb_true_iff in H as [Hx H]. rewrite Hx. exact (IH H).
Qed.

Lemma enc_dmg_any a f p e e' k :
  enc_dmg a f p e e' k ->
  exists xs, enc_any a f p xs e' /\ forallb fs_good xs = false /\ countbad xs = 1%nat /\ length xs = k.
Proof.
  induction 1 as [a f p c4 p' Hd Hc4 Hl Hbad | a f p c4 p' e k Hd Hc4 Hl Hbad Hr
                 | a f p e e' k Hd Hr (xs & Hany & Hall & Hcnt & Hlen)].
  - destruct (frame_for_bad a f true p c4 p' Hc4 Hl Hbad) as [Hff Hg].
    exists [mkFS c4 (frame_type f true) p'].
    split; [exact (EA_last _ _ _ _ Hd Hff)|]. cbn [forallb countbad length]. rewrite Hg.
    repeat split.
  - destruct (frame_for_bad a f false p c4 p' Hc4 Hl Hbad) as [Hff Hg].
    destruct (enc_rel_any _ _ _ _ _ Hr) as (xs & Hany & Hall & Hlen).
    exists (mkFS c4 (frame_type f false) p' :: xs).
    split; [exact (EA_more _ _ _ _ _ _ Hd Hff Hany)|]. cbn [forallb countbad length]. rewrite Hg.
    rewrite (countbad_allgood _ Hall), Hlen. repeat split.
  - eexists (_ :: xs). rewrite <- good_fs_bytes.
    split; [apply EA_more; [exact Hd|apply frame_for_good|exact Hany]|].
    cbn [forallb countbad length]. rewrite good_fs_good, Hall, Hcnt, Hlen. repeat split.
Qed.

(* non-vacuity: every encoding has a damaged version (e.g. flip the checksum of a frame) *)
Lemma enc_dmg_exists a f p e k : enc_rel a f p e k -> exists e', enc_dmg a f p e e' k.
Proof.
  assert (Hflip : forall t q, le_dec (le_enc 4 ((crcf P t q + 1) mod 2 ^ 32)) <> crcf P t q).
  { intros t q. rewrite le_dec_enc_small by (apply N.mod_lt; discriminate).
    pose proof (Hcrc t q) as Hlt. change (2 ^ 32) with 4294967296 in *.
    destruct (N.eq_dec (crcf P t q + 1) 4294967296) as [E|E].
    - rewrite E, N.mod_same by discriminate. lia.
    - rewrite N.mod_small by lia. lia. }
  intros H. destruct H as [a f p Hd | a f p e k Hd Hr].
  - eexists. apply (ED_last a f p (le_enc 4 ((crcf P (n2b (ft_code (frame_type f true))) (takeN (chunk_of a p) p) + 1) mod 2 ^ 32)) (takeN (chunk_of a p) p) Hd);
      [apply length_le_enc|apply lenN_take_chunk|apply Hflip].
  - eexists. apply (ED_here a f p (le_enc 4 ((crcf P (n2b (ft_code (frame_type f false))) (takeN (chunk_of a p) p) + 1) mod 2 ^ 32)) (takeN (chunk_of a p) p) e k Hd);
      [apply length_le_enc|apply lenN_take_chunk|apply Hflip|exact Hr].
Qed.

Lemma encs_rel_any a es t :
  encs_rel a es t ->
  exists pxs, encs_any a pxs t /\ map fst pxs = es /\ forallb intact pxs = true.
Proof.
  induction 1 as [a | a p ps e k t He Hes (pxs & Hany & Hmap & Hall)].
  - exists []. split; [constructor|]. split; reflexivity.
  - destruct (enc_rel_any _ _ _ _ _ He) as (xs & Hx & Hgood & _).
    exists ((p, xs) :: pxs). split; [econstructor; eassumption|].
    cbn [map fst forallb]. rewrite Hmap, Hall. unfold intact at 1. cbn [snd]. rewrite Hgood.
    split; reflexivity.
Qed.

Lemma encs_any_app a pxs1 t1 :
  encs_any a pxs1 t1 -> forall pxs2 t2,
  encs_any (a + lenN t1) pxs2 t2 -> encs_any a (pxs1 ++ pxs2) (t1 ++ t2).
Proof using HBS_lo HBS_hi Hcrc.
  induction 1 as [a | a p xs e pxs t He Hes IH]; intros pxs2 t2 H2'.
  - rewrite (@lenN_nil byte), N.add_0_r in H2'. exact H2'.
  - cbn [app]. rewrite <- app_assoc. econstructor; [exact He|]. apply IH.
    rewrite lenN_app in H2'. replace (a + lenN e + lenN t) with (a + (lenN e + lenN t)) by lia.
    exact H2'.
Qed.

Lemma entry_out_intact pxs :
  forallb intact pxs = true -> flat_map entry_out pxs = map MrEntry (map fst pxs).
Proof.
  induction pxs as [|[p xs] pxs IH]; [reflexivity|]. cbn [forallb]. intros H.
  apply andb_true_iff in H as [Hx H]. unfold intact in Hx. cbn [snd] in Hx.
  cbn [flat_map map fst]. unfold entry_out at 1. cbn [fst snd]. rewrite Hx, (IH H). reflexivity.
Qed.

(* one entry of the log has one frame damaged (checksum and / or payload bytes): every
   other entry is read back intact, the reader does not stop, and the damaged entry is
   reported as exactly one Corruption *)
Theorem read_one_damaged es1 x es2 t1 ex ed k t2 :
  encs_rel 0 es1 t1 ->
  enc_dmg (lenN t1) true x ex ed k ->
  encs_rel (lenN t1 + lenN ex) es2 t2 ->
  forall fuel gofuel,
    (length es1 + length es2 + 2 <= fuel)%nat ->
    lenN (t1 ++ ed ++ t2) + 7 <= 7 * N.of_nat gofuel ->
    mem_read_all P fuel gofuel (mem_open_reader (mem_stream P (t1 ++ ed ++ t2))) =
      map MrEntry es1 ++ [MrCorrupt] ++ map MrEntry es2 ++ [MrEnd].
Proof.
  intros Hes1 Hdmg Hes2 fuel gofuel Hfuel Hg.
  destruct (encs_rel_any _ _ _ Hes1) as (pa & Hpa & <- & Hia).
  destruct (enc_dmg_any _ _ _ _ _ _ Hdmg) as (xsd & Hxd & Hbad & Hcnt & _).
  destruct (encs_rel_any _ _ _ Hes2) as (pb & Hpb & <- & Hib).
  rewrite <- (enc_dmg_len _ _ _ _ _ _ Hdmg) in Hpb.
  assert (Hany : encs_any 0 (pa ++ (x, xsd) :: pb) (t1 ++ ed ++ t2)).
  { apply (encs_any_app 0 pa t1 Hpa). rewrite N.add_0_l. econstructor; [exact Hxd | exact Hpb]. }
  assert (Hout : aread (flat_map snd (pa ++ (x, xsd) :: pb)) [] false =
                 map MrEntry (map fst pa) ++ [MrCorrupt] ++ map MrEntry (map fst pb) ++ [MrEnd]).
  { rewrite (aread_entries _ _ _ Hany), flat_map_app. cbn [flat_map].
    rewrite !entry_out_intact by assumption. unfold entry_out. cbn [fst snd].
    rewrite Hbad, Hcnt, <- !app_assoc. reflexivity. }
  rewrite <- Hout. apply (read_layout _ _ fuel gofuel (encs_any_layout _ _ _ Hany)); [|exact Hg].
  rewrite Hout, !app_length, !map_length in *. cbn [length]. lia.
Qed.

Theorem read_one_damaged_stream es1 x es2 t1 ex ed k t2 :
  encs_rel 0 es1 t1 ->
  enc_dmg (lenN t1) true x ex ed k ->
  encs_rel (lenN t1 + lenN ex) es2 t2 ->
  mem_read_stream (mem_stream P (t1 ++ ed ++ t2)) =
    map MrEntry es1 ++ [MrCorrupt] ++ map MrEntry es2 ++ [MrEnd].
Proof.
  intros Hes1 Hdmg Hes2. unfold mem_read_stream.
  pose proof (stream_fuel_ok (t1 ++ ed ++ t2)) as Hf.
  apply (read_one_damaged es1 x es2 t1 ex ed k t2 Hes1 Hdmg Hes2); [|exact Hf].
  pose proof (encs_rel_len _ _ _ Hes1) as H1. pose proof (encs_rel_len _ _ _ Hes2) as H2.
  pose proof (enc_rel_frames _ _ _ _ _ (enc_dmg_orig _ _ _ _ _ _ Hdmg)) as [Hk Hk1].
  rewrite !lenN_app, (enc_dmg_len _ _ _ _ _ _ Hdmg) in Hf. lia.
Qed.

(* stated from the writer: the log written for es1 ++ [x] ++ es2 splits as t1 ++ ex ++ t2
   with ex the frames of x, and replacing ex by ANY single-frame damaged version of it gives a
   stream that reads back as es1, one Corruption, es2, End *)
Theorem C09_one_damaged_entry es1 x es2 w ns :
  mem_write_all P (mkVecW 0 []) (es1 ++ [x] ++ es2) = (w, ns) ->
  exists t1 ex k t2,
    vw_buf w = t1 ++ ex ++ t2 /\
    enc_rel (lenN t1) true x ex k /\
    forall ed, enc_dmg (lenN t1) true x ex ed k ->
      lenN ed = lenN ex /\
      mem_read_stream (mem_stream P (t1 ++ ed ++ t2)) =
        map MrEntry es1 ++ [MrCorrupt] ++ map MrEntry es2 ++ [MrEnd].
Proof.
  intros Hw.
  destruct (mem_write_all_spec (es1 ++ [x] ++ es2) (mkVecW 0 [])) as (ns' & t & Hall & Hes & _ & _).
  rewrite Hw in Hall. inversion Hall as [[Ew Ens]]. cbn [vw_cursor vw_buf app] in *.
  destruct (encs_rel_app_inv _ _ _ _ Hes) as (t1 & t' & -> & Hes1 & Hes').
  rewrite N.add_0_l in Hes'.
  inversion Hes' as [|a' p ps ex k t2 He Hes2]; subst.
  exists t1, ex, k, t2. split; [reflexivity|]. split; [exact He|].
  intros ed Hdmg. split; [exact (enc_dmg_len _ _ _ _ _ _ Hdmg)|].
  exact (read_one_damaged_stream es1 x es2 t1 ex ed k t2 Hes1 Hdmg Hes2).
Qed.

End C09.

Print Assumptions read_frame_bad_crc.
Print Assumptions read_frame_bad_crc_at.
Print Assumptions go_next_skip.
Print Assumptions read_one_damaged.
Print Assumptions read_one_damaged_stream.
Print Assumptions C09_one_damaged_entry.
Print Assumptions go_next_layout.
Print Assumptions read_stream_layout.
Print Assumptions read_damaged_general.
Print Assumptions C09_general.
Print Assumptions enc_dmg_any.
Print Assumptions enc_dmg_exists.
Check read_frame_bad_crc.
Check C09_one_damaged_entry.
Check C09_general.
