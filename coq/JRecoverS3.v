(* JRecoverS3.v — JRecoverS4.crash_stream_preK2 with the admissible set as a result: it is the old one. *)
From Coq Require Import Lia ZArith ZifyN ZifyNat ZifyBool List Sorted.
From MRL Require Import Bytes BytesProofs Params Frame Driver StreamProofs DamageProofs TornProofs
  ResyncProofs OpenTerm OpenReplay TornFile JunkStream JRecoverS4.

Section RecoverS3.
Variable P : params.
Hypothesis HBS_lo : 7 < BS P.
Hypothesis HBS_hi : BS P <= 65542.
Hypothesis Hcrc : forall t p, crcf P t p < 2 ^ 32.
Hypothesis Hnc : no_zero_collision P.

Local Notation B := (BS P).
Local Notation ffp := (first_frame_pos P).
Local Notation encsof := (encs_of P).
Local Notation starts := (starts P).
Local Notation pre_cont := (pre_cont P).

Theorem crash_stream_preK PRE0 ops0 opos0 adm0 cmax0 rm0 (es_new : list bytes) c0 xs j z (S_all : bytes) :
  pre_cont PRE0 ops0 opos0 adm0 cmax0 rm0 -> rm0 <= 7 ->
  let a0 := lenN PRE0 in
  let T := PRE0 ++ encsof a0 es_new in
  lenN T <= c0 -> c0 <= ffp (lenN T) -> j <= lenN (encsof c0 xs) ->
  S_all = T ++ zerosN (c0 - lenN T) ++ takeN j (encsof c0 xs) ++ zerosN z ->
  stream_ok P S_all ->
  c0 + j + B <= lenN S_all ->
  exists xs_d xs_r PRE adm cmax rm zz,
    xs = xs_d ++ xs_r /\
    pre_cont PRE (ops0 ++ es_new ++ xs_d) (opos0 ++ starts a0 (es_new ++ xs_d)) adm cmax rm /\
    S_all = PRE ++ zerosN zz /\ lenN PRE + rm <= lenN S_all /\
    (cmax <= Datatypes.S cmax0)%nat /\ rm <= 7 /\
    (forall kb, adm0 kb -> kb * B <= c0 \/ lenN S_all <= kb * B -> adm kb) /\
    lenN T <= lenN PRE /\ c0 <= ffp (lenN PRE) /\
    a0 + lenN (encsof a0 (es_new ++ xs_d)) <= lenN PRE /\
    lenN PRE <= a0 + lenN (encsof a0 (es_new ++ xs)) + B /\
    (xs_r <> [] -> j < lenN (encsof c0 xs)).
Proof.
  intros Hpc0 Hrm0 a0 T Hlo Hhi Hj HS Hok Hfit.
  destruct (crash_stream_preK2 P HBS_lo HBS_hi Hcrc Hnc PRE0 ops0 opos0 adm0 cmax0 rm0 es_new c0 xs j z S_all
              Hpc0 Hrm0 Hlo Hhi Hj HS Hok Hfit)
    as (xs_d & xs_r & PRE & cmax & rm & zz & Hxs & Hpc & HS' & Hroom & Hc & Hrm & _ & Hrest).
  exists xs_d, xs_r, PRE, adm0, cmax, rm, zz.
  repeat (split; [assumption|]). split; [intros kb Hk _; exact Hk | exact Hrest].
Qed.

End RecoverS3.

Print Assumptions crash_stream_preK.
