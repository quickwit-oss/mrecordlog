(* TornFile.v — `open` on a directory whose WAL stream ends with a TORN write (a crash inside a
   call): property C02 at the level of the rolling files.  Generalises OpenReplay.v (stream that
   ends cleanly) to a stream that ends with a byte-prefix of the encoding of further entries.

   The stream-level facts are those of TornProofs.torn_frame_st / torn_walk_st, used with their
   explicit reader states: reads_at would need a spare block after the torn data, and in the
   last block of the last file there is none.  The replay loop is a fold over the trace of the
   reader (Corruption steps are ignored by replay_loop); the rolling files are related to the
   stream as in OpenReplay.v, with a possibly short last file (ensure_last_full).

   What the statements do NOT say, and why (see Module Corner at the end for the concrete
   counterexample):
   - "every stream byte from the writer's position on is zero" is FALSE when fewer than 7 bytes
     of a torn frame HEADER lie in the last block of the last file (no block follows): the
     reader, and hence the writer made of it, stays at the start of that header.  The resume
     property proved is resume_ok: zero from pf on, OR (only in the last block of the stream)
     zero from pf + 6 on with pf mod B + 7 <= B (the next header written at pf covers them).
   - extra hypothesis (lo - base) * FILE <= c0: the cursor of the writer in flight lies in a
     kept file (always true: the writer's file is never collected).
   - the tag facts are stated against `starts` of the list ser (E_suf ++ Xd) encoded from the
     cursor after the skipped entries; only its first-frame positions are used.
   - a lower bound c0 <= pf is not claimed when no entry of X is delivered (only lenN T <= pf);
     the lower block bound (m * B <= c0 + j -> m * B <= pf) of torn_resume is not restated: the
     zero tail from pf and pf <= every block boundary >= c0 + j are. *)
From Coq Require Import Lia ZArith ZifyN ZifyNat ZifyBool Sorted.
From MRL Require Import Bytes BytesProofs Params Names NamesProofs Frame Record Mem Rolling Log
  Driver StreamProofs DamageProofs TornProofs PolicyProofs GcProofs FileStream ResyncProofs
  RecordProofs GhostLog OpenTerm OpenReplay.

Section TraceC.
Variable P : params.
Variable R : Type.
Variable rnext : R -> R * res bool.
Variable rblock : R -> bytes.
Local Notation gonextR := (go_next P R rnext rblock).

(* from rr, go_next (fuel g) delivers the records of l (each with the reader it was read FROM),
   reports c Corruptions in between, and then End, leaving the reader rrf *)
Inductive reads_trc (g : nat) : rreader R -> list (rreader R * bytes) -> nat -> rreader R -> Prop :=
| RC_end rr rr' : gonextR g rr = (rr', REnd) -> reads_trc g rr [] 0 rr'
| RC_rec rr rr' l c rrf :
    gonextR g rr = (rr', RRecord) -> reads_trc g rr' l c rrf ->
    reads_trc g rr ((rr, rr_buf rr') :: l) c rrf
| RC_cor rr rr' l c rrf :
    gonextR g rr = (rr', RCorrupt) -> reads_trc g rr' l c rrf ->
    reads_trc g rr l (Datatypes.S c) rrf.

Lemma reads_tr_trc g rr l rrf :
  reads_tr P rnext rblock g rr l rrf -> reads_trc g rr l 0 rrf.
Proof.
  induction 1 as [rr rr' Hgo | rr rr' l rrf Hgo Htr IH].
  - apply RC_end. exact Hgo.
  - eapply RC_rec; eassumption.
Qed.

Lemma reads_trc_tr g rr l rrf :
  reads_trc g rr l 0 rrf -> reads_tr P rnext rblock g rr l rrf.
Proof.
  intros H. remember 0%nat as c eqn:Ec. induction H as [rr rr' Hgo | rr rr' l c rrf Hgo Htr IH | rr rr' l c rrf Hgo Htr IH].
  - apply RT_end. exact Hgo.
  - eapply RT_rec; [exact Hgo|]. apply IH. exact Ec.
  - discriminate.
Qed.
End TraceC.

Arguments reads_trc P {R} rnext rblock g _ _ _ _.

Section Stream.
Variable P : params.
Hypothesis HBS_lo : 7 < BS P.
Hypothesis HBS_hi : BS P <= 65542.
Hypothesis Hcrc : forall t p, crcf P t p < 2 ^ 32.
Hypothesis Hnc : no_zero_collision P.

Local Notation B := (BS P).
Local Notation rframe := (read_frame P vecr (vr_next P) vr_block).
Local Notation gonext := (go_next P vecr (vr_next P) vr_block).
Local Notation padof := (pad_of P).
Local Notation chunkof := (chunk_of P).
Local Notation encrel := (enc_rel P).
Local Notation encsrel := (encs_rel P).
Local Notation rdat := (rd_at P).
Local Notation rdof := (rd_of P).
Local Notation atpos := (at_pos P).
Local Notation sok := (stream_ok P).
Local Notation fbytes := (frame_bytes P).
Local Notation ffp := (first_frame_pos P).
Local Notation starts := (starts P).
Local Notation delivered_from := (delivered_from P).
Local Notation skipped_before := (skipped_before P).
Local Notation cursor_after := (cursor_after P).
Local Notation readsC := (reads_trc P (vr_next P) vr_block).
Local Notation H3 f := (f P HBS_lo HBS_hi Hcrc) (only parsing).
Local Notation H2 f := (f P HBS_lo HBS_hi) (only parsing).

Local Notation lands := (TornProofs.lands P).
Local Notation tail_ok := (TornProofs.tail_ok).

(* the reader where the record reader stopped, at byte position pf *)
Definition fin_at (S : bytes) (fr : freader vecr) (pf : N) : Prop :=
  exists k c fl, fr = mkFR (rdof S k) c fl /\ (k + 1) * B <= lenN S /\ c <= B /\ pf = k * B + c.

(* pf is a position where writing can resume: everything from pf on is zero, or — only in the
   LAST block of S — pf is the start of a torn header of which fewer than 7 bytes are there
   (the next frame header written at pf, without padding since pf mod B + 7 <= B, covers them) *)
Definition resume_ok (S : bytes) (pf : N) : Prop :=
  all_zero (dropN pf S) = true \/
  (all_zero (dropN (pf + 6) S) = true /\
   exists k c, pf = k * B + c /\ c + 7 <= B /\ lenN S = (k + 1) * B).

Lemma all_zero_dropN_more (S : bytes) p q :
  p <= q -> all_zero (dropN p S) = true -> all_zero (dropN q S) = true.
Proof.
  intros Hle H. replace q with (p + (q - p)) by lia. rewrite <- dropN_dropN.
  apply all_zero_dropN. exact H.
Qed.

Lemma sok_last S k : sok S -> (k + 1) * B <= lenN S -> lenN S < (k + 2) * B -> lenN S = (k + 1) * B.
Proof.
  intros [m Hm] Ha Hb. rewrite Hm in *.
  apply (H2 TornProofs.mulB_le_inv) in Ha. apply (H2 TornProofs.mulB_lt_inv) in Hb.
  f_equal. lia.
Qed.

Lemma header_zero_at S k c :
  c + 7 <= B -> all_zero (dropN (k * B + c) S) = true ->
  all_zero (sliceN c (c + 7) (sliceN (k * B) ((k + 1) * B) S)) = true.
Proof.
  intros Hc Hz. rewrite sliceN_sliceN by lia. unfold sliceN.
  apply all_zero_takeN. exact Hz.
Qed.

(* the End of the log from an explicit state *)
Lemma lands_end S fr p r buf w :
  sok S -> lands S fr p r -> tail_ok S fr p r ->
  exists fr' pf,
    (forall g, gonext (Datatypes.S g) (mkRR fr buf w) = (mkRR fr' buf w, REnd)) /\
    fin_at S fr' pf /\ p <= pf /\ pf <= r /\ resume_ok S pf.
Proof.
  intros Hok (k & c & fl & -> & Hblk & Hc & Hp & Hcase) Htail.
  unfold TornProofs.tail_ok in Htail. cbn [fr_corrupt] in Htail.
  destruct Hcase as [(-> & Hc7 & ->) | (Hskip & ->)].
  - (* at p, room for a header: it is zero *)
    destruct Htail as [[_ Hz] | [Hf _]]; [|discriminate].
    exists (mkFR (rdof S k) c false), p. split; [|split; [|split; [lia|split; [lia|left; exact Hz]]]].
    + intros g. apply (TornProofs.go_next_notavail P).
      change (mkFR (rdof S k) c false) with (rdat S k c).
      rewrite (H3 StreamProofs.read_frame_zero) by (try lia; subst p; apply header_zero_at; assumption).
      reflexivity.
    + exists k, c, false. repeat split; assumption.
  - destruct (N.le_gt_cases ((k + 2) * B) (lenN S)) as [Hnext|Hlast].
    + (* the next block exists: the reader moves there and finds zeros *)
      assert (Hz : all_zero (dropN ((k + 1) * B) S) = true).
      { destruct Htail as [[_ Hz] | (_ & Hz & Hle)].
        - apply (all_zero_dropN_more S p); [lia | exact Hz].
        - apply (all_zero_dropN_more S (p + 6)); [lia | exact Hz]. }
      exists (rdat S (k + 1) 0), ((k + 1) * B).
      split; [|split; [|split; [lia|split; [lia|left; exact Hz]]]].
      * intros g. apply (TornProofs.go_next_notavail P).
        rewrite (H3 TornProofs.read_frame_leave S k c fl Hskip Hnext).
        rewrite (H3 StreamProofs.read_frame_zero); [reflexivity | lia |].
        apply header_zero_at; [lia|]. rewrite N.add_0_r. exact Hz.
      * exists (k + 1), 0, false. repeat split; lia.
    + (* no further block: the reader stays where it is *)
      pose proof (sok_last S k Hok Hblk Hlast) as HlenS.
      exists (mkFR (rdof S k) c fl), p.
      split; [|split; [|split; [lia|split; [lia|]]]].
      * intros g. apply (TornProofs.go_next_notavail P).
        rewrite read_frame_unfold. cbn [fr_corrupt fr_cursor fr_rd].
        assert (Hns : (fl || (B - c <? HEADER_LEN)) = true).
        { unfold HEADER_LEN. destruct fl; [reflexivity|]. destruct Hskip as [Hf|Hc7]; [discriminate|].
          cbn [orb]. apply N.ltb_lt. lia. }
        rewrite Hns. unfold vr_next, rd_of. cbn [vr_rest].
        rewrite lenN_dropN.
        destruct (N.ltb_spec (lenN S - (k + 1) * B) B) as [_|Hbad]; [|lia].
        reflexivity.
      * exists k, c, fl. repeat split; assumption.
      * destruct Htail as [[_ Hz] | (Hf & Hz & Hle)]; [left; exact Hz|].
        right. split; [exact Hz|]. exists k, c. repeat split; try assumption. lia.
Qed.

(* the stream that ends with the torn bytes and zeros holds the junk (r, W) of
   torn_frame_st / torn_walk_st *)
Lemma torn_stream_junk S pre (X W : bytes) a j z r :
  sok S -> S = pre ++ takeN j X ++ zerosN z -> lenN pre = a -> j < lenN X ->
  (forall m, a + j <= m * B -> r <= m * B) ->
  (forall z, r <= a + j + z -> takeN j X ++ zerosN z = W ++ zerosN (a + j + z - r)) ->
  S = pre ++ W ++ zerosN (a + j + z - r).
Proof.
  intros [m Hm] HS Hpre Hj Hup Hspec. rewrite HS at 1. f_equal. apply Hspec.
  assert (HlenS : lenN S = a + j + z).
  { rewrite HS, !lenN_app, lenN_takeN, lenN_zerosN. lia. }
  rewrite <- HlenS, Hm. apply Hup. lia.
Qed.

Lemma tail_ok_zeros pre W z fr p r :
  tail_ok (pre ++ W) fr p r -> p <= r -> lenN (pre ++ W) = r ->
  tail_ok (pre ++ W ++ zerosN z) fr p r.
Proof.
  intros Ht Hp Hl. rewrite app_assoc.
  apply tail_ok_app; [exact Ht | lia | lia | apply all_zero_zerosN].
Qed.

(* what the record reader does on the torn encoding: n complete frames are consumed, then the
   reader is in the explicit state rr1 (position p1, next read at r), after which only zeros
   follow: silently, or after reporting the torn frame corrupt, or after accepting the last
   frame (only possible when the missing bytes are all zero) *)
Definition walk2 (S : bytes) (a : N) (f : bool) (p e : bytes) (j : N) (k : nat)
    (fr : freader vecr) (rbuf : bytes) (within : bool) : Prop :=
  exists n rr1 p1 r,
    (n <= k)%nat /\ a <= p1 /\ p1 <= r /\ (forall m, a + j <= m * B -> r <= m * B) /\
    lands S (rr_fr rr1) p1 r /\ tail_ok S (rr_fr rr1) p1 r /\
    ( (forall fuel', gonext (n + fuel') (mkRR fr rbuf within) = gonext fuel' rr1)
      \/ (forall fuel', gonext (n + Datatypes.S fuel') (mkRR fr rbuf within) = (rr1, RCorrupt))
      \/ (rr_buf rr1 = (if f then [] else rbuf) ++ p /\ all_zero (dropN j e) = true /\
          a + lenN e <= p1 /\
          forall fuel', gonext (n + Datatypes.S fuel') (mkRR fr rbuf within) = (rr1, RRecord))).

Lemma torn_walk2 a f p e k :
  encrel a f p e k -> forall j, j < lenN e ->
  forall S pre z fr rbuf within,
    sok S -> atpos S fr a -> S = pre ++ takeN j e ++ zerosN z -> lenN pre = a ->
    (f = true \/ within = true) ->
    walk2 S a f p e j k fr rbuf within.
Proof.
  intros He j Hj S pre z fr rbuf within Hok Hat HS Hpre Hfw.
  destruct (H3 torn_walk_st a f p e k He j Hj) as (r & W & Har & HlW & Hspec & Hup & _ & Hrd).
  pose proof (torn_stream_junk S pre e W a j z r Hok HS Hpre Hj Hup Hspec) as HS'.
  destruct (Hrd S pre _ fr rbuf within Hok Hat HS' Hpre Hfw)
    as (n & rr1 & p1 & Hnk & _ & Hap & Hpr & Hl & Ht & Hout).
  exists n, rr1, p1, r. split; [exact Hnk|]. split; [exact Hap|]. split; [exact Hpr|].
  split; [exact Hup|]. split; [exact Hl|]. split.
  { rewrite HS'. apply tail_ok_zeros; [exact Ht | exact Hpr |]. rewrite lenN_app. lia. }
  destruct Hout as [Hsil | [[_ Hcor] | (_ & Hend & p' & Hbuf & Hrec & Hcase)]].
  - left. exact Hsil.
  - right. left. exact Hcor.
  - destruct Hcase as [[-> Hz] | [_ Hcol]]; [|exfalso; exact (no_collision P Hnc Hcol)].
    right. right. split; [exact Hbuf|]. split; [exact Hz|]. split; [exact Hend | exact Hrec].
Qed.

(* the torn entry x, then the end *)
Lemma torn_tail a x e k j S pre z gofuel :
  encrel a true x e k -> j < lenN e ->
  S = pre ++ takeN j e ++ zerosN z -> lenN pre = a -> sok S ->
  forall rr1 g rr,
    atpos S (rr_fr rr1) a -> gonext gofuel rr = gonext g rr1 ->
    (k + 2 <= g)%nat -> (1 <= gofuel)%nat ->
    exists l c rrf pf,
      readsC gofuel rr l c rrf /\ (c <= 1)%nat /\
      (l = [] \/ (l = [(rr, x)] /\ all_zero (dropN j e) = true /\ a + lenN e <= pf)) /\
      fin_at S (rr_fr rrf) pf /\ a <= pf /\
      (forall m, a + j <= m * B -> pf <= m * B) /\ resume_ok S pf.
Proof.
  intros He Hj HS Hpre Hok [fr rbuf within] g rr Hat Hgo Hg Hgf. cbn [rr_fr] in Hat.
  destruct (torn_walk2 a true x e k He j Hj S pre z fr rbuf within Hok Hat HS Hpre
              (or_introl eq_refl))
    as (n & [fr1 b1 w1] & p1 & r & Hn & Hap & Hpr & Hup & Hl & Ht & Hout).
  cbn [rr_fr rr_buf] in *.
  destruct (lands_end S fr1 p1 r b1 w1 Hok Hl Ht) as (fr' & pf & Hend' & Hfin & Hp1 & Hpf & Hres).
  assert (Eg : g = (n + Datatypes.S (g - n - 1))%nat) by lia.
  destruct gofuel as [|gf]; [lia|].
  assert (Hpos : fin_at S (rr_fr (mkRR fr' b1 w1)) pf /\ a <= pf /\
                 (forall m, a + j <= m * B -> pf <= m * B) /\ resume_ok S pf).
  { split; [exact Hfin|]. split; [lia|]. split; [|exact Hres].
    intros m Hm. specialize (Hup m Hm). lia. }
  destruct Hout as [Hsil | [Hcor | (Hbuf & Hz & Hend & Hrec)]].
  - exists [], 0%nat, (mkRR fr' b1 w1), pf.
    split; [|split; [lia|split; [left; reflexivity | exact Hpos]]].
    apply RC_end. rewrite Hgo, Eg, Hsil. apply Hend'.
  - exists [], 1%nat, (mkRR fr' b1 w1), pf.
    split; [|split; [lia|split; [left; reflexivity | exact Hpos]]].
    eapply RC_cor; [rewrite Hgo, Eg; apply Hcor|]. apply RC_end. apply Hend'.
  - exists [(rr, x)], 0%nat, (mkRR fr' b1 w1), pf.
    split; [|split; [lia|split; [right; repeat split; [exact Hz | lia] | exact Hpos]]].
    cbn [app] in Hbuf. rewrite <- Hbuf.
    change b1 with (rr_buf (mkRR fr1 b1 w1)) at 1.
    eapply RC_rec; [rewrite Hgo, Eg; apply Hrec|]. apply RC_end. apply Hend'.
Qed.

(* a run of intact entries, traced (continuation form) *)
Lemma run_trc a es t :
  encsrel a es t ->
  forall S pre post rr gofuel,
    sok S -> atpos S (rr_fr rr) a -> S = pre ++ t ++ post -> lenN pre = a ->
    lenN t <= 7 * N.of_nat gofuel ->
    exists rrs rr',
      length rrs = length es /\ atpos S (rr_fr rr') (a + lenN t) /\
      tr_ok P S rrs (starts a es) /\
      forall l' c rrf, readsC gofuel rr' l' c rrf -> readsC gofuel rr (combine rrs es ++ l') c rrf.
Proof.
  induction 1 as [a | a p ps e k t He Hes IH]; intros S pre post rr gofuel Hok Hat HS Hpre Hgf.
  - exists [], rr. rewrite (@lenN_nil byte), N.add_0_r. cbn [length combine app ResyncProofs.starts].
    repeat split; try assumption; [constructor | intros l' c rrf H; exact H].
  - destruct rr as [fr rbuf within]. cbn [rr_fr] in Hat.
    rewrite <- app_assoc in HS. rewrite lenN_app in Hgf.
    pose proof (H3 StreamProofs.enc_rel_frames _ _ _ _ _ He) as [Hk _].
    destruct (H3 StreamProofs.go_next_record a true p e k He S pre (t ++ post) fr rbuf within gofuel
                Hok Hat HS Hpre)
      as (fr' & Hgo & Hat'); [left; reflexivity | lia |].
    cbn [app] in Hgo.
    destruct (IH S (pre ++ e) post (mkRR fr' p false) gofuel Hok Hat')
      as (rrs & rr' & Hlen & Hat'' & Htr & Hcont).
    { rewrite HS, <- app_assoc. reflexivity. }
    { rewrite lenN_app. lia. }
    { lia. }
    exists (mkRR fr rbuf within :: rrs), rr'.
    split; [cbn [length]; now rewrite Hlen|].
    split; [rewrite lenN_app; replace (a + (lenN e + lenN t)) with (a + lenN e + lenN t) by lia;
            exact Hat''|].
    split.
    + rewrite (H3 starts_cons_rel a p ps e k He). constructor; [|exact Htr].
      cbn [rr_fr snd]. pose proof (at_pos_bpos P HBS_lo HBS_hi Hcrc S fr a Hat).
      pose proof (H2 ffp_ge a). lia.
    + intros l' c rrf Hl'. cbn [combine app].
      change p with (rr_buf (mkRR fr' p false)) at 1.
      eapply RC_rec; [exact Hgo|]. apply Hcont. exact Hl'.
Qed.

(* a run of intact entries followed by the torn entry, when the first go_next
   behaves as a go_next (fuel g) of a reader rr1 positioned at the start r of the run *)
Lemma run_torn r es t x e k j S pre z gofuel :
  encsrel r es t -> encrel (r + lenN t) true x e k -> j < lenN e ->
  S = pre ++ t ++ takeN j e ++ zerosN z -> lenN pre = r -> sok S ->
  lenN t + lenN e + 14 <= 7 * N.of_nat gofuel ->
  forall rr1 g rr,
    atpos S (rr_fr rr1) r -> gonext gofuel rr = gonext g rr1 ->
    lenN t + lenN e + 14 <= 7 * N.of_nat g ->
    bpos P S (fr_rd (rr_fr rr)) <= ffp r ->
    exists rrs xd c rrf pf,
      length rrs = length (es ++ xd) /\
      readsC gofuel rr (combine rrs (es ++ xd)) c rrf /\ (c <= 1)%nat /\
      tr_ok P S rrs (starts r (es ++ xd)) /\
      (xd = [] \/ (xd = [x] /\ all_zero (dropN j e) = true /\ r + lenN t + lenN e <= pf)) /\
      fin_at S (rr_fr rrf) pf /\ r + lenN t <= pf /\
      (forall m, r + lenN t + j <= m * B -> pf <= m * B) /\ resume_ok S pf.
Proof.
  intros Hes He Hj HS Hpre Hok Hgf rr1 g rr Hat Hgo Hg Hb.
  pose proof (H3 StreamProofs.enc_rel_frames _ _ _ _ _ He) as [Hkx _].
  inversion Hes as [a0 Ha0 Hnil Ht | a0 p ps e1 k1 t' He1 Hps Ha0 Hcons Ht]; subst a0 es t.
  - cbn [app] in HS. rewrite (@lenN_nil byte), N.add_0_r in *.
    destruct (torn_tail r x e k j S pre z gofuel He Hj HS Hpre Hok rr1 g rr Hat Hgo)
      as (l & c & rrf & pf & Hrd & Hc & Hl & Hfin & Hpf & Hup & Hres); [lia | lia |].
    destruct Hl as [-> | (-> & Hz & Hend)].
    + exists [], [], c, rrf, pf. cbn [app length combine ResyncProofs.starts].
      repeat split; try assumption; [constructor | left; reflexivity].
    + exists [rr], [x], c, rrf, pf. cbn [app length combine].
      split; [reflexivity|]. split; [exact Hrd|]. split; [exact Hc|]. split.
      { cbn [ResyncProofs.starts]. constructor; [exact Hb | constructor]. }
      split; [right; repeat split; assumption|]. repeat split; assumption.
  - destruct rr1 as [fr1 rbuf1 within1]. cbn [rr_fr] in Hat.
    rewrite <- !app_assoc in HS. rewrite lenN_app in *.
    pose proof (H3 StreamProofs.enc_rel_frames _ _ _ _ _ He1) as [Hk1 _].
    destruct (H3 StreamProofs.go_next_record r true p e1 k1 He1 S pre (t' ++ takeN j e ++ zerosN z)
                fr1 rbuf1 within1 g Hok Hat HS Hpre)
      as (fr' & Hgo' & Hat'); [left; reflexivity | lia |].
    cbn [app] in Hgo'.
    destruct (run_trc (r + lenN e1) ps t' Hps S (pre ++ e1) (takeN j e ++ zerosN z)
                (mkRR fr' p false) gofuel Hok Hat')
      as (rrs & rr' & Hlen & Hat'' & Htr & Hcont).
    { rewrite HS, <- app_assoc. reflexivity. }
    { rewrite lenN_app. lia. }
    { lia. }
    replace (r + (lenN e1 + lenN t')) with (r + lenN e1 + lenN t') in * by lia.
    destruct (torn_tail (r + lenN e1 + lenN t') x e k j S (pre ++ e1 ++ t') z gofuel He Hj)
      with (rr1 := rr') (g := gofuel) (rr := rr')
      as (l & c & rrf & pf & Hrd & Hc & Hl & Hfin & Hpf & Hup & Hres).
    { rewrite HS, <- !app_assoc. reflexivity. }
    { rewrite !lenN_app. lia. }
    { exact Hok. }
    { exact Hat''. }
    { reflexivity. }
    { lia. }
    { lia. }
    assert (Hfirst : forall l0, readsC gofuel rr' l0 c rrf ->
                       readsC gofuel rr ((rr, p) :: combine rrs ps ++ l0) c rrf).
    { intros l0 Hl0. change p with (rr_buf (mkRR fr' p false)) at 1.
      eapply RC_rec; [rewrite Hgo; exact Hgo'|]. apply Hcont. exact Hl0. }
    assert (Hst0 : bpos P S (fr_rd (rr_fr rr)) <= snd (r, ffp r)) by exact Hb.
    destruct Hl as [-> | (-> & Hz & Hend)].
    + exists (rr :: rrs), [], c, rrf, pf. rewrite app_nil_r.
      split; [cbn [length]; now rewrite Hlen|]. split.
      { cbn [combine]. rewrite <- (app_nil_r (combine rrs ps)). apply Hfirst. exact Hrd. }
      split; [exact Hc|]. split.
      { rewrite (H3 starts_cons_rel r p ps e1 k1 He1). constructor; [exact Hst0 | exact Htr]. }
      split; [left; reflexivity|]. repeat split; assumption.
    + exists (rr :: rrs ++ [rr']), [x], c, rrf, pf.
      split; [cbn [length app]; rewrite !app_length, Hlen; reflexivity|]. split.
      { change ((p :: ps) ++ [x]) with (p :: (ps ++ [x])). cbn [combine].
        rewrite combine_app by exact Hlen. cbn [combine]. apply Hfirst. exact Hrd. }
      split; [exact Hc|]. split.
      { change ((p :: ps) ++ [x]) with (p :: (ps ++ [x])).
        rewrite (H3 starts_cons_rel r p (ps ++ [x]) e1 k1 He1).
        constructor; [exact Hst0|].
        rewrite (H3 starts_app). apply Forall2_app; [exact Htr|].
        cbn [ResyncProofs.starts]. constructor; [|constructor]. cbn [snd].
        rewrite (H3 cursor_after_rel _ _ _ Hps).
        pose proof (at_pos_bpos P HBS_lo HBS_hi Hcrc S _ _ Hat'').
        pose proof (H2 ffp_ge (r + lenN e1 + lenN t')). lia. }
      split; [right; repeat split; [exact Hz | lia]|]. repeat split; assumption.
Qed.

Theorem read_from_boundary_torn a es1 es2 t1 t2 x e k j S pre z kb buf0 gofuel :
  encsrel a es1 t1 -> encsrel (a + lenN t1) es2 t2 ->
  encrel (a + lenN t1 + lenN t2) true x e k -> j < lenN e ->
  S = pre ++ (t1 ++ t2) ++ takeN j e ++ zerosN z -> lenN pre = a -> sok S ->
  a <= kb * B -> (kb + 1) * B <= lenN S ->
  Forall (fun s => snd s < kb * B) (starts a es1) ->
  kb * B <= ffp (a + lenN t1) ->
  lenN t1 + lenN t2 + lenN e + 14 <= 7 * N.of_nat gofuel ->
  exists rrs xd c rrf pf,
    length rrs = length (es2 ++ xd) /\
    readsC gofuel (mkRR (rdat S kb 0) buf0 false) (combine rrs (es2 ++ xd)) c rrf /\
    (c <= 1)%nat /\
    tr_ok P S rrs (starts (a + lenN t1) (es2 ++ xd)) /\
    (xd = [] \/
     (xd = [x] /\ all_zero (dropN j e) = true /\ a + lenN t1 + lenN t2 + lenN e <= pf)) /\
    fin_at S (rr_fr rrf) pf /\ a + lenN t1 + lenN t2 <= pf /\
    (forall m, a + lenN t1 + lenN t2 + j <= m * B -> pf <= m * B) /\ resume_ok S pf.
Proof.
  intros Hes1 Hes2 He Hj HS Hpre Hok Ha Hblk Hall Hsuf Hgf.
  pose proof (H3 at_pos_boundary S kb Hblk) as Hat_b.
  assert (Hbp : bpos P S (fr_rd (rdat S kb 0)) = kb * B)
    by (apply (bpos_rd_at P HBS_lo HBS_hi Hcrc); exact Hblk).
  destruct (H3 boundary_cases a es1 t1 kb Hes1 Ha Hall)
    as [HA | (t1' & e1 & e2 & p2 & k2 & Ht1 & Hl & Hrel)].
  - set (a1 := a + lenN t1) in *.
    assert (Hb : kb * B = ffp a1) by (apply (H2 boundary_is_ffp); assumption).
    assert (Hat_a : atpos S (rdat S (a1 / B) (a1 mod B)) a1).
    { pose proof (N.div_mod a1 B) as Hdm. pose proof (H2 StreamProofs.mod_lt_B a1) as Hm.
      exists (a1 / B), (a1 mod B). repeat split; lia. }
    set (fr_a := rdat S (a1 / B) (a1 mod B)) in *.
    assert (Hrf : rframe fr_a = rframe (rdat S kb 0)).
    { apply (H3 TornProofs.at_pos_pad S fr_a a1 kb 0 Hok Hat_a);
        [unfold first_frame_pos in Hb; lia | lia | exact Hblk]. }
    destruct gofuel as [|g0]; [lia|].
    destruct (run_torn a1 es2 t2 x e k j S (pre ++ t1) z (Datatypes.S g0) Hes2 He Hj)
      with (rr1 := mkRR fr_a buf0 false) (g := Datatypes.S g0)
           (rr := mkRR (rdat S kb 0) buf0 false)
      as (rrs & xd & c & rrf & pf & H).
    { rewrite HS, <- !app_assoc. reflexivity. }
    { rewrite lenN_app. lia. }
    { exact Hok. }
    { lia. }
    { exact Hat_a. }
    { apply (TornProofs.gonext_cong P). symmetry. exact Hrf. }
    { lia. }
    { cbn [rr_fr]. rewrite Hbp. lia. }
    exists rrs, xd, c, rrf, pf. exact H.
  - subst t1. rewrite !lenN_app in *.
    destruct (H3 go_next_skip (kb * B) false p2 e2 k2 Hrel eq_refl S (pre ++ t1' ++ e1)
                (t2 ++ takeN j e ++ zerosN z) (rdat S kb 0) Hok Hat_b) as (fr' & Hat' & Hskip).
    { rewrite HS, <- !app_assoc. reflexivity. }
    { rewrite !lenN_app. lia. }
    pose proof (H3 StreamProofs.enc_rel_frames _ _ _ _ _ Hrel) as [Hk2 _].
    destruct (run_torn (a + (lenN t1' + (lenN e1 + lenN e2))) es2 t2 x e k j S
                (pre ++ t1' ++ e1 ++ e2) z gofuel Hes2 He Hj)
      with (rr1 := mkRR fr' buf0 false) (g := (gofuel - k2)%nat)
           (rr := mkRR (rdat S kb 0) buf0 false)
      as (rrs & xd & c & rrf & pf & H).
    { rewrite HS, <- !app_assoc. reflexivity. }
    { rewrite !lenN_app. lia. }
    { exact Hok. }
    { lia. }
    { cbn [rr_fr]. replace (a + (lenN t1' + (lenN e1 + lenN e2))) with (kb * B + lenN e2) by lia.
      exact Hat'. }
    { replace gofuel with (k2 + (gofuel - k2))%nat at 1 by lia. apply Hskip. }
    { lia. }
    { cbn [rr_fr]. rewrite Hbp.
      pose proof (H2 ffp_ge (a + (lenN t1' + (lenN e1 + lenN e2)))). lia. }
    exists rrs, xd, c, rrf, pf. exact H.
Qed.

(* the entries delivered from block kb of S = pre ++ t ++ (torn x) ++ zeros: those of es
   whose first frame is at or after the boundary, then possibly x itself *)
Theorem read_delivered_torn a es t x e k j S pre z kb buf0 gofuel :
  encsrel a es t -> encrel (a + lenN t) true x e k -> j < lenN e ->
  S = pre ++ t ++ takeN j e ++ zerosN z -> lenN pre = a -> sok S ->
  a <= kb * B -> (kb + 1) * B <= lenN S -> kb * B <= ffp (a + lenN t) ->
  lenN t + lenN e + 14 <= 7 * N.of_nat gofuel ->
  exists rrs xd c rrf pf,
    length rrs = length (delivered_from (kb * B) a es ++ xd) /\
    readsC gofuel (mkRR (rdat S kb 0) buf0 false)
           (combine rrs (delivered_from (kb * B) a es ++ xd)) c rrf /\
    (c <= 1)%nat /\
    tr_ok P S rrs (starts (cursor_after a (skipped_before (kb * B) a es))
                          (delivered_from (kb * B) a es ++ xd)) /\
    (xd = [] \/ (xd = [x] /\ all_zero (dropN j e) = true /\ a + lenN t + lenN e <= pf)) /\
    fin_at S (rr_fr rrf) pf /\ a + lenN t <= pf /\
    (forall m, a + lenN t + j <= m * B -> pf <= m * B) /\ resume_ok S pf.
Proof.
  intros Hes He Hj HS Hpre Hok Ha Hblk Hsuf Hgf.
  pose proof (skipped_delivered P (kb * B) es a) as Hsplit.
  pose proof (skipped_starts P (kb * B) es a) as Hss.
  pose proof (H3 delivered_head (kb * B) es a) as Hhead.
  set (es1 := skipped_before (kb * B) a es) in *.
  set (es2 := delivered_from (kb * B) a es) in *.
  clearbody es1 es2.
  rewrite Hsplit in Hes.
  destruct (H3 encs_rel_app_inv es1 a es2 t Hes) as (t1 & t2 & -> & Hes1 & Hes2).
  rewrite lenN_app in *.
  replace (a + (lenN t1 + lenN t2)) with (a + lenN t1 + lenN t2) in * by lia.
  rewrite (H3 cursor_after_rel _ _ _ Hes1) in *.
  apply (read_from_boundary_torn a es1 es2 t1 t2 x e k j S pre z kb buf0 gofuel);
    try assumption; try lia.
  destruct es2 as [|p2 ps2].
  - inversion Hes2; subst. rewrite (@lenN_nil byte), N.add_0_r in Hsuf. exact Hsuf.
  - apply Hhead. discriminate.
Qed.

(* along a trace the reader never goes back *)
Local Notation rest rr := (lenN (vr_rest (fr_rd (rr_fr rr)))).

Lemma reads_trc_rest g rr l c rrf :
  readsC g rr l c rrf ->
  rest rrf <= rest rr /\
  Forall (fun x => rest (fst x) <= rest rr /\ rest rrf <= rest (fst x)) l /\
  StronglySorted (fun x y => rest (fst y) <= rest (fst x)) l.
Proof.
  induction 1 as [rr rr' Hgo | rr rr' l c rrf Hgo Htr (IH1 & IH2 & IH3)
                 | rr rr' l c rrf Hgo Htr (IH1 & IH2 & IH3)].
  - pose proof (H2 go_next_rest g rr) as H. rewrite Hgo in H. cbn [fst] in H.
    split; [exact H|]. split; constructor.
  - pose proof (H2 go_next_rest g rr) as H. rewrite Hgo in H. cbn [fst] in H.
    split; [lia|]. split.
    + constructor; [cbn [fst]; lia|].
      eapply Forall_impl; [|exact IH2]. cbn beta. intros x [Hx1 Hx2]. lia.
    + constructor; [exact IH3|].
      eapply Forall_impl; [|exact IH2]. cbn beta. cbn [fst]. intros x [Hx1 Hx2]. lia.
  - pose proof (H2 go_next_rest g rr) as H. rewrite Hgo in H. cbn [fst] in H.
    split; [lia|]. split; [|exact IH3].
    eapply Forall_impl; [|exact IH2]. cbn beta. intros x [Hx1 Hx2]. lia.
Qed.

(* the clean end of OpenReplay in the same vocabulary *)
Lemma at_end_fin S written z fr e :
  S = written ++ zerosN z -> lenN written <= e -> at_end P S fr e ->
  exists pf, fin_at S fr pf /\ e <= pf /\ pf <= ffp e /\ resume_ok S pf.
Proof.
  intros HS Hw (k & c & -> & Hblk & Hc & Hcase).
  exists (k * B + c).
  assert (Hz : forall q, e <= q -> all_zero (dropN q S) = true).
  { intros q Hq. rewrite HS, dropN_app_ge by lia. apply all_zero_dropN, all_zero_zerosN. }
  pose proof (H2 ffp_ge e) as Hge.
  split; [exists k, c, false; repeat split; assumption|].
  destruct Hcase as [[Hp Hc7] | (Hp & Hc7 & Hlast)].
  - split; [lia|]. split; [lia|]. left. apply Hz. lia.
  - split; [lia|]. split; [lia|]. left. apply Hz. lia.
Qed.

End Stream.

Section Replay.
Variable P : params.
Local Notation readsFc := (reads_trc P (rd_next P) rd_block).

Theorem replay_loop_fold_c g rr l c rrf :
  readsFc g rr l c rrf ->
  forall es, Forall2 (fun x e => entry_deser (snd x) = Some e) l es ->
  forall fuel qs, (length l + c < fuel)%nat ->
  match replay_entries qs (combine (tags_of l) es) with
  | Some qs' => replay_loop P fuel g rr qs = (rrf, RpDone qs')
  | None => exists rr', replay_loop P fuel g rr qs = (rr', RpCorruption)
  end.
Proof.
  induction 1 as [rr rr' Hgo | rr rr' l c rrf Hgo Htr IH | rr rr' l c rrf Hgo Htr IH];
    intros es Hes fuel qs Hf;
    (destruct fuel as [|fuel]; [cbn [length] in Hf; lia|]); rewrite replay_loop_S; cbv zeta;
    rewrite Hgo.
  - inversion Hes; subst. cbn [tags_of map combine replay_entries]. reflexivity.
  - inversion Hes as [|x e l0 es0 He Hes0]; subst. cbn [snd] in He. rewrite He.
    cbn [tags_of map combine replay_entries fst]. fold (tag_of rr).
    destruct (apply_entry qs (tag_of rr) e) as [qs1|].
    + cbn [length] in Hf. apply IH; [exact Hes0 | lia].
    + exists rr'. reflexivity.
  - apply IH; [exact Hes | lia].
Qed.
End Replay.

Section Shift.
Variable P : params.
Hypothesis HBS_lo : 7 < BS P.
Hypothesis HBS_hi : BS P <= 65542.
Hypothesis Hcrc : forall t p, crcf P t p < 2 ^ 32.
Local Notation B := (BS P).
Local Notation ffp := (first_frame_pos P).
Local Notation encof := (enc_of P).
Local Notation encsof := (encs_of P).
Local Notation H3 f := (f P HBS_lo HBS_hi Hcrc) (only parsing).
Local Notation H2 f := (f P HBS_lo HBS_hi) (only parsing).

(* a cursor c inside the padding that the next frame written at a starts with *)
Lemma ffp_between a c : a <= c -> c <= ffp a -> ffp c = ffp a.
Proof. exact (H2 ffp_between_r a c). Qed.

Lemma pad_split a c : a <= c -> c <= ffp a -> pad_of P a = zerosN (c - a) ++ pad_of P c.
Proof.
  intros Hac Hc. rewrite !(H2 pad_of_zeros), (ffp_between a c Hac Hc), <- BytesProofs.zerosN_app.
  f_equal. lia.
Qed.

Lemma enc_of_shift a c p : a <= c -> c <= ffp a -> encof a p = zerosN (c - a) ++ encof c p.
Proof.
  intros Hac Hc. rewrite (H3 enc_of_ffp_eq a p), (H3 enc_of_ffp_eq c p), (ffp_between a c Hac Hc).
  rewrite (pad_split a c Hac Hc), <- app_assoc. reflexivity.
Qed.

Lemma encs_of_shift a c es : a <= c -> c <= ffp a -> es <> [] ->
  encsof a es = zerosN (c - a) ++ encsof c es.
Proof.
  intros Hac Hc Hne. rewrite (H3 encs_of_ffp_eq a es Hne), (H3 encs_of_ffp_eq c es Hne).
  rewrite (ffp_between a c Hac Hc), (pad_split a c Hac Hc), <- app_assoc. reflexivity.
Qed.

(* the first-frame positions do not depend on where in the padding the writer started *)
Lemma starts_shift a c es : a <= c -> c <= ffp a ->
  map snd (starts P c es) = map snd (starts P a es).
Proof.
  intros Hac Hc. rewrite <- (H3 starts_ffp c es), <- (H3 starts_ffp a es).
  rewrite (ffp_between a c Hac Hc). reflexivity.
Qed.

Lemma cut_split xs : forall c j, j <= lenN (encsof c xs) ->
  j = lenN (encsof c xs) \/
  exists xs1 x xs2,
    xs = xs1 ++ x :: xs2 /\ lenN (encsof c xs1) <= j /\
    j < lenN (encsof c xs1) + lenN (encof (c + lenN (encsof c xs1)) x) /\
    takeN j (encsof c xs) =
      encsof c xs1 ++ takeN (j - lenN (encsof c xs1)) (encof (c + lenN (encsof c xs1)) x).
Proof.
  induction xs as [|p ps IH]; intros c j Hj; cbn [encs_of] in *.
  - left. rewrite (@lenN_nil byte) in *. lia.
  - rewrite lenN_app in Hj.
    destruct (N.lt_ge_cases j (lenN (encof c p))) as [Hlt|Hge].
    + right. exists [], p, ps. cbn [encs_of app]. rewrite (@lenN_nil byte), N.add_0_r, N.sub_0_r.
      repeat split; try lia. apply takeN_app_le. lia.
    + destruct (IH (c + lenN (encof c p)) (j - lenN (encof c p)) ltac:(lia))
        as [Hend | (xs1 & x & xs2 & Hxs & Hle & Hlt & Htk)].
      * left. rewrite lenN_app. lia.
      * right. exists (p :: xs1), x, xs2. cbn [encs_of app]. rewrite lenN_app.
        replace (c + (lenN (encof c p) + lenN (encsof (c + lenN (encof c p)) xs1)))
          with (c + lenN (encof c p) + lenN (encsof (c + lenN (encof c p)) xs1)) by lia.
        split; [rewrite Hxs; reflexivity|]. split; [lia|]. split; [lia|].
        rewrite takeN_app_ge by lia. rewrite Htk, <- app_assoc. do 3 f_equal. lia.
Qed.

Lemma delivered_from_app b es1 : forall a es2,
  b <= ffp (cursor_after P a es1) ->
  delivered_from P b a (es1 ++ es2) = delivered_from P b a es1 ++ es2 /\
  skipped_before P b a (es1 ++ es2) = skipped_before P b a es1.
Proof.
  induction es1 as [|p ps IH]; intros a es2 Hb.
  - rewrite (H2 cursor_after_nil) in Hb. cbn [app delivered_from skipped_before].
    destruct es2 as [|q qs]; cbn [delivered_from skipped_before]; [split; reflexivity|].
    destruct (N.leb_spec b (ffp a)) as [_|Hgt]; [split; reflexivity | lia].
  - rewrite (H3 cursor_after_cons) in Hb. cbn [app delivered_from skipped_before].
    destruct (N.leb_spec b (ffp a)) as [_|Hgt]; [split; reflexivity|].
    destruct (IH (a + lenN (encof a p)) es2 Hb) as [E1 E2]. rewrite E1, E2. split; reflexivity.
Qed.

(* T = encoding of es_all from 0; the writer, at cursor c0 inside the padding after T, was
   writing xs; j bytes of that are there.  Either nothing is torn (the body is the complete
   encoding of es_all ++ xs, possibly followed by padding zeros), or an entry x of xs is torn:
   the body is the complete encoding of es_all ++ xs1 followed by j' bytes of the encoding e of
   x written at the cursor where that encoding ends. *)
Lemma torn_normal (T : bytes) c0 es_all xs j :
  encs_rel P 0 es_all T -> lenN T <= c0 -> c0 <= ffp (lenN T) -> j <= lenN (encsof c0 xs) ->
  let body := T ++ zerosN (c0 - lenN T) ++ takeN j (encsof c0 xs) in
  (j = lenN (encsof c0 xs) /\
   exists z0, body = encsof 0 (es_all ++ xs) ++ zerosN z0 /\
              (xs <> [] -> z0 = 0 /\ lenN (encsof 0 (es_all ++ xs)) = c0 + lenN (encsof c0 xs)) /\
              (xs = [] -> lenN T + z0 = c0)) \/
  (exists xs1 x xs2 j',
     xs = xs1 ++ x :: xs2 /\
     let t := encsof 0 (es_all ++ xs1) in
     let e := encof (lenN t) x in
     let ex := encof (c0 + lenN (encsof c0 xs1)) x in
     j' < lenN e /\ body = t ++ takeN j' e /\ lenN t + j' = c0 + j /\
     lenN (encsof c0 xs1) <= j /\ j < lenN (encsof c0 xs1) + lenN ex /\
     dropN j' e = dropN (j - lenN (encsof c0 xs1)) ex /\
     lenN t + lenN e = c0 + lenN (encsof c0 xs1) + lenN ex /\
     lenN T <= lenN t /\ lenN t <= c0 + lenN (encsof c0 xs1) /\ c0 <= ffp (lenN t) /\
     (xs1 <> [] -> lenN t = c0 + lenN (encsof c0 xs1))).
Proof.
  intros HT Hlo Hhi Hj body.
  pose proof (H3 encs_rel_encs_of _ _ _ HT) as ET.
  assert (Eapp : forall ys, ys <> [] ->
            encsof 0 (es_all ++ ys) = T ++ zerosN (c0 - lenN T) ++ encsof c0 ys).
  { intros ys Hne. rewrite (H3 encs_of_app), ET, N.add_0_l.
    rewrite (encs_of_shift (lenN T) c0 ys Hlo Hhi Hne). reflexivity. }
  destruct (cut_split xs c0 j Hj) as [Hend | (xs1 & x & xs2 & Hxs & Hle & Hlt & Htk)].
  - left. split; [exact Hend|]. unfold body. rewrite Hend, takeN_all by lia.
    destruct xs as [|p ps].
    + exists (c0 - lenN T). cbn [encs_of]. rewrite !app_nil_r, ET.
      split; [reflexivity|]. split; [congruence | intros _; lia].
    + exists 0. rewrite (Eapp (p :: ps)) by discriminate. cbn [zerosN]. rewrite !app_nil_r.
      split; [reflexivity|]. split; [|discriminate]. intros _. split; [reflexivity|].
      rewrite !lenN_app, lenN_zerosN. lia.
  - right.
    destruct xs1 as [|p1 ps1].
    + (* the first entry of xs is the torn one: its encoding from lenN T starts with the padding *)
      exists [], x, xs2, (c0 - lenN T + j). split; [exact Hxs|].
      cbn [encs_of] in *. rewrite (@lenN_nil byte), N.add_0_r, N.sub_0_r in *.
      rewrite !app_nil_r, ET. cbv zeta.
      rewrite (enc_of_shift (lenN T) c0 x Hlo Hhi).
      rewrite !lenN_app, lenN_zerosN.
      split; [lia|]. split.
      { unfold body. rewrite Htk. cbn [app]. rewrite takeN_app_ge by (rewrite lenN_zerosN; lia).
        rewrite lenN_zerosN. do 3 f_equal. lia. }
      split; [lia|]. split; [lia|]. split; [lia|]. split.
      { rewrite dropN_app_ge by (rewrite lenN_zerosN; lia). rewrite lenN_zerosN. f_equal. lia. }
      split; [lia|]. split; [lia|]. split; [lia|]. split; [exact Hhi | congruence].
    + exists (p1 :: ps1), x, xs2, (j - lenN (encsof c0 (p1 :: ps1))). split; [exact Hxs|].
      cbv zeta. rewrite (Eapp (p1 :: ps1)) by discriminate.
      set (t1 := encsof c0 (p1 :: ps1)) in *.
      assert (Elen : lenN (T ++ zerosN (c0 - lenN T) ++ t1) = c0 + lenN t1).
      { rewrite !lenN_app, lenN_zerosN. lia. }
      rewrite Elen.
      split; [lia|]. split.
      { unfold body. rewrite Htk, <- !app_assoc. reflexivity. }
      split; [lia|]. split; [lia|]. split; [lia|]. split; [reflexivity|].
      split; [lia|]. split; [lia|]. split; [lia|]. split; [|intros _; reflexivity].
      pose proof (H2 ffp_ge (c0 + lenN t1)). lia.
Qed.

End Shift.

Section StreamSetting.
Variable P : params.
Hypothesis HBS_lo : 7 < BS P.
Hypothesis HBS_hi : BS P <= 65542.
Hypothesis Hcrc : forall t p, crcf P t p < 2 ^ 32.
Hypothesis Hnc : no_zero_collision P.
Local Notation B := (BS P).
Local Notation ffp := (first_frame_pos P).
Local Notation encof := (enc_of P).
Local Notation encsof := (encs_of P).
Local Notation readsC := (reads_trc P (vr_next P) vr_block).
Local Notation H3 f := (f P HBS_lo HBS_hi Hcrc) (only parsing).
Local Notation H2 f := (f P HBS_lo HBS_hi) (only parsing).

Lemma lenN_encs_snoc' c xs1 x :
  lenN (encsof c (xs1 ++ [x])) = lenN (encsof c xs1) + lenN (encof (c + lenN (encsof c xs1)) x).
Proof. rewrite (H3 encs_of_app), lenN_app. cbn [encs_of]. rewrite app_nil_r. reflexivity. Qed.

Lemma lenN_encs_mid c xs1 x xs2 :
  lenN (encsof c (xs1 ++ [x])) <= lenN (encsof c (xs1 ++ x :: xs2)).
Proof.
  rewrite !(H3 encs_of_app), !lenN_app. cbn [encs_of]. rewrite app_nil_r, lenN_app. lia.
Qed.

(* Reading, from block kb, the stream  T ++ zeros(c0 - |T|) ++ (first j bytes of TX) ++ zeros:
   the entries of es_all delivered from the boundary, then the entries xs1 of xs completely
   contained in the first j bytes, then — for the entry x in flight — nothing, or one
   Corruption, or x itself (only when the missing bytes of its encoding are all zero), then
   the end; the reader stops at a resume point pf. *)
Theorem read_torn_stream (T : bytes) c0 es_all xs j z kb buf0 gofuel (S : bytes) :
  encs_rel P 0 es_all T -> lenN T <= c0 -> c0 <= ffp (lenN T) ->
  j <= lenN (encsof c0 xs) ->
  S = T ++ zerosN (c0 - lenN T) ++ takeN j (encsof c0 xs) ++ zerosN z ->
  stream_ok P S -> (kb + 1) * B <= lenN S -> kb * B <= c0 ->
  c0 + lenN (encsof c0 xs) + 22 <= 7 * N.of_nat gofuel ->
  exists xs1 xr xd rrs c rrf pf,
    xs = xs1 ++ xr /\ lenN (encsof c0 xs1) <= j /\
    match xr with
    | [] => j = lenN (encsof c0 xs)
    | x :: _ => j < lenN (encsof c0 (xs1 ++ [x]))
    end /\
    (xd = xs1 \/
     exists x xs2, xr = x :: xs2 /\ xd = xs1 ++ [x] /\
                   all_zero (dropN j (encsof c0 (xs1 ++ [x]))) = true) /\
    length rrs = length (delivered_from P (kb * B) 0 es_all ++ xd) /\
    readsC gofuel (mkRR (rd_at P S kb 0) buf0 false)
           (combine rrs (delivered_from P (kb * B) 0 es_all ++ xd)) c rrf /\
    (c <= 1)%nat /\
    tr_ok P S rrs (starts P (cursor_after P 0 (skipped_before P (kb * B) 0 es_all))
                          (delivered_from P (kb * B) 0 es_all ++ xd)) /\
    fin_at P S (rr_fr rrf) pf /\
    lenN T <= pf /\ (xd <> [] -> c0 + lenN (encsof c0 xd) <= pf) /\
    (forall m, c0 + j <= m * B -> kb * B <= m * B -> pf <= m * B) /\
    resume_ok P S pf.
Proof.
  intros Henc Hlo Hhi Hj HS Hok Hblk Hb Hgf.
  assert (Hbf : kb * B <= ffp (cursor_after P 0 es_all)).
  { rewrite (H3 cursor_after_rel _ _ _ Henc), N.add_0_l. lia. }
  destruct (torn_normal P HBS_lo HBS_hi Hcrc T c0 es_all xs j Henc Hlo Hhi Hj)
    as [(Hend & z0 & Hbody & Hne & Hnil)
       | (xs1 & x & xs2 & j' & Hxs & Hj' & Hbody & Hcj & Hle & Hlt & Hdrop & Hlen & HTt & Htc & Hct & Hne1)].
  - (* nothing is torn *)
    set (t := encsof 0 (es_all ++ xs)) in *.
    assert (HS' : S = [] ++ t ++ zerosN (z0 + z)).
    { rewrite HS. cbn [app]. rewrite (BytesProofs.zerosN_app z0 z), (app_assoc t), <- Hbody, <- !app_assoc.
      reflexivity. }
    destruct (delivered_from_app P HBS_lo HBS_hi Hcrc (kb * B) es_all 0 xs Hbf) as [Edel Eskip].
    assert (Hlt_le : lenN t <= c0 + j /\ lenN T <= lenN t /\
                     (xs <> [] -> c0 + lenN (encsof c0 xs) <= lenN t)).
    { destruct xs as [|x0 xs0].
      - specialize (Hnil eq_refl). unfold t. rewrite app_nil_r.
        rewrite (H3 encs_rel_encs_of _ _ _ Henc). split; [lia|]. split; [lia | congruence].
      - destruct (Hne ltac:(discriminate)) as [_ Hl]. fold t in Hl.
        split; [lia|]. split; [lia|]. intros _. lia. }
    destruct Hlt_le as (Ht1 & Ht2 & Ht3).
    assert (Hg1 : 0 <= kb * B) by apply N.le_0_l.
    assert (Hg3 : lenN t + 7 <= 7 * N.of_nat gofuel) by lia.
    destruct (read_delivered_tr P HBS_lo HBS_hi Hcrc 0 (es_all ++ xs) t S [] (z0 + z) kb buf0 gofuel
                (H3 encs_of_rel _ _) HS' eq_refl Hok Hg1 Hblk Hg3)
      as (rrs & rrf & Hlen & Hrd & Htr & Hendp).
    rewrite N.add_0_l, Edel, Eskip in *.
    destruct (at_end_fin P HBS_lo HBS_hi Hcrc S t (z0 + z) (rr_fr rrf) (N.max (kb * B) (lenN t))
                HS' ltac:(lia) Hendp) as (pf & Hfin & Hpflo & Hpfhi & Hres).
    exists xs, [], xs, rrs, 0%nat, rrf, pf.
    split; [rewrite app_nil_r; reflexivity|]. split; [lia|]. split; [exact Hend|].
    split; [left; reflexivity|]. split; [exact Hlen|].
    split; [apply reads_tr_trc; exact Hrd|]. split; [lia|].
    split; [exact Htr|]. split; [exact Hfin|]. split; [lia|].
    split; [intros Hx; specialize (Ht3 Hx); lia|]. split; [|exact Hres].
    intros m Hm Hbm. apply N.le_trans with (ffp (N.max (kb * B) (lenN t))); [exact Hpfhi|].
    apply (H2 ffp_le_boundary). lia.
  - (* the entry x is torn *)
    set (t := encsof 0 (es_all ++ xs1)) in *.
    set (e := encof (lenN t) x) in *.
    set (ex := encof (c0 + lenN (encsof c0 xs1)) x) in *.
    assert (HS' : S = [] ++ t ++ takeN j' e ++ zerosN z).
    { rewrite HS. cbn [app]. rewrite (app_assoc t), <- Hbody, <- !app_assoc. reflexivity. }
    destruct (H3 enc_of_rel (lenN t) x) as [k Hk]. fold e in Hk.
    rewrite <- (N.add_0_l (lenN t)) in Hk.
    destruct (delivered_from_app P HBS_lo HBS_hi Hcrc (kb * B) es_all 0 xs1 Hbf) as [Edel Eskip].
    pose proof (lenN_encs_snoc' c0 xs1 x) as Hsnoc. fold ex in Hsnoc.
    pose proof (lenN_encs_mid c0 xs1 x xs2) as Hmid. rewrite <- Hxs in Hmid.
    assert (Hg1 : 0 <= kb * B) by apply N.le_0_l.
    assert (Hg2 : kb * B <= ffp (0 + lenN t)) by (rewrite N.add_0_l; lia).
    assert (Hg3 : lenN t + lenN e + 14 <= 7 * N.of_nat gofuel) by lia.
    destruct (read_delivered_torn P HBS_lo HBS_hi Hcrc Hnc 0 (es_all ++ xs1) t x e k j' S [] z kb
                buf0 gofuel (H3 encs_of_rel _ _) Hk Hj' HS' eq_refl Hok Hg1 Hblk Hg2 Hg3)
      as (rrs & xd' & c & rrf & pf & Hlenr & Hrd & Hc & Htr & Hxd & Hfin & Hpf & Hup & Hres).
    rewrite N.add_0_l, Edel, Eskip, <- !app_assoc in *.
    exists xs1, (x :: xs2), (xs1 ++ xd'), rrs, c, rrf, pf.
    split; [exact Hxs|]. split; [exact Hle|]. split; [rewrite Hsnoc; exact Hlt|].
    split.
    { destruct Hxd as [-> | (-> & Hz & _)]; [left; apply app_nil_r|].
      right. exists x, xs2. split; [reflexivity|]. split; [reflexivity|].
      rewrite (H3 encs_of_app). cbn [encs_of].
      rewrite app_nil_r, dropN_app_ge by exact Hle. fold ex. rewrite <- Hdrop. exact Hz. }
    split; [exact Hlenr|]. split; [exact Hrd|]. split; [exact Hc|].
    split; [exact Htr|]. split; [exact Hfin|]. split; [lia|]. split.
    { intros Hne. destruct Hxd as [-> | (-> & _ & Hend)].
      - rewrite app_nil_r in *. rewrite <- Hne1; [exact Hpf | exact Hne].
      - rewrite Hsnoc. lia. }
    split; [intros m Hm _; apply Hup; lia | exact Hres].
Qed.

End StreamSetting.

Lemma fs_put_same fs k e : fs_get fs k = Some e -> fs_put fs k e = fs.
Proof.
  induction fs as [|[n0 e0] r IH]; cbn [fs_get fs_put]; [discriminate|].
  destruct (bytes_eqb n0 k).
  - intros H. injection H as ->. reflexivity.
  - intros H. f_equal. apply IH. exact H.
Qed.

Lemma set_len_ext (c : bytes) n : lenN c <= n -> set_len c n = c ++ zerosN (n - lenN c).
Proof.
  intros Hle. unfold set_len. destruct (N.leb_spec n (lenN c)) as [H|H]; [|reflexivity].
  replace (n - lenN c) with 0 by lia. cbn [zerosN]. rewrite app_nil_r. apply takeN_all. lia.
Qed.

Lemma iota_snoc m : forall lo, iota lo (Datatypes.S m) = iota lo m ++ [lo + N.of_nat m].
Proof.
  induction m as [|m IH]; intros lo.
  - cbn [iota app]. f_equal. lia.
  - change (iota lo (Datatypes.S (Datatypes.S m))) with (lo :: iota (lo + 1) (Datatypes.S m)).
    rewrite IH. cbn [iota app]. do 2 f_equal. f_equal. lia.
Qed.

Section Files.
Variable P : params.
Hypothesis HBS_lo : 7 < BS P.
Hypothesis HBS_hi : BS P <= 65542.
Hypothesis HNB : 1 <= NB P.
Hypothesis Hcrc : forall t p, crcf P t p < 2 ^ 32.
Local Notation B := (BS P).
Local Notation FB := (FILE_BYTES P).
Local Notation ffp := (first_frame_pos P).
Local Notation readsC := (reads_trc P (vr_next P) vr_block).
Local Notation readsFc := (reads_trc P (rd_next P) rd_block).
Local Notation gonextF := (go_next P rreaderS (rd_next P) rd_block).
Local Notation gonextV := (go_next P vecr (vr_next P) vr_block).
Local Notation H3 f := (f P HBS_lo HBS_hi Hcrc) (only parsing).
Local Notation H2 f := (f P HBS_lo HBS_hi) (only parsing).
Local Notation HN f := (f P HBS_lo HBS_hi HNB) (only parsing).

(* position in the stream numbered from file `base` of cursor c1 in block j of file lo + i *)
Lemma tags_pos (base lo f off i j k c1 : N) :
  base <= lo -> f = lo + i -> off = j * B + c1 -> k = (lo - base) * NB P + i * NB P + j ->
  (f - base) * FB + off = k * B + c1.
Proof using HBS_lo HBS_hi HNB.
  intros Hbase -> -> ->. replace (lo + i - base) with ((lo - base) + i) by lia.
  rewrite (HN FB_eq). lia.
Qed.

(* a directory whose files all have the full size *)
Section DirFull.
Variable fs : fsT.
Variable lo : N.
Variable n : nat.
Local Notation files := (iota lo (Datatypes.S n)).
Local Notation cur := (lo + N.of_nat n).
Hypothesis Hfull : forall f, In f files ->
  exists b, fs_get fs (filename f) = Some (FFile b) /\ lenN b = FB.

Local Notation St := (stream_of fs files).
Local Notation rsim := (rd_rel P fs files).
Local Notation rrsim := (rr_sim rreaderS vecr rsim).
Local Notation HD f := (f P HBS_lo HBS_hi HNB fs lo n Hfull) (only parsing).

Lemma reads_trc_FV g rrV l c rrfV :
  readsC g rrV l c rrfV -> forall rrF, rrsim rrF rrV ->
  exists lF rrfF,
    readsFc g rrF lF c rrfF /\
    Forall2 (fun x y => rrsim (fst x) (fst y) /\ snd x = snd y) lF l /\
    rrsim rrfF rrfV.
Proof.
  induction 1 as [rrV rrV' Hgo | rrV rrV' l c rrfV Hgo Htr IH | rrV rrV' l c rrfV Hgo Htr IH];
    intros rrF Hsim;
    destruct (go_next_FV P HBS_lo HBS_hi HNB fs files (iota_sorted _ _) Hfull g rrF rrV Hsim)
      as [Hres Hsim'];
    rewrite Hgo in Hres, Hsim'; cbn [fst snd] in Hres, Hsim';
    destruct (gonextF g rrF) as [rrF' r'] eqn:EgoF; cbn [fst snd] in Hres, Hsim'; subst r'.
  - exists [], rrF'. split; [apply RC_end; exact EgoF|]. split; [constructor | exact Hsim'].
  - destruct (IH rrF' Hsim') as (lF & rrfF & HtrF & Hall & Hfin).
    exists ((rrF, rr_buf rrF') :: lF), rrfF. split; [eapply RC_rec; eassumption|].
    split; [|exact Hfin]. constructor; [|exact Hall]. cbn [fst snd].
    split; [exact Hsim|]. destruct Hsim' as (_ & Hbuf & _). exact Hbuf.
  - destruct (IH rrF' Hsim') as (lF & rrfF & HtrF & Hall & Hfin).
    exists lF, rrfF. split; [eapply RC_cor; eassumption|]. split; assumption.
Qed.

(* `open` of a directory fs0 whose reader rd delivers the trace lF: the replay of lF *)
Lemma open_of_files_trace F fs0 c0 rd lF c rrfF Ds pol hint :
  L_IO P = false ->
  rd_open P (ctx_init fs0 None) = (c0, Ok rd) ->
  readsFc F (rr_open rreaderS rd) lF c rrfF ->
  map snd lF = map entry_ser Ds -> Forall wf_entry Ds -> (length Ds + c < F)%nat ->
  match replay_entries [] (combine (tags_of lF) Ds) with
  | Some qs =>
      open P fs0 None pol hint =
      open_finish P (rd_into_writer P (fr_rd (rr_fr rrfF)) (fr_cursor (rr_fr rrfF))) qs pol hint
  | None => exists c', open P fs0 None pol hint = OpenCorruption c'
  end.
Proof.
  intros Hio Hopen HrdF Hsnd Hwf HF.
  assert (Hdeser : Forall2 (fun x e0 => entry_deser (snd x) = Some e0) lF Ds)
    by (apply deser_of_map_snd; assumption).
  assert (HlF : length lF = length Ds).
  { apply (f_equal (@length bytes)) in Hsnd. rewrite !map_length in Hsnd. exact Hsnd. }
  pose proof (replay_loop_fold_c P F _ _ _ _ HrdF Ds Hdeser F [] ltac:(lia)) as Hfold.
  destruct (replay_entries [] (combine (tags_of lF) Ds)) as [qs|].
  - apply (HD open_fuel_elim F); [exact Hio | | apply open_finish_not_fuel].
    unfold open_with. rewrite Hopen, Hfold. reflexivity.
  - destruct Hfold as [rr' Hfold]. exists (reader_ctx rr').
    apply (HD open_fuel_elim F); [exact Hio | | discriminate].
    unfold open_with. rewrite Hopen, Hfold. reflexivity.
Qed.

(* The ghost setting: the WAL is one byte stream S_all numbered from file `base`; the directory
   holds the files lo..cur, which are the tail of S_all from the block boundary
   (lo - base) * FILE. *)
Section Kept.
Variables (base : N) (S_all : bytes).
Hypothesis Hbase : base <= lo.
Hypothesis HSt : St = dropN ((lo - base) * FB) S_all.
Hypothesis HlenS : lenN S_all = (cur - base + 1) * FB.

Local Notation b := ((lo - base) * FB).
Local Notation kb := ((lo - base) * NB P).

(* what `open` builds from a trace: the files `tags` the delivered entries are attributed to
   (sts: their (start cursor, first-frame position)), and the writer w0 made of the final
   reader, at the absolute byte position pf *)
Definition fspec (fsx : fsT) (w0 : rwriter) (tags : list N) (sts : list (N * N)) (pf : N) : Prop :=
  length tags = length sts /\
  Forall2 (fun f s => (f - base) * FB <= snd s) tags sts /\
  StronglySorted N.le tags /\
  Forall (fun f => lo <= f /\ f <= w_file w0) tags /\
  w_files w0 = files /\ lo <= w_file w0 /\ w_file w0 <= cur /\ w_off w0 <= FB /\
  (w_file w0 - base) * FB + w_off w0 = pf /\
  w_pending w0 = [] /\ c_fs (w_ctx w0) = fsx /\ c_plan (w_ctx w0) = None.

Lemma Hkb : kb * B = b.
Proof. rewrite (HN FB_eq). lia. Qed.

(* a vecr trace (with Corruption steps) from the boundary, seen on the rolling files: the
   simulation, and what it says of the tags and of the writer w0 made of the final reader,
   wherever that reader stands *)
Lemma trace_sim g rd rrs ds c rrfV :
  rsim rd (vec_at P fs files 0) ->
  length rrs = length ds ->
  readsC g (mkRR (rd_at P S_all kb 0) [] false) (combine rrs ds) c rrfV ->
  exists lF rrfF w0,
    readsFc g (rr_open rreaderS rd) lF c rrfF /\
    map snd lF = ds /\
    w0 = rd_into_writer P (fr_rd (rr_fr rrfF)) (fr_cursor (rr_fr rrfF)) /\
    Forall2 (fun x y => rrsim (fst x) (fst y) /\ snd x = snd y) lF (combine rrs ds) /\
    rrsim rrfF rrfV /\
    length (tags_of lF) = length ds /\
    StronglySorted N.le (tags_of lF) /\
    Forall (fun f => lo <= f /\ f <= w_file w0) (tags_of lF) /\
    w_files w0 = files /\ lo <= w_file w0 /\ w_file w0 <= cur /\
    w_pending w0 = [] /\ c_fs (w_ctx w0) = fs /\ c_plan (w_ctx w0) = None.
Proof.
  intros Hrel Hlen HrdV.
  pose proof Hkb as Hkb.
  pose proof (rr_open_sim rreaderS vecr rsim rd _ Hrel) as Hsim0.
  assert (Hstart : rr_open vecr (vec_at P fs files 0) = mkRR (rd_at P S_all kb 0) [] false).
  { unfold rr_open, fr_open. f_equal.
    change (mkFR (vec_at P fs files 0) 0 false) with (rd_at P St 0 0).
    rewrite HSt. rewrite <- Hkb, (rd_at_drop P HBS_lo HBS_hi HNB Hcrc). f_equal. lia. }
  rewrite Hstart in Hsim0.
  destruct (reads_trc_FV g _ _ _ _ HrdV _ Hsim0) as (lF & rrfF & HrdF & Hall & Hfin).
  pose proof (Forall2_length' _ _ _ Hall) as HlenF.
  rewrite combine_length, Hlen, Nat.min_id in HlenF.
  destruct (reads_trc_rest P HBS_lo HBS_hi g _ _ _ _ HrdV) as (_ & Hrest_all & Hrest_sorted).
  destruct (HD rd_rel_idx _ _ (proj1 (proj1 Hfin))) as ((Hcfs & Hcplan) & Hfl & i & j & Hfile & Hi & _).
  exists lF, rrfF, (rd_into_writer P (fr_rd (rr_fr rrfF)) (fr_cursor (rr_fr rrfF))).
  set (w0 := rd_into_writer P (fr_rd (rr_fr rrfF)) (fr_cursor (rr_fr rrfF))).
  split; [exact HrdF|].
  split.
  { rewrite <- (map_snd_combine rrs ds) by exact Hlen.
    apply (map_snd_Forall2 _ _ _ Hall). }
  split; [reflexivity|]. split; [exact Hall|]. split; [exact Hfin|].
  split; [rewrite tags_of_length; exact HlenF|].
  split.
  { apply StronglySorted_map.
    eapply StronglySorted_Forall2; [|exact Hall|exact Hrest_sorted].
    cbn beta. intros x y x' y' [Hxy _] [Hxy' _] Hle. eapply (HD sim_tag_le); eassumption. }
  split.
  { apply Forall_map.
    eapply Forall2_Forall_l; [|exact Hall|exact Hrest_all].
    cbn beta. intros x y [Hxy _] [_ Hle]. split.
    - apply (HD sim_tag_lo _ _ Hxy).
    - change (w_file w0) with (tag_of rrfF).
      eapply (HD sim_tag_le); [exact Hxy|exact Hfin|exact Hle]. }
  assert (Hwfile : w_file w0 = lo + i) by exact Hfile.
  split; [exact Hfl|]. split; [lia|]. split; [lia|].
  split; [reflexivity|]. split; [exact Hcfs | exact Hcplan].
Qed.

(* ... when the final reader is in block k at cursor c1: the positions of the tags, and where w0
   stands (file lo + i, block j of it, cursor c1) *)
Lemma trace_tags g rd rrs ds sts c rrfV k c1 fl :
  rsim rd (vec_at P fs files 0) ->
  length rrs = length ds ->
  readsC g (mkRR (rd_at P S_all kb 0) [] false) (combine rrs ds) c rrfV ->
  tr_ok P S_all rrs sts ->
  rr_fr rrfV = mkFR (rd_of P S_all k) c1 fl -> (k + 1) * B <= lenN S_all ->
  exists lF rrfF w0 i j,
    readsFc g (rr_open rreaderS rd) lF c rrfF /\
    map snd lF = ds /\
    w0 = rd_into_writer P (fr_rd (rr_fr rrfF)) (fr_cursor (rr_fr rrfF)) /\
    length (tags_of lF) = length sts /\
    Forall2 (fun f s => (f - base) * FB <= snd s) (tags_of lF) sts /\
    StronglySorted N.le (tags_of lF) /\
    Forall (fun f => lo <= f /\ f <= w_file w0) (tags_of lF) /\
    w_files w0 = files /\
    w_file w0 = lo + i /\ i <= N.of_nat n /\ j < NB P /\ w_off w0 = j * B + c1 /\
    k = kb + i * NB P + j /\
    w_pending w0 = [] /\ c_fs (w_ctx w0) = fs /\ c_plan (w_ctx w0) = None.
Proof.
  intros Hrel Hlen HrdV Htr Hfr Hkblk.
  pose proof Hkb as Hkb.
  assert (HlenSt : lenN St + kb * B = lenN S_all).
  { rewrite (HD lenN_St), HlenS, Hkb.
    replace (lo + N.of_nat n - base + 1) with ((N.of_nat n + 1) + (lo - base)) by lia. lia. }
  assert (HFB : B <= FB) by (rewrite (HN FB_eq); nia).
  destruct (trace_sim g rd rrs ds c rrfV Hrel Hlen HrdV)
    as (lF & rrfF & w0 & HrdF & Hsnd & Ew0 & Hall & Hfin & HlenF & Hsort & Hrng & Hfl & _ & _ & Hrest).
  pose proof (Forall2_length' _ _ _ Htr) as HlenT.
  destruct (reads_trc_rest P HBS_lo HBS_hi g _ _ _ _ HrdV) as (Hrest_fin & _ & _).
  assert (Hkk : kb <= k).
  { cbn [rr_fr] in Hrest_fin. rewrite Hfr in Hrest_fin. unfold rd_at, rd_of in Hrest_fin.
    cbn [fr_rd vr_rest] in Hrest_fin. rewrite !lenN_dropN in Hrest_fin.
    apply (H2 TornProofs.mulB_le_inv). lia. }
  destruct Hfin as ((Hrfin & Hcur & _) & _ & _).
  destruct (HD rd_rel_idx _ _ Hrfin) as (_ & _ & i & j & Hfile & Hi & Hj & Hid & Hl).
  rewrite Hfr in Hl, Hcur. unfold rd_of in Hl. cbn [fr_rd vr_rest fr_cursor] in Hl, Hcur.
  rewrite lenN_dropN in Hl.
  exists lF, rrfF, w0, i, j.
  split; [exact HrdF|]. split; [exact Hsnd|]. split; [exact Ew0|].
  split; [rewrite HlenF, <- Hlen; exact HlenT|].
  split.
  { apply Forall2_map_l'.
    eapply Forall2_trans'; [|exact Hall|apply Forall2_combine_l; [|exact Htr]].
    - cbn beta. intros x y s [Hxy _] Hys.
      pose proof (sim_tag_bpos P HBS_lo HBS_hi HNB Hcrc fs lo n Hfull S_all base kb _ _ Hxy Hbase Hkb HlenSt).
      lia.
    - exact Hlen. }
  split; [exact Hsort|]. split; [exact Hrng|]. split; [exact Hfl|].
  subst w0.
  split; [exact Hfile|]. split; [exact Hi|]. split; [exact Hj|].
  split; [unfold rd_into_writer; cbn [w_off]; rewrite Hid, Hcur; reflexivity|].
  split.
  { assert (E : k * B = (kb + i * NB P + j) * B) by lia.
    apply N.mul_cancel_r in E; lia. }
  exact Hrest.
Qed.

Lemma files_of_trace g rd rrs ds sts c rrfV pf :
  rsim rd (vec_at P fs files 0) ->
  length rrs = length ds ->
  readsC g (mkRR (rd_at P S_all kb 0) [] false) (combine rrs ds) c rrfV ->
  tr_ok P S_all rrs sts -> fin_at P S_all (rr_fr rrfV) pf ->
  exists lF rrfF,
    readsFc g (rr_open rreaderS rd) lF c rrfF /\
    map snd lF = ds /\
    fspec fs (rd_into_writer P (fr_rd (rr_fr rrfF)) (fr_cursor (rr_fr rrfF))) (tags_of lF) sts pf.
Proof.
  intros Hrel Hlen HrdV Htr (k & c1 & fl & Hfr & Hkblk & Hc & Hpf).
  destruct (trace_tags g rd rrs ds sts c rrfV k c1 fl Hrel Hlen HrdV Htr Hfr Hkblk)
    as (lF & rrfF & w0 & i & j & HrdF & Hsnd & -> & Hlt & Hpos & Hsort & Hrng & Hfl & Hfile & Hi & Hj &
        Hoff & Hk & Hrest).
  exists lF, rrfF. split; [exact HrdF|]. split; [exact Hsnd|].
  split; [exact Hlt|]. split; [exact Hpos|]. split; [exact Hsort|]. split; [exact Hrng|].
  split; [exact Hfl|]. split; [lia|]. split; [lia|].
  split.
  { rewrite Hoff, (HN FB_eq).
    assert ((j + 1) * B <= NB P * B) by (apply N.mul_le_mono_r; lia). lia. }
  split; [rewrite Hpf; exact (tags_pos base lo _ _ i j k c1 Hbase Hfile Hoff Hk) | exact Hrest].
Qed.

(* `open` of the directory fs0 whose reader (after ensure_last_full) is the one over fs *)
Lemma open_of_trace F fs0 c0 rd rrs ds sts c rrfV pf Ds pol hint :
  L_IO P = false ->
  rd_open P (ctx_init fs0 None) = (c0, Ok rd) -> rsim rd (vec_at P fs files 0) ->
  length rrs = length ds ->
  readsC F (mkRR (rd_at P S_all kb 0) [] false) (combine rrs ds) c rrfV ->
  tr_ok P S_all rrs sts -> fin_at P S_all (rr_fr rrfV) pf ->
  ds = map entry_ser Ds -> Forall wf_entry Ds -> (length ds + c < F)%nat ->
  exists w0 tags,
    fspec fs w0 tags sts pf /\
    match replay_entries [] (combine tags Ds) with
    | Some qs => open P fs0 None pol hint = open_finish P w0 qs pol hint
    | None => exists c', open P fs0 None pol hint = OpenCorruption c'
    end.
Proof.
  intros Hio Hopen Hrel Hlen HrdV Htr Hfinat Hds Hwf HF.
  destruct (files_of_trace F rd rrs ds sts c rrfV pf Hrel Hlen HrdV Htr Hfinat)
    as (lF & rrfF & HrdF & Hsnd & Hspec).
  eexists _, (tags_of lF). split; [exact Hspec|].
  subst ds. rewrite map_length in HF.
  exact (open_of_files_trace F fs0 c0 rd lF c rrfF Ds pol hint Hio Hopen HrdF Hsnd Hwf HF).
Qed.

End Kept.
End DirFull.

(* a directory whose LAST file may be short *)
Section DirShort.
Variable fs : fsT.
Variable lo : N.
Variable n : nat.
Local Notation files := (iota lo (Datatypes.S n)).
Local Notation cur := (lo + N.of_nat n).
Hypothesis Hlist : list_wal_numbers fs = files.
Hypothesis Hfiles : forall f, In f files ->
  exists b, fs_get fs (filename f) = Some (FFile b) /\ lenN b <= FB /\ (f <> cur -> lenN b = FB).

(* the directory after Directory::ensure_last_file_has_full_size: the same, with the last file
   zero-extended to FILE bytes *)
Definition fs_ext : fsT := fs_put fs (filename cur) (FFile (set_len (fcontent fs cur) FB)).

Lemma In_cur : In cur files.
Proof. apply iota_In. lia. Qed.

Lemma files_bound f : In f files -> f <= U64_MAX.
Proof. intros H. apply (listed_bound fs). rewrite Hlist. exact H. Qed.

Lemma cur_content_le : lenN (fcontent fs cur) <= FB.
Proof.
  destruct (Hfiles cur In_cur) as (b & Hg & Hle & _). unfold fcontent. rewrite Hg. exact Hle.
Qed.

Lemma Hfull_ext : forall f, In f files ->
  exists b, fs_get fs_ext (filename f) = Some (FFile b) /\ lenN b = FB.
Proof.
  intros f Hf. unfold fs_ext. destruct (N.eq_dec f cur) as [->|Hne].
  - eexists. split; [apply GcProofs.fs_get_put_same | apply lenN_set_len].
  - destruct (Hfiles f Hf) as (b & Hg & _ & Hl). exists b. split; [|apply Hl; exact Hne].
    rewrite GcProofs.fs_get_put_other; [exact Hg|].
    intros E. apply Hne. symmetry.
    apply filename_inj; [apply files_bound, In_cur | apply files_bound, Hf | exact E].
Qed.

Lemma fs_ext_full : lenN (fcontent fs cur) = FB -> fs_ext = fs.
Proof.
  intros Hl. unfold fs_ext. apply fs_put_same.
  destruct (Hfiles cur In_cur) as (b & Hg & _). unfold fcontent in *. rewrite Hg in *.
  rewrite set_len_ext by lia. rewrite Hl, N.sub_diag. cbn [zerosN]. now rewrite app_nil_r.
Qed.

Lemma stream_ext :
  stream_of fs_ext files = stream_of fs files ++ zerosN (FB - lenN (fcontent fs cur)).
Proof.
  rewrite iota_snoc, !stream_of_app.
  assert (E1 : stream_of fs_ext (iota lo n) = stream_of fs (iota lo n)).
  { apply stream_of_ext. intros f Hf. apply iota_In in Hf. unfold fs_ext.
    apply fcontent_put_other. intros E.
    assert (Hin : In f files) by (apply iota_In; lia).
    apply filename_inj in E; [lia | apply files_bound, In_cur | apply files_bound, Hin]. }
  rewrite E1, <- app_assoc. f_equal.
  rewrite !stream_of_cons. cbn [stream_of flat_map]. rewrite !app_nil_r.
  unfold fs_ext. rewrite fcontent_put_same by reflexivity.
  apply set_len_ext. apply cur_content_le.
Qed.

Lemma ensure_last_full_ext c : cok fs c ->
  exists c', ensure_last_full P c files = (c', Ok tt) /\ cok fs_ext c'.
Proof.
  intros Hc. unfold ensure_last_full. rewrite (HN iota_last).
  rewrite file_content_fcontent. pose proof Hc as [Hcf Hcp]. rewrite Hcf.
  destruct (N.ltb_spec (lenN (fcontent fs cur)) FB) as [Hshort|Hlong].
  - destruct (Hfiles cur In_cur) as (b & Hg & _).
    destruct (open_file_none fs c cur b Hc Hg) as (c1 & -> & [Hf1 Hp1]).
    eexists. split; [reflexivity|]. split; cbn [c_fs c_plan ctx_ev ctx_fs].
    + rewrite Hf1. reflexivity.
    + exact Hp1.
  - exists c. split; [reflexivity|]. rewrite fs_ext_full; [exact Hc|].
    pose proof cur_content_le. lia.
Qed.

(* Directory::open + RollingReader::open: the reader is the vecr reader over the zero-extended
   directory *)
Lemma rd_open_short : L_SHORT P = false ->
  exists c rd, rd_open P (ctx_init fs None) = (c, Ok rd) /\
               rd_rel P fs_ext files rd (vec_at P fs_ext files 0).
Proof.
  intros Hshort. unfold rd_open.
  assert (Hc0 : cok fs (ctx_init fs None)) by (split; reflexivity).
  destruct (fault_point_none fs (ctx_ev (ctx_init fs None) EvReadDir) SReadDir
              (ctx_ev_cok _ _ _ Hc0)) as (c1 & -> & Hc1).
  pose proof Hc1 as [Hf1 Hp1]. rewrite Hf1, Hlist, Hshort.
  cbn [iota]. change (lo :: iota (lo + 1) n) with files.
  destruct (ensure_last_full_ext c1 Hc1) as (c2 & -> & Hc2).
  assert (Hin0 : In lo files) by (apply iota_In; lia).
  destruct (Hfull_ext lo Hin0) as (b0 & Hg0 & Hl0).
  destruct (open_file_none fs_ext c2 lo b0 Hc2 Hg0) as (c3 & -> & Hc3).
  assert (Hcont0 : lenN (fcontent fs_ext lo) = FB) by (unfold fcontent; rewrite Hg0; exact Hl0).
  destruct (read_block_none P fs_ext c3 lo 0 Hc3 Hcont0) as (c4 & Hc4 & ->).
  assert (HFB : B <= FB) by (rewrite (HN FB_eq); nia).
  destruct (N.leb_spec (0 + B) FB) as [_|Hbad]; [|lia].
  eexists; eexists. split; [reflexivity|].
  split; [exact Hc4|]. split; [reflexivity|].
  exists [], (iota (lo + 1) n), 0. cbn [rd_file rd_block_id rd_pos rd_block app].
  split; [reflexivity|]. split; [lia|]. split; [reflexivity|]. split; [lia|].
  rewrite (@lenN_nil N). split; [reflexivity|].
  unfold vec_at. cbn [vr_block].
  pose proof (block_in_file P ltac:(lia) HNB fs_ext files Hfull_ext [] lo (iota (lo + 1) n) 0 eq_refl)
    as Hb. rewrite (@lenN_nil N) in Hb.
  replace (0 * B) with ((0 * NB P + 0) * B) by lia.
  replace ((0 + 1) * B) with ((0 * NB P + 0 + 1) * B) by lia.
  rewrite Hb by lia. f_equal; lia.
Qed.

End DirShort.

Lemma map_cons_inv {A C} (f : A -> C) (l : list A) y ys :
  map f l = y :: ys -> exists a l', l = a :: l' /\ f a = y /\ map f l' = ys.
Proof.
  destruct l as [|a l']; cbn [map]; [discriminate|]. intros H. injection H as H1 H2.
  exists a, l'. repeat split; assumption.
Qed.

(* `open` on the (possibly short-ended) directory, in the crash setting *)
Section Main.
Hypothesis Hnc : no_zero_collision P.
Variable fs : fsT.
Variable lo : N.
Variable n : nat.
Local Notation files := (iota lo (Datatypes.S n)).
Local Notation cur := (lo + N.of_nat n).
Hypothesis Hlist : list_wal_numbers fs = files.
Hypothesis Hfiles : forall f, In f files ->
  exists b, fs_get fs (filename f) = Some (FFile b) /\ lenN b <= FB /\ (f <> cur -> lenN b = FB).
Local Notation fsx := (fs_ext fs lo n).
Variable base : N.
Hypothesis Hbase : base <= lo.
Local Notation b := ((lo - base) * FB).
Local Notation kb := ((lo - base) * NB P).
Local Notation fspecx := (fspec lo n base fsx).
Local Notation ser := (map entry_ser).
Local Notation encsof := (encs_of P).

Lemma sok_all (S_all : bytes) : lenN S_all = (cur - base + 1) * FB -> stream_ok P S_all.
Proof. intros H. exists ((cur - base + 1) * NB P). rewrite H, (HN FB_eq). lia. Qed.

Lemma blk_all (S_all : bytes) : lenN S_all = (cur - base + 1) * FB -> (kb + 1) * B <= lenN S_all.
Proof.
  intros H. rewrite H, (HN FB_eq).
  replace (cur - base + 1) with ((lo - base) + (N.of_nat n + 1)) by lia. nia.
Qed.

Lemma fspec_pf_le w0 tags sts pf : fspecx w0 tags sts pf -> pf <= (cur - base + 1) * FB.
Proof.
  intros (_ & _ & _ & _ & _ & Hlo & Hcur & Hoff & Hpf & _).
  assert ((w_file w0 - base) * FB <= (cur - base) * FB) by (apply N.mul_le_mono_r; lia). lia.
Qed.

Theorem open_torn E_all X T c0 j z pol hint :
  L_IO P = false -> L_SHORT P = false ->
  Forall wf_entry E_all -> Forall wf_entry X ->
  encs_rel P 0 (ser E_all) T ->
  lenN T <= c0 -> c0 <= ffp (lenN T) -> b <= c0 ->
  j <= lenN (encsof c0 (ser X)) ->
  let S_all := T ++ zerosN (c0 - lenN T) ++ takeN j (encsof c0 (ser X)) ++ zerosN z in
  stream_of fsx files = dropN b S_all ->
  lenN S_all = (cur - base + 1) * FB ->
  exists w0 tags E_pre E_suf X1 Xr Xd pf,
    (* the entries of E_all whose first frame is in the kept files *)
    E_all = E_pre ++ E_suf /\
    ser E_pre = skipped_before P b 0 (ser E_all) /\
    ser E_suf = delivered_from P b 0 (ser E_all) /\
    (* X1: the entries of X completely contained in the first j bytes; the head of Xr is the
       entry in flight *)
    X = X1 ++ Xr /\ lenN (encsof c0 (ser X1)) <= j /\
    match Xr with
    | [] => j = lenN (encsof c0 (ser X))
    | x :: _ => j < lenN (encsof c0 (ser (X1 ++ [x])))
    end /\
    (* Xd: what is delivered of X *)
    (Xd = X1 \/
     exists x X2, Xr = x :: X2 /\ Xd = X1 ++ [x] /\
                  all_zero (dropN j (encsof c0 (ser (X1 ++ [x])))) = true) /\
    (* tags and writer *)
    fspecx w0 tags (starts P (cursor_after P 0 (skipped_before P b 0 (ser E_all)))
                           (ser (E_suf ++ Xd))) pf /\
    (* the writer's position pf is a resume point *)
    lenN T <= pf /\ (Xd <> [] -> c0 + lenN (encsof c0 (ser Xd)) <= pf) /\
    pf <= lenN S_all /\
    (forall m, c0 + j <= m * B -> b <= m * B -> pf <= m * B) /\
    resume_ok P S_all pf /\
    match replay_entries [] (combine tags (E_suf ++ Xd)) with
    | Some qs => open P fs None pol hint = open_finish P w0 qs pol hint
    | None => exists c', open P fs None pol hint = OpenCorruption c'
    end.
Proof.
  intros Hio Hshort HwfE HwfX Henc Hlo Hhi Hb Hj S_all HSt HlenS.
  set (es_all := ser E_all) in *. set (xs := ser X) in *.
  pose proof (skipped_delivered P b es_all 0) as Hsplit.
  destruct (map_app_inv entry_ser E_all _ _ Hsplit) as (E_pre & E_suf & HE & Hpre & Hsuf).
  assert (HlE : (length E_suf <= length E_all)%nat) by (rewrite HE, app_length; lia).
  rewrite HE in HwfE. apply Forall_app in HwfE as [_ Hwf_suf].
  (* the stream is read from the first kept block *)
  assert (Hkb : kb * B = b) by (rewrite (HN FB_eq); lia).
  set (F := N.to_nat (c0 + lenN (encsof c0 xs) + 22)).
  destruct (read_torn_stream P HBS_lo HBS_hi Hcrc Hnc T c0 es_all xs j z kb [] F S_all Henc Hlo Hhi Hj
              eq_refl (sok_all S_all HlenS) (blk_all S_all HlenS) ltac:(rewrite Hkb; exact Hb)
              ltac:(unfold F; lia))
    as (xs1 & xr & xd & rrs & c & rrfV & pf & Hxs & Hle & Hr & Hxd & Hlen & HrdV & Hc & Htr & Hfin &
        HpfT & Hpfd & Hup & Hres).
  rewrite Hkb in Hlen, HrdV, Htr, Hup.
  destruct (map_app_inv entry_ser X _ _ Hxs) as (X1 & Xr & HX & <- & <-).
  rewrite HX in HwfX. apply Forall_app in HwfX as [HwfX1 HwfXr].
  assert (HXd : exists Xd, xd = ser Xd /\ Forall wf_entry Xd /\ (length Xd <= length X)%nat /\
            (Xd = X1 \/
             exists x X2, Xr = x :: X2 /\ Xd = X1 ++ [x] /\
                          all_zero (dropN j (encsof c0 (ser (X1 ++ [x])))) = true)).
  { destruct Hxd as [-> | (x & xs2 & Hxr & -> & Hz)].
    - exists X1. split; [reflexivity|]. split; [exact HwfX1|].
      split; [rewrite HX, app_length; lia | left; reflexivity].
    - destruct (map_cons_inv entry_ser Xr x xs2 Hxr) as (Xx & X2 & -> & <- & _).
      exists (X1 ++ [Xx]). rewrite map_app. split; [reflexivity|]. split.
      { apply Forall_app. split; [exact HwfX1|]. inversion HwfXr as [|x0 l0 Hx0 _].
        constructor; [exact Hx0 | constructor]. }
      split; [rewrite HX, !app_length; cbn [length]; lia|].
      right. exists Xx, X2. rewrite map_app. repeat split. exact Hz. }
  destruct HXd as (Xd & -> & HwfXd & HlXd & HXd).
  rewrite <- Hsuf, <- map_app in Hlen, HrdV, Htr.
  destruct (rd_open_short fs lo n Hlist Hfiles Hshort) as (c1 & rd & Hopen & Hrel).
  assert (HcE : 7 * N.of_nat (length E_all) <= lenN T).
  { rewrite <- (map_length entry_ser). exact (H3 StreamProofs.encs_rel_len _ _ _ Henc). }
  assert (HcX : 7 * N.of_nat (length X) <= lenN (encsof c0 xs)).
  { rewrite <- (map_length entry_ser). exact (H3 StreamProofs.encs_rel_len _ _ _ (H3 encs_of_rel xs c0)). }
  destruct (open_of_trace fsx lo n (Hfull_ext fs lo n Hlist Hfiles) base S_all Hbase HSt HlenS
              F fs c1 rd rrs _ _ c rrfV pf (E_suf ++ Xd) pol hint Hio Hopen Hrel Hlen HrdV Htr Hfin
              eq_refl ltac:(apply Forall_app; split; assumption)
              ltac:(rewrite map_length, app_length; unfold F; lia))
    as (w0 & tags & Hspec & Hopen').
  exists w0, tags, E_pre, E_suf, X1, Xr, Xd, pf.
  split; [exact HE|]. split; [exact Hpre|]. split; [exact Hsuf|].
  split; [exact HX|]. split; [exact Hle|].
  split; [destruct Xr; cbn [map] in Hr; [exact Hr | rewrite map_app; exact Hr]|].
  split; [exact HXd|]. split; [exact Hspec|]. split; [exact HpfT|].
  split; [intros Hne; apply Hpfd; intros E; apply map_eq_nil in E; exact (Hne E)|].
  split; [rewrite HlenS; apply (fspec_pf_le _ _ _ _ Hspec)|].
  split; [exact Hup|]. split; [exact Hres | exact Hopen'].
Qed.

(* nothing torn: every entry of X is delivered *)
Corollary open_torn_complete E_all X T c0 z pol hint :
  L_IO P = false -> L_SHORT P = false ->
  Forall wf_entry E_all -> Forall wf_entry X ->
  encs_rel P 0 (ser E_all) T ->
  lenN T <= c0 -> c0 <= ffp (lenN T) -> b <= c0 ->
  let TX := encsof c0 (ser X) in
  let S_all := T ++ zerosN (c0 - lenN T) ++ TX ++ zerosN z in
  stream_of fsx files = dropN b S_all ->
  lenN S_all = (cur - base + 1) * FB ->
  exists w0 tags E_pre E_suf pf,
    E_all = E_pre ++ E_suf /\
    ser E_pre = skipped_before P b 0 (ser E_all) /\
    ser E_suf = delivered_from P b 0 (ser E_all) /\
    fspecx w0 tags (starts P (cursor_after P 0 (skipped_before P b 0 (ser E_all)))
                           (ser (E_suf ++ X))) pf /\
    lenN T <= pf /\ (X <> [] -> c0 + lenN TX <= pf) /\ pf <= lenN S_all /\
    (forall m, c0 + lenN TX <= m * B -> b <= m * B -> pf <= m * B) /\
    resume_ok P S_all pf /\
    match replay_entries [] (combine tags (E_suf ++ X)) with
    | Some qs => open P fs None pol hint = open_finish P w0 qs pol hint
    | None => exists c', open P fs None pol hint = OpenCorruption c'
    end.
Proof.
  intros Hio Hshort HwfE HwfX Henc Hlo Hhi Hb TX S_all HSt HlenS.
  assert (HS : S_all = T ++ zerosN (c0 - lenN T) ++ takeN (lenN TX) TX ++ zerosN z).
  { unfold S_all. rewrite takeN_all by lia. reflexivity. }
  rewrite HS in HSt, HlenS.
  destruct (open_torn E_all X T c0 (lenN TX) z pol hint Hio Hshort HwfE HwfX Henc Hlo Hhi Hb
              (N.le_refl _) HSt HlenS)
    as (w0 & tags & E_pre & E_suf & X1 & Xr & Xd & pf & HE & Hpre & Hsuf & HX & Hle & Hr & HXd &
        Hspec & Hpf1 & Hpf2 & Hpf3 & Hup & Hres & Hopen).
  assert (HXr : Xr = []).
  { destruct Xr as [|x X2]; [reflexivity|]. exfalso.
    assert (lenN (encsof c0 (ser (X1 ++ [x]))) <= lenN TX); [|lia].
    unfold TX. rewrite HX. rewrite !map_app, !(H3 encs_of_app), !lenN_app. cbn [map encs_of].
    rewrite app_nil_r, lenN_app. lia. }
  subst Xr. rewrite app_nil_r in HX. subst X1.
  assert (HXdX : Xd = X) by (destruct HXd as [E | (x & X2 & E & _)]; [exact E | discriminate]).
  subst Xd.
  exists w0, tags, E_pre, E_suf, pf. rewrite HS.
  repeat (split; [assumption|]). exact Hopen.
Qed.

End Main.
End Files.

Print Assumptions torn_walk2.
Print Assumptions read_delivered_torn.
Print Assumptions read_torn_stream.
Print Assumptions replay_loop_fold_c.
Print Assumptions stream_ext.
Print Assumptions ensure_last_full_ext.
Print Assumptions rd_open_short.
Print Assumptions open_torn.
Print Assumptions open_torn_complete.

(* The resume property "every stream byte from the writer's position on is zero" is
   FALSE when the torn HEADER (fewer than 7 bytes of it) lies in the last block of the last
   file: read_frame flags the block corrupt and, there being no next block, the reader stays at
   the start of the torn header; rd_into_writer resumes THERE.  (resume_ok's second case.)
   BS = 16, one block per file; the directory is the single file holding the first 3 bytes of
   the encoding of one entry. With a spare block (NB = 2) the writer resumes at the next block. *)
Module Corner.
Definition Px : params := mkParams 16 1 (fun _ _ => 5) 0 false false false.
Definition Py : params := mkParams 16 2 (fun _ _ => 5) 0 false false false.
Definition qa : bytes := ["a"%byte].
Definition TX : bytes := encs_of Px 0 (map entry_ser [EPosition qa 0]).
Definition content : bytes := takeN 3 TX ++ zerosN 13.
Definition fs_ex : fsT := [(filename 0, FFile content)].
Definition fs_short : fsT := [(filename 0, FFile (takeN 3 TX))].
Definition fs_y : fsT := [(filename 0, FFile (takeN 3 TX ++ zerosN 29))].

Definition wpos (P : params) (fs : fsT) : option (N * N * fsT) :=
  match open P fs None PNothing [] with
  | OpenOk st => Some (w_file (s_wr st), w_off (s_wr st), c_fs (w_ctx (s_wr st)))
  | _ => None
  end.

Example corner_not_zero :
  list_wal_numbers fs_ex = [0] /\ lenN content = FILE_BYTES Px /\
  wpos Px fs_ex = Some (0, 0, fs_ex) /\
  all_zero (dropN 0 content) = false /\ all_zero (dropN (0 + 6) content) = true /\
  (* a short last file is zero-extended first: same outcome *)
  wpos Px fs_short = Some (0, 0, fs_ex) /\
  (* with a spare block the writer resumes at the next block, from where all is zero *)
  wpos Py fs_y = Some (0, 16, fs_y).
Proof. vm_compute. repeat split; reflexivity. Qed.
End Corner.
