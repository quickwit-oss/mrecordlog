(* JRecover3.v — the state that `open` recovers from a crash image of a VIRTUAL CALL satisfies
   the junk-tolerant invariant again, for an extended prefix.  A virtual call (vcall) is any
   transition st -> st' whose effects on the files are described by a CrashTrace.call_trace of the
   bytes encs_of c0 (ser X) (X the entries it logs), that preserves the junk-tolerant invariant,
   and whose entries are "atomic" at the logical level.
   Instances: the API calls (step_vcall; crashJ_recover_invJ, crash_recover_invJ), and the
   garbage collection run by `open` itself (recovery of a crash during the recovery:
   JRecoverGc.v). *)
From Coq Require Import Lia ZArith ZifyN ZifyNat ZifyBool List Sorted.
From MRL Require Import Bytes BytesProofs Params Names NamesProofs Frame Record Mem Spec Rolling Log
  Driver Hist NoopProofs SpecRefine RecordProofs StreamProofs PolicyProofs GcProofs GhostLog ReplaySpec
  HandleProofs FileStream ResyncProofs QueueIso RestartInv RestartWrite RestartGc RestartStep
  OpenReplay RestartFinal TornProofs TornFile CrashTrace CrashAtomic
  JInv JGc JStep JunkStream JReopen JRecoverL JRecoverP JRecoverL2
  JCrashShape JRecover2 JRecoverPk KWalk KJunk KReach JRecoverS4 KAlign KGap JRecoverS5 JRecover5.

(* The premise on a crash point (all the data are there; or the torn data leave a block of the top
   file hi, or end exactly at its end) in terms of the cursor c0 of the call and the length L of
   the stream of the image.  f0 is the file of the cursor, a + r the room the old prefix needs. *)
Lemma cut_cases base f0 hi FB B woff j n c0 L a r :
  base <= f0 -> f0 <= hi -> c0 = (f0 - base) * FB + woff -> L = (hi + 1 - base) * FB ->
  a <= c0 -> r < B ->
  (j = n /\ a + r <= (f0 + 1 - base) * FB) \/
  (f0 * FB + woff + j + B <= (hi + 1) * FB \/
   (f0 * FB + woff + j = (hi + 1) * FB /\ a + r <= (f0 + 1 - base) * FB)) ->
  (j = n \/ c0 + j + B <= L \/ c0 + j = L) /\ a + r <= L.
Proof.
  intros H1 H2 -> -> Ha Hr H.
  assert (Eq1 : (f0 - base) * FB + base * FB = f0 * FB) by (rewrite <- N.mul_add_distr_r; f_equal; lia).
  assert (Eq2 : (hi + 1 - base) * FB + base * FB = (hi + 1) * FB) by (rewrite <- N.mul_add_distr_r; f_equal; lia).
  assert ((f0 + 1 - base) * FB <= (hi + 1 - base) * FB) by (apply N.mul_le_mono_r; lia).
  lia.
Qed.

Lemma reach_conv base f0 hi FB woff j c0 :
  base <= f0 -> f0 <= hi -> c0 = (f0 - base) * FB + woff -> (hi - f0) * FB <= woff + j ->
  (hi - base) * FB <= c0 + j.
Proof.
  intros H1 H2 -> H. replace (hi - base) with ((f0 - base) + (hi - f0)) by lia.
  rewrite N.mul_add_distr_r. lia.
Qed.

Section Recover3.
Variable P : params.
Hypothesis HBS_lo : 7 < BS P.
Hypothesis HBS_hi : BS P <= 65542.
Hypothesis HNB : 1 <= NB P.
Hypothesis Hcrc : forall t p, crcf P t p < 2 ^ 32.
Hypothesis HGC : L_GC P = false.
Hypothesis HIO : L_IO P = false.
Hypothesis HSHORT : L_SHORT P = false.
Hypothesis Hnc : no_zero_collision P.

Local Notation B := (BS P).
Local Notation FB := (FILE_BYTES P).
Local Notation ffp := (first_frame_pos P).
Local Notation enc_of := (enc_of P).
Local Notation encs_of := (encs_of P).
Local Notation cursor_after := (cursor_after P).
Local Notation starts := (starts P).
Local Notation ser := (map entry_ser).
Local Notation H3 f := (f P HBS_lo HBS_hi Hcrc) (only parsing).
Local Notation H2 f := (f P HBS_lo HBS_hi) (only parsing).
Local Notation HW f := (f P HBS_lo HBS_hi HNB Hcrc) (only parsing).
Local Notation HN f := (f P HBS_lo HBS_hi HNB) (only parsing).
Local Notation HG f := (f P HBS_lo HBS_hi HNB Hcrc HGC) (only parsing).

Variable PRE0 : bytes.
Variable OLD0 : list entry.
Variable opos0 : list (N * N).
Variable adm0 : N -> Prop.
Variable cmax0 : nat.
Variable rm0 : N.
Hypothesis Hpre0 : pre_ok PRE0 OLD0 opos0.
Hypothesis Hpc0 : pre_cont P PRE0 (ser OLD0) opos0 adm0 cmax0 rm0.
Hypothesis Hrm0 : rm0 <= 7.
Hypothesis Hadm0 : forall m, adm0 (m * NB P).

Local Notation InvJ0 := (InvJ P PRE0 OLD0 opos0).
Local Notation PInvJ0 := (PInvJ P PRE0 OLD0 opos0).
Local Notation jT0 := (jT P PRE0 OLD0).
Local Notation jpos0 := (jpos P PRE0 OLD0 opos0).
Local Notation jNEW0 := (jNEW OLD0).
Local Notation jser0 := (jser OLD0).
Local Notation crash_boundJ := (crash_boundJ P PRE0 OLD0).

(* CrashAtomic.image_dir_of_trace, with the top file in the form of is_top and: the data of the
   prefix reach the start of hi. *)
Lemma image_dir_of_trace lo f0 off0 NEW f1 off1 evs pe fs0 lo' hi :
  call_trace P lo f0 off0 NEW f1 off1 evs -> cpre pe evs ->
  good P fs0 f0 U64_MAX -> (forall x, lo <= x <= f0 -> full_file P fs0 x) ->
  dir_of fs0 (nfiles lo f0) -> lo <= f0 -> f1 <= U64_MAX ->
  let img := fold_left apply_event pe fs0 in
  lo' <= hi -> f0 <= hi -> hi <= f1 -> dir_of img (nfiles lo' hi) ->
  is_top img hi /\ (hi - f0) * FB <= off0 + lenN (ev_data pe) /\
  forall x, x <= U64_MAX ->
    (exists b, fs_get (fold_left apply_event evs fs0) (filename x) = Some (FFile b)) -> lo' <= x.
Proof.
  clear Hpre0 Hpc0 Hrm0 Hadm0 HGC HIO HSHORT Hnc. clear PRE0 OLD0 opos0 adm0 cmax0 rm0.
  intros Hct Hc Hgood Hfull Hdir0 Hlo Hu' img Hlohi Hf0hi Hhif1 Hdir.
  destruct (CrashAtomic.image_dir_of_trace P HBS_lo HBS_hi HNB Hcrc lo f0 off0 NEW f1 off1 evs pe fs0 lo' hi
              Hct Hc Hgood Hfull Hdir0 Hlo Hu' Hlohi Hhif1 Hdir) as ((Hhi & Htopn) & Hpresent).
  fold img in Hhi, Htopn.
  split; [split; [lia|split; [exact Hhi|exact Htopn]]|]. split; [|exact Hpresent].
  destruct (N.eq_dec hi f0) as [E|Hne]; [rewrite E, N.sub_diag; lia|].
  destruct Hhi as (bb & Hbb).
  destruct (call_trace_reach P _ _ _ _ _ _ _ Hct pe Hc fs0 (filename hi)) as (nn & En & _ & Hnn & Hr).
  { apply (proj2 Hgood); lia. }
  { fold img. rewrite Hbb. discriminate. }
  assert (nn = hi) by (symmetry; apply filename_inj; [lia|lia|exact En]). subst nn. exact Hr.
Qed.

Lemma pinvJ_files w G :
  PInvJ0 w G -> w_pending w = [] ->
  let fs0 := c_fs (w_ctx w) in
  wlo w <= w_file w /\ w_files w = nfiles (wlo w) (w_file w) /\
  (forall n, wlo w <= n <= w_file w -> full_file P fs0 n) /\ good P fs0 (w_file w) U64_MAX /\
  dir_of fs0 (nfiles (wlo w) (w_file w)) /\ stream_of fs0 (nfiles (wlo w) (w_file w)) = wstream w /\
  (w_file w - wlo w) * FB + w_off w = wpos P w.
Proof.
  clear Hpc0 Hrm0 Hadm0 HIO HSHORT Hnc. clear adm0 cmax0 rm0.
  intros HP Hp0. cbn zeta.
  destruct (pinvJ_setup P HBS_lo HBS_hi HNB Hcrc PRE0 OLD0 opos0 w G HP) as (_ & _ & _ & _ & Hn & Hn1).
  pose proof HP as (Hw & (_ & Hdir) & _).
  pose proof Hw as (Hok & _ & _ & _ & Hu & Hfull & Hfresh).
  rewrite (vfs_nil w Hp0) in Hfull, Hfresh.
  set (fs0 := c_fs (w_ctx w)) in *. set (lo := wlo w) in *. set (f0 := w_file w) in *.
  assert (Hlo : lo <= f0) by lia.
  assert (Efiles : w_files w = nfiles lo f0).
  { rewrite (HN wr_ok_iota w Hok). fold lo. unfold nfiles. f_equal.
    rewrite lenN_length in Hn. lia. }
  assert (Hfull0 : forall n, lo <= n <= f0 -> full_file P fs0 n).
  { intros n Hn'. apply Hfull. rewrite Efiles. apply (HN nfiles_In); lia. }
  split; [exact Hlo|]. split; [exact Efiles|]. split; [exact Hfull0|].
  split; [split; [apply Hfull0; lia|intros n H1 H2'; now apply Hfresh]|].
  split; [rewrite <- Efiles; apply Hdir; exact Hu|].
  split; [unfold wstream; now rewrite (vfs_nil w Hp0), Efiles|].
  unfold wpos. f_equal. f_equal. lia.
Qed.

Lemma image_shape_of_trace w G (NEW : bytes) f1 off1 evs pe :
  PInvJ0 w G -> w_pending w = [] ->
  call_trace P (wlo w) (w_file w) (w_off w) NEW f1 off1 evs -> f1 <= U64_MAX -> cpre pe evs ->
  let fs0 := c_fs (w_ctx w) in
  let lo := wlo w in
  let T := jT0 G in
  let c0 := (wlo w - gh_base G) * FB + wpos P w in
  let img := fold_left apply_event pe fs0 in
  let j := lenN (ev_data pe) in
  exists (nu : nat) (hi : N) (z : N),
    let lo' := lo + N.of_nat nu in
    lo' <= hi /\ w_file w <= hi /\ hi <= f1 /\ hi <= U64_MAX /\
    nodup_keys img /\ dir_of img (nfiles lo' hi) /\ list_wal_numbers img = nfiles lo' hi /\
    (forall n, lo' <= n <= hi ->
       exists b, fs_get img (filename n) = Some (FFile b) /\ lenN b <= FB /\ (n <> hi -> lenN b = FB)) /\
    ev_data pe = takeN j NEW /\ j <= lenN NEW /\
    stream_of (zext P img hi) (nfiles lo' hi) =
      dropN ((lo' - gh_base G) * FB)
            (T ++ zerosN (c0 - lenN T) ++ takeN j NEW ++ zerosN z) /\
    c0 + j + z = (hi + 1 - gh_base G) * FB /\
    (nu <> 0%nat -> j = lenN NEW).
Proof.
  clear Hpc0 Hrm0 Hadm0 HIO HSHORT Hnc. clear adm0 cmax0 rm0.
  intros HP Hp0 Hct Hu' Hc. cbn zeta.
  destruct (pinvJ_setup P HBS_lo HBS_hi HNB Hcrc PRE0 OLD0 opos0 w G HP)
    as (Hlb & Ebuf & HS & Hposn & Hn & Hn1). cbn zeta in *.
  pose proof HP as (Hw & (_ & Hdir) & Hnd & Hbase & Hc1 & Hc2 & _). cbn zeta in Hc1, Hc2.
  pose proof Hw as (Hok & Hwf' & Hoff & Hplan & Hu & Hfull & Hfresh).
  rewrite (vfs_nil w Hp0) in Hfull, Hfresh.
  destruct (pinvJ_files w G HP Hp0) as (Hlo & Efiles & Hfull0 & Hgood & Hdir0 & ES0 & Epos). cbn zeta in *.
  set (fs0 := c_fs (w_ctx w)) in *. set (lo := wlo w) in *. set (f0 := w_file w) in *.
  destruct (cpre_data_take _ _ Hc) as (Hdata & Hj).
  rewrite (call_trace_data _ _ _ _ _ _ _ _ Hct) in Hdata, Hj.
  destruct (HW call_trace_img _ _ _ _ _ _ _ Hct pe fs0 U64_MAX Hc Hgood Hlo Hu' (N.le_refl _))
    as (imgW & fc & short & mu & Hok' & Hfc & Hmu & Hfold & Hfullj).
  pose proof (HW img_ok_len _ _ _ _ _ _ _ Hok' (Hfull0 f0 ltac:(lia)) Hoff ltac:(lia)) as Hlen.
  destruct (HW assemble fs0 lo f0 (w_off w) imgW (ev_data pe) fc short mu Hlo ltac:(lia) Hfull0 Hdir0
              Hok' Hmu) as (Hdir' & Hlen' & Hstr').
  pose proof Hok' as (Hle' & _).
  set (j := lenN (ev_data pe)) in *.
  exists mu, fc,
    (lenN (w_files w) * FB + (fc - f0) * FB - wpos P w - j).
  rewrite Hfold.
  assert (Hndi : nodup_keys (remove_files imgW (iota lo mu))).
  { rewrite <- Hfold. apply fold_nodup. exact Hnd. }
  split; [exact Hmu|]. split; [exact Hle'|]. split; [exact Hfc|]. split; [lia|].
  split; [exact Hndi|].
  split; [exact Hdir'|]. split; [apply (HN dir_listing); [exact Hndi|exact Hdir'|exact Hmu|lia]|].
  split.
  { (* only the top file may be short, and then it is empty *)
    intros n Hn'. destruct (Hlen' n Hn') as (b & Hb & Hlb'). exists b. split; [exact Hb|].
    destruct (N.eqb_spec n fc) as [->|Hne]; destruct short; cbn [andb] in Hlb'; split;
      (clear - Hlb' Hne || clear - Hlb'); lia. }
  split; [exact Hdata|]. split; [exact Hj|].
  assert (Hbound' : wpos P w + j <= lenN (w_files w) * FB + (fc - f0) * FB).
  { rewrite <- Epos. replace (lenN (w_files w)) with (f0 - lo + 1) by lia. lia. }
  split.
  { rewrite Hstr', ES0, Epos, HS. rewrite <- Hdata.
    replace (lo + N.of_nat mu - gh_base G) with ((lo - gh_base G) + N.of_nat mu) by lia.
    rewrite N.mul_add_distr_r.
    apply (HW stream_to_ghost); try assumption; try reflexivity. }
  split.
  { replace (fc + 1 - gh_base G) with ((lo - gh_base G) + lenN (w_files w) + (fc - f0)) by lia.
    lia. }
  intros Hnu. destruct (Hfullj Hnu) as (E & _). unfold j. now rewrite E.
Qed.

(* the fixed prefix grows by the entries es, encoded from the end of PRE0 on *)
Lemma pre_ok_app PRE OLD es :
  ser OLD = ser OLD0 ++ es -> lenN PRE0 + lenN (encs_of (lenN PRE0) es) <= lenN PRE ->
  pre_ok PRE OLD (opos0 ++ starts (lenN PRE0) es).
Proof.
  clear Hpc0 Hrm0 Hadm0 HGC HIO HSHORT Hnc HNB. clear adm0 cmax0 rm0.
  intros EO Hlen. pose proof Hpre0 as (Hl0 & Hb0 & Hs0).
  pose proof (H3 starts_bounds es (lenN PRE0)) as Hsb. unfold ResyncProofs.cursor_after in Hsb.
  split.
  { rewrite app_length, (ResyncProofs.starts_length P), Hl0.
    rewrite <- (map_length entry_ser OLD), EO, app_length, map_length. reflexivity. }
  split.
  { apply Forall_app. split.
    - eapply Forall_impl; [|exact Hb0]. cbn beta. intros s Hs. clear - Hs Hlen. lia.
    - eapply Forall_impl; [|exact Hsb]. cbn beta. intros s (_ & _ & Hs). clear - Hs Hlen. lia. }
  apply StronglySorted_app_lt; [exact Hs0|apply (H3 starts_sorted)|].
  intros x y Hx Hy. rewrite Forall_forall in Hb0. specialize (Hb0 x Hx).
  rewrite Forall_forall in Hsb. destruct (Hsb y Hy) as (H1 & H2' & _). clear - Hb0 H1 H2'. lia.
Qed.

Lemma jpos_app G G' X :
  (length OLD0 <= length (gh_ALL G))%nat -> gh_ALL G' = gh_ALL G ++ X ->
  jpos0 G' = jpos0 G ++ starts (lenN (jT0 G)) (ser X).
Proof.
  clear Hpre0 Hpc0 Hrm0 Hadm0 HGC HIO HSHORT Hnc HNB. clear adm0 cmax0 rm0.
  intros Hl E. unfold JInv.jpos, JInv.jser, JInv.jNEW. rewrite E, skipn_app_le by exact Hl.
  rewrite map_app, (H3 starts_app), <- app_assoc. do 3 f_equal.
  symmetry. apply (jT_len P PRE0 OLD0 G).
Qed.

(* The positions of the entries not yet collected are not below the start of the first file
   wlo w: in a ghost Gd that has collected what G has and holds the entries X behind those of G
   (the entries of X start at or after the cursor), *)
Lemma prefix_positions w G Gd X :
  PInvJ0 w G -> gh_before Gd = gh_before G -> gh_ALL Gd = gh_ALL G ++ X ->
  Forall (fun s => (wlo w - gh_base G) * FB <= snd s) (skipn (gh_k Gd) (jpos0 Gd)).
Proof.
  clear Hpc0 Hrm0 Hadm0 HGC HIO HSHORT Hnc. clear adm0 cmax0 rm0.
  intros HP Ebef EALL.
  assert (Ekd : gh_k Gd = gh_k G) by (rewrite <- !gh_before_length, Ebef; reflexivity).
  rewrite (jpos_app G Gd X (jlen_le P HBS_lo HBS_hi HNB Hcrc PRE0 OLD0 opos0 w G HP) EALL).
  rewrite Ekd, skipn_app_le.
  2:{ rewrite (jpos_length P HBS_lo HBS_hi HNB Hcrc PRE0 OLD0 opos0 w G Hpre0 HP).
      rewrite gh_ALL_split, app_length, gh_before_length. lia. }
  apply Forall_app. split; [exact (pinvJ_E_positions P PRE0 OLD0 opos0 w G HP)|].
  pose proof HP as (_ & _ & _ & _ & _ & Hc2 & _). cbn zeta in Hc2.
  eapply Forall_impl; [|exact (starts_ge_ffp P HBS_lo HBS_hi Hcrc (ser X) (lenN (jT0 G)))].
  cbn beta. intros s Hs. clear - Hs Hc2. lia.
Qed.

(* and in the ghost G itself, for any lo' up to wlo w *)
Lemma later_positions w G lo' :
  PInvJ0 w G -> lo' <= wlo w ->
  Forall (fun s => (lo' - gh_base G) * FB <= snd s) (skipn (gh_k G) (jpos0 G)).
Proof.
  clear Hpre0 Hpc0 Hrm0 Hadm0 HGC HIO HSHORT Hnc. clear adm0 cmax0 rm0.
  intros HP Hle.
  eapply Forall_impl; [|exact (pinvJ_E_positions P PRE0 OLD0 opos0 w G HP)]. cbn beta. intros s Hs.
  assert ((lo' - gh_base G) * FB <= (wlo w - gh_base G) * FB) by (apply N.mul_le_mono_r; clear - Hle; lia).
  clear - H Hs. lia.
Qed.

(* A virtual call st -> st' that logs the entries X and issues the file events evs: it keeps the
   invariant, its events are a call_trace of the bytes of X at the cursor, and every prefix of X
   is a logical state (that of st if the prefix is empty, that of st' otherwise). *)
Definition vcall (st : state) (G : ghost) (X : list entry) (st' : state) (G' : ghost)
    (evs : list event) : Prop :=
  InvJ0 st G /\ w_pending (s_wr st) = [] /\
  InvJ0 st' G' /\ gh_base G' = gh_base G /\ gh_ALL G' = gh_ALL G ++ X /\
  w_pending (s_wr st') = [] /\ Forall wf_entry X /\
  call_trace P (wlo (s_wr st)) (w_file (s_wr st)) (w_off (s_wr st))
             (encs_of (call_cursor P st G) (ser X)) (w_file (s_wr st')) (w_off (s_wr st')) evs /\
  c_fs (w_ctx (s_wr st')) = fold_left apply_event evs (c_fs (w_ctx (s_wr st))) /\
  (forall Xd Xr, X = Xd ++ Xr ->
     exists Gd qsd,
       LInv qsd (wlo (s_wr st)) Gd /\ gh_base Gd = gh_base G /\ gh_before Gd = gh_before G /\
       map snd (gh_E Gd) = map snd (gh_E G) ++ Xd /\
       (Xd = [] -> forall q, s_get (abs_qs qsd) q = s_get (abs_qs (s_qs st)) q) /\
       (Xd <> [] -> forall q, s_get (abs_qs qsd) q = s_get (abs_qs (s_qs st')) q)) /\
  (X = [] -> forall q, s_get (abs_qs (s_qs st')) q = s_get (abs_qs (s_qs st)) q).

(* an API call that returns without I/O error is one *)
Lemma step_vcall st G a o tick st' out :
  InvJ0 st G -> w_pending (s_wr st) = [] -> s_pol st = PAlways a -> op_wf_strict (s_qs st) o ->
  stream_boundJ P PRE0 OLD0 G (map snd (step_log P st o)) ->
  step P st o tick = (st', out) -> (forall e, out <> OutIo e) ->
  exists G' evs, c_ev (w_ctx (s_wr st')) = rev evs ++ c_ev (w_ctx (s_wr st)) /\
    vcall st G (map snd (step_log P st o)) st' G' evs.
Proof.
  clear Hpc0 Hrm0 Hadm0 HIO HSHORT Hnc. clear adm0 cmax0 rm0.
  intros HI Hp0 Hpol Hop Hsb Hstep Hno. pose proof HI as (HP & HL).
  destruct (invJ_step P HBS_lo HBS_hi HNB Hcrc HGC PRE0 OLD0 opos0 Hpre0 st G o tick st' out HI Hop Hsb Hstep Hno)
    as (G' & HI' & Eb & Ed & Elog).
  destruct (pinvJ_step_call_trace P HBS_lo HBS_hi HNB Hcrc HGC PRE0 OLD0 opos0 st G a o tick st' out
              HP Hp0 Hpol Hsb Hstep Hno) as (evs & Hev & Hfs & Hct & Hp0').
  cbn zeta in *.
  exists G', evs. split; [exact Hev|].
  split; [exact HI|]. split; [exact Hp0|]. split; [exact HI'|]. split; [exact Eb|].
  split; [unfold gh_ALL; rewrite Ed, Elog, map_app, app_assoc; reflexivity|].
  split; [exact Hp0'|].
  split; [apply Forall_map; exact (step_log_wf P st o (proj1 HL) (op_wf_strict_wf _ _ Hop))|].
  split; [exact Hct|]. split; [exact Hfs|].
  split; [exact (call_prefix_linvJ P HBS_lo HBS_hi HNB Hcrc HGC PRE0 OLD0 opos0 Hpre0 st G o tick st' out
                   HI Hop Hsb Hstep Hno)|].
  (* nothing logged: the replay of the log of the call is the identity *)
  intros E0 q. pose proof (step_replay P st o tick (LInv_nodup _ _ _ HL)) as Hrep.
  rewrite Hstep in Hrep. cbn [fst snd] in Hrep. specialize (Hrep Hno).
  rewrite (map_eq_nil snd _ E0) in Hrep. cbn [replay_entries] in Hrep. injection Hrep as <-. reflexivity.
Qed.

(* the same from the premises on the state alone (crash_phys_bound) *)
Lemma call_vcall st G a o tick st' out :
  InvJ0 st G -> w_pending (s_wr st) = [] -> s_pol st = PAlways a -> op_wf_strict (s_qs st) o ->
  crash_phys_bound P (s_wr st) (map snd (step_log P st o)) (abs_qs (s_qs st)) ->
  crash_phys_bound P (s_wr st) (map snd (step_log P st o)) (abs_qs (s_qs st')) ->
  step P st o tick = (st', out) ->
  (forall e, out <> OutIo e) /\
  crash_boundJ G (map snd (step_log P st o)) (abs_qs (s_qs st)) /\
  crash_boundJ G (map snd (step_log P st o)) (abs_qs (s_qs st')) /\
  exists G' evs, c_ev (w_ctx (s_wr st')) = rev evs ++ c_ev (w_ctx (s_wr st)) /\
    vcall st G (map snd (step_log P st o)) st' G' evs.
Proof.
  clear Hpc0 Hrm0 Hadm0 HIO HSHORT Hnc. clear adm0 cmax0 rm0.
  intros HI Hp0 Hpol Hop Hb1 Hb2 Hstep.
  pose proof (crash_phys_bound_ghostJ P HBS_lo HBS_hi HNB Hcrc PRE0 OLD0 opos0 _ G _ _ (proj1 HI) Hb1) as Hc1.
  pose proof (crash_phys_bound_ghostJ P HBS_lo HBS_hi HNB Hcrc PRE0 OLD0 opos0 _ G _ _ (proj1 HI) Hb2) as Hc2.
  pose proof (crash_boundJ_stream_boundJ P HBS_lo HBS_hi HNB Hcrc PRE0 OLD0 _ _ _ Hc1) as Hsb.
  pose proof (stepJ_no_io P HBS_lo HBS_hi HNB Hcrc HGC PRE0 OLD0 opos0 Hpre0 st G o tick HI Hop Hsb) as Hno.
  rewrite Hstep in Hno. cbn [snd] in Hno.
  split; [exact Hno|]. split; [exact Hc1|]. split; [exact Hc2|].
  exact (step_vcall st G a o tick st' out HI Hp0 Hpol Hop Hsb Hstep Hno).
Qed.

(* The logical state of a crash image, listing the files from lo' on, in which the entries Xd of
   the call have arrived: that of the delivered prefix while the call has unlinked nothing; once it
   unlinks, all its entries have arrived and the state is that after the call. *)
Lemma vcall_log st G X st' G' evs Xd Xr lo' :
  vcall st G X st' G' evs -> X = Xd ++ Xr ->
  lo' = wlo (s_wr st) \/ (lo' <= wlo (s_wr st') /\ Xr = []) ->
  exists qs_log lo_log Glog,
    LInv qs_log lo_log Glog /\ gh_ALL Glog = gh_ALL G ++ Xd /\ gh_base Glog = gh_base G /\
    Forall (fun s => (lo' - gh_base G) * FB <= snd s) (skipn (gh_k Glog) (jpos0 Glog)) /\
    ((forall q, s_get (abs_qs qs_log) q = s_get (abs_qs (s_qs st)) q) \/
     (forall q, s_get (abs_qs qs_log) q = s_get (abs_qs (s_qs st')) q)).
Proof.
  clear Hpc0 Hrm0 Hadm0 HGC HIO HSHORT Hnc. clear adm0 cmax0 rm0.
  intros (HI & _ & HI' & Eb & EALL' & _ & _ & _ & _ & Hprefix & Hnilabs) HX [->|(Hle & ->)].
  - destruct (Hprefix Xd Xr HX) as (Gd & qsd & HLd & Ebd & Ebefd & EEd & Hnil & Hcons).
    assert (EALLd : gh_ALL Gd = gh_ALL G ++ Xd).
    { rewrite gh_ALL_split, Ebefd, EEd, app_assoc, <- gh_ALL_split. reflexivity. }
    exists qsd, (wlo (s_wr st)), Gd. split; [exact HLd|]. split; [exact EALLd|]. split; [exact Ebd|].
    split; [exact (prefix_positions _ G Gd Xd (proj1 HI) Ebefd EALLd)|].
    destruct Xd as [|x Xd'']; [left; now apply Hnil|right; apply Hcons; discriminate].
  - rewrite app_nil_r in HX. subst Xd.
    exists (s_qs st'), (wlo (s_wr st')), G'.
    split; [exact (proj2 HI')|]. split; [exact EALL'|]. split; [exact Eb|].
    split; [rewrite <- Eb; exact (later_positions _ G' lo' (proj1 HI') Hle)|].
    destruct (nil_dec X) as [E0|Hne]; [left; exact (Hnilabs E0)|right; intros q; reflexivity].
Qed.

(* The recovery of a crash image of a virtual call: the hypotheses of JRecoverPk.rc_open for the
   image, under the most general premise on the crash point pe (all the data of the call are in
   the image; or, for the top file hi of the image, the torn data leave a whole block of hi or
   end exactly at its end). *)
Theorem recover_vcall_setup_gen st G (X : list entry) st' G' evs :
  vcall st G X st' G' evs ->
  crash_boundJ G X (abs_qs (s_qs st)) ->
  crash_boundJ G X (abs_qs (s_qs st')) ->
  forall pe, cpre pe evs ->
      ((lenN (ev_data pe) = lenN (encs_of (call_cursor P st G) (ser X)) /\
        lenN PRE0 + rm0 <= (w_file (s_wr st) + 1 - gh_base G) * FB) \/
       forall hi, is_top (fold_left apply_event pe (c_fs (w_ctx (s_wr st)))) hi -> w_file (s_wr st) <= hi ->
         w_file (s_wr st) * FB + w_off (s_wr st) + lenN (ev_data pe) + B <= (hi + 1) * FB \/
         (w_file (s_wr st) * FB + w_off (s_wr st) + lenN (ev_data pe) = (hi + 1) * FB /\
          lenN PRE0 + rm0 <= (w_file (s_wr st) + 1 - gh_base G) * FB)) ->
      let img := fold_left apply_event pe (c_fs (w_ctx (s_wr st))) in
      exists PRE OLD opos adm cmax rm lo' n zz qs_log lo_log Glog,
        pre_ok PRE OLD opos /\ pre_cont P PRE (ser OLD) opos adm cmax rm /\ rm <= 7 /\
        (forall m, adm (m * NB P)) /\
        rc_hyps P PRE OLD opos adm rm img lo' n (gh_base G) zz qs_log lo_log Glog /\
        is_top img (lo' + N.of_nat n) /\ w_file (s_wr st) <= lo' + N.of_nat n /\
        lo' + N.of_nat n <= w_file (s_wr st') /\
        ((forall q, s_get (abs_qs qs_log) q = s_get (abs_qs (s_qs st)) q) \/
         (forall q, s_get (abs_qs qs_log) q = s_get (abs_qs (s_qs st')) q)).
Proof.
  intros Hv Hcb Hcb' pe Hcpre Hfitpe. cbn zeta.
  pose proof Hv as (HI & Hp0 & HI' & Eb & EALL' & Hp0' & HwfX & Hct & Hfs & _).
  revert Hfitpe.
  pose proof HI as (HP & _). pose proof HI' as (HP' & _).
  pose proof HP' as (Hw' & _). pose proof Hw' as (Hok' & _ & _ & _ & Hu' & Hfull' & _).
  rewrite (vfs_nil _ Hp0') in Hfull'.
  destruct (image_shape_of_trace (s_wr st) G _ _ _ evs pe HP Hp0 Hct Hu' Hcpre)
    as (nu & hi & z & Hlohi & Hf0hi & Hhif1 & Hhimax & Hndk & Hdir &
        Hlist & Hlens & Hdata & Hj & Hstream & Hlen & Hnuj).
  cbn zeta in *.
  set (img := fold_left apply_event pe (c_fs (w_ctx (s_wr st)))) in *.
  set (j := lenN (ev_data pe)) in *.
  set (w := s_wr st) in *. set (lo := wlo w) in *. set (lo' := lo + N.of_nat nu) in *.
  set (base := gh_base G) in *. set (T := jT0 G) in *.
  change ((wlo (s_wr st) - gh_base G) * FB + wpos P (s_wr st)) with (call_cursor P st G) in *.
  set (c0 := call_cursor P st G) in *.
  set (NEW := encs_of c0 (ser X)) in *.
  pose proof HP as (_ & _ & _ & Hbase & Hc1 & Hc2 & _ & HWf & _). cbn zeta in Hc1, Hc2.
  set (fs0 := c_fs (w_ctx w)) in *. set (f0 := w_file w) in *.
  fold base in Hbase. fold lo in Hbase.
  set (w' := s_wr st') in *. set (f1 := w_file w') in *.
  destruct (wr_ok_len P (HN HB0) HNB w' Hok') as (Hn' & Hn1').
  destruct (pinvJ_files w G HP Hp0) as (Hlo & _ & Hfull0 & Hgood & Hdirf & _ & Epos).
  destruct (image_dir_of_trace lo f0 (w_off w) NEW f1 (w_off w') evs pe fs0 lo' hi Hct Hcpre Hgood Hfull0
              Hdirf Hlo Hu' Hlohi Hf0hi Hhif1 Hdir) as (Htophi & Hreach & Hpresent).
  fold img in Htophi. pose proof Htophi as (_ & _ & Htop).
  assert (Hlo'x : lo' <= wlo w').
  { apply Hpresent; [clear - Hn' Hn1' Hu'; lia|].
    destruct (Hfull' (wlo w')) as (b & Hb & _); [apply (HN RestartGc.wr_ok_In); [exact Hok'|lia]|].
    exists b. rewrite <- Hfs. exact Hb. }
  clear Hpresent.
  set (n := N.to_nat (hi - lo')).
  assert (Ecur : lo' + N.of_nat n = hi) by (unfold n; clear - Hlohi; lia).
  assert (Eext : fs_ext P img lo' n = zext P img hi).
  { unfold fs_ext. rewrite Ecur. reflexivity. }
  assert (Hbase'' : base <= lo') by (clear - Hbase; lia).
  assert (Ec0 : c0 = (lo - base) * FB + wpos P w) by reflexivity.
  assert (ENEW : NEW = encs_of c0 (ser X)) by reflexivity.
  set (a0 := lenN PRE0) in *.
  assert (ET : T = PRE0 ++ encs_of a0 (jser0 G)) by reflexivity.
  pose proof (jALL_split P PRE0 OLD0 opos0 w G HP) as HALLs.
  pose proof (jlen_le P HBS_lo HBS_hi HNB Hcrc PRE0 OLD0 opos0 w G HP) as Hjlen.
  assert (Hc1c : lenN T <= c0) by exact Hc1.
  assert (Hc2c : c0 <= ffp (lenN T)) by exact Hc2.
  (* the cursor lies in file f0 *)
  assert (Ec0f : c0 = (f0 - base) * FB + w_off w).
  { rewrite Ec0, <- Epos.
    replace (f0 - base) with ((lo - base) + (f0 - lo)) by (clear - Hbase Hlo; lia).
    rewrite N.mul_add_distr_r. apply N.add_assoc. }
  assert (Hbf0 : base <= f0) by (clear - Hbase Hlo; lia).
  assert (Hreach' : (hi - base) * FB <= c0 + j)
    by exact (reach_conv base f0 hi FB (w_off w) j c0 Hbf0 Hf0hi Ec0f Hreach).
  set (S_all := T ++ zerosN (c0 - lenN T) ++ takeN j NEW ++ zerosN z) in *.
  assert (HlenS : lenN S_all = (hi - base + 1) * FB).
  { unfold S_all. rewrite !lenN_app, !lenN_zerosN, lenN_takeN.
    replace (hi - base + 1) with (hi + 1 - base) by (clear - Hbase'' Hlohi; lia).
    clear - Hc1c Hj Hlen Ec0. lia. }
  assert (HokS : stream_ok P S_all).
  { exists ((hi - base + 1) * NB P). rewrite HlenS. unfold FILE_BYTES. lia. }
  rewrite ENEW in Hj.
  assert (HlT0 : lenN T = a0 + lenN (encs_of a0 (jser0 G))) by (rewrite ET, lenN_app; reflexivity).
  assert (Ehb : hi - base + 1 = hi + 1 - base) by (clear - Hbase'' Hlohi; lia).
  assert (ElS : lenN S_all = (hi + 1 - base) * FB)
    by exact (eq_trans HlenS (f_equal (fun x => x * FB) Ehb)).
  assert (HSeq : S_all = T ++ zerosN (c0 - lenN T) ++ takeN j (encs_of c0 (ser X)) ++ zerosN z)
    by (unfold S_all; rewrite ENEW; reflexivity).
  intros Hfitpe.
  destruct (cut_cases base f0 hi FB B (w_off w) j (lenN (encs_of c0 (ser X))) c0 (lenN S_all) a0 rm0
              Hbf0 Hf0hi Ec0f ElS) as (Hcase & Hroom0).
  { clear - HlT0 Hc1c. lia. }
  { clear - Hrm0 HBS_lo. lia. }
  { destruct Hfitpe as [H|Hf]; [left; exact H|right; exact (Hf hi Htophi Hf0hi)]. }
  destruct (crash_stream_pre3 P HBS_lo HBS_hi Hcrc PRE0 (ser OLD0) opos0 adm0 cmax0 rm0 (jser0 G)
              c0 (ser X) j z S_all Hnc Hpc0 Hrm0 Hc1c Hc2c Hj HSeq HokS Hcase Hroom0)
    as (xs_d & xs_r & PRE & cmax & rm & zz & Hxs & Hpc & HSp & Hroom & Hcm & Hrm7 & Hblk2 &
        HTP & Hc0P & HoldP & HPT' & Hfullj).
  clear Hfitpe Ehb ElS HSeq Hcase Hroom0.
  change (lenN (PRE0 ++ encs_of (lenN PRE0) (jser0 G))) with (lenN T) in HTP.
  set (adm := adm0).
  fold a0 in Hpc, HoldP, HPT'.
  destruct (map_app_inv entry_ser X _ _ Hxs) as (Xd & Xr & HX & HXd & HXr).
  set (OLD := gh_ALL G ++ Xd).
  set (opos := opos0 ++ starts a0 (jser0 G ++ xs_d)).
  assert (EserO : ser OLD = ser OLD0 ++ jser0 G ++ xs_d).
  { unfold OLD. rewrite HALLs at 1. rewrite !map_app, HXd, <- app_assoc. reflexivity. }
  assert (Hpre : pre_ok PRE OLD opos) by exact (pre_ok_app PRE OLD (jser0 G ++ xs_d) EserO HoldP).
  assert (Hpc' : pre_cont P PRE (ser OLD) opos adm cmax rm).
  { unfold opos. rewrite EserO. exact Hpc. }
  assert (Hadm_all : forall mm, adm (mm * NB P)) by exact Hadm0.
  assert (Hhi' : (hi - base) * FB <= ffp (lenN PRE)).
  { replace ((hi - base) * FB) with ((hi - base) * NB P * B) by (unfold FILE_BYTES; lia).
    apply Hblk2. replace ((hi - base) * NB P * B) with ((hi - base) * FB) by (unfold FILE_BYTES; lia).
    exact Hreach'. }
  assert (HwfO : Forall wf_entry OLD).
  { unfold OLD. apply Forall_app. split; [exact HWf|].
    rewrite HX in HwfX. apply Forall_app in HwfX. apply HwfX. }
  assert (Hbffp : (lo' - base) * FB <= ffp (lenN PRE)).
  { assert ((lo' - base) * FB <= (hi - base) * FB) by (apply N.mul_le_mono_r; clear - Hlohi; lia).
    clear - H Hhi'. lia. }
  assert (Hadmk : adm ((lo' - base) * NB P)) by apply Hadm_all.
  assert (Hgc_any : forall mabs, crash_boundJ G X mabs ->
            forall extra, pos_extra mabs extra ->
              FB * base + cursor_after (lenN PRE) (ser extra) <= FB * (U64_MAX + 1)).
  { intros mabs Hcbm extra Hx. apply (Hcbm (lenN PRE) extra Hx); [exact HTP|].
    rewrite map_app. fold (jser0 G). fold a0. unfold ResyncProofs.cursor_after. exact HPT'. }
  destruct (vcall_log st G X st' G' evs Xd Xr lo' Hv HX)
    as (qs_log & lo_log & Glog & HLlog & HALLlog & Eblog & Hklog & Habs).
  { destruct nu as [|nu']; [left; exact (N.add_0_r lo)|right].
    split; [exact Hlo'x|].
    (* some files are unlinked: everything was written *)
    assert (Hjfull : j = lenN NEW) by (apply Hnuj; discriminate).
    destruct Xr as [|xr Xr']; [reflexivity|exfalso].
    assert (Hne : xs_r <> []) by (rewrite <- HXr; discriminate).
    specialize (Hfullj Hne). rewrite <- ENEW in Hfullj. clear - Hfullj Hjfull. lia. }
  assert (Eopos : opos = jpos0 Glog).
  { unfold opos, JInv.jpos, JInv.jser, JInv.jNEW. rewrite HALLlog, skipn_app_le by exact Hjlen.
    rewrite map_app, HXd. reflexivity. }
  rewrite <- Eopos in Hklog.
  assert (Hgcb : forall extra, pos_extra (abs_qs qs_log) extra ->
            FB * base + cursor_after (lenN PRE) (ser extra) <= FB * (U64_MAX + 1)).
  { destruct Habs as [Ha|Ha].
    - apply (Hgc_any (abs_qs qs_log)). exact (crash_boundJ_ext P PRE0 OLD0 G X _ _ Ha Hcb).
    - apply (Hgc_any (abs_qs qs_log)). exact (crash_boundJ_ext P PRE0 OLD0 G X _ _ Ha Hcb'). }
  exists PRE, OLD, opos, adm, cmax, rm, lo', n, zz, qs_log, lo_log, Glog.
  split; [exact Hpre|]. split; [exact Hpc'|]. split; [exact Hrm7|]. split; [exact Hadm_all|].
  rewrite Ecur.
  split; [|exact (conj Htophi (conj Hf0hi (conj Hhif1 Habs)))].
  unfold rc_hyps. cbv zeta. rewrite Ecur, Eext, <- HSp.
  split; [exact Hlist|].
  split; [intros f Hf; apply iota_In in Hf; apply Hlens; clear - Hf Ecur; lia|].
  split; [exact Hbase''|]. split; [exact Hhimax|].
  split; [exact Hndk|]. split; [exact Hdir|]. split; [exact Htop|]. split; [exact Hstream|].
  split; [exact HlenS|]. split; [exact Hadmk|]. split; [exact Hroom|]. split; [exact HwfO|].
  split; [exact Hhi'|]. split; [exact Hbffp|]. split; [exact HLlog|]. split; [exact HALLlog|].
  split; [exact Eblog|]. split; [exact Hklog|exact Hgcb].
Qed.

Theorem recover_vcall_setup st G (X : list entry) st' G' evs :
  vcall st G X st' G' evs ->
  crash_boundJ G X (abs_qs (s_qs st)) ->
  crash_boundJ G X (abs_qs (s_qs st')) ->
  w_file (s_wr st') = w_file (s_wr st) ->
  w_off (s_wr st') + B <= FB ->
  forall pe, cpre pe evs ->
      let img := fold_left apply_event pe (c_fs (w_ctx (s_wr st))) in
      exists PRE OLD opos adm cmax rm lo' n zz qs_log lo_log Glog,
        pre_ok PRE OLD opos /\ pre_cont P PRE (ser OLD) opos adm cmax rm /\ rm <= 7 /\
        (forall m, adm (m * NB P)) /\
        rc_hyps P PRE OLD opos adm rm img lo' n (gh_base G) zz qs_log lo_log Glog /\
        lo' + N.of_nat n = w_file (s_wr st) /\
        ((forall q, s_get (abs_qs qs_log) q = s_get (abs_qs (s_qs st)) q) \/
         (forall q, s_get (abs_qs qs_log) q = s_get (abs_qs (s_qs st')) q)).
Proof.
  intros Hv Hcb Hcb' Hroll Hblkend pe Hcpre. cbn zeta.
  pose proof Hv as (HI & _ & _ & _ & _ & _ & _ & Hct & _).
  assert (Hfit : w_off (s_wr st) + lenN (ev_data pe) + B <= FB).
  { pose proof HI as (HP & _). pose proof HP as (Hw & _). pose proof Hw as (_ & _ & Hoff & _).
    pose proof (HW call_trace_pos _ _ _ _ _ _ _ Hct Hoff) as Hctp.
    destruct (cpre_data_take _ _ Hcpre) as (_ & Hj).
    rewrite (call_trace_data _ _ _ _ _ _ _ _ Hct) in Hj. rewrite Hroll in Hctp.
    clear - Hctp Hj Hblkend. lia. }
  destruct (recover_vcall_setup_gen st G X st' G' evs Hv Hcb Hcb' pe Hcpre)
    as (PRE & OLD & opos & adm & cmax & rm & lo' & n & zz & qs_log & lo_log & Glog &
        H1 & H2' & H3' & H4 & H5 & _ & H6 & H6' & H7).
  { right. intros hi _ Hle. left.
    assert ((w_file (s_wr st) + 1) * FB <= (hi + 1) * FB) by (apply N.mul_le_mono_r; clear - Hle; lia).
    rewrite N.mul_add_distr_r in H. clear - H Hfit. lia. }
  exists PRE, OLD, opos, adm, cmax, rm, lo', n, zz, qs_log, lo_log, Glog.
  repeat (split; [assumption|]). split; [rewrite Hroll in H6'; clear - H6 H6'; lia|]. exact H7.
Qed.

(* the recovery of a crash image of a virtual call *)
Theorem recover_vcall st G (X : list entry) st' G' evs :
  vcall st G X st' G' evs ->
  crash_boundJ G X (abs_qs (s_qs st)) ->
  crash_boundJ G X (abs_qs (s_qs st')) ->
  w_file (s_wr st') = w_file (s_wr st) ->
  w_off (s_wr st') + B <= FB ->
  forall pe, cpre pe evs -> forall pol hint,
      let img := fold_left apply_event pe (c_fs (w_ctx (s_wr st))) in
      exists PRE OLD opos adm cmax rm st_r G_r,
        open P img None pol hint = OpenOk st_r /\
        pre_ok PRE OLD opos /\ pre_cont P PRE (ser OLD) opos adm cmax rm /\ rm <= 7 /\
        (forall m, adm (m * NB P)) /\
        InvJ P PRE OLD opos st_r G_r /\
        lenN PRE + rm <= (w_file (s_wr st_r) + 1 - gh_base G_r) * FB /\
        s_pol st_r = pol /\ w_pending (s_wr st_r) = [] /\
        ((forall q, s_get (abs_qs (s_qs st_r)) q = s_get (abs_qs (s_qs st)) q) \/
         (forall q, s_get (abs_qs (s_qs st_r)) q = s_get (abs_qs (s_qs st')) q)).
Proof.
  intros Hv Hcb Hcb' Hroll Hblkend pe Hcpre pol hint. cbn zeta.
  destruct (recover_vcall_setup st G X st' G' evs Hv Hcb Hcb' Hroll Hblkend pe Hcpre)
    as (PRE & OLD & opos & adm & cmax & rm & lo' & n & zz & qs_log & lo_log & Glog &
        Hpre & Hpc & Hrm & Hadm & Hrc & Ehi & Habs).
  cbn zeta in Hrc.
  pose proof (pre_reads_of_cont P HBS_lo HBS_hi Hcrc PRE (ser OLD) opos adm cmax rm Hpc) as Hrd.
  destruct (rc_open P HBS_lo HBS_hi HNB Hcrc HGC HIO HSHORT PRE OLD opos adm cmax rm _ lo' n
              (gh_base G) zz qs_log lo_log Glog Hpre Hrd Hrc pol hint)
    as (st_r & G_r & Hopen & HIr & Hroom & Habsr & _ & Hpolr & Hpendr).
  exists PRE, OLD, opos, adm, cmax, rm, st_r, G_r.
  split; [exact Hopen|]. split; [exact Hpre|]. split; [exact Hpc|]. split; [exact Hrm|].
  split; [exact Hadm|]. split; [exact HIr|]. split; [exact Hroom|].
  split; [exact Hpolr|]. split; [exact Hpendr|].
  destruct Habs as [Ha|Ha]; [left|right]; intros q; now rewrite Habsr, Ha.
Qed.

(* the recovery of a crash image of an API call *)
Theorem crashJ_recover_invJ st G a o tick st' out :
  InvJ0 st G -> w_pending (s_wr st) = [] -> s_pol st = PAlways a ->
  op_wf_strict (s_qs st) o ->
  stream_boundJ P PRE0 OLD0 G (map snd (step_log P st o)) ->
  crash_boundJ G (map snd (step_log P st o)) (abs_qs (s_qs st)) ->
  crash_boundJ G (map snd (step_log P st o)) (abs_qs (s_qs st')) ->
  step P st o tick = (st', out) -> (forall e, out <> OutIo e) ->
  w_file (s_wr st') = w_file (s_wr st) ->
  w_off (s_wr st') + B <= FB ->
  exists evs, c_ev (w_ctx (s_wr st')) = rev evs ++ c_ev (w_ctx (s_wr st)) /\
    forall cut k pol hint,
      let img := fold_left apply_event (crash_events evs cut k) (c_fs (w_ctx (s_wr st))) in
      exists PRE OLD opos adm cmax rm st_r G_r,
        open P img None pol hint = OpenOk st_r /\
        pre_ok PRE OLD opos /\ pre_cont P PRE (ser OLD) opos adm cmax rm /\ rm <= 7 /\
        (forall m, adm (m * NB P)) /\
        InvJ P PRE OLD opos st_r G_r /\
        lenN PRE + rm <= (w_file (s_wr st_r) + 1 - gh_base G_r) * FB /\
        s_pol st_r = pol /\ w_pending (s_wr st_r) = [] /\
        ((forall q, s_get (abs_qs (s_qs st_r)) q = s_get (abs_qs (s_qs st)) q) \/
         (forall q, s_get (abs_qs (s_qs st_r)) q = s_get (abs_qs (s_qs st')) q)).
Proof.
  intros HI Hp0 Hpol Hop Hsb Hcb Hcb' Hstep Hno Hroll Hblk.
  destruct (step_vcall st G a o tick st' out HI Hp0 Hpol Hop Hsb Hstep Hno) as (G' & evs & Hev & Hv).
  exists evs. split; [exact Hev|]. intros cut k pol hint.
  exact (recover_vcall st G _ st' G' evs Hv Hcb Hcb' Hroll Hblk _ (crash_events_cpre evs cut k) pol hint).
Qed.

End Recover3.

(* from a state satisfying Inv, which is InvJ for the empty prefix *)
Corollary crash_recover_invJ P (HBS_lo : 7 < BS P) (HBS_hi : BS P <= 65542) (HNB : 1 <= NB P)
    (Hcrc : forall t p, crcf P t p < 2 ^ 32) (HGC : L_GC P = false) (HIO : L_IO P = false)
    (HSHORT : L_SHORT P = false) (Hnc : no_zero_collision P) st G a o tick st' out :
  Inv P st G -> w_pending (s_wr st) = [] -> s_pol st = PAlways a ->
  op_wf_strict (s_qs st) o ->
  stream_bound P G (map snd (step_log P st o)) ->
  crash_bound P G (map snd (step_log P st o)) (abs_qs (s_qs st)) ->
  crash_bound P G (map snd (step_log P st o)) (abs_qs (s_qs st')) ->
  step P st o tick = (st', out) -> (forall e, out <> OutIo e) ->
  w_file (s_wr st') = w_file (s_wr st) ->
  w_off (s_wr st') + BS P <= FILE_BYTES P ->
  exists evs, c_ev (w_ctx (s_wr st')) = rev evs ++ c_ev (w_ctx (s_wr st)) /\
    forall cut k pol hint,
      let img := fold_left apply_event (crash_events evs cut k) (c_fs (w_ctx (s_wr st))) in
      exists PRE OLD opos adm cmax rm st_r G_r,
        open P img None pol hint = OpenOk st_r /\
        pre_ok PRE OLD opos /\ pre_cont P PRE (map entry_ser OLD) opos adm cmax rm /\ rm <= 7 /\
        (forall m, adm (m * NB P)) /\
        InvJ P PRE OLD opos st_r G_r /\
        lenN PRE + rm <= (w_file (s_wr st_r) + 1 - gh_base G_r) * FILE_BYTES P /\
        s_pol st_r = pol /\ w_pending (s_wr st_r) = [] /\
        ((forall q, s_get (abs_qs (s_qs st_r)) q = s_get (abs_qs (s_qs st)) q) \/
         (forall q, s_get (abs_qs (s_qs st_r)) q = s_get (abs_qs (s_qs st')) q)).
Proof.
  intros HI. apply (Inv_InvJ P HBS_lo HBS_hi Hcrc) in HI. revert HI.
  exact (crashJ_recover_invJ P HBS_lo HBS_hi HNB Hcrc HGC HIO HSHORT Hnc [] [] [] (fun _ => True) 0%nat 0
           pre_ok_nil (pre_cont_nil P HBS_lo HBS_hi Hcrc) (N.le_0_l 7) (fun _ => I) st G a o tick st' out).
Qed.

Print Assumptions recover_vcall_setup_gen.
Print Assumptions recover_vcall_setup.
Print Assumptions recover_vcall.
Print Assumptions crashJ_recover_invJ.
Print Assumptions crash_recover_invJ.
