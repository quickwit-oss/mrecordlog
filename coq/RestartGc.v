(* RestartGc.v — what run_gc_if_necessary does to the ghost and to the logical invariant.
   persist is invisible; the position records of the empty queues are ordinary writes
   (gh_app); the deletion of a prefix of unreferenced files moves the entries whose first
   frame lies in a deleted file from E to PRE (gh_move, linv_gc_move).  The geometry of a GC
   pass.  The physical side is JGc.v. *)
From Coq Require Import Lia ZArith ZifyN ZifyNat ZifyBool List Sorted.
From MRL Require Import Bytes BytesProofs Params Names NamesProofs Frame Record Mem Spec Rolling Log
  Driver SpecRefine RecordProofs StreamProofs PolicyProofs GcProofs GhostLog ReplaySpec
  HandleProofs FileStream ResyncProofs RestartInv RestartWrite.

Definition gh_move (G : ghost) (m : nat) : ghost :=
  mkGhost (gh_base G) (gh_dropped G) (gh_pre G ++ firstn m (gh_E G)) (skipn m (gh_E G)).

Lemma gh_move_log G m : gh_log (gh_move G m) = gh_log G.
Proof. unfold gh_log, gh_move. cbn [gh_pre gh_E]. now rewrite <- app_assoc, firstn_skipn. Qed.

Lemma gh_move_ALL G m : gh_ALL (gh_move G m) = gh_ALL G.
Proof. unfold gh_ALL. now rewrite gh_move_log. Qed.

Lemma gh_move_k G m : (m <= length (gh_E G))%nat -> gh_k (gh_move G m) = (gh_k G + m)%nat.
Proof.
  intros H. unfold gh_k, gh_move. cbn [gh_dropped gh_pre]. rewrite app_length, firstn_length. lia.
Qed.

Lemma nth_error_skipn' {A} : forall m (l : list A) i, nth_error (skipn m l) i = nth_error l (m + i).
Proof.
  induction m as [|m IH]; intros l i; [reflexivity|].
  destruct l as [|x l]; [now destruct i|]. cbn [skipn Nat.add nth_error]. apply IH.
Qed.

Lemma Forall2_Forall_r {A B} (R : A -> B -> Prop) (Q : B -> Prop) l1 l2 :
  Forall2 R l1 l2 -> Forall Q l2 -> Forall2 (fun a b => R a b /\ Q b) l1 l2.
Proof.
  induction 1 as [|a b l1 l2 Hab H IH]; intros HQ; [constructor|].
  inversion HQ; subst. constructor; [split; assumption|now apply IH].
Qed.

Lemma Forall2_impl' {A B} (R R' : A -> B -> Prop) l1 l2 :
  (forall a b, R a b -> R' a b) -> Forall2 R l1 l2 -> Forall2 R' l1 l2.
Proof. intros H. induction 1; constructor; auto. Qed.

Lemma records_of_nil buf ms : records_of buf ms = [] -> ms = [].
Proof. destruct ms; [reflexivity|discriminate]. Qed.

Lemma skipn_app_exact {A} (a b : list A) : skipn (length a) (a ++ b) = b.
Proof. induction a; [reflexivity|assumption]. Qed.

Lemma firstn_app_exact {A} (a b : list A) : firstn (length a) (a ++ b) = a.
Proof. induction a as [|x a IH]; [reflexivity|]. cbn [length app firstn]. now rewrite IH. Qed.

Lemma In_name_remove_conv h x : forall l, bytes_eqb h x = false -> In x l -> In x (name_remove h l).
Proof.
  induction l as [|y l IH]; intros Hne Hin; [contradiction|]. cbn [name_remove].
  destruct (bytes_eqb y h) eqn:Ey.
  - destruct Hin as [<-|Hin]; [|exact Hin]. rewrite bytes_eqb_sym in Ey. congruence.
  - destruct Hin as [<-|Hin]; [now left|]. right. now apply IH.
Qed.

Lemma In_pick_order_conv hint : forall remaining x,
  In x remaining -> In x (pick_order hint remaining).
Proof.
  induction hint as [|h r IH]; intros rem x Hx; cbn [pick_order]; [exact Hx|].
  destruct (name_mem h rem).
  - destruct (bytes_eqb h x) eqn:Ehx.
    + apply bytes_eqb_eq in Ehx. subst. now left.
    + right. apply IH. now apply In_name_remove_conv.
  - now apply IH.
Qed.

Lemma In_empty_names_conv qs q m : qs_get qs q = Some m -> mq_is_empty m = true -> In q (empty_names qs).
Proof.
  intros Eq Hem. unfold empty_names. apply (in_map fst _ (q, m)). apply filter_In.
  split; [now apply qs_get_In_eq|exact Hem].
Qed.

(* the logical half of a GC pass: the first kept file moves from lo to lo', the first m
   entries of E are those not tagged with a kept file, every file below lo' is unreferenced,
   and every empty queue has a position entry tagged at or after the guard g *)
Lemma linv_gc_move qs lo lo' G m (refd : N -> bool) g :
  LInv qs lo G -> (m <= length (gh_E G))%nat ->
  (forall j f e, nth_error (gh_E G) j = Some (f, e) -> lo' <= f -> (m <= j)%nat) ->
  (forall x, refd x = true -> lo <= x -> lo' <= x) ->
  (forall x, refd x = false -> qs_ref x qs = false) ->
  refd g = true -> lo <= g ->
  (forall q mq, qs_get qs q = Some mq -> mq_is_empty mq = true ->
     exists j f e, nth_error (gh_E G) j = Some (f, e) /\ creates e q = true /\ g <= f) ->
  LInv qs lo' (gh_move G m).
Proof.
  intros HL Hm Hkept Hkeep Hrefq Hg Hglo Hempty.
  pose proof HL as (Hqwf & Hleg & Hrep & F & EF & Hcov).
  destruct (LInv_views _ _ _ HL) as (F0 & S & EF0 & ES & Hp & _).
  rewrite EF in EF0. inversion EF0; subst F0. clear EF0.
  split; [exact Hqwf|]. split; [rewrite gh_move_ALL; exact Hleg|].
  split; [rewrite gh_move_log; exact Hrep|].
  exists F. split; [rewrite gh_move_ALL; exact EF|].
  intros q rf n Eq. destruct (Hcov q rf n Eq) as (Hc & Hr).
  change (gh_E (gh_move G m)) with (skipn m (gh_E G)). rewrite (gh_move_k G m Hm).
  assert (Hrec : Forall (fun r => exists j f e, fst r = (gh_k G + m + j)%nat /\
                   nth_error (skipn m (gh_E G)) j = Some (f, e) /\ lo' <= f /\
                   creates e q = true) rf).
  { apply Forall_forall. intros r Hin. rewrite Forall_forall in Hr.
    destruct (Hr r Hin) as (j & f & e & Ej & En & Hflo & Hcr).
    assert (Hf : lo' <= f).
    { apply Hkeep; [|exact Hflo].
      set (pre0 := map (pair 0) (gh_dropped G)).
      assert (ES' : t_replay [] (length pre0) (map snd (gh_log G)) = Some S).
      { unfold pre0. rewrite map_length. exact ES. }
      assert (EqS : t_get S q = Some (rf, n)) by (rewrite Hp; exact Eq).
      destruct (record_referenced pre0 (gh_log G) qs S q rf n r Hrep ES' EqS Hin)
        as (f' & Ef' & Href).
      assert (f' = f).
      { rewrite Ej in Ef'. unfold gh_log, gh_k in Ef'.
        rewrite !map_app in Ef'.
        rewrite nth_error_app2 in Ef' by (unfold pre0; rewrite !map_length; lia).
        rewrite nth_error_app2 in Ef' by (unfold pre0; rewrite !map_length; lia).
        unfold pre0 in Ef'. rewrite !map_length in Ef'.
        replace (length (gh_dropped G) + length (gh_pre G) + j - length (gh_dropped G) -
                 length (gh_pre G))%nat with j in Ef' by lia.
        rewrite (map_nth_error fst j (gh_E G) En) in Ef'. cbn [fst] in Ef'. congruence. }
      subst f'. destruct (refd f) eqn:Erf; [reflexivity|].
      rewrite (Hrefq f Erf) in Href. discriminate. }
    pose proof (Hkept j f e En Hf) as Hmj.
    exists (j - m)%nat, f, e. split; [lia|]. split; [|split; assumption].
    rewrite nth_error_skipn'. replace (m + (j - m))%nat with j by lia. exact En. }
  split; [|eapply Forall_impl; [|exact Hrec]; cbn beta;
           intros r (j & f & e & H1 & H2' & H3' & H4); now exists j, f, e].
  apply existsb_exists. destruct rf as [|r rf'].
  - pose proof (LInv_tget _ _ _ F HL EF q) as Ht. rewrite Eq in Ht.
    destruct (qs_get qs q) as [mq|] eqn:Eqq; [|contradiction].
    unfold untag_q, abs_q in Ht. cbn [fst snd map] in Ht. inversion Ht as [[Hrn Hnx]].
    symmetry in Hrn. apply records_of_nil in Hrn.
    assert (Hem : mq_is_empty mq = true) by (unfold mq_is_empty; now rewrite Hrn).
    destruct (Hempty q mq Eqq Hem) as (j & f & e & En & Hcr & Hgf).
    assert (Hf : lo' <= f) by (pose proof (Hkeep g Hg Hglo); lia).
    pose proof (Hkept j f e En Hf) as Hmj.
    exists e. split; [|exact Hcr]. apply (in_map snd _ (f, e)).
    apply (nth_error_In _ (j - m)). rewrite nth_error_skipn'.
    replace (m + (j - m))%nat with j by lia. exact En.
  - pose proof (Forall_inv Hrec) as (j & f & e & _ & En & _ & Hcr).
    exists e. split; [|exact Hcr]. apply (in_map snd _ (f, e)). exact (nth_error_In _ _ En).
Qed.

Section RestartGc.
Variable P : params.
Hypothesis HBS_lo : 7 < BS P.
Hypothesis HBS_hi : BS P <= 65542.
Hypothesis HNB : 1 <= NB P.
Hypothesis Hcrc : forall t p, crcf P t p < 2 ^ 32.

Local Notation B := (BS P).
Local Notation FB := (FILE_BYTES P).
Local Notation ffp := (first_frame_pos P).
Local Notation enc_of := (enc_of P).
Local Notation encs_of := (encs_of P).
Local Notation cursor_after := (cursor_after P).
Local Notation starts := (starts P).
Local Notation H3 f := (f P HBS_lo HBS_hi Hcrc) (only parsing).
Local Notation H2 f := (f P HBS_lo HBS_hi) (only parsing).
Local Notation HW f := (f P HBS_lo HBS_hi HNB Hcrc) (only parsing).
Local Notation HN f := (f P HBS_lo HBS_hi HNB) (only parsing).
Local Notation PInv := (PInv P).
Local Notation Inv := (Inv P).
Local Notation stream_bound := (stream_bound P).

Lemma winv_transfer w w' :
  wkey w' = wkey w -> vfs w' = vfs w -> wf w' -> winv P w -> winv P w'.
Proof.
  intros Hk Hv Hwf (Hok & _ & Hoff & Hpl & Hfile & Hfull & Hfresh).
  destruct (wkey_inv _ _ Hk) as (Ef & Ec & Eo & Em).
  unfold winv. rewrite Hv, Ef, Ec, Eo.
  split; [eapply wr_ok_same; [exact Ef|exact Ec|exact Hok]|].
  split; [exact Hwf|]. split; [exact Hoff|].
  split; [unfold cmeta in Em; congruence|].
  split; [exact Hfile|]. split; assumption.
Qed.

Lemma wlo_persist w a : wlo (wr_persist w a) = wlo w.
Proof.
  destruct (wkey_inv _ _ (wr_persist_key w a)) as (Ef & Ec & _). unfold wlo. now rewrite Ef, Ec.
Qed.

Lemma set_qs_same st qs : s_qs st = qs -> set_qs st qs = st.
Proof. intros <-. now destruct st. Qed.

Lemma set_qs_persist_on_policy st tick qs :
  set_qs (persist_on_policy st tick) qs = persist_on_policy (set_qs st qs) tick.
Proof.
  unfold persist_on_policy. cbn [set_qs s_pol]. destruct (s_pol st) as [|a|a]; [reflexivity| |reflexivity].
  destruct tick; reflexivity.
Qed.

Definition gh_app (G : ghost) (l : glog) : ghost :=
  mkGhost (gh_base G) (gh_dropped G) (gh_pre G) (gh_E G ++ l).

Lemma gh_app_nil G : gh_app G [] = G.
Proof. unfold gh_app. rewrite app_nil_r. now destruct G. Qed.

Lemma gh_app_snoc G f e l : gh_app (gh_snoc G f e) l = gh_app G ((f, e) :: l).
Proof. unfold gh_app, gh_snoc. cbn [gh_base gh_dropped gh_pre gh_E]. now rewrite <- app_assoc. Qed.

Lemma gh_app_ALL G l : gh_ALL (gh_app G l) = gh_ALL G ++ map snd l.
Proof.
  unfold gh_ALL, gh_log, gh_app. cbn [gh_dropped gh_pre gh_E]. now rewrite !map_app, !app_assoc.
Qed.

(* the position record of an existing empty queue is legal and changes nothing *)
Lemma position_entry_facts qs lo G n q :
  LInv qs lo G -> qs_get qs n = Some q -> mq_is_empty q = true ->
  wf_entry (EPosition n (next_position q)) /\
  (forall F, t_replay [] 0 (gh_ALL G) = Some F -> legal F (EPosition n (next_position q))) /\
  (forall f, apply_entry qs f (EPosition n (next_position q)) = Some qs).
Proof.
  intros HL Eq Hem. pose proof HL as (Hwf & _).
  destruct (Hwf n q (qs_get_In_eq _ _ _ Eq)) as (Hn & Hp).
  split; [apply (wf_entry_simple EPosition); auto|]. split.
  - intros F EF. pose proof (LInv_tget qs lo G F HL EF n) as Ht. rewrite Eq in Ht.
    destruct (t_get F n) as [[rf nx]|] eqn:Et; [|contradiction].
    unfold untag_q, abs_q in Ht. cbn [fst snd] in Ht. inversion Ht as [[Hr Hx]].
    unfold mq_is_empty in Hem. apply isnil_true in Hem. rewrite Hem in Hr. cbn [records_of] in Hr.
    apply map_eq_nil in Hr. subst rf.
    cbn [legal]. right. exists (next_position q). rewrite Et, Hx. split; reflexivity.
  - intros f. cbn [apply_entry]. now rewrite (ack_position_empty_id qs n q Eq Hem).
Qed.

Lemma fs_get_remove_none fs k name : fs_get fs name = None -> fs_get (fs_remove fs k) name = None.
Proof.
  induction fs as [|[n e] r IH]; cbn [fs_get fs_remove]; intros H; [reflexivity|].
  destruct (bytes_eqb n name) eqn:En; [discriminate|].
  destruct (bytes_eqb n k); [now apply IH|]. cbn [fs_get]. rewrite En. now apply IH.
Qed.

Lemma fs_get_remove_files_none dropped : forall fs name,
  fs_get fs name = None -> fs_get (remove_files fs dropped) name = None.
Proof.
  unfold remove_files. induction dropped as [|d r IH]; intros fs name H; cbn [fold_left]; [exact H|].
  apply IH. now apply fs_get_remove_none.
Qed.

Lemma fs_get_remove_files_other dropped : forall fs name,
  (forall y, In y dropped -> filename y <> name) ->
  fs_get (remove_files fs dropped) name = fs_get fs name.
Proof.
  unfold remove_files. induction dropped as [|d r IH]; intros fs name H; cbn [fold_left]; [reflexivity|].
  rewrite IH by (intros y Hy; apply H; now right).
  apply fs_get_remove_other. apply H. now left.
Qed.

Lemma chain_In : forall r lo0 hi,
  chain lo0 r -> last_opt (lo0 :: r) = Some hi -> forall x, lo0 <= x <= hi -> In x (lo0 :: r).
Proof.
  induction r as [|y r IH]; intros lo0 hi Hc Hl x Hx.
  - cbn [last_opt] in Hl. inversion Hl; subst. left. lia.
  - cbn [chain] in Hc. destruct Hc as (-> & Hc). rewrite last_opt_cons2 in Hl.
    destruct (N.eq_dec x lo0) as [->|Hne]; [now left|]. right.
    apply (IH (lo0 + 1) hi Hc Hl). lia.
Qed.

Lemma wr_ok_In w x : wr_ok w -> wlo w <= x <= w_file w -> In x (w_files w).
Proof.
  intros Hok Hx. pose proof (HN wr_ok_hd w Hok) as Hh. destruct Hok as [Hc Hl].
  destruct (w_files w) as [|lo0 r]; [contradiction|]. cbn [hd_error] in Hh. inversion Hh; subst lo0.
  exact (chain_In r _ _ Hc Hl x Hx).
Qed.

Lemma wr_ok_ge w x : wr_ok w -> In x (w_files w) -> wlo w <= x.
Proof.
  intros Hok Hx. pose proof (HN wr_ok_hd w Hok) as Hh. destruct Hok as [Hc Hl].
  destruct (w_files w) as [|lo0 r]; [contradiction|]. cbn [hd_error] in Hh. inversion Hh; subst lo0.
  destruct (chain_bounds r _ _ Hc Hl) as (_ & Hb). now apply Hb.
Qed.

Lemma gc_geometry w refd c files' :
  wr_ok w -> gc_loop (w_ctx w) (w_files w) refd = (c, files', Ok tt) ->
  let w' := mkWr c files' (w_file w) (w_off w) (w_pending w) in
  exists dropped,
    w_files w = dropped ++ files' /\ Forall (fun f => refd f = false) dropped /\
    wr_ok w' /\ wlo w' = wlo w + lenN dropped /\
    (forall x, wlo w <= x < wlo w' -> refd x = false) /\
    (forall x, In x dropped -> x < wlo w') /\
    c_fs c = remove_files (c_fs (w_ctx w)) dropped /\ c_plan c = c_plan (w_ctx w).
Proof.
  intros Hok Hgc w'.
  destruct (gc_loop_ok _ _ _ _ _ Hgc) as (dropped & Ef & Hun & _ & _ & Efs & Epl & _).
  pose proof (gc_loop_wr_ok w refd c files' _ Hgc Hok) as Hok'. fold w' in Hok'.
  destruct (wr_ok_len P (HN HB0) HNB w Hok) as (Hn & _).
  destruct (wr_ok_len P (HN HB0) HNB w' Hok') as (Hn' & _).
  cbn [w' w_files w_file] in Hn'. rewrite Ef, lenN_app in Hn.
  assert (Elo : wlo w' = wlo w + lenN dropped) by lia.
  assert (Hlt : forall x, In x dropped -> x < wlo w').
  { intros x Hx. pose proof (HN wr_ok_hd w' Hok') as Hh. cbn [w' w_files] in Hh.
    destruct files' as [|lo' post]; [discriminate|]. cbn [hd_error] in Hh. inversion Hh as [Hlo'].
    destruct (wr_ok_files w Hok) as (_ & _ & _ & Hs). rewrite Ef in Hs.
    destruct (sorted_split _ _ _ Hs) as (H1 & _). rewrite <- Hlo'. now apply H1. }
  exists dropped. repeat (split; [assumption|]). split; [|split; [|split]]; try assumption.
  intros x (Hx1 & Hx2).
  assert (Hin : In x (w_files w)).
  { apply wr_ok_In; [exact Hok|]. destruct Hok' as [Hc' Hl']. cbn [w' w_files w_file] in *.
    pose proof (wr_ok_ge w' (w_file w) (conj Hc' Hl')) as Hge. cbn [w' w_files] in Hge.
    specialize (Hge (last_opt_In _ _ Hl')). lia. }
  rewrite Ef in Hin. apply in_app_or in Hin. destruct Hin as [Hin|Hin].
  - rewrite Forall_forall in Hun. now apply Hun.
  - pose proof (wr_ok_ge w' x Hok' Hin). lia.
Qed.

Lemma gh_app_log G l : gh_log (gh_app G l) = gh_log G ++ l.
Proof. unfold gh_log, gh_app. cbn [gh_pre gh_E]. now rewrite app_assoc. Qed.

End RestartGc.

