(* RecordProofs.v — WAL entry codec round trip (Record.v) and entry-level batch atomicity
   (Log.apply_entry).  Support for properties C07 / C08 / C12 / C18. *)
From Coq Require Import Lia ZArith ZifyN ZifyNat ZifyBool.
From MRL Require Import Bytes BytesProofs Params Record Mem Log SpecRefine.

Lemma pow256_1 : 256 ^ 1 = 256.            Proof. reflexivity. Qed.
Lemma pow256_2 : 256 ^ 2 = 2 ^ 16.         Proof. reflexivity. Qed.
Lemma pow256_4 : 256 ^ 4 = 2 ^ 32.         Proof. reflexivity. Qed.
Lemma pow256_8 : 256 ^ 8 = 2 ^ 64.         Proof. reflexivity. Qed.

Lemma le_dec_enc_n k n w : N.of_nat k = w -> n < 256 ^ w -> le_dec (le_enc k n) = n.
Proof. intros <- H. now apply le_dec_enc_small. Qed.

Lemma le_enc_dec_n k bs : lenN bs = N.of_nat k -> le_enc k (le_dec bs) = bs.
Proof.
  intros H. rewrite lenN_length in H. replace k with (length bs) by lia. apply le_enc_dec.
Qed.

Lemma takeN_then_sliceN {A} b (x : list A) : takeN b x = sliceN 0 b x.
Proof. unfold sliceN. rewrite dropN_0. f_equal. lia. Qed.

Lemma split_at {A} n (x : list A) : x = takeN n x ++ dropN n x.
Proof. symmetry. apply takeN_dropN. Qed.

Lemma dropN_split {A} a b (x : list A) : a <= b -> dropN a x = sliceN a b x ++ dropN b x.
Proof. intros H. symmetry. now apply sliceN_then_dropN. Qed.

Lemma sliceN_app_first {A} (a c : list A) n : n = lenN a -> takeN n (a ++ c) = a.
Proof. intros ->. apply takeN_app_exact. Qed.

Lemma dropN_app_first {A} (a c : list A) n : n = lenN a -> dropN n (a ++ c) = c.
Proof. intros ->. apply dropN_app_exact. Qed.

Lemma sliceN_app_mid' {A} (a b c : list A) lo hi :
  lo = lenN a -> hi = lenN a + lenN b -> sliceN lo hi (a ++ b ++ c) = b.
Proof. intros -> ->. apply sliceN_app_mid. Qed.

Definition wf_rec (r : N * bytes) : Prop := fst r < 2 ^ 64 /\ lenN (snd r) < 2 ^ 32.

Definition entry_pos (e : entry) : N :=
  match e with EAppend _ p _ | ETruncate _ p | EPosition _ p | EDelete _ p => p end.

Definition wf_entry (e : entry) : Prop :=
  utf8_valid (entry_queue e) = true /\ lenN (entry_queue e) < 2 ^ 16 /\ entry_pos e < 2 ^ 64
  /\ match e with EAppend _ _ recs => Forall wf_rec recs | _ => True end.

Lemma multi_ser_cons p payload r :
  multi_ser ((p, payload) :: r) = le_enc 8 p ++ le_enc 4 (lenN payload) ++ payload ++ multi_ser r.
Proof. reflexivity. Qed.

Definition recs_bytes (recs : list (N * bytes)) : N :=
  fold_right (fun r acc => 12 + lenN (snd r) + acc) 0 recs.

Lemma recs_bytes_cons r t : recs_bytes (r :: t) = 12 + lenN (snd r) + recs_bytes t.
Proof. reflexivity. Qed.

Lemma lenN_multi_ser recs : lenN (multi_ser recs) = recs_bytes recs.
Proof.
  induction recs as [|[p x] r IH]; [reflexivity|].
  rewrite multi_ser_cons, recs_bytes_cons, !lenN_app, !length_le_enc, IH. cbn [snd]. lia.
Qed.

Lemma payload_bytes_cons r t : payload_bytes (r :: t) = lenN (snd r) + payload_bytes t.
Proof. reflexivity. Qed.

Lemma recs_bytes_payload recs : recs_bytes recs = 12 * lenN recs + payload_bytes recs.
Proof.
  induction recs as [|r t IH]; [reflexivity|].
  rewrite recs_bytes_cons, lenN_cons, payload_bytes_cons, IH. lia.
Qed.

Lemma recs_bytes_ge recs : 12 * lenN recs <= recs_bytes recs.
Proof. rewrite recs_bytes_payload. lia. Qed.

Lemma multi_parse_step fuel buf :
  buf <> [] ->
  multi_parse (S fuel) buf =
  if lenN buf <? 12 then None
  else if lenN (dropN 12 buf) <? le_dec (sliceN 8 12 buf) then None
  else match multi_parse fuel (dropN (le_dec (sliceN 8 12 buf)) (dropN 12 buf)) with
       | Some r => Some ((le_dec (takeN 8 buf), takeN (le_dec (sliceN 8 12 buf)) (dropN 12 buf)) :: r)
       | None => None
       end.
Proof. destruct buf as [|b t]; [congruence|]. intros _. reflexivity. Qed.

Lemma multi_parse_nil fuel : multi_parse fuel [] = Some [].
Proof. destruct fuel; reflexivity. Qed.

Lemma multi_parse_0 buf : buf <> [] -> multi_parse 0 buf = None.
Proof. destruct buf; [congruence|reflexivity]. Qed.

Lemma multi_ser_cons_nonnil r t : multi_ser (r :: t) <> [].
Proof. destruct r as [p x]. rewrite multi_ser_cons. cbn [le_enc app]. discriminate. Qed.

Lemma multi_ser_fields p x r :
  let buf := multi_ser ((p, x) :: r) in
  takeN 8 buf = le_enc 8 p /\ sliceN 8 12 buf = le_enc 4 (lenN x) /\ dropN 12 buf = x ++ multi_ser r.
Proof.
  intros buf. unfold buf. rewrite multi_ser_cons. split; [|split].
  - apply sliceN_app_first. now rewrite length_le_enc.
  - apply sliceN_app_mid'; rewrite !length_le_enc; reflexivity.
  - rewrite app_assoc. apply dropN_app_first. rewrite lenN_app, !length_le_enc. reflexivity.
Qed.

Theorem multi_roundtrip_fuel : forall recs fuel,
  Forall wf_rec recs -> (length recs <= fuel)%nat ->
  multi_parse fuel (multi_ser recs) = Some recs.
Proof.
  induction recs as [|[p x] r IH]; intros fuel Hwf Hf.
  - apply multi_parse_nil.
  - destruct fuel as [|fuel]; [cbn [length] in Hf; lia|].
    inversion Hwf as [|? ? [Hp Hx] Hr]; subst. cbn [fst snd] in Hp, Hx.
    rewrite multi_parse_step by apply multi_ser_cons_nonnil.
    destruct (multi_ser_fields p x r) as (E1 & E2 & E3). rewrite E1, E2, E3.
    rewrite lenN_multi_ser, recs_bytes_cons. cbn [snd].
    destruct (N.ltb_spec (12 + lenN x + recs_bytes r) 12) as [Hc|_]; [lia|].
    rewrite (le_dec_enc_n 4 (lenN x) 4) by (try reflexivity; rewrite pow256_4; exact Hx).
    rewrite (le_dec_enc_n 8 p 8) by (try reflexivity; rewrite pow256_8; exact Hp).
    rewrite lenN_app.
    destruct (N.ltb_spec (lenN x + lenN (multi_ser r)) (lenN x)) as [Hc|_]; [lia|].
    rewrite dropN_app_exact, takeN_app_exact.
    rewrite IH; [reflexivity|exact Hr|cbn [length] in Hf; lia].
Qed.

Lemma multi_fuel_enough recs : (length recs <= multi_fuel (multi_ser recs))%nat.
Proof.
  unfold multi_fuel. rewrite lenN_multi_ser.
  pose proof (recs_bytes_ge recs) as H. rewrite lenN_length in H.
  assert (N.of_nat (length recs) <= recs_bytes recs / 12).
  { apply N.div_le_lower_bound; lia. }
  lia.
Qed.

Theorem multi_roundtrip recs :
  Forall wf_rec recs -> multi_parse (multi_fuel (multi_ser recs)) (multi_ser recs) = Some recs.
Proof. intros H. apply multi_roundtrip_fuel; [exact H|apply multi_fuel_enough]. Qed.

Theorem multi_parse_sound : forall fuel buf recs,
  multi_parse fuel buf = Some recs -> buf = multi_ser recs /\ Forall wf_rec recs.
Proof.
  induction fuel as [|fuel IH]; intros buf recs H.
  - destruct buf as [|b t]; [|discriminate]. inversion H; subst. split; [reflexivity|constructor].
  - destruct buf as [|b t] eqn:Eb; [inversion H; subst; split; [reflexivity|constructor]|].
    rewrite <- Eb in *. assert (Hne : buf <> []) by (rewrite Eb; discriminate). clear Eb b t.
    rewrite multi_parse_step in H by exact Hne.
    destruct (N.ltb_spec (lenN buf) 12) as [|H12]; [discriminate|].
    set (len := le_dec (sliceN 8 12 buf)) in *.
    destruct (N.ltb_spec (lenN (dropN 12 buf)) len) as [|Hlen]; [discriminate|].
    destruct (multi_parse fuel (dropN len (dropN 12 buf))) as [r|] eqn:Er; [|discriminate].
    inversion H; subst recs. clear H.
    destruct (IH _ _ Er) as (Erest & Hwf).
    assert (L8 : lenN (takeN 8 buf) = 8) by (rewrite lenN_takeN; lia).
    assert (L4 : lenN (sliceN 8 12 buf) = 4) by (rewrite lenN_sliceN; lia).
    split.
    + rewrite multi_ser_cons.
      rewrite (le_enc_dec_n 8) by exact L8.
      rewrite lenN_takeN. replace (N.min len (lenN (dropN 12 buf))) with len by lia.
      fold len. unfold len at 1. rewrite (le_enc_dec_n 4) by exact L4.
      rewrite <- Erest, takeN_dropN.
      rewrite <- (dropN_split 8 12) by lia.
      rewrite <- (dropN_0 buf) at 1. rewrite (dropN_split 0 8) by lia.
      now rewrite <- takeN_then_sliceN.
    + constructor; [|exact Hwf]. split; cbn [fst snd].
      * pose proof (le_dec_bound (takeN 8 buf)) as Hb. rewrite L8, pow256_8 in Hb. exact Hb.
      * rewrite lenN_takeN. pose proof (le_dec_bound (sliceN 8 12 buf)) as Hb.
        rewrite L4, pow256_4 in Hb. fold len in Hb. lia.
Qed.

Lemma ser_raw_eq tag pos q pl :
  ser_raw tag pos q pl = le_enc 1 tag ++ le_enc 8 pos ++ le_enc 2 (lenN q) ++ q ++ pl.
Proof. reflexivity. Qed.

Lemma lenN_ser_raw tag pos q pl : lenN (ser_raw tag pos q pl) = 11 + lenN q + lenN pl.
Proof. rewrite ser_raw_eq, !lenN_app, !length_le_enc. lia. Qed.

Lemma ser_raw_app tag pos q pl : ser_raw tag pos q pl = ser_raw tag pos q [] ++ pl.
Proof. rewrite !ser_raw_eq, app_nil_r, <- !app_assoc. reflexivity. Qed.

Lemma ser_raw_fields tag pos q pl :
  let buf := ser_raw tag pos q pl in
  takeN 1 buf = le_enc 1 tag /\ sliceN 1 9 buf = le_enc 8 pos /\
  sliceN 9 11 buf = le_enc 2 (lenN q) /\ dropN 11 buf = q ++ pl.
Proof.
  intros buf. unfold buf. rewrite ser_raw_eq. split; [|split; [|split]].
  - apply sliceN_app_first. now rewrite length_le_enc.
  - apply sliceN_app_mid'; rewrite !length_le_enc; reflexivity.
  - rewrite app_assoc. apply sliceN_app_mid'; rewrite lenN_app, !length_le_enc; reflexivity.
  - rewrite app_assoc, app_assoc. apply dropN_app_first.
    rewrite !lenN_app, !length_le_enc. reflexivity.
Qed.

(* the dispatch on the record type, once the header has been decoded *)
Definition deser_tag (tag pos : N) (q payload : bytes) : option entry :=
  match tag with
  | 4 => match multi_parse (multi_fuel payload) payload with
         | Some recs => Some (EAppend q pos recs)
         | None => None
         end
  | 1 => Some (ETruncate q pos)
  | 2 => Some (EPosition q pos)
  | _ => Some (EDelete q pos)
  end.

Lemma entry_deser_eq buf :
  entry_deser buf =
  if lenN buf <? 11 then None
  else if negb ((1 <=? le_dec (takeN 1 buf)) && (le_dec (takeN 1 buf) <=? 4)) then None
  else if lenN (dropN 11 buf) <? le_dec (sliceN 9 11 buf) then None
  else if negb (utf8_valid (takeN (le_dec (sliceN 9 11 buf)) (dropN 11 buf))) then None
  else deser_tag (le_dec (takeN 1 buf)) (le_dec (sliceN 1 9 buf))
                 (takeN (le_dec (sliceN 9 11 buf)) (dropN 11 buf))
                 (dropN (le_dec (sliceN 9 11 buf)) (dropN 11 buf)).
Proof. reflexivity. Qed.

Lemma ser_raw_deser tag pos q pl :
  1 <= tag <= 4 -> pos < 2 ^ 64 -> lenN q < 2 ^ 16 -> utf8_valid q = true ->
  entry_deser (ser_raw tag pos q pl) = deser_tag tag pos q pl.
Proof.
  intros Ht Hp Hq Hu. rewrite entry_deser_eq.
  destruct (ser_raw_fields tag pos q pl) as (E1 & E2 & E3 & E4). rewrite E1, E2, E3, E4.
  rewrite lenN_ser_raw.
  rewrite (le_dec_enc_n 1 tag 1) by (try reflexivity; rewrite pow256_1; lia).
  rewrite (le_dec_enc_n 8 pos 8) by (try reflexivity; rewrite pow256_8; exact Hp).
  rewrite (le_dec_enc_n 2 (lenN q) 2) by (try reflexivity; rewrite pow256_2; exact Hq).
  destruct (N.ltb_spec (11 + lenN q + lenN pl) 11) as [Hc|_]; [lia|].
  destruct (N.leb_spec 1 tag) as [_|Hc]; [|lia].
  destruct (N.leb_spec tag 4) as [_|Hc]; [|lia].
  cbn [andb negb]. rewrite lenN_app.
  destruct (N.ltb_spec (lenN q + lenN pl) (lenN q)) as [Hc|_]; [lia|].
  rewrite takeN_app_exact, dropN_app_exact, Hu. reflexivity.
Qed.

Theorem entry_roundtrip e : wf_entry e -> entry_deser (entry_ser e) = Some e.
Proof.
  intros (Hu & Hq & Hp & Hr).
  destruct e as [q pos recs|q pos|q pos|q pos]; cbn [entry_queue entry_pos entry_ser] in *;
    rewrite ser_raw_deser by (try assumption; lia); cbn [deser_tag]; try reflexivity.
  now rewrite multi_roundtrip.
Qed.

Corollary entry_ser_inj e1 e2 : wf_entry e1 -> wf_entry e2 -> entry_ser e1 = entry_ser e2 -> e1 = e2.
Proof.
  intros H1 H2 E. apply entry_roundtrip in H1. apply entry_roundtrip in H2.
  rewrite E in H1. congruence.
Qed.

Definition entry_payload_bytes (e : entry) : N :=
  match e with EAppend _ _ recs => recs_bytes recs | _ => 0 end.

Lemma lenN_entry_ser e :
  lenN (entry_ser e) = 11 + lenN (entry_queue e) + entry_payload_bytes e.
Proof.
  destruct e as [q pos recs|q pos|q pos|q pos]; cbn [entry_ser entry_queue entry_payload_bytes];
    rewrite lenN_ser_raw; [now rewrite lenN_multi_ser|reflexivity..].
Qed.

(* any buffer that passes the length checks is a raw serialization of its decoded fields *)
Lemma buf_is_ser_raw buf :
  11 <= lenN buf -> le_dec (sliceN 9 11 buf) <= lenN (dropN 11 buf) ->
  buf = ser_raw (le_dec (takeN 1 buf)) (le_dec (sliceN 1 9 buf))
                (takeN (le_dec (sliceN 9 11 buf)) (dropN 11 buf))
                (dropN (le_dec (sliceN 9 11 buf)) (dropN 11 buf)).
Proof.
  intros H11 Hq. rewrite ser_raw_eq.
  rewrite (le_enc_dec_n 1) by (rewrite lenN_takeN; lia).
  rewrite (le_enc_dec_n 8) by (rewrite lenN_sliceN; lia).
  rewrite lenN_takeN.
  replace (N.min (le_dec (sliceN 9 11 buf)) (lenN (dropN 11 buf))) with (le_dec (sliceN 9 11 buf)) by lia.
  rewrite (le_enc_dec_n 2) by (rewrite lenN_sliceN; lia).
  rewrite takeN_dropN.
  rewrite <- (dropN_split 9 11) by lia. rewrite <- (dropN_split 1 9) by lia.
  apply split_at.
Qed.

Definition entry_has_payload (e : entry) : bool :=
  match e with EAppend _ _ _ => true | _ => false end.

(* NOTE.  The statement "entry_deser buf = Some e -> buf = entry_ser e" is FALSE for the model:
   for the record types Truncate / Touch / DeleteQueue the decoder ignores whatever follows the
   queue name (see entry_deser_ignores_trailing_bytes below).  What holds: the buffer is the
   serialization followed by ignored bytes, and there are none for AppendRecords. *)
Theorem entry_deser_sound buf e :
  entry_deser buf = Some e ->
  exists extra, buf = entry_ser e ++ extra /\
                (entry_has_payload e = true -> extra = []) /\
                wf_entry e.
Proof.
  rewrite entry_deser_eq. intros H.
  destruct (N.ltb_spec (lenN buf) 11) as [|H11]; [discriminate|].
  set (tag := le_dec (takeN 1 buf)) in *.
  destruct (N.leb_spec 1 tag) as [Ht1|]; [|discriminate].
  destruct (N.leb_spec tag 4) as [Ht4|]; [|discriminate].
  cbn [andb negb] in H.
  set (qlen := le_dec (sliceN 9 11 buf)) in *.
  destruct (N.ltb_spec (lenN (dropN 11 buf)) qlen) as [|Hql]; [discriminate|].
  set (q := takeN qlen (dropN 11 buf)) in *.
  destruct (utf8_valid q) eqn:Hu; [|discriminate]. cbn [negb] in H.
  set (pos := le_dec (sliceN 1 9 buf)) in *.
  set (pl := dropN qlen (dropN 11 buf)) in *.
  pose proof (buf_is_ser_raw buf H11 Hql) as Hbuf.
  fold tag qlen pos in Hbuf. fold q pl in Hbuf.
  assert (Hpos : pos < 2 ^ 64).
  { pose proof (le_dec_bound (sliceN 1 9 buf)) as Hb.
    rewrite lenN_sliceN in Hb by lia. change (9 - 1) with 8 in Hb. now rewrite pow256_8 in Hb. }
  assert (Hq : lenN q < 2 ^ 16).
  { pose proof (le_dec_bound (sliceN 9 11 buf)) as Hb.
    rewrite lenN_sliceN in Hb by lia. change (11 - 9) with 2 in Hb. rewrite pow256_2 in Hb.
    unfold q. rewrite lenN_takeN. fold qlen in Hb. lia. }
  assert (Hcases : tag = 1 \/ tag = 2 \/ tag = 3 \/ tag = 4) by lia.
  clearbody tag pos q pl.
  destruct Hcases as [ -> | [ -> | [ -> | -> ] ] ]; cbn [deser_tag] in H.
  4: { destruct (multi_parse (multi_fuel pl) pl) as [recs|] eqn:Em; [|discriminate].
       inversion H; subst e. apply multi_parse_sound in Em. destruct Em as (Epl & Hwf).
       exists []. cbn [entry_ser]. rewrite app_nil_r, <- Epl.
       split; [exact Hbuf|]. split; [reflexivity|].
       unfold wf_entry. cbn [entry_queue entry_pos]. auto. }
  (* tags 1 to 3 carry no payload: what follows the queue name is ignored *)
  all: inversion H; subst e; exists pl; cbn [entry_ser entry_has_payload].
  all: split; [now rewrite <- ser_raw_app|]; split; [discriminate|].
  all: unfold wf_entry; cbn [entry_queue entry_pos]; auto.
Qed.

Corollary entry_deser_sound_append buf q pos recs :
  entry_deser buf = Some (EAppend q pos recs) ->
  buf = entry_ser (EAppend q pos recs) /\ wf_entry (EAppend q pos recs).
Proof.
  intros H. destruct (entry_deser_sound _ _ H) as (extra & E & Hx & Hwf).
  rewrite (Hx eq_refl), app_nil_r in E. now split.
Qed.

(* with no trailing bytes, buf is exactly the serialization, for every record type *)
Corollary entry_deser_sound_exact buf e :
  entry_deser buf = Some e -> lenN buf = lenN (entry_ser e) ->
  buf = entry_ser e /\ wf_entry e.
Proof.
  intros H Hl. destruct (entry_deser_sound _ _ H) as (extra & E & _ & Hwf).
  split; [|exact Hwf]. rewrite E, lenN_app in Hl.
  assert (Hx : extra = []) by (apply lenN_0_nil; lia).
  now rewrite Hx, app_nil_r in E.
Qed.

Corollary entry_deser_wf buf e : entry_deser buf = Some e -> wf_entry e.
Proof. intros H. destruct (entry_deser_sound _ _ H) as (? & _ & _ & Hwf). exact Hwf. Qed.

(* the decoder is insensitive to bytes after the queue name of a payload-less record *)
Theorem entry_deser_trailing e extra :
  wf_entry e -> entry_has_payload e = false -> entry_deser (entry_ser e ++ extra) = Some e.
Proof.
  intros (Hu & Hq & Hp & _) Hnp.
  destruct e as [q pos recs|q pos|q pos|q pos]; [discriminate| | |];
    cbn [entry_queue entry_pos entry_ser] in *; rewrite <- ser_raw_app;
    rewrite ser_raw_deser by (try assumption; lia); reflexivity.
Qed.

(* the counterexample to "entry_deser buf = Some e -> buf = entry_ser e" *)
Example entry_deser_ignores_trailing_bytes :
  let e := ETruncate [] 0 in
  let buf := entry_ser e ++ [x00] in
  entry_deser buf = Some e /\ buf <> entry_ser e.
Proof. split; [vm_compute; reflexivity|vm_compute; discriminate]. Qed.

Lemma qs_get_put_same qs n q : qs_get (qs_put qs n q) n = Some q.
Proof. exact (assoc_get_put_same qs n q). Qed.

Lemma qs_get_put_other qs n q n' : n <> n' -> qs_get (qs_put qs n q) n' = qs_get qs n'.
Proof. exact (assoc_get_put_other qs n q n'). Qed.

Lemma qs_get_remove_other qs n n' : n <> n' -> qs_get (qs_remove qs n) n' = qs_get qs n'.
Proof. exact (assoc_get_remove_other qs n n'). Qed.

Lemma qs_get_remove_same qs n : qs_get (qs_remove qs n) n = None.
Proof. exact (assoc_get_remove_same qs n). Qed.

Lemma qs_get_ack_other qs n next n' :
  n <> n' -> qs_get (ack_position qs n next) n' = qs_get qs n'.
Proof.
  intros Hne. unfold ack_position. destruct (qs_get qs n) as [m|].
  - destruct (negb (mq_is_empty m) || negb (next_position m =? next)); [|reflexivity].
    now apply qs_get_put_other.
  - now apply qs_get_put_other.
Qed.

Lemma qs_contains_get qs n :
  qs_contains qs n = match qs_get qs n with Some _ => true | None => false end.
Proof. reflexivity. Qed.

(* the records held for queue q ([] when the queue does not exist) *)
Definition recs_of_queue (qs : queues) (q : bytes) : list (N * bytes) :=
  match qs_get qs q with Some m => records_of (q_buf m) (q_metas m) | None => [] end.

(* C12: replaying an AppendRecords entry appends ALL of its records, in order, after what the
   queue already held — or fails as a whole (apply_entry returns None: no state at all). *)
Theorem apply_append_all_or_nothing qs file q pos recs qs' :
  qs_inv qs -> apply_entry qs file (EAppend q pos recs) = Some qs' ->
  exists m', qs_get qs' q = Some m' /\
    records_of (q_buf m') (q_metas m') =
    match qs_get qs q with Some m => records_of (q_buf m) (q_metas m) | None => [] end ++ recs.
Proof.
  intros Hi H. cbn [apply_entry] in H. rewrite qs_contains_get in H.
  destruct (qs_get qs q) as [m|] eqn:E.
  - rewrite E in H. destruct (append_all m file recs) as [m'|] eqn:Ea; [|discriminate].
    inversion H; subst qs'. exists m'. split; [apply qs_get_put_same|].
    eapply append_all_inv; [|exact Ea]. eapply qs_inv_get; eauto.
  - unfold ack_position in H. rewrite E in H. rewrite qs_get_put_same in H.
    destruct (append_all (mq_with_next pos) file recs) as [m'|] eqn:Ea; [|discriminate].
    inversion H; subst qs'. exists m'. split; [apply qs_get_put_same|].
    destruct (append_all_inv _ _ _ _ (mq_inv_with_next pos) Ea) as (_ & Hr).
    exact Hr.
Qed.

Corollary apply_append_all_or_nothing' qs file q pos recs qs' :
  qs_inv qs -> apply_entry qs file (EAppend q pos recs) = Some qs' ->
  recs_of_queue qs' q = recs_of_queue qs q ++ recs.
Proof.
  intros Hi H. destruct (apply_append_all_or_nothing _ _ _ _ _ _ Hi H) as (m' & E & Hr).
  unfold recs_of_queue. now rewrite E.
Qed.

(* C18 support: an entry only touches its own queue *)
Theorem apply_other_queue_untouched qs file e qs' q' :
  entry_queue e <> q' -> apply_entry qs file e = Some qs' -> qs_get qs' q' = qs_get qs q'.
Proof.
  intros Hne H. destruct e as [q pos recs|q p|q p|q p]; cbn [entry_queue apply_entry] in *.
  - set (qs1 := if qs_contains qs q then qs else ack_position qs q pos) in *.
    assert (E1 : qs_get qs1 q' = qs_get qs q').
    { unfold qs1. destruct (qs_contains qs q); [reflexivity|now apply qs_get_ack_other]. }
    destruct (qs_get qs1 q) as [m|]; [|discriminate].
    destruct (append_all m file recs) as [m'|]; [|discriminate].
    inversion H; subst qs'. rewrite qs_get_put_other by exact Hne. exact E1.
  - destruct (qs_get qs q) as [m|]; inversion H; subst qs'; [|reflexivity].
    now apply qs_get_put_other.
  - inversion H; subst qs'. now apply qs_get_ack_other.
  - inversion H; subst qs'. now apply qs_get_remove_other.
Qed.

Lemma number_from_wf : forall payloads p,
  p + lenN payloads <= 2 ^ 64 -> Forall (fun x => lenN x < 2 ^ 32) payloads ->
  Forall wf_rec (number_from p payloads).
Proof.
  induction payloads as [|x r IH]; intros p Hp Hl; cbn [number_from]; [constructor|].
  rewrite lenN_cons in Hp. inversion Hl as [|? ? Hx Hr]; subst.
  constructor.
  - split; cbn [fst snd]; [lia|exact Hx].
  - apply IH; [lia|exact Hr].
Qed.

Lemma number_from_fst : forall l p,
  map fst (number_from p l) = map (fun i => p + N.of_nat i) (seq 0 (length l)).
Proof.
  induction l as [|x r IH]; intros p; cbn [number_from map length seq]; [reflexivity|].
  f_equal; [cbn [fst]; lia|]. rewrite IH, <- seq_shift, map_map. apply map_ext. intros i. lia.
Qed.

Lemma number_from_snd : forall l p, map snd (number_from p l) = l.
Proof.
  induction l as [|x r IH]; intros p; cbn [number_from map]; [reflexivity|]. now rewrite IH.
Qed.

Lemma number_from_nth : forall l p i d,
  (i < length l)%nat -> nth i (number_from p l) d = (p + N.of_nat i, nth i l (snd d)).
Proof.
  induction l as [|x r IH]; intros p i d Hi; cbn [length] in Hi; [lia|].
  cbn [number_from]. destruct i as [|i]; cbn [nth].
  - f_equal. lia.
  - rewrite IH by lia. f_equal. lia.
Qed.

Lemma length_number_from : forall l p, length (number_from p l) = length l.
Proof. induction l as [|x r IH]; intros p; cbn [number_from length]; [reflexivity|]. now rewrite IH. Qed.

(* the entry written by append_records is well-formed under the Rust type bounds *)
Corollary wf_entry_append q p payloads :
  utf8_valid q = true -> lenN q < 2 ^ 16 -> p + lenN payloads <= 2 ^ 64 -> p < 2 ^ 64 ->
  Forall (fun x => lenN x < 2 ^ 32) payloads ->
  wf_entry (EAppend q p (number_from p payloads)).
Proof.
  intros Hu Hq Hp Hp' Hl. unfold wf_entry. cbn [entry_queue entry_pos].
  repeat split; try assumption. now apply number_from_wf.
Qed.

(* what is written by append_records is decoded back to exactly the same batch *)
Corollary append_entry_roundtrip q p payloads :
  utf8_valid q = true -> lenN q < 2 ^ 16 -> p + lenN payloads <= 2 ^ 64 -> p < 2 ^ 64 ->
  Forall (fun x => lenN x < 2 ^ 32) payloads ->
  entry_deser (entry_ser (EAppend q p (number_from p payloads))) =
  Some (EAppend q p (number_from p payloads)).
Proof. intros. apply entry_roundtrip. now apply wf_entry_append. Qed.

Print Assumptions multi_roundtrip.
Print Assumptions multi_roundtrip_fuel.
Print Assumptions multi_parse_sound.
Print Assumptions entry_roundtrip.
Print Assumptions entry_deser_sound.
Print Assumptions entry_deser_sound_append.
Print Assumptions entry_deser_sound_exact.
Print Assumptions entry_deser_trailing.
Print Assumptions entry_ser_inj.
Print Assumptions lenN_entry_ser.
Print Assumptions apply_append_all_or_nothing.
Print Assumptions apply_other_queue_untouched.
Print Assumptions number_from_wf.
Print Assumptions number_from_fst.
