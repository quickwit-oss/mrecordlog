(* OpenReplay.v — `open` on a directory that holds a suffix of the WAL stream replays exactly
   the entries whose first frame lies in the kept files.
   Reading is traced (generically in the block reader): the record reader delivers a list of
   records, each with the reader state it was read from, then End. At stream level (vecr) no extra
   zero block after the written bytes is assumed. The replay loop is a fold of apply_entry over
   the trace; the rolling files are brought in last (open_replays_delivered). *)
From Coq Require Import Lia ZArith ZifyN ZifyNat ZifyBool Sorted.
From MRL Require Import Bytes BytesProofs Params Names NamesProofs Frame Record Mem Rolling Log
  Driver StreamProofs DamageProofs TornProofs PolicyProofs GcProofs FileStream ResyncProofs
  RecordProofs GhostLog OpenTerm RestartWrite.

Section Trace.
Variable P : params.
Variable R : Type.
Variable rnext : R -> R * res bool.
Variable rblock : R -> bytes.
Local Notation gonextR := (go_next P R rnext rblock).

(* from rr, go_next (with fuel g) delivers the records of l — each paired with the reader it
   was read FROM — and then End, leaving the reader rrf *)
Inductive reads_tr (g : nat) : rreader R -> list (rreader R * bytes) -> rreader R -> Prop :=
| RT_end rr rr' : gonextR g rr = (rr', REnd) -> reads_tr g rr [] rr'
| RT_rec rr rr' l rrf :
    gonextR g rr = (rr', RRecord) -> reads_tr g rr' l rrf ->
    reads_tr g rr ((rr, rr_buf rr') :: l) rrf.

Lemma reads_tr_app g rr l1 rr1 l2 rrf :
  (forall l' rrf', reads_tr g rr1 l' rrf' -> reads_tr g rr (l1 ++ l') rrf') ->
  reads_tr g rr1 l2 rrf -> reads_tr g rr (l1 ++ l2) rrf.
Proof. intros H H2. apply H. exact H2. Qed.
End Trace.

Arguments reads_tr P {R} rnext rblock g _ _ _.

Lemma map_fst_combine {A C} (l1 : list A) : forall (l2 : list C),
  length l1 = length l2 -> map fst (combine l1 l2) = l1.
Proof.
  induction l1 as [|x l1 IH]; intros [|y l2] H; cbn [length] in H; try discriminate; cbn [combine map fst].
  - reflexivity.
  - f_equal. apply IH. lia.
Qed.

Section Stream.
Variable P : params.
Hypothesis HBS_lo : 7 < BS P.
Hypothesis HBS_hi : BS P <= 65542.
Hypothesis Hcrc : forall t p, crcf P t p < 2 ^ 32.

Local Notation B := (BS P).
Local Notation rframe := (read_frame P vecr (vr_next P) vr_block).
Local Notation gonext := (go_next P vecr (vr_next P) vr_block).
Local Notation pad_of := (pad_of P).
Local Notation enc_rel := (enc_rel P).
Local Notation encs_rel := (encs_rel P).
Local Notation rd_at := (rd_at P).
Local Notation at_pos := (at_pos P).
Local Notation stream_ok := (stream_ok P).
Local Notation ffp := (first_frame_pos P).
Local Notation starts := (starts P).
Local Notation delivered_from := (delivered_from P).
Local Notation skipped_before := (skipped_before P).
Local Notation cursor_after := (cursor_after P).
Local Notation readsV := (reads_tr P (vr_next P) vr_block).
Local Notation H3 f := (f P HBS_lo HBS_hi Hcrc) (only parsing).
Local Notation H2 f := (f P HBS_lo HBS_hi) (only parsing).

(* stream position of the start of the reader's current block *)
Definition bpos (S : bytes) (r : vecr) : N := lenN S - lenN (vr_rest r) - B.

Lemma bpos_rd_at S k c : (k + 1) * B <= lenN S -> bpos S (fr_rd (rd_at S k c)) = k * B.
Proof.
  intros H. unfold bpos, StreamProofs.rd_at. cbn [fr_rd vr_rest]. rewrite lenN_dropN. lia.
Qed.

Lemma at_pos_bpos S fr a : at_pos S fr a -> bpos S (fr_rd fr) <= a.
Proof.
  intros (k & c & Ha & Hc & Hblk & ->). rewrite bpos_rd_at by exact Hblk. lia.
Qed.

Lemma vr_next_rest r : lenN (vr_rest (fst (vr_next P r))) <= lenN (vr_rest r).
Proof.
  unfold vr_next. destruct (N.ltb_spec (lenN (vr_rest r)) B) as [H|H]; cbn [fst vr_rest].
  - lia.
  - rewrite lenN_dropN. lia.
Qed.

Lemma read_here_rd x c k :
  fr_rd (fst (FileStream.read_here P vecr vr_block x c k)) = x.
Proof.
  unfold FileStream.read_here.
  destruct (all_zero _); [reflexivity|].
  destruct (ft_of_code _); [|reflexivity].
  destruct (N.ltb _ _); [reflexivity|].
  destruct (N.eqb _ _); reflexivity.
Qed.

Lemma read_frame_rest fr :
  lenN (vr_rest (fr_rd (fst (rframe fr)))) <= lenN (vr_rest (fr_rd fr)).
Proof.
  rewrite read_frame_unfold.
  destruct (fr_corrupt fr || (B - fr_cursor fr <? HEADER_LEN)).
  - pose proof (vr_next_rest (fr_rd fr)) as Hn.
    destruct (vr_next P (fr_rd fr)) as [r' [[|]|e]]; cbn [fst] in *.
    + rewrite read_here_rd. exact Hn.
    + exact Hn.
    + exact Hn.
  - rewrite read_here_rd. lia.
Qed.

Lemma go_next_rest fuel rr :
  lenN (vr_rest (fr_rd (rr_fr (fst (gonext fuel rr))))) <= lenN (vr_rest (fr_rd (rr_fr rr))).
Proof using HBS_lo HBS_hi.
  clear Hcrc. destruct (gonext fuel rr) as [rr' r] eqn:Hgo. cbn [fst].
  set (J := fun fr : freader vecr => lenN (vr_rest (fr_rd fr)) <= lenN (vr_rest (fr_rd (rr_fr rr)))).
  apply (go_next_fr_rule P vecr (vr_next P) vr_block (fun _ => J) (fun fr _ => J fr))
    with (4 := Hgo); unfold J.
  - intros fr Hj. exact Hj.
  - intros _ fr fr' x Hj Hrf. pose proof (read_frame_rest fr) as Hr. rewrite Hrf in Hr. cbn [fst] in Hr.
    destruct x; [split|..]; lia.
  - lia.
Qed.

Local Notation rest rr := (lenN (vr_rest (fr_rd (rr_fr rr)))).

(* along a trace the number of blocks still to come never increases *)
Lemma reads_tr_rest g rr l rrf :
  readsV g rr l rrf ->
  rest rrf <= rest rr /\
  Forall (fun x => rest (fst x) <= rest rr /\ rest rrf <= rest (fst x)) l /\
  StronglySorted (fun x y => rest (fst y) <= rest (fst x)) l.
Proof.
  induction 1 as [rr rr' Hgo | rr rr' l rrf Hgo Htr (IH1 & IH2 & IH3)].
  - pose proof (go_next_rest g rr) as H. rewrite Hgo in H. cbn [fst] in H.
    split; [exact H|]. split; constructor.
  - pose proof (go_next_rest g rr) as H. rewrite Hgo in H. cbn [fst] in H.
    split; [lia|]. split.
    + constructor; [cbn [fst]; lia|].
      eapply Forall_impl; [|exact IH2]. cbn beta. intros x [Hx1 Hx2]. lia.
    + constructor; [exact IH3|].
      eapply Forall_impl; [|exact IH2]. cbn beta. cbn [fst]. intros x [Hx1 Hx2]. lia.
Qed.

(* where the frame reader is left when it meets the end of the log at position e: at the
   normalised position first_frame_pos e when that position has a block in S, and otherwise
   (fewer than 7 bytes left in the LAST block of S) where it is *)
Definition at_end (S : bytes) (fr : freader vecr) (e : N) : Prop :=
  exists k c, fr = rd_at S k c /\ (k + 1) * B <= lenN S /\ c <= B /\
    ((k * B + c = ffp e /\ c + 7 <= B) \/
     (k * B + c = e /\ B < c + 7 /\ lenN S < (k + 2) * B)).

Lemma ffp_kc k c : c <= B -> ffp (k * B + c) = if B - c <? 7 then (k + 1) * B else k * B + c.
Proof. exact (H2 ffp_closed k c). Qed.

Lemma read_frame_end_gen S written z fr a :
  S = written ++ zerosN z -> lenN written <= a -> at_pos S fr a ->
  exists fr', rframe fr = (fr', FNotAvail) /\ at_end S fr' a.
Proof.
  intros HS Hw (k & c & Ha & Hc & Hblk & ->).
  assert (HaS : a <= lenN S) by lia.
  assert (Hsplit : S = takeN a S ++ zerosN (lenN S - a)).
  { rewrite <- (takeN_dropN a S) at 1. f_equal.
    rewrite HS, dropN_app_ge by exact Hw. rewrite dropN_zerosN. f_equal.
    rewrite lenN_app, lenN_zerosN. lia. }
  assert (Hlt : lenN (takeN a S) = k * B + c) by (rewrite lenN_takeN; lia).
  (* vec_read_end does not mention NB, but its section assumes 1 <= NB P, which is not assumed
     here: it is taken at NB := 1 *)
  assert (Hnb : 1 <= 1) by lia.
  pose proof (@vec_read_end (mkParams (BS P) 1 (crcf P) (RMS P) (L_GC P) (L_IO P) (L_SHORT P)))
    as Hv. cbn [BS NB crcf] in Hv.
  specialize (Hv HBS_lo HBS_hi Hnb Hcrc [] [] ltac:(intros n []) S (takeN a S) (lenN S - a) k c
                 Hsplit Hlt Hc Hblk).
  change (read_frame _ vecr _ vr_block) with rframe in Hv.
  change (StreamProofs.rd_at _) with rd_at in Hv.
  pose proof (ffp_kc k c Hc) as Hf. rewrite <- Ha in Hf.
  rewrite Hv.
  destruct (N.ltb_spec (B - c) 7) as [Hc7|Hc7];
    [destruct (N.leb_spec ((k + 2) * B) (lenN S)) as [Hnext|Hnext]|]; cbn [andb].
  - eexists. split; [reflexivity|]. exists (k + 1), 0. repeat split; try lia.
  - eexists. split; [reflexivity|]. exists k, c. repeat split; try lia.
  - eexists. split; [reflexivity|]. exists k, c. repeat split; try lia.
Qed.

Lemma go_next_end_gen S written z rr a g :
  S = written ++ zerosN z -> lenN written <= a -> at_pos S (rr_fr rr) a ->
  exists fr', gonext (Datatypes.S g) rr = (mkRR fr' (rr_buf rr) (rr_within rr), REnd) /\
              at_end S fr' a.
Proof.
  intros HS Hw Hat.
  destruct (read_frame_end_gen S written z (rr_fr rr) a HS Hw Hat) as (fr' & Hrf & Hp).
  exists fr'. split; [|exact Hp]. cbn [go_next]. rewrite Hrf. reflexivity.
Qed.

Definition tr_ok (S : bytes) (rrs : list (rreader vecr)) (sts : list (N * N)) : Prop :=
  Forall2 (fun rr s => bpos S (fr_rd (rr_fr rr)) <= snd s) rrs sts.

Lemma run_tr a es t :
  encs_rel a es t ->
  forall S pre post rr gofuel,
    stream_ok S -> at_pos S (rr_fr rr) a -> S = pre ++ t ++ post -> lenN pre = a ->
    lenN t <= 7 * N.of_nat gofuel ->
    exists rrs rr',
      length rrs = length es /\ at_pos S (rr_fr rr') (a + lenN t) /\
      tr_ok S rrs (starts a es) /\
      forall l' rrf, readsV gofuel rr' l' rrf -> readsV gofuel rr (combine rrs es ++ l') rrf.
Proof.
  induction 1 as [a | a p ps e k t He Hes IH]; intros S pre post rr gofuel Hok Hat HS Hpre Hgf.
  - exists [], rr. rewrite (@lenN_nil byte), N.add_0_r. cbn [length combine app starts].
    repeat split; try assumption; [constructor | intros l' rrf H; exact H].
  - destruct rr as [fr rbuf within]. cbn [rr_fr] in Hat.
    rewrite <- app_assoc in HS. rewrite lenN_app in Hgf.
    pose proof (H3 StreamProofs.enc_rel_frames _ _ _ _ _ He) as [Hk _].
    destruct (H3 StreamProofs.go_next_record a true p e k He S pre (t ++ post) fr rbuf within gofuel
                Hok Hat HS Hpre)
      as (fr' & Hgo & Hat'); [left; reflexivity | lia |].
    cbn [app] in Hgo.
    destruct (IH S (pre ++ e) post (mkRR fr' p false) gofuel Hok Hat')
      as (rrs & rr' & Hlen & Hat'' & Htr & Hcont).
    { rewrite HS, <- app_assoc. reflexivity. }
    { rewrite lenN_app. lia. }
    { lia. }
    exists (mkRR fr rbuf within :: rrs), rr'.
    split; [cbn [length]; now rewrite Hlen|].
    split; [rewrite lenN_app; replace (a + (lenN e + lenN t)) with (a + lenN e + lenN t) by lia;
            exact Hat''|].
    split.
    + rewrite (H3 starts_cons_rel a p ps e k He). constructor; [|exact Htr].
      cbn [rr_fr snd]. pose proof (at_pos_bpos S fr a Hat). pose proof (H2 ffp_ge a). lia.
    + intros l' rrf Hl'. cbn [combine app].
      change p with (rr_buf (mkRR fr' p false)) at 1.
      eapply RT_rec; [exact Hgo|]. apply Hcont. exact Hl'.
Qed.

(* a run of intact entries followed by the zero tail, when the first go_next behaves as a
   go_next (fuel g) of a reader rr1 positioned at the start r of the run *)
Lemma tail_tr S r es t pre z gofuel :
  encs_rel r es t -> S = pre ++ t ++ zerosN z -> lenN pre = r -> stream_ok S ->
  lenN t + 7 <= 7 * N.of_nat gofuel ->
  forall rr1 g rr,
    at_pos S (rr_fr rr1) r -> gonext gofuel rr = gonext g rr1 ->
    lenN t + 7 <= 7 * N.of_nat g ->
    (es <> [] -> bpos S (fr_rd (rr_fr rr)) <= ffp r) ->
    exists rrs rrf,
      length rrs = length es /\ readsV gofuel rr (combine rrs es) rrf /\
      tr_ok S rrs (starts r es) /\ at_end S (rr_fr rrf) (r + lenN t).
Proof.
  intros Hes HS Hpre Hok Hgf rr1 g rr Hat Hgo Hg Hb.
  destruct g as [|g]; [lia|].
  inversion Hes as [a0 Ha0 Hnil Ht | a0 p ps e k t' He Hps Ha0 Hcons Ht]; subst a0 es t.
  - cbn [app] in HS. rewrite (@lenN_nil byte), N.add_0_r in *.
    destruct (go_next_end_gen S pre z rr1 r g HS) as (fr' & Hend & Hp); [lia | exact Hat |].
    exists [], (mkRR fr' (rr_buf rr1) (rr_within rr1)).
    cbn [length combine starts rr_fr]. repeat split; try exact Hp.
    + apply RT_end. rewrite Hgo. exact Hend.
    + constructor.
  - destruct rr1 as [fr1 rbuf1 within1]. cbn [rr_fr] in Hat.
    rewrite <- !app_assoc in HS. rewrite lenN_app in *.
    pose proof (H3 StreamProofs.enc_rel_frames _ _ _ _ _ He) as [Hk Hk'].
    destruct (H3 StreamProofs.go_next_record r true p e k He S pre (t' ++ zerosN z) fr1 rbuf1 within1
                (Datatypes.S g) Hok Hat HS Hpre)
      as (fr' & Hgo' & Hat'); [left; reflexivity | lia |].
    cbn [app] in Hgo'.
    destruct (run_tr (r + lenN e) ps t' Hps S (pre ++ e) (zerosN z) (mkRR fr' p false) gofuel Hok Hat')
      as (rrs & rr' & Hlen & Hat'' & Htr & Hcont).
    { rewrite HS, <- app_assoc. reflexivity. }
    { rewrite lenN_app. lia. }
    { lia. }
    assert (Hgf1 : exists g1, gofuel = Datatypes.S g1) by (destruct gofuel; [lia | eauto]).
    destruct Hgf1 as [g1 ->].
    destruct (go_next_end_gen S (pre ++ e ++ t') z rr' (r + lenN e + lenN t') g1)
      as (fr'' & Hend & Hp).
    { rewrite HS, <- !app_assoc. reflexivity. }
    { rewrite !lenN_app. lia. }
    { exact Hat''. }
    exists (rr :: rrs), (mkRR fr'' (rr_buf rr') (rr_within rr')).
    split; [cbn [length]; now rewrite Hlen|]. split; [|split].
    + cbn [combine]. change p with (rr_buf (mkRR fr' p false)) at 1.
      eapply RT_rec; [rewrite Hgo; exact Hgo'|].
      rewrite <- (app_nil_r (combine rrs ps)). apply Hcont. apply RT_end. exact Hend.
    + rewrite (H3 starts_cons_rel r p ps e k He). constructor; [|exact Htr].
      cbn [snd]. apply Hb. discriminate.
    + cbn [rr_fr]. replace (r + (lenN e + lenN t')) with (r + lenN e + lenN t') by lia. exact Hp.
Qed.

Theorem read_from_boundary_tr a es1 es2 t1 t2 S pre z kb buf0 gofuel :
  encs_rel a es1 t1 -> encs_rel (a + lenN t1) es2 t2 ->
  S = pre ++ (t1 ++ t2) ++ zerosN z -> lenN pre = a -> stream_ok S ->
  a <= kb * B -> (kb + 1) * B <= lenN S ->
  Forall (fun s => snd s < kb * B) (starts a es1) ->
  (es2 <> [] -> kb * B <= ffp (a + lenN t1)) ->
  lenN t1 + lenN t2 + 7 <= 7 * N.of_nat gofuel ->
  exists rrs rrf,
    length rrs = length es2 /\
    readsV gofuel (mkRR (rd_at S kb 0) buf0 false) (combine rrs es2) rrf /\
    tr_ok S rrs (starts (a + lenN t1) es2) /\
    at_end S (rr_fr rrf) (N.max (kb * B) (a + lenN t1 + lenN t2)).
Proof.
  intros Hes1 Hes2 HS Hpre Hok Ha Hblk Hall Hsuf Hgf.
  pose proof (H3 at_pos_boundary S kb Hblk) as Hat_b.
  assert (HlenS : lenN S = a + lenN t1 + lenN t2 + z).
  { rewrite HS, !lenN_app, lenN_zerosN. lia. }
  assert (Hbp : bpos S (fr_rd (rd_at S kb 0)) = kb * B) by (apply bpos_rd_at; exact Hblk).
  destruct (H3 boundary_cases a es1 t1 kb Hes1 Ha Hall)
    as [HA | (t1' & e1 & e2 & p2 & k2 & Ht1 & Hl & Hrel)].
  - destruct es2 as [|p ps].
    + inversion Hes2; subst t2. rewrite (@lenN_nil byte), N.add_0_r in *.
      destruct gofuel as [|g]; [lia|].
      destruct (go_next_end_gen S (pre ++ t1) z (mkRR (rd_at S kb 0) buf0 false) (kb * B) g)
        as (fr' & Hend & Hp).
      { rewrite HS, app_nil_r, <- app_assoc. reflexivity. }
      { rewrite lenN_app. lia. }
      { exact Hat_b. }
      exists [], (mkRR fr' buf0 false). cbn [length combine starts rr_fr].
      repeat split.
      * apply RT_end. exact Hend.
      * constructor.
      * replace (N.max (kb * B) (a + lenN t1)) with (kb * B) by lia. exact Hp.
    + set (a1 := a + lenN t1) in *.
      assert (Hb : kb * B = ffp a1) by (apply (H2 boundary_is_ffp); [exact HA | apply Hsuf; discriminate]).
      assert (Hlow : ffp a1 + 7 <= a1 + lenN t2).
      { inversion Hes2 as [|a0 p0 ps0 e k t' He Hrest]; subst.
        pose proof (H3 enc_rel_ffp_lt _ _ _ _ _ He). rewrite lenN_app. lia. }
      assert (Hat_a : at_pos S (rd_at S (a1 / B) (a1 mod B)) a1).
      { pose proof (N.div_mod a1 B) as Hdm. pose proof (H2 StreamProofs.mod_lt_B a1) as Hm.
        exists (a1 / B), (a1 mod B). repeat split; lia. }
      set (fr_a := rd_at S (a1 / B) (a1 mod B)) in *.
      assert (Hrf : rframe fr_a = rframe (rd_at S kb 0)).
      { apply (H3 at_pos_pad S fr_a a1 kb 0 Hok Hat_a);
          [unfold first_frame_pos in Hb; lia | lia | exact Hblk]. }
      destruct gofuel as [|g0]; [lia|].
      destruct (tail_tr S a1 (p :: ps) t2 (pre ++ t1) z (Datatypes.S g0) Hes2)
        with (rr1 := mkRR fr_a buf0 false) (g := Datatypes.S g0)
             (rr := mkRR (rd_at S kb 0) buf0 false) as (rrs & rrf & Hlen & Hrd & Htr & Hp).
      { rewrite HS, <- !app_assoc. reflexivity. }
      { rewrite lenN_app. lia. }
      { exact Hok. }
      { lia. }
      { exact Hat_a. }
      { apply (TornProofs.gonext_cong P). symmetry. exact Hrf. }
      { lia. }
      { intros _. cbn [rr_fr]. rewrite Hbp. lia. }
      exists rrs, rrf. repeat split; try assumption.
      replace (N.max (kb * B) (a1 + lenN t2)) with (a1 + lenN t2) by lia. exact Hp.
  - subst t1. rewrite !lenN_app in *.
    destruct (H3 go_next_skip (kb * B) false p2 e2 k2 Hrel eq_refl S (pre ++ t1' ++ e1)
                (t2 ++ zerosN z) (rd_at S kb 0) Hok Hat_b) as (fr' & Hat' & Hskip).
    { rewrite HS, <- !app_assoc. reflexivity. }
    { rewrite !lenN_app. lia. }
    pose proof (H3 StreamProofs.enc_rel_frames _ _ _ _ _ Hrel) as [Hk2 _].
    destruct (tail_tr S (a + (lenN t1' + (lenN e1 + lenN e2))) es2 t2 (pre ++ t1' ++ e1 ++ e2)
                z gofuel Hes2)
      with (rr1 := mkRR fr' buf0 false) (g := (gofuel - k2)%nat)
           (rr := mkRR (rd_at S kb 0) buf0 false) as (rrs & rrf & Hlen & Hrd & Htr & Hp).
    { rewrite HS, <- !app_assoc. reflexivity. }
    { rewrite !lenN_app. lia. }
    { exact Hok. }
    { lia. }
    { cbn [rr_fr]. replace (a + (lenN t1' + (lenN e1 + lenN e2))) with (kb * B + lenN e2) by lia.
      exact Hat'. }
    { replace gofuel with (k2 + (gofuel - k2))%nat at 1 by lia. apply Hskip. }
    { lia. }
    { intros _. cbn [rr_fr]. rewrite Hbp.
      pose proof (H2 ffp_ge (a + (lenN t1' + (lenN e1 + lenN e2)))). lia. }
    exists rrs, rrf. repeat split; try assumption.
    replace (N.max (kb * B) (a + (lenN t1' + (lenN e1 + lenN e2)) + lenN t2))
      with (a + (lenN t1' + (lenN e1 + lenN e2)) + lenN t2) by lia.
    exact Hp.
Qed.

(* the entries delivered from block kb of S = pre ++ t ++ zeros, where S is any whole
   number of blocks (no spare zero block is required after t) *)
Theorem read_delivered_tr a es t S pre z kb buf0 gofuel :
  encs_rel a es t -> S = pre ++ t ++ zerosN z -> lenN pre = a -> stream_ok S ->
  a <= kb * B -> (kb + 1) * B <= lenN S ->
  lenN t + 7 <= 7 * N.of_nat gofuel ->
  exists rrs rrf,
    length rrs = length (delivered_from (kb * B) a es) /\
    readsV gofuel (mkRR (rd_at S kb 0) buf0 false)
           (combine rrs (delivered_from (kb * B) a es)) rrf /\
    tr_ok S rrs (starts (cursor_after a (skipped_before (kb * B) a es))
                        (delivered_from (kb * B) a es)) /\
    at_end S (rr_fr rrf) (N.max (kb * B) (a + lenN t)).
Proof.
  intros Hes HS Hpre Hok Ha Hblk Hgf.
  pose proof (skipped_delivered P (kb * B) es a) as Hsplit.
  set (es1 := skipped_before (kb * B) a es) in *.
  set (es2 := delivered_from (kb * B) a es) in *.
  rewrite Hsplit in Hes.
  destruct (H3 encs_rel_app_inv es1 a es2 t Hes) as (t1 & t2 & -> & Hes1 & Hes2).
  rewrite lenN_app in *.
  replace (a + (lenN t1 + lenN t2)) with (a + lenN t1 + lenN t2) by lia.
  rewrite (H3 cursor_after_rel _ _ _ Hes1).
  apply (read_from_boundary_tr a es1 es2 t1 t2 S pre z kb buf0 gofuel);
    try assumption; try lia.
  - apply skipped_starts.
  - intros Hne. rewrite <- (H3 cursor_after_rel _ _ _ Hes1). apply (H3 delivered_head). exact Hne.
Qed.

(* the same in the vocabulary of TornProofs.mem_read_fin / ResyncProofs.read_delivered_from_gen *)
Lemma reads_tr_mem_read_fin g rr l rrf :
  readsV g rr l rrf -> forall fuel, (length l < fuel)%nat ->
  mem_read_fin P fuel g rr = (map MrEntry (map snd l) ++ [MrEnd], rrf).
Proof.
  induction 1 as [rr rr' Hgo | rr rr' l rrf Hgo Htr IH]; intros fuel Hf;
    (destruct fuel as [|fuel]; [cbn [length] in Hf; lia|]); cbn [TornProofs.mem_read_fin].
  - rewrite Hgo. reflexivity.
  - rewrite Hgo. cbn [length] in Hf. rewrite IH by lia. reflexivity.
Qed.

Corollary read_delivered_fin a es t S pre z kb buf0 fuel gofuel :
  encs_rel a es t -> S = pre ++ t ++ zerosN z -> lenN pre = a -> stream_ok S ->
  a <= kb * B -> (kb + 1) * B <= lenN S ->
  lenN t + 7 <= 7 * N.of_nat gofuel -> (length es + 1 <= fuel)%nat ->
  exists rrf,
    mem_read_fin P fuel gofuel (mkRR (rd_at S kb 0) buf0 false) =
      (map MrEntry (delivered_from (kb * B) a es) ++ [MrEnd], rrf) /\
    at_end S (rr_fr rrf) (N.max (kb * B) (a + lenN t)) /\
    kb * B <= bpos S (fr_rd (rr_fr rrf)).
Proof.
  intros Hes HS Hpre Hok Ha Hblk Hgf Hfuel.
  destruct (read_delivered_tr a es t S pre z kb buf0 gofuel Hes HS Hpre Hok Ha Hblk Hgf)
    as (rrs & rrf & Hlen & Hrd & _ & Hend).
  exists rrf. split; [|split; [exact Hend|]].
  - rewrite (reads_tr_mem_read_fin _ _ _ _ Hrd fuel).
    + rewrite map_snd_combine by exact Hlen. reflexivity.
    + rewrite combine_length, Hlen, Nat.min_id.
      pose proof (skipped_delivered P (kb * B) es a) as Hs.
      apply (f_equal (@length bytes)) in Hs. rewrite app_length in Hs. lia.
  - destruct (reads_tr_rest _ _ _ _ Hrd) as (Hr & _ & _). cbn [rr_fr] in Hr.
    pose proof (bpos_rd_at S kb 0 Hblk) as Hb. unfold bpos in *. 
    destruct Hend as (k & c & Hfr & Hk & _). rewrite Hfr in *.
    unfold StreamProofs.rd_at in *. cbn [fr_rd vr_rest] in *. rewrite !lenN_dropN in *. lia.
Qed.

(* the (block index, cursor) of the final reader: what rd_into_writer needs *)
Lemma at_end_kc S fr e kb :
  at_end S fr e -> kb * B <= bpos S (fr_rd fr) -> 
  exists k c, fr = rd_at S k c /\ kb <= k /\ (k + 1) * B <= lenN S /\ c <= B /\
    ((k * B + c = ffp e /\ c + 7 <= B) \/
     (k * B + c = e /\ B < c + 7 /\ lenN S < (k + 2) * B)).
Proof.
  intros (k & c & Hfr & Hk & Hc & Hcase) Hb. exists k, c.
  rewrite Hfr in Hb. rewrite bpos_rd_at in Hb by exact Hk.
  repeat split; try assumption. apply (H2 TornProofs.mulB_le_inv). exact Hb.
Qed.

End Stream.

Section Replay.
Variable P : params.
Local Notation readsF := (reads_tr P (rd_next P) rd_block).

(* the file the rolling reader is in: the `file` replay_loop passes to apply_entry *)
Definition tag_of (rr : rreader rreaderS) : N := rd_file (fr_rd (rr_fr rr)).

Definition tags_of (l : list (rreader rreaderS * bytes)) : list N :=
  map (fun x => tag_of (fst x)) l.

Lemma tags_of_length l : length (tags_of l) = length l.
Proof. apply map_length. Qed.

Theorem replay_loop_fold g rr l rrf :
  readsF g rr l rrf ->
  forall es, Forall2 (fun x e => entry_deser (snd x) = Some e) l es ->
  forall fuel qs, (length l < fuel)%nat ->
  match replay_entries qs (combine (tags_of l) es) with
  | Some qs' => replay_loop P fuel g rr qs = (rrf, RpDone qs')
  | None => exists rr', replay_loop P fuel g rr qs = (rr', RpCorruption)
  end.
Proof.
  induction 1 as [rr rr' Hgo | rr rr' l rrf Hgo Htr IH]; intros es Hes fuel qs Hf;
    (destruct fuel as [|fuel]; [cbn [length] in Hf; lia|]); rewrite replay_loop_S; cbv zeta;
    rewrite Hgo.
  - inversion Hes; subst. cbn [tags_of map combine replay_entries]. reflexivity.
  - inversion Hes as [|x e l0 es0 He Hes0]; subst. cbn [snd] in He. rewrite He.
    cbn [tags_of map combine replay_entries fst]. fold (tag_of rr).
    destruct (apply_entry qs (tag_of rr) e) as [qs1|].
    + cbn [length] in Hf. apply IH; [exact Hes0 | lia].
    + exists rr'. reflexivity.
Qed.

Corollary replay_loop_done_iff g rr l rrf es fuel qs qs' :
  readsF g rr l rrf -> Forall2 (fun x e => entry_deser (snd x) = Some e) l es ->
  (length l < fuel)%nat ->
  (replay_loop P fuel g rr qs = (rrf, RpDone qs') <->
   replay_entries qs (combine (tags_of l) es) = Some qs').
Proof.
  intros Htr Hes Hf. pose proof (replay_loop_fold g rr l rrf Htr es Hes fuel qs Hf) as H.
  destruct (replay_entries qs (combine (tags_of l) es)) as [qs1|].
  - rewrite H. split; intros E; inversion E; reflexivity.
  - destruct H as [rr' H]. rewrite H. split; intros E; discriminate.
Qed.
End Replay.

Lemma iota_length m : forall lo, length (iota lo m) = m.
Proof. induction m as [|m IH]; intros lo; cbn [iota length]; [reflexivity | now rewrite IH]. Qed.

Lemma lenN_iota m lo : lenN (iota lo m) = N.of_nat m.
Proof. now rewrite lenN_length, iota_length. Qed.

Lemma iota_In m : forall lo x, In x (iota lo m) <-> lo <= x /\ x < lo + N.of_nat m.
Proof.
  induction m as [|m IH]; intros lo x; cbn [iota In].
  - lia.
  - rewrite IH. lia.
Qed.

Lemma iota_sorted m : forall lo, StronglySorted N.lt (iota lo m).
Proof.
  induction m as [|m IH]; intros lo; cbn [iota]; constructor.
  - apply IH.
  - apply Forall_forall. intros x Hx. apply iota_In in Hx. lia.
Qed.

Lemma iota_split m : forall lo pre f post,
  iota lo m = pre ++ f :: post -> f = lo + lenN pre /\ lenN pre + 1 + lenN post = N.of_nat m.
Proof.
  induction m as [|m IH]; intros lo pre f post H; cbn [iota] in H.
  - destruct pre; discriminate.
  - destruct pre as [|x pre]; cbn [app] in H; injection H as Hx Hr.
    + subst f. rewrite (@lenN_nil N). split; [lia|].
      rewrite <- Hr, lenN_iota. lia.
    + destruct (IH _ _ _ _ Hr) as [Hf Hl]. rewrite lenN_cons. lia.
Qed.

Lemma StronglySorted_Forall2 {A C} (R : A -> C -> Prop) (Q1 : A -> A -> Prop) (Q2 : C -> C -> Prop) :
  (forall a b a' b', R a b -> R a' b' -> Q2 b b' -> Q1 a a') ->
  forall l1 l2, Forall2 R l1 l2 -> StronglySorted Q2 l2 -> StronglySorted Q1 l1.
Proof.
  intros HR. induction 1 as [|a b l1 l2 Hab Hl IH]; intros Hs; [constructor|].
  inversion Hs as [|b0 l0 Hs' Hall]; subst. constructor; [apply IH; exact Hs'|].
  clear IH Hs Hs'. induction Hl as [|a' b' l1 l2 Hab' Hl IH]; [constructor|].
  inversion Hall; subst. constructor; [eapply HR; eauto | apply IH; assumption].
Qed.

Lemma StronglySorted_map {A C} (f : A -> C) (Q : C -> C -> Prop) l :
  StronglySorted (fun x y => Q (f x) (f y)) l -> StronglySorted Q (map f l).
Proof.
  induction 1 as [|x l Hs IH Hall]; cbn [map]; constructor; [exact IH|].
  apply Forall_map. exact Hall.
Qed.

Lemma Forall2_Forall_l {A C} (R : A -> C -> Prop) (Q1 : A -> Prop) (Q2 : C -> Prop) :
  (forall a b, R a b -> Q2 b -> Q1 a) ->
  forall l1 l2, Forall2 R l1 l2 -> Forall Q2 l2 -> Forall Q1 l1.
Proof.
  intros HR. induction 1 as [|a b l1 l2 Hab Hl IH]; intros Hall; [constructor|].
  inversion Hall; subst. constructor; [eapply HR; eauto | apply IH; assumption].
Qed.

Lemma Forall2_combine_l {A C D} (R : A -> D -> Prop) (l1 : list A) : forall (l2 : list C) (l3 : list D),
  length l1 = length l2 -> Forall2 R l1 l3 -> Forall2 (fun x d => R (fst x) d) (combine l1 l2) l3.
Proof.
  induction l1 as [|a l1 IH]; intros [|c l2] l3 Hlen H; cbn [length] in Hlen; try discriminate;
    inversion H; subst; cbn [combine]; constructor.
  - exact H2.
  - apply IH; [lia | assumption].
Qed.

Lemma Forall2_trans' {A C D} (R1 : A -> C -> Prop) (R2 : C -> D -> Prop) (R3 : A -> D -> Prop) :
  (forall a c d, R1 a c -> R2 c d -> R3 a d) ->
  forall l1 l2 l3, Forall2 R1 l1 l2 -> Forall2 R2 l2 l3 -> Forall2 R3 l1 l3.
Proof.
  intros HR l1 l2 l3 H. revert l3. induction H as [|a c l1 l2 Hac Hl IH]; intros l3 H23;
    inversion H23; subst; constructor; [eapply HR; eauto | apply IH; assumption].
Qed.

Lemma map_app_inv {A C} (f : A -> C) (l : list A) : forall l1 l2,
  map f l = l1 ++ l2 ->
  exists m1 m2, l = m1 ++ m2 /\ map f m1 = l1 /\ map f m2 = l2.
Proof.
  intros l1. revert l. induction l1 as [|x l1 IH]; intros l l2 H.
  - exists [], l. repeat split. exact H.
  - destruct l as [|a l]; cbn [map app] in H; [discriminate|]. injection H as Hx Hr.
    destruct (IH l l2 Hr) as (m1 & m2 & -> & H1 & H2).
    exists (a :: m1), m2. cbn [map app]. repeat split; congruence.
Qed.

Section Files.
Variable P : params.
Hypothesis HBS_lo : 7 < BS P.
Hypothesis HBS_hi : BS P <= 65542.
Hypothesis HNB : 1 <= NB P.
Hypothesis Hcrc : forall t p, crcf P t p < 2 ^ 32.
Local Notation B := (BS P).
Local Notation FB := (FILE_BYTES P).
Local Notation ffp := (first_frame_pos P).
Local Notation readsV := (reads_tr P (vr_next P) vr_block).
Local Notation readsF := (reads_tr P (rd_next P) rd_block).
Local Notation gonextF := (go_next P rreaderS (rd_next P) rd_block).
Local Notation gonextV := (go_next P vecr (vr_next P) vr_block).

Lemma FB_eq : FB = NB P * B.
Proof. unfold FILE_BYTES. lia. Qed.

(* the vecr reader over the tail of a stream from a block boundary IS the reader over the
   whole stream, further on *)
Lemma rd_at_drop (S : bytes) kb k c :
  rd_at P (dropN (kb * B) S) k c = rd_at P S (kb + k) c.
Proof.
  unfold rd_at. f_equal. f_equal.
  - rewrite dropN_dropN. f_equal. lia.
  - unfold sliceN. rewrite dropN_dropN. f_equal; [lia | f_equal; lia].
Qed.

Lemma mul_div_unique x D wo y F : x <= D -> x * F + wo = D * F + y -> wo < F -> x = D /\ wo = y.
Proof.
  intros Hx H Hwo. destruct (N.eq_dec x D) as [->|Hne]; [lia|]. exfalso.
  assert ((x + 1) * F <= D * F) by (apply N.mul_le_mono_r; lia). lia.
Qed.

(* if the end position is at offset woff of the last file, the writer made by open is in the last
   file at the normalised offset (FileStream.norm_off) *)
Lemma final_pos_norm base lo cur wf wo e woff :
  base <= lo -> lo <= wf -> wf <= cur -> e = (cur - base) * FB + woff -> woff <= FB ->
  (((wf - base) * FB + wo = ffp e /\ wo < FB) \/
   ((wf - base) * FB + wo = e /\ wf = cur /\ FB < wo + 7 /\ wo <= FB)) ->
  wf = cur /\ wo = norm_off P woff.
Proof.
  intros Hbase Hlo Hcur He Hwoff Hcase.
  pose proof (N.div_mod woff B ltac:(lia)) as Hdm.
  pose proof (N.mod_lt woff B ltac:(lia)) as Hm.
  set (q := woff / B) in *. set (m := woff mod B) in *.
  assert (He' : e = ((cur - base) * NB P + q) * B + m) by (rewrite He, FB_eq; lia).
  unfold norm_off. fold m.
  destruct Hcase as [(Hp & Hwo) | (Hp & Hwf & Hwo7 & Hwo)].
  - rewrite He', (ffp_kc P HBS_lo HBS_hi) in Hp by lia.
    destruct (N.ltb_spec (B - m) 7) as [Hpad|Hnopad]; cbn [andb].
    + assert (Hp' : (wf - base) * FB + wo = (cur - base) * FB + (q + 1) * B)
        by (rewrite Hp, FB_eq; lia).
      destruct (mul_div_unique (wf - base) (cur - base) wo _ FB ltac:(lia) Hp' Hwo) as [E1 E2].
      split; [lia|].
      destruct (N.ltb_spec (woff + (B - m)) FB) as [_|H]; lia.
    + assert (Hp' : (wf - base) * FB + wo = (cur - base) * FB + woff)
        by (rewrite Hp, FB_eq; lia).
      destruct (mul_div_unique (wf - base) (cur - base) wo _ FB ltac:(lia) Hp' Hwo) as [E1 E2].
      split; lia.
  - split; [exact Hwf|]. subst wf. assert (wo = woff) by lia. subst wo.
    destruct (N.ltb_spec (B - m) 7) as [Hpad|Hnopad]; cbn [andb]; [|reflexivity].
    destruct (N.ltb_spec (woff + (B - m)) FB) as [H|_]; [exfalso|reflexivity].
    assert (H1 : (q + 1) * B < NB P * B) by (rewrite <- FB_eq; lia).
    apply (TornProofs.mulB_lt_inv P HBS_lo HBS_hi) in H1.
    assert (H2 : (q + 2) * B <= NB P * B) by (apply N.mul_le_mono_r; lia).
    rewrite <- FB_eq in H2. lia.
Qed.

Section Dir.
Variable fs : fsT.
Variable lo : N.
Variable n : nat.
Local Notation files := (iota lo (Datatypes.S n)).
Hypothesis Hfull : forall f, In f files ->
  exists b, fs_get fs (filename f) = Some (FFile b) /\ lenN b = FB.

Local Notation St := (stream_of fs files).
Local Notation rsim := (rd_rel P fs files).
Local Notation rrsim := (rr_sim rreaderS vecr rsim).

Lemma Hsorted : StronglySorted N.lt files.
Proof. apply iota_sorted. Qed.

Lemma lenN_St : lenN St = (N.of_nat n + 1) * FB.
Proof. rewrite (lenN_S P fs files Hfull), lenN_iota. lia. Qed.

Lemma reads_tr_FV g rrV l rrfV :
  readsV g rrV l rrfV -> forall rrF, rrsim rrF rrV ->
  exists lF rrfF,
    readsF g rrF lF rrfF /\
    Forall2 (fun x y => rrsim (fst x) (fst y) /\ snd x = snd y) lF l /\
    rrsim rrfF rrfV.
Proof.
  induction 1 as [rrV rrV' Hgo | rrV rrV' l rrfV Hgo Htr IH]; intros rrF Hsim;
    destruct (go_next_FV P HBS_lo HBS_hi HNB fs files Hsorted Hfull g rrF rrV Hsim) as [Hres Hsim'];
    rewrite Hgo in Hres, Hsim'; cbn [fst snd] in Hres, Hsim';
    destruct (gonextF g rrF) as [rrF' r'] eqn:EgoF; cbn [fst snd] in Hres, Hsim'; subst r'.
  - exists [], rrF'. split; [apply RT_end; exact EgoF|]. split; [constructor | exact Hsim'].
  - destruct (IH rrF' Hsim') as (lF & rrfF & HtrF & Hall & Hfin).
    exists ((rrF, rr_buf rrF') :: lF), rrfF. split; [eapply RT_rec; eassumption|].
    split; [|exact Hfin]. constructor; [|exact Hall]. cbn [fst snd].
    split; [exact Hsim|]. destruct Hsim' as (_ & Hbuf & _). exact Hbuf.
Qed.

Lemma rd_rel_idx r v : rsim r v ->
  cok fs (rd_ctx r) /\ rd_files r = files /\
  exists i j, rd_file r = lo + i /\ i <= N.of_nat n /\ j < NB P /\ rd_block_id r = j /\
              lenN (vr_rest v) + (i * NB P + j + 1) * B = lenN St.
Proof.
  intros (Hcok & Hfl & pre & post & j & Hf & Hj & Hid & _ & Hv & _).
  split; [exact Hcok|]. split; [exact Hfl|].
  destruct (iota_split _ _ _ _ _ Hf) as [Hfile Hlen].
  exists (lenN pre), j. repeat split; try assumption; try lia.
  rewrite Hv. unfold vec_at. cbn [vr_rest]. rewrite lenN_dropN, lenN_St, FB_eq.
  assert ((lenN pre * NB P + j + 1) * B <= (lenN pre * NB P + NB P) * B)
    by (apply N.mul_le_mono_r; lia).
  nia.
Qed.

Local Notation rest rr := (lenN (vr_rest (fr_rd (rr_fr rr)))).

(* the rolling reader's file follows the number of blocks the vecr reader has left *)
Lemma sim_tag_le a b a' b' :
  rrsim a b -> rrsim a' b' -> rest b' <= rest b -> tag_of a <= tag_of a'.
Proof.
  intros ((Hr & _) & _) ((Hr' & _) & _) Hle. unfold tag_of.
  destruct (rd_rel_idx _ _ Hr) as (_ & _ & i & j & Hf & Hi & Hj & _ & Hl).
  destruct (rd_rel_idx _ _ Hr') as (_ & _ & i' & j' & Hf' & Hi' & Hj' & _ & Hl').
  rewrite Hf, Hf'.
  assert (H : (i * NB P + j + 1) * B <= (i' * NB P + j' + 1) * B) by lia.
  apply (TornProofs.mulB_le_inv P HBS_lo HBS_hi) in H. nia.
Qed.

Lemma sim_tag_lo a b : rrsim a b -> lo <= tag_of a /\ tag_of a <= lo + N.of_nat n.
Proof.
  intros ((Hr & _) & _). unfold tag_of.
  destruct (rd_rel_idx _ _ Hr) as (_ & _ & i & j & Hf & Hi & _). lia.
Qed.

(* ... and is never beyond the file holding the start of the vecr reader's block, when the
   files hold the tail of a longer stream S from block kb *)
Lemma sim_tag_bpos (S : bytes) base kb a b :
  rrsim a b -> base <= lo -> kb * B = (lo - base) * FB -> lenN St + kb * B = lenN S ->
  (tag_of a - base) * FB <= bpos P S (fr_rd (rr_fr b)).
Proof.
  intros ((Hr & _) & _) Hbase Hkb HlenS. unfold tag_of, bpos.
  destruct (rd_rel_idx _ _ Hr) as (_ & _ & i & j & Hf & Hi & Hj & _ & Hl).
  rewrite Hf. replace (lo + i - base) with ((lo - base) + i) by lia.
  rewrite N.mul_add_distr_r, <- Hkb, FB_eq. nia.
Qed.

Lemma open_fuel_elim F fs0 plan pol hint r :
  L_IO P = false -> open_with P F fs0 plan pol hint = r -> (forall c, r <> OpenFuel c) ->
  open P fs0 plan pol hint = r.
Proof.
  intros Hio HF Hr. unfold open.
  destruct (le_ge_dec F (open_fuel P fs0)) as [Hle|Hge].
  - apply (open_with_fuel_mono P F); assumption.
  - assert (Hnf : forall c, open_with P (open_fuel P fs0) fs0 plan pol hint <> OpenFuel c).
    { intros c. apply (open_never_out_of_fuel P HBS_lo fs0 plan pol hint c Hio). }
    rewrite <- HF. symmetry.
    apply (open_with_fuel_mono P (open_fuel P fs0) F); [reflexivity | exact Hnf | lia].
Qed.

Lemma Forall2_map_l' {A C D} (f : A -> C) (R : C -> D -> Prop) l l' :
  Forall2 (fun x d => R (f x) d) l l' -> Forall2 R (map f l) l'.
Proof. induction 1; cbn [map]; constructor; assumption. Qed.

Lemma Forall2_ser_combine {A} (rrs : list A) : forall (E : list entry),
  length rrs = length E -> Forall wf_entry E ->
  Forall2 (fun (y : A * bytes) e => snd y = entry_ser e /\ wf_entry e)
          (combine rrs (map entry_ser E)) E.
Proof.
  induction rrs as [|r rrs IH]; intros [|e E] H Hwf; cbn [length] in H; try discriminate;
    cbn [map combine]; constructor; inversion Hwf; subst.
  - split; [reflexivity | assumption].
  - apply IH; [lia | assumption].
Qed.

(* what `open` builds before its final run_gc_if_necessary: writer w0 and the replayed queues *)
Definition open_finish (w0 : rwriter) (qs : queues) (pol : policy) (hint : list bytes) : open_result :=
  match run_gc_if_necessary P (mkSt w0 qs pol) hint with
  | (st1, Err e) => OpenIo e (w_ctx (s_wr st1))
  | (st1, Ok _) => OpenOk st1
  end.

Lemma open_finish_not_fuel w0 qs pol hint c : open_finish w0 qs pol hint <> OpenFuel c.
Proof.
  unfold open_finish. destruct (run_gc_if_necessary P (mkSt w0 qs pol) hint) as [st1 [k|e]]; discriminate.
Qed.

(* The ghost setting: the WAL is one byte stream numbered from file `base`; T is the encoding
   of all entries ever written (from cursor 0); the directory holds the files lo..lo+n, which
   are the tail of T ++ zeros from the block boundary b = (lo - base) * FILE. *)
Section Kept.
Variables (base : N) (es_all : list bytes) (T : bytes) (z : N).
Hypothesis Hbase : base <= lo.
Hypothesis Hlist : list_wal_numbers fs = files.
Hypothesis Henc : encs_rel P 0 es_all T.
Hypothesis HSt : St = dropN ((lo - base) * FB) (T ++ zerosN z).
Hypothesis HlenS : lenN (T ++ zerosN z) = (lo + N.of_nat n - base + 1) * FB.

Local Notation b := ((lo - base) * FB).
Local Notation cur := (lo + N.of_nat n).
Local Notation e_end := (N.max b (lenN T)).
Local Notation es_pre := (skipped_before P b 0 es_all).
Local Notation es_suf := (delivered_from P b 0 es_all).

(* the specification of what open builds from the kept files: the files the delivered entries
   es_suf are attributed to (tags), and the writer w0 made of the final reader *)
Definition kept_spec (w0 : rwriter) (tags : list N) : Prop :=
  length tags = length es_suf /\
  Forall2 (fun f s => (f - base) * FB <= snd s) tags (starts P (cursor_after P 0 es_pre) es_suf) /\
  StronglySorted N.le tags /\
  Forall (fun f => lo <= f /\ f <= w_file w0) tags /\
  w_files w0 = files /\ lo <= w_file w0 /\ w_file w0 <= cur /\
  (((w_file w0 - base) * FB + w_off w0 = ffp e_end /\ w_off w0 < FB) \/
   ((w_file w0 - base) * FB + w_off w0 = e_end /\ w_file w0 = cur /\
    FB < w_off w0 + 7 /\ w_off w0 <= FB)) /\
  w_pending w0 = [] /\ c_fs (w_ctx w0) = fs /\ c_plan (w_ctx w0) = None.

Definition trace_ok (lF : list (rreader rreaderS * bytes)) (rrfF : rreader rreaderS) : Prop :=
  map snd lF = es_suf /\
  kept_spec (rd_into_writer P (fr_rd (rr_fr rrfF)) (fr_cursor (rr_fr rrfF))) (tags_of lF).

Lemma map_snd_Forall2 {A C} (Q : A -> C -> Prop) (l : list (A * bytes)) (l' : list (C * bytes)) :
  Forall2 (fun x y => Q (fst x) (fst y) /\ snd x = snd y) l l' -> map snd l = map snd l'.
Proof. induction 1 as [|x y l l' [_ H] _ IH]; cbn [map]; congruence. Qed.

Lemma kept_files_trace g :
  lenN T + 7 <= 7 * N.of_nat g ->
  exists c rd lF rrfF,
    rd_open P (ctx_init fs None) = (c, Ok rd) /\
    readsF g (rr_open rreaderS rd) lF rrfF /\
    trace_ok lF rrfF.
Proof.
  intros Hg.
  set (S := T ++ zerosN z) in *.
  set (kb := (lo - base) * NB P).
  assert (Hkb : kb * B = b) by (unfold kb; rewrite FB_eq; lia).
  assert (HlenSt : lenN St + kb * B = lenN S).
  { rewrite lenN_St, HlenS, Hkb.
    replace (lo + N.of_nat n - base + 1) with ((N.of_nat n + 1) + (lo - base)) by lia. lia. }
  assert (Hok : stream_ok P S).
  { exists ((lo + N.of_nat n - base + 1) * NB P). rewrite HlenS, FB_eq. lia. }
  assert (HFB : B <= FB) by (rewrite FB_eq; nia).
  assert (Hblk : (kb + 1) * B <= lenN S).
  { rewrite <- HlenSt, lenN_St. nia. }
  destruct (read_delivered_tr P HBS_lo HBS_hi Hcrc 0 es_all T S [] z kb [] g Henc)
    as (rrs & rrfV & Hlen & HrdV & Htr & Hend); try reflexivity; try assumption; try lia.
  rewrite Hkb in Hlen, HrdV, Htr, Hend.
  destruct (rd_open_sim P ltac:(lia) HNB fs files Hsorted Hfull (ctx_init fs None))
    as (c0 & rd & Hopen & Hrel); [split; reflexivity | exact Hlist | discriminate |].
  pose proof (rr_open_sim rreaderS vecr rsim rd _ Hrel) as Hsim0.
  assert (Hstart : rr_open vecr (vec_at P fs files 0) = mkRR (rd_at P S kb 0) [] false).
  { unfold rr_open, fr_open. f_equal.
    change (mkFR (vec_at P fs files 0) 0 false) with (rd_at P St 0 0).
    rewrite HSt. rewrite <- Hkb, rd_at_drop. f_equal. lia. }
  rewrite Hstart in Hsim0.
  destruct (reads_tr_FV g _ _ _ HrdV _ Hsim0) as (lF & rrfF & HrdF & Hall & Hfin).
  pose proof (Forall2_length' _ _ _ Hall) as HlenF.
  rewrite combine_length, Hlen, Nat.min_id in HlenF.
  exists c0, rd, lF, rrfF.
  split; [exact Hopen|]. split; [exact HrdF|].
  unfold trace_ok, kept_spec.
  set (w0 := rd_into_writer P (fr_rd (rr_fr rrfF)) (fr_cursor (rr_fr rrfF))).
  split.
  { rewrite <- (map_snd_combine rrs es_suf) by exact Hlen.
    apply (map_snd_Forall2 _ _ _ Hall). }
  destruct (reads_tr_rest P HBS_lo HBS_hi g _ _ _ HrdV) as (Hrest_fin & Hrest_all & Hrest_sorted).
  assert (Hbp : kb * B <= bpos P S (fr_rd (rr_fr rrfV))).
  { cbn [rr_fr] in Hrest_fin. pose proof (bpos_rd_at P HBS_lo HBS_hi Hcrc S kb 0 Hblk) as Hb0.
    unfold bpos in *. lia. }
  destruct (at_end_kc P HBS_lo HBS_hi Hcrc S _ _ kb Hend) as (k & c & Hfr & Hkk & Hkblk & Hc & Hcase);
    [exact Hbp|].
  pose proof Hfin as Hfin0.
  destruct Hfin as ((Hrfin & Hcur & _) & _ & _).
  destruct (rd_rel_idx _ _ Hrfin) as (Hcok & Hfl & i & j & Hfile & Hi & Hj & Hid & Hl).
  rewrite Hfr in Hl, Hcur. unfold rd_at in Hl, Hcur. cbn [fr_rd vr_rest fr_cursor] in Hl, Hcur.
  rewrite lenN_dropN in Hl.
  assert (Hk : k = kb + i * NB P + j).
  { assert (E : k * B = (kb + i * NB P + j) * B) by lia.
    apply N.mul_cancel_r in E; lia. }
  assert (Hwfile : w_file w0 = lo + i) by exact Hfile.
  assert (Hwoff : w_off w0 = j * B + c).
  { unfold w0, rd_into_writer. cbn [w_off]. rewrite Hid, Hcur. reflexivity. }
  assert (Hpos : (w_file w0 - base) * FB + w_off w0 = k * B + c).
  { rewrite Hwfile, Hwoff, Hk. replace (lo + i - base) with ((lo - base) + i) by lia.
    unfold kb. rewrite FB_eq. lia. }
  split; [rewrite tags_of_length; exact HlenF|].
  split.
  { (* the tags are not beyond the first frames *)
    apply Forall2_map_l'.
    eapply Forall2_trans'; [|exact Hall|apply Forall2_combine_l; [|exact Htr]].
    - cbn beta. intros x y s [Hxy _] Hys.
      pose proof (sim_tag_bpos S base kb _ _ Hxy Hbase Hkb HlenSt). lia.
    - exact Hlen. }
  split.
  { apply StronglySorted_map.
    eapply StronglySorted_Forall2; [|exact Hall|exact Hrest_sorted].
    cbn beta. intros x y x' y' [Hxy _] [Hxy' _] Hle. eapply sim_tag_le; eassumption. }
  split.
  { apply Forall_map.
    eapply Forall2_Forall_l; [|exact Hall|exact Hrest_all].
    cbn beta. intros x y [Hxy _] [_ Hle]. split.
    - apply (sim_tag_lo _ _ Hxy).
    - change (w_file w0) with (tag_of rrfF).
      eapply sim_tag_le; [exact Hxy|exact Hfin0|exact Hle]. }
  split; [exact Hfl|]. split; [lia|]. split; [lia|].
  rewrite N.add_0_l in Hcase.
  assert (HlenS' : lenN S = kb * B + (N.of_nat n + 1) * (NB P * B)).
  { rewrite <- HlenSt, lenN_St, FB_eq. lia. }
  split.
  { destruct Hcase as [(Hp & Hc7) | (Hp & Hc7 & Hlast)].
    - left. split; [lia|]. rewrite Hwoff, FB_eq.
      assert ((j + 1) * B <= NB P * B) by (apply N.mul_le_mono_r; lia). lia.
    - right.
      assert (Hin : i = N.of_nat n /\ j + 1 = NB P).
      { rewrite HlenS', Hk in Hlast.
        assert (E1 : (N.of_nat n + 1) * NB P < i * NB P + j + 2).
        { apply (TornProofs.mulB_lt_inv P HBS_lo HBS_hi). lia. }
        destruct (N.eq_dec i (N.of_nat n)) as [Ei|Ni].
        - subst i. split; [reflexivity|]. lia.
        - exfalso.
          assert (H : (i + 1) * NB P <= N.of_nat n * NB P) by (apply N.mul_le_mono_r; lia).
          lia. }
      destruct Hin as [-> Hj1].
      split; [lia|]. split; [lia|]. rewrite Hwoff, FB_eq.
      replace (NB P) with (j + 1) by exact Hj1. lia. }
  split; [reflexivity|]. destruct Hcok as [Hcfs Hcplan].
  split; [exact Hcfs | exact Hcplan].
Qed.

(* the writer in the terms of the writer that was dropped: when the log ends in the last file
   (always the case when a clean writer wrote it: its current file is the last one), at offset
   woff of it, open's writer is in the last file at FileStream.norm_off woff *)
Lemma kept_spec_last w0 tags woff :
  kept_spec w0 tags ->
  e_end = (cur - base) * FB + woff -> woff <= FB ->
  w_file w0 = cur /\ w_off w0 = norm_off P woff.
Proof.
  intros (_ & _ & _ & _ & _ & Hlo & Hcur & Hpos & _) He Hw.
  apply (final_pos_norm base lo cur (w_file w0) (w_off w0) e_end woff); assumption.
Qed.

(* the hypothesis of kept_spec_last from "T reaches into the last file, or there is one file" *)
Lemma reach_last :
  (cur - base) * FB <= lenN T \/ n = 0%nat ->
  exists woff, e_end = (cur - base) * FB + woff /\ woff <= FB.
Proof.
  intros Hreach. exists (e_end - (cur - base) * FB).
  assert (HT : lenN T <= (cur - base + 1) * FB).
  { pose proof HlenS as HL. rewrite lenN_app in HL. lia. }
  assert (Hb : b <= (cur - base) * FB) by (apply N.mul_le_mono_r; lia).
  assert (Hb1 : (cur - base + 1) * FB = (cur - base) * FB + FB) by lia.
  destruct Hreach as [H|H].
  - split; lia.
  - subst n. cbn [N.of_nat] in *. rewrite N.add_0_r in *. split; lia.
Qed.

(* the reading itself, in the vocabulary of FileStream.file_roundtrip: for any sufficient
   fuel, the rolling reader delivers the entries delivered from the boundary, then End *)
Lemma reads_tr_file_read_all g rr l rrf :
  readsF g rr l rrf -> forall fuel, (length l < fuel)%nat ->
  file_read_all P fuel g rr = (map FrEntry (map snd l) ++ [FrEnd], rrf).
Proof.
  induction 1 as [rr rr' Hgo | rr rr' l rrf Hgo Htr IH]; intros fuel Hf;
    (destruct fuel as [|fuel]; [cbn [length] in Hf; lia|]); cbn [file_read_all].
  - rewrite Hgo. reflexivity.
  - rewrite Hgo. cbn [length] in Hf. rewrite IH by lia. reflexivity.
Qed.

Lemma es_suf_length : (length es_suf <= length es_all)%nat.
Proof.
  pose proof (skipped_delivered P b es_all 0) as Hs.
  apply (f_equal (@length bytes)) in Hs. rewrite app_length in Hs. lia.
Qed.

Theorem file_read_delivered :
  exists c rd,
    rd_open P (ctx_init fs None) = (c, Ok rd) /\
    forall fuel gofuel,
      (length es_all < fuel)%nat -> lenN T + 7 <= 7 * N.of_nat gofuel ->
      exists rr tags,
        file_read_all P fuel gofuel (rr_open rreaderS rd) = (map FrEntry es_suf ++ [FrEnd], rr) /\
        kept_spec (rd_into_writer P (fr_rd (rr_fr rr)) (fr_cursor (rr_fr rr))) tags.
Proof.
  destruct (kept_files_trace (N.to_nat (lenN T + 8)) ltac:(lia))
    as (c0 & rd & _ & _ & Hopen & _).
  exists c0, rd. split; [exact Hopen|]. intros fuel gofuel Hfuel Hg.
  destruct (kept_files_trace gofuel Hg)
    as (c1 & rd1 & lF & rrfF & Hopen1 & HrdF & Hsnd & Hspec).
  rewrite Hopen in Hopen1. injection Hopen1 as _ <-.
  exists rrfF, (tags_of lF). split; [|exact Hspec].
  destruct Hspec as (HlenF & _).
  rewrite (reads_tr_file_read_all _ _ _ _ HrdF fuel).
  - rewrite Hsnd. reflexivity.
  - rewrite tags_of_length in HlenF. rewrite HlenF. pose proof es_suf_length. lia.
Qed.

(* the replay loop of open_with, for the fuel F, over the delivered entries when they are the
   serialisations of the entries E_suf *)
Lemma deser_of_map_snd (lF : list (rreader rreaderS * bytes)) : forall (E : list entry),
  map snd lF = map entry_ser E -> Forall wf_entry E ->
  Forall2 (fun x e0 => entry_deser (snd x) = Some e0) lF E.
Proof.
  induction lF as [|x lF IH]; intros [|e0 E] H Hw; cbn [map] in H; try discriminate; constructor.
  - injection H as Hx _. rewrite Hx. apply entry_roundtrip. inversion Hw; assumption.
  - injection H as _ Hr. apply IH; [exact Hr | inversion Hw; assumption].
Qed.

Lemma open_kept pol hint E_suf :
  L_IO P = false -> es_suf = map entry_ser E_suf -> Forall wf_entry E_suf ->
  exists w0 tags,
    kept_spec w0 tags /\
    match replay_entries [] (combine tags E_suf) with
    | Some qs => open P fs None pol hint = open_finish w0 qs pol hint
    | None => exists c, open P fs None pol hint = OpenCorruption c
    end.
Proof.
  intros Hio Hsuf Hwf.
  set (F := N.to_nat (lenN T + 8)).
  destruct (kept_files_trace F ltac:(unfold F; lia))
    as (c0 & rd & lF & rrfF & Hopen & HrdF & Hsnd & Hspec).
  set (w0 := rd_into_writer P (fr_rd (rr_fr rrfF)) (fr_cursor (rr_fr rrfF))) in *.
  exists w0, (tags_of lF). split; [exact Hspec|].
  destruct Hspec as (HlenF & _).
  assert (Hdeser : Forall2 (fun x e0 => entry_deser (snd x) = Some e0) lF E_suf).
  { apply deser_of_map_snd; [rewrite Hsnd; exact Hsuf | exact Hwf]. }
  assert (HF : (length lF < F)%nat).
  { pose proof (StreamProofs.encs_rel_len P HBS_lo HBS_hi Hcrc _ _ _ Henc) as Hcount.
    pose proof es_suf_length. rewrite tags_of_length in HlenF. unfold F. lia. }
  pose proof (replay_loop_fold P F _ _ _ HrdF E_suf Hdeser F [] HF) as Hfold.
  destruct (replay_entries [] (combine (tags_of lF) E_suf)) as [qs|].
  - apply (open_fuel_elim F); [exact Hio | | apply open_finish_not_fuel].
    unfold open_with. rewrite Hopen, Hfold. reflexivity.
  - destruct Hfold as [rr' Hfold]. exists (reader_ctx rr').
    apply (open_fuel_elim F); [exact Hio | | discriminate].
    unfold open_with. rewrite Hopen, Hfold. reflexivity.
Qed.

End Kept.

Theorem open_replays_delivered base E_all T z pol hint :
  L_IO P = false ->
  base <= lo ->
  list_wal_numbers fs = files ->
  Forall wf_entry E_all ->
  encs_rel P 0 (map entry_ser E_all) T ->
  St = dropN ((lo - base) * FB) (T ++ zerosN z) ->
  lenN (T ++ zerosN z) = (lo + N.of_nat n - base + 1) * FB ->
  let b := (lo - base) * FB in
  exists w0 tags E_pre E_suf,
    E_all = E_pre ++ E_suf /\
    map entry_ser E_pre = skipped_before P b 0 (map entry_ser E_all) /\
    map entry_ser E_suf = delivered_from P b 0 (map entry_ser E_all) /\
    kept_spec base (map entry_ser E_all) T w0 tags /\
    match replay_entries [] (combine tags E_suf) with
    | Some qs => open P fs None pol hint = open_finish w0 qs pol hint
    | None => exists c, open P fs None pol hint = OpenCorruption c
    end.
Proof.
  intros Hio Hbase Hlist Hwf Henc HSt HlenS b.
  pose proof (skipped_delivered P b (map entry_ser E_all) 0) as Hsplit.
  destruct (map_app_inv entry_ser E_all _ _ Hsplit) as (E_pre & E_suf & HE & Hpre & Hsuf).
  assert (Hwf_suf : Forall wf_entry E_suf).
  { rewrite HE in Hwf. apply Forall_app in Hwf. apply Hwf. }
  destruct (open_kept base (map entry_ser E_all) T z Hbase Hlist Henc HSt HlenS pol hint E_suf
              Hio (eq_sym Hsuf) Hwf_suf) as (w0 & tags & Hspec & Hres).
  exists w0, tags, E_pre, E_suf.
  split; [exact HE|]. split; [exact Hpre|]. split; [exact Hsuf|]. split; [exact Hspec|exact Hres].
Qed.

(* ... with the writer in the last file, at the normalised offset, when the log reaches into
   the last file (or there is only one file) *)
Corollary open_replays_delivered_last base E_all T z pol hint :
  L_IO P = false ->
  base <= lo ->
  list_wal_numbers fs = files ->
  Forall wf_entry E_all ->
  encs_rel P 0 (map entry_ser E_all) T ->
  St = dropN ((lo - base) * FB) (T ++ zerosN z) ->
  lenN (T ++ zerosN z) = (lo + N.of_nat n - base + 1) * FB ->
  let b := (lo - base) * FB in
  let cur := lo + N.of_nat n in
  (cur - base) * FB <= lenN T \/ n = 0%nat ->
  exists w0 tags E_pre E_suf,
    E_all = E_pre ++ E_suf /\
    map entry_ser E_pre = skipped_before P b 0 (map entry_ser E_all) /\
    map entry_ser E_suf = delivered_from P b 0 (map entry_ser E_all) /\
    kept_spec base (map entry_ser E_all) T w0 tags /\
    w_file w0 = cur /\
    w_off w0 = norm_off P (N.max b (lenN T) - (cur - base) * FB) /\
    match replay_entries [] (combine tags E_suf) with
    | Some qs => open P fs None pol hint = open_finish w0 qs pol hint
    | None => exists c, open P fs None pol hint = OpenCorruption c
    end.
Proof.
  intros Hio Hbase Hlist Hwf Henc HSt HlenS b cur Hreach.
  destruct (open_replays_delivered base E_all T z pol hint Hio Hbase Hlist Hwf Henc HSt HlenS)
    as (w0 & tags & E_pre & E_suf & HE & Hpre & Hsuf & Hspec & Hres).
  destruct (reach_last base T z Hbase Hlist HSt HlenS Hreach) as (woff & He & Hw).
  destruct (kept_spec_last base _ T Hbase w0 tags woff Hspec He Hw) as [Hf Ho].
  exists w0, tags, E_pre, E_suf.
  split; [exact HE|]. split; [exact Hpre|]. split; [exact Hsuf|]. split; [exact Hspec|].
  split; [exact Hf|]. split; [|exact Hres].
  rewrite Ho. f_equal. fold b cur in He. fold b cur. lia.
Qed.

End Dir.

End Files.

Section Whole.
Variable P : params.
Hypothesis HBS_lo : 7 < BS P.
Hypothesis HBS_hi : BS P <= 65542.
Hypothesis HNB : 1 <= NB P.
Hypothesis Hcrc : forall t p, crcf P t p < 2 ^ 32.
Local Notation B := (BS P).
Local Notation FB := (FILE_BYTES P).

Lemma delivered_from_0 es : forall a, delivered_from P 0 a es = es.
Proof.
  destruct es as [|p ps]; intros a; cbn [delivered_from]; [reflexivity|].
  destruct (N.leb_spec 0 (first_frame_pos P a)) as [_|H]; [reflexivity | lia].
Qed.

Lemma skipped_before_0 es : forall a, skipped_before P 0 a es = [].
Proof.
  destruct es as [|p ps]; intros a; cbn [skipped_before]; [reflexivity|].
  destruct (N.leb_spec 0 (first_frame_pos P a)) as [_|H]; [reflexivity | lia].
Qed.

Lemma iota_last m : forall lo, last_opt (iota lo (Datatypes.S m)) = Some (lo + N.of_nat m).
Proof.
  induction m as [|m IH]; intros lo.
  - cbn. f_equal. lia.
  - change (iota lo (Datatypes.S (Datatypes.S m))) with (lo :: iota (lo + 1) (Datatypes.S m)).
    rewrite last_opt_cons_ne by (cbn [iota]; discriminate). rewrite IH. f_equal. lia.
Qed.

(* FileStream.file_roundtrip with the fuel bound of file_read_delivered: 7 more bytes of go_next
   fuel, the price of the general boundary *)
Theorem file_roundtrip_via_kept pol st0 es :
  open P [] None pol [] = OpenOk st0 ->
  vw_cursor (fst (mem_write_all P (mkVecW 0 []) es)) <= MAXLEN P ->
  exists w',
    file_write_all P (s_wr st0) es = (w', Ok (snd (mem_write_all P (mkVecW 0 []) es))) /\
    forall qs pol',
      let fs' := c_fs (drop_log (mkSt w' qs pol')) in
      exists c rd,
        rd_open P (ctx_init fs' None) = (c, Ok rd) /\
        forall fuel gofuel,
          (length es < fuel)%nat -> lenN (w_files w') * FB + 7 <= 7 * N.of_nat gofuel ->
          exists rr,
            file_read_all P fuel gofuel (rr_open rreaderS rd) = (map FrEntry es ++ [FrEnd], rr) /\
            let wr := rd_into_writer P (fr_rd (rr_fr rr)) (fr_cursor (rr_fr rr)) in
            w_files wr = w_files w' /\ w_file wr = w_file w' /\
            w_off wr = norm_off P (w_off w') /\
            w_pending wr = [] /\ c_fs (w_ctx wr) = fs' /\ c_plan (w_ctx wr) = None.
Proof using HBS_lo HBS_hi HNB Hcrc.
  intros Hopen HG.
  destruct (file_roundtrip P HBS_lo HBS_hi HNB Hcrc pol st0 es Hopen HG) as (w' & Hw & H).
  exists w'. split; [exact Hw|]. intros qs pol'. destruct (H qs pol') as (c & rd & Hrd & Hall).
  exists c, rd. split; [exact Hrd|]. intros fuel gofuel Hf Hg. apply Hall; [exact Hf|lia].
Qed.

(* the entries level with lo = base: every entry is replayed *)
Corollary open_replays_all fs lo n E_all T z pol hint :
  (forall f, In f (iota lo (Datatypes.S n)) ->
     exists b, fs_get fs (filename f) = Some (FFile b) /\ lenN b = FB) ->
  L_IO P = false ->
  list_wal_numbers fs = iota lo (Datatypes.S n) ->
  Forall wf_entry E_all ->
  encs_rel P 0 (map entry_ser E_all) T ->
  stream_of fs (iota lo (Datatypes.S n)) = T ++ zerosN z ->
  lenN (T ++ zerosN z) = (N.of_nat n + 1) * FB ->
  exists w0 tags,
    kept_spec P fs lo n lo (map entry_ser E_all) T w0 tags /\
    match replay_entries [] (combine tags E_all) with
    | Some qs => open P fs None pol hint = open_finish P w0 qs pol hint
    | None => exists c, open P fs None pol hint = OpenCorruption c
    end.
Proof.
  intros Hfull Hio Hlist Hwf Henc HSt HlenS.
  destruct (open_replays_delivered P HBS_lo HBS_hi HNB Hcrc fs lo n Hfull lo E_all T z pol hint
              Hio (N.le_refl lo) Hlist Hwf Henc)
    as (w0 & tags & E_pre & E_suf & HE & Hpre & _ & Hspec & Hres).
  - rewrite N.sub_diag, N.mul_0_l, dropN_0. exact HSt.
  - rewrite HlenS. f_equal. lia.
  - rewrite N.sub_diag, N.mul_0_l, skipped_before_0 in Hpre.
    apply map_eq_nil in Hpre. subst E_pre. cbn [app] in HE. subst E_suf.
    exists w0, tags. split; assumption.
Qed.

End Whole.

Print Assumptions read_delivered_tr.
Print Assumptions read_delivered_fin.
Print Assumptions replay_loop_fold.
Print Assumptions replay_loop_done_iff.
Print Assumptions kept_files_trace.
Print Assumptions file_read_delivered.
Print Assumptions open_kept.
Print Assumptions open_replays_delivered.
Print Assumptions open_replays_delivered_last.
Print Assumptions kept_spec_last.
Print Assumptions file_roundtrip_via_kept.
Print Assumptions open_replays_all.

(* BS = 16, two blocks per file; six entries written from a fresh directory fill files 0..6;
   file 0 is then removed: the kept files 1..6 are the tail of the stream from byte 32, and
   the first entry (first frame at 0) is the only one not delivered. *)
Module Example.
Definition Px : params := mkParams 16 2 (fun _ _ => 5) 0 false false false.
Definition qa : bytes := ["a"%byte].
Definition qb : bytes := ["b"%byte].
Definition E_ex : list entry :=
  [EPosition qa 0; EAppend qa 0 [(0, ["x"%byte; "y"%byte])]; EPosition qb 3;
   EAppend qa 1 [(1, ["z"%byte])]; ETruncate qa 0; EPosition qb 7].
Definition es_ex := map entry_ser E_ex.
Definition T_ex := encs_of Px 0 es_ex.
Definition fs_full : fsT :=
  match open Px [] None PNothing [] with
  | OpenOk st0 => vfs (fst (file_write_all Px (s_wr st0) es_ex))
  | _ => []
  end.
Definition fs_kept := fs_remove fs_full (filename 0).

Example setting_ok :
  list_wal_numbers fs_kept = iota 1 6 /\
  bytes_eqb (stream_of fs_kept (iota 1 6))
            (dropN ((1 - 0) * FILE_BYTES Px) (T_ex ++ zerosN (7 * 32 - lenN T_ex))) = true /\
  map snd (starts Px 0 es_ex) = [0; 32; 80; 112; 160; 192] /\
  delivered_from Px ((1 - 0) * FILE_BYTES Px) 0 es_ex = tl es_ex.
Proof. vm_compute. repeat split; reflexivity. Qed.
End Example.
