(* MemAcctProofs.v — property C16: corollaries of the memory formula of SpecRefine.v *)
From Coq Require Import Lia ZArith ZifyN ZifyNat ZifyBool.
From MRL Require Import Bytes BytesProofs Params Names Frame Record Mem Spec Rolling Log Hist SpecRefine.

Definition s_names (m : smap) : N := fold_right (fun '(n, _) acc => lenN n + acc) 0 m.
Definition s_payload (m : smap) : N :=
  fold_right (fun '(_, (recs, _)) acc => payload_bytes recs + acc) 0 m.
Definition s_nrecs (m : smap) : N := fold_right (fun '(_, (recs, _)) acc => lenN recs + acc) 0 m.

Lemma formula_split K (m : smap) :
  fold_right (fun '(n, (recs, _)) acc => lenN n + payload_bytes recs + K * lenN recs + acc) 0 m
  = s_names m + s_payload m + K * s_nrecs m.
Proof.
  induction m as [|[n [recs nx]] m IH]; cbn [fold_right s_names s_payload s_nrecs]; [lia|].
  fold (s_names m) (s_payload m) (s_nrecs m). rewrite IH. lia.
Qed.

Theorem used_is_names_payload_meta P st :
  qs_inv (s_qs st) ->
  log_memory_used P st =
  s_names (abs_qs (s_qs st)) + s_payload (abs_qs (s_qs st)) + RMS P * s_nrecs (abs_qs (s_qs st)).
Proof. intros Hi. rewrite log_memory_used_formula by exact Hi. apply formula_split. Qed.

Theorem used_bounds P st :
  qs_inv (s_qs st) ->
  s_names (abs_qs (s_qs st)) + s_payload (abs_qs (s_qs st)) <= log_memory_used P st /\
  log_memory_used P st <=
    s_names (abs_qs (s_qs st)) + s_payload (abs_qs (s_qs st)) + RMS P * s_nrecs (abs_qs (s_qs st)).
Proof. intros Hi. rewrite (used_is_names_payload_meta P st Hi). lia. Qed.

Definition all_empty (m : smap) : Prop := forall n recs nx, In (n, (recs, nx)) m -> recs = [].

Lemma all_empty_zero m : all_empty m -> s_payload m = 0 /\ s_nrecs m = 0.
Proof.
  induction m as [|[n [recs nx]] m IH]; intros H; cbn [s_payload s_nrecs fold_right]; [split; reflexivity|].
  fold (s_payload m) (s_nrecs m).
  assert (recs = []) by (eapply H; left; reflexivity). subst.
  destruct IH as [I1 I2]; [intros n' r' x' Hin; eapply H; right; exact Hin|].
  rewrite I1, I2. cbn. split; reflexivity.
Qed.

(* when every queue has been emptied, usage is back to the names-only baseline *)
Theorem used_baseline_when_empty P st :
  qs_inv (s_qs st) -> all_empty (abs_qs (s_qs st)) ->
  log_memory_used P st = s_names (abs_qs (s_qs st)).
Proof.
  intros Hi He. rewrite (used_is_names_payload_meta P st Hi).
  destruct (all_empty_zero _ He) as [-> ->]. lia.
Qed.

Lemma qs_size_put K : forall qs n q q',
  qs_get qs n = Some q -> qs_size K (qs_put qs n q') + mq_size K q = qs_size K qs + mq_size K q'.
Proof.
  induction qs as [|[n0 q0] qs IH]; intros n q q'; cbn [qs_get qs_put]; [discriminate|].
  destruct (bytes_eqb n0 n).
  - intros H; inversion H; subst. cbn [qs_size fold_right]. fold (qs_size K qs). lia.
  - intros H. cbn [qs_size fold_right]. fold (qs_size K qs) (qs_size K (qs_put qs n q')).
    specialize (IH n q q' H). lia.
Qed.

Lemma truncate_qs P st q p hint tick st' ev n :
  step P st (OTruncate q p hint) tick = (st', OutTruncate ev n) ->
  exists m, qs_get (s_qs st) q = Some m /\
            s_qs st' = qs_put (s_qs st) q (fst (truncate_head m p)) /\ ev = snd (truncate_head m p).
Proof.
  cbn [step]. unfold truncate. destruct (qs_get (s_qs st) q) as [m|] eqn:Hq; [|discriminate].
  pose proof (write_entry_qs P st (ETruncate q p)) as Hw.
  destruct (write_entry P st (ETruncate q p)) as [st1 [k|e]]; [|discriminate]. cbn [fst] in Hw.
  destruct (truncate_head m p) as [m' ev'] eqn:Et.
  pose proof (run_gc_qs P (set_qs st1 (qs_put (s_qs st1) q m')) hint) as Hg.
  destruct (run_gc_if_necessary P _ hint) as [st3 [k2|e]]; [|discriminate]. cbn [fst] in Hg.
  intros H; inversion H; subst. exists m. rewrite Et. cbn [fst snd].
  split; [reflexivity|]. split; [|reflexivity].
  rewrite persist_on_policy_qs, Hg. cbn [set_qs s_qs fst]. now rewrite Hw.
Qed.

(* a truncation lowers the usage by exactly the evicted payload bytes plus one RecordMeta each *)
Theorem truncate_releases P st q p hint tick st' ev n :
  qs_inv (s_qs st) ->
  step P st (OTruncate q p hint) tick = (st', OutTruncate ev n) ->
  exists recs nx,
    s_get (abs_qs (s_qs st)) q = Some (recs, nx) /\
    ev = lenN (filter (fun r => fst r <=? p) recs) /\
    log_memory_used P st =
      log_memory_used P st' + payload_bytes (filter (fun r => fst r <=? p) recs) + RMS P * ev.
Proof.
  intros Hi Hs. destruct (truncate_qs _ _ _ _ _ _ _ _ _ Hs) as (m & Hq & Hqs & Hev).
  pose proof (qs_inv_get _ _ _ Hi Hq) as Hm.
  pose proof (truncate_head_refines m p Hm) as Ht.
  destruct (truncate_head m p) as [m' k] eqn:Et. cbn [fst snd] in *.
  destruct Ht as (Hm' & Hrecs & Hk & _).
  exists (records_of (q_buf m) (q_metas m)), (next_position m).
  split; [rewrite abs_get, Hq; reflexivity|].
  set (recs := records_of (q_buf m) (q_metas m)) in *.
  set (recs' := records_of (q_buf m') (q_metas m')) in *.
  assert (Hsplit : forall l : list (N * bytes),
             lenN l = lenN (filter (fun r => fst r <=? p) l) + lenN (filter (fun r => p <? fst r) l) /\
             payload_bytes l = payload_bytes (filter (fun r => fst r <=? p) l)
                               + payload_bytes (filter (fun r => p <? fst r) l)).
  { induction l as [|[a b] l [I1 I2]]; [split; reflexivity|]. cbn [filter fst].
    destruct (N.leb_spec a p) as [Hle|Hgt].
    - destruct (N.ltb_spec p a) as [?|_]; [lia|]. rewrite !lenN_cons. cbn [payload_bytes fold_right snd].
      fold (payload_bytes l) (payload_bytes (filter (fun r => fst r <=? p) l)). split; lia.
    - destruct (N.ltb_spec p a) as [_|?]; [|lia]. rewrite !lenN_cons. cbn [payload_bytes fold_right snd].
      fold (payload_bytes l) (payload_bytes (filter (fun r => p <? fst r) l)). split; lia. }
  destruct (Hsplit recs) as [Hl Hp]. rewrite <- Hrecs in Hl, Hp.
  split; [lia|].
  unfold log_memory_used. rewrite Hqs.
  pose proof (qs_size_put (RMS P) (s_qs st) q m m' Hq) as Hput.
  rewrite (mq_size_formula _ _ Hm), (mq_size_formula _ _ Hm') in Hput.
  fold recs recs' in Hput. lia.
Qed.
