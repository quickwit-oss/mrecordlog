(* OpenIo.v — property C11: an injected I/O failure during `open` is reported (OpenIo). *)
From Coq Require Import Lia ZArith ZifyN ZifyNat ZifyBool.
From MRL Require Import Bytes BytesProofs Params Names Frame Record Mem Rolling Log OpenTerm.

Definition site_count (s : fsite) (c : ioctx) : N :=
  match s with SReadDir => c_nreaddir c | SOpen => c_nopen c | SRead => c_nread c end.

(* the fp_nth-th call (from 0) of the plan's site has been made *)
Definition fired (p : fplan) (c : ioctx) : Prop := site_count (fp_site p) c > fp_nth p.

(* directory.rs read_block maps an UnexpectedEof from read_exact to Ok(false) ("no more
   blocks in this file"), so a fault of kind UnexpectedEof injected at site Read is absorbed as
   end-of-file at every read except the first one of recovery. Such plans are not reportable. *)
Definition absorbed (p : fplan) : Prop := fp_site p = SRead /\ fp_kind p = IoUnexpectedEof.
Definition reportable (p : fplan) : Prop := ~ (fp_site p = SRead /\ fp_kind p = IoUnexpectedEof).

(* the plan is installed and has not fired yet *)
Definition quiet (p : fplan) (c : ioctx) : Prop :=
  c_plan c = Some p /\ site_count (fp_site p) c <= fp_nth p.

Lemma quiet_not_fired p c : quiet p c -> ~ fired p c.
Proof. unfold quiet, fired. intros [_ H]. lia. Qed.

(* contexts that differ only in the file system and the trace *)
Definition ceq (c c' : ioctx) : Prop :=
  c_plan c' = c_plan c /\ c_nreaddir c' = c_nreaddir c /\
  c_nopen c' = c_nopen c /\ c_nread c' = c_nread c.

Lemma ceq_refl c : ceq c c.
Proof. repeat split. Qed.
Lemma ceq_trans a b c : ceq a b -> ceq b c -> ceq a c.
Proof. unfold ceq. intuition congruence. Qed.
Lemma ceq_ev c e : ceq c (ctx_ev c e).
Proof. repeat split. Qed.
Lemma ceq_fs c fs : ceq c (ctx_fs c fs).
Proof. repeat split. Qed.

Lemma quiet_ceq p c c' : ceq c c' -> quiet p c -> quiet p c'.
Proof.
  unfold ceq, quiet, site_count. intros (H1 & H2 & H3 & H4) [Hp Hc]. split; [congruence|].
  destruct (fp_site p); congruence.
Qed.

Lemma site_eqb_eq a b : site_eqb a b = true <-> a = b.
Proof. destruct a, b; cbn; split; intros H; try reflexivity; discriminate. Qed.

Lemma fault_point_quiet p c s c' :
  quiet p c -> fault_point c s = (c', None) -> quiet p c'.
Proof.
  unfold quiet, fault_point. intros [Hp Hc]. rewrite Hp.
  destruct (site_eqb (fp_site p) s) eqn:Es.
  - apply site_eqb_eq in Es. subst s. cbn [andb].
    set (n := match fp_site p with SReadDir => c_nreaddir c | SOpen => c_nopen c | SRead => c_nread c end) in *.
    assert (Hn : n = site_count (fp_site p) c) by reflexivity.
    destruct (N.eqb_spec n (fp_nth p)) as [He|Hne]; cbn [orb]; [intros H; inversion H|].
    destruct (fp_persistent p && (fp_nth p <? n)); intros H; inversion H; subst c'.
    split; [destruct (fp_site p); first [exact Hp|reflexivity]|].
    unfold site_count in *. destruct (fp_site p); cbn; lia.
  - cbn [andb]. intros H; inversion H; subst c'.
    split; [destruct s; first [exact Hp|reflexivity]|].
    unfold site_count in *. destruct (fp_site p), s; cbn; try exact Hc; discriminate.
Qed.

Lemma fault_point_some p c s c' e :
  c_plan c = Some p -> fault_point c s = (c', Some e) -> fp_site p = s /\ e = fp_kind p.
Proof.
  unfold fault_point. intros Hp. rewrite Hp.
  destruct (site_eqb (fp_site p) s) eqn:Es; cbn [andb]; [|intros H; inversion H].
  apply site_eqb_eq in Es.
  destruct (_ || _); intros H; inversion H. split; [exact Es|reflexivity].
Qed.

Lemma create_file_ceq P c n c' r : create_file P c n = (c', r) -> ceq c c'.
Proof.
  unfold create_file. destruct (fs_get (c_fs c) (filename n)); intros H; inversion H; subst.
  - apply ceq_refl.
  - repeat split.
Qed.

Lemma gc_loop_ceq : forall files c refd c' files' r,
  gc_loop c files refd = (c', files', r) -> ceq c c'.
Proof.
  induction files as [|f rest IH]; intros c refd c' files' r H; cbn [gc_loop] in H.
  - inversion H; subst. apply ceq_refl.
  - destruct rest as [|g rest']; [inversion H; subst; apply ceq_refl|].
    destruct (refd f); [inversion H; subst; apply ceq_refl|].
    destruct (fs_get (c_fs c) (filename f)) as [[b| |]|].
    + apply IH in H. eapply ceq_trans; [|exact H]. repeat split.
    + inversion H; subst; apply ceq_refl.
    + apply IH in H. eapply ceq_trans; [|exact H]. repeat split.
    + inversion H; subst; apply ceq_refl.
Qed.

Lemma os_write_ceq c n off d : ceq c (os_write c n off d).
Proof. repeat split. Qed.

Lemma flush_buf_ceq w : ceq (w_ctx w) (w_ctx (flush_buf w)).
Proof. unfold flush_buf. destruct (w_pending w); [apply ceq_refl|]. repeat split. Qed.

Lemma bw_flush_ceq w : ceq (w_ctx w) (w_ctx (bw_flush w)).
Proof.
  unfold bw_flush, wr_ctx. cbn [w_ctx].
  eapply ceq_trans; [apply flush_buf_ceq|apply ceq_ev].
Qed.

Lemma roll_ceq w : ceq (w_ctx w) (w_ctx (sync_dir (sync_data (bw_flush w)))).
Proof. eapply ceq_trans; [apply bw_flush_ceq|]. repeat split. Qed.

Lemma wr_persist_ceq w a : ceq (w_ctx w) (w_ctx (wr_persist w a)).
Proof. unfold wr_persist. destruct a; [apply roll_ceq|apply bw_flush_ceq]. Qed.

Lemma bw_write_all_ceq P w d : ceq (w_ctx w) (w_ctx (bw_write_all P w d)).
Proof.
  unfold bw_write_all, bw_write_all0. cbn [w_ctx].
  destruct (lenN d <? BS P - lenN (w_pending w)); [apply ceq_refl|].
  destruct (BS P - lenN (w_pending w) <? lenN d).
  - destruct (BS P <=? lenN d); cbn [w_ctx].
    + eapply ceq_trans; [apply flush_buf_ceq|apply os_write_ceq].
    + apply flush_buf_ceq.
  - destruct (BS P <=? lenN d); cbn [w_ctx]; [apply os_write_ceq|apply ceq_refl].
Qed.

(* What an operation promises about the state x it returns with result r: Q if it succeeded,
   QE with the error if it failed. *)
Definition post {X A} (Q : X -> Prop) (QE : X -> ioerr -> Prop) (x : X) (r : res A) : Prop :=
  match r with Ok _ => Q x | Err e => QE x e end.

Section GenericReader.
Variable P : params.
Variable R : Type.
Variable rnext : R -> R * res bool.
Variable rblock : R -> bytes.
Variable Q : R -> Prop.
Variable QE : R -> ioerr -> Prop.
Hypothesis rnext_post : forall r r' x, Q r -> rnext r = (r', x) -> post Q QE r' x.

Lemma read_frame_post fr fr' res :
  Q (fr_rd fr) -> read_frame P R rnext rblock fr = (fr', res) ->
  match res with FIo e => QE (fr_rd fr') e | _ => Q (fr_rd fr') end.
Proof.
  intros Hq H. rewrite read_frame_eq in H.
  assert (Hhere : forall fr1, Q (fr_rd fr1) -> read_here P rblock fr1 = (fr', res) ->
            match res with FIo e => QE (fr_rd fr') e | _ => Q (fr_rd fr') end).
  { intros fr1 Hq1 Hh. apply read_here_spec in Hh. destruct Hh as [Hrd Hm]. rewrite Hrd.
    destruct res; first [exact Hq1|contradiction]. }
  destruct (need_skip P fr); [|exact (Hhere _ Hq H)].
  destruct (rnext (fr_rd fr)) as [r' x] eqn:Hn. pose proof (rnext_post _ _ _ Hq Hn) as Hp.
  destruct x as [[|]|e].
  - exact (Hhere (mkFR r' 0 false) Hp H).
  - inversion H; subst. exact Hp.
  - inversion H; subst. exact Hp.
Qed.

Lemma go_next_post : forall fuel rr rr' res,
  Q (fr_rd (rr_fr rr)) -> go_next P R rnext rblock fuel rr = (rr', res) ->
  match res with RIo e => QE (fr_rd (rr_fr rr')) e | _ => Q (fr_rd (rr_fr rr')) end.
Proof.
  apply (go_next_fr_rule P R rnext rblock (fun _ fr => Q (fr_rd fr))
           (fun fr res => match res with RIo e => QE (fr_rd fr) e | _ => Q (fr_rd fr) end)).
  - intros fr Hq. exact Hq.
  - intros _ fr fr' x Hq Hrf. pose proof (read_frame_post _ _ _ Hq Hrf) as Hq'.
    destruct x; [split|..]; exact Hq'.
Qed.
End GenericReader.

Section GenericWriter.
Variable P : params.
Variable W : Type.
Variable wwrite : W -> bytes -> W * res unit.
Variable wrem : W -> N.
Variable Q : W -> Prop.
Variable QE : W -> ioerr -> Prop.
Hypothesis wwrite_post : forall w d w' r, Q w -> wwrite w d = (w', r) -> post Q QE w' r.

Lemma write_frame_post w t pl w' r :
  Q w -> write_frame P W wwrite wrem w t pl = (w', r) -> post Q QE w' r.
Proof.
  intros Hq. unfold write_frame.
  assert (Hfb : forall w1 k, Q w1 ->
            match wwrite w1 (frame_bytes P t pl) with
            | (w2, Ok _) => (w2, Ok k)
            | (w2, Err e) => (w2, Err e)
            end = (w', r) -> post Q QE w' r).
  { intros w1 k Hq1.
    destruct (wwrite w1 (frame_bytes P t pl)) as [w2 r2] eqn:H2.
    pose proof (wwrite_post _ _ _ _ Hq1 H2) as Hp2.
    destruct r2; intros H; inversion H; subst; exact Hp2. }
  destruct (wrem w <? HEADER_LEN); [|apply Hfb; exact Hq].
  destruct (wwrite w (zerosN (wrem w))) as [w1 r1] eqn:H1.
  pose proof (wwrite_post _ _ _ _ Hq H1) as Hp1.
  destruct r1; [apply Hfb; exact Hp1|].
  intros H; inversion H; subst. exact Hp1.
Qed.

Lemma write_record_loop_post : forall fuel w isf pl acc w' r,
  Q w -> write_record_loop P W wwrite wrem fuel w isf pl acc = (w', r) -> post Q QE w' r.
Proof.
  induction fuel as [|f IH]; intros w isf pl acc w' r Hq H; cbn [write_record_loop] in H.
  - inversion H; subst. exact Hq.
  - cbv zeta in H.
    destruct (write_frame P W wwrite wrem w _ _) as [w1 r1] eqn:Hw.
    pose proof (write_frame_post _ _ _ _ _ Hq Hw) as Hp1.
    destruct r1; [|inversion H; subst; exact Hp1].
    destruct (isnil _); [inversion H; subst; exact Hp1|].
    eapply IH; eassumption.
Qed.

Lemma write_record_post w pl w' r :
  Q w -> write_record P W wwrite wrem w pl = (w', r) -> post Q QE w' r.
Proof. unfold write_record. apply write_record_loop_post. Qed.
End GenericWriter.

(* I is kept by every step that succeeds, E describes every error that is passed on. What the
   two need is closure under ceq and the behaviour of the five operations that consult the plan
   or can fail on their own. *)
Section Walk.
Variable P : params.
Variable I : ioctx -> Prop.
Variable E : ioctx -> ioerr -> Prop.
Hypothesis I_ceq : forall c c', ceq c c' -> I c -> I c'.
Hypothesis fault_ok : forall c s c', I c -> fault_point c s = (c', None) -> I c'.
Hypothesis open_file_post : forall c n c' r, I c -> open_file c n = (c', r) -> post I E c' r.
Hypothesis read_block_post : forall c n pos c' pos' r,
  I c -> read_block P c n pos = (c', pos', r) -> post I E c' r.
Hypothesis create_file_post : forall c n c' r, I c -> create_file P c n = (c', r) -> post I E c' r.
Hypothesis gc_loop_post : forall files c refd c' files' r,
  I c -> gc_loop c files refd = (c', files', r) -> post I E c' r.

Let Ird (rd : rreaderS) : Prop := I (rd_ctx rd).
Let Erd (rd : rreaderS) : ioerr -> Prop := E (rd_ctx rd).
Let Iwr (w : rwriter) : Prop := I (w_ctx w).
Let Ewr (w : rwriter) : ioerr -> Prop := E (w_ctx w).
Let Ist (st : state) : Prop := I (w_ctx (s_wr st)).
Let Est (st : state) : ioerr -> Prop := E (w_ctx (s_wr st)).

Lemma next_file_loop_post : forall cands c rd rd' r,
  I c -> next_file_loop P c cands rd = (rd', r) -> post Ird Erd rd' r.
Proof.
  induction cands as [|n rest IH]; intros c rd rd' r Hi H; cbn [next_file_loop] in H.
  - inversion H; subst. exact Hi.
  - destruct (open_file c n) as [c1 ro] eqn:Ho.
    pose proof (open_file_post _ _ _ _ Hi Ho) as H1.
    destruct ro as [u|e]; [|inversion H; subst; exact H1].
    destruct (read_block P c1 n 0) as [[c2 pos'] rb] eqn:Hr.
    pose proof (read_block_post _ _ _ _ _ _ H1 Hr) as H2.
    destruct rb as [[blk|]|e]; [inversion H; subst; exact H2| |inversion H; subst; exact H2].
    eapply IH; eassumption.
Qed.

Lemma rd_next_post rd rd' r : Ird rd -> rd_next P rd = (rd', r) -> post Ird Erd rd' r.
Proof.
  intros Hi. unfold rd_next.
  destruct (read_block P (rd_ctx rd) (rd_file rd) (rd_pos rd)) as [[c1 pos'] rb] eqn:Hr.
  pose proof (read_block_post _ _ _ _ _ _ Hi Hr) as H1.
  destruct rb as [[blk|]|e]; [intros H; inversion H; subst; exact H1| |intros H; inversion H; subst; exact H1].
  intros H. eapply next_file_loop_post; eassumption.
Qed.

Lemma ensure_last_full_post c files c' r :
  I c -> ensure_last_full P c files = (c', r) -> post I E c' r.
Proof.
  intros Hi. unfold ensure_last_full.
  destruct (last_opt files) as [n|]; [|intros H; inversion H; subst; exact Hi].
  destruct (lenN (file_content c n) <? FILE_BYTES P); [|intros H; inversion H; subst; exact Hi].
  destruct (open_file c n) as [c1 ro] eqn:Ho.
  pose proof (open_file_post _ _ _ _ Hi Ho) as H1.
  destruct ro as [u1|e]; intros H; inversion H; subst; [|exact H1].
  eapply I_ceq; [|exact H1]. eapply ceq_trans; [apply ceq_fs|apply ceq_ev].
Qed.

(* rd_open turns an empty first read into the error UnexpectedEof, which E need not allow:
   only its success is described. *)
Lemma rd_open_tail_ok c2 files c rd :
  I c2 -> rd_open_tail P c2 files = (c, Ok rd) -> I (rd_ctx rd).
Proof.
  intros Hi H.
  destruct (rd_open_tail_inv _ _ _ _ _ H) as (c3 & u & c4 & u' & pos & blk & He & Ho & Hr & ->).
  assert (Hi' : I c3).
  { destruct (L_SHORT P); [inversion He; subst; exact Hi|].
    exact (ensure_last_full_post _ _ _ _ Hi He). }
  pose proof (open_file_post _ _ _ _ Hi' Ho) as H3.
  exact (read_block_post _ _ _ _ _ _ H3 Hr).
Qed.

Lemma rd_open_ok c0 c rd :
  I (ctx_ev c0 EvReadDir) -> rd_open P c0 = (c, Ok rd) -> I (rd_ctx rd).
Proof.
  intros Hi. rewrite rd_open_eq.
  destruct (fault_point (ctx_ev c0 EvReadDir) SReadDir) as [c1 [e|]] eqn:Hf;
    [intros H; inversion H|].
  pose proof (fault_ok _ _ _ Hi Hf) as H1.
  destruct (list_wal_numbers (c_fs c1)) as [|x l]; [|apply rd_open_tail_ok; exact H1].
  destruct (create_file P c1 0) as [c' [u|e]] eqn:Hc; [|intros H; inversion H].
  apply rd_open_tail_ok. exact (create_file_post _ _ _ _ H1 Hc).
Qed.

Lemma wr_write_post w d w' r : Iwr w -> wr_write P w d = (w', r) -> post Iwr Ewr w' r.
Proof.
  intros Hi. unfold wr_write. destruct d as [|b d]; [intros H; inversion H; subst; exact Hi|].
  destruct (FILE_BYTES P <? w_off w + lenN (b :: d));
    [|intros H; inversion H; subst; exact (I_ceq _ _ (bw_write_all_ceq P _ _) Hi)].
  set (w1 := sync_dir (sync_data (bw_flush w))).
  assert (Hi1 : I (w_ctx w1)) by exact (I_ceq _ _ (roll_ceq w) Hi).
  destruct (tracker_next (w_files w1) (w_file w1)) as [nxt|].
  - destruct (open_file (w_ctx w1) nxt) as [c ro] eqn:Ho.
    pose proof (open_file_post _ _ _ _ Hi1 Ho) as H2.
    destruct ro; intros H; inversion H; subst; [|exact H2].
    exact (I_ceq _ _ (bw_write_all_ceq P (mkWr c _ _ _ _) _) H2).
  - destruct (create_file P (w_ctx w1) (w_file w1 + 1)) as [c ro] eqn:Hc.
    pose proof (create_file_post _ _ _ _ Hi1 Hc) as H2.
    destruct ro; intros H; inversion H; subst; [|exact H2].
    exact (I_ceq _ _ (bw_write_all_ceq P (mkWr c _ _ _ _) _) H2).
Qed.

Lemma write_entry_post st e st' r : Ist st -> write_entry P st e = (st', r) -> post Ist Est st' r.
Proof.
  unfold write_entry. intros Hi.
  destruct (write_record P rwriter (wr_write P) (wr_rem P) (s_wr st) (entry_ser e)) as [w r0] eqn:Hw.
  intros H; inversion H; subst.
  exact (write_record_post P rwriter (wr_write P) (wr_rem P) Iwr Ewr wr_write_post _ _ _ _ Hi Hw).
Qed.

Lemma persist_ok st a : Ist st -> Ist (persist st a).
Proof. exact (I_ceq _ _ (wr_persist_ceq (s_wr st) a)). Qed.

Lemma record_positions_post : forall names st acc st' r,
  Ist st -> record_positions P st names acc = (st', r) -> post Ist Est st' r.
Proof.
  induction names as [|x l IH]; intros st acc st' r Hi H; cbn [record_positions] in H.
  - inversion H; subst. exact Hi.
  - destruct (qs_get (s_qs st) x) as [q|]; [|eapply IH; eassumption].
    destruct (write_entry P st (EPosition x (next_position q))) as [st1 ro] eqn:Hw.
    pose proof (write_entry_post _ _ _ _ Hi Hw) as H1.
    destruct ro as [k|e]; [eapply IH; eassumption|].
    inversion H; subst. exact H1.
Qed.

Lemma record_empty_post st hint st' r :
  Ist st -> record_empty_queues_position P st hint = (st', r) -> post Ist Est st' r.
Proof.
  intros Hi. unfold record_empty_queues_position.
  destruct (record_positions P st _ 0) as [st1 ro] eqn:Hr.
  pose proof (record_positions_post _ _ _ _ _ Hi Hr) as H1.
  destruct ro as [k|e]; [|intros H; inversion H; subst; exact H1].
  destruct (L_GC P && (k =? 0)); intros H; inversion H; subst; [exact H1|].
  apply persist_ok. exact H1.
Qed.

Lemma run_gc_post st hint st' r :
  Ist st -> run_gc_if_necessary P st hint = (st', r) -> post Ist Est st' r.
Proof.
  intros Hi. unfold run_gc_if_necessary.
  destruct (has_deletable st); [|intros H; inversion H; subst; exact Hi].
  destruct (record_empty_queues_position P st hint) as [st1 ro] eqn:Hr.
  pose proof (record_empty_post _ _ _ _ Hi Hr) as H1.
  destruct ro as [k|e]; [|intros H; inversion H; subst; exact H1].
  destruct (gc_loop (w_ctx (s_wr st1)) (w_files (s_wr st1)) _) as [[c files] rg] eqn:Hg.
  pose proof (gc_loop_post _ _ _ _ _ _ H1 Hg) as H2.
  destruct rg as [u|e]; intros H; inversion H; subst; exact H2.
Qed.

(* With the flag L_IO the replay goes on reading after an I/O error, so the error must leave I
   standing. *)
Hypothesis io_ok : L_IO P = false \/ forall c e, E c e -> I c.

Lemma replay_loop_post : forall f g rr qs rr' res,
  I (reader_ctx rr) -> replay_loop P f g rr qs = (rr', res) ->
  match res with RpIo e => E (reader_ctx rr') e | _ => I (reader_ctx rr') end.
Proof.
  intros f g.
  apply (replay_loop_rule P g (fun _ rr _ => I (reader_ctx rr))
           (fun rr res => match res with RpIo e => E (reader_ctx rr) e | _ => I (reader_ctx rr) end)).
  - intros rr _ Hi. exact Hi.
  - intros _ rr qs rr1 x Hi Hgo.
    pose proof (go_next_post P rreaderS (rd_next P) rd_block Ird Erd rd_next_post _ _ _ _ Hi Hgo)
      as H1.
    destruct x as [| | |e|]; try exact H1.
    + destruct (entry_deser (rr_buf rr1)) as [e|]; [|exact H1].
      destruct (apply_entry qs _ e); exact H1.
    + destruct io_ok as [HIO|HE]; [rewrite HIO; exact H1|].
      destruct (L_IO P); [exact (HE _ _ H1)|exact H1].
Qed.

Lemma open_with_post fuel fs plan pol hint :
  I (ctx_ev (ctx_init fs plan) EvReadDir) ->
  match open_with P fuel fs plan pol hint with
  | OpenOk st => I (w_ctx (s_wr st))
  | OpenCorruption c | OpenFuel c => I c
  | OpenIo e c => rd_open P (ctx_init fs plan) = (c, Err e) \/ E c e
  end.
Proof.
  intros Hi. unfold open_with.
  destruct (rd_open P (ctx_init fs plan)) as [c [rd|e]] eqn:Ho; [|left; reflexivity].
  apply (rd_open_ok _ _ _ Hi) in Ho.
  destruct (replay_loop P fuel fuel (rr_open rreaderS rd) []) as [rr rp] eqn:Hrp.
  pose proof (replay_loop_post _ _ (rr_open rreaderS rd) _ _ _ Ho Hrp) as H1.
  destruct rp as [qs| |e|]; [|exact H1|right; exact H1|exact H1].
  set (st := mkSt _ qs pol).
  destruct (run_gc_if_necessary P st hint) as [st1 [n|e]] eqn:Hg;
    pose proof (run_gc_post st _ _ _ H1 Hg) as H2; [exact H2|right; exact H2].
Qed.
End Walk.

Lemma create_file_quiet p P c n c' r :
  quiet p c -> create_file P c n = (c', r) -> post (quiet p) (fun _ _ => True) c' r.
Proof.
  intros Hq Hc. destruct r; [|exact I]. exact (quiet_ceq _ _ _ (create_file_ceq _ _ _ _ _ Hc) Hq).
Qed.

Lemma gc_loop_quiet p files c refd c' files' r :
  quiet p c -> gc_loop c files refd = (c', files', r) -> post (quiet p) (fun _ _ => True) c' r.
Proof.
  intros Hq Hg. destruct r; [|exact I]. exact (quiet_ceq _ _ _ (gc_loop_ceq _ _ _ _ _ _ Hg) Hq).
Qed.

Section Writer.
Variable P : params.
Variable p : fplan.
Hypothesis Hrep : reportable p.

Lemma open_file_quiet c n c' r :
  quiet p c -> open_file c n = (c', r) -> post (quiet p) (fun _ _ => True) c' r.
Proof.
  intros Hq. unfold open_file.
  destruct (fault_point c SOpen) as [c1 [e|]] eqn:Hf; [intros H; inversion H; exact I|].
  pose proof (fault_point_quiet _ _ _ _ Hq Hf) as Hq1.
  destruct (fs_get (c_fs c1) (filename n)) as [[b| |]|]; intros H; inversion H; subst;
    [|exact I..].
  eapply quiet_ceq; [apply ceq_ev|exact Hq1].
Qed.

(* the one place where reportable is needed: a fault that fires at a read is not an
   UnexpectedEof, so read_block passes it on *)
Lemma read_block_quiet c n pos c' pos' r :
  quiet p c -> read_block P c n pos = (c', pos', r) -> post (quiet p) (fun _ _ => True) c' r.
Proof.
  intros Hq. unfold read_block.
  destruct (fault_point c SRead) as [c1 [e|]] eqn:Hf.
  { destruct (fault_point_some _ _ _ _ _ (proj1 Hq) Hf) as [Hs He].
    intros H. destruct e; inversion H; try exact I.
    exfalso. apply Hrep. split; [exact Hs|symmetry; exact He]. }
  pose proof (fault_point_quiet _ _ _ _ Hq Hf) as Hq1.
  destruct (pos + BS P <=? lenN (file_content c1 n)); intros H; inversion H; subst;
    (eapply quiet_ceq; [apply ceq_ev|exact Hq1]).
Qed.

Lemma open_with_quiet fuel fs pol hint :
  L_IO P = false ->
  match open_with P fuel fs (Some p) pol hint with
  | OpenOk st => quiet p (w_ctx (s_wr st))
  | OpenCorruption c => quiet p c
  | OpenFuel c => quiet p c
  | OpenIo _ _ => True
  end.
Proof.
  intros HIO.
  assert (Hq0 : quiet p (ctx_ev (ctx_init fs (Some p)) EvReadDir)).
  { split; [reflexivity|]. unfold site_count. destruct (fp_site p); cbn; lia. }
  pose proof (open_with_post P (quiet p) (fun _ _ => True) (quiet_ceq p) (fault_point_quiet p)
                open_file_quiet read_block_quiet (create_file_quiet p P) (gc_loop_quiet p)
                (or_introl HIO) fuel fs (Some p) pol hint Hq0) as H.
  destruct (open_with P fuel fs (Some p) pol hint); first [exact H|exact I].
Qed.

(* C11 *)
Theorem open_reports_io fs pol hint st :
  L_IO P = false ->
  open P fs (Some p) pol hint = OpenOk st -> ~ fired p (w_ctx (s_wr st)).
Proof.
  intros HIO H. apply quiet_not_fired.
  pose proof (open_with_quiet (open_fuel P fs) fs pol hint HIO) as Hq.
  unfold open in H. rewrite H in Hq. exact Hq.
Qed.

Theorem open_reports_io_corruption fs pol hint c :
  L_IO P = false ->
  open P fs (Some p) pol hint = OpenCorruption c -> ~ fired p c.
Proof.
  intros HIO H. apply quiet_not_fired.
  pose proof (open_with_quiet (open_fuel P fs) fs pol hint HIO) as Hq.
  unfold open in H. rewrite H in Hq. exact Hq.
Qed.

(* with C10: once the injected failure has happened, the only possible result is OpenIo *)
Theorem open_fired_is_io fs pol hint :
  L_IO P = false -> 7 < BS P ->
  match open P fs (Some p) pol hint with
  | OpenOk st => ~ fired p (w_ctx (s_wr st))
  | OpenCorruption c => ~ fired p c
  | OpenIo _ _ => True
  | OpenFuel _ => False
  end.
Proof.
  intros HIO HBS.
  pose proof (open_with_quiet (open_fuel P fs) fs pol hint HIO) as Hq.
  pose proof (fun c => open_never_out_of_fuel P HBS fs (Some p) pol hint c HIO) as Hnf.
  unfold open in *. destruct (open_with P (open_fuel P fs) fs (Some p) pol hint).
  - now apply quiet_not_fired.
  - exact I.
  - now apply quiet_not_fired.
  - eapply Hnf. reflexivity.
Qed.
End Writer.

(* The excluded case: site Read, kind UnexpectedEof.  Such a fault is never reported by a read:
   read_block turns it into "no more blocks in this file" (directory.rs read_block: Ok(false)), as
   if the file were cut at that block.  The only way the kind UnexpectedEof reaches the caller of
   open is RollingReader::open's first read. *)
Definition planned (p : fplan) (c : ioctx) : Prop := c_plan c = Some p.

(* I = planned; an error that is passed on is not UnexpectedEof and leaves the plan installed *)
Definition planned_err (p : fplan) (c : ioctx) (e : ioerr) : Prop :=
  planned p c /\ e <> IoUnexpectedEof.

Lemma planned_ceq p c c' : ceq c c' -> planned p c -> planned p c'.
Proof. unfold ceq, planned. intros (H1 & _). congruence. Qed.

Lemma fault_point_planned p c s c' o : planned p c -> fault_point c s = (c', o) -> planned p c'.
Proof.
  unfold planned, fault_point. intros Hp. rewrite Hp.
  destruct (_ && _); destruct s; intros H; inversion H; reflexivity.
Qed.

Lemma create_file_planned p P c n c' r :
  planned p c -> create_file P c n = (c', r) -> post (planned p) (planned_err p) c' r.
Proof.
  intros Hp Hc. pose proof (planned_ceq p _ _ (create_file_ceq _ _ _ _ _ Hc) Hp) as Hp'.
  destruct r; [exact Hp'|split; [exact Hp'|]].
  unfold create_file in Hc. destruct (fs_get (c_fs c) (filename n)); inversion Hc. discriminate.
Qed.

Lemma gc_loop_planned p : forall files c refd c' files' r,
  planned p c -> gc_loop c files refd = (c', files', r) -> post (planned p) (planned_err p) c' r.
Proof.
  intros files c refd c' files' r Hp Hg.
  pose proof (planned_ceq p _ _ (gc_loop_ceq _ _ _ _ _ _ Hg) Hp) as Hp'.
  destruct r as [u|e]; [exact Hp'|split; [exact Hp'|]]. clear Hp Hp'.
  revert c Hg. induction files as [|f rest IH]; intros c H; cbn [gc_loop] in H.
  - inversion H.
  - destruct rest as [|g rest']; [inversion H|].
    destruct (refd f); [inversion H|].
    destruct (fs_get (c_fs c) (filename f)) as [[b| |]|].
    + eapply IH; exact H.
    + inversion H. discriminate.
    + eapply IH; exact H.
    + inversion H. discriminate.
Qed.

Section Absorbed.
Variable P : params.
Variable p : fplan.
Hypothesis Habs : absorbed p.

(* the plan never fires at the other sites *)
Lemma open_file_abs c n c' r :
  planned p c -> open_file c n = (c', r) -> post (planned p) (planned_err p) c' r.
Proof.
  intros Hp. unfold open_file.
  destruct (fault_point c SOpen) as [c1 [e|]] eqn:Hf.
  - destruct (fault_point_some _ _ _ _ _ Hp Hf) as [Hs _]. destruct Habs as [Hs' _].
    rewrite Hs' in Hs. discriminate Hs.
  - pose proof (fault_point_planned _ _ _ _ _ Hp Hf) as Hp1.
    destruct (fs_get (c_fs c1) (filename n)) as [[b| |]|]; intros H; inversion H; subst;
      [eapply planned_ceq; [apply ceq_ev|exact Hp1]|split; [exact Hp1|discriminate]..].
Qed.

(* when it fires at a read, the read is a short read at an unchanged position *)
Lemma read_block_absorbed c n pos c1 e :
  planned p c -> fault_point c SRead = (c1, Some e) ->
  read_block P c n pos = (ctx_ev c1 (EvRead (filename n) pos (BS P) false), pos, Ok None).
Proof.
  intros Hp Hf. unfold read_block. rewrite Hf.
  destruct (fault_point_some _ _ _ _ _ Hp Hf) as [_ He]. destruct Habs as [_ Hk].
  rewrite He, Hk. reflexivity.
Qed.

(* ... which is, position and result, the read of the same file cut at that block *)
Lemma read_block_absorbed_as_cut c n pos c1 e :
  0 < BS P -> planned p c -> fault_point c SRead = (c1, Some e) ->
  let cut := ctx_fs (ctx_init (c_fs c) None)
               (fs_put (c_fs c) (filename n) (FFile (takeN pos (file_content c n)))) in
  forall c' pos' r, read_block P cut n pos = (c', pos', r) ->
  snd (fst (read_block P c n pos)) = pos' /\ snd (read_block P c n pos) = r /\
  c_ev c' = [EvRead (filename n) pos (BS P) false].
Proof.
  intros HBS Hp Hf cut c' pos' r. rewrite (read_block_absorbed c n pos c1 e Hp Hf).
  cbn [fst snd]. unfold cut. set (b0 := file_content c n).
  unfold read_block, ctx_fs, ctx_init, fault_point, file_content.
  cbn [c_plan c_fs c_ev c_nreaddir c_nopen c_nread ctx_ev].
  rewrite fs_get_put, bytes_eqb_refl.
  pose proof (lenN_takeN pos b0) as Hl.
  destruct (N.leb_spec (pos + BS P) (lenN (takeN pos b0))) as [Hle|Hgt].
  - exfalso. lia.
  - intros H; inversion H; subst. repeat split. lia.
Qed.

(* a read never fails *)
Lemma read_block_abs c n pos c' pos' r :
  planned p c -> read_block P c n pos = (c', pos', r) -> post (planned p) (planned_err p) c' r.
Proof.
  intros Hp.
  destruct (fault_point c SRead) as [c1 [e|]] eqn:Hf;
    pose proof (fault_point_planned _ _ _ _ _ Hp Hf) as Hp1.
  - rewrite (read_block_absorbed c n pos c1 e Hp Hf). intros H; inversion H; subst. exact Hp1.
  - unfold read_block. rewrite Hf.
    destruct (pos + BS P <=? lenN (file_content c1 n)); intros H; inversion H; subst; exact Hp1.
Qed.

(* every outcome of open: the kind UnexpectedEof is reported only by rd_open; after rd_open has
   succeeded no read reports anything. No premise on L_IO. *)
Lemma open_with_abs fuel fs pol hint c :
  open_with P fuel fs (Some p) pol hint = OpenIo IoUnexpectedEof c ->
  rd_open P (ctx_init fs (Some p)) = (c, Err IoUnexpectedEof).
Proof.
  intros H.
  pose proof (open_with_post P (planned p) (planned_err p) (planned_ceq p)
                (fun c s c' => fault_point_planned p c s c' None) open_file_abs read_block_abs
                (create_file_planned p P) (gc_loop_planned p)
                (or_intror (fun c e He => proj1 He)) fuel fs (Some p) pol hint eq_refl) as Hpost.
  rewrite H in Hpost. destruct Hpost as [Ho|[_ Hne]]; [exact Ho|]. now elim Hne.
Qed.

(* The injected kind reaches the caller of open only through RollingReader::open's first read
   (`?` on read_block's Ok(false) => UnexpectedEof); every later firing is absorbed. *)
Theorem open_absorbed_eof_only_first_read fs pol hint c :
  open P fs (Some p) pol hint = OpenIo IoUnexpectedEof c ->
  rd_open P (ctx_init fs (Some p)) = (c, Err IoUnexpectedEof).
Proof. unfold open. apply open_with_abs. Qed.
End Absorbed.

Check open_reports_io.
Check open_reports_io_corruption.
Check open_fired_is_io.
Print Assumptions open_reports_io.
Print Assumptions open_reports_io_corruption.
Print Assumptions open_fired_is_io.
Check open_absorbed_eof_only_first_read.
Print Assumptions open_absorbed_eof_only_first_read.
Print Assumptions read_block_absorbed.
Print Assumptions read_block_absorbed_as_cut.
