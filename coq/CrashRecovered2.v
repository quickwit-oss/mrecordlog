(* CrashRecovered2.v — the class of "usable" states is closed under calls,
   clean restarts AND crash recoveries.

   jstate st : st satisfies the junk-tolerant invariant for SOME prefix (with its reading
   property pre_cont).  Every state satisfying the restart invariant Inv is a jstate
   (jstate_inv); jstate is preserved by histories of calls and restarts, which refine the
   specification (jstate_run); a clean restart of a jstate is the identity on the abstract state
   (jstate_restart_identity); the recovery of ANY crash image of a call issued from a jstate is
   again a jstate, abstractly the state before or after the call (jstate_crash).
   Hence crash_recovered_crash: after a crash recovery and any continuation, a crash image of a
   later call recovers the state before or after that call, and the doubly recovered log is
   again fully usable. *)
From Coq Require Import Lia ZArith ZifyN ZifyNat ZifyBool List Sorted.
From MRL Require Import Bytes BytesProofs Params Names NamesProofs Frame Record Mem Spec Rolling Log
  Driver Hist NoopProofs SpecRefine RecordProofs StreamProofs PolicyProofs GcProofs GhostLog ReplaySpec
  HandleProofs FileStream ResyncProofs QueueIso RestartInv RestartWrite RestartGc RestartStep
  OpenReplay RestartFinal TornProofs TornFile CrashTrace CrashAtomic
  JInv JGc JStep JunkStream JReopen JRecoverL JRecoverP JRecoverL2
  JCrashShape JRecover2 JRecover3 CrashRecovered.

Section Usable.
Variable P : params.
Hypothesis HBS_lo : 7 < BS P.
Hypothesis HBS_hi : BS P <= 65542.
Hypothesis HNB : 1 <= NB P.
Hypothesis Hcrc : forall t p, crcf P t p < 2 ^ 32.
Hypothesis HGC : L_GC P = false.
Hypothesis HIO : L_IO P = false.
Hypothesis HSHORT : L_SHORT P = false.
Hypothesis Hnc : no_zero_collision P.

Local Notation B := (BS P).
Local Notation FB := (FILE_BYTES P).
Local Notation ser := (map entry_ser).

Definition jstate (st : state) : Prop :=
  exists PRE OLD opos adm cmax rm G,
    pre_ok PRE OLD opos /\ pre_cont P PRE (ser OLD) opos adm cmax rm /\ rm <= 7 /\
    (forall m, adm (m * NB P)) /\
    InvJ P PRE OLD opos st G /\
    lenN PRE + rm <= (w_file (s_wr st) + 1 - gh_base G) * FB.

Lemma jstate_intro PRE OLD opos adm cmax rm st G :
  pre_ok PRE OLD opos -> pre_cont P PRE (ser OLD) opos adm cmax rm -> rm <= 7 ->
  (forall m, adm (m * NB P)) -> InvJ P PRE OLD opos st G ->
  lenN PRE + rm <= (w_file (s_wr st) + 1 - gh_base G) * FB -> jstate st.
Proof. intros H1 H2 H3 H4 H5 H6. exists PRE, OLD, opos, adm, cmax, rm, G. auto 6. Qed.

Lemma jstate_inv st G : Inv P st G -> jstate st.
Proof.
  intros HI. apply (jstate_intro [] [] [] (fun _ => True) 0%nat 0 st G).
  - apply pre_ok_nil.
  - apply (pre_cont_nil P HBS_lo HBS_hi Hcrc).
  - lia.
  - intros _; exact I.
  - apply (Inv_InvJ P HBS_lo HBS_hi Hcrc); exact HI.
  - rewrite (@lenN_nil byte). apply N.le_0_l.
Qed.

Lemma jstate_qs_inv st : jstate st -> qs_inv (s_qs st).
Proof. intros (PRE & OLD & opos & adm & cmax & rm & G & _ & _ & _ & _ & HI & _). exact (InvJ_qs_inv P PRE OLD opos st G HI). Qed.

Theorem jstate_run st h :
  jstate st -> hist_ok P st h ->
  exists st' outs m' souts,
    hrun P st h = Some (st', outs) /\ jstate st' /\ Forall no_io outs /\
    s_run (abs_qs (s_qs st)) (map sop_of (hcalls h)) = (m', souts) /\
    (forall q, s_get m' q = s_get (abs_qs (s_qs st')) q) /\
    map out_logical outs = map Some souts.
Proof.
  intros (PRE & OLD & opos & adm & cmax & rm & G & Hpre & Hpc & Hrm & Hadm & HI & Hroom) Hok.
  pose proof (pre_reads_of_cont P HBS_lo HBS_hi Hcrc PRE (ser OLD) opos adm cmax rm Hpc) as Hrd.
  destruct (hrunJ_inv P HBS_lo HBS_hi HNB Hcrc HGC HIO HSHORT PRE OLD opos adm cmax rm Hpre Hrd Hadm
              h st G HI Hroom Hok) as (st' & outs & G' & Hrun & HI' & Eb & Hroom' & Hno & Hspec).
  destruct (Hspec (abs_qs (s_qs st)) (fun q => eq_refl)) as (m' & souts & Hs & Hm & Hl).
  exists st', outs, m', souts. split; [exact Hrun|].
  split; [exact (jstate_intro _ _ _ _ _ _ _ _ Hpre Hpc Hrm Hadm HI' Hroom')|].
  split; [exact Hno|]. split; [exact Hs|]. split; [exact Hm|exact Hl].
Qed.

Theorem jstate_restart_identity st :
  jstate st -> restart_bound P st ->
  forall pol hint, exists st2,
    restart P st pol hint = OpenOk st2 /\ jstate st2 /\ s_pol st2 = pol /\ w_pending (s_wr st2) = [] /\
    (forall q, s_get (abs_qs (s_qs st2)) q = s_get (abs_qs (s_qs st)) q).
Proof.
  intros (PRE & OLD & opos & adm & cmax & rm & G & Hpre & Hpc & Hrm & Hadm & HI & Hroom) Hb pol hint.
  pose proof (pre_reads_of_cont P HBS_lo HBS_hi Hcrc PRE (ser OLD) opos adm cmax rm Hpc) as Hrd.
  destruct (invJ_reopen P HBS_lo HBS_hi HNB Hcrc HGC HIO HSHORT PRE OLD opos adm cmax rm Hpre Hrd Hadm
              st G HI (restart_reopen_boundJ P HBS_lo HBS_hi HNB Hcrc PRE OLD opos st G HI Hb) Hroom pol hint)
    as (st2 & G2 & Ho & HI2 & Heq & Eb & Epol & Hfile & _).
  exists st2. split; [exact Ho|]. split.
  { apply (jstate_intro _ _ _ _ _ _ _ G2 Hpre Hpc Hrm Hadm HI2).
    rewrite Eb. assert ((w_file (s_wr st) + 1 - gh_base G) * FB <= (w_file (s_wr st2) + 1 - gh_base G) * FB)
      by (apply N.mul_le_mono_r; lia). lia. }
  split; [exact Epol|]. split; [exact (open_pending P HGC _ _ _ _ Ho)|]. exact Heq.
Qed.

(* the premises on a call that may be interrupted by a crash, in terms of the state alone *)
Definition crash_call_ok (st : state) (a : bool) (o : op) (tick : bool) (st' : state) (out : outcome) : Prop :=
  w_pending (s_wr st) = [] /\ s_pol st = PAlways a /\
  op_wf_strict (s_qs st) o /\
  crash_phys_bound P (s_wr st) (map snd (step_log P st o)) (abs_qs (s_qs st)) /\
  crash_phys_bound P (s_wr st) (map snd (step_log P st o)) (abs_qs (s_qs st')) /\
  step P st o tick = (st', out) /\
  (* restrictions *)
  w_file (s_wr st') = w_file (s_wr st) /\
  w_off (s_wr st') + B <= FB.

Theorem jstate_crash st a o tick st' out :
  jstate st -> crash_call_ok st a o tick st' out ->
  (forall e, out <> OutIo e) /\
  exists evs, c_ev (w_ctx (s_wr st')) = rev evs ++ c_ev (w_ctx (s_wr st)) /\
    forall cut k pol hint,
      let img := fold_left apply_event (crash_events evs cut k) (c_fs (w_ctx (s_wr st))) in
      exists st_r, open P img None pol hint = OpenOk st_r /\ jstate st_r /\
        s_pol st_r = pol /\ w_pending (s_wr st_r) = [] /\
        ((forall q, s_get (abs_qs (s_qs st_r)) q = s_get (abs_qs (s_qs st)) q) \/
         (forall q, s_get (abs_qs (s_qs st_r)) q = s_get (abs_qs (s_qs st')) q)).
Proof.
  intros (PRE & OLD & opos & adm & cmax & rm & G & Hpre & Hpc & Hrm & Hadm & HI & Hroom)
         (Hp0 & Hpol & Hop & Hb1 & Hb2 & Hstep & Hroll & Hblk).
  destruct (call_vcall P HBS_lo HBS_hi HNB Hcrc HGC PRE OLD opos Hpre st G a o tick st' out
              HI Hp0 Hpol Hop Hb1 Hb2 Hstep) as (Hno & Hc1 & Hc2 & G' & evs & Hev & Hv).
  split; [exact Hno|].
  exists evs. split; [exact Hev|]. intros cut k pol hint. cbn zeta.
  destruct (recover_vcall P HBS_lo HBS_hi HNB Hcrc HGC HIO HSHORT Hnc PRE OLD opos adm cmax rm
              Hpre Hpc Hrm Hadm st G _ st' G' evs Hv Hc1 Hc2 Hroll Hblk _ (crash_events_cpre evs cut k)
              pol hint)
    as (PRE2 & OLD2 & opos2 & adm2 & cmax2 & rm2 & st_r & G_r & Hopen & Hpre2 & Hpc2 & Hrm2 & Hadm2 &
        HIr & Hroom2 & Hpolr & Hpendr & Habs).
  exists st_r. split; [exact Hopen|].
  split; [exact (jstate_intro _ _ _ _ _ _ _ _ Hpre2 Hpc2 Hrm2 Hadm2 HIr Hroom2)|].
  split; [exact Hpolr|]. split; [exact Hpendr|exact Habs].
Qed.

(* along a history under the flush-per-operation policy the buffer is empty after every call *)
Lemma jstate_run_always a h : forall st st' outs,
  jstate st -> hist_ok P st h -> always_hist a h ->
  s_pol st = PAlways a -> w_pending (s_wr st) = [] ->
  hrun P st h = Some (st', outs) ->
  s_pol st' = PAlways a /\ w_pending (s_wr st') = [].
Proof.
  induction h as [|[o tick|pol hint] h IH]; intros st st' outs Hj Hok Hal Hpol Hp Hrun.
  - cbn [hrun] in Hrun. injection Hrun as <- _. auto.
  - cbn [hist_ok] in Hok. destruct Hok as (Hop & Hb & Hok). cbn [always_hist] in Hal.
    cbn [hrun] in Hrun.
    destruct (jstate_run st [HCall o tick] Hj) as (st1 & outs1 & _ & _ & Hr1 & Hj1 & _).
    { cbn [hist_ok]. split; [exact Hop|]. split; [exact Hb|exact I]. }
    pose proof (step_pol P st o tick) as Hpol1.
    destruct (step P st o tick) as [s1 out] eqn:Es. cbn [fst snd] in *.
    cbn [hrun] in Hr1. rewrite Es in Hr1. cbn [hrun] in Hr1. injection Hr1 as <- _.
    assert (Hp1 : w_pending (s_wr s1) = []).
    { destruct Hj as (PRE & OLD & opos & adm & cmax & rm & G & Hpre & _ & _ & _ & HI & _).
      pose proof (phys_stream_boundJ P HBS_lo HBS_hi HNB Hcrc PRE OLD opos _ G _ (proj1 HI) Hb) as Hsb.
      pose proof (stepJ_no_io P HBS_lo HBS_hi HNB Hcrc HGC PRE OLD opos Hpre st G o tick HI Hop Hsb) as Hno.
      rewrite Es in Hno. cbn [snd] in Hno.
      destruct (stepJ_call_trace P HBS_lo HBS_hi HNB Hcrc HGC PRE OLD opos st G a o tick s1 out
                  HI Hp Hpol Hsb Es Hno) as (_ & _ & _ & _ & H). exact H. }
    destruct (hrun P s1 h) as [[st2 outs2]|] eqn:Er; [|discriminate]. injection Hrun as <- _.
    apply (IH s1 st2 outs2 Hj1 Hok Hal); [congruence|exact Hp1|exact Er].
  - cbn [hist_ok] in Hok. destruct Hok as (Hb & Hok). cbn [always_hist] in Hal.
    destruct Hal as (-> & Hal). cbn [hrun] in Hrun.
    destruct (jstate_restart_identity st Hj Hb (PAlways a) hint) as (st1 & Eo & Hj1 & Epol1 & Hp1 & _).
    rewrite Eo in *.
    apply (IH st1 st' outs Hj1 Hok Hal Epol1 Hp1 Hrun).
Qed.

(* A second crash.  After the recovery of a crash image of the call o (setting of crash_recovered_usable) under
   the policy PAlways a2 and any continuation history h2 of calls and clean restarts, every crash
   image of a further call o2 is recovered to the state before or after o2, and the recovered
   log is again usable (jstate: jstate_run / jstate_restart_identity / jstate_crash apply to it). *)
Theorem crash_recovered_crash st G a o tick st' out :
  crash_setting P st G a o tick st' out ->
  exists evs, c_ev (w_ctx (s_wr st')) = rev evs ++ c_ev (w_ctx (s_wr st)) /\
    forall cut k a2 hint st_r,
      open P (fold_left apply_event (crash_events evs cut k) (c_fs (w_ctx (s_wr st)))) None (PAlways a2) hint
        = OpenOk st_r ->
      forall h2 st2 outs2,
        hist_ok P st_r h2 -> always_hist a2 h2 -> hrun P st_r h2 = Some (st2, outs2) ->
        forall o2 tick2 st2' out2,
          op_wf_strict (s_qs st2) o2 ->
          crash_phys_bound P (s_wr st2) (map snd (step_log P st2 o2)) (abs_qs (s_qs st2)) ->
          crash_phys_bound P (s_wr st2) (map snd (step_log P st2 o2)) (abs_qs (s_qs st2')) ->
          step P st2 o2 tick2 = (st2', out2) ->
          w_file (s_wr st2') = w_file (s_wr st2) -> w_off (s_wr st2') + B <= FB ->
          exists evs2, c_ev (w_ctx (s_wr st2')) = rev evs2 ++ c_ev (w_ctx (s_wr st2)) /\
            forall cut2 k2 pol3 hint3,
              exists st_r2,
                open P (fold_left apply_event (crash_events evs2 cut2 k2) (c_fs (w_ctx (s_wr st2))))
                     None pol3 hint3 = OpenOk st_r2 /\
                ((forall q, s_get (abs_qs (s_qs st_r2)) q = s_get (abs_qs (s_qs st2)) q) \/
                 (forall q, s_get (abs_qs (s_qs st_r2)) q = s_get (abs_qs (s_qs st2')) q)) /\
                jstate st_r2.
Proof.
  intros (HI & Hp0 & Hpol & Hop & Hb & Hcb & Hcb' & Hstep & Hno & Hroll & Hblk).
  destruct (crash_recover_invJ P HBS_lo HBS_hi HNB Hcrc HGC HIO HSHORT Hnc st G a o tick st' out
              HI Hp0 Hpol Hop Hb Hcb Hcb' Hstep Hno Hroll Hblk) as (evs & Hev & Hall).
  exists evs. split; [exact Hev|]. intros cut k a2 hint st_r Hopen h2 st2 outs2 Hok2 Hal2 Hrun2
    o2 tick2 st2' out2 Hop2 Hb21 Hb22 Hstep2 Hroll2 Hblk2.
  destruct (Hall cut k (PAlways a2) hint)
    as (PRE & OLD & opos & adm & cmax & rm & st_r' & G_r & Hopen' & Hpre & Hpc & Hrm & Hadm & HIr & Hroom &
        Hpolr & Hpendr & _).
  cbn zeta in Hopen'. rewrite Hopen in Hopen'. injection Hopen' as <-.
  pose proof (jstate_intro _ _ _ _ _ _ _ _ Hpre Hpc Hrm Hadm HIr Hroom) as Hjr.
  destruct (jstate_run_always a2 h2 st_r st2 outs2 Hjr Hok2 Hal2 Hpolr Hpendr Hrun2) as (Hpol2 & Hpend2).
  destruct (jstate_run st_r h2 Hjr Hok2) as (st2x & outs2x & _ & _ & Hr2 & Hj2 & _).
  rewrite Hrun2 in Hr2. injection Hr2 as <- <-.
  destruct (jstate_crash st2 a2 o2 tick2 st2' out2 Hj2) as (_ & evs2 & Hev2 & Hall2).
  { repeat (split; [assumption|]). assumption. }
  exists evs2. split; [exact Hev2|]. intros cut2 k2 pol3 hint3.
  destruct (Hall2 cut2 k2 pol3 hint3) as (st_r2 & Ho2 & Hjr2 & _ & _ & Habs2).
  exists st_r2. split; [exact Ho2|]. split; [exact Habs2|exact Hjr2].
Qed.

End Usable.

Print Assumptions jstate_inv.
Print Assumptions jstate_run.
Print Assumptions jstate_restart_identity.
Print Assumptions jstate_crash.
Print Assumptions crash_recovered_crash.
