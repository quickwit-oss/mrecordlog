(* VacLive.v — vacuity audit: the theorems about live calls whose premises are local
   invariants (others_synced, unlink_guarded, seqw, qs_inv, wr_ok, dir_ok, nodup_keys, attr_inv,
   noop_call, drained, fired ...): PropC03, PropC04 (live half), PropC05, PropC06, PropC08,
   PropC09 (entry level), PropC10, PropC11, PropC12, PropC13, PropC14, PropC15, PropC16, PropC17,
   PropC18 (live half).
   The states are those of RestartFinal.Example (BS = 32, NB = 2): st_ex after the 12-step
   history; stR = st_ex restarted under PAlways true (a state returned by `open` on a directory
   of three files, two queues); st6 / st7 = before / after the truncate whose GC unlinks files
   0 and 1. *)
From Coq Require Import Lia ZArith ZifyN ZifyNat ZifyBool List.
From MRL Require Import Bytes BytesProofs Params Names NamesProofs Frame Record Mem Spec Rolling Log
  Driver Hist WriterProofs NoopProofs SpecRefine MemAcctProofs RecordProofs EffectsProofs
  PolicyProofs QueueIso GcProofs OpenTerm OpenIo GhostLog ReplaySpec DeletionSim PersistProofs
  HandleProofs RestartInv RestartFinal RestartCorollaries VacBase VacRestart.
From MRL Require PropC03 PropC04 PropC05 PropC06 PropC08 PropC09 PropC10 PropC11 PropC12 PropC13
  PropC14 PropC15 PropC16 PropC17 PropC18.
Import ListNotations.
Import RestartFinal.Example.

Local Notation qA := RestartFinal.Example.qa.
Local Notation qB := RestartFinal.Example.qb.

Ltac le_tac := vm_compute; let H := fresh in intro H; discriminate H.

Lemma open_stR : open Px (c_fs (drop_log st_ex)) None (PAlways true) [qB] = OpenOk stR.
Proof. vm_compute. reflexivity. Qed.

Example stR_shape :
  w_files (s_wr stR) = [4; 5; 6] /\ w_off (s_wr stR) = 32 /\ w_pending (s_wr stR) = [] /\
  s_pol stR = PAlways true /\
  abs_qs (s_qs stR) = [(qA, ([(6, pay "v"%byte)], 7)); (qB, ([(0, pay "w"%byte)], 1))].
Proof. vm_compute. repeat split; reflexivity. Qed.

(* st6 = after the first restart of h_ex (returned by open), st7 = after the truncate that follows *)
Definition st5 : state :=
  Eval vm_compute in match hrun Px st0 (firstn 5 h_ex) with Some (s, _) => s | None => st_dummy end.
Definition st6 : state :=
  Eval vm_compute in match hrun Px st0 (firstn 6 h_ex) with Some (s, _) => s | None => st_dummy end.
Definition o7 : op := OTruncate qA 2 [qB].
Definition st7 : state := Eval vm_compute in fst (step Px st6 o7 false).
Lemma open_st6 : open Px (c_fs (drop_log st5)) None (PDelay true) [] = OpenOk st6.
Proof. vm_compute. reflexivity. Qed.
Lemma step_st7 : step Px st6 o7 false = (st7, OutTruncate 3 45).
Proof. vm_compute. reflexivity. Qed.

Lemma others_stR : others_synced (s_wr stR).
Proof. exact (proj1 (PropC03.C03_open_establishes Px _ _ _ _ _ open_stR)). Qed.
Lemma guarded_st6 : unlink_guarded (chrono (w_ctx (s_wr st6))).
Proof. exact (proj2 (PropC03.C03_open_establishes Px _ _ _ _ _ open_st6) eq_refl). Qed.

Definition qC : bytes := ["c"%byte].
Definition stC : state := Eval vm_compute in fst (step Px stR (OCreate qC) false).
Lemma step_stC : step Px stR (OCreate qC) false = (stC, OutCreate 19).
Proof. vm_compute. reflexivity. Qed.

Example C03_fsync_durable_inst :
  (forall name, file_synced name (chrono (w_ctx (s_wr stC)))) /\ w_pending (s_wr stC) = [].
Proof.
  exact (PropC03.C03_fsync_durable Px stR (OCreate qC) false stC (OutCreate 19) step_stC eq_refl
           eq_refl others_stR).
Qed.

Example C03_power_loss_keeps_synced_prefix_inst : forall later,
  power_filter (chrono (w_ctx (s_wr stC)) ++ later) =
  chrono (w_ctx (s_wr stC)) ++ power_filter later.
Proof.
  intros later. apply PropC03.C03_power_loss_keeps_synced_prefix.
  exact (proj1 C03_fsync_durable_inst).
Qed.

Example stC_trace_has_writes :
  existsb (fun e => match e with EvWrite _ _ _ => true | _ => false end) (c_ev (w_ctx (s_wr stC))) = true.
Proof. vm_compute. reflexivity. Qed.

Example C03_flush_in_os_inst : w_pending (s_wr (fst (step Px stR (OPersist false) true))) = [].
Proof.
  destruct (step Px stR (OPersist false) true) as [st' out] eqn:Es. cbn [fst].
  apply (PropC03.C03_flush_in_os Px stR (OPersist false) true st' out Es).
  - right. reflexivity.
  - replace out with (snd (step Px stR (OPersist false) true)) by (rewrite Es; reflexivity).
    vm_compute. reflexivity.
  - reflexivity.
Qed.

Definition oA : op := OAppend qA None [pay "n"%byte; pay "m"%byte].
Definition stA : state := Eval vm_compute in fst (step Px stR oA false).
Lemma step_stA : step Px stR oA false = (stA, OutAppend (Some 8) 77).
Proof. vm_compute. reflexivity. Qed.

Example C03_flush_bytes_inst :
  w_pending (s_wr stA) = [] /\
  ev_bytes (c_ev (w_ctx (s_wr stA))) = ev_bytes (c_ev (w_ctx (s_wr stR))) + 77.
Proof.
  apply (PropC03.C03_flush_bytes Px stR oA false stA (OutAppend (Some 8) 77) 77 true step_stA eq_refl
           eq_refl).
  left. reflexivity.
Qed.

Example C03_other_files_synced_inst : others_synced (s_wr stA).
Proof.
  pose proof (PropC03.C03_other_files_synced Px stR oA false others_stR) as H.
  rewrite step_stA in H. exact H.
Qed.

(* C03_unlinks_after_sync: a GC pass that unlinks: the state st6 with its queues forgotten (nothing
   references files 0..2) *)
Definition st_g : state := set_qs st6 [].
Definition st_g' : state := Eval vm_compute in fst (run_gc_if_necessary Px st_g []).
Definition new_g : list event :=
  Eval vm_compute in firstn (length (c_ev (w_ctx (s_wr st_g'))) - length (c_ev (w_ctx (s_wr st_g))))
                            (c_ev (w_ctx (s_wr st_g'))).
Lemma run_gc_g : run_gc_if_necessary Px st_g [] = (st_g', Ok 0).
Proof. vm_compute. reflexivity. Qed.

Example C03_unlinks_after_sync_inst :
  exists unlinks older,
    new_g = unlinks ++ [EvSyncDir; EvSyncData (filename 3); EvFlush (filename 3)] ++ older /\
    Forall is_unlink unlinks.
Proof.
  destruct (PropC03.C03_unlinks_after_sync Px eq_refl st_g [] st_g' (Ok 0) new_g run_gc_g)
    as (unlinks & older & stm & H1 & H2 & _).
  - vm_compute. reflexivity.
  - exists (filename 2). unfold new_g. left. reflexivity.
  - exists unlinks, older. cbv zeta in H1. split; [exact H1|exact H2].
Qed.

Example new_g_shape :
  map (fun e => match e with EvUnlink n => filename_to_position n | _ => None end) (firstn 4 new_g) =
  [Some 2; Some 1; Some 0; None].
Proof. vm_compute. reflexivity. Qed.

Example C03_unlink_guarded_inst : unlink_guarded (chrono (w_ctx (s_wr st7))).
Proof.
  pose proof (PropC03.C03_unlink_guarded Px eq_refl [(o7, false)] st6 guarded_st6) as H.
  replace (run Px st6 [(o7, false)]) with (st7, [OutTruncate 3 45]) in H by (vm_compute; reflexivity).
  exact H.
Qed.

(* the trace of st7 contains two unlinks; the first one: *)
Definition evs7 : list event := Eval vm_compute in chrono (w_ctx (s_wr st7)).
Fixpoint split_unlink (l : list event) : list event * list event :=
  match l with
  | [] => ([], [])
  | EvUnlink n :: r => ([], r)
  | e :: r => let '(a, b) := split_unlink r in (e :: a, b)
  end.
Definition pre7 : list event := Eval vm_compute in fst (split_unlink evs7).
Definition post7 : list event := Eval vm_compute in snd (split_unlink evs7).

Example C03_no_write_between_inst :
  exists pre1 f pre2, pre7 = pre1 ++ [EvFlush f; EvSyncData f; EvSyncDir] ++ pre2 /\
                      forall n off d, ~ In (EvWrite n off d) pre2.
Proof.
  apply (PropC03.C03_no_write_between evs7 pre7 (filename 0) post7).
  - exact C03_unlink_guarded_inst.
  - vm_compute. reflexivity.
Qed.

Example C03_open_establishes_inst :
  others_synced (s_wr stR) /\ (L_GC Px = false -> unlink_guarded (chrono (w_ctx (s_wr stR)))).
Proof. exact (PropC03.C03_open_establishes Px _ _ _ _ _ open_stR). Qed.

(* seqw: the same directory opened under two policies *)
Definition stR2 : state :=
  Eval vm_compute in match restart Px st_ex PNothing [qB] with OpenOk s => s | _ => st_dummy end.
Lemma open_stR2 : open Px (c_fs (drop_log st_ex)) None PNothing [qB] = OpenOk stR2.
Proof. vm_compute. reflexivity. Qed.
Lemma seqw_R : seqw stR stR2.
Proof. exact (PropC14.C14_open_ok_seqw Px _ None _ _ _ stR stR2 eq_refl open_stR open_stR2). Qed.

Definition hP : list (op * bool) :=
  [(oA, false); (OTruncate qA 7 [qB], false); (OCreate qC, false); (OAppend qB None [pay "s"%byte], true)].

Example C03_policy_independent_content_inst :
  snd (run Px stR hP) = snd (run Px stR2 (map (fun ot => (fst ot, negb (snd ot))) hP)) /\
  seqw (fst (run Px stR hP)) (fst (run Px stR2 (map (fun ot => (fst ot, negb (snd ot))) hP))).
Proof.
  pose proof (PropC03.C03_policy_independent_content Px hP
                (map (fun ot => (fst ot, negb (snd ot))) hP) stR stR2 eq_refl eq_refl seqw_R) as H.
  destruct (run Px stR hP) as [s1 o1]. destruct (run Px stR2 _) as [s2 o2]. exact H.
Qed.

Lemma qs_inv_stR : qs_inv (s_qs stR).
Proof. exact (PropC05.C05_open_establishes_inv Px _ _ _ _ _ open_stR). Qed.

Definition m_s : smap := [(qA, ([], 0))].
Definition h_s : list sop :=
  [SAppend qA None [pay "x"%byte; pay "y"%byte]; STruncate qA 0; SAppend qA (Some 5) [pay "z"%byte];
   SCreate qB; SDelete qB; SAppend qA None [pay "u"%byte]].

Example C04_spec_next_monotone_inst :
  exists recs' next',
    s_get (fst (s_run m_s h_s)) qA = Some (recs', next') /\ 0 <= next' /\
    Sorted.StronglySorted N.lt (lasts qA h_s (snd (s_run m_s h_s))) /\
    lasts qA h_s (snd (s_run m_s h_s)) = [1; 5; 6].
Proof.
  destruct (PropC04.C04_spec_next_monotone h_s m_s qA [] 0 eq_refl ltac:(vm_compute; reflexivity))
    as (recs' & next' & H1 & H2 & H3 & _).
  exists recs', next'. split; [exact H1|]. split; [exact H2|]. split; [exact H3|]. vm_compute. reflexivity.
Qed.

Definition stP : state := Eval vm_compute in fst (run Px stR hP).
Definition outsP : list outcome := Eval vm_compute in snd (run Px stR hP).
Lemma run_P : run Px stR hP = (stP, outsP).
Proof. vm_compute. reflexivity. Qed.
Lemma no_io_P : forallb (fun o => negb (is_io o)) outsP = true.
Proof. vm_compute. reflexivity. Qed.
Lemma never_del_P : log_never_deleted qA hP outsP.
Proof. vm_compute. reflexivity. Qed.

Example C04_log_positions_fresh_inst :
  (qs_get (s_qs stR) qA <> None -> qs_get (s_qs stP) qA <> None) /\
  incr_between (log_next stR qA) (log_next stP qA) (log_lasts qA hP outsP).
Proof.
  exact (PropC04.C04_log_positions_fresh Px hP stR stP outsP qA qs_inv_stR run_P no_io_P never_del_P).
Qed.

Example C04_log_lasts_increasing_inst :
  log_next stR qA <= log_next stP qA /\
  Sorted.StronglySorted N.lt (log_lasts qA hP outsP) /\
  (forall l, In l (log_lasts qA hP outsP) -> log_next stR qA <= l < log_next stP qA).
Proof.
  exact (PropC04.C04_log_lasts_increasing Px hP stR stP outsP qA qs_inv_stR run_P no_io_P never_del_P).
Qed.

Example positions_P : log_next stR qA = 7 /\ log_next stP qA = 9 /\ log_lasts qA hP outsP = [8].
Proof. vm_compute. repeat split; reflexivity. Qed.

Example C04_append_fresh_inst :
  qs_get (s_qs stR) qA <> None /\ log_next stR qA <= 8 /\ log_next stA qA = 8 + 1 /\
  log_last_position stA qA = Some (Some 8).
Proof.
  exact (PropC04.C04_append_fresh Px stR qA None _ false stA 8 77 qs_inv_stR step_stA).
Qed.

Lemma qs_inv_stA : qs_inv (s_qs stA).
Proof.
  pose proof (PropC05.C05_refines Px stR oA false qs_inv_stR) as H. rewrite step_stA in H. exact (proj1 H).
Qed.

Definition oT : op := OTruncate qA 7 [qB].
Definition stT : state := Eval vm_compute in fst (step Px stA oT false).
Lemma step_stT : step Px stA oT false = (stT, OutTruncate 2 19).
Proof. vm_compute. reflexivity. Qed.

Example C04_truncate_next_inst :
  qs_get (s_qs stT) qA <> None /\ 7 + 1 <= log_next stT qA /\
  (forall recs, log_range stT qA Unb Unb = Some recs -> forall x, In x recs -> 7 < fst x).
Proof.
  exact (PropC04.C04_truncate_next Px stA qA 7 [qB] false stT 2 19 qs_inv_stA step_stT).
Qed.

Definition hT : list (op * bool) :=
  [(OCreate qC, false); (OAppend qA None [pay "s"%byte], true); (OAppend qA (Some 20) [pay "t"%byte], false)].
Definition stT' : state := Eval vm_compute in fst (run Px stT hT).
Definition outsT : list outcome := Eval vm_compute in snd (run Px stT hT).

Example C04_after_truncate_inst :
  (forall l, In l (log_lasts qA hT outsT) -> 7 < l) /\ log_lasts qA hT outsT = [9; 20].
Proof.
  split; [|vm_compute; reflexivity].
  apply (PropC04.C04_after_truncate Px stA qA 7 [qB] false stT 2 19 hT stT' outsT qs_inv_stA step_stT).
  - vm_compute. reflexivity.
  - vm_compute. reflexivity.
  - vm_compute. reflexivity.
Qed.

Example C04_step_positions_inst :
  7 <= 9 /\
  (forall x, In x [(6, pay "v"%byte); (7, pay "n"%byte); (8, pay "m"%byte)] ->
             In x [(6, pay "v"%byte)] \/ 7 <= fst x) /\
  (forall x, In x [(6, pay "v"%byte); (7, pay "n"%byte); (8, pay "m"%byte)] -> fst x < 9).
Proof.
  apply (PropC04.C04_step_positions Px stR oA false stA (OutAppend (Some 8) 77) qA
           [(6, pay "v"%byte)] 7 [(6, pay "v"%byte); (7, pay "n"%byte); (8, pay "m"%byte)] 9
           qs_inv_stR step_stA eq_refl).
  - vm_compute. reflexivity.
  - vm_compute. reflexivity.
Qed.

Example C05_refines_inst :
  qs_inv (s_qs stT) /\
  s_step (abs_qs (s_qs stA)) (sop_of oT) = (abs_qs (s_qs stT), STruncated 2).
Proof.
  pose proof (PropC05.C05_refines Px stA oT false qs_inv_stA) as H. rewrite step_stT in H.
  destruct H as [H1 H2]. split; [exact H1|]. apply H2. reflexivity.
Qed.

Example C05_run_refines_inst :
  qs_inv (s_qs stP) /\
  s_run (abs_qs (s_qs stR)) (map (fun ot => sop_of (fst ot)) hP) =
    (abs_qs (s_qs stP), [SAppended (Some 8); STruncated 2; SOk; SAppended (Some 1)]).
Proof.
  pose proof (PropC05.C05_run_refines Px hP stR qs_inv_stR) as H. rewrite run_P in H.
  destruct H as [H1 H2]. split; [exact H1|]. apply H2. vm_compute. reflexivity.
Qed.

Example C05_open_establishes_inv_inst : qs_inv (s_qs stR).
Proof. exact qs_inv_stR. Qed.

Example C05_range_all_bounds_inst :
  log_range stA qA (Excl 6) (Incl 8) = s_range (abs_qs (s_qs stA)) qA (Excl 6) (Incl 8) /\
  log_range stA qA (Excl 6) (Incl 8) = Some [(7, pay "n"%byte); (8, pay "m"%byte)].
Proof.
  split; [exact (PropC05.C05_range_all_bounds Px stA qA (Excl 6) (Incl 8) qs_inv_stA)|].
  vm_compute. reflexivity.
Qed.

Example C05_last_record_inst : log_last_record stA qA = s_last_record (abs_qs (s_qs stA)) qA.
Proof. exact (PropC05.C05_last_record stA qA qs_inv_stA). Qed.

Example C05_ring_inst :
  ring_get_range (pay "l"%byte) (pay "r"%byte) 7 13 = sliceN 7 13 (pay "l"%byte ++ pay "r"%byte).
Proof. apply PropC05.C05_ring; le_tac. Qed.

Example C05_past_only_guard_inst :
  exists m p, qs_get (s_qs stA) qA = Some m /\ Some 3 = Some p /\ p + 1 < next_position m.
Proof.
  apply (PropC05.C05_past_only_guard Px stA qA (Some 3) [pay "z"%byte] false).
  vm_compute. reflexivity.
Qed.

Lemma wr_inv_ex :
  wr_ok (s_wr st_ex) /\ dir_ok (s_wr st_ex) /\ nodup_keys (c_fs (w_ctx (s_wr st_ex))).
Proof.
  destruct inv_ex as (G & HI & _).
  destruct (Inv_winv Px st_ex G HI) as (_ & (Hok & Hdir) & Hnd).
  split; [exact Hok|]. split; [apply Hdir; le_tac|exact Hnd].
Qed.

Definition gc6 := Eval vm_compute in gc_loop (w_ctx (s_wr st6)) (w_files (s_wr st6)) (fun f => f =? 2).
Example C06_gc_loop_inst :
  exists dropped,
    [0; 1; 2; 3] = dropped ++ [2; 3] /\ Forall (fun f => (f =? 2) = false) dropped /\
    gc_tight (fun f => f =? 2) [0; 1; 2; 3] [2; 3].
Proof.
  destruct (PropC06.C06_gc_loop (w_files (s_wr st6)) (w_ctx (s_wr st6)) (fun f => f =? 2)
              (fst (fst gc6)) [2; 3] ltac:(vm_compute; reflexivity))
    as (dropped & H1 & H2 & H3 & _).
  exists dropped. split; [exact H1|]. split; [exact H2|exact H3].
Qed.

Definition o_gc : op := OTruncate qA 6 [qB].
Definition st_gc : state := Eval vm_compute in fst (step Px st_ex o_gc false).
Lemma step_gc : step Px st_ex o_gc false = (st_gc, OutTruncate 1 48).
Proof. vm_compute. reflexivity. Qed.

Example C06_contiguous_preserved_inst : wr_ok (s_wr st_gc).
Proof.
  pose proof (PropC06.C06_contiguous_preserved Px st_ex o_gc false (proj1 wr_inv_ex)) as H.
  rewrite step_gc in H. exact H.
Qed.

Example C06_tight_inst :
  exists lo, hd_error (w_files (s_wr st_gc)) = Some lo /\
    (lo = w_file (s_wr st_gc) \/ qs_ref lo (s_qs st_gc) = true \/ w_file (s_wr st_ex) <= lo).
Proof.
  apply (PropC06.C06_tight Px st_ex o_gc false st_gc (OutTruncate 1 48) (proj1 wr_inv_ex) step_gc).
  left. exists qA, 6, [qB], 1, 48. split; reflexivity.
Qed.

Example C06_disk_used_inst :
  exists lo, hd_error (w_files (s_wr st_gc)) = Some lo /\ lo <= w_file (s_wr st_gc) /\
    log_disk_used Px st_gc = (w_file (s_wr st_gc) - lo + 1) * FILE_BYTES Px.
Proof.
  destruct (PropC06.C06_disk_used Px st_ex o_gc false st_gc (OutTruncate 1 48) (proj1 wr_inv_ex) step_gc)
    as (lo & H1 & H2 & H3 & _).
  - left. exists qA, 6, [qB], 1, 48. split; reflexivity.
  - exists lo. auto.
Qed.

Example gc_shape : w_files (s_wr st_ex) = [4; 5; 6] /\ w_files (s_wr st_gc) = [5; 6; 7].
Proof. vm_compute. split; reflexivity. Qed.

Example C06_directory_is_tracker_inst :
  list_wal_numbers (c_fs (w_ctx (s_wr st_gc))) = w_files (s_wr st_gc).
Proof.
  destruct wr_inv_ex as (H1 & H2 & H3).
  pose proof (PropC06.C06_directory_is_tracker Px st_ex o_gc false H3 H1 H2) as H.
  rewrite step_gc in H. apply H. le_tac.
Qed.

Example C06_gc_no_err_inst :
  snd (gc_loop (w_ctx (s_wr st_ex)) (w_files (s_wr st_ex)) (fun _ => false)) = Ok tt.
Proof.
  destruct wr_inv_ex as (H1 & H2 & H3).
  destruct (gc_loop (w_ctx (s_wr st_ex)) (w_files (s_wr st_ex)) (fun _ => false)) as [[c files] r] eqn:E.
  cbn [snd]. apply (PropC06.C06_gc_no_err (s_wr st_ex) (fun _ => false) c files r E H1 H2). le_tac.
Qed.

(* handles: HandleProofs.ex_fes (two batches in file 3, one in file 4, then a truncation) *)
Definition qs_h : queues :=
  Eval vm_compute in match replay_entries [] ex_fes with Some q => q | None => [] end.
Definition F_h : tmap :=
  Eval vm_compute in match t_replay [] 0 (map snd ex_fes) with Some F => F | None => [] end.
Lemma replay_h : replay_entries [] ex_fes = Some qs_h. Proof. vm_compute. reflexivity. Qed.
Lemma t_replay_h : t_replay [] 0 (map snd ex_fes) = Some F_h. Proof. vm_compute. reflexivity. Qed.
Definition rf_h : list trec :=
  Eval vm_compute in match t_get F_h ReplaySpec.qa with Some (rf, _) => rf | None => [] end.
Lemma t_get_h : t_get F_h ReplaySpec.qa = Some (rf_h, 5). Proof. vm_compute. reflexivity. Qed.

Example C06_handles_cover_records_inst :
  rf_h = [(1%nat, (1, [x02])); (2%nat, (2, [x03])); (2%nat, (3, [x04])); (3%nat, (4, [x05]))] /\
  forall r, In r rf_h -> qs_ref (file_of ex_fes (fst r)) qs_h = true.
Proof.
  split; [vm_compute; reflexivity|]. intros r Hr.
  exact (PropC06.C06_handles_cover_records ex_fes qs_h F_h ReplaySpec.qa rf_h 5 r replay_h t_replay_h
           t_get_h Hr).
Qed.

Example C06_unreferenced_file_is_empty_inst :
  forall r, In r rf_h -> file_of ex_fes (fst r) <> 7.
Proof.
  intros r Hr.
  exact (PropC06.C06_unreferenced_file_is_empty ex_fes qs_h F_h 7 replay_h t_replay_h
           ltac:(vm_compute; reflexivity) ReplaySpec.qa rf_h 5 r t_get_h Hr).
Qed.

(* C06_live_handles: attr_inv for a NON-EMPTY state, obtained from the theorem applied to the
   fresh state (attr_inv [] [] holds trivially), then the theorem again *)
Definition g1 := Eval vm_compute in gstep Px (@pair state glog st0 []) (OCreate qA) false.
Definition st1c : state := Eval vm_compute in fst (fst g1).
Definition L1c : glog := Eval vm_compute in snd (fst g1).
Definition oXY : op := OAppend qA None [pay "x"%byte; pay "y"%byte].
Definition g2 := Eval vm_compute in gstep Px (st1c, L1c) oXY false.
Definition st2c : state := Eval vm_compute in fst (fst g2).
Definition L2c : glog := Eval vm_compute in snd (fst g2).
Lemma gstep1 : gstep Px (@pair state glog st0 []) (OCreate qA) false = (st1c, L1c, OutCreate 19).
Proof. vm_compute. reflexivity. Qed.
Lemma gstep2 : gstep Px (st1c, L1c) oXY false = (st2c, L2c, OutAppend (Some 1) 77).
Proof. vm_compute. reflexivity. Qed.

Example C06_live_handles_inst :
  exists am1 am2,
    s_qs st1c <> [] /\ attr_inv am1 (s_qs st1c) /\
    a_replay am1 (s_qs st1c) (skipn 1 L2c) = Some (am2, s_qs st2c) /\ attr_inv am2 (s_qs st2c).
Proof.
  destruct (PropC06.C06_live_handles Px st0 [] (OCreate qA) false st1c L1c (OutCreate 19) [])
    as (es1 & am1 & _ & _ & Ha1).
  { constructor. } { exact attr_inv_nil. } { exact gstep1. } { intros e H; discriminate H. }
  destruct (PropC06.C06_live_handles Px st1c L1c oXY false st2c L2c (OutAppend (Some 1) 77) am1)
    as (es2 & am2 & HL & Hr & Ha2).
  { vm_compute. repeat constructor. intros []. }
  { exact Ha1. } { exact gstep2. } { intros e H; discriminate H. }
  exists am1, am2. split; [vm_compute; discriminate|]. split; [exact Ha1|]. split; [|exact Ha2].
  assert (es2 = skipn 1 L2c) as <-; [|exact Hr].
  unfold L2c, L1c in HL. cbn [app] in HL. injection HL as HL. cbn [skipn]. symmetry. exact HL.
Qed.

(* C06_attrs_ge_first_kept: the premise on files below lo is NOT vacuous here (file 1 is a tag) *)
Definition fes_k : glog :=
  [(1, EPosition qA 0); (1, EAppend qA 0 (number_from 0 [[x01]])); (2, ETruncate qA 0);
   (2, EAppend qA 1 (number_from 1 [[x02]; [x03]]))].
Definition amqs_k := Eval vm_compute in a_replay [] [] fes_k.

Example C06_attrs_ge_first_kept_inst :
  exists am qs, amqs_k = Some (am, qs) /\ g_get am qA = Some [2; 2] /\
    forall q attrs, g_get am q = Some attrs -> Forall (fun a => 2 <= a) attrs.
Proof.
  unfold amqs_k. eexists. eexists. split; [reflexivity|]. split; [reflexivity|].
  apply (PropC06.C06_attrs_ge_first_kept fes_k _ _ 2 ltac:(vm_compute; reflexivity)).
  intros f Hin Hlt. cbn in Hin. destruct Hin as [<-|[<-|[<-|[<-|[]]]]]; try (vm_compute; reflexivity); lia.
Qed.

Example C08_positions_increasing_any_directory_inst : qs_inv (s_qs stR).
Proof. exact (PropC08.C08_positions_increasing_any_directory Px _ _ _ _ _ open_stR). Qed.

Example C10_result_wellformed_inst : qs_inv (s_qs stR).
Proof. exact (PropC10.C10_result_wellformed Px _ _ _ _ _ open_stR). Qed.

(* replaying an append on the (non-empty) queues of stA *)
Definition e_app : entry := EAppend qA 12 [(12, pay "g"%byte); (15, pay "h"%byte)].
Definition qs_app : queues :=
  Eval vm_compute in match apply_entry (s_qs stA) 9 e_app with Some q => q | None => [] end.
Lemma apply_app : apply_entry (s_qs stA) 9 e_app = Some qs_app.
Proof. vm_compute. reflexivity. Qed.

Example C08_replay_inserts_only_entry_records_inst :
  exists m', qs_get qs_app qA = Some m' /\
    records_of (q_buf m') (q_metas m') =
    [(6, pay "v"%byte); (7, pay "n"%byte); (8, pay "m"%byte)] ++ [(12, pay "g"%byte); (15, pay "h"%byte)].
Proof.
  destruct (PropC08.C08_replay_inserts_only_entry_records (s_qs stA) 9 qA 12 _ qs_app qs_inv_stA apply_app)
    as (m' & H1 & H2).
  exists m'. split; [exact H1|]. rewrite H2. vm_compute. reflexivity.
Qed.

Example C12_apply_all_or_nothing_inst :
  exists m', qs_get qs_app qA = Some m'.
Proof.
  destruct (PropC12.C12_apply_all_or_nothing (s_qs stA) 9 qA 12 _ qs_app qs_inv_stA apply_app)
    as (m' & H1 & _). exists m'. exact H1.
Qed.

Example C09_deletion_replay_some_inst : exists D, t_replay_skip dx_A dx_B = Some D.
Proof. exact (PropC09.C09_deletion_replay_some dx_A dx_B dx_x dx_legal). Qed.

Example C09_replay_tolerates_lost_entry_inst :
  exists qF qD,
    replay_entries [] (map (pair 1) dx_A ++ (2, dx_x) :: map (pair 2) dx_B) = Some qF /\
    replay_entries [] (map (pair 1) dx_A ++ map (pair 3) dx_B) = Some qD /\
    qs_inv qF /\ qs_inv qD.
Proof.
  assert (Hsnd : forall (f : N) (l : list entry), map snd (map (pair f) l) = l).
  { intros f l. rewrite map_map. cbn [snd]. apply map_id. }
  pose proof (PropC09.C09_replay_tolerates_lost_entry (map (pair 1) dx_A) (map (pair 2) dx_B)
                (map (pair 1) dx_A) (map (pair 3) dx_B) (2, dx_x) dx_F) as H.
  cbn zeta in H. cbn [snd] in H. rewrite !Hsnd in H.
  destruct (H eq_refl eq_refl dx_legal dx_full) as (qF & qD & H1 & H2 & H3 & H4 & _).
  exists qF, qD. split; [exact H1|]. split; [exact H2|]. split; [exact H3|exact H4].
Qed.

(* C10: L_IO = false and 7 < BS; on a directory with foreign entries, a directory named like a WAL
   file, a short file and garbage *)
Definition fs_junk : fsT :=
  [(filename 3, FFile (pay "g"%byte ++ zerosN 50)); (["x"%byte], FOther); (filename 4, FDir);
   (filename 5, FFile [x01; x02]); (filename 9, FFile (zerosN 64))].

Example C10_open_terminates_inst : forall c, open Px fs_junk None PNothing [] <> OpenFuel c.
Proof. intros c. exact (PropC10.C10_open_terminates Px Px_BS_lo fs_junk None PNothing [] c eq_refl). Qed.

Example C10_fuel_bound_inst : forall c, open_with Px 40 fs_junk None PNothing [] <> OpenFuel c.
Proof.
  intros c. apply (PropC10.C10_fuel_bound Px Px_BS_lo 40 fs_junk None PNothing [] c eq_refl).
  vm_compute. reflexivity.
Qed.

Example C10_fuel_irrelevant_inst :
  open_with Px 1000 fs_junk None PNothing [] = open_with Px 40 fs_junk None PNothing [].
Proof.
  apply (PropC10.C10_fuel_irrelevant Px 40 1000 fs_junk None PNothing [] _ eq_refl).
  - exact C10_fuel_bound_inst.
  - lia.
Qed.

(* PropC11: a fault plan that is never reached (the 50th read), one that is *)
Definition plan_far : fplan := mkPlan SRead 50 false IoOther.
Definition plan_hit : fplan := mkPlan SOpen 1 true IoPermissionDenied.
Definition stF : state :=
  Eval vm_compute in match open Px (c_fs (drop_log st_ex)) (Some plan_far) PNothing [] with
                     | OpenOk s => s | _ => st_dummy end.
Lemma open_far : open Px (c_fs (drop_log st_ex)) (Some plan_far) PNothing [] = OpenOk stF.
Proof. vm_compute. reflexivity. Qed.

Lemma plan_far_reportable : reportable plan_far.
Proof. intros [_ H]. discriminate H. Qed.
Lemma plan_hit_reportable : reportable plan_hit.
Proof. intros [H _]. discriminate H. Qed.

Example C11_ok_means_not_fired_inst : ~ fired plan_far (w_ctx (s_wr stF)).
Proof. exact (PropC11.C11_ok_means_not_fired Px plan_far plan_far_reportable (c_fs (drop_log st_ex)) PNothing [] stF eq_refl open_far). Qed.

Example C11_fired_is_io_inst :
  match open Px (c_fs (drop_log st_ex)) (Some plan_hit) PNothing [] with
  | OpenOk st => ~ fired plan_hit (w_ctx (s_wr st))
  | OpenIo _ _ => True
  | OpenCorruption c => ~ fired plan_hit c
  | OpenFuel _ => False
  end.
Proof. exact (PropC11.C11_fired_is_io Px plan_hit plan_hit_reportable (c_fs (drop_log st_ex)) PNothing [] eq_refl Px_BS_lo). Qed.

Example C11_fired_computed :
  match open Px (c_fs (drop_log st_ex)) (Some plan_hit) PNothing [] with
  | OpenIo IoPermissionDenied c => fired plan_hit c
  | _ => False
  end.
Proof. vm_compute. reflexivity. Qed.

(* C11_corruption_means_not_fired: open = OpenCorruption: an append "in the past" in the log *)
Definition T_cor : bytes :=
  Eval vm_compute in
    ResyncProofs.encs_of Px 0 (map entry_ser [EPosition qA 5; EAppend qA 2 [(2, ["x"%byte])]]).
Definition fs_cor : fsT := [(filename 0, FFile (T_cor ++ zerosN (64 - lenN T_cor)))].
Definition c_cor : ioctx :=
  Eval vm_compute in match open Px fs_cor (Some plan_far) PNothing [] with
                     | OpenCorruption c => c | _ => ctx_init [] None end.
Lemma open_cor : open Px fs_cor (Some plan_far) PNothing [] = OpenCorruption c_cor.
Proof. vm_compute. reflexivity. Qed.

Example C11_corruption_means_not_fired_inst : ~ fired plan_far c_cor.
Proof. exact (PropC11.C11_corruption_means_not_fired Px plan_far plan_far_reportable fs_cor PNothing [] c_cor eq_refl open_cor). Qed.

(* The plans excluded from C11 (site Read, kind UnexpectedEof). The directory of st_ex has
   three files of two blocks; without a fault open reads 8 times and recovers both queues.
   - plan_abs fires at the second read (file 4, block 1): read_block reports "no more blocks in
     this file", the rest of file 4 is skipped, open returns a log although the fault has fired:
     queue a is missing, and the GC that ends open unlinks file 4;
   - the same plan with another kind is reported (C11_fired_is_io);
   - plan_abs0 fires at the first read of recovery, which uses `?`: reported as UnexpectedEof,
     the one case left by C11_absorbed_eof_only_first_read. *)
Definition plan_abs : fplan := mkPlan SRead 1 false IoUnexpectedEof.
Definition plan_abs_other : fplan := mkPlan SRead 1 false IoOther.
Definition plan_abs0 : fplan := mkPlan SRead 0 false IoUnexpectedEof.

Example plan_abs_not_reportable : absorbed plan_abs /\ ~ reportable plan_abs.
Proof. split; [split; reflexivity|]. intros H. apply H. split; reflexivity. Qed.

Example C11_absorbed_computed :
  match open Px (c_fs (drop_log st_ex)) None PNothing [],
        open Px (c_fs (drop_log st_ex)) (Some plan_abs) PNothing [] with
  | OpenOk s0, OpenOk s =>
      abs_qs (s_qs s0) = [(qA, ([(6, pay "v"%byte)], 7)); (qB, ([(0, pay "w"%byte)], 1))] /\
      c_nread (w_ctx (s_wr s0)) = 8 /\
      fired plan_abs (w_ctx (s_wr s)) /\
      abs_qs (s_qs s) = [(qB, ([(0, pay "w"%byte)], 1))] /\
      c_nread (w_ctx (s_wr s)) = 7 /\
      In (EvRead (filename 4) 32 32 false) (c_ev (w_ctx (s_wr s))) /\
      In (EvUnlink (filename 4)) (c_ev (w_ctx (s_wr s))) /\
      w_files (s_wr s0) = [4; 5; 6] /\ w_files (s_wr s) = [5; 6]
  | _, _ => False
  end.
Proof. vm_compute. repeat split; try reflexivity; tauto. Qed.

(* the conclusion of C11_fired_is_io is false for plan_abs *)
Example C11_fired_is_io_fails_absorbed :
  ~ match open Px (c_fs (drop_log st_ex)) (Some plan_abs) PNothing [] with
    | OpenOk st => ~ fired plan_abs (w_ctx (s_wr st))
    | OpenIo _ _ => True
    | OpenCorruption c => ~ fired plan_abs c
    | OpenFuel _ => False
    end.
Proof. vm_compute. intros H. apply H. reflexivity. Qed.

Example C11_other_kind_reported :
  match open Px (c_fs (drop_log st_ex)) (Some plan_abs_other) PNothing [] with
  | OpenIo IoOther c => fired plan_abs_other c
  | _ => False
  end.
Proof. vm_compute. reflexivity. Qed.

Example C11_absorbed_first_read_computed :
  match open Px (c_fs (drop_log st_ex)) (Some plan_abs0) PNothing [] with
  | OpenIo IoUnexpectedEof c => fired plan_abs0 c /\ c_nread c = 1
  | _ => False
  end.
Proof. vm_compute. split; reflexivity. Qed.

Example C11_absorbed_eof_only_first_read_inst :
  exists c, rd_open Px (ctx_init (c_fs (drop_log st_ex)) (Some plan_abs0)) = (c, Err IoUnexpectedEof).
Proof.
  destruct (open Px (c_fs (drop_log st_ex)) (Some plan_abs0) PNothing []) as [s|e c|c|c] eqn:E;
    try (exfalso; revert E; vm_compute; discriminate).
  assert (He : e = IoUnexpectedEof) by (revert E; vm_compute; intros H; inversion H; reflexivity).
  subst e. exists c.
  exact (PropC11.C11_absorbed_eof_only_first_read Px plan_abs0 (conj eq_refl eq_refl)
           (c_fs (drop_log st_ex)) PNothing [] c E).
Qed.
