(* KAlign.v — the encoding of an entry cut exactly at a block boundary
   m*B that lies after its first frame position.  What is present is a run of COMPLETE frames
   (First/Middle, never Last): a reader walks over them silently - in record mode (A), in skip
   mode (C), and from every interior block boundary (D) - and ends AT the boundary, needing
   nothing after it.  This is the case where the data of a crash prefix end exactly at the end
   of a file whose successor has not been created. *)
From Coq Require Import Lia ZArith ZifyN ZifyNat ZifyBool List.
From MRL Require Import Bytes BytesProofs Params Frame Driver StreamProofs DamageProofs TornProofs ResyncProofs
  KWalk.

Section Align.
Variable P : params.
Hypothesis HBS_lo : 7 < BS P.
Hypothesis HBS_hi : BS P <= 65542.
Hypothesis Hcrc : forall t p, crcf P t p < 2 ^ 32.

Local Notation B := (BS P).
Local Notation gonext := (go_next P vecr (vr_next P) vr_block).
Local Notation padof := (pad_of P).
Local Notation chunkof := (chunk_of P).
Local Notation encrel := (enc_rel P).
Local Notation rdat := (rd_at P).
Local Notation atpos := (at_pos P).
Local Notation sok := (stream_ok P).
Local Notation fbytes := (frame_bytes P).
Local Notation ffp := (first_frame_pos P).
Local Notation H3 f := (f P HBS_lo HBS_hi Hcrc) (only parsing).

(* from rr, n frames are consumed silently and the reader rr1 sits exactly at r *)
Definition q_walk (S : bytes) (len r : N) (rr : rreader vecr) (w1 : bool) : Prop :=
  exists n rr1, 7 * N.of_nat n <= len /\ atpos S (rr_fr rr1) r /\ rr_within rr1 = w1 /\
    forall g, gonext (n + g) rr = gonext g rr1.

Lemma q_walk_here S len r fr rbuf w : atpos S fr r -> q_walk S len r (mkRR fr rbuf w) w.
Proof.
  intros Hat. exists 0%nat, (mkRR fr rbuf w). split; [lia|]. split; [exact Hat|].
  split; reflexivity.
Qed.

Lemma q_walk_more S len len' r rr rr' w1 :
  (forall g, gonext (Datatypes.S g) rr = gonext g rr') -> len' + 7 <= len ->
  q_walk S len' r rr' w1 -> q_walk S len r rr w1.
Proof.
  intros Hstep Hlen (n & rr1 & Hn & Hat1 & Hw1 & Hgo).
  exists (Datatypes.S n), rr1. split; [lia|]. split; [exact Hat1|]. split; [exact Hw1|].
  intros g. cbn [Nat.add]. rewrite Hstep. apply Hgo.
Qed.

Theorem aligned_walk a f p e k :
  encrel a f p e k -> forall j m, j < lenN e -> a + j = m * B -> ffp a < m * B ->
  a + 7 <= m * B /\
  forall S pre post,
    sok S -> S = pre ++ takeN j e ++ post -> lenN pre = a -> m * B <= lenN S ->
    (forall fr rbuf within, atpos S fr a -> (f = true \/ within = true) ->
       q_walk S j (m * B) (mkRR fr rbuf within) true) /\
    (f = false -> forall fr rbuf, atpos S fr a -> q_walk S j (m * B) (mkRR fr rbuf false) false) /\
    (forall kb rbuf, ffp a < kb * B -> kb * B < m * B ->
       q_walk S (m * B - kb * B) (m * B) (mkRR (rdat S kb 0) rbuf false) false).
Proof.
  induction 1 as [a f p Hd | a f p e k Hd Hr IH]; intros j m Hj Haj Hffp.
  - (* a single (last) frame cannot reach a later block boundary *)
    exfalso. rewrite lenN_app, (StreamProofs.lenN_frame_bytes P) in Hj.
    apply (no_boundary_in_frame P HBS_lo HBS_hi a _ m (H3 StreamProofs.chunk_le_maxw a p) Hffp).
    unfold first_frame_pos. lia.
  - set (fp := takeN (chunkof a p) p) in *.
    set (fb := fbytes (frame_type f false) fp) in *.
    assert (Hlfp : lenN fp = chunkof a p) by apply (H3 StreamProofs.lenN_take_chunk).
    set (a1 := a + lenN (padof a) + 7 + chunkof a p) in *.
    set (l1 := lenN (padof a ++ fb)) in *.
    assert (Ea1 : a1 = a + l1).
    { unfold l1, fb. rewrite lenN_app, (StreamProofs.lenN_frame_bytes P), Hlfp. lia. }
    pose proof (H3 frame_end_le a p) as Hnext. fold a1 in Hnext.
    pose proof (Hnext m Hffp) as Hm1.
    split; [lia|].
    intros S pre post Hok HS Hpre Hlen.
    rewrite (app_assoc (padof a) fb e), takeN_app_ge in HS by (fold l1; lia).
    fold l1 in HS. rewrite <- !app_assoc in HS.
    pose proof (fun fr Hat => H3 read_whole_frame a f p S pre _ fr Hok Hat Hpre HS) as Hframe.
    fold fp fb a1 in Hframe.
    (* the readers at the end a1 of this frame *)
    assert (Htail :
      (forall fr rbuf, atpos S fr a1 -> q_walk S (j - l1) (m * B) (mkRR fr rbuf true) true) /\
      (forall fr rbuf, atpos S fr a1 -> q_walk S (j - l1) (m * B) (mkRR fr rbuf false) false) /\
      (forall kb rbuf, a1 < kb * B -> kb * B < m * B ->
         q_walk S (m * B - kb * B) (m * B) (mkRR (rdat S kb 0) rbuf false) false)).
    { destruct (N.eq_dec a1 (m * B)) as [Eend|Hne].
      - (* the cut is right after this frame *)
        rewrite <- Eend. split; [|split].
        + intros fr rbuf. apply q_walk_here.
        + intros fr rbuf. apply q_walk_here.
        + intros kb rbuf H1 H2'. exfalso. lia.
      - assert (Hj1 : j - l1 < lenN e).
        { rewrite app_assoc, lenN_app in Hj. fold l1 in Hj. lia. }
        pose proof (H3 full_frame_end a p Hd) as Ef1. fold a1 in Ef1.
        destruct (IH (j - l1) m Hj1 ltac:(lia) ltac:(lia)) as (_ & IHw).
        assert (HS1 : S = (pre ++ padof a ++ fb) ++ takeN (j - l1) e ++ post)
          by (rewrite HS, <- !app_assoc; reflexivity).
        assert (Hpre1 : lenN (pre ++ padof a ++ fb) = a1) by (rewrite lenN_app; fold l1; lia).
        destruct (IHw S (pre ++ padof a ++ fb) post Hok HS1 Hpre1 Hlen) as (IHA & IHC & IHD).
        split; [|split].
        + intros fr rbuf Hat. exact (IHA fr rbuf true Hat (or_intror eq_refl)).
        + exact (IHC eq_refl).
        + intros kb rbuf H1. apply IHD. rewrite Ef1. exact H1. }
    destruct Htail as (TA & TC & TD).
    assert (Hl7 : j - l1 + 7 <= j) by (unfold a1 in Ea1; lia).
    split; [|split].
    + intros fr rbuf within Hat Hfw.
      destruct (Hframe fr Hat) as (fr' & Hrf & Hat').
      exact (q_walk_more S j (j - l1) (m * B) _ _ true (fun g => StreamProofs.go_next_frame P g fr fr' rbuf within f false fp Hrf Hfw)
               Hl7 (TA fr' _ Hat')).
    + intros -> fr rbuf Hat.
      destruct (Hframe fr Hat) as (fr' & Hrf & Hat').
      exact (q_walk_more S j (j - l1) (m * B) _ _ false (fun g => gonext_skip P fr fr' fp rbuf g Hrf)
               Hl7 (TC fr' rbuf Hat')).
    + intros kb rbuf H1 H2'. pose proof (Hnext kb H1) as Hge.
      destruct (N.eq_dec (kb * B) a1) as [E|Hne'].
      * assert (Hblk : (kb + 1) * B <= lenN S) by (apply (H3 TornProofs.block_exists S kb 0 1 Hok); lia).
        pose proof (H3 at_pos_boundary S kb Hblk) as Hatb. rewrite E in Hatb.
        replace (m * B - kb * B) with (j - l1) by lia. exact (TC (rdat S kb 0) rbuf Hatb).
      * apply TD; [lia|exact H2'].
Qed.

End Align.

Print Assumptions aligned_walk.
