(* OpenTerm.v — property C10: `open` terminates on any directory content.
   The fuel of the model (open_fuel) is sufficient; fuel monotonicity. *)
From Coq Require Import Lia ZArith ZifyN ZifyNat ZifyBool.
From MRL Require Import Bytes BytesProofs Params Names NamesProofs Frame Record Mem Rolling Log.

Section Mono.
Variable P : params.

Section Generic.
Variable R : Type.
Variable rnext : R -> R * res bool.
Variable rblock : R -> bytes.

Lemma go_next_S f rr :
  go_next P R rnext rblock (S f) rr =
  match read_frame P R rnext rblock (rr_fr rr) with
  | (fr', FOk t payload) =>
      let within := if is_first_frame t then true else rr_within rr in
      let buf := if is_first_frame t then [] else rr_buf rr in
      if within then
        let buf' := buf ++ payload in
        if is_last_frame t then (mkRR fr' buf' false, RRecord)
        else go_next P R rnext rblock f (mkRR fr' buf' true)
      else go_next P R rnext rblock f (mkRR fr' buf within)
  | (fr', FCorrupt) => (mkRR fr' (rr_buf rr) false, RCorrupt)
  | (fr', FIo e) => (mkRR fr' (rr_buf rr) false, RIo e)
  | (fr', FNotAvail) => (mkRR fr' (rr_buf rr) (rr_within rr), REnd)
  end.
Proof. reflexivity. Qed.

Lemma go_next_mono : forall f1 f2 rr rr' r,
  go_next P R rnext rblock f1 rr = (rr', r) -> r <> RFuel -> (f1 <= f2)%nat ->
  go_next P R rnext rblock f2 rr = (rr', r).
Proof.
  induction f1 as [|f1 IH]; intros f2 rr rr' r H Hr Hle.
  - cbn [go_next] in H. inversion H; subst. congruence.
  - destruct f2 as [|f2]; [lia|].
    rewrite go_next_S in H |- *.
    destruct (read_frame P R rnext rblock (rr_fr rr)) as [fr' [t pl|e| |]]; try exact H.
    cbv zeta in H |- *.
    destruct (if is_first_frame t then true else rr_within rr).
    + destruct (is_last_frame t); [exact H|]. apply IH; [exact H|exact Hr|lia].
    + apply IH; [exact H|exact Hr|lia].
Qed.

(* go_next as a proof rule. J f holds of the states the loop passes through with f turns left,
   Post of the state and result it returns; the second premise is one turn (go_next_S). *)
Lemma go_next_rule (J : nat -> rreader R -> Prop) (Post : rreader R -> rresult -> Prop) :
  (forall rr, J O rr -> Post rr RFuel) ->
  (forall f rr fr' x, J (S f) rr -> read_frame P R rnext rblock (rr_fr rr) = (fr', x) ->
     match x with
     | FOk t pl =>
         let within := if is_first_frame t then true else rr_within rr in
         let buf := if is_first_frame t then [] else rr_buf rr in
         if within then
           if is_last_frame t then Post (mkRR fr' (buf ++ pl) false) RRecord
           else J f (mkRR fr' (buf ++ pl) true)
         else J f (mkRR fr' buf within)
     | FCorrupt => Post (mkRR fr' (rr_buf rr) false) RCorrupt
     | FIo e => Post (mkRR fr' (rr_buf rr) false) (RIo e)
     | FNotAvail => Post (mkRR fr' (rr_buf rr) (rr_within rr)) REnd
     end) ->
  forall fuel rr rr' r, J fuel rr -> go_next P R rnext rblock fuel rr = (rr', r) -> Post rr' r.
Proof.
  intros H0 HS. induction fuel as [|f IH]; intros rr rr' r Hj H.
  - cbn [go_next] in H. inversion H; subst. exact (H0 _ Hj).
  - rewrite go_next_S in H.
    destruct (read_frame P R rnext rblock (rr_fr rr)) as [fr' x] eqn:Hrf.
    specialize (HS _ _ _ _ Hj Hrf).
    destruct x as [t pl|e| |]; [|inversion H; subst; exact HS..].
    cbv zeta in H, HS.
    destruct (if is_first_frame t then true else rr_within rr).
    + destruct (is_last_frame t); [inversion H; subst; exact HS|]. exact (IH _ _ _ HS H).
    + exact (IH _ _ _ HS H).
Qed.

(* the same for properties of the frame reader alone: the record buffer plays no part, and the
   result names what the last read_frame returned *)
Lemma go_next_fr_rule (J : nat -> freader R -> Prop) (Post : freader R -> rresult -> Prop) :
  (forall fr, J O fr -> Post fr RFuel) ->
  (forall f fr fr' x, J (S f) fr -> read_frame P R rnext rblock fr = (fr', x) ->
     match x with
     | FOk _ _ => J f fr' /\ Post fr' RRecord
     | FCorrupt => Post fr' RCorrupt
     | FIo e => Post fr' (RIo e)
     | FNotAvail => Post fr' REnd
     end) ->
  forall fuel rr rr' r,
    J fuel (rr_fr rr) -> go_next P R rnext rblock fuel rr = (rr', r) -> Post (rr_fr rr') r.
Proof.
  intros H0 HS.
  apply (go_next_rule (fun f rr => J f (rr_fr rr)) (fun rr r => Post (rr_fr rr) r)).
  - intros rr. apply H0.
  - intros f rr fr' x Hj Hrf. specialize (HS _ _ _ _ Hj Hrf).
    destruct x as [t pl|e| |]; try exact HS. cbv zeta.
    destruct (if is_first_frame t then true else rr_within rr);
      [destruct (is_last_frame t)|]; apply HS.
Qed.
End Generic.

Lemma replay_loop_S f g rr qs :
  replay_loop P (S f) g rr qs =
  let file := rd_file (fr_rd (rr_fr rr)) in
  match go_next P rreaderS (rd_next P) rd_block g rr with
  | (rr', RRecord) =>
      match entry_deser (rr_buf rr') with
      | None => replay_loop P f g rr' qs
      | Some e =>
          match apply_entry qs file e with
          | Some qs' => replay_loop P f g rr' qs'
          | None => (rr', RpCorruption)
          end
      end
  | (rr', REnd) => (rr', RpDone qs)
  | (rr', RCorrupt) => replay_loop P f g rr' qs
  | (rr', RIo e) => if L_IO P then replay_loop P f g rr' qs else (rr', RpIo e)
  | (rr', RFuel) => (rr', RpFuel)
  end.
Proof. reflexivity. Qed.

Lemma replay_loop_mono : forall f1 f2 g1 g2 rr qs rr' r,
  replay_loop P f1 g1 rr qs = (rr', r) -> r <> RpFuel -> (f1 <= f2)%nat -> (g1 <= g2)%nat ->
  replay_loop P f2 g2 rr qs = (rr', r).
Proof.
  induction f1 as [|f1 IH]; intros f2 g1 g2 rr qs rr' r H Hr Hf Hg.
  - cbn [replay_loop] in H. inversion H; subst. congruence.
  - destruct f2 as [|f2]; [lia|].
    rewrite replay_loop_S in H |- *. cbv zeta in H |- *.
    destruct (go_next P rreaderS (rd_next P) rd_block g1 rr) as [rr1 g] eqn:Hgo.
    assert (Hg1 : g <> RFuel).
    { intros ->. inversion H; subst. congruence. }
    rewrite (go_next_mono _ _ _ _ _ _ _ _ Hgo Hg1 Hg).
    destruct g as [| | |e|].
    + destruct (entry_deser (rr_buf rr1)) as [e|].
      * destruct (apply_entry qs (rd_file (fr_rd (rr_fr rr))) e) as [qs'|]; [|exact H].
        eapply IH; eauto; lia.
      * eapply IH; eauto; lia.
    + exact H.
    + eapply IH; eauto; lia.
    + destruct (L_IO P); [|exact H]. eapply IH; eauto; lia.
    + congruence.
Qed.

(* replay_loop as a proof rule, in the same way (the second premise is replay_loop_S) *)
Lemma replay_loop_rule g (J : nat -> rreader_t -> queues -> Prop)
      (Post : rreader_t -> replay_result -> Prop) :
  (forall rr qs, J O rr qs -> Post rr RpFuel) ->
  (forall f rr qs rr1 x,
     J (S f) rr qs -> go_next P rreaderS (rd_next P) rd_block g rr = (rr1, x) ->
     match x with
     | RRecord =>
         match entry_deser (rr_buf rr1) with
         | None => J f rr1 qs
         | Some e =>
             match apply_entry qs (rd_file (fr_rd (rr_fr rr))) e with
             | Some qs' => J f rr1 qs'
             | None => Post rr1 RpCorruption
             end
         end
     | REnd => Post rr1 (RpDone qs)
     | RCorrupt => J f rr1 qs
     | RIo e => if L_IO P then J f rr1 qs else Post rr1 (RpIo e)
     | RFuel => Post rr1 RpFuel
     end) ->
  forall f rr qs rr' r, J f rr qs -> replay_loop P f g rr qs = (rr', r) -> Post rr' r.
Proof.
  intros H0 HS. induction f as [|f IH]; intros rr qs rr' r Hj H.
  - cbn [replay_loop] in H. inversion H; subst. exact (H0 _ _ Hj).
  - rewrite replay_loop_S in H. cbv zeta in H.
    destruct (go_next P rreaderS (rd_next P) rd_block g rr) as [rr1 x] eqn:Hgo.
    specialize (HS _ _ _ _ _ Hj Hgo).
    destruct x as [| | |e|].
    + destruct (entry_deser (rr_buf rr1)) as [e|]; [|exact (IH _ _ _ _ HS H)].
      destruct (apply_entry qs (rd_file (fr_rd (rr_fr rr))) e) as [qs'|];
        [exact (IH _ _ _ _ HS H)|inversion H; subst; exact HS].
    + inversion H; subst; exact HS.
    + exact (IH _ _ _ _ HS H).
    + destruct (L_IO P); [exact (IH _ _ _ _ HS H)|inversion H; subst; exact HS].
    + inversion H; subst; exact HS.
Qed.

(* a property of the record reader alone that go_next keeps is kept by the whole replay *)
Lemma replay_loop_reader g (J : rreader_t -> Prop) :
  (forall rr rr1 x, J rr -> go_next P rreaderS (rd_next P) rd_block g rr = (rr1, x) -> J rr1) ->
  forall f rr qs rr' r, J rr -> replay_loop P f g rr qs = (rr', r) -> J rr'.
Proof.
  intros Hgo. apply (replay_loop_rule g (fun _ rr _ => J rr) (fun rr _ => J rr)).
  - intros rr _ Hj. exact Hj.
  - intros _ rr qs rr1 x Hj H. pose proof (Hgo _ _ _ Hj H) as H1.
    destruct x as [| | |e|]; try exact H1.
    + destruct (entry_deser (rr_buf rr1)) as [e|]; [|exact H1].
      destruct (apply_entry qs _ e); exact H1.
    + destruct (L_IO P); exact H1.
Qed.

Theorem open_with_fuel_mono : forall f1 f2 fs plan pol hint r,
  open_with P f1 fs plan pol hint = r -> (forall c, r <> OpenFuel c) -> (f1 <= f2)%nat ->
  open_with P f2 fs plan pol hint = r.
Proof.
  intros f1 f2 fs plan pol hint r H Hr Hle. unfold open_with in *.
  destruct (rd_open P (ctx_init fs plan)) as [c [rd|e]]; [|exact H].
  destruct (replay_loop P f1 f1 (rr_open rreaderS rd) []) as [rr rp] eqn:Hrp.
  assert (Hnf : rp <> RpFuel).
  { intros ->. subst r. eapply Hr. reflexivity. }
  rewrite (replay_loop_mono _ _ _ _ _ _ _ _ Hrp Hnf Hle Hle). exact H.
Qed.
End Mono.

Lemma lenN_sliceN_le {A} a b (l : list A) : lenN (sliceN a b l) <= b - a.
Proof. unfold sliceN. rewrite lenN_takeN. lia. Qed.

Lemma slice_in_zero_tail z a b l :
  all_zero (dropN z l) = true -> z <= a -> all_zero (sliceN a b l) = true.
Proof.
  intros Hz Hle. unfold sliceN. apply all_zero_takeN.
  replace a with (z + (a - z)) by lia. rewrite <- dropN_dropN.
  now apply all_zero_dropN.
Qed.

Definition fcontent (fs : fsT) (n : N) : bytes :=
  match fs_get fs (filename n) with Some (FFile b) => b | _ => [] end.

Lemma file_content_fcontent c n : file_content c n = fcontent (c_fs c) n.
Proof. reflexivity. Qed.

Lemma fs_get_put fs a e b :
  fs_get (fs_put fs a e) b = if bytes_eqb a b then Some e else fs_get fs b.
Proof.
  induction fs as [|[n0 e0] r IH]; cbn [fs_put fs_get].
  - reflexivity.
  - destruct (bytes_eqb n0 a) eqn:E0; cbn [fs_get].
    + apply bytes_eqb_eq in E0. subst n0. destruct (bytes_eqb a b); reflexivity.
    + destruct (bytes_eqb n0 b) eqn:E1.
      * apply bytes_eqb_eq in E1. subst n0. rewrite bytes_eqb_sym, E0. reflexivity.
      * exact IH.
Qed.

Lemma fcontent_put fs name e n :
  fcontent (fs_put fs name e) n =
  if bytes_eqb name (filename n) then match e with FFile b => b | _ => [] end else fcontent fs n.
Proof. unfold fcontent. rewrite fs_get_put. destruct (bytes_eqb name (filename n)); reflexivity. Qed.

Lemma fault_point_fs c s : c_fs (fst (fault_point c s)) = c_fs c.
Proof.
  unfold fault_point. destruct (c_plan c) as [p|]; [|destruct s; reflexivity].
  destruct (_ && _); destruct s; reflexivity.
Qed.

Lemma open_file_fs c n c' r : open_file c n = (c', r) -> c_fs c' = c_fs c.
Proof.
  unfold open_file. pose proof (fault_point_fs c SOpen) as Hf.
  destruct (fault_point c SOpen) as [c1 [e|]]; cbn [fst] in Hf.
  - intros H; inversion H; subst. exact Hf.
  - destruct (fs_get (c_fs c1) (filename n)) as [[b| |]|]; intros H; inversion H; subst; exact Hf.
Qed.

Section ReadBlock.
Variable P : params.

(* read_block on any directory. An injected UnexpectedEof is absorbed as a short read with
   the position unchanged. *)
Lemma read_block_spec c n pos c' pos' r :
  read_block P c n pos = (c', pos', r) ->
  c_fs c' = c_fs c /\
  match r with
  | Ok (Some blk) => pos' = pos + BS P /\ pos + BS P <= lenN (fcontent (c_fs c) n) /\
                     blk = sliceN pos (pos + BS P) (fcontent (c_fs c) n)
  | Ok None => pos' = pos \/ pos' = N.max pos (lenN (fcontent (c_fs c) n))
  | Err _ => pos' = pos
  end.
Proof.
  unfold read_block. pose proof (fault_point_fs c SRead) as Hf.
  destruct (fault_point c SRead) as [c1 [e|]]; cbn [fst] in Hf.
  - intros H; inversion H; subst. split; [exact Hf|destruct e; first [reflexivity|left; reflexivity]].
  - rewrite file_content_fcontent, Hf.
    destruct (N.leb_spec (pos + BS P) (lenN (fcontent (c_fs c) n))) as [Hle|Hgt];
      intros H; inversion H; subst; (split; [exact Hf|]).
    + split; [reflexivity|]. split; [exact Hle|reflexivity].
    + right; reflexivity.
Qed.

(* next_file_loop hands over the first block of the first candidate that has one; otherwise only
   the context of the reader changes *)
Lemma next_file_loop_inv : forall cands c rd rd' r,
  next_file_loop P c cands rd = (rd', r) ->
  exists c', c_fs c' = c_fs c /\
  match r with
  | Ok true => exists n, In n cands /\ BS P <= lenN (fcontent (c_fs c) n) /\
      rd' = mkRd c' (rd_files rd) n 0 (BS P) (sliceN 0 (BS P) (fcontent (c_fs c) n))
  | _ => rd' = mkRd c' (rd_files rd) (rd_file rd) (rd_block_id rd) (rd_pos rd) (rd_block rd)
  end.
Proof.
  induction cands as [|n rest IH]; intros c rd rd' r H; cbn [next_file_loop] in H.
  - inversion H; subst. exists c. split; reflexivity.
  - destruct (open_file c n) as [c1 [u|e]] eqn:Ho; apply open_file_fs in Ho.
    2:{ inversion H; subst. exists c1. split; [exact Ho|reflexivity]. }
    destruct (read_block P c1 n 0) as [[c2 pos'] [[blk|]|e]] eqn:Hr;
      apply read_block_spec in Hr; destruct Hr as [Hfs Hr]; rewrite Ho in *.
    + destruct Hr as (Hp & Hle & Hb). rewrite N.add_0_l in *. inversion H; subst.
      exists c2. split; [exact Hfs|]. exists n. split; [now left|]. split; [exact Hle|reflexivity].
    + destruct (IH _ _ _ _ H) as (c' & Hc' & Hm). rewrite Hfs in *.
      exists c'. split; [exact Hc'|].
      destruct r as [[|]|e]; try exact Hm.
      destruct Hm as (m & Hin & Hm). exists m. split; [now right|exact Hm].
    + inversion H; subst. exists c2. split; [exact Hfs|reflexivity].
Qed.

(* next_block of the rolling reader: the next block of the current file, or the first block of a
   later file, or (nothing delivered) the old reader with a position that has not moved back *)
Lemma rd_next_inv rd rd' r :
  rd_next P rd = (rd', r) ->
  let fs := c_fs (rd_ctx rd) in
  exists c', c_fs c' = fs /\
  match r with
  | Ok true =>
      (rd_pos rd + BS P <= lenN (fcontent fs (rd_file rd)) /\
       rd' = mkRd c' (rd_files rd) (rd_file rd) (rd_block_id rd + 1) (rd_pos rd + BS P)
                  (sliceN (rd_pos rd) (rd_pos rd + BS P) (fcontent fs (rd_file rd)))) \/
      (exists n, In n (files_after (rd_files rd) (rd_file rd)) /\ BS P <= lenN (fcontent fs n) /\
       rd' = mkRd c' (rd_files rd) n 0 (BS P) (sliceN 0 (BS P) (fcontent fs n)))
  | _ => exists pos', rd_pos rd <= pos' /\ pos' <= N.max (rd_pos rd) (lenN (fcontent fs (rd_file rd))) /\
         rd' = mkRd c' (rd_files rd) (rd_file rd) (rd_block_id rd) pos' (rd_block rd)
  end.
Proof.
  intros H fs. unfold rd_next in H.
  destruct (read_block P (rd_ctx rd) (rd_file rd) (rd_pos rd)) as [[c1 pos'] [[blk|]|e]] eqn:Hr;
    apply read_block_spec in Hr; fold fs in Hr; destruct Hr as [Hc1 Hr].
  - destruct Hr as (Hp & Hle & Hb). inversion H; subst. exists c1. split; [exact Hc1|].
    left. split; [exact Hle|reflexivity].
  - apply next_file_loop_inv in H. destruct H as (c' & Hc' & Hm).
    cbn [rd_files rd_file rd_block_id rd_pos rd_block] in Hm. rewrite Hc1 in *.
    exists c'. split; [exact Hc'|].
    assert (Hpos : rd_pos rd <= pos' /\ pos' <= N.max (rd_pos rd) (lenN (fcontent fs (rd_file rd))))
      by (destruct Hr as [->| ->]; lia).
    destruct r as [[|]|e]; [right; exact Hm|exists pos'; split; [apply Hpos|split; [apply Hpos|exact Hm]]..].
  - inversion H; subst. exists c1. split; [exact Hc1|]. exists (rd_pos rd).
    split; [apply N.le_refl|]. split; [lia|reflexivity].
Qed.
End ReadBlock.

Section ReadHere.
Variable P : params.
Variable R : Type.
Variable rnext : R -> R * res bool.
Variable rblock : R -> bytes.

Definition read_here (fr1 : freader R) : freader R * fresult :=
  let blk := rblock (fr_rd fr1) in
  let c := fr_cursor fr1 in
  let hdr := sliceN c (c + HEADER_LEN) blk in
  if all_zero hdr then (fr1, FNotAvail)
  else
    let checksum := le_dec (takeN 4 hdr) in
    let len := le_dec (sliceN 4 6 hdr) in
    match ft_of_code (le_dec (dropN 6 hdr)) with
    | None => (mkFR (fr_rd fr1) c true, FCorrupt)
    | Some t =>
        let c1 := c + HEADER_LEN in
        if BS P <? c1 + len then (mkFR (fr_rd fr1) c1 true, FCorrupt)
        else
          let payload := sliceN c1 (c1 + len) blk in
          let fr2 := mkFR (fr_rd fr1) (c1 + len) (fr_corrupt fr1) in
          if crcf P (n2b (ft_code t)) payload =? checksum
          then (fr2, FOk t payload)
          else (fr2, FCorrupt)
    end.

Definition need_skip (fr : freader R) : bool :=
  fr_corrupt fr || (BS P - fr_cursor fr <? HEADER_LEN).

Lemma read_frame_eq fr :
  read_frame P R rnext rblock fr =
  if need_skip fr then
    match rnext (fr_rd fr) with
    | (r', Err e) => (mkFR r' (fr_cursor fr) (fr_corrupt fr), FIo e)
    | (r', Ok false) => (mkFR r' (fr_cursor fr) (fr_corrupt fr), FNotAvail)
    | (r', Ok true) => read_here (mkFR r' 0 false)
    end
  else read_here fr.
Proof.
  unfold read_frame, read_here, need_skip.
  destruct (fr_corrupt fr || (BS P - fr_cursor fr <? HEADER_LEN)).
  - destruct (rnext (fr_rd fr)) as [r' [[|]|e]]; reflexivity.
  - reflexivity.
Qed.

Lemma read_here_spec fr1 fr' r :
  read_here fr1 = (fr', r) ->
  fr_rd fr' = fr_rd fr1 /\
  match r with
  | FNotAvail => fr' = fr1
  | FIo _ => False
  | _ => all_zero (sliceN (fr_cursor fr1) (fr_cursor fr1 + 7) (rblock (fr_rd fr1))) = false /\
         (fr_corrupt fr' = true \/
          (fr_cursor fr1 + 7 <= fr_cursor fr' /\ fr_corrupt fr' = fr_corrupt fr1))
  end.
Proof.
  unfold read_here, HEADER_LEN.
  destruct (all_zero (sliceN (fr_cursor fr1) (fr_cursor fr1 + 7) (rblock (fr_rd fr1)))) eqn:Ez.
  - intros H; inversion H; subst. split; reflexivity.
  - destruct (ft_of_code _) as [t|].
    + destruct (BS P <? _).
      * intros H; inversion H; subst. cbn. split; [reflexivity|]. split; [reflexivity|left; reflexivity].
      * destruct (_ =? _); intros H; inversion H; subst; cbn;
          (split; [reflexivity|]; split; [reflexivity|right; split; [lia|reflexivity]]).
    + intros H; inversion H; subst. cbn. split; [reflexivity|]. split; [reflexivity|left; reflexivity].
Qed.
End ReadHere.
Arguments read_here P {R} rblock fr1.
Arguments need_skip P {R} fr.

Section SumF.
Variable f : N -> N.

Definition sumf (l : list N) : N := fold_right (fun n acc => f n + acc) 0 l.

Lemma sumf_cons x l : sumf (x :: l) = f x + sumf l.
Proof. reflexivity. Qed.

Lemma sumf_filter_le (p q : N -> bool) l :
  (forall x, p x = true -> q x = true) -> sumf (filter p l) <= sumf (filter q l).
Proof.
  intros Hpq. induction l as [|x l IH]; cbn [filter]; [lia|].
  destruct (p x) eqn:Ep.
  - rewrite (Hpq x Ep), !sumf_cons. lia.
  - destruct (q x); rewrite ?sumf_cons; lia.
Qed.

(* moving on to a later file n pays for n and for everything between *)
Lemma sumf_after files cur n :
  cur < n -> In n files ->
  f n + sumf (files_after files n) <= sumf (files_after files cur).
Proof.
  intros Hlt. unfold files_after.
  assert (Hmono : forall l, sumf (filter (fun x => n <? x) l) <= sumf (filter (fun x => cur <? x) l)).
  { intros l. apply sumf_filter_le. intros x Hx. lia. }
  induction files as [|x l IH]; intros Hin; [destruct Hin|].
  cbn [filter].
  destruct (N.eq_dec x n) as [->|Hne].
  - replace (n <? n) with false by lia. replace (cur <? n) with true by lia.
    rewrite sumf_cons. specialize (Hmono l). lia.
  - destruct Hin as [He|Hin]; [congruence|]. specialize (IH Hin).
    destruct (n <? x) eqn:E1.
    + replace (cur <? x) with true by lia. rewrite !sumf_cons. lia.
    + destruct (cur <? x); rewrite ?sumf_cons; lia.
Qed.

Lemma sumf_after_head first rest : sumf (files_after (first :: rest) first) <= sumf rest.
Proof.
  unfold files_after. cbn [filter]. replace (first <? first) with false by lia.
  induction rest as [|x l IH]; cbn [filter]; [lia|].
  destruct (first <? x); rewrite ?sumf_cons; lia.
Qed.
End SumF.

(* the potential charges every file its non-zero prefix and 6 bytes more *)
Definition sumw (w : N -> N) : list N -> N := sumf (fun n => w n + 6).

Lemma sumw_cons w x l : sumw w (x :: l) = w x + 6 + sumw w l.
Proof. reflexivity. Qed.


Section Measure.
Variable P : params.
Hypothesis HBS : 7 < BS P.
Variable fs : fsT.            (* the directory during replay (replay only reads) *)
Variable w : N -> N.          (* file n holds only zeros from offset w n on *)
Hypothesis Hz : forall n, all_zero (dropN (w n) (fcontent fs n)) = true.

Definition rdinv (rd : rreaderS) : Prop :=
  c_fs (rd_ctx rd) = fs /\ BS P <= rd_pos rd /\
  rd_block rd = sliceN (rd_pos rd - BS P) (rd_pos rd) (fcontent fs (rd_file rd)).

(* The potential that bounds the fuel: the bytes the reader can still be made to look at. For the
   current file, what is left of its non-zero prefix plus 6 (a header that is not all zero starts
   at most 6 bytes before the zeros do), and br, what is left of the current block; for every later
   file its non-zero prefix plus 6. Going to the next block or file does not raise it
   (rd_next_measure); a frame that is read or found corrupt has a header that is not all zero and
   lowers it by at least 7 (read_here_measure); an all-zero header ends the reading. So fuel with
   Psi < 7 * fuel is never used up. *)
Definition Psi (rd : rreaderS) (br : N) : N :=
  (w (rd_file rd) + 6 + br) - rd_pos rd + sumw w (files_after (rd_files rd) (rd_file rd)).

Lemma rd_next_measure rd rd' :
  rdinv rd -> rd_next P rd = (rd', Ok true) ->
  rdinv rd' /\ Psi rd' (BS P) <= Psi rd 0.
Proof.
  intros (Hfs & Hpos & Hblk) H. apply rd_next_inv in H. cbv zeta in H. rewrite Hfs in H.
  destruct H as (c' & Hc' & [[Hle ->]|(n & Hin & Hle & ->)]);
    unfold rdinv, Psi; cbn [rd_ctx rd_files rd_file rd_pos rd_block].
  - split; [|lia]. split; [exact Hc'|]. split; [lia|]. f_equal. lia.
  - unfold files_after in Hin. apply filter_In in Hin. destruct Hin as [Hin Hlt].
    split; [split; [exact Hc'|]; split; [lia|]; f_equal; lia|].
    pose proof (sumf_after (fun n => w n + 6) (rd_files rd) (rd_file rd) n ltac:(lia) Hin) as Hs.
    cbv beta in Hs. unfold sumw. lia.
Qed.

Definition blockrem (fr : freader rreaderS) : N :=
  if fr_corrupt fr then 0 else BS P - fr_cursor fr.

Definition Phi (fr : freader rreaderS) : N := Psi (fr_rd fr) (blockrem fr).
Definition frinv (fr : freader rreaderS) : Prop := rdinv (fr_rd fr).

Lemma read_here_measure fr1 fr' r :
  frinv fr1 -> fr_corrupt fr1 = false -> fr_cursor fr1 + 7 <= BS P ->
  read_here P rd_block fr1 = (fr', r) ->
  match r with FOk _ _ | FCorrupt => frinv fr' /\ Phi fr' + 7 <= Phi fr1 | _ => True end.
Proof.
  intros (Hfs & Hpos & Hblk) Hnc Hc H. apply read_here_spec in H. destruct H as [Hrd H].
  assert (Hgoal : all_zero (sliceN (fr_cursor fr1) (fr_cursor fr1 + 7) (rd_block (fr_rd fr1))) = false /\
         (fr_corrupt fr' = true \/
          (fr_cursor fr1 + 7 <= fr_cursor fr' /\ fr_corrupt fr' = fr_corrupt fr1)) ->
         frinv fr' /\ Phi fr' + 7 <= Phi fr1).
  { clear H. intros [Hnz Hadv]. split.
    - unfold frinv. rewrite Hrd. repeat split; assumption.
    - rewrite Hblk, sliceN_sliceN in Hnz by lia.
      assert (Hlt : rd_pos (fr_rd fr1) - BS P + fr_cursor fr1 < w (rd_file (fr_rd fr1))).
      { destruct (N.lt_ge_cases (rd_pos (fr_rd fr1) - BS P + fr_cursor fr1) (w (rd_file (fr_rd fr1))))
          as [Hl|Hg]; [exact Hl|].
        rewrite (slice_in_zero_tail _ _ _ _ (Hz _) Hg) in Hnz. discriminate. }
      unfold Phi, Psi, blockrem. rewrite Hrd, Hnc.
      destruct Hadv as [Hcor|[Hcur Hcor]]; rewrite Hcor; [|rewrite Hnc]; lia. }
  destruct r; try exact I; apply Hgoal; exact H.
Qed.

Lemma read_frame_measure fr fr' r :
  frinv fr -> read_frame P rreaderS (rd_next P) rd_block fr = (fr', r) ->
  match r with FOk _ _ | FCorrupt => frinv fr' /\ Phi fr' + 7 <= Phi fr | _ => True end.
Proof.
  intros Hinv H. rewrite read_frame_eq in H. unfold need_skip, HEADER_LEN in H.
  destruct (fr_corrupt fr || (BS P - fr_cursor fr <? 7)) eqn:Esk.
  - destruct (rd_next P (fr_rd fr)) as [r' [[|]|e]] eqn:Hn.
    + destruct (rd_next_measure _ _ Hinv Hn) as [Hinv' Hle].
      pose proof (read_here_measure (mkFR r' 0 false) fr' r Hinv' eq_refl ltac:(cbn; lia) H) as Hm.
      assert (Hle2 : Phi (mkFR r' 0 false) <= Phi fr).
      { unfold Phi, blockrem; cbn [fr_rd fr_corrupt fr_cursor]. rewrite N.sub_0_r.
        unfold Psi in *. lia. }
      destruct r; try exact I; (split; [apply Hm|destruct Hm; lia]).
    + inversion H; subst. exact I.
    + inversion H; subst. exact I.
  - apply orb_false_iff in Esk. destruct Esk as [Hnc Hcur].
    apply (read_here_measure fr fr' r Hinv Hnc); [lia|exact H].
Qed.

Definition rrinv (rr : rreader_t) : Prop := frinv (rr_fr rr).
Definition PhiR (rr : rreader_t) : N := Phi (rr_fr rr).

Lemma go_next_measure : forall fuel rr rr' r,
  rrinv rr -> PhiR rr < 7 * N.of_nat fuel ->
  go_next P rreaderS (rd_next P) rd_block fuel rr = (rr', r) ->
  r <> RFuel /\
  (r = RRecord \/ r = RCorrupt -> rrinv rr' /\ PhiR rr' + 7 <= PhiR rr).
Proof.
  intros fuel rr rr' r Hinv Hphi.
  apply (go_next_fr_rule P _ _ _
           (fun f fr => frinv fr /\ Phi fr < 7 * N.of_nat f /\ Phi fr <= PhiR rr)
           (fun fr' r => r <> RFuel /\
              (r = RRecord \/ r = RCorrupt -> frinv fr' /\ Phi fr' + 7 <= PhiR rr))).
  - intros fr (_ & Hlt & _). lia.
  - intros f fr fr' x (Hi & Hlt & Hle) Hrf.
    pose proof (read_frame_measure _ _ _ Hi Hrf) as Hm.
    destruct x as [t pl|e| |].
    + destruct Hm as [Hi' Hd]. split; [split; [exact Hi'|lia]|].
      split; [discriminate|]. intros _. split; [exact Hi'|lia].
    + split; [discriminate|]. intros [Hr|Hr]; discriminate.
    + destruct Hm as [Hi' Hd]. split; [discriminate|]. intros _. split; [exact Hi'|lia].
    + split; [discriminate|]. intros [Hr|Hr]; discriminate.
  - split; [exact Hinv|]. split; [exact Hphi|apply N.le_refl].
Qed.

Lemma replay_loop_measure : L_IO P = false -> forall f g rr qs rr' r,
  rrinv rr -> PhiR rr < 7 * N.of_nat f -> PhiR rr < 7 * N.of_nat g ->
  replay_loop P f g rr qs = (rr', r) -> r <> RpFuel.
Proof.
  intros HIO f g rr qs rr' r Hinv Hf Hg.
  apply (replay_loop_rule P g
           (fun f rr1 _ => rrinv rr1 /\ PhiR rr1 < 7 * N.of_nat f /\ PhiR rr1 < 7 * N.of_nat g)
           (fun _ r => r <> RpFuel)).
  - intros rr0 _ (_ & H0 & _). lia.
  - intros f0 rr0 qs0 rr1 x (Hi & Hf0 & Hg0) Hgo.
    destruct (go_next_measure _ _ _ _ Hi Hg0 Hgo) as [Hnf Hdec].
    assert (Hrec : x = RRecord \/ x = RCorrupt ->
              rrinv rr1 /\ PhiR rr1 < 7 * N.of_nat f0 /\ PhiR rr1 < 7 * N.of_nat g).
    { intros Hx. destruct (Hdec Hx) as [Hi1 Hd]. split; [exact Hi1|lia]. }
    destruct x as [| | |e|].
    + destruct (entry_deser (rr_buf rr1)) as [e|]; [|apply Hrec; now left].
      destruct (apply_entry qs0 _ e); [apply Hrec; now left|discriminate].
    + discriminate.
    + apply Hrec; now right.
    + rewrite HIO. discriminate.
    + congruence.
  - split; [exact Hinv|]. split; assumption.
Qed.
End Measure.

From Coq Require Import Sorting.Sorted.

Lemma insert_sorted_In n l x : In x (insert_sorted n l) <-> x = n \/ In x l.
Proof.
  induction l as [|y r IH]; cbn [insert_sorted].
  - cbn. intuition.
  - destruct (N.ltb_spec n y) as [Hlt|Hge].
    + cbn [In]. intuition.
    + destruct (N.eqb_spec n y) as [->|Hne].
      * cbn [In]. intuition.
      * cbn [In]. rewrite IH. intuition.
Qed.

Lemma insert_sorted_sorted n l :
  StronglySorted N.lt l -> StronglySorted N.lt (insert_sorted n l).
Proof.
  induction l as [|y r IH]; intros Hs; cbn [insert_sorted].
  - constructor; constructor.
  - apply StronglySorted_inv in Hs. destruct Hs as [Hr Hall].
    destruct (N.ltb_spec n y) as [Hlt|Hge].
    + constructor; [constructor; assumption|].
      constructor; [exact Hlt|]. eapply Forall_impl; [|exact Hall]. cbn. intros a Ha. lia.
    + destruct (N.eqb_spec n y) as [->|Hne].
      * constructor; assumption.
      * constructor; [apply IH; exact Hr|].
        apply Forall_forall. intros a Ha. apply insert_sorted_In in Ha.
        destruct Ha as [->|Ha]; [lia|]. rewrite Forall_forall in Hall. now apply Hall.
Qed.

Lemma sorted_NoDup l : StronglySorted N.lt l -> NoDup l.
Proof.
  induction l as [|y r IH]; intros Hs; [constructor|].
  apply StronglySorted_inv in Hs. destruct Hs as [Hr Hall].
  constructor; [|apply IH; exact Hr].
  intros Hin. rewrite Forall_forall in Hall. specialize (Hall _ Hin). lia.
Qed.

Lemma lenN_insert_sorted n l : lenN (insert_sorted n l) <= 1 + lenN l.
Proof.
  induction l as [|y r IH]; cbn [insert_sorted].
  - rewrite lenN_cons. lia.
  - destruct (n <? y); [rewrite !lenN_cons; lia|].
    destruct (n =? y); [lia|]. rewrite !lenN_cons. lia.
Qed.

Lemma list_wal_numbers_cons name e r :
  list_wal_numbers ((name, e) :: r) =
  match e with
  | FFile _ => match filename_to_position name with
               | Some n => insert_sorted n (list_wal_numbers r)
               | None => list_wal_numbers r
               end
  | _ => list_wal_numbers r
  end.
Proof. reflexivity. Qed.

Lemma listed_sorted fs : StronglySorted N.lt (list_wal_numbers fs).
Proof.
  induction fs as [|[name e] r IH]; [constructor|].
  rewrite list_wal_numbers_cons. destruct e; try exact IH.
  destruct (filename_to_position name); [|exact IH]. now apply insert_sorted_sorted.
Qed.

Lemma listed_bound fs x : In x (list_wal_numbers fs) -> x <= U64_MAX.
Proof.
  induction fs as [|[name e] r IH]; [intros []|].
  rewrite list_wal_numbers_cons. destruct e; try exact IH.
  destruct (filename_to_position name) as [n|] eqn:En; [|exact IH].
  intros Hin. apply insert_sorted_In in Hin. destruct Hin as [->|Hin]; [|now apply IH].
  apply parse_exact in En. apply En.
Qed.

Lemma listed_len fs : lenN (list_wal_numbers fs) <= lenN fs.
Proof.
  induction fs as [|[name e] r IH]; [cbn; lia|].
  rewrite list_wal_numbers_cons, lenN_cons. destruct e; try lia.
  destruct (filename_to_position name) as [n|]; [|lia].
  pose proof (lenN_insert_sorted n (list_wal_numbers r)). lia.
Qed.

Definition sumlen (fs : fsT) (l : list N) : N :=
  fold_right (fun n acc => lenN (fcontent fs n) + acc) 0 l.

Lemma sumlen_cons fs x l : sumlen fs (x :: l) = lenN (fcontent fs x) + sumlen fs l.
Proof. reflexivity. Qed.

Lemma fs_bytes_cons name e r :
  fs_bytes ((name, e) :: r) = match e with FFile b => lenN b + fs_bytes r | _ => fs_bytes r end.
Proof. reflexivity. Qed.

Lemma fcontent_cons name e r n :
  fcontent ((name, e) :: r) n =
  if bytes_eqb name (filename n) then match e with FFile b => b | _ => [] end else fcontent r n.
Proof. unfold fcontent. cbn [fs_get]. destruct (bytes_eqb name (filename n)); reflexivity. Qed.

Lemma sumlen_cons_nohit name e r l :
  (forall x, In x l -> filename x <> name) -> sumlen ((name, e) :: r) l = sumlen r l.
Proof.
  induction l as [|x l IH]; intros Hno; [reflexivity|].
  rewrite !sumlen_cons, IH by (intros y Hy; apply Hno; now right).
  rewrite fcontent_cons.
  destruct (bytes_eqb name (filename x)) eqn:E; [|reflexivity].
  apply bytes_eqb_eq in E. exfalso. apply (Hno x); [now left|congruence].
Qed.

Lemma sumlen_cons_le name e r l :
  NoDup l -> (forall x, In x l -> x <= U64_MAX) ->
  sumlen ((name, e) :: r) l <= match e with FFile b => lenN b | _ => 0 end + sumlen r l.
Proof.
  induction l as [|x l IH]; intros Hnd Hb; [cbn; lia|].
  inversion Hnd as [|? ? Hnin Hnd']; subst.
  rewrite !sumlen_cons, fcontent_cons.
  destruct (bytes_eqb name (filename x)) eqn:E.
  - apply bytes_eqb_eq in E.
    rewrite sumlen_cons_nohit.
    + destruct e; rewrite ?lenN_nil; lia.
    + intros y Hy Hf. apply Hnin.
      assert (y = x); [|congruence].
      apply filename_inj; [apply Hb; now right|apply Hb; now left|congruence].
  - specialize (IH Hnd' (fun y Hy => Hb y (or_intror Hy))). lia.
Qed.

Lemma sumlen_le_fs_bytes : forall fs l,
  NoDup l -> (forall x, In x l -> x <= U64_MAX) -> sumlen fs l <= fs_bytes fs.
Proof.
  induction fs as [|[name e] r IH]; intros l Hnd Hb.
  - induction l as [|x l IHl]; [cbn; lia|].
    rewrite sumlen_cons.
    inversion Hnd; subst. specialize (IHl H2 (fun y Hy => Hb y (or_intror Hy))).
    unfold fcontent at 1. cbn [fs_get]. rewrite lenN_nil. cbn [fs_bytes fold_right] in *. lia.
  - pose proof (sumlen_cons_le name e r l Hnd Hb) as H1.
    specialize (IH l Hnd Hb). rewrite fs_bytes_cons. destruct e; lia.
Qed.

Lemma sumw_split fs l :
  sumw (fun n => lenN (fcontent fs n)) l = sumlen fs l + 6 * lenN l.
Proof.
  induction l as [|x l IH]; [reflexivity|].
  rewrite sumw_cons, sumlen_cons, IH, lenN_cons. lia.
Qed.

Lemma sumw_listed fs :
  sumw (fun n => lenN (fcontent fs n)) (list_wal_numbers fs) <= fs_bytes fs + 6 * lenN fs.
Proof.
  rewrite sumw_split.
  pose proof (sumlen_le_fs_bytes fs (list_wal_numbers fs)
                (sorted_NoDup _ (listed_sorted fs)) (listed_bound fs)).
  pose proof (listed_len fs). lia.
Qed.

Section Open.
Variable P : params.
Hypothesis HBS : 7 < BS P.

Definition zinv (W : N -> N) (fs : fsT) : Prop :=
  forall n, all_zero (dropN (W n) (fcontent fs n)) = true.

Lemma zinv_init fs : zinv (fun n => lenN (fcontent fs n)) fs.
Proof. intros n. rewrite dropN_all by lia. reflexivity. Qed.

Lemma all_zero_drop_app_zeros W b k :
  all_zero (dropN W b) = true -> all_zero (dropN W (b ++ zerosN k)) = true.
Proof.
  intros H. destruct (N.le_gt_cases W (lenN b)) as [Hle|Hgt].
  - rewrite dropN_app_le by assumption. rewrite all_zero_app, H, all_zero_zerosN. reflexivity.
  - rewrite dropN_app_ge by lia. apply all_zero_dropN, all_zero_zerosN.
Qed.

Lemma zinv_put W fs name b :
  zinv W fs -> (forall n, filename n = name -> all_zero (dropN (W n) b) = true) ->
  zinv W (fs_put fs name (FFile b)).
Proof.
  intros Hz Hb n. unfold fcontent. rewrite fs_get_put.
  destruct (bytes_eqb name (filename n)) eqn:E.
  - apply bytes_eqb_eq in E. now apply Hb.
  - apply Hz.
Qed.

Lemma create_file_zinv W c n c' r :
  create_file P c n = (c', r) -> zinv W (c_fs c) -> zinv W (c_fs c').
Proof.
  unfold create_file. destruct (fs_get (c_fs c) (filename n)).
  - intros H; inversion H; subst. trivial.
  - intros H Hz; inversion H; subst. cbn [c_fs ctx_ev ctx_fs].
    apply zinv_put; [apply zinv_put; [exact Hz|]|].
    + intros m _. destruct (W m); reflexivity.
    + intros m _. apply all_zero_dropN, all_zero_zerosN.
Qed.

Lemma ensure_last_full_zinv W c files c' r :
  ensure_last_full P c files = (c', r) -> zinv W (c_fs c) -> zinv W (c_fs c').
Proof.
  unfold ensure_last_full. destruct (last_opt files) as [n|]; [|intros H; inversion H; subst; trivial].
  destruct (N.ltb_spec (lenN (file_content c n)) (FILE_BYTES P)) as [Hlt|Hge];
    [|intros H; inversion H; subst; trivial].
  destruct (open_file c n) as [c1 [u|e]] eqn:Ho; apply open_file_fs in Ho;
    intros H Hz; inversion H; subst; [|rewrite Ho; exact Hz].
  cbn [c_fs ctx_ev ctx_fs]. rewrite Ho. apply zinv_put; [exact Hz|].
  intros m Hm. rewrite file_content_fcontent. unfold set_len.
  destruct (N.leb_spec (FILE_BYTES P) (lenN (fcontent (c_fs c) n))) as [Hle|_].
  - rewrite file_content_fcontent in Hlt. lia.
  - apply all_zero_drop_app_zeros.
    replace (fcontent (c_fs c) n) with (fcontent (c_fs c) m); [apply Hz|].
    unfold fcontent. rewrite Hm. reflexivity.
Qed.

Definition rd_open_tail (c2 : ioctx) (files : list N) : ioctx * res rreaderS :=
  match (if L_SHORT P then (c2, Ok tt) else ensure_last_full P c2 files) with
  | (c2', Err e) => (c2', Err e)
  | (c2, Ok _) =>
    let first := match files with f :: _ => f | [] => 0 end in
    match open_file c2 first with
    | (c3, Err e) => (c3, Err e)
    | (c3, Ok _) =>
        match read_block P c3 first 0 with
        | (c4, _, Err e) => (c4, Err e)
        | (c4, _, Ok None) => (c4, Err IoUnexpectedEof)
        | (c4, pos', Ok (Some blk)) => (c4, Ok (mkRd c4 files first 0 pos' blk))
        end
    end
  end.

Lemma rd_open_eq c0 :
  rd_open P c0 =
  match fault_point (ctx_ev c0 EvReadDir) SReadDir with
  | (c1, Some e) => (c1, Err e)
  | (c1, None) =>
      match list_wal_numbers (c_fs c1) with
      | [] => match create_file P c1 0 with
              | (c', Ok _) => rd_open_tail c' [0]
              | (c', Err e) => (c', Err e)
              end
      | listed => rd_open_tail c1 listed
      end
  end.
Proof.
  unfold rd_open, rd_open_tail.
  destruct (fault_point (ctx_ev c0 EvReadDir) SReadDir) as [c1 [e|]]; [reflexivity|].
  destruct (list_wal_numbers (c_fs c1)) as [|x l]; [|reflexivity].
  destruct (create_file P c1 0) as [c' [u|e]]; reflexivity.
Qed.

Lemma rd_open_tail_inv c2 files c rd :
  rd_open_tail c2 files = (c, Ok rd) ->
  exists c3 u c4 u' pos blk,
    (if L_SHORT P then (c2, Ok tt) else ensure_last_full P c2 files) = (c3, Ok u) /\
    open_file c3 (hd 0 files) = (c4, Ok u') /\
    read_block P c4 (hd 0 files) 0 = (c, pos, Ok (Some blk)) /\
    rd = mkRd c files (hd 0 files) 0 pos blk.
Proof.
  unfold rd_open_tail. change (match files with f :: _ => f | [] => 0 end) with (hd 0 files).
  destruct (if L_SHORT P then (c2, Ok tt) else ensure_last_full P c2 files) as [c3 [u|e]] eqn:He;
    [|discriminate].
  destruct (open_file c3 (hd 0 files)) as [c4 [u'|e]] eqn:Ho; [|discriminate].
  destruct (read_block P c4 (hd 0 files) 0) as [[c5 pos] [[blk|]|e]] eqn:Hr; try discriminate.
  intros H. inversion H; subst. exists c3, u, c4, u', pos, blk. repeat split; assumption.
Qed.

Lemma rd_open_tail_spec W B c2 files c rd :
  zinv W (c_fs c2) -> sumw W files <= B -> files <> [] ->
  rd_open_tail c2 files = (c, Ok rd) ->
  zinv W (c_fs (rd_ctx rd)) /\ rdinv P (c_fs (rd_ctx rd)) rd /\ Psi W rd (BS P) <= B.
Proof.
  intros Hz HB Hne H.
  destruct (rd_open_tail_inv _ _ _ _ H) as (c3 & u & c4 & u' & pos & blk & He & Ho & Hr & ->).
  assert (Hz' : zinv W (c_fs c3)).
  { destruct (L_SHORT P); [inversion He; subst; exact Hz|].
    eapply ensure_last_full_zinv; eassumption. }
  destruct files as [|first rest]; [congruence|]. cbn [hd] in *.
  apply open_file_fs in Ho.
  apply read_block_spec in Hr. destruct Hr as [Hfs (Hp & _ & Hb)].
  cbn [rd_ctx]. rewrite N.add_0_l in *. subst pos blk.
  assert (Hfs4 : c_fs c = c_fs c3) by congruence.
  split; [rewrite Hfs4; exact Hz'|]. split.
  - unfold rdinv. cbn [rd_ctx rd_pos rd_block rd_file]. split; [reflexivity|]. split; [lia|].
    rewrite N.sub_diag. congruence.
  - unfold Psi. cbn [rd_files rd_file rd_pos].
    pose proof (sumf_after_head (fun n => W n + 6) first rest) as H1.
    rewrite sumw_cons in HB. unfold sumw in *. lia.
Qed.

Lemma rd_open_spec fs0 plan c rd :
  rd_open P (ctx_init fs0 plan) = (c, Ok rd) ->
  let W := fun n => lenN (fcontent fs0 n) in
  zinv W (c_fs (rd_ctx rd)) /\ rdinv P (c_fs (rd_ctx rd)) rd /\
  Psi W rd (BS P) <= fs_bytes fs0 + 6 * lenN fs0 + 6.
Proof.
  intros H W. rewrite rd_open_eq in H.
  pose proof (fault_point_fs (ctx_ev (ctx_init fs0 plan) EvReadDir) SReadDir) as Hf.
  destruct (fault_point (ctx_ev (ctx_init fs0 plan) EvReadDir) SReadDir) as [c1 [e|]];
    [inversion H|]. cbn [fst c_fs ctx_ev ctx_init] in Hf.
  assert (Hz1 : zinv W (c_fs c1)) by (rewrite Hf; apply zinv_init).
  destruct (list_wal_numbers (c_fs c1)) as [|x l] eqn:El.
  - destruct (create_file P c1 0) as [c' [u|e]] eqn:Hc; [|inversion H].
    pose proof (fun B Hz HB Hne => rd_open_tail_spec W B _ _ _ _ Hz HB Hne H) as Hs.
    eapply Hs; [eapply create_file_zinv; eassumption| |discriminate].
    cbn [sumw sumf fold_right]. unfold W.
    assert (Hn : fcontent fs0 0 = []).
    { unfold create_file in Hc. rewrite Hf in Hc. unfold fcontent.
      destruct (fs_get fs0 (filename 0)); [inversion Hc|reflexivity]. }
    rewrite Hn, lenN_nil. lia.
  - pose proof (fun B Hz HB Hne => rd_open_tail_spec W B _ _ _ _ Hz HB Hne H) as Hs.
    eapply Hs; [exact Hz1| |discriminate].
    rewrite <- El, Hf. pose proof (sumw_listed fs0). unfold W. lia.
Qed.

Lemma open_with_ok fuel fs plan pol hint st :
  open_with P fuel fs plan pol hint = OpenOk st ->
  exists c rd rr qs k,
    rd_open P (ctx_init fs plan) = (c, Ok rd) /\
    replay_loop P fuel fuel (rr_open rreaderS rd) [] = (rr, RpDone qs) /\
    run_gc_if_necessary P
      (mkSt (rd_into_writer P (fr_rd (rr_fr rr)) (fr_cursor (rr_fr rr))) qs pol) hint = (st, Ok k).
Proof.
  unfold open_with.
  destruct (rd_open P (ctx_init fs plan)) as [c [rd|e]]; [|discriminate].
  destruct (replay_loop P fuel fuel (rr_open rreaderS rd) []) as [rr [qs| |e|]] eqn:Hrp;
    try discriminate.
  cbv zeta. destruct (run_gc_if_necessary P _ hint) as [st1 [k|e]] eqn:Hg; [|discriminate].
  intros H. inversion H; subst. exists c, rd, rr, qs, k.
  split; [reflexivity|]. split; [exact Hrp|exact Hg].
Qed.

Theorem open_with_enough_fuel fuel fs plan pol hint c :
  L_IO P = false ->
  fs_bytes fs + 6 * lenN fs + 6 < 7 * N.of_nat fuel ->
  open_with P fuel fs plan pol hint <> OpenFuel c.
Proof.
  intros HIO Hfuel. unfold open_with.
  destruct (rd_open P (ctx_init fs plan)) as [c0 [rd|e]] eqn:Ho; [|discriminate].
  apply rd_open_spec in Ho. cbv zeta in Ho. destruct Ho as (Hz & Hinv & Hpsi).
  destruct (replay_loop P fuel fuel (rr_open rreaderS rd) []) as [rr rp] eqn:Hrp.
  assert (Hnf : rp <> RpFuel).
  { eapply (replay_loop_measure P HBS _ _ Hz HIO fuel fuel (rr_open rreaderS rd) [] rr rp);
      [exact Hinv| | |exact Hrp];
      unfold PhiR, Phi, blockrem; cbn [rr_open rr_fr fr_open fr_rd fr_corrupt fr_cursor];
      rewrite N.sub_0_r; lia. }
  destruct rp; try discriminate; [|congruence].
  destruct (run_gc_if_necessary P _ hint) as [st1 [n|e]]; discriminate.
Qed.

Lemma open_fuel_enough fs :
  fs_bytes fs + 6 * lenN fs + 6 < 7 * N.of_nat (open_fuel P fs).
Proof.
  unfold open_fuel, HEADER_LEN. rewrite N2Nat.id.
  pose proof (N.div_mod (fs_bytes fs) 7 ltac:(lia)) as Hd.
  pose proof (N.mod_lt (fs_bytes fs) 7 ltac:(lia)) as Hm.
  nia.
Qed.

(* C10: the fuel of the model is never exhausted *)
Theorem open_never_out_of_fuel fs plan pol hint c :
  L_IO P = false -> open P fs plan pol hint <> OpenFuel c.
Proof.
  intros HIO. unfold open. apply open_with_enough_fuel; [exact HIO|apply open_fuel_enough].
Qed.
End Open.

Check open_never_out_of_fuel.
Check open_with_enough_fuel.
Check open_with_fuel_mono.
Print Assumptions open_never_out_of_fuel.
Print Assumptions open_with_enough_fuel.
Print Assumptions open_with_fuel_mono.
