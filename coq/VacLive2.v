(* VacLive2.v — vacuity audit: PropC13 .. PropC18 (live half).  Same states as VacLive.v. *)
From Coq Require Import Lia ZArith ZifyN ZifyNat ZifyBool List.
From MRL Require Import Bytes BytesProofs Params Names NamesProofs Frame Record Mem Spec Rolling Log
  Driver Hist WriterProofs NoopProofs SpecRefine MemAcctProofs RecordProofs EffectsProofs
  PolicyProofs QueueIso GcProofs GhostLog ReplaySpec PersistProofs
  RestartInv RestartFinal RestartCorollaries VacBase VacRestart VacLive.
From MRL Require PropC05 PropC13 PropC14 PropC15 PropC16 PropC17 PropC18.
Import ListNotations.
Import RestartFinal.Example.

Local Notation qA := RestartFinal.Example.qa.
Local Notation qB := RestartFinal.Example.qb.
Ltac le_tac := vm_compute; let H := fresh in intro H; discriminate H.

Definition o_past : op := OAppend qA (Some 3) [pay "z"%byte].
Lemma noop_past : noop_call stA o_past OutPast.
Proof. eapply NoopPast; [vm_compute; reflexivity|vm_compute; reflexivity]. Qed.

Example C13_no_trace_inst : step Px stA o_past true = (stA, OutPast).
Proof. exact (PropC13.C13_no_trace Px stA o_past OutPast true noop_past). Qed.

Example C13_zero_bytes_inst : outcome_bytes OutPast = Some 0 \/ outcome_bytes OutPast = None.
Proof. exact (PropC13.C13_zero_bytes stA o_past OutPast noop_past). Qed.

Example C13_shapes_complete_inst : exists out, noop_call stA (OCreate qB) out.
Proof.
  apply (PropC13.C13_shapes_complete Px stA (OCreate qB) false).
  replace (snd (step Px stA (OCreate qB) false)) with OutAlreadyExists by (vm_compute; reflexivity).
  exact I.
Qed.

Example C13_erasable_inst :
  fst (run Px stR ([(oA, false)] ++ (o_past, true) :: [(oT, false)])) =
  fst (run Px stR ([(oA, false)] ++ [(oT, false)])).
Proof.
  apply (PropC13.C13_erasable Px stR [(oA, false)] o_past true [(oT, false)] OutPast).
  replace (fst (run Px stR [(oA, false)])) with stA by (vm_compute; reflexivity).
  exact noop_past.
Qed.

(* the drivers' world: a drained state *)
Definition st_d : state := Eval vm_compute in fst (drain_state stA).
Definition w_d : world := mkWorld (c_fs (w_ctx (s_wr st_d))) (Some st_d) false [] [] None.
Lemma noop_past_d : noop_call st_d o_past OutPast.
Proof. eapply NoopPast; [vm_compute; reflexivity|vm_compute; reflexivity]. Qed.

Example C13_world_unchanged_inst : world_step Px w_d (COp o_past) = (w_d, WOp OutPast).
Proof.
  apply (PropC13.C13_world_unchanged Px w_d st_d o_past OutPast eq_refl).
  - split; reflexivity.
  - reflexivity.
  - exact noop_past_d.
Qed.

Example C14_step_policy_independent_inst :
  snd (step Px stR oA false) = snd (step Px stR2 oA true) /\
  seqw (fst (step Px stR oA false)) (fst (step Px stR2 oA true)).
Proof.
  pose proof (PropC14.C14_step_policy_independent Px stR stR2 oA false true eq_refl seqw_R) as H.
  destruct (step Px stR oA false) as [s1 o1]. destruct (step Px stR2 oA true) as [s2 o2]. exact H.
Qed.

Example pending_differs :
  w_pending (s_wr (fst (step Px stR oA false))) = [] /\
  w_pending (s_wr (fst (step Px stR2 oA true))) <> [].
Proof. vm_compute. split; [reflexivity|discriminate]. Qed.

Example C14_run_policy_independent_inst :
  snd (run Px stR hP) = snd (run Px stR2 hP) /\ seqw (fst (run Px stR hP)) (fst (run Px stR2 hP)).
Proof.
  pose proof (PropC14.C14_run_policy_independent Px hP hP stR stR2 eq_refl eq_refl seqw_R) as H.
  destruct (run Px stR hP) as [s1 o1]. destruct (run Px stR2 hP) as [s2 o2]. exact H.
Qed.

Example C14_drop_policy_independent_inst :
  c_fs (drop_log (fst (step Px stR oA false))) = c_fs (drop_log (fst (step Px stR2 oA true))).
Proof.
  apply PropC14.C14_drop_policy_independent. exact (proj1 (proj2 C14_step_policy_independent_inst)).
Qed.

Example C14_restart_policy_independent_inst :
  snd (run Px stR hP) = snd (run Px stR2 hP) /\
  open_rel (open Px (c_fs (drop_log (fst (run Px stR hP)))) None (PAlways false) [])
           (open Px (c_fs (drop_log (fst (run Px stR2 hP)))) None (PDelay true) []).
Proof.
  exact (PropC14.C14_restart_policy_independent Px hP hP stR stR2 None (PAlways false) (PDelay true) []
           eq_refl eq_refl seqw_R).
Qed.

Example C14_open_ok_seqw_inst : seqw stR stR2.
Proof. exact seqw_R. Qed.

Example C15_record_count_generic_inst :
  forall w payload w' n,
    write_record Px vecw vw_write (vw_rem Px) w payload = (w', Ok n) -> vw_cursor w' = vw_cursor w + n.
Proof.
  apply (PropC15.C15_record_count_generic Px vecw vw_write (vw_rem Px) vw_cursor).
  intros w d w' H. unfold vw_write in H. injection H as <-. reflexivity.
Qed.

Example C15_bytes_exact_inst : st_accepted stA = st_accepted stR + 77.
Proof. exact (PropC15.C15_bytes_exact Px stR oA false stA _ 77 step_stA eq_refl). Qed.

Example C15_zero_iff_inst : 77 = 0 <-> st_accepted stA = st_accepted stR.
Proof. exact (PropC15.C15_zero_iff Px stR oA false stA _ 77 step_stA eq_refl). Qed.

Example C15_bytes_in_write_events_inst :
  ev_bytes (c_ev (w_ctx (s_wr stA))) = ev_bytes (c_ev (w_ctx (s_wr stR))) + 77.
Proof.
  apply (PropC15.C15_bytes_in_write_events Px stR oA false stA _ 77 true step_stA eq_refl eq_refl).
  left. reflexivity.
Qed.

Example C15_running_sum_inst : st_accepted stP = st_accepted stR + sum_reported outsP.
Proof. exact (PropC15.C15_running_sum Px hP stR stP outsP run_P no_io_P). Qed.

Example C16_used_exact_inst :
  log_memory_used Px stA =
  s_names (abs_qs (s_qs stA)) + s_payload (abs_qs (s_qs stA)) + RMS Px * s_nrecs (abs_qs (s_qs stA)).
Proof. exact (PropC16.C16_used_exact Px stA qs_inv_stA). Qed.

Example C16_used_bounds_inst :
  s_names (abs_qs (s_qs stA)) + s_payload (abs_qs (s_qs stA)) <= log_memory_used Px stA.
Proof. exact (proj1 (PropC16.C16_used_bounds Px stA qs_inv_stA)). Qed.

Example C16_truncate_releases_inst :
  exists recs nx, s_get (abs_qs (s_qs stA)) qA = Some (recs, nx) /\
    2 = lenN (filter (fun r => fst r <=? 7) recs).
Proof.
  destruct (PropC16.C16_truncate_releases Px stA qA 7 [qB] false stT 2 19 qs_inv_stA step_stT)
    as (recs & nx & H1 & H2 & _). exists recs, nx. split; [exact H1|exact H2].
Qed.

(* all queues empty: truncate both queues of st_ex *)
Definition st_e : state :=
  Eval vm_compute in fst (step Px (fst (step Px st_ex (OTruncate qA 6 []) false)) (OTruncate qB 0 []) false).
Lemma qs_inv_e : qs_inv (s_qs st_e).
Proof.
  destruct inv_ex as (G & HI & _). pose proof (Inv_qs_inv Px _ _ HI) as H0.
  pose proof (PropC05.C05_refines Px st_ex (OTruncate qA 6 []) false H0) as H1.
  destruct (step Px st_ex (OTruncate qA 6 []) false) as [s1 o1] eqn:E1. destruct H1 as [H1 _].
  pose proof (PropC05.C05_refines Px s1 (OTruncate qB 0 []) false H1) as H2.
  destruct (step Px s1 (OTruncate qB 0 []) false) as [s2 o2] eqn:E2. destruct H2 as [H2 _].
  replace st_e with s2; [exact H2|].
  replace s2 with (fst (step Px s1 (OTruncate qB 0 []) false)) by (rewrite E2; reflexivity).
  replace s1 with (fst (step Px st_ex (OTruncate qA 6 []) false)) by (rewrite E1; reflexivity).
  vm_compute. reflexivity.
Qed.

Example C16_baseline_when_empty_inst :
  log_memory_used Px st_e = s_names (abs_qs (s_qs st_e)) /\ abs_qs (s_qs st_e) = [(qA, ([], 7)); (qB, ([], 1))].
Proof.
  split; [|vm_compute; reflexivity].
  apply (PropC16.C16_baseline_when_empty Px st_e qs_inv_e).
  intros n recs nx Hin. vm_compute in Hin.
  destruct Hin as [H|[H|[]]]; injection H as _ <- _; reflexivity.
Qed.

Example C16_buffer_is_retained_payload_inst :
  forall m, qs_get (s_qs stA) qA = Some m ->
            q_buf m = concat (map snd (records_of (q_buf m) (q_metas m))).
Proof.
  intros m Hm. apply PropC16.C16_buffer_is_retained_payload.
  apply (qs_inv_stA qA m). vm_compute in Hm. injection Hm as <-. vm_compute. left. reflexivity.
Qed.

Example C17_parse_print_inst : filename_to_position (filename 18446744073709551615) = Some 18446744073709551615.
Proof. apply PropC17.C17_parse_print. le_tac. Qed.

Example C17_parse_exact_inst : filename 77 = filename 77 /\ 77 <= U64_MAX.
Proof. exact (PropC17.C17_parse_exact (filename 77) 77 ltac:(vm_compute; reflexivity)). Qed.

Example C17_filename_inj_inst : forall b, b <= U64_MAX -> filename 5 = filename b -> 5 = b.
Proof. intros b Hb. apply PropC17.C17_filename_inj; [le_tac|exact Hb]. Qed.

Definition s_for : bytes := ["w"; "a"; "l"; "-"; "1"]%byte.
Lemma foreign_s : forall n, s_for <> filename n.
Proof. apply PropC17.C17_bad_shape_foreign. left. vm_compute. discriminate. Qed.

Example C17_foreign_never_named_inst : forall n, n <= U64_MAX -> s_for <> filename n.
Proof. apply PropC17.C17_foreign_never_named. vm_compute. reflexivity. Qed.

Lemma named_stR : Forall wal_named (c_ev (w_ctx (s_wr stR))).
Proof.
  pose proof (PropC17.C17_open_events_wal_named Px (c_fs (drop_log st_ex)) None (PAlways true) [qB]) as H.
  rewrite open_stR in H. exact H.
Qed.

Example C17_step_events_wal_named_inst : Forall wal_named (c_ev (w_ctx (s_wr stA))).
Proof.
  pose proof (PropC17.C17_step_events_wal_named Px stR oA false named_stR) as H.
  rewrite step_stA in H. exact H.
Qed.

Example C17_step_foreign_untouched_inst :
  fs_get (c_fs (w_ctx (s_wr stA))) s_for = fs_get (c_fs (w_ctx (s_wr stR))) s_for.
Proof.
  pose proof (PropC17.C17_step_foreign_untouched Px stR oA false s_for foreign_s) as H.
  rewrite step_stA in H. exact H.
Qed.

Example C17_drop_foreign_untouched_inst :
  fs_get (c_fs (drop_log stA)) s_for = fs_get (c_fs (w_ctx (s_wr stA))) s_for.
Proof. exact (PropC17.C17_drop_foreign_untouched stA s_for foreign_s). Qed.

Example C17_open_foreign_untouched_inst :
  fs_get (c_fs (open_ctx (open Px fs_junk None PNothing []))) s_for = fs_get fs_junk s_for.
Proof. exact (PropC17.C17_open_foreign_untouched Px fs_junk None PNothing [] s_for foreign_s). Qed.

Example C17_run_foreign_untouched_inst :
  fs_get (c_fs (w_ctx (s_wr stP))) s_for = fs_get (c_fs (w_ctx (s_wr stR))) s_for.
Proof.
  pose proof (PropC17.C17_run_foreign_untouched Px hP stR s_for foreign_s) as H.
  rewrite run_P in H. exact H.
Qed.

Example C17_listing_sound_inst :
  list_wal_numbers fs_junk = [3; 5; 9] /\
  (5 <= U64_MAX /\ exists b, In (filename 5, FFile b) fs_junk).
Proof.
  split; [vm_compute; reflexivity|].
  apply PropC17.C17_listing_sound. vm_compute. right. left. reflexivity.
Qed.

(* C17_unparsed_untouched: the events of a create (write, flush, sync_data, sync_dir on file 6) *)
Definition evs_C : list event :=
  Eval vm_compute in firstn (length (c_ev (w_ctx (s_wr stC))) - length (c_ev (w_ctx (s_wr stR))))
                            (c_ev (w_ctx (s_wr stC))).
Definition s_unp : bytes := ["w"; "a"; "l"; "-"; "9"; "9"; "9"; "9"; "9"; "9"; "9"; "9"; "9"; "9";
                             "9"; "9"; "9"; "9"; "9"; "9"; "9"; "9"; "9"; "9"]%byte.

Lemma named_u64_C : Forall wal_named_u64 evs_C.
Proof.
  unfold evs_C.
  repeat (constructor;
          [first [exact I | (exists 6; split; [le_tac|vm_compute; reflexivity])]|]).
  constructor.
Qed.

Example C17_unparsed_untouched_inst :
  fs_get (c_fs (w_ctx (s_wr stC))) s_unp = fs_get (c_fs (w_ctx (s_wr stR))) s_unp.
Proof.
  pose proof (PropC17.C17_unparsed_untouched Px stR (OCreate qC) false evs_C s_unp) as H.
  rewrite step_stC in H. apply H.
  - vm_compute. reflexivity.
  - exact named_u64_C.
  - vm_compute. reflexivity.
Qed.

Example C18_spec_projection_inst :
  s_get (fst (s_run m_s h_s)) qA = s_get (fst (s_run m_s (filter (addressed qA) h_s))) qA /\
  keep_outs (addressed qA) h_s (snd (s_run m_s h_s)) = snd (s_run m_s (filter (addressed qA) h_s)).
Proof. exact (PropC18.C18_spec_projection h_s m_s m_s qA eq_refl). Qed.

Definition stQ : state := Eval vm_compute in fst (run Px stR (filter (on_queue qA) hP)).
Definition outsQ : list outcome := Eval vm_compute in snd (run Px stR (filter (on_queue qA) hP)).

Example C18_log_projection_inst :
  s_get (abs_qs (s_qs stP)) qA = s_get (abs_qs (s_qs stQ)) qA /\
  map out_logical (keep_outs (on_queue qA) hP outsP) = map out_logical outsQ /\
  (forall lo hi, log_range stP qA lo hi = log_range stQ qA lo hi) /\
  log_last_position stP qA = log_last_position stQ qA /\ log_last_record stP qA = log_last_record stQ qA.
Proof.
  apply (PropC18.C18_log_projection Px hP stR stR qA stP outsP stQ outsQ qs_inv_stR qs_inv_stR eq_refl
           run_P).
  - vm_compute. reflexivity.
  - exact no_io_P.
  - vm_compute. reflexivity.
Qed.

Example C18_log_step_other_inst :
  s_get (abs_qs (s_qs stA)) qB = s_get (abs_qs (s_qs stR)) qB /\
  (forall lo hi, log_range stA qB lo hi = log_range stR qB lo hi) /\
  log_last_position stA qB = log_last_position stR qB /\ log_last_record stA qB = log_last_record stR qB.
Proof.
  apply (PropC18.C18_log_step_other Px stR oA false stA _ qB qs_inv_stR step_stA eq_refl).
  vm_compute. intros H; discriminate H.
Qed.

Example C18_replay_other_untouched_inst : qs_get qs_app qB = qs_get (s_qs stA) qB.
Proof.
  apply (PropC18.C18_replay_other_untouched (s_qs stA) 9 e_app qs_app qB); [|exact apply_app].
  vm_compute. intros H; discriminate H.
Qed.
