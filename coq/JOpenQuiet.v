(* JOpenQuiet.v — the events that the READING phase of `open` (rd_open, then replay_loop) appends to
   the I/O trace do not change the directory, except for the one set_len of a short last file
   (ensure_last_full).  Consequently every crash prefix of the trace of the reading phase replays,
   on the initial directory fs, either to fs itself or to the directory at the end of the phase. *)
From Coq Require Import Lia ZArith ZifyN ZifyNat ZifyBool List.
From MRL Require Import OpenTerm EffectsProofs.
From MRL Require Import Bytes Params Names Frame Record Mem Rolling Log Driver CrashTrace.
Import ListNotations.


Definition quiet (e : event) : Prop :=
  match e with EvReadDir | EvOpenRw _ | EvRead _ _ _ _ => True | _ => False end.

Lemma quiet_fold l : Forall quiet l -> forall fs, fold_left apply_event l fs = fs.
Proof.
  induction 1 as [|e l He _ IH]; intros fs; [reflexivity|].
  destruct e; try destruct He; cbn [fold_left apply_event]; apply IH.
Qed.

Lemma quiet_cpre pe l : cpre pe l -> Forall quiet l -> Forall quiet pe.
Proof.
  intros Hc Hl. induction Hc as [evs|n off d k evs|e pe evs _ IH].
  - constructor.
  - inversion Hl as [|? ? H _]; subst. destruct H.
  - inversion Hl; subst. constructor; auto.
Qed.

Lemma quiet_rev l : Forall quiet l -> Forall quiet (rev l).
Proof.
  intros H. apply Forall_forall. intros x Hx. apply in_rev in Hx.
  exact (proj1 (Forall_forall _ _) H x Hx).
Qed.


Definition qext (c c' : ioctx) : Prop :=
  exists Q, c_ev c' = Q ++ c_ev c /\ Forall quiet Q /\ c_fs c' = c_fs c /\ c_plan c' = c_plan c.

Lemma qext_refl c : qext c c.
Proof. exists []. repeat split. constructor. Qed.

Lemma qext_trans a b c : qext a b -> qext b c -> qext a c.
Proof.
  intros (Q1 & E1 & F1 & G1 & P1) (Q2 & E2 & F2 & G2 & P2).
  exists (Q2 ++ Q1). repeat split.
  - now rewrite E2, E1, app_assoc.
  - apply Forall_app. now split.
  - congruence.
  - congruence.
Qed.

Lemma qext_ev c e : quiet e -> qext c (ctx_ev c e).
Proof. intros H. exists [e]. repeat split. now constructor. Qed.

Section Q.
Variable P : params.

Lemma fault_point_qext c s : qext c (fst (fault_point c s)).
Proof.
  exists []. unfold fault_point.
  destruct (c_plan c) as [p|] eqn:Ep.
  - destruct (site_eqb (fp_site p) s && _); destruct s; cbn [fst c_ev c_fs c_plan app];
      repeat split; auto.
  - destruct s; cbn [fst c_ev c_fs c_plan app]; repeat split; auto.
Qed.

Lemma fault_point_none c s : c_plan c = None -> snd (fault_point c s) = None.
Proof. intros H. unfold fault_point. now rewrite H. Qed.

Lemma open_file_qext c n : qext c (fst (open_file c n)).
Proof.
  unfold open_file. pose proof (fault_point_qext c SOpen) as Hq.
  destruct (fault_point c SOpen) as [c1 [e|]]; cbn [fst] in *; [exact Hq|].
  destruct (fs_get (c_fs c1) (filename n)) as [[b| |]|]; cbn [fst]; try exact Hq.
  eapply qext_trans; [exact Hq|]. now apply qext_ev.
Qed.

Lemma read_block_qext c n pos : qext c (fst (fst (read_block P c n pos))).
Proof.
  unfold read_block. pose proof (fault_point_qext c SRead) as Hq.
  destruct (fault_point c SRead) as [c1 [e|]]; cbn [fst] in *.
  - eapply qext_trans; [exact Hq|]. now apply qext_ev.
  - destruct (pos + BS P <=? lenN (file_content c1 n)); cbn [fst];
      (eapply qext_trans; [exact Hq|]; now apply qext_ev).
Qed.

Lemma next_file_loop_qext : forall cands c rd,
  qext c (rd_ctx (fst (next_file_loop P c cands rd))).
Proof.
  induction cands as [|n rest IH]; intros c rd; cbn [next_file_loop].
  - cbn [fst rd_ctx]. apply qext_refl.
  - pose proof (open_file_qext c n) as H1.
    destruct (open_file c n) as [c1 [u|e]]; cbn [fst] in H1; [|exact H1].
    pose proof (read_block_qext c1 n 0) as H2.
    destruct (read_block P c1 n 0) as [[c2 pos'] [[blk|]|e]]; cbn [fst] in H2.
    + cbn [fst rd_ctx]. eapply qext_trans; eassumption.
    + eapply qext_trans; [exact H1|]. eapply qext_trans; [exact H2|]. apply IH.
    + cbn [fst rd_ctx]. eapply qext_trans; eassumption.
Qed.

Lemma rd_next_qext rd : qext (rd_ctx rd) (rd_ctx (fst (rd_next P rd))).
Proof.
  unfold rd_next. pose proof (read_block_qext (rd_ctx rd) (rd_file rd) (rd_pos rd)) as H1.
  destruct (read_block P (rd_ctx rd) (rd_file rd) (rd_pos rd)) as [[c1 pos'] [[blk|]|e]];
    cbn [fst] in H1; cbn [fst rd_ctx]; try exact H1.
  eapply qext_trans; [exact H1|]. apply next_file_loop_qext.
Qed.

Lemma replay_loop_qext f g rr qs :
  qext (reader_ctx rr) (reader_ctx (fst (replay_loop P f g rr qs))).
Proof.
  apply (replay_loop_rd_inv P (fun r => qext (reader_ctx rr) (rd_ctx r))).
  - intros r Hr. exact (qext_trans _ _ _ Hr (rd_next_qext r)).
  - apply qext_refl.
Qed.


(* the trace of c, replayed on fs, gives c_fs c, and every crash prefix of it gives fs or c_fs c *)
Definition two_state (fs : fsT) (c : ioctx) : Prop :=
  exists A, c_ev c = rev A /\ c_plan c = None /\
    fold_left apply_event A fs = c_fs c /\
    forall pe, cpre pe A -> fold_left apply_event pe fs = fs \/ fold_left apply_event pe fs = c_fs c.

Lemma two_state_init fs : two_state fs (ctx_init fs None).
Proof.
  exists []. repeat split. intros pe H. inversion H; subst. now left.
Qed.

Lemma two_state_qext fs c c' : two_state fs c -> qext c c' -> two_state fs c'.
Proof.
  intros (A & EA & PA & FA & CA) (Q & EQ & FQ & GQ & PQ).
  exists (A ++ rev Q). repeat split.
  - now rewrite rev_app_distr, rev_involutive, EQ, EA.
  - congruence.
  - rewrite fold_left_app, FA, GQ. apply quiet_fold. now apply quiet_rev.
  - intros pe Hpe. destruct (cpre_app_inv _ _ _ Hpe) as [Hl|(pt & -> & Hr)].
    + rewrite GQ. now apply CA.
    + right. rewrite fold_left_app, FA, GQ. apply quiet_fold.
      eapply quiet_cpre; [exact Hr|]. now apply quiet_rev.
Qed.

Lemma two_state_setlen fs c name len :
  two_state fs c -> c_fs c = fs ->
  two_state fs (ctx_ev (ctx_fs c (apply_event fs (EvSetLen name len))) (EvSetLen name len)).
Proof.
  intros (A & EA & PA & FA & CA) Hfs.
  exists (A ++ [EvSetLen name len]). repeat split.
  - rewrite rev_app_distr. cbn [rev app ctx_ev ctx_fs c_ev]. now rewrite EA.
  - exact PA.
  - rewrite fold_left_app, FA, Hfs. reflexivity.
  - intros pe Hpe. cbn [ctx_ev ctx_fs c_fs].
    destruct (cpre_app_inv _ _ _ Hpe) as [Hl|(pt & -> & Hr)].
    + left. destruct (CA _ Hl) as [E|E]; rewrite E; congruence.
    + rewrite fold_left_app, FA, Hfs.
      inversion Hr as [evs|n off d k evs|e pe' evs H']; subst.
      * now left.
      * inversion H'; subst. now right.
Qed.

Lemma ensure_last_full_two_state fs c files c' u :
  two_state fs c -> c_fs c = fs ->
  ensure_last_full P c files = (c', Ok u) -> two_state fs c'.
Proof.
  intros HT Hfs H. unfold ensure_last_full in H.
  destruct (last_opt files) as [n|]; [|inversion H; subst; exact HT].
  destruct (lenN (file_content c n) <? FILE_BYTES P); [|inversion H; subst; exact HT].
  pose proof (open_file_qext c n) as Hq.
  assert (Hget : forall c1 u1, open_file c n = (c1, Ok u1) ->
                 exists b, fs_get (c_fs c1) (filename n) = Some (FFile b)).
  { intros c1 u1 Ho. unfold open_file in Ho.
    destruct (fault_point c SOpen) as [cx [e|]]; [discriminate|].
    destruct (fs_get (c_fs cx) (filename n)) as [[b| |]|] eqn:Eg; try discriminate.
    inversion Ho; subst. cbn [ctx_ev c_fs]. now exists b. }
  destruct (open_file c n) as [c1 [u1|e]]; [|discriminate]. cbn [fst] in Hq.
  destruct (Hget c1 u1 eq_refl) as [b Hb]. inversion H; subst c' u. clear H Hget.
  pose proof (two_state_qext _ _ _ HT Hq) as HT1.
  assert (Hfs1 : c_fs c1 = fs).
  { destruct Hq as (Q & _ & _ & G & _). congruence. }
  assert (Hc : file_content c n = b).
  { unfold file_content. rewrite Hfs, <- Hfs1, Hb. reflexivity. }
  pose proof (two_state_setlen fs c1 (filename n) (FILE_BYTES P) HT1 Hfs1) as HT2.
  replace (apply_event fs (EvSetLen (filename n) (FILE_BYTES P)))
    with (fs_put (c_fs c1) (filename n) (FFile (set_len (file_content c n) (FILE_BYTES P)))) in HT2.
  - exact HT2.
  - cbn [apply_event]. rewrite <- Hfs1, Hb, Hc. reflexivity.
Qed.

Lemma rd_open_ctx c0 c rd : rd_open P c0 = (c, Ok rd) -> c = rd_ctx rd.
Proof.
  rewrite rd_open_eq.
  assert (Ht : forall c2 files, rd_open_tail P c2 files = (c, Ok rd) -> c = rd_ctx rd).
  { intros c2 files H.
    destruct (rd_open_tail_inv _ _ _ _ _ H) as (c3 & u & c4 & u' & pos & blk & _ & _ & _ & ->).
    reflexivity. }
  destruct (fault_point (ctx_ev c0 EvReadDir) SReadDir) as [c1 [e|]]; [discriminate|].
  destruct (list_wal_numbers (c_fs c1)); [|apply Ht].
  destruct (create_file P c1 0) as [c' [u|e]]; [apply Ht|discriminate].
Qed.

Lemma rd_open_two_state fs c rd :
  rd_open P (ctx_init fs None) = (c, Ok rd) -> list_wal_numbers fs <> [] ->
  two_state fs (rd_ctx rd).
Proof.
  intros H Hne. rewrite rd_open_eq in H.
  set (c0 := ctx_ev (ctx_init fs None) EvReadDir) in H.
  assert (HT0 : two_state fs c0).
  { eapply two_state_qext; [apply two_state_init|]. now apply qext_ev. }
  assert (Hfs0 : c_fs c0 = fs) by reflexivity. clearbody c0.
  pose proof (fault_point_qext c0 SReadDir) as Hq.
  destruct (fault_point c0 SReadDir) as [c1 [e|]]; [discriminate|]. cbn [fst] in Hq.
  pose proof (two_state_qext _ _ _ HT0 Hq) as HT1.
  assert (Hfs1 : c_fs c1 = fs).
  { destruct Hq as (Q & _ & _ & G & _). congruence. }
  rewrite Hfs1 in H.
  destruct (list_wal_numbers fs) as [|f files']; [contradiction|].
  destruct (rd_open_tail_inv _ _ _ _ _ H) as (c2 & u & c3 & u3 & pos & blk & He & Ho & Hr & ->).
  cbn [hd] in Ho, Hr.
  assert (HT2 : two_state fs c2).
  { destruct (L_SHORT P); [inversion He; subst; exact HT1|].
    eapply ensure_last_full_two_state; eassumption. }
  pose proof (open_file_qext c2 f) as Hq3. rewrite Ho in Hq3.
  pose proof (read_block_qext c3 f 0) as Hq4. rewrite Hr in Hq4.
  eapply two_state_qext; [|exact Hq4]. eapply two_state_qext; [|exact Hq3]. exact HT2.
Qed.

Lemma rd_open_events fs c rd :
  rd_open P (ctx_init fs None) = (c, Ok rd) -> list_wal_numbers fs <> [] ->
  exists A, c_ev (rd_ctx rd) = rev A /\ c_plan (rd_ctx rd) = None /\
    fold_left apply_event A fs = c_fs (rd_ctx rd) /\
    forall pe, cpre pe A ->
      fold_left apply_event pe fs = fs \/ fold_left apply_event pe fs = c_fs (rd_ctx rd).
Proof. exact (rd_open_two_state fs c rd). Qed.


Theorem open_read_events F fs c rd rr qs :
  rd_open P (ctx_init fs None) = (c, Ok rd) -> list_wal_numbers fs <> [] ->
  replay_loop P F F (rr_open rreaderS rd) [] = (rr, RpDone qs) ->
  let w0 := rd_into_writer P (fr_rd (rr_fr rr)) (fr_cursor (rr_fr rr)) in
  exists A, c_ev (w_ctx w0) = rev A /\ c_plan (w_ctx w0) = None /\
    fold_left apply_event A fs = c_fs (w_ctx w0) /\
    forall pe, cpre pe A ->
      fold_left apply_event pe fs = fs \/ fold_left apply_event pe fs = c_fs (w_ctx w0).
Proof.
  intros Ho Hne Hr w0.
  change (two_state fs (w_ctx w0)). unfold w0, rd_into_writer. cbn [w_ctx].
  change (rd_ctx (fr_rd (rr_fr rr))) with (reader_ctx rr).
  pose proof (replay_loop_qext F F (rr_open rreaderS rd) []) as Hq. rewrite Hr in Hq.
  cbn [fst] in Hq. eapply two_state_qext; [|exact Hq].
  change (reader_ctx (rr_open rreaderS rd)) with (rd_ctx rd).
  eapply rd_open_two_state; eassumption.
Qed.

End Q.

Print Assumptions rd_open_events.
Print Assumptions open_read_events.
