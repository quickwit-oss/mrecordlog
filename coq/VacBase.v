(* VacBase.v — helpers for the vacuity audit (VacuityAudit.v and the other Vac files): bounded
   universal checks by computation, the length of an encoding as a function of (cursor mod block,
   payload length), bounds on what position entries can add to the stream (the shape of every
   `*_bound` hypothesis), and a version of RestartFinal.hrun_inv for histories of calls that also
   describes the ghost log.  Exports Tables.v, which the censuses of the audit are read from. *)
From Coq Require Import Lia ZArith ZifyN ZifyNat ZifyBool List.
From MRL Require Export Tables.
From MRL Require Import Bytes BytesProofs Params Names Frame Record Mem Spec Rolling Log Hist
  SpecRefine RecordProofs StreamProofs ResyncProofs GhostLog ReplaySpec RestartInv RestartWrite
  RestartStep OpenReplay RestartFinal.
Import ListNotations.

(* bounded universal quantification over N, decided by computation *)
Definition nrange (n : N) : list N := map N.of_nat (seq 0 (N.to_nat n)).

Lemma nrange_spec n i : i < n -> In i (nrange n).
Proof.
  intros H. unfold nrange. apply in_map_iff. exists (N.to_nat i). split; [lia|].
  apply in_seq. lia.
Qed.

Definition all_lt (n : N) (f : N -> bool) : bool := forallb f (nrange n).

Lemma all_lt_spec n f : all_lt n f = true -> forall i, i < n -> f i = true.
Proof.
  intros H i Hi. unfold all_lt in H. rewrite forallb_forall in H. apply H. now apply nrange_spec.
Qed.

Lemma s_get_in_names (m : smap) q v : s_get m q = Some v -> In q (map fst m).
Proof.
  induction m as [|[n v0] m IH]; cbn [s_get map fst]; [discriminate|].
  destruct (bytes_eqb n q) eqn:E.
  - intros _. left. now apply bytes_eqb_eq.
  - intros H. right. now apply IH.
Qed.

Lemma new_evs_unique {A} (l old evs evs' : list A) : l = rev evs ++ old -> l = rev evs' ++ old -> evs' = evs.
Proof.
  intros -> H. apply app_inv_tail in H. apply (f_equal (@rev A)) in H. now rewrite !rev_involutive in H.
Qed.

Section Enc.
Variable P : params.
Hypothesis HBS_lo : 7 < BS P.
Hypothesis HBS_hi : BS P <= 65542.
Hypothesis HNB : 1 <= NB P.
Hypothesis Hcrc : forall t p, crcf P t p < 2 ^ 32.

Local Notation B := (BS P).

Lemma enc_rel_len_indep a f p e k :
  enc_rel P a f p e k ->
  forall f' p', lenN p' = lenN p -> exists e', enc_rel P a f' p' e' k /\ lenN e' = lenN e.
Proof.
  induction 1 as [a f p Hd | a f p e k Hd Hr IH]; intros f' p' Hl.
  - assert (Ec : chunk_of P a p' = chunk_of P a p) by (unfold chunk_of; now rewrite Hl).
    assert (Hd' : dropN (chunk_of P a p') p' = []).
    { apply lenN_0_nil. rewrite lenN_dropN, Ec, Hl, <- lenN_dropN, Hd. reflexivity. }
    eexists. split; [apply ER_last; exact Hd'|].
    rewrite !(lenN_enc_last P HBS_lo HBS_hi Hcrc), Ec. reflexivity.
  - assert (Ec : chunk_of P a p' = chunk_of P a p) by (unfold chunk_of; now rewrite Hl).
    assert (Hd' : dropN (chunk_of P a p') p' <> []).
    { intros E. apply Hd. apply lenN_0_nil.
      rewrite lenN_dropN, <- Hl, <- Ec, <- lenN_dropN, E. reflexivity. }
    destruct (IH false (dropN (chunk_of P a p') p')) as (e' & Hr' & Hle).
    { rewrite !lenN_dropN, Ec, Hl. reflexivity. }
    rewrite <- Ec in Hr'.
    eexists. split; [apply ER_more; [exact Hd'|exact Hr']|].
    rewrite !(lenN_enc_more P HBS_lo HBS_hi Hcrc), Ec, Hle. reflexivity.
Qed.

Lemma enc_of_len_indep a p p' : lenN p' = lenN p -> lenN (enc_of P a p') = lenN (enc_of P a p).
Proof.
  intros Hl. destruct (enc_of_rel P HBS_lo HBS_hi Hcrc a p) as [k Hk].
  destruct (enc_rel_len_indep _ _ _ _ _ Hk true p' Hl) as (e' & Hr & Hle).
  now rewrite (enc_rel_enc_of P HBS_lo HBS_hi Hcrc _ _ _ _ Hr).
Qed.

(* K bounds the length of the encoding of each payload of ps at every cursor: checked on the
   residues 0 .. B-1 (RestartWrite.enc_of_mod) *)
Definition enc_len_ok (K : N) (ps : list bytes) : bool :=
  forallb (fun p => all_lt B (fun r => lenN (enc_of P r p) <=? K)) ps.

Lemma enc_len_ok_spec K ps : enc_len_ok K ps = true ->
  forall p p' a, In p ps -> lenN p' = lenN p -> lenN (enc_of P a p') <= K.
Proof.
  intros H p p' a Hin Hl. unfold enc_len_ok in H. rewrite forallb_forall in H.
  specialize (H p Hin). pose proof (all_lt_spec _ _ H (a mod B)) as H1. cbn beta in H1.
  rewrite (enc_of_len_indep a p p' Hl).
  rewrite <- (RestartWrite.enc_of_mod P HBS_lo HBS_hi HNB Hcrc a (a mod B) p) by (apply N.mod_mod; lia).
  assert (a mod B < B) by (apply N.mod_lt; lia). specialize (H1 H0). lia.
Qed.

Lemma cursor_after_bound K ps : enc_len_ok K ps = true ->
  forall es c, (forall e, In e es -> exists p, In p ps /\ lenN e = lenN p) ->
  cursor_after P c es <= c + K * N.of_nat (length es).
Proof.
  intros HK. induction es as [|e es IH]; intros c Hes.
  - rewrite (cursor_after_nil P HBS_lo HBS_hi). cbn [length]. lia.
  - rewrite (cursor_after_cons P HBS_lo HBS_hi Hcrc).
    destruct (Hes e (or_introl eq_refl)) as (p & Hp & Hl).
    pose proof (enc_len_ok_spec K ps HK p e c Hp Hl) as H1.
    pose proof (IH (c + lenN (enc_of P c e)) (fun e' H => Hes e' (or_intror H))) as H2.
    cbn [length]. lia.
Qed.

(* position entries for distinct queues taken from `names` (any positions) *)
Definition pos_ser (q : bytes) : bytes := entry_ser (EPosition q 0).

Lemma lenN_pos_ser q p : lenN (entry_ser (EPosition q p)) = lenN (pos_ser q).
Proof.
  unfold pos_ser. cbn [entry_ser]. unfold ser_raw.
  rewrite !lenN_cons, !lenN_app, !length_le_enc. reflexivity.
Qed.

Lemma pos_entries_bound names K c extra :
  enc_len_ok K (map pos_ser names) = true ->
  NoDup (map entry_queue extra) ->
  Forall (fun e => exists q p, e = EPosition q p /\ In q names) extra ->
  cursor_after P c (map entry_ser extra) <= c + K * N.of_nat (length names).
Proof.
  intros HK Hnd Hall.
  assert (Hlen : (length extra <= length names)%nat).
  { rewrite <- (map_length entry_queue extra). apply NoDup_incl_length; [exact Hnd|].
    intros q Hq. apply in_map_iff in Hq as (e & <- & He).
    rewrite Forall_forall in Hall. destruct (Hall e He) as (q & p & -> & Hin). exact Hin. }
  pose proof (cursor_after_bound K (map pos_ser names) HK (map entry_ser extra) c) as Hb.
  rewrite map_length in Hb.
  assert (Hes : forall e, In e (map entry_ser extra) ->
                          exists p, In p (map pos_ser names) /\ lenN e = lenN p).
  { intros e He. apply in_map_iff in He as (x & <- & Hx).
    rewrite Forall_forall in Hall. destruct (Hall x Hx) as (q & p & -> & Hin).
    exists (pos_ser q). split; [now apply in_map|apply lenN_pos_ser]. }
  specialize (Hb Hes). nia.
Qed.

(* the form taken by RestartFinal.pos_extra: the queues are those of the abstract state *)
Lemma pos_extra_bound (m : smap) K c extra :
  enc_len_ok K (map pos_ser (map fst m)) = true ->
  pos_extra m extra ->
  cursor_after P c (map entry_ser extra) <= c + K * N.of_nat (length m).
Proof.
  intros HK [Hnd Hall]. rewrite <- (map_length fst m).
  apply pos_entries_bound; [exact HK|exact Hnd|].
  eapply Forall_impl; [|exact Hall]. intros e (q & p & -> & Hg). exists q, p.
  split; [reflexivity|]. now apply s_get_in_names in Hg.
Qed.

Lemma restart_bound_by K st :
  enc_len_ok K (map pos_ser (map fst (abs_qs (s_qs st)))) = true ->
  wabs P (s_wr st) + K * N.of_nat (length (abs_qs (s_qs st))) <= FILE_BYTES P * (U64_MAX + 1) ->
  restart_bound P st.
Proof.
  intros HK Hb extra Hx. unfold phys_bound.
  pose proof (pos_extra_bound _ K (wabs P (s_wr st)) extra HK Hx). lia.
Qed.

End Enc.

Section RunLog.
Variable P : params.
Hypothesis HBS_lo : 7 < BS P.
Hypothesis HBS_hi : BS P <= 65542.
Hypothesis HNB : 1 <= NB P.
Hypothesis Hcrc : forall t p, crcf P t p < 2 ^ 32.
Hypothesis HGC : L_GC P = false.

Fixpoint calls_log (st : state) (h : list (op * bool)) : glog :=
  match h with
  | [] => []
  | (o, t) :: r => step_log P st o ++ calls_log (fst (step P st o t)) r
  end.

Definition hcalls_of (h : list (op * bool)) : list hop := map (fun ot => HCall (fst ot) (snd ot)) h.

Lemma calls_inv_log h : forall st G,
  Inv P st G -> hist_ok P st (hcalls_of h) ->
  exists G',
    Inv P (fst (run P st h)) G' /\ gh_base G' = gh_base G /\ gh_dropped G' = gh_dropped G /\
    gh_log G' = gh_log G ++ calls_log st h /\
    Forall no_io (snd (run P st h)).
Proof.
  induction h as [|[o t] h IH]; intros st G HI Hok.
  - exists G. cbn [run fst snd calls_log]. rewrite app_nil_r.
    split; [exact HI|]. split; [reflexivity|]. split; [reflexivity|]. split; [reflexivity|constructor].
  - cbn [hcalls_of map fst snd hist_ok] in Hok. destruct Hok as (Hop & Hb & Hok).
    pose proof (phys_stream_bound P HBS_lo HBS_hi HNB Hcrc _ _ _ (proj1 HI) Hb) as Hsb.
    pose proof (step_no_io P HBS_lo HBS_hi HNB Hcrc HGC st G o t HI Hop Hsb) as Hno.
    cbn [run calls_log].
    destruct (step P st o t) as [st1 out] eqn:Es. cbn [fst snd] in *.
    destruct (inv_step P HBS_lo HBS_hi HNB Hcrc HGC st G o t st1 out HI Hop Hsb Es)
      as (G1 & HI1 & Eb1 & Ed1 & El1); [exact Hno|].
    destruct (IH st1 G1 HI1 Hok) as (G2 & HI2 & Eb2 & Ed2 & El2 & Hno2).
    destruct (run P st1 h) as [st2 outs]. cbn [fst snd] in *.
    exists G2. split; [exact HI2|]. split; [congruence|]. split; [congruence|].
    split; [rewrite El2, El1, app_assoc; reflexivity|]. constructor; assumption.
Qed.

Lemma gh_E_nonempty st G q v :
  Inv P st G -> s_get (abs_qs (s_qs st)) q = Some v -> gh_E G <> [].
Proof.
  intros HI Hg E.
  destruct (inv_restart_equal P st G HI [] ltac:(now rewrite E)) as (qs' & Hr & _ & _ & Heq).
  rewrite E in Hr. cbn in Hr. injection Hr as <-. specialize (Heq q). rewrite Hg in Heq.
  discriminate.
Qed.

Lemma gh_E_names G q :
  In q (map entry_queue (map snd (gh_E G))) -> In q (map entry_queue (map snd (gh_log G))).
Proof.
  unfold gh_log. rewrite !map_app. intros H. apply in_or_app. now right.
Qed.
End RunLog.

Section Fresh.
Variable P : params.
Hypothesis HBS_lo : 7 < BS P.
Hypothesis HBS_hi : BS P <= 65542.
Hypothesis HNB : 1 <= NB P.
Hypothesis Hcrc : forall t p, crcf P t p < 2 ^ 32.
Hypothesis HGC : L_GC P = false.
Hypothesis HIO : L_IO P = false.

Lemma inv_hrun_fresh pol st0 h st outs :
  open P [] None pol [] = OpenOk st0 -> hist_ok P st0 h -> hrun P st0 h = Some (st, outs) ->
  exists G, Inv P st G /\ gh_base G = 0.
Proof.
  intros Ho Hok Hr.
  destruct (hrun_inv P HBS_lo HBS_hi HNB Hcrc HGC HIO h st0 gh_fresh (inv_fresh P HBS_lo HBS_hi HNB pol st0 Ho) Hok)
    as (st' & outs' & G & Er & HI & Eb & _).
  rewrite Hr in Er. injection Er as <- <-. now exists G.
Qed.
End Fresh.
