(* JRecoverS4.v — the stream of a crash image of a call issued from a state whose ghost stream
   already has a prefix PRE0 with pre_cont (junk-tolerant invariant).
   The image stream is  T ++ zeros (c0 - |T|) ++ takeN j (encs_of c0 xs) ++ zeros z  (T = PRE0
   followed by the clean encoding of es_new, xs the payloads of the call in flight, j bytes of
   their encoding present).  It is  PRE ++ zeros  where PRE has pre_cont again: PRE0, the clean
   encoding of es_new ++ xs_d (xs_d the completely present entries of xs), and what is left of
   the torn entry where that is not zeros: junk that may be entered at interior block boundaries
   (KJunk), or a run of complete frames ending at the end of the stream (KGap).  The admissible
   block boundaries do not change, and every block boundary at or below the end of the cut is at
   or below the first-frame position of the end of PRE. *)
From Coq Require Import Lia ZArith ZifyN ZifyNat ZifyBool List Sorted.
From MRL Require Import Bytes BytesProofs Params Frame Driver StreamProofs DamageProofs TornProofs
  ResyncProofs OpenTerm OpenReplay TornFile JunkStream KTail KWalk KJunk KAlign KGap.

Section RecoverS4.
Variable P : params.
Hypothesis HBS_lo : 7 < BS P.
Hypothesis HBS_hi : BS P <= 65542.
Hypothesis Hcrc : forall t p, crcf P t p < 2 ^ 32.
Hypothesis Hnc : no_zero_collision P.

Local Notation B := (BS P).
Local Notation ffp := (first_frame_pos P).
Local Notation encof := (enc_of P).
Local Notation encsof := (encs_of P).
Local Notation starts := (starts P).
Local Notation H3 f := (f P HBS_lo HBS_hi Hcrc) (only parsing).
Local Notation H2 f := (f P HBS_lo HBS_hi) (only parsing).
Local Notation pre_cont := (pre_cont P).

Lemma ceil_blockS a : exists m, a <= m * B /\ m * B < a + B.
Proof using HBS_lo HBS_hi.
  exists ((a + B - 1) / B).
  pose proof (N.div_mod (a + B - 1) B ltac:(lia)). pose proof (N.mod_lt (a + B - 1) B ltac:(lia)).
  split; lia.
Qed.

Lemma enc_rel_take_pad a f p e k j :
  enc_rel P a f p e k -> j <= lenN (pad_of P a) -> takeN j e = zerosN j.
Proof.
  intros He Hj.
  assert (Hpad : takeN j (pad_of P a) = zerosN j).
  { unfold pad_of in *. destruct (B - a mod B <? 7).
    - rewrite lenN_zerosN in Hj. apply FileStream.takeN_zerosN. exact Hj.
    - rewrite (@lenN_nil byte) in Hj. replace j with 0 by lia. reflexivity. }
  destruct He; rewrite takeN_app_le by exact Hj; exact Hpad.
Qed.

(* the encoding from a0 of es_all and then ys, when the cursor is moved to c0 inside the padding
   after es_all *)
Lemma encs_of_app_shift a0 (t0 : bytes) c0 es_all ys :
  encs_rel P a0 es_all t0 -> a0 + lenN t0 <= c0 -> c0 <= ffp (a0 + lenN t0) -> ys <> [] ->
  encsof a0 (es_all ++ ys) = t0 ++ zerosN (c0 - (a0 + lenN t0)) ++ encsof c0 ys.
Proof using HBS_lo HBS_hi Hcrc.
  intros HT Hlo Hhi Hne.
  rewrite (H3 encs_of_app), (H3 encs_rel_encs_of _ _ _ HT).
  rewrite (encs_of_shift P HBS_lo HBS_hi Hcrc (a0 + lenN t0) c0 ys Hlo Hhi Hne). reflexivity.
Qed.

(* TornFile.torn_normal from an arbitrary start cursor a0: the encoding t0 of es_all written from
   a0, the cursor moved to c0 inside the padding, and j bytes of the encoding of xs from c0, are
   either the encoding of es_all ++ xs from a0 and zeros, or the encoding of es_all ++ xs1 from a0
   and a strict prefix of the encoding of the next entry x, at the cursor a where the writer from
   a0 would have put it *)
Lemma torn_normal_from a0 (t0 : bytes) c0 es_all xs j :
  encs_rel P a0 es_all t0 -> a0 + lenN t0 <= c0 -> c0 <= ffp (a0 + lenN t0) ->
  j <= lenN (encsof c0 xs) ->
  let body := t0 ++ zerosN (c0 - (a0 + lenN t0)) ++ takeN j (encsof c0 xs) in
  (j = lenN (encsof c0 xs) /\
   exists z0,
     let t := encsof a0 (es_all ++ xs) in
     body = t ++ zerosN z0 /\ lenN t0 <= lenN t /\ a0 + lenN t <= c0 + j /\ c0 + j <= ffp (a0 + lenN t)) \/
  (exists xs1 x xs2 j',
     xs = xs1 ++ x :: xs2 /\
     let t := encsof a0 (es_all ++ xs1) in
     let a := a0 + lenN t in
     let e := encof a x in
     j' < lenN e /\ body = t ++ takeN j' e /\ a + j' = c0 + j /\
     lenN t0 <= lenN t /\ c0 <= ffp a /\
     a + lenN e <= c0 + lenN (encsof c0 xs) /\
     a0 + lenN (encsof a0 (es_all ++ xs)) = c0 + lenN (encsof c0 xs)).
Proof using HBS_lo HBS_hi Hcrc.
  intros HT Hlo Hhi Hj body.
  pose proof (H3 encs_rel_encs_of _ _ _ HT) as ET.
  set (aT := a0 + lenN t0) in *.
  pose proof (fun ys => encs_of_app_shift a0 t0 c0 es_all ys HT Hlo Hhi) as Eapp. fold aT in Eapp.
  assert (Elen : forall ys, ys <> [] -> a0 + lenN (encsof a0 (es_all ++ ys)) = c0 + lenN (encsof c0 ys)).
  { intros ys Hne. rewrite (Eapp ys Hne), !lenN_app, lenN_zerosN. unfold aT in *. lia. }
  destruct (cut_split P HBS_lo HBS_hi Hcrc xs c0 j Hj) as [Hend | (xs1 & x & xs2 & Hxs & Hle & Hlt & Htk)].
  - left. split; [exact Hend|]. unfold body. rewrite Hend, takeN_all by lia. cbv zeta.
    destruct xs as [|p ps].
    + exists (c0 - aT). cbn [ResyncProofs.encs_of]. rewrite !app_nil_r, ET, (@lenN_nil byte).
      fold aT. split; [reflexivity|]. lia.
    + exists 0. rewrite (Elen (p :: ps)), (Eapp (p :: ps)) by discriminate. cbn [zerosN].
      rewrite !app_nil_r, lenN_app.
      pose proof (H2 ffp_ge (c0 + lenN (encsof c0 (p :: ps)))).
      split; [reflexivity|]. lia.
  - right.
    assert (Hxne : xs <> []) by (rewrite Hxs; destruct xs1; discriminate).
    assert (Hxslen : lenN (encsof c0 xs1) + lenN (encof (c0 + lenN (encsof c0 xs1)) x) <= lenN (encsof c0 xs)).
    { rewrite Hxs, (H3 encs_of_app), lenN_app. cbn [ResyncProofs.encs_of]. rewrite lenN_app. lia. }
    pose proof (Elen xs Hxne) as Etot.
    destruct xs1 as [|p1 ps1].
    + exists [], x, xs2, (c0 - aT + j). split; [exact Hxs|].
      cbn [ResyncProofs.encs_of] in *. rewrite (@lenN_nil byte), N.add_0_r, N.sub_0_r in *.
      rewrite !app_nil_r, ET. cbv zeta. fold aT.
      rewrite (enc_of_shift P HBS_lo HBS_hi Hcrc aT c0 x Hlo Hhi).
      rewrite !lenN_app, lenN_zerosN.
      split; [lia|]. split.
      { unfold body. rewrite Htk. cbn [app]. rewrite takeN_app_ge by (rewrite lenN_zerosN; lia).
        rewrite lenN_zerosN. do 3 f_equal. lia. }
      split; [lia|]. split; [lia|]. split; [exact Hhi|]. split; [lia|]. exact Etot.
    + exists (p1 :: ps1), x, xs2, (j - lenN (encsof c0 (p1 :: ps1))). split; [exact Hxs|].
      cbv zeta. rewrite (Elen (p1 :: ps1)), (Eapp (p1 :: ps1)) by discriminate.
      set (t1 := encsof c0 (p1 :: ps1)) in *.
      split; [lia|]. split.
      { unfold body. rewrite Htk, <- !app_assoc. reflexivity. }
      split; [lia|]. split; [rewrite !lenN_app; lia|].
      split; [pose proof (H2 ffp_ge (c0 + lenN t1)); lia|]. split; [lia|]. exact Etot.
Qed.

Theorem crash_stream_cut PRE0 ops0 opos0 adm0 cmax0 rm0 (es_new : list bytes) c0 xs j z (S_all : bytes) :
  pre_cont PRE0 ops0 opos0 adm0 cmax0 rm0 -> rm0 <= 7 ->
  let a0 := lenN PRE0 in
  let T := PRE0 ++ encsof a0 es_new in
  lenN T <= c0 -> c0 <= ffp (lenN T) -> j <= lenN (encsof c0 xs) ->
  S_all = T ++ zerosN (c0 - lenN T) ++ takeN j (encsof c0 xs) ++ zerosN z ->
  stream_ok P S_all ->
  j = lenN (encsof c0 xs) \/ (no_zero_collision P /\ c0 + j + B <= lenN S_all) \/ c0 + j = lenN S_all ->
  lenN PRE0 + rm0 <= lenN S_all ->
  exists xs_d xs_r PRE cmax rm zz,
    xs = xs_d ++ xs_r /\
    pre_cont PRE (ops0 ++ es_new ++ xs_d) (opos0 ++ starts a0 (es_new ++ xs_d)) adm0 cmax rm /\
    S_all = PRE ++ zerosN zz /\ lenN PRE + rm <= lenN S_all /\
    (cmax <= Datatypes.S cmax0)%nat /\ rm <= 7 /\
    (forall m, m * B <= c0 + j -> m * B <= ffp (lenN PRE)) /\
    lenN T <= lenN PRE /\ c0 <= ffp (lenN PRE) /\
    a0 + lenN (encsof a0 (es_new ++ xs_d)) <= lenN PRE /\
    lenN PRE <= a0 + lenN (encsof a0 (es_new ++ xs)) + B /\
    (xs_r <> [] -> j < lenN (encsof c0 xs)).
Proof using HBS_lo HBS_hi Hcrc.
  intros Hpc0 Hrm0 a0 T Hlo Hhi Hj HS Hok Hcase Hroom0.
  set (t0 := encsof a0 es_new) in *.
  assert (HlT : lenN T = a0 + lenN t0) by (unfold T; rewrite lenN_app; reflexivity).
  rewrite HlT in *.
  assert (HSb : S_all = PRE0 ++ (t0 ++ zerosN (c0 - (a0 + lenN t0)) ++ takeN j (encsof c0 xs)) ++ zerosN z).
  { rewrite HS. unfold T. rewrite <- !app_assoc. reflexivity. }
  assert (Hclean : forall es rm', rm0 <= lenN (encsof a0 es) + rm' ->
            pre_cont (PRE0 ++ encsof a0 es) (ops0 ++ es) (opos0 ++ starts a0 es) adm0 cmax0 rm').
  { intros es rm' Hr.
    exact (pre_cont_clean P HBS_lo HBS_hi Hcrc PRE0 ops0 opos0 adm0 cmax0 rm0 es (encsof a0 es) rm'
             Hpc0 (H3 encs_of_rel es a0) Hr). }
  clear HS Hpc0.
  destruct (torn_normal_from a0 t0 c0 es_new xs j (H3 encs_of_rel es_new a0) Hlo Hhi Hj)
    as [(Hend & z0 & Hbody & Ht0t & Hta & Hffp)
       | (xs1 & x & xs2 & j' & Hxs & Hj' & Hbody & Hcj & Ht0t & Hct & Hae & Etot)];
    cbv zeta in *.
  - (* nothing is torn *)
    set (t := encsof a0 (es_new ++ xs)) in *.
    assert (HS' : S_all = (PRE0 ++ t) ++ zerosN (z0 + z)).
    { rewrite HSb, Hbody, <- !app_assoc, (BytesProofs.zerosN_app z0 z). reflexivity. }
    assert (HlS : lenN S_all = a0 + lenN t + (z0 + z)).
    { rewrite HS', !lenN_app, lenN_zerosN. fold a0. lia. }
    exists xs, [], (PRE0 ++ t), cmax0, (rm0 - lenN t), (z0 + z).
    split; [now rewrite app_nil_r|]. split; [apply Hclean; fold t; lia|]. split; [exact HS'|].
    rewrite lenN_app. fold a0. fold a0 in Hroom0. clear HSb Hbody HS' Hclean Hcase Hok.
    split; [lia|]. split; [lia|]. split; [lia|]. split; [intros m Hm; lia|].
    split; [lia|]. split; [lia|]. split; [fold t; lia|]. split; [fold t; lia|].
    intros H; now destruct H.
  - set (t := encsof a0 (es_new ++ xs1)) in *.
    set (a := a0 + lenN t) in *.
    set (e := encof a x) in *.
    assert (HS' : S_all = (PRE0 ++ t) ++ takeN j' e ++ zerosN z).
    { rewrite HSb, Hbody, <- !app_assoc. reflexivity. }
    assert (HlP : lenN (PRE0 ++ t) = a) by (rewrite lenN_app; reflexivity).
    assert (HlS : lenN S_all = a + j' + z).
    { rewrite HS', !lenN_app, lenN_takeN, lenN_zerosN. fold a0. unfold a. lia. }
    assert (Hta : a0 + lenN t0 <= a) by (unfold a; lia).
    fold a0 in Hroom0. clear HSb Hbody Ht0t.
    destruct (H3 enc_of_rel a x) as [k Hk]. fold e in Hk.
    destruct Hcase as [Hall | [(Hnc' & Hfit) | Hend0]]; [exfalso; lia| |].
    + (* the cut leaves a whole block before the end of the stream *)
      destruct (all_zero (dropN j' e)) eqn:Hz.
      * (* the missing bytes are zeros: the entry is completely there *)
        pose proof (zero_tail_short P HBS_lo HBS_hi Hcrc a true x e k Hk j' ltac:(lia) Hz) as Htail.
        assert (He : takeN j' e ++ zerosN (lenN e - j') = e)
          by (apply (TornProofs.all_zero_drop_iff e j'); [lia|exact Hz]).
        assert (Ete : t ++ e = encsof a0 (es_new ++ xs1 ++ [x])).
        { rewrite app_assoc, (H3 encs_of_app). fold t. cbn [ResyncProofs.encs_of].
          rewrite app_nil_r. reflexivity. }
        assert (HS'' : S_all = (PRE0 ++ encsof a0 (es_new ++ xs1 ++ [x])) ++ zerosN (z - (lenN e - j'))).
        { rewrite HS'. rewrite (TornProofs.zerosN_split z (lenN e - j')) by lia.
          rewrite <- Ete, <- !app_assoc. do 2 f_equal. rewrite app_assoc, He. reflexivity. }
        exists (xs1 ++ [x]), xs2, (PRE0 ++ encsof a0 (es_new ++ xs1 ++ [x])), cmax0, rm0,
               (z - (lenN e - j')).
        split; [rewrite Hxs, <- app_assoc; reflexivity|].
        split; [apply Hclean; lia|]. split; [exact HS''|].
        rewrite lenN_app, <- Ete, lenN_app. fold a0.
        replace (a0 + (lenN t + lenN e)) with (a + lenN e) by (unfold a; lia).
        pose proof (H2 ffp_ge (a + lenN e)) as Hge.
        pose proof (ffp_mono_r P HBS_lo HBS_hi a (a + lenN e) ltac:(lia)) as Hmono.
        clear HS' HS'' He Hz Hclean Hok Hk Ete.
        split; [lia|]. split; [lia|]. split; [lia|]. split; [intros m Hm; lia|].
        split; [lia|]. split; [lia|]. split; [lia|]. split; [lia|].
        intros _. lia.
      * (* junk *)
        destruct (junk_of_torn2 P HBS_lo HBS_hi Hcrc a x e k j' Hnc' Hk Hj' Hz)
          as (r & W & Hjunk & Hspec & Hup & Hlow).
        destruct (ceil_blockS (a + j')) as (mb & Hmb1 & Hmb2).
        assert (Hr1 : r <= mb * B) by (apply Hup; exact Hmb1).
        destruct Hok as [ms Hms].
        assert (Hmbs : (mb + 1) * B <= ms * B)
          by (apply (H2 TornProofs.blocks_above ms mb 1); lia).
        assert (HS'' : S_all = ((PRE0 ++ t) ++ W) ++ zerosN (a + j' + z - r)).
        { rewrite HS', <- !app_assoc. do 2 f_equal. apply Hspec. lia. }
        pose proof Hjunk as ((Har & HlW & _) & _).
        assert (HlPRE : lenN ((PRE0 ++ t) ++ W) = r) by (rewrite lenN_app, HlP; lia).
        rewrite <- HlP in Hjunk.
        pose proof (pre_cont_junk2 P HBS_lo HBS_hi Hcrc (PRE0 ++ t) (ops0 ++ es_new ++ xs1)
                      (opos0 ++ starts a0 (es_new ++ xs1)) adm0 cmax0 rm0 r W
                      (Hclean (es_new ++ xs1) rm0 ltac:(lia)) Hjunk ltac:(rewrite HlP; lia)) as Hpc.
        exists xs1, (x :: xs2), ((PRE0 ++ t) ++ W), (Datatypes.S cmax0), 7, (a + j' + z - r).
        split; [exact Hxs|]. split; [exact Hpc|]. split; [exact HS''|].
        rewrite HlPRE.
        pose proof (H2 ffp_ge r) as Hge.
        pose proof (ffp_mono_r P HBS_lo HBS_hi a r Har) as Hmono.
        clear HS' HS'' Hz Hclean Hk Hjunk Hpc Hspec Hup.
        split; [lia|]. split; [lia|]. split; [lia|].
        split; [intros m Hm; specialize (Hlow m); lia|].
        split; [lia|]. split; [lia|]. split; [fold t; fold a; lia|]. split; [lia|].
        intros _. lia.
    + (* the cut ends at the end of the stream *)
      destruct Hok as [ms Hms].
      assert (Haj : a + j' = ms * B) by lia.
      destruct (N.lt_ge_cases (ffp a) (ms * B)) as [Hin|Hout].
      * (* some complete frames of x are there, up to the end of the stream *)
        pose proof (pjunk_of_aligned P HBS_lo HBS_hi Hcrc a x e k j' ms Hk Hj' Haj Hin) as Hpj.
        rewrite <- HlP in Hpj.
        pose proof (pre_cont_pjunk P HBS_lo HBS_hi Hcrc (PRE0 ++ t) (ops0 ++ es_new ++ xs1)
                      (opos0 ++ starts a0 (es_new ++ xs1)) adm0 cmax0 rm0 (ms * B) (takeN j' e)
                      (Hclean (es_new ++ xs1) rm0 ltac:(lia)) Hpj Hrm0) as Hpc.
        assert (HlPRE : lenN ((PRE0 ++ t) ++ takeN j' e) = ms * B) by (rewrite lenN_app, HlP, lenN_takeN; lia).
        exists xs1, (x :: xs2), ((PRE0 ++ t) ++ takeN j' e), cmax0, 0, z.
        split; [exact Hxs|]. split; [exact Hpc|].
        split; [rewrite HS', <- !app_assoc; reflexivity|].
        rewrite HlPRE. pose proof (H2 ffp_ge (ms * B)) as Hger.
        clear HS' Hclean Hk Hpj Hpc.
        split; [lia|]. split; [lia|]. split; [lia|]. split; [intros m Hm; lia|].
        split; [lia|]. split; [lia|]. split; [fold t; fold a; lia|]. split; [lia|].
        intros _. lia.
      * (* nothing of x but pad zeros *)
        assert (Hjp : j' <= lenN (pad_of P a)) by (unfold first_frame_pos in Hout; lia).
        pose proof (enc_rel_take_pad a true x e k j' Hk Hjp) as Etk.
        assert (HS'' : S_all = (PRE0 ++ t) ++ zerosN (j' + z)).
        { rewrite HS', Etk, (BytesProofs.zerosN_app j' z). reflexivity. }
        exists xs1, (x :: xs2), (PRE0 ++ t), cmax0, (rm0 - lenN t), (j' + z).
        split; [exact Hxs|]. split; [apply Hclean; fold t; lia|]. split; [exact HS''|].
        rewrite HlP. pose proof (H2 ffp_ge a) as Hgea.
        clear HS' HS'' Hclean Hk Etk.
        split; [unfold a in *; lia|]. split; [lia|]. split; [lia|]. split; [intros m Hm; lia|].
        split; [lia|]. split; [lia|]. split; [fold t; fold a; lia|]. split; [lia|].
        intros _. lia.
Qed.

(* the cut leaves a whole block before the end of the image stream *)
Theorem crash_stream_preK2 PRE0 ops0 opos0 adm0 cmax0 rm0 (es_new : list bytes) c0 xs j z (S_all : bytes) :
  pre_cont PRE0 ops0 opos0 adm0 cmax0 rm0 -> rm0 <= 7 ->
  let a0 := lenN PRE0 in
  let T := PRE0 ++ encsof a0 es_new in
  lenN T <= c0 -> c0 <= ffp (lenN T) -> j <= lenN (encsof c0 xs) ->
  S_all = T ++ zerosN (c0 - lenN T) ++ takeN j (encsof c0 xs) ++ zerosN z ->
  stream_ok P S_all ->
  c0 + j + B <= lenN S_all ->
  exists xs_d xs_r PRE cmax rm zz,
    xs = xs_d ++ xs_r /\
    pre_cont PRE (ops0 ++ es_new ++ xs_d) (opos0 ++ starts a0 (es_new ++ xs_d)) adm0 cmax rm /\
    S_all = PRE ++ zerosN zz /\ lenN PRE + rm <= lenN S_all /\
    (cmax <= Datatypes.S cmax0)%nat /\ rm <= 7 /\
    (forall m, m * B <= c0 + j -> m * B <= ffp (lenN PRE)) /\
    lenN T <= lenN PRE /\ c0 <= ffp (lenN PRE) /\
    a0 + lenN (encsof a0 (es_new ++ xs_d)) <= lenN PRE /\
    lenN PRE <= a0 + lenN (encsof a0 (es_new ++ xs)) + B /\
    (xs_r <> [] -> j < lenN (encsof c0 xs)).
Proof.
  intros Hpc0 Hrm0 a0 T Hlo Hhi Hj HS Hok Hfit.
  apply (crash_stream_cut PRE0 ops0 opos0 adm0 cmax0 rm0 es_new c0 xs j z S_all Hpc0 Hrm0 Hlo Hhi Hj HS Hok);
    [right; left; split; [exact Hnc|exact Hfit]|].
  unfold T in Hlo. rewrite lenN_app in Hlo. lia.
Qed.

End RecoverS4.

Print Assumptions crash_stream_preK2.
