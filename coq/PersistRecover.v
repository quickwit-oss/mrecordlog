(* PersistRecover.v — recovery from the crash images of a segment of a history (from an anchor: a
   state satisfying the restart invariant with nothing buffered):
   torn_recover / tinv_recover: a crash before any unlink (open_torn + prefix_state + kept_replay
   + the recovery-time GC);  unlink_recover: a crash among the unlinks of a garbage collection
   (gc_partial + inv_reopen). *)
From Coq Require Import Lia ZArith ZifyN ZifyNat ZifyBool List Sorted.
From MRL Require Import Bytes BytesProofs Params Names NamesProofs Frame Record Mem Spec Rolling Log
  Driver Hist SpecRefine RecordProofs StreamProofs PolicyProofs GcProofs GhostLog ReplaySpec
  HandleProofs FileStream ResyncProofs TornProofs PersistProofs WriterProofs EffectsProofs
  RestartInv RestartWrite RestartGc RestartStep OpenReplay RestartFinal TornFile CrashTrace
  PersistTrace PersistGc PersistLogic.

Lemma nth_error_split_last {A} (l : list A) m x :
  length l = S m -> nth_error l m = Some x -> l = firstn m l ++ [x].
Proof.
  revert m. induction l as [|a l IH]; intros m Hl Hn; [discriminate|].
  destruct m as [|m]; cbn [length firstn nth_error app] in *.
  - injection Hn as ->. destruct l; [reflexivity|discriminate].
  - f_equal. apply IH; [lia|exact Hn].
Qed.

Lemma torn_abs_arith (FBk Bk base lo nfl wf wo ln f1o wf0 wo0 pf j : N) :
  0 < Bk -> base <= lo -> lo <= wf0 ->
  nfl + lo = wf + 1 -> 1 <= nfl ->
  wf * FBk + wo + ln = f1o ->
  j <= ln ->
  (wf0 - base) * FBk + wo0 = pf ->
  (forall m, (lo - base) * FBk + ((nfl - 1) * FBk + wo) + j <= m * Bk ->
             (lo - base) * FBk <= m * Bk -> pf <= m * Bk) ->
  wf0 * FBk + wo0 <= f1o + Bk.
Proof.
  intros HB Hbase Hlo0 Hn Hn1 Hposeq Hj Hpos0 Hup.
  set (c0 := (lo - base) * FBk + ((nfl - 1) * FBk + wo)) in *.
  assert (Ec0 : base * FBk + c0 = wf * FBk + wo).
  { unfold c0. replace (nfl - 1) with (wf - lo) by lia.
    assert (E : wf * FBk = base * FBk + (lo - base) * FBk + (wf - lo) * FBk).
    { rewrite <- !N.mul_add_distr_r. f_equal. lia. }
    lia. }
  assert (Hbc0 : (lo - base) * FBk <= c0) by (unfold c0; apply N.le_add_r).
  clearbody c0.
  set (cend := c0 + ln).
  pose proof (N.div_mod cend Bk ltac:(lia)) as Hdm.
  pose proof (N.mod_lt cend Bk ltac:(lia)) as Hml.
  set (qq := cend / Bk) in *.
  assert (Eq1 : (qq + 1) * Bk = Bk * qq + Bk).
  { rewrite N.mul_add_distr_r, N.mul_1_l, (N.mul_comm qq Bk). reflexivity. }
  assert (Hpf : pf <= (qq + 1) * Bk).
  { apply Hup; rewrite Eq1; unfold cend in Hdm; lia. }
  assert (E0 : wf0 * FBk = base * FBk + (wf0 - base) * FBk).
  { rewrite <- N.mul_add_distr_r. f_equal. lia. }
  unfold cend in Hdm. lia.
Qed.

Section PSurvive.
Variable P : params.
Hypothesis HBS_lo : 7 < BS P.
Hypothesis HBS_hi : BS P <= 65542.
Hypothesis HNB : 1 <= NB P.
Hypothesis Hcrc : forall t p, crcf P t p < 2 ^ 32.
Hypothesis HGC : L_GC P = false.
Hypothesis HIO : L_IO P = false.
Hypothesis HSHORT : L_SHORT P = false.
Hypothesis Hnc : no_zero_collision P.

Local Notation B := (BS P).
Local Notation FB := (FILE_BYTES P).
Local Notation ffp := (first_frame_pos P).
Local Notation encs_of := (encs_of P).
Local Notation cursor_after := (cursor_after P).
Local Notation sr := (map entry_ser).
Local Notation HW f := (f P HBS_lo HBS_hi HNB Hcrc) (only parsing).
Local Notation HG f := (f P HBS_lo HBS_hi HNB Hcrc HGC) (only parsing).
Local Notation HN f := (f P HBS_lo HBS_hi HNB) (only parsing).
Local Notation H3 f := (f P HBS_lo HBS_hi Hcrc) (only parsing).
Local Notation H2 f := (f P HBS_lo HBS_hi) (only parsing).
Local Notation Inv := (Inv P).
Local Notation PInv := (PInv P).
Local Notation stream_bound := (stream_bound P).
Local Notation absq st := (abs_qs (s_qs st)).
Local Notation MAXB := (FB * (U64_MAX + 1)).
Local Notation stN st h m := (fst (run P st (firstn m h))).

(* the recovery-time garbage collector has room for its position entries: from any position up
   to one block after A, for the empty queues of the state after any prefix of the history *)
Definition crash_bound_at (st_g : state) (h_all : list (op * bool)) (A : N) : Prop :=
  forall a extra m, (m <= length h_all)%nat -> a <= A + B ->
    pos_extra (absq (stN st_g h_all m)) extra ->
    cursor_after a (sr extra) <= MAXB.

Lemma torn_recover st_g G_g h_all NEW f1 off1 wevs tail pe pol hint :
  Inv st_g G_g -> w_pending (s_wr st_g) = [] ->
  hist_wf P st_g h_all -> stream_bound G_g (map snd (run_log P st_g h_all)) ->
  let w := s_wr st_g in
  NEW = encs_of (wpos P w) (sr (map snd (run_log P st_g h_all))) ->
  wtrace P (w_file w) (w_off w) wevs NEW f1 off1 -> Forall noop_ev tail -> f1 <= U64_MAX ->
  cpre pe (wevs ++ tail) ->
  (forall m, (m < length h_all)%nat -> wlo (s_wr (stN st_g h_all m)) = wlo w) ->
  (forall pre o t, h_all = pre ++ [(o, t)] -> mid_state P (fst (run P st_g pre)) o = None ->
     wlo (s_wr (fst (run P st_g h_all))) = wlo w) ->
  crash_bound_at st_g h_all (f1 * FB + off1) ->
  exists m st_r,
    (m <= length h_all)%nat /\
    open P (fold_left apply_event pe (c_fs (w_ctx w))) None pol hint = OpenOk st_r /\
    (forall q, s_get (absq st_r) q = s_get (absq (stN st_g h_all m)) q).
Proof.
  intros HI Hp0 Hwf Hb w ENEW Htr Htail Hu' Hc Hwlo_int Hwlo_fin Hcb.
  pose proof HI as (HP & HL).
  destruct (anchor_shape_plain P HBS_lo HBS_hi HNB Hcrc w G_g NEW f1 off1 wevs tail pe
              HP Hp0 Htr Htail Hu' Hc)
    as (hi & short & z & Hlohi & Hf0hi & Hhif1 & Hhiu & Hndi & Hdiri & Hlisti & Hfilesi & Hshorti &
        Hdata & Hj & Hstr & Hlen & Hfreshi & Hlast).
  cbn zeta in *.
  set (img := fold_left apply_event pe (c_fs (w_ctx w))) in *.
  set (lo := wlo w) in *. set (base := gh_base G_g) in *.
  set (T := gh_T P G_g) in *. set (c0 := (lo - base) * FB + wpos P w) in *.
  set (j := lenN (ev_data pe)) in *.
  set (X := map snd (run_log P st_g h_all)) in *.
  pose proof HP as (Hw & _ & _ & Hbase0 & Hc10 & Hc20 & _ & HWf & _). cbn zeta in Hc10, Hc20.
  assert (Hbase : base <= lo) by exact Hbase0.
  assert (Hc1 : lenN T <= c0) by exact Hc10.
  assert (Hc2 : c0 <= ffp (lenN T)) by exact Hc20.
  clear Hbase0 Hc10 Hc20.
  set (n := N.to_nat (hi - lo)).
  assert (Ehi : lo + N.of_nat n = hi) by (unfold n; lia).
  assert (Efl : nfiles lo hi = iota lo (S n)) by reflexivity.
  assert (ENEW' : NEW = encs_of c0 (sr X)).
  { rewrite ENEW. unfold c0. symmetry. apply (HW encs_of_shift). apply (HN mulFB_mod). }
  (* the hypotheses of open_torn *)
  assert (Hfiles : forall f, In f (iota lo (S n)) ->
            exists b, fs_get img (filename f) = Some (FFile b) /\ lenN b <= FB /\
                      (f <> lo + N.of_nat n -> lenN b = FB)).
  { intros f Hin. apply iota_In in Hin. destruct (Hfilesi f ltac:(lia)) as (b & Hgb & Hl).
    exists b. split; [exact Hgb|]. rewrite Ehi.
    destruct (N.eqb_spec f hi) as [->|Hne].
    - split; [destruct short; cbn [andb] in Hl; lia|]. intros H; now destruct H.
    - rewrite andb_false_r in Hl. split; [lia|]. intros _. exact Hl. }
  assert (HwfX : Forall wf_entry X).
  { destruct (run_log_wf P h_all st_g (Inv_qs_wf P _ _ HI) Hwf) as [H _].
    unfold X. unfold log_wf in H. clear - H. induction H; constructor; assumption. }
  assert (Henc : encs_rel P 0 (sr (gh_ALL G_g)) T) by (apply (H3 encs_of_rel)).
  assert (Hbc0 : (lo - base) * FB <= c0) by (unfold c0; lia).
  assert (Hj' : j <= lenN (encs_of c0 (sr X))) by (rewrite <- ENEW'; exact Hj).
  rewrite Efl in Hlisti, Hstr.
  assert (Hfsx : zext P img hi = fs_ext P img lo n) by (unfold zext, fs_ext; now rewrite Ehi).
  rewrite Hfsx, ENEW' in Hstr.
  assert (HlenS : lenN (T ++ zerosN (c0 - lenN T) ++ takeN j (encs_of c0 (sr X)) ++ zerosN z) =
                  (lo + N.of_nat n - base + 1) * FB).
  { rewrite !lenN_app, !lenN_zerosN, lenN_takeN. rewrite Ehi.
    rewrite N.min_l by exact Hj'.
    assert (E : hi - base + 1 = hi + 1 - base) by lia. rewrite E. lia. }
  destruct (open_torn P HBS_lo HBS_hi HNB Hcrc Hnc img lo n Hlisti Hfiles base Hbase
              (gh_ALL G_g) X T c0 j z pol hint HIO HSHORT HWf HwfX Henc Hc1 Hc2 Hbc0 Hj' Hstr HlenS)
    as (w0 & tags & E_pre & E_suf & X1 & Xr & Xd & pf & HE & _ & Hsuf & HX & Hle & HXr & HXd &
        Hspec & Hpf1 & _ & _ & Hup & _ & Hopen).
  assert (HXp : exists Xrest, X = Xd ++ Xrest /\ (Xr = [] -> Xrest = [])).
  { destruct HXd as [->|(x & X2 & -> & -> & _)].
    - exists Xr. split; [exact HX|auto].
    - exists X2. split; [rewrite HX, <- app_assoc; reflexivity|discriminate]. }
  destruct HXp as (Xrest & HXp & HXrest).
  destruct (map_app_inv snd (run_log P st_g h_all) Xd Xrest HXp) as (l1 & l2 & Hl & Hl1 & Hl2).
  destruct (prefix_state P HBS_lo HBS_hi HNB Hcrc HGC h_all st_g G_g l1 l2 HI Hwf Hb Hl)
    as (m & st_x & G_x & Hm & HIx & Ebx & Edx & Elx & Hqx & Hm0 & Halt).
  assert (Hlox : wlo (s_wr st_x) = lo).
  { destruct Halt as [(-> & Hmid)|(m' & -> & Hw')].
    - destruct (Nat.eq_dec m (length h_all)) as [->|Hne]; [|apply Hwlo_int; clear - Hne Hm; lia].
      rewrite firstn_all. destruct h_all as [|c h'] eqn:Eh; [reflexivity|]. rewrite <- Eh in *.
      assert (Hlen1 : length h_all = S (length h')) by (rewrite Eh; reflexivity).
      destruct (nth_error h_all (length h')) as [[o t]|] eqn:En.
      2:{ apply nth_error_None in En. clear - En Hlen1. lia. }
      pose proof (nth_error_split_last h_all _ _ Hlen1 En) as Esp.
      apply (Hwlo_fin _ o t Esp). apply (Hmid (length h') o t); [exact Hlen1|exact En].
    - rewrite Hw'. apply Hwlo_int. clear - Hm. lia. }
  assert (EALL : gh_ALL G_x = E_pre ++ (E_suf ++ Xd)).
  { unfold gh_ALL. rewrite Edx, Elx, map_app, Hl1, app_assoc. fold (gh_ALL G_g). now rewrite HE, <- app_assoc. }
  assert (Hdel : sr (E_suf ++ Xd) =
                 delivered_from P ((wlo (s_wr st_x) - gh_base G_x) * FB) 0 (sr (gh_ALL G_x))).
  { rewrite Hlox, Ebx. fold base. rewrite EALL, app_assoc, <- HE, !map_app.
    destruct (delivered_from_app P HBS_lo HBS_hi Hcrc ((lo - base) * FB) (sr (gh_ALL G_g)) 0 (sr Xd))
      as [Ed _].
    - rewrite (HN cursor_after_0). fold (gh_ser G_g). fold (gh_T P G_g). fold T. clear - Hbc0 Hc2. lia.
    - rewrite Ed, Hsuf. reflexivity. }
  assert (Htl : length tags = length (E_suf ++ Xd)).
  { destruct Hspec as (Hlt & _). rewrite Hlt, starts_length, map_length. reflexivity. }
  destruct (kept_replay P HBS_lo HBS_hi HNB Hcrc st_x G_x E_pre (E_suf ++ Xd) tags HIx EALL Hdel Htl)
    as (qs' & Hrep & Hqi & Hnd' & Heq).
  rewrite Hrep in Hopen.
  destruct Hspec as (_ & _ & _ & _ & Hfl0 & Hlo0 & Hhi0 & Hoff0 & Hpos0 & Hpend0 & Hfs0 & Hplan0).
  set (st_r0 := mkSt w0 qs' pol).
  assert (Hrinv : rinvx P lo (s_wr st_r0)).
  { exists n. cbn [st_r0 s_wr].
    split; [exact Hfl0|]. split; [exact Hlo0|]. split; [exact Hhi0|]. split; [clear - Hhi0 Ehi Hhiu; lia|].
    split; [exact Hplan0|]. split; [apply wf_nil; exact Hpend0|]. split; [exact Hoff0|].
    rewrite (vfs_nil w0 Hpend0), Hfs0. unfold fs_ext. rewrite Ehi. split.
    - intros f Hf. destruct (N.eq_dec f hi) as [->|Hne].
      + eexists. apply PolicyProofs.fs_get_put_same.
      + rewrite GcProofs.fs_get_put_other by (apply filename_neq; clear - Hf Hne Hhiu; lia).
        destruct (Hfilesi f ltac:(clear - Hf; lia)) as (b & Hgb & _). now exists b.
    - intros f H1 H2'.
      rewrite GcProofs.fs_get_put_other by (apply filename_neq; clear - H1 H2' Hhiu; lia).
      apply Hfreshi; clear - H1 H2'; lia. }
  assert (Hex : pos_extra (absq (stN st_g h_all m)) (map snd (gc_log P st_r0 hint))).
  { apply (pos_extra_ext (abs_qs qs')); [intros q; now rewrite Heq, Hqx|].
    exact (gc_log_pos_extra P st_r0 hint Hnd'). }
  assert (Hbd : cursor_after (wabs P (s_wr st_r0)) (sr (map snd (gc_log P st_r0 hint))) <= MAXB).
  { apply (Hcb _ _ m Hm); [|exact Hex]. cbn [st_r0 s_wr]. unfold wabs.
    (* the recovered position is at most one block after the end of the data *)
    pose proof Hw as (Hok & _ & Hoff & _).
    destruct (wr_ok_len P (HN HB0) HNB w Hok) as (Hn & Hn1). fold lo in Hn.
    destruct (HW wtrace_pos _ _ _ _ _ _ Htr Hoff) as (_ & Hposeq).
    exact (torn_abs_arith FB B base lo (lenN (w_files w)) (w_file w) (w_off w) (lenN NEW)
             (f1 * FB + off1) (w_file w0) (w_off w0) pf j (N.lt_trans 0 7 B eq_refl HBS_lo)
             Hbase Hlo0 Hn Hn1 Hposeq Hj Hpos0 Hup). }
  destruct (rgc_ok P HBS_lo HBS_hi HNB Hcrc HGC lo st_r0 hint Hrinv Hpend0 Hbd)
    as (st_r & k & Egc & Eqs & _).
  exists m, st_r. split; [exact Hm|]. split.
  { rewrite Hopen. unfold open_finish. fold st_r0. now rewrite Egc. }
  intros q. rewrite Eqs. cbn [st_r0 s_qs]. now rewrite Heq, Hqx.
Qed.

Lemma run_log_app a : forall st b,
  run_log P st (a ++ b) = run_log P st a ++ run_log P (fst (run P st a)) b.
Proof.
  induction a as [|[o t] a IH]; intros st b; cbn [app run_log]; [reflexivity|].
  rewrite IH, run_cons_fst, app_assoc. reflexivity.
Qed.

Lemma run_app_fst st a b : fst (run P st (a ++ b)) = fst (run P (fst (run P st a)) b).
Proof.
  rewrite run_app. destruct (run P st a) as [st1 o1]. cbn [fst].
  destruct (run P st1 b) as [st2 o2]. reflexivity.
Qed.

Lemma hist_wf_app a : forall st b,
  hist_wf P st (a ++ b) <-> hist_wf P st a /\ hist_wf P (fst (run P st a)) b.
Proof.
  induction a as [|[o t] a IH]; intros st b; cbn [app hist_wf].
  - cbn [run fst]. tauto.
  - rewrite IH, run_cons_fst. tauto.
Qed.

Lemma stN_app_le st a b m : (m <= length a)%nat -> stN st (a ++ b) m = stN st a m.
Proof. intros H. rewrite firstn_app. replace (m - length a)%nat with 0%nat by lia. cbn [firstn]. now rewrite app_nil_r. Qed.

Lemma stN_app_ge st a b m : stN st (a ++ b) (length a + m) = stN (fst (run P st a)) b m.
Proof.
  rewrite firstn_app. replace (length a + m - length a)%nat with m by lia.
  rewrite firstn_all2 by lia. apply run_app_fst.
Qed.

Lemma stN_add st h i m : (i <= length h)%nat -> stN st h (i + m) = stN (stN st h i) (skipn i h) m.
Proof.
  intros Hi. pose proof (stN_app_ge st (firstn i h) (skipn i h) m) as E.
  rewrite firstn_skipn, firstn_length, Nat.min_l in E by exact Hi. exact E.
Qed.

(* event lists are kept newest first: what x adds to t is what a adds, then what b adds *)
Lemma ev_suffix_split {A} (x a b t : list A) : rev b ++ rev a ++ t = rev x ++ t -> x = a ++ b.
Proof.
  intros H. rewrite app_assoc, <- rev_app_distr in H. apply app_inv_tail in H.
  apply rev_inj. now symmetry.
Qed.

Lemma stream_bound_app G st a b :
  stream_bound G (map snd (run_log P st (a ++ b))) -> stream_bound G (map snd (run_log P st a)).
Proof. rewrite run_log_app, map_app. apply (HW stream_bound_prefix). Qed.

Lemma tinv_recover st_g G_g h_x st_x D_x M pe pol hint :
  Inv st_g G_g -> w_pending (s_wr st_g) = [] ->
  fst (run P st_g h_x) = st_x ->
  hist_wf P st_g h_x -> stream_bound G_g (map snd (run_log P st_g h_x)) ->
  let w := s_wr st_g in
  tinv P (c_ev (w_ctx w)) (c_fs (w_ctx w)) (w_file w) (w_off w) M (takeN (wpos P w) (wstream w))
       (wlo w) (wpos P w) (s_wr st_x) D_x ->
  D_x = encs_of (wpos P w) (sr (map snd (run_log P st_g h_x))) ->
  (forall m, (m < length h_x)%nat -> wlo (s_wr (stN st_g h_x m)) = wlo w) ->
  crash_bound_at st_g h_x (wabs P (s_wr st_x)) ->
  forall E_x, c_ev (w_ctx (s_wr st_x)) = rev E_x ++ c_ev (w_ctx w) -> cpre pe E_x ->
  exists m st_r,
    (m <= length h_x)%nat /\
    open P (fold_left apply_event pe (c_fs (w_ctx w))) None pol hint = OpenOk st_r /\
    (forall q, s_get (absq st_r) q = s_get (absq (stN st_g h_x m)) q).
Proof.
  intros HI Hp0 Hrun Hwf Hb w Ht ED Hwlo Hcb E_x HEx Hc.
  destruct (HW TI_trace_all _ _ _ _ _ _ _ _ _ _ _ Ht HEx) as (Htr' & Hu & Hlo).
  apply (torn_recover st_g G_g h_x D_x (w_file (s_wr st_x)) (w_off (s_wr st_x)) _ [] pe pol hint
           HI Hp0 Hwf Hb ED Htr' (Forall_nil _) Hu).
  - rewrite app_nil_r. now apply cpre_app_l.
  - exact Hwlo.
  - intros _ _ _ _ _. rewrite Hrun. exact Hlo.
  - exact Hcb.
Qed.

Lemma unlink_recover st G o st2 e st3 k m c files' mu A pol hint :
  Inv st G -> op_wf_strict (s_qs st) o -> stream_bound G (map snd (step_log P st o)) ->
  mid_state P st o = Some st2 -> own_entry st o = Some e ->
  has_deletable st2 = true ->
  run_gc_if_necessary P st2 (gc_hint o) = (st3, Ok k) ->
  let st1 := gc_st1 P st2 (gc_hint o) in
  gc_loop (w_ctx (s_wr st1)) (w_files (s_wr st1)) (referenced st1 (w_file (s_wr st2))) =
    (c, files', Ok tt) ->
  w_files (s_wr st1) = iota (wlo (s_wr st1)) m ++ files' ->
  (mu <= m)%nat ->
  (forall a extra, a <= A + B -> pos_extra (absq st2) extra -> cursor_after a (sr extra) <= MAXB) ->
  A = wabs P (s_wr st1) ->
  exists st_r,
    open P (remove_files (c_fs (w_ctx (s_wr st1))) (iota (wlo (s_wr st1)) mu)) None pol hint =
      OpenOk st_r /\
    (forall q, s_get (absq st_r) q = s_get (absq st2) q).
Proof.
  intros HI Hop Hb Hmid Hown Hd Hgc st1 Egc Efiles Hmu Hcb EA. subst st1.
  destruct (inv_mid P HBS_lo HBS_hi HNB Hcrc st G o st2 e HI Hop Hb Hmid Hown)
    as (_ & HI2 & Hb2 & _).
  destruct (gc_partial P HBS_lo HBS_hi HNB Hcrc st2 _ (gc_hint o) st3 k HI2 Hb2 Hd Hgc
              m c files' Egc Efiles mu Hmu)
    as (fake & Gf & HIf & Hfs & Hpf & Hqf & Hff & Hof & _).
  assert (Hrb : reopen_bound P fake Gf).
  { intros extra Hx. destruct HIf as (HPf & _).
    apply (HW phys_stream_bound _ _ _ HPf). unfold phys_bound.
    apply (Hcb _ extra).
    - unfold RestartFinal.wabs. rewrite Hff, Hof, EA. unfold wabs. lia.
    - now rewrite <- Hqf. }
  destruct (HG inv_reopen HIO fake Gf HIf Hrb pol hint) as (st_r & _ & Eo & _ & Heq & _).
  exists st_r. split.
  - rewrite <- Hfs. rewrite <- Eo. f_equal. unfold drop_log.
    change (c_fs (w_ctx (flush_buf (s_wr fake)))) with (vfs (s_wr fake)). symmetry. now apply vfs_nil.
  - intros q. now rewrite Heq, Hqf.
Qed.

End PSurvive.

Print Assumptions torn_recover.
Print Assumptions tinv_recover.
Print Assumptions unlink_recover.

