(* VacCrash.v — vacuity audit: the Inv-based theorems of PropC02.
   Instance: CrashAtomic.CrashExample (BS = 32, NB = 2, the real CRC-32): a history with
   roll-overs and a restart under PAlways true, then a truncate whose GC writes two position
   entries and unlinks four files.
   C02_crash_atomic and C02_history also assume TornProofs.no_zero_collision, which is
   false for the real CRC-32 of this instance (VacCrc.crc32_refutes_nzc, finding F8): for these
   two we show that ALL THE OTHER premises are jointly satisfiable. *)
From Coq Require Import Lia ZArith ZifyN ZifyNat ZifyBool List.
From MRL Require Import Bytes BytesProofs Params Names Frame Record Mem Spec Rolling Log Driver Hist
  WriterProofs SpecRefine RecordProofs StreamProofs ResyncProofs GhostLog ReplaySpec
  RestartInv RestartWrite RestartStep OpenReplay RestartFinal CrashTrace CrashAtomic VacBase.
From MRL Require PropC02.
Import ListNotations.
Import CrashAtomic.CrashExample.

Lemma Pe_BS_lo : 7 < BS Pe. Proof. reflexivity. Qed.
Lemma Pe_BS_hi : BS Pe <= 65542. Proof. intros H; discriminate H. Qed.
Lemma Pe_NB : 1 <= NB Pe. Proof. intros H; discriminate H. Qed.
Lemma Pe_crc : forall t p, crcf Pe t p < 2 ^ 32.
Proof. exact Crc.crc32_lt. Qed.

Lemma crash_phys_bound_by (P : params) (H1 : 7 < BS P) (H2 : BS P <= 65542) (H3 : 1 <= NB P)
      (H4 : forall t p, crcf P t p < 2 ^ 32) K w X m :
  enc_len_ok P K (map pos_ser (map fst m)) = true ->
  cursor_after P (wabs P w) (map entry_ser X) + BS P + K * N.of_nat (length m)
    <= FILE_BYTES P * (U64_MAX + 1) ->
  crash_phys_bound P w X m.
Proof.
  intros HK Hb c extra Hx _ Hc.
  pose proof (pos_extra_bound P H1 H2 H3 H4 m K c extra HK Hx). lia.
Qed.

(* the three bounds of a crash setting that speak of the ghost log, from the physical ones *)
Lemma crash_bounds_by (P : params) (H1 : 7 < BS P) (H2 : BS P <= 65542) (H3 : 1 <= NB P)
      (H4 : forall t p, crcf P t p < 2 ^ 32) st G X m1 m2 :
  Inv P st G -> crash_phys_bound P (s_wr st) X m1 -> crash_phys_bound P (s_wr st) X m2 ->
  RestartWrite.stream_bound P G X /\ crash_bound P G X m1 /\ crash_bound P G X m2.
Proof.
  intros HI Hb1 Hb2.
  pose proof (crash_phys_bound_ghost P H1 H2 H3 H4 _ G _ _ (proj1 HI) Hb1) as Hc1.
  split; [exact (crash_bound_stream_bound P H1 H2 H3 H4 _ _ _ Hc1)|]. split; [exact Hc1|].
  exact (crash_phys_bound_ghost P H1 H2 H3 H4 _ G _ _ (proj1 HI) Hb2).
Qed.

Ltac wf_tac :=
  cbn [op_wf_strict];
  repeat match goal with
         | |- _ /\ _ => split
         | |- Forall _ _ => repeat constructor
         | |- name_ok _ => split; vm_compute; reflexivity
         | |- forall m, qs_get _ _ = Some m -> _ =>
             let m := fresh "m" in let H := fresh "H" in
             intros m H; vm_compute in H; injection H as <-; vm_compute; reflexivity
         | |- _ < _ => vm_compute; reflexivity
         | |- True => exact I
         end.
Ltac le_tac := vm_compute; let H := fresh in intro H; discriminate H.
Ltac bound_tac := unfold phys_bound; le_tac.
Ltac call_tac := eapply hist_ok_call; [vm_compute; reflexivity | wf_tac | bound_tac | ].

Lemma open_st0 : open Pe [] None (PAlways true) [] = OpenOk st0.
Proof. vm_compute. reflexivity. Qed.

Definition outs_ex : list outcome :=
  Eval vm_compute in match hrun Pe st0 h_ex with Some (_, o) => o | None => [] end.
Lemma hrun_ex : hrun Pe st0 h_ex = Some (st_ex, outs_ex).
Proof. vm_compute. reflexivity. Qed.

Lemma hist_ok_ex : hist_ok Pe st0 h_ex.
Proof.
  unfold h_ex.
  call_tac. call_tac. call_tac. call_tac. call_tac.
  eapply hist_ok_restart; [vm_compute; reflexivity| |].
  { apply (restart_bound_by Pe Pe_BS_lo Pe_BS_hi Pe_NB Pe_crc 64); [vm_compute; reflexivity|le_tac]. }
  call_tac. exact I.
Qed.

Lemma always_ex : always_hist true h_ex.
Proof. cbn. auto. Qed.

Lemma inv_ex : exists G, Inv Pe st_ex G /\ gh_base G = 0.
Proof.
  exact (inv_hrun_fresh Pe Pe_BS_lo Pe_BS_hi Pe_NB Pe_crc eq_refl eq_refl _ _ _ _ _ open_st0 hist_ok_ex hrun_ex).
Qed.

(* the call in flight: truncate(qa, ..=6), GC hint [qb] *)
Definition o_cr : op := OTruncate qa 6 [qb].
Definition st_cr : state := Eval vm_compute in fst (step Pe st_ex o_cr false).
Definition out_cr : outcome := Eval vm_compute in snd (step Pe st_ex o_cr false).
Lemma step_cr : step Pe st_ex o_cr false = (st_cr, out_cr).
Proof. vm_compute. reflexivity. Qed.

Example cr_shape :
  out_cr = OutTruncate 5 67 /\ w_files (s_wr st_ex) = [0; 1; 2; 3; 4] /\ w_files (s_wr st_cr) = [4; 5] /\
  map snd (step_log Pe st_ex o_cr) = [ETruncate qa 6; EPosition qb 0; EPosition qa 7] /\
  abs_qs (s_qs st_cr) = [(qa, ([], 7)); (qb, ([], 0))].
Proof. vm_compute. repeat split; reflexivity. Qed.

Lemma op_wf_cr : op_wf_strict (s_qs st_ex) o_cr.
Proof. unfold o_cr. wf_tac. Qed.
Lemma no_io_cr : forall e, out_cr <> OutIo e.
Proof. intros e H. discriminate H. Qed.

Lemma crash_phys_before :
  crash_phys_bound Pe (s_wr st_ex) (map snd (step_log Pe st_ex o_cr)) (abs_qs (s_qs st_ex)).
Proof.
  apply (crash_phys_bound_by Pe Pe_BS_lo Pe_BS_hi Pe_NB Pe_crc 64); [vm_compute; reflexivity|le_tac].
Qed.
Lemma crash_phys_after :
  crash_phys_bound Pe (s_wr st_ex) (map snd (step_log Pe st_ex o_cr)) (abs_qs (s_qs st_cr)).
Proof.
  apply (crash_phys_bound_by Pe Pe_BS_lo Pe_BS_hi Pe_NB Pe_crc 64); [vm_compute; reflexivity|le_tac].
Qed.

Lemma C02_crash_atomic_other_premises_satisfiable :
  exists G,
    Inv Pe st_ex G /\ w_pending (s_wr st_ex) = [] /\ s_pol st_ex = PAlways true /\
    op_wf_strict (s_qs st_ex) o_cr /\
    RestartWrite.stream_bound Pe G (map snd (step_log Pe st_ex o_cr)) /\
    crash_bound Pe G (map snd (step_log Pe st_ex o_cr)) (abs_qs (s_qs st_ex)) /\
    crash_bound Pe G (map snd (step_log Pe st_ex o_cr)) (abs_qs (s_qs st_cr)) /\
    step Pe st_ex o_cr false = (st_cr, out_cr) /\ (forall e, out_cr <> OutIo e).
Proof.
  destruct inv_ex as (G & HI & _). exists G.
  destruct (crash_bounds_by Pe Pe_BS_lo Pe_BS_hi Pe_NB Pe_crc _ G _ _ _ HI crash_phys_before crash_phys_after)
    as (Hs & Hb1 & Hb2).
  split; [exact HI|]. split; [reflexivity|]. split; [reflexivity|]. split; [exact op_wf_cr|].
  split; [exact Hs|]. split; [exact Hb1|]. split; [exact Hb2|]. split; [exact step_cr|exact no_io_cr].
Qed.

Lemma C02_history_other_premises_satisfiable :
  open Pe [] None (PAlways true) [] = OpenOk st0 /\
  hrun Pe st0 h_ex = Some (st_ex, outs_ex) /\ hist_ok Pe st0 h_ex /\ always_hist true h_ex /\
  op_wf_strict (s_qs st_ex) o_cr /\
  crash_phys_bound Pe (s_wr st_ex) (map snd (step_log Pe st_ex o_cr)) (abs_qs (s_qs st_ex)) /\
  crash_phys_bound Pe (s_wr st_ex) (map snd (step_log Pe st_ex o_cr)) (abs_qs (s_qs st_cr)) /\
  step Pe st_ex o_cr false = (st_cr, out_cr).
Proof.
  split; [exact open_st0|]. split; [exact hrun_ex|]. split; [exact hist_ok_ex|].
  split; [exact always_ex|]. split; [exact op_wf_cr|]. split; [exact crash_phys_before|].
  split; [exact crash_phys_after|exact step_cr].
Qed.
(* (the conclusion of both, for this very call, is checked by computation on all 83 crash images
   in CrashAtomic.CrashExample.crash_census_ex) *)

(* C02_call_entries_atomic: the three entries of the call split as [truncate] ++ [pos b; pos a] *)
Example C02_call_entries_atomic_inst :
  exists G qs',
    replay_entries [] (combine (repeat 0 (length (gh_E G) + 1))
                               (map snd (gh_E G) ++ [ETruncate qa 6])) = Some qs' /\
    forall q, s_get (abs_qs qs') q = s_get (abs_qs (s_qs st_cr)) q.
Proof.
  destruct C02_crash_atomic_other_premises_satisfiable as (G & HI & _ & _ & Hop & Hsb & _ & _ & Hs & Hno).
  destruct (PropC02.C02_call_entries_atomic Pe Pe_BS_lo Pe_BS_hi Pe_NB Pe_crc eq_refl st_ex G o_cr
              false st_cr out_cr HI Hop Hsb Hs Hno [ETruncate qa 6] [EPosition qb 0; EPosition qa 7]
              ltac:(vm_compute; reflexivity) (repeat 0 (length (gh_E G) + 1))
              ltac:(rewrite repeat_length; reflexivity))
    as (qs' & Hr & _ & _ & _ & Ha).
  exists G, qs'. split; [exact Hr|]. apply Ha. discriminate.
Qed.

Example C02_call_trace_inst :
  exists evs,
    c_ev (w_ctx (s_wr st_cr)) = rev evs ++ c_ev (w_ctx (s_wr st_ex)) /\
    c_fs (w_ctx (s_wr st_cr)) = fold_left apply_event evs (c_fs (w_ctx (s_wr st_ex))) /\
    w_pending (s_wr st_cr) = [].
Proof.
  destruct C02_crash_atomic_other_premises_satisfiable as (G & HI & Hp & Hpol & Hop & Hsb & _ & _ & Hs & Hno).
  destruct (PropC02.C02_call_trace Pe Pe_BS_lo Pe_BS_hi Pe_NB Pe_crc eq_refl st_ex G true o_cr
              false st_cr out_cr HI Hp Hpol Hsb Hs Hno) as (evs & H1 & H2 & _ & H4).
  exists evs. auto.
Qed.

Example C02_crash_image_shape_inst :
  exists evs,
    c_ev (w_ctx (s_wr st_cr)) = rev evs ++ c_ev (w_ctx (s_wr st_ex)) /\
    forall cut k, GcProofs.nodup_keys (fold_left apply_event (crash_events evs cut k)
                                                 (c_fs (w_ctx (s_wr st_ex)))).
Proof.
  destruct C02_crash_atomic_other_premises_satisfiable as (G & HI & Hp & Hpol & Hop & Hsb & _ & _ & Hs & Hno).
  destruct (PropC02.C02_crash_image_shape Pe Pe_BS_lo Pe_BS_hi Pe_NB Pe_crc eq_refl st_ex G true o_cr
              false st_cr out_cr HI Hp Hpol Hop Hsb Hs Hno) as (evs & H1 & _ & _ & Hall).
  exists evs. split; [exact H1|]. intros cut k.
  destruct (Hall cut k) as (nu & hi & short & z & _ & _ & _ & _ & Hnd & _). exact Hnd.
Qed.
