(* PersistProofs.v — property C03 at the level of the event trace:
   (a) what was persisted with fsync is on stable storage: after persist(FlushAndFsync) every
       write event of every file is followed by a sync of that file and the BufWriter is empty,
       so the power-loss model of Driver.v (a write survives only if its file was synced
       afterwards) keeps every write;
   (b) the GC never unlinks a file while what supersedes it is volatile: every unlink is preceded
       by flush + sync_data + sync_dir of the current file with no write in between.
   Both under L_GC P = false (the crate's code: the GC persists before unlinking). *)
From Coq Require Import Lia ZArith ZifyN ZifyNat ZifyBool.
From MRL Require Import Bytes BytesProofs Params Names NamesProofs Frame Record Mem Rolling Log
                        Driver Hist EffectsProofs WriterProofs GcProofs.
From MRL Require OpenTerm.

(* the trace of a context in chronological order *)
Definition chrono (c : ioctx) : list event := rev (c_ev c).

(* chronological list: every write to `name` is followed, later, by a sync of `name` *)
Definition file_synced (name : bytes) (evs : list event) : Prop :=
  forall pre off d post, evs = pre ++ EvWrite name off d :: post -> In (EvSyncData name) post.

Definition all_synced (evs : list event) : Prop := forall name, file_synced name evs.

(* the same thing read off a most-recent-first list: scanning from the most recent event,
   a sync of `name` is met before any write to `name` *)
Fixpoint rsynced (name : bytes) (l : list event) : Prop :=
  match l with
  | [] => True
  | EvSyncData n :: r => n = name \/ rsynced name r
  | EvWrite n _ _ :: r => n <> name /\ rsynced name r
  | _ :: r => rsynced name r
  end.

Lemma snoc_split {A} (evs : list A) e pre x post :
  evs ++ [e] = pre ++ x :: post ->
  (post = [] /\ evs = pre /\ e = x) \/ (exists post', post = post' ++ [e] /\ evs = pre ++ x :: post').
Proof.
  destruct (exists_last (l := x :: post)) as [l' [y Hy]]; [discriminate|].
  destruct post as [|p post0].
  - intros H. apply app_inj_tail in H. left. destruct H as [H1 H2]. auto.
  - intros H. right.
    destruct (exists_last (l := p :: post0)) as [post' [z Hz]]; [discriminate|].
    rewrite Hz in H. change (pre ++ x :: post' ++ [z]) with (pre ++ (x :: post') ++ [z]) in H.
    rewrite app_assoc in H. apply app_inj_tail in H. destruct H as [H1 H2]. subst z.
    exists post'. split; [exact Hz|exact H1].
Qed.

Lemma file_synced_nil name : file_synced name [].
Proof. intros pre off d post H. destruct pre; discriminate. Qed.

Lemma file_synced_snoc_drop name evs e :
  file_synced name (evs ++ [e]) -> e <> EvSyncData name -> file_synced name evs.
Proof.
  intros H Hne pre off d post Hd.
  specialize (H pre off d (post ++ [e])).
  rewrite Hd in H. rewrite <- app_assoc in H. specialize (H eq_refl).
  apply in_app_or in H. destruct H as [H|H]; [exact H|].
  destruct H as [H|[]]. congruence.
Qed.

Lemma file_synced_snoc_keep name evs e :
  file_synced name evs -> (forall off d, e <> EvWrite name off d) -> file_synced name (evs ++ [e]).
Proof.
  intros H Hne pre off d post Hd. apply snoc_split in Hd.
  destruct Hd as [[_ [_ He]]|[post' [Hp He]]].
  - exfalso. eapply Hne; eassumption.
  - subst post. apply in_or_app. left. eapply H; eassumption.
Qed.

Lemma file_synced_snoc_sync name evs : file_synced name (evs ++ [EvSyncData name]).
Proof.
  intros pre off d post Hd. apply snoc_split in Hd.
  destruct Hd as [[_ [_ He]]|[post' [Hp He]]]; [discriminate|].
  subst post. apply in_or_app. right. left. reflexivity.
Qed.

Lemma file_synced_snoc_write name evs off d : ~ file_synced name (evs ++ [EvWrite name off d]).
Proof. intros H. exact (H evs off d [] eq_refl). Qed.

Theorem rsynced_iff name l : file_synced name (rev l) <-> rsynced name l.
Proof.
  induction l as [|e l IH]; cbn [rev rsynced].
  - split; [auto|intros _; apply file_synced_nil].
  - assert (Hgen : (forall off d, e <> EvWrite name off d) -> e <> EvSyncData name ->
                   (file_synced name (rev l ++ [e]) <-> rsynced name l)).
    { intros H1 H2. rewrite <- IH. split.
      - intros H. eapply file_synced_snoc_drop; eassumption.
      - intros H. apply file_synced_snoc_keep; assumption. }
    destruct e as [ |n|n|n len|n off d|n off len ok|n|n| |n];
      try (apply Hgen; intros; discriminate).
    + (* write *)
      destruct (bytes_eqb n name) eqn:En.
      * apply bytes_eqb_eq in En. subst n. split.
        -- intros H. exfalso. eapply file_synced_snoc_write; exact H.
        -- intros [H _]. congruence.
      * apply bytes_eqb_neq in En. split.
        -- intros H. split; [exact En|]. apply IH.
           eapply file_synced_snoc_drop; [exact H|discriminate].
        -- intros [_ H]. apply file_synced_snoc_keep; [now apply IH|].
           intros off0 d0 He. inversion He. congruence.
    + (* sync *)
      destruct (bytes_eqb n name) eqn:En.
      * apply bytes_eqb_eq in En. subst n. split.
        -- intros _. left. reflexivity.
        -- intros _. apply file_synced_snoc_sync.
      * apply bytes_eqb_neq in En. split.
        -- intros H. right. apply IH. eapply file_synced_snoc_drop; [exact H|congruence].
        -- intros [H|H]; [congruence|]. apply file_synced_snoc_keep; [now apply IH|discriminate].
Qed.

Lemma synced_later_In name evs : In (EvSyncData name) evs -> synced_later name evs = true.
Proof.
  induction evs as [|e r IH]; [intros []|].
  intros [H|H].
  - subst e. cbn [synced_later]. now rewrite bytes_eqb_refl.
  - specialize (IH H). destruct e; cbn [synced_later]; try exact IH.
    rewrite IH. apply orb_true_r.
Qed.

Lemma synced_later_app name evs later :
  synced_later name evs = true -> synced_later name (evs ++ later) = true.
Proof.
  induction evs as [|e r IH]; [discriminate|].
  destruct e; cbn [synced_later app]; try exact IH.
  intros H. apply orb_true_iff in H. destruct H as [H|H]; [now rewrite H|].
  rewrite (IH H). apply orb_true_r.
Qed.

Lemma file_synced_tail name e r : file_synced name (e :: r) -> file_synced name r.
Proof. intros H pre off d post Hd. apply (H (e :: pre) off d post). now rewrite Hd. Qed.

Lemma all_synced_tail e r : all_synced (e :: r) -> all_synced r.
Proof. intros H name. eapply file_synced_tail. apply H. Qed.

(* a power loss at any later moment keeps every event of a fully synced trace *)
Theorem power_filter_all_synced_app evs later :
  all_synced evs -> power_filter (evs ++ later) = evs ++ power_filter later.
Proof.
  induction evs as [|e r IH]; [reflexivity|].
  intros H. pose proof (IH (all_synced_tail _ _ H)) as IHr.
  destruct e as [ |n|n|n len|n off d|n off len ok|n|n| |n]; cbn [power_filter app];
    try (now rewrite IHr).
  rewrite synced_later_app; [now rewrite IHr|].
  apply synced_later_In. apply (H n [] off d r eq_refl).
Qed.

Corollary power_filter_all_synced evs : all_synced evs -> power_filter evs = evs.
Proof.
  intros H. pose proof (power_filter_all_synced_app evs [] H) as E.
  rewrite !app_nil_r in E. exact E.
Qed.

Definition is_unlink (e : event) : Prop := match e with EvUnlink _ => True | _ => False end.

(* flush + sync_data of file f + sync of the directory, chronologically *)
Definition sync_group (f : bytes) : list event := [EvFlush f; EvSyncData f; EvSyncDir].

(* chronological trace: every unlink is preceded by a sync group, with nothing but other
   unlinks in between (in particular no write) *)
Definition unlink_guarded (evs : list event) : Prop :=
  forall pre name post, evs = pre ++ EvUnlink name :: post ->
    exists pre1 f pre2, pre = pre1 ++ sync_group f ++ pre2 /\ Forall is_unlink pre2.

Lemma ug_nounlink evs : Forall (fun e => ~ is_unlink e) evs -> unlink_guarded evs.
Proof.
  intros H pre name post Hd. exfalso. rewrite Forall_forall in H.
  apply (H (EvUnlink name)); [rewrite Hd; apply in_elt|exact I].
Qed.

Lemma ug_app a b : unlink_guarded a -> unlink_guarded b -> unlink_guarded (a ++ b).
Proof.
  intros Ha Hb pre name post Hd. apply app_eq_app in Hd. destruct Hd as [l [[H1 H2]|[H1 H2]]].
  - destruct l as [|x l'].
    + cbn [app] in H2. rewrite app_nil_r in H1. subst a.
      destruct (Hb [] name post) as [pre1 [f [pre2 [Hp _]]]]; [now rewrite <- H2|].
      destruct pre1; discriminate.
    + cbn [app] in H2. inversion H2; subst x. apply (Ha pre name l'). exact H1.
  - destruct (Hb l name post H2) as [pre1 [f [pre2 [Hp Hf]]]].
    exists (a ++ pre1), f, pre2. split; [|exact Hf]. rewrite H1, Hp. now rewrite app_assoc.
Qed.

Lemma ug_group pre0 f us :
  unlink_guarded pre0 -> Forall is_unlink us -> unlink_guarded (pre0 ++ sync_group f ++ us).
Proof.
  intros H0 Hus. apply ug_app; [exact H0|].
  intros pre name post Hd. apply app_eq_app in Hd. destruct Hd as [l [[H1 H2]|[H1 H2]]].
  - destruct l as [|x l'].
    + rewrite app_nil_r in H1. exists [], f, []. split; [now rewrite <- H1|constructor].
    + cbn [app] in H2. inversion H2; subst x. exfalso.
      assert (Hin : In (EvUnlink name) (sync_group f)) by (rewrite H1; apply in_elt).
      cbn in Hin. intuition discriminate.
  - exists [], f, l. split; [exact H1|].
    rewrite H2 in Hus. apply Forall_app in Hus. apply Hus.
Qed.

(* every file other than the one being written has all its writes synced *)
Definition others_synced (w : rwriter) : Prop :=
  forall name, name <> filename (w_file w) -> file_synced name (chrono (w_ctx w)).

(* every file has all its writes synced *)
Definition wr_all_synced (w : rwriter) : Prop := all_synced (chrono (w_ctx w)).

(* the version on file numbers (names of distinct numbers below 2^64 differ) *)
Lemma others_synced_numbers w n :
  others_synced w -> n <= U64_MAX -> w_file w <= U64_MAX -> n <> w_file w ->
  file_synced (filename n) (chrono (w_ctx w)).
Proof.
  intros H Hn Hc Hne. apply H. intros E. apply Hne. exact (filename_inj _ _ Hn Hc E).
Qed.

Lemma wr_all_synced_others w : wr_all_synced w -> others_synced w.
Proof. intros H name _. apply H. Qed.

(* events that are all writes to one file *)
Definition cur_writes (cur : bytes) (ws : list event) : Prop :=
  Forall (fun e => exists off d, e = EvWrite cur off d) ws.

Definition no_write_to (name : bytes) (new : list event) : Prop :=
  Forall (fun e => forall off d, e <> EvWrite name off d) new.

Definition nounl (new : list event) : Prop := Forall (fun e => ~ is_unlink e) new.

(* neither a write nor an unlink *)
Definition quiet_ev (e : event) : Prop :=
  match e with EvWrite _ _ _ | EvUnlink _ => False | _ => True end.

Lemma rsynced_ext name new l : no_write_to name new -> rsynced name l -> rsynced name (new ++ l).
Proof.
  intros Hn Hl. induction Hn as [|e new He _ IH]; [exact Hl|].
  destruct e; cbn [app rsynced]; auto.
  split; [|exact IH]. intros ->. eapply He. reflexivity.
Qed.

Definition others_untouched (cur : bytes) (new : list event) : Prop :=
  forall name, name <> cur -> no_write_to name new.

Lemma cur_writes_others cur ws : cur_writes cur ws -> others_untouched cur ws.
Proof.
  intros H name Hne. eapply Forall_impl; [|exact H]. intros e [off [d ->]] off' d' E.
  inversion E. congruence.
Qed.

Lemma unlinks_no_write name us : Forall is_unlink us -> no_write_to name us.
Proof.
  apply Forall_impl. intros e He off d ->. exact He.
Qed.

Lemma quiet_no_write name l : Forall quiet_ev l -> no_write_to name l.
Proof.
  apply Forall_impl. intros e He off d ->. exact He.
Qed.

Lemma cur_writes_nounlink cur ws : cur_writes cur ws -> nounl ws.
Proof.
  intros H. eapply Forall_impl; [|exact H]. intros e [off [d He]]. subst e. cbn. auto.
Qed.

Lemma quiet_nounl l : Forall quiet_ev l -> nounl l.
Proof.
  apply Forall_impl. intros e He Hu. destruct e; contradiction.
Qed.

Lemma nounl_nil : nounl [].
Proof. constructor. Qed.

Lemma nounl_app x y : nounl x -> nounl y -> nounl (x ++ y).
Proof. intros H1 H2. apply Forall_app. auto. Qed.

(* w' has the trace of w plus a prefix (most recent first) satisfying Q *)
Definition ev_ext (Q : list event -> Prop) (w w' : rwriter) : Prop :=
  exists new, c_ev (w_ctx w') = new ++ c_ev (w_ctx w) /\ Q new.

Lemma ev_ext_refl (Q : list event -> Prop) w : Q [] -> ev_ext Q w w.
Proof. intros H. exists []. split; [reflexivity|exact H]. Qed.

Lemma ev_ext_trans (Q : list event -> Prop) a b c :
  (forall x y, Q x -> Q y -> Q (x ++ y)) -> ev_ext Q a b -> ev_ext Q b c -> ev_ext Q a c.
Proof.
  intros Happ [n1 [E1 Q1]] [n2 [E2 Q2]]. exists (n2 ++ n1). split; [|now apply Happ].
  rewrite E2, E1. now rewrite app_assoc.
Qed.

Lemma ev_ext_weaken (Q Q' : list event -> Prop) w w' :
  (forall x, Q x -> Q' x) -> ev_ext Q w w' -> ev_ext Q' w w'.
Proof. intros H [n [E Hq]]. exists n. auto. Qed.

(* the trace of c' is that of c plus events that neither write nor unlink *)
Definition quiet_ext (c c' : ioctx) : Prop :=
  exists oc, c_ev c' = oc ++ c_ev c /\ Forall quiet_ev oc.

Section Writer.
Variable P : params.

Definition cur_name (w : rwriter) : bytes := filename (w_file w).

Lemma flush_buf_ev w : ev_ext (cur_writes (cur_name w)) w (flush_buf w).
Proof.
  unfold flush_buf. destruct (w_pending w) as [|b r].
  - exists []. split; [reflexivity|constructor].
  - exists [EvWrite (filename (w_file w)) (os_pos w) (b :: r)]. split; [reflexivity|].
    constructor; [|constructor]. eexists; eexists; reflexivity.
Qed.

Lemma flush_buf_same w :
  w_file (flush_buf w) = w_file w /\ w_files (flush_buf w) = w_files w /\
  w_off (flush_buf w) = w_off w /\ w_pending (flush_buf w) = [].
Proof. unfold flush_buf. destruct (w_pending w) eqn:E; cbn; auto. Qed.

Lemma bw_write_all_ev w d : ev_ext (cur_writes (cur_name w)) w (bw_write_all P w d).
Proof.
  unfold bw_write_all, bw_write_all0.
  destruct (lenN d <? BS P - lenN (w_pending w)).
  - exists []. split; [reflexivity|constructor].
  - set (w1 := if BS P - lenN (w_pending w) <? lenN d then flush_buf w else w).
    assert (H1 : ev_ext (cur_writes (cur_name w)) w w1).
    { unfold w1. destruct (_ <? _); [apply flush_buf_ev|apply ev_ext_refl; constructor]. }
    assert (Hf : w_file w1 = w_file w).
    { unfold w1. destruct (_ <? _); [apply flush_buf_same|reflexivity]. }
    destruct H1 as [ws [He Hw]].
    destruct (BS P <=? lenN d).
    + exists (EvWrite (filename (w_file w)) (os_pos w1) d :: ws).
      cbn [w_ctx os_write ctx_ev ctx_fs c_ev]. rewrite He, Hf. split; [reflexivity|].
      constructor; [eexists; eexists; reflexivity|exact Hw].
    + exists ws. cbn [w_ctx]. auto.
Qed.

Lemma bw_write_all_file w d : w_file (bw_write_all P w d) = w_file w.
Proof. pose proof (bw_write_all_tracker P w d) as H. unfold same_tracker in H. apply H. Qed.

(* flush + sync_data + sync_dir *)
Definition presync (w : rwriter) : rwriter := sync_dir (sync_data (bw_flush w)).

Lemma bw_flush_ev w :
  exists ws, c_ev (w_ctx (bw_flush w)) = EvFlush (cur_name w) :: ws ++ c_ev (w_ctx w) /\
             cur_writes (cur_name w) ws.
Proof.
  destruct (flush_buf_ev w) as [ws [He Hw]]. destruct (flush_buf_same w) as [Hf _].
  exists ws. split; [|exact Hw].
  unfold bw_flush, wr_ctx. cbn [w_ctx ctx_ev c_ev]. rewrite He, Hf. reflexivity.
Qed.

Lemma bw_flush_same w :
  w_file (bw_flush w) = w_file w /\ w_files (bw_flush w) = w_files w /\
  w_off (bw_flush w) = w_off w /\ w_pending (bw_flush w) = [].
Proof. unfold bw_flush, wr_ctx. cbn [w_file w_files w_off w_pending]. apply flush_buf_same. Qed.

Lemma presync_ev w :
  exists ws, c_ev (w_ctx (presync w)) = rev (sync_group (cur_name w)) ++ ws ++ c_ev (w_ctx w) /\
             cur_writes (cur_name w) ws.
Proof.
  destruct (bw_flush_ev w) as [ws [He Hw]]. destruct (bw_flush_same w) as [Hf _].
  exists ws. split; [|exact Hw].
  unfold presync, sync_dir, sync_data, wr_ctx. cbn [w_ctx ctx_ev c_ev w_file]. rewrite He, Hf.
  reflexivity.
Qed.

Lemma presync_same w :
  w_file (presync w) = w_file w /\ w_files (presync w) = w_files w /\
  w_off (presync w) = w_off w /\ w_pending (presync w) = [].
Proof.
  unfold presync, sync_dir, sync_data, wr_ctx. cbn [w_file w_files w_off w_pending].
  apply bw_flush_same.
Qed.

Lemma wr_persist_true w : wr_persist w true = presync w.
Proof. reflexivity. Qed.

Lemma others_rs w :
  others_synced w <-> (forall name, name <> cur_name w -> rsynced name (c_ev (w_ctx w))).
Proof.
  unfold others_synced, chrono. split; intros H name Hn; apply rsynced_iff; apply H; exact Hn.
Qed.

Lemma all_rs w : wr_all_synced w <-> (forall name, rsynced name (c_ev (w_ctx w))).
Proof. unfold wr_all_synced, all_synced, chrono. split; intros H name; apply rsynced_iff; apply H. Qed.

Lemma others_synced_ext w w' :
  w_file w' = w_file w -> ev_ext (others_untouched (cur_name w)) w w' ->
  others_synced w -> others_synced w'.
Proof.
  rewrite !others_rs. unfold cur_name. intros Hf [new [He Hn]] H name Hne.
  rewrite Hf in Hne. rewrite He. apply rsynced_ext; [now apply Hn|now apply H].
Qed.

Lemma flush_buf_others w : others_synced w -> others_synced (flush_buf w).
Proof.
  apply others_synced_ext; [apply flush_buf_same|].
  eapply ev_ext_weaken; [apply cur_writes_others|apply flush_buf_ev].
Qed.

Lemma bw_flush_others w : others_synced w -> others_synced (bw_flush w).
Proof.
  apply others_synced_ext; [apply bw_flush_same|].
  destruct (bw_flush_ev w) as [ws [He Hw]]. exists (EvFlush (cur_name w) :: ws). split; [exact He|].
  intros name Hn. constructor; [discriminate|now apply (cur_writes_others (cur_name w))].
Qed.

Lemma sync_data_others w : others_synced w -> others_synced (sync_data w).
Proof.
  apply others_synced_ext; [reflexivity|]. exists [EvSyncData (cur_name w)]. split; [reflexivity|].
  intros name _. constructor; [discriminate|constructor].
Qed.

Lemma sync_dir_others w : others_synced w -> others_synced (sync_dir w).
Proof.
  apply others_synced_ext; [reflexivity|]. exists [EvSyncDir]. split; [reflexivity|].
  intros name _. constructor; [discriminate|constructor].
Qed.

(* the heart of (a): after flush + sync_data + sync_dir every file is synced *)
Lemma presync_all_synced w : others_synced w -> wr_all_synced (presync w).
Proof.
  rewrite others_rs, all_rs. intros H name.
  destruct (presync_ev w) as [ws [He Hw]]. rewrite He. cbn [sync_group rev app rsynced].
  destruct (bytes_eqb (cur_name w) name) eqn:En.
  - left. now apply bytes_eqb_eq.
  - apply bytes_eqb_neq in En. right.
    apply rsynced_ext; [apply (cur_writes_others _ _ Hw); congruence|apply H; congruence].
Qed.

Lemma wr_persist_others w a : others_synced w -> others_synced (wr_persist w a).
Proof.
  intros H. destruct a; cbn [wr_persist].
  - apply wr_all_synced_others. now apply presync_all_synced.
  - now apply bw_flush_others.
Qed.

Lemma gc_loop_unlinks : forall files c refd c' files' r,
  gc_loop c files refd = (c', files', r) ->
  exists us, c_ev c' = us ++ c_ev c /\ Forall is_unlink us.
Proof.
  induction files as [|f rest IH]; intros c refd c' files' r; cbn [gc_loop].
  - intros H; inversion H; subst. exists []. split; [reflexivity|constructor].
  - destruct rest as [|g rest'].
    + intros H; inversion H; subst. exists []. split; [reflexivity|constructor].
    + assert (Hnil : exists us, c_ev c = us ++ c_ev c /\ Forall is_unlink us).
      { exists []. split; [reflexivity|constructor]. }
      assert (Hstep : forall c1, c_ev c1 = EvUnlink (filename f) :: c_ev c ->
                gc_loop c1 (g :: rest') refd = (c', files', r) ->
                exists us, c_ev c' = us ++ c_ev c /\ Forall is_unlink us).
      { intros c1 Hc1 H. apply IH in H. destruct H as [us [He Hu]].
        exists (us ++ [EvUnlink (filename f)]). split.
        - rewrite He, Hc1, <- app_assoc. reflexivity.
        - apply Forall_app. split; [exact Hu|]. constructor; [exact I|constructor]. }
      destruct (refd f); [intros H; inversion H; subst; exact Hnil|].
      destruct (fs_get (c_fs c) (filename f)) as [[b| |]|].
      * apply Hstep. reflexivity.
      * intros H; inversion H; subst; exact Hnil.
      * apply Hstep. reflexivity.
      * intros H; inversion H; subst; exact Hnil.
Qed.

Lemma gc_loop_others w refd c files r :
  gc_loop (w_ctx w) (w_files w) refd = (c, files, r) -> others_synced w ->
  others_synced (mkWr c files (w_file w) (w_off w) (w_pending w)).
Proof.
  intros G. apply gc_loop_unlinks in G. destruct G as [us [He Hu]].
  apply others_synced_ext; [reflexivity|]. exists us. split; [exact He|].
  intros name _. now apply unlinks_no_write.
Qed.

Lemma gc_loop_all_synced w refd c files r :
  gc_loop (w_ctx w) (w_files w) refd = (c, files, r) -> wr_all_synced w ->
  wr_all_synced (mkWr c files (w_file w) (w_off w) (w_pending w)).
Proof.
  intros G. apply gc_loop_unlinks in G. destruct G as [us [He Hu]].
  rewrite !all_rs. intros H name. cbn [w_ctx] in *. rewrite He.
  apply rsynced_ext; [now apply unlinks_no_write|apply H].
Qed.

Lemma open_file_ev c n c' r : open_file c n = (c', r) -> quiet_ext c c'.
Proof.
  unfold open_file. pose proof (fault_point_ev c SOpen) as Hf.
  destruct (fault_point c SOpen) as [c1 [e|]]; cbn [fst] in Hf.
  - intros H; inversion H; subst. exists []. split; [exact Hf|constructor].
  - destruct (fs_get (c_fs c1) (filename n)) as [[b| |]|]; intros H; inversion H; subst;
      try (exists []; split; [exact Hf|constructor]).
    exists [EvOpenRw (filename n)]. cbn [ctx_ev c_ev]. rewrite Hf.
    split; [reflexivity|]. constructor; [exact I|constructor].
Qed.

Lemma create_file_ev c n c' r : create_file P c n = (c', r) -> quiet_ext c c'.
Proof.
  unfold create_file. destruct (fs_get (c_fs c) (filename n)); intros H; inversion H; subst.
  - exists []. split; [reflexivity|constructor].
  - exists [EvSetLen (filename n) (FILE_BYTES P); EvCreate (filename n)].
    split; [reflexivity|]. constructor; [exact I|]. constructor; [exact I|constructor].
Qed.

(* what a block write adds: writes to the current file; or, when it rolls over, the sync group of
   presync, the opening or creation of the next file, and writes to that one *)
Lemma wr_write_ev w d w' r :
  wr_write P w d = (w', r) ->
  (w_file w' = w_file w /\ ev_ext (cur_writes (cur_name w)) w w') \/
  (exists ws oc, c_ev (w_ctx w') = ws ++ oc ++ c_ev (w_ctx (presync w)) /\
                 cur_writes (cur_name w') ws /\ Forall quiet_ev oc).
Proof.
  unfold wr_write. destruct d as [|b d'] eqn:Ed.
  - intros H; inversion H; subst. left. split; [reflexivity|apply ev_ext_refl; constructor].
  - rewrite <- Ed. clear Ed. intros H.
    destruct (FILE_BYTES P <? w_off w + lenN d).
    + right. fold (presync w) in H. set (w1 := presync w) in *.
      assert (Herr : forall w2 : rwriter, quiet_ext (w_ctx w1) (w_ctx w2) ->
                exists ws oc, c_ev (w_ctx w2) = ws ++ oc ++ c_ev (w_ctx w1) /\
                              cur_writes (cur_name w2) ws /\ Forall quiet_ev oc).
      { intros w2 [oc [Ec Hq]]. exists [], oc. split; [exact Ec|]. split; [constructor|exact Hq]. }
      assert (Hok : forall c files nxt, quiet_ext (w_ctx w1) c ->
                let w2 := bw_write_all P (mkWr c files nxt 0 []) d in
                exists ws oc, c_ev (w_ctx w2) = ws ++ oc ++ c_ev (w_ctx w1) /\
                              cur_writes (cur_name w2) ws /\ Forall quiet_ev oc).
      { intros c files nxt [oc [Ec Hq]] w2.
        destruct (bw_write_all_ev (mkWr c files nxt 0 []) d) as [ws [He Hw]]. fold w2 in He.
        exists ws, oc. rewrite He. cbn [w_ctx]. rewrite Ec.
        split; [reflexivity|]. split; [|exact Hq].
        unfold w2, cur_name. rewrite bw_write_all_file. exact Hw. }
      destruct (tracker_next (w_files w1) (w_file w1)) as [nxt|].
      * destruct (open_file (w_ctx w1) nxt) as [c [[]|e]] eqn:Eo;
          apply open_file_ev in Eo; inversion H; subst; clear H.
        -- apply Hok. exact Eo.
        -- apply Herr. exact Eo.
      * destruct (create_file P (w_ctx w1) (w_file w1 + 1)) as [c [[]|e]] eqn:Ec;
          apply create_file_ev in Ec; inversion H; subst; clear H.
        -- apply Hok. exact Ec.
        -- apply Herr. exact Ec.
    + inversion H; subst. left. split; [apply bw_write_all_file|apply bw_write_all_ev].
Qed.

(* the block write, roll-over included *)
Theorem wr_write_others w d w' r : wr_write P w d = (w', r) -> others_synced w -> others_synced w'.
Proof.
  intros H Ho. destruct (wr_write_ev _ _ _ _ H) as [[Hf He]|[ws [oc [He [Hw Hq]]]]].
  - eapply others_synced_ext; [exact Hf| |exact Ho].
    eapply ev_ext_weaken; [apply cur_writes_others|exact He].
  - pose proof (presync_all_synced w Ho) as Hall. rewrite all_rs in Hall.
    apply others_rs. intros name Hn. rewrite He.
    apply rsynced_ext; [now apply (cur_writes_others _ _ Hw)|].
    apply rsynced_ext; [now apply quiet_no_write|apply Hall].
Qed.

Theorem write_record_others w payload w' r :
  write_record P rwriter (wr_write P) (wr_rem P) w payload = (w', r) ->
  others_synced w -> others_synced w'.
Proof. apply GcProofs.write_record_inv. exact wr_write_others. Qed.

(* the invariant holds across every API call, whatever its outcome *)
Theorem step_others_synced st o tick :
  others_synced (s_wr st) -> others_synced (s_wr (fst (step P st o tick))).
Proof.
  apply step_inv.
  - exact wr_write_others.
  - exact wr_persist_others.
  - exact gc_loop_others.
Qed.

Lemma run_preserves (I : state -> Prop) :
  (forall st o tick, I st -> I (fst (step P st o tick))) ->
  forall h st, I st -> I (fst (run P st h)).
Proof.
  intros Hstep. induction h as [|[o tick] h IH]; intros st Hi; cbn [run]; [exact Hi|].
  pose proof (Hstep st o tick Hi) as H1.
  destruct (step P st o tick) as [st1 out]. cbn [fst] in H1.
  specialize (IH st1 H1). destruct (run P st1 h) as [st2 outs]. exact IH.
Qed.

Theorem run_others_synced : forall h st,
  others_synced (s_wr st) -> others_synced (s_wr (fst (run P st h))).
Proof. exact (run_preserves (fun st => others_synced (s_wr st)) step_others_synced). Qed.

End Writer.

Section Api.
Variable P : params.

Definition durable (st : state) : Prop :=
  wr_all_synced (s_wr st) /\ w_pending (s_wr st) = [].

Theorem persist_fsync_all_synced st :
  others_synced (s_wr st) ->
  (forall name, file_synced name (chrono (w_ctx (s_wr (persist st true))))) /\
  w_pending (s_wr (persist st true)) = [].
Proof.
  intros Ho. split; [|apply persist_drained].
  unfold persist. cbn [set_wr s_wr]. rewrite wr_persist_true.
  exact (presync_all_synced _ Ho).
Qed.

(* power-loss model: nothing of the trace is lost, whenever the power fails afterwards *)
Corollary persist_fsync_power st later :
  others_synced (s_wr st) ->
  let evs := chrono (w_ctx (s_wr (persist st true))) in
  power_filter evs = evs /\ power_filter (evs ++ later) = evs ++ power_filter later.
Proof.
  intros Ho evs. destruct (persist_fsync_all_synced st Ho) as [H _]. split.
  - now apply power_filter_all_synced.
  - now apply power_filter_all_synced_app.
Qed.

Lemma write_entry_others st e st' r :
  write_entry P st e = (st', r) -> others_synced (s_wr st) -> others_synced (s_wr st').
Proof. apply (write_entry_inv P others_synced (wr_write_others P)). Qed.

Lemma run_gc_others st hint st' r :
  run_gc_if_necessary P st hint = (st', r) -> others_synced (s_wr st) -> others_synced (s_wr st').
Proof.
  apply (run_gc_inv P others_synced (wr_write_others P) wr_persist_others gc_loop_others).
Qed.

(* the calls that end with persist(a): create/delete always with a = true, append/truncate
   under the policy Always(a), and the explicit persist *)
Definition call_persists (a : bool) (pol : policy) (o : op) : Prop :=
  match o with
  | OCreate _ | ODelete _ _ => a = true
  | OAppend _ _ _ | OTruncate _ _ _ => pol = PAlways a
  | OPersist b => b = a
  end.

(* the outcomes of calls that did their work (as opposed to: refused, or nothing to do) *)
Definition wrote (out : outcome) : bool :=
  match out with
  | OutCreate _ | OutDelete _ | OutTruncate _ _ | OutAppend (Some _) _ | OutPersist => true
  | _ => false
  end.

Lemma step_persist_cases st o tick st' out a :
  step P st o tick = (st', out) -> call_persists a (s_pol st) o -> is_io out = false ->
  (st' = st /\ wrote out = false) \/
  (exists st1, s_wr st' = s_wr (persist st1 a) /\
               (others_synced (s_wr st) -> others_synced (s_wr st1))).
Proof.
  intros Hs Hc Hio.
  destruct o as [q|q hint|q pos payloads|q p hint|f]; cbn [step call_persists] in Hs, Hc.
  - subst a. unfold create_queue in Hs.
    destruct (qs_contains (s_qs st) q); [inversion Hs; subst; now left|].
    destruct (write_entry P st (EPosition q 0)) as [st1 [k|e]] eqn:E;
      inversion Hs; subst; [|discriminate].
    right. exists st1. split; [reflexivity|]. eapply write_entry_others; exact E.
  - subst a. unfold delete_queue in Hs.
    destruct (qs_get (s_qs st) q) as [m|]; [|inversion Hs; subst; now left].
    destruct (write_entry P st _) as [st1 [k|e]] eqn:E; [|inversion Hs; subst; discriminate].
    destruct (run_gc_if_necessary P _ hint) as [st3 [k2|e]] eqn:G;
      inversion Hs; subst; [|discriminate].
    right. exists st3. split; [reflexivity|]. intros Ho.
    eapply run_gc_others; [exact G|]. cbn [set_qs s_wr]. eapply write_entry_others; eassumption.
  - destruct (NoopProofs.append_records_cases P st q pos payloads tick)
      as [[out' [Hn Eq]]|(m & position & m' & _ & _ & _ & _ & _ & Eq)]; rewrite Eq in Hs.
    + inversion Hs; subst. left. split; [reflexivity|]. inversion Hn; reflexivity.
    + destruct (write_entry P st _) as [st1 [k|e]] eqn:E; inversion Hs; subst; [|discriminate].
      right. exists st1. split; [|intros Ho; eapply write_entry_others; eassumption].
      cbn [set_qs s_wr]. unfold persist_on_policy. rewrite (write_entry_pol _ _ _ _ _ E), Hc. reflexivity.
  - unfold truncate in Hs.
    destruct (qs_get (s_qs st) q) as [m|]; [|inversion Hs; subst; now left].
    destruct (write_entry P st _) as [st1 [k|e]] eqn:E; [|inversion Hs; subst; discriminate].
    pose proof (write_entry_pol _ _ _ _ _ E) as Ep.
    destruct (truncate_head m p) as [m' ev].
    destruct (run_gc_if_necessary P _ hint) as [st3 [k2|e]] eqn:G;
      inversion Hs; subst; [|discriminate].
    pose proof (run_gc_pol P _ _ _ _ G) as Gp. cbn [set_qs s_pol] in Gp.
    right. exists st3. split.
    + unfold persist_on_policy. rewrite Gp, Ep, Hc. reflexivity.
    + intros Ho. eapply run_gc_others; [exact G|]. cbn [set_qs s_wr].
      eapply write_entry_others; eassumption.
  - subst f. inversion Hs; subst. right. exists st. split; [reflexivity|auto].
Qed.

(* the calls that persist with FlushAndFsync *)
Definition fsync_call (pol : policy) (o : op) : Prop := call_persists true pol o.
(* the calls that at least flush *)
Definition flush_call (pol : policy) (o : op) : Prop :=
  call_persists true pol o \/ call_persists false pol o.

(* a successful call of that kind leaves every write of every file synced and nothing buffered:
   no later power loss can undo it, or anything before it *)
Theorem step_fsync_durable st o tick st' out :
  step P st o tick = (st', out) -> fsync_call (s_pol st) o -> wrote out = true ->
  others_synced (s_wr st) ->
  (forall name, file_synced name (chrono (w_ctx (s_wr st')))) /\ w_pending (s_wr st') = [].
Proof.
  intros Hs Hc Hw Ho.
  assert (Hio : is_io out = false) by (destruct out; try reflexivity; discriminate).
  destruct (step_persist_cases _ _ _ _ _ _ Hs Hc Hio) as [[_ Hn]|[st1 [E H1]]]; [congruence|].
  rewrite E. apply persist_fsync_all_synced. auto.
Qed.

Corollary step_fsync_power st o tick st' out later :
  step P st o tick = (st', out) -> fsync_call (s_pol st) o -> wrote out = true ->
  others_synced (s_wr st) ->
  let evs := chrono (w_ctx (s_wr st')) in
  power_filter evs = evs /\ power_filter (evs ++ later) = evs ++ power_filter later.
Proof.
  intros Hs Hc Hw Ho evs.
  destruct (step_fsync_durable _ _ _ _ _ Hs Hc Hw Ho) as [H _]. split.
  - now apply power_filter_all_synced.
  - now apply power_filter_all_synced_app.
Qed.

(* the calls that refuse or have nothing to do leave the state alone, so "durable" is an
   invariant of such calls as long as they do not fail with an I/O error *)
Theorem step_fsync_durable_inv st o tick st' out :
  step P st o tick = (st', out) -> fsync_call (s_pol st) o -> is_io out = false ->
  durable st -> durable st'.
Proof.
  intros Hs Hc Hio [Ha Hp].
  destruct (step_persist_cases _ _ _ _ _ _ Hs Hc Hio) as [[-> _]|[st1 [E H1]]]; [now split|].
  unfold durable, wr_all_synced. rewrite E. apply persist_fsync_all_synced.
  apply H1. now apply wr_all_synced_others.
Qed.

(* with Flush only: everything accepted has reached the OS (it is in write events) *)
Theorem step_flush_in_os st o tick st' out :
  step P st o tick = (st', out) -> flush_call (s_pol st) o -> is_io out = false ->
  w_pending (s_wr st) = [] -> w_pending (s_wr st') = [].
Proof.
  intros Hs [Hc|Hc] Hio Hp;
    (destruct (step_persist_cases _ _ _ _ _ _ Hs Hc Hio) as [[-> _]|[st1 [E _]]]; [exact Hp|]);
    rewrite E; apply persist_drained.
Qed.

(* with WriterProofs.step_drained / step_bytes_in_write_events: the reported byte count is then
   exactly the number of bytes in the write events of the call *)
Theorem step_flush_in_os_bytes st o tick st' out n a :
  step P st o tick = (st', out) -> outcome_bytes out = Some n ->
  w_pending (s_wr st) = [] ->
  (s_pol st = PAlways a \/ (exists q, o = OCreate q) \/ (exists q h, o = ODelete q h)) ->
  w_pending (s_wr st') = [] /\
  ev_bytes (c_ev (w_ctx (s_wr st'))) = ev_bytes (c_ev (w_ctx (s_wr st))) + n.
Proof.
  intros Hs Hn Hp Hpol. split.
  - eapply step_drained; eassumption.
  - eapply step_bytes_in_write_events; eassumption.
Qed.
End Api.

Definition guarded (new : list event) : Prop := unlink_guarded (rev new).

Lemma nounl_guarded new : nounl new -> guarded new.
Proof. intros H. apply ug_nounlink. now apply Forall_rev. Qed.

Lemma guarded_nil : guarded [].
Proof. apply nounl_guarded, nounl_nil. Qed.
Lemma guarded_app x y : guarded x -> guarded y -> guarded (x ++ y).
Proof. unfold guarded. intros H1 H2. rewrite rev_app_distr. now apply ug_app. Qed.

Lemma guarded_ext_ug w w' :
  ev_ext guarded w w' -> unlink_guarded (chrono (w_ctx w)) -> unlink_guarded (chrono (w_ctx w')).
Proof.
  intros [new [E Hn]] H. unfold chrono. rewrite E, rev_app_distr. now apply ug_app.
Qed.

(* GcProofs.step_carry asks that ANY GC pass (gc_loop from an arbitrary writer) establishes the
   relation.  "Every unlink follows a sync group" is not such a relation: it holds of a GC pass only
   because run_gc_if_necessary persists with fsync right before it.  So here the hypothesis is on
   run_gc_if_necessary as a whole. *)
Section StepRel.
Variable P : params.
Variable R : rwriter -> rwriter -> Prop.
Hypothesis R_refl : forall w, R w w.
Hypothesis R_trans : forall a b c, R a b -> R b c -> R a c.
Hypothesis R_write : forall w d w' r, wr_write P w d = (w', r) -> R w w'.
Hypothesis R_persist : forall w a, R w (wr_persist w a).
Hypothesis R_rungc : forall st hint, R (s_wr st) (s_wr (fst (run_gc_if_necessary P st hint))).

Lemma write_gc_rel st e f hint :
  match write_entry P st e with
  | (st1, Ok _) => R (s_wr st) (s_wr (fst (run_gc_if_necessary P (set_qs st1 (f st1)) hint)))
  | (st1, Err _) => R (s_wr st) (s_wr st1)
  end.
Proof.
  pose proof (write_entry_carry P R R_refl R_trans R_write st e) as H.
  destruct (write_entry P st e) as [st1 [k|err]]; [|exact H].
  eapply R_trans; [exact H|apply (R_rungc (set_qs st1 (f st1)) hint)].
Qed.

Theorem step_rel st o tick : R (s_wr st) (s_wr (fst (step P st o tick))).
Proof.
  destruct o as [q|q hint|q pos payloads|q p hint|a]; cbn [step].
  - unfold create_queue. destruct (qs_contains (s_qs st) q); [apply R_refl|].
    pose proof (write_entry_carry P R R_refl R_trans R_write st (EPosition q 0)) as H.
    destruct (write_entry P st (EPosition q 0)) as [st1 [k|e]]; [|exact H].
    eapply R_trans; [exact H|apply R_persist].
  - unfold delete_queue. destruct (qs_get (s_qs st) q) as [m|]; [|apply R_refl].
    pose proof (write_gc_rel st (EDelete q (next_position m)) (fun s => qs_remove (s_qs s) q) hint) as H.
    destruct (write_entry P st _) as [st1 [k|e]]; [|exact H].
    destruct (run_gc_if_necessary P _ hint) as [st3 [k2|e]]; [|exact H].
    eapply R_trans; [exact H|apply R_persist].
  - destruct (NoopProofs.append_records_cases P st q pos payloads tick)
      as [[out [_ Eq]]|(m & position & m' & _ & _ & _ & _ & _ & Eq)]; rewrite Eq; [apply R_refl|].
    pose proof (write_entry_carry P R R_refl R_trans R_write st
                  (EAppend q position (number_from position payloads))) as H.
    destruct (write_entry P st _) as [st1 [k|e]]; [|exact H].
    eapply R_trans; [exact H|apply (persist_on_policy_carry R R_refl R_persist)].
  - unfold truncate. destruct (qs_get (s_qs st) q) as [m|]; [|apply R_refl].
    pose proof (write_gc_rel st (ETruncate q p)
                  (fun s => qs_put (s_qs s) q (fst (truncate_head m p))) hint) as H.
    destruct (write_entry P st _) as [st1 [k|e]]; [|exact H].
    destruct (truncate_head m p) as [m' ev]. cbn [fst] in H.
    destruct (run_gc_if_necessary P _ hint) as [st3 [k2|e]]; [|exact H].
    eapply R_trans; [exact H|apply (persist_on_policy_carry R R_refl R_persist)].
  - apply R_persist.
Qed.
End StepRel.

Section Gc.
Variable P : params.

Lemma presync_nounl w : ev_ext nounl w (presync w).
Proof.
  destruct (presync_ev w) as [ws [He Hw]].
  exists (rev (sync_group (cur_name w)) ++ ws). split; [rewrite He; apply app_assoc|].
  cbn [sync_group rev app]. repeat (constructor; [cbn; auto|]). eapply cur_writes_nounlink; exact Hw.
Qed.

Lemma bw_flush_nounl w : ev_ext nounl w (bw_flush w).
Proof.
  destruct (bw_flush_ev w) as [ws [He Hw]].
  exists (EvFlush (cur_name w) :: ws). split; [exact He|].
  constructor; [cbn; auto|]. eapply cur_writes_nounlink; exact Hw.
Qed.

Lemma wr_persist_nounl w a : ev_ext nounl w (wr_persist w a).
Proof. destruct a; [apply presync_nounl|apply bw_flush_nounl]. Qed.

Lemma wr_write_nounl w d w' r : wr_write P w d = (w', r) -> ev_ext nounl w w'.
Proof.
  intros H. destruct (wr_write_ev _ _ _ _ _ H) as [[_ He]|[ws [oc [He [Hw Hq]]]]].
  - eapply ev_ext_weaken; [apply cur_writes_nounlink|exact He].
  - eapply ev_ext_trans; [exact nounl_app|apply presync_nounl|].
    exists (ws ++ oc). split; [rewrite He; apply app_assoc|].
    apply nounl_app; [eapply cur_writes_nounlink; exact Hw|now apply quiet_nounl].
Qed.

Lemma wr_write_guarded w d w' r : wr_write P w d = (w', r) -> ev_ext guarded w w'.
Proof.
  intros H. eapply ev_ext_weaken; [exact nounl_guarded|]. eapply wr_write_nounl; exact H.
Qed.

Lemma nounl_refl w : ev_ext nounl w w.
Proof. apply ev_ext_refl, nounl_nil. Qed.
Lemma nounl_trans a b c : ev_ext nounl a b -> ev_ext nounl b c -> ev_ext nounl a c.
Proof. apply ev_ext_trans. exact nounl_app. Qed.

Lemma record_positions_nounl names st acc st' r :
  record_positions P st names acc = (st', r) -> ev_ext nounl (s_wr st) (s_wr st').
Proof.
  intros H.
  pose proof (record_positions_carry P (ev_ext nounl) nounl_refl nounl_trans wr_write_nounl names st acc)
    as C.
  now rewrite H in C.
Qed.
End Gc.

Section GcTheorems.
Variable P : params.
Hypothesis HGC : L_GC P = false.

Lemma record_positions_others names st acc st' r :
  record_positions P st names acc = (st', r) -> others_synced (s_wr st) -> others_synced (s_wr st').
Proof. apply (record_positions_inv P others_synced (wr_write_others P)). Qed.

(* what a GC call adds to the trace (sync groups read most recent first): either no unlink at
   all, or unlinks ++ sync group ++ older, and at the moment of the first unlink (state stm)
   nothing was buffered and every file was synced *)
Lemma run_gc_events st hint st' r :
  run_gc_if_necessary P st hint = (st', r) ->
  exists new, c_ev (w_ctx (s_wr st')) = new ++ c_ev (w_ctx (s_wr st)) /\
  (nounl new \/
   exists unlinks older stm,
     let f := filename (w_file (s_wr st')) in
     new = unlinks ++ rev (sync_group f) ++ older /\
     Forall is_unlink unlinks /\ nounl older /\
     c_ev (w_ctx (s_wr stm)) = rev (sync_group f) ++ older ++ c_ev (w_ctx (s_wr st)) /\
     w_file (s_wr stm) = w_file (s_wr st') /\
     w_pending (s_wr stm) = [] /\
     w_pending (s_wr st') = [] /\
     (others_synced (s_wr st) -> wr_all_synced (s_wr stm) /\ wr_all_synced (s_wr st'))).
Proof.
  unfold run_gc_if_necessary. destruct (has_deletable st).
  2:{ intros H; inversion H; subst. exists []. split; [reflexivity|left; apply nounl_nil]. }
  unfold record_empty_queues_position. rewrite HGC. cbn [andb].
  destruct (record_positions P st _ 0) as [st1 [k|e]] eqn:E;
    pose proof (record_positions_nounl P _ _ _ _ _ E) as [older0 [E1 Q1]].
  2:{ intros H; inversion H; subst. exists older0. auto. }
  pose proof (record_positions_others _ _ _ _ _ E) as Ho1.
  set (stm := persist st1 true).
  destruct (gc_loop (w_ctx (s_wr stm)) (w_files (s_wr stm)) _) as [[c files] rr] eqn:G.
  intros H.
  pose proof (gc_loop_unlinks _ _ _ _ _ _ G) as [us [He Hu]].
  assert (Hm : s_wr stm = presync (s_wr st1)) by reflexivity.
  destruct (presync_ev (s_wr st1)) as [ws [Hp Hw]].
  destruct (presync_same (s_wr st1)) as [Hf [_ [_ Hpend]]].
  assert (Hst' : s_wr st' = mkWr c files (w_file (s_wr stm)) (w_off (s_wr stm)) (w_pending (s_wr stm))).
  { destruct rr as [[]|e]; inversion H; subst; reflexivity. }
  assert (Hcm : c_ev (w_ctx (s_wr stm)) =
                rev (sync_group (filename (w_file (s_wr stm)))) ++ (ws ++ older0) ++ c_ev (w_ctx (s_wr st))).
  { rewrite Hm, Hp, E1, Hf. unfold cur_name. now rewrite <- app_assoc. }
  rewrite Hst'. cbn [w_ctx w_file w_pending].
  exists (us ++ rev (sync_group (filename (w_file (s_wr stm)))) ++ ws ++ older0).
  split; [rewrite He, Hcm; now rewrite <- !app_assoc|].
  right. exists us, (ws ++ older0), stm. cbn zeta.
  split; [reflexivity|].
  split; [exact Hu|].
  split; [apply nounl_app; [eapply cur_writes_nounlink; exact Hw|exact Q1]|].
  split; [exact Hcm|].
  split; [reflexivity|].
  split; [rewrite Hm; exact Hpend|].
  split; [rewrite Hm; exact Hpend|].
  intros Ho. assert (Ha : wr_all_synced (s_wr stm)).
  { rewrite Hm. apply presync_all_synced. auto. }
  split; [exact Ha|]. eapply gc_loop_all_synced; [exact G|exact Ha].
Qed.

Lemma run_gc_ext st hint st' r :
  run_gc_if_necessary P st hint = (st', r) ->
  exists new, c_ev (w_ctx (s_wr st')) = new ++ c_ev (w_ctx (s_wr st)).
Proof.
  intros H. apply run_gc_events in H. destruct H as [new [E _]]. now exists new.
Qed.

Lemma In_unlink_nounl name l : nounl l -> ~ In (EvUnlink name) l.
Proof. intros H Hin. unfold nounl in H. rewrite Forall_forall in H. apply (H _ Hin). exact I. Qed.

(* GC: a file is unlinked only after flush + sync_data + sync_dir of the current file,
   with nothing buffered and (given the invariant) every file synced at that moment *)
Theorem gc_unlinks_after_sync st hint st' r new :
  run_gc_if_necessary P st hint = (st', r) ->
  c_ev (w_ctx (s_wr st')) = new ++ c_ev (w_ctx (s_wr st)) ->
  (exists name, In (EvUnlink name) new) ->
  exists unlinks older stm,
    let f := filename (w_file (s_wr st')) in
    new = unlinks ++ [EvSyncDir; EvSyncData f; EvFlush f] ++ older /\
    Forall is_unlink unlinks /\
    Forall (fun e => ~ is_unlink e) older /\
    (* stm: the state when the first unlink is issued *)
    c_ev (w_ctx (s_wr stm)) = [EvSyncDir; EvSyncData f; EvFlush f] ++ older ++ c_ev (w_ctx (s_wr st)) /\
    w_file (s_wr stm) = w_file (s_wr st') /\
    w_pending (s_wr stm) = [] /\
    (others_synced (s_wr st) -> forall name, file_synced name (chrono (w_ctx (s_wr stm)))).
Proof.
  intros H Hnew [name Hin]. apply run_gc_events in H. destruct H as [new' [E Hr]].
  rewrite E in Hnew. apply app_inv_tail in Hnew. subst new'.
  destruct Hr as [Q|[us [older [stm [En [Hu [Ho [Em [Hf [Hp [_ Hs]]]]]]]]]]].
  - exfalso. eapply In_unlink_nounl; eassumption.
  - exists us, older, stm. cbn zeta in *.
    split; [exact En|]. split; [exact Hu|]. split; [exact Ho|]. split; [exact Em|].
    split; [exact Hf|]. split; [exact Hp|]. intros Hos. apply Hs. exact Hos.
Qed.

Lemma guarded_refl w : ev_ext guarded w w.
Proof. apply ev_ext_refl, guarded_nil. Qed.
Lemma guarded_trans a b c : ev_ext guarded a b -> ev_ext guarded b c -> ev_ext guarded a c.
Proof. apply ev_ext_trans. exact guarded_app. Qed.

Lemma run_gc_guarded_ext st hint :
  ev_ext guarded (s_wr st) (s_wr (fst (run_gc_if_necessary P st hint))).
Proof.
  destruct (run_gc_if_necessary P st hint) as [st' r] eqn:H. apply run_gc_events in H.
  destruct H as [new [E [Q|(us & older & stm & En & Hu & Ho & _)]]]; exists new; (split; [exact E|]).
  - now apply nounl_guarded.
  - cbn zeta in En. subst new. unfold guarded. rewrite !rev_app_distr, rev_involutive, <- app_assoc.
    apply ug_group; [apply ug_nounlink|]; now apply Forall_rev.
Qed.

(* in the events added by any call, every unlink is preceded (chronologically) by
   flush + sync_data + sync_dir with only unlinks in between *)
Theorem step_unlinks_after_sync st o tick :
  exists new,
    c_ev (w_ctx (s_wr (fst (step P st o tick)))) = new ++ c_ev (w_ctx (s_wr st)) /\
    unlink_guarded (rev new).
Proof.
  apply (step_rel P (ev_ext guarded) guarded_refl guarded_trans (wr_write_guarded P)).
  - intros w a. eapply ev_ext_weaken; [exact nounl_guarded|apply wr_persist_nounl].
  - exact run_gc_guarded_ext.
Qed.

(* hence the predicate is preserved by step, and by any history, from any trace satisfying it *)
Theorem step_unlink_guarded st o tick :
  unlink_guarded (chrono (w_ctx (s_wr st))) ->
  unlink_guarded (chrono (w_ctx (s_wr (fst (step P st o tick))))).
Proof.
  apply guarded_ext_ug. apply step_unlinks_after_sync.
Qed.

Theorem run_unlink_guarded : forall h st,
  unlink_guarded (chrono (w_ctx (s_wr st))) ->
  unlink_guarded (chrono (w_ctx (s_wr (fst (run P st h))))).
Proof.
  exact (run_preserves P (fun st => unlink_guarded (chrono (w_ctx (s_wr st)))) step_unlink_guarded).
Qed.

(* in particular no write event ever sits between the sync group and an unlink *)
Corollary unlink_guarded_no_write evs pre name post :
  unlink_guarded evs -> evs = pre ++ EvUnlink name :: post ->
  exists pre1 f pre2, pre = pre1 ++ [EvFlush f; EvSyncData f; EvSyncDir] ++ pre2 /\
                      forall n off d, ~ In (EvWrite n off d) pre2.
Proof.
  intros H Hd. destruct (H pre name post Hd) as [pre1 [f [pre2 [Hp Hu]]]].
  exists pre1, f, pre2. split; [exact Hp|]. intros n off d Hin.
  rewrite Forall_forall in Hu. exact (Hu _ Hin).
Qed.
End GcTheorems.

(* Opening a log only reads, creates, resizes: the trace of the reader has no write and no
   unlink; the GC pass at the end of open goes through the same code as above.  Hence both
   invariants (others_synced, unlink_guarded) hold for the state returned by open, and by the
   theorems above after any history of calls. *)
Definition quiet (c : ioctx) : Prop := Forall quiet_ev (c_ev c).

Lemma quiet_ext_quiet c c' : quiet_ext c c' -> quiet c -> quiet c'.
Proof. unfold quiet. intros [oc [-> Hq]] H. apply Forall_app. now split. Qed.

Lemma quiet_same c c' : c_ev c' = c_ev c -> quiet c -> quiet c'.
Proof. unfold quiet. now intros ->. Qed.

Lemma quiet_ctx_ev c e : quiet_ev e -> quiet c -> quiet (ctx_ev c e).
Proof. unfold quiet. intros He H. now constructor. Qed.

Section Open.
Variable P : params.

Lemma fault_point_quiet c s : quiet c -> quiet (fst (fault_point c s)).
Proof. apply quiet_same. apply fault_point_ev. Qed.

Lemma open_file_quiet c n : quiet c -> quiet (fst (open_file c n)).
Proof.
  destruct (open_file c n) as [c' r] eqn:E. apply open_file_ev in E. now apply quiet_ext_quiet.
Qed.

Lemma create_file_quiet c n : quiet c -> quiet (fst (create_file P c n)).
Proof.
  destruct (create_file P c n) as [c' r] eqn:E. apply create_file_ev in E. now apply quiet_ext_quiet.
Qed.

Lemma read_block_quiet c n pos : quiet c -> quiet (fst (fst (read_block P c n pos))).
Proof.
  intros H. unfold read_block. pose proof (fault_point_quiet c SRead H) as Hf.
  destruct (fault_point c SRead) as [c1 [e|]]; cbn [fst] in *.
  - apply quiet_ctx_ev; [exact I|exact Hf].
  - destruct (pos + BS P <=? lenN (file_content c1 n)); cbn [fst];
      (apply quiet_ctx_ev; [exact I|exact Hf]).
Qed.

Lemma next_file_loop_quiet cands : forall c rd,
  quiet c -> quiet (rd_ctx (fst (next_file_loop P c cands rd))).
Proof.
  induction cands as [|n rest IH]; intros c rd H; cbn [next_file_loop].
  - exact H.
  - pose proof (open_file_quiet c n H) as Ho.
    destruct (open_file c n) as [c1 [[]|e]]; cbn [fst] in *; [|exact Ho].
    pose proof (read_block_quiet c1 n 0 Ho) as Hr.
    destruct (read_block P c1 n 0) as [[c2 pos'] [[blk|]|e]]; cbn [fst rd_ctx] in *.
    + exact Hr.
    + now apply IH.
    + exact Hr.
Qed.

Lemma rd_next_quiet rd : quiet (rd_ctx rd) -> quiet (rd_ctx (fst (rd_next P rd))).
Proof.
  intros H. unfold rd_next.
  pose proof (read_block_quiet (rd_ctx rd) (rd_file rd) (rd_pos rd) H) as Hr.
  destruct (read_block P (rd_ctx rd) (rd_file rd) (rd_pos rd)) as [[c1 pos'] [[blk|]|e]];
    cbn [fst rd_ctx] in *; try exact Hr.
  now apply next_file_loop_quiet.
Qed.

Lemma ensure_last_full_quiet c files : quiet c -> quiet (fst (ensure_last_full P c files)).
Proof.
  intros H. unfold ensure_last_full. destruct (last_opt files) as [n|]; [|exact H].
  destruct (lenN (file_content c n) <? FILE_BYTES P); [|exact H].
  pose proof (open_file_quiet c n H) as Ho.
  destruct (open_file c n) as [c1 [[]|e]]; cbn [fst] in *; [|exact Ho].
  apply quiet_ctx_ev; [exact I|]. eapply quiet_same; [|exact Ho]. reflexivity.
Qed.

Lemma rd_tail_quiet c2 files : quiet c2 -> quiet (fst (OpenTerm.rd_open_tail P c2 files)).
Proof.
  intros H2. unfold OpenTerm.rd_open_tail.
  assert (H3 : quiet (fst (if L_SHORT P then (c2, Ok tt) else ensure_last_full P c2 files))).
  { destruct (L_SHORT P); [exact H2|]. now apply ensure_last_full_quiet. }
  destruct (if L_SHORT P then (c2, Ok tt) else ensure_last_full P c2 files) as [c2' [[]|e]];
    cbn [fst] in *; [|exact H3].
  set (first := match files with f :: _ => f | [] => 0 end).
  pose proof (open_file_quiet c2' first H3) as Ho.
  destruct (open_file c2' first) as [c3 [[]|e]]; cbn [fst] in *; [|exact Ho].
  pose proof (read_block_quiet c3 first 0 Ho) as Hr.
  destruct (read_block P c3 first 0) as [[c4 pos'] [[blk|]|e]]; cbn [fst] in *; exact Hr.
Qed.

Lemma rd_open_quiet c0 : quiet c0 -> quiet (fst (rd_open P c0)).
Proof.
  intros H. rewrite OpenTerm.rd_open_eq.
  assert (H0 : quiet (ctx_ev c0 EvReadDir)) by (apply quiet_ctx_ev; [exact I|exact H]).
  pose proof (fault_point_quiet _ SReadDir H0) as Hf.
  destruct (fault_point (ctx_ev c0 EvReadDir) SReadDir) as [c1 [e|]]; cbn [fst] in *; [exact Hf|].
  destruct (list_wal_numbers (c_fs c1)) as [|x l]; [|now apply rd_tail_quiet].
  pose proof (create_file_quiet c1 0 Hf) as Hc.
  destruct (create_file P c1 0) as [c' [[]|e]]; cbn [fst] in *;
    [now apply rd_tail_quiet|exact Hc].
Qed.

Lemma replay_loop_quiet fuel gofuel rr qs :
  quiet (reader_ctx rr) -> quiet (reader_ctx (fst (replay_loop P fuel gofuel rr qs))).
Proof. exact (replay_loop_rd_inv P (fun r => quiet (rd_ctx r)) rd_next_quiet fuel gofuel rr qs). Qed.

(* a freshly opened writer (no write events yet) satisfies the invariant *)
Lemma quiet_all_synced w : quiet (w_ctx w) -> wr_all_synced w.
Proof.
  intros H. apply all_rs. intros name. rewrite <- (app_nil_r (c_ev (w_ctx w))).
  apply rsynced_ext; [now apply quiet_no_write|exact I].
Qed.

Lemma quiet_unlink_guarded c : quiet c -> unlink_guarded (chrono c).
Proof. intros H. apply ug_nounlink. apply Forall_rev. now apply quiet_nounl. Qed.

Lemma run_gc_guarded st hint st' r :
  L_GC P = false -> run_gc_if_necessary P st hint = (st', r) ->
  unlink_guarded (chrono (w_ctx (s_wr st))) -> unlink_guarded (chrono (w_ctx (s_wr st'))).
Proof.
  intros HGC H. apply guarded_ext_ug.
  pose proof (run_gc_guarded_ext P HGC st hint) as C. now rewrite H in C.
Qed.

(* the state returned by a successful open satisfies both invariants *)
Theorem open_invariants fs plan pol hint st :
  open P fs plan pol hint = OpenOk st ->
  others_synced (s_wr st) /\
  (L_GC P = false -> unlink_guarded (chrono (w_ctx (s_wr st)))).
Proof.
  unfold open, open_with.
  assert (Hq0 : quiet (ctx_init fs plan)) by constructor.
  pose proof (rd_open_quiet _ Hq0) as H1.
  destruct (EffectsProofs.rd_open_cext P (ctx_init fs plan)) as [_ H2].
  destruct (rd_open P (ctx_init fs plan)) as [c [rd|e]]; cbn [fst snd] in *; [|discriminate].
  specialize (H2 rd eq_refl).
  assert (H0 : quiet (reader_ctx (rr_open rreaderS rd))).
  { unfold reader_ctx, rr_open, fr_open. cbn [rr_fr fr_rd]. rewrite H2. exact H1. }
  pose proof (replay_loop_quiet (open_fuel P fs) (open_fuel P fs) (rr_open rreaderS rd) [] H0) as Hr.
  destruct (replay_loop P _ _ (rr_open rreaderS rd) []) as [rr [qs| |e|]];
    cbn [fst] in *; try discriminate.
  cbv zeta.
  match goal with |- context [run_gc_if_necessary P ?st0 hint] =>
    destruct (run_gc_if_necessary P st0 hint) as [st1 [k|e]] eqn:G end; [|discriminate].
  intros H; inversion H; subst st1; clear H.
  assert (Hq : quiet (w_ctx (rd_into_writer P (fr_rd (rr_fr rr)) (fr_cursor (rr_fr rr))))) by exact Hr.
  split.
  - eapply run_gc_others; [exact G|]. cbn [s_wr].
    apply wr_all_synced_others. now apply quiet_all_synced.
  - intros HGC. eapply run_gc_guarded; [exact HGC|exact G|]. cbn [s_wr].
    now apply quiet_unlink_guarded.
Qed.

(* C03 for whole histories from open *)
Corollary open_run_invariants fs plan pol hint st h :
  open P fs plan pol hint = OpenOk st ->
  others_synced (s_wr (fst (run P st h))) /\
  (L_GC P = false -> unlink_guarded (chrono (w_ctx (s_wr (fst (run P st h)))))).
Proof.
  intros H. apply open_invariants in H. destruct H as [H1 H2]. split.
  - now apply run_others_synced.
  - intros HGC. apply run_unlink_guarded; auto.
Qed.
End Open.

Print Assumptions persist_fsync_all_synced.
Print Assumptions persist_fsync_power.
Print Assumptions power_filter_all_synced_app.
Print Assumptions step_fsync_durable.
Print Assumptions step_fsync_power.
Print Assumptions step_fsync_durable_inv.
Print Assumptions step_flush_in_os.
Print Assumptions step_flush_in_os_bytes.
Print Assumptions step_others_synced.
Print Assumptions run_others_synced.
Print Assumptions gc_unlinks_after_sync.
Print Assumptions step_unlinks_after_sync.
Print Assumptions step_unlink_guarded.
Print Assumptions run_unlink_guarded.
Print Assumptions open_invariants.
Print Assumptions open_run_invariants.
