(* JRecoverPk.v — `open` of a (crash) image whose stream is PRE ++ zeros establishes the
   junk-tolerant invariant InvJ PRE OLD opos, given (rc_hyps)
   - the description of the image directory (as CrashTrace.crash_image_shape gives it),
   - pre_reads for PRE (what a reader delivers out of it),
   - a logical ghost Glog for the delivered entries (LInv qs_log lo_log Glog, gh_ALL Glog = OLD).
   The recovered queues are abstractly those of qs_log. *)
From Coq Require Import Lia ZArith ZifyN ZifyNat ZifyBool List Sorted.
From MRL Require Import Bytes BytesProofs Params Names NamesProofs Frame Record Mem Spec Rolling Log
  Driver Hist NoopProofs SpecRefine RecordProofs StreamProofs PolicyProofs GcProofs GhostLog ReplaySpec
  HandleProofs FileStream ResyncProofs QueueIso RestartInv RestartWrite RestartGc RestartStep
  OpenReplay RestartFinal TornProofs TornFile CrashTrace CrashAtomic
  JInv JGc JStep JunkStream JReopen JRecoverL JRecoverP JOpenQuiet.

Section Pk.
Variable P : params.
Hypothesis HBS_lo : 7 < BS P.
Hypothesis HBS_hi : BS P <= 65542.
Hypothesis HNB : 1 <= NB P.
Hypothesis Hcrc : forall t p, crcf P t p < 2 ^ 32.
Hypothesis HGC : L_GC P = false.
Hypothesis HIO : L_IO P = false.
Hypothesis HSHORT : L_SHORT P = false.

Local Notation B := (BS P).
Local Notation FB := (FILE_BYTES P).
Local Notation ffp := (first_frame_pos P).
Local Notation cursor_after := (cursor_after P).
Local Notation ser := (map entry_ser).

Definition rc_hyps (PRE : bytes) (OLD : list entry) (opos : list (N * N)) (adm : N -> Prop) (rm : N)
    (img : fsT) (lo' : N) (n : nat) (base zz : N) (qs_log : queues) (lo_log : N) (Glog : ghost) : Prop :=
  let files := iota lo' (Datatypes.S n) in
  let hi := lo' + N.of_nat n in
  let b' := (lo' - base) * FB in
  list_wal_numbers img = files /\
  (forall f, In f files ->
     exists b, fs_get img (filename f) = Some (FFile b) /\ lenN b <= FB /\ (f <> hi -> lenN b = FB)) /\
  base <= lo' /\ hi <= U64_MAX /\ nodup_keys img /\ dir_of img files /\
  (forall x, hi < x -> x <= U64_MAX -> fs_get img (filename x) = None) /\
  stream_of (fs_ext P img lo' n) files = dropN b' (PRE ++ zerosN zz) /\
  lenN (PRE ++ zerosN zz) = (hi - base + 1) * FB /\
  adm ((lo' - base) * NB P) /\
  lenN PRE + rm <= lenN (PRE ++ zerosN zz) /\
  Forall wf_entry OLD /\
  (hi - base) * FB <= ffp (lenN PRE) /\
  b' <= ffp (lenN PRE) /\
  LInv qs_log lo_log Glog /\ gh_ALL Glog = OLD /\ gh_base Glog = base /\
  Forall (fun s => b' <= snd s) (skipn (gh_k Glog) opos) /\
  (forall extra, pos_extra (abs_qs qs_log) extra ->
     FB * base + cursor_after (lenN PRE) (ser extra) <= FB * (U64_MAX + 1)).


(* The writer w0 that `open` makes on the zero-extended image, once it is known to stand in the
   last listed file (JRecoverP.recovered_in_top_file): the writer invariants, and its position. *)
Lemma reopened_writer img lo' n base w0 tags sts pf :
  let files := iota lo' (Datatypes.S n) in
  let hi := lo' + N.of_nat n in
  list_wal_numbers img = files ->
  (forall f, In f files ->
     exists b, fs_get img (filename f) = Some (FFile b) /\ lenN b <= FB /\ (f <> hi -> lenN b = FB)) ->
  base <= lo' -> hi <= U64_MAX -> nodup_keys img -> dir_of img files ->
  (forall x, hi < x -> x <= U64_MAX -> fs_get img (filename x) = None) ->
  fspec P lo' n base (fs_ext P img lo' n) w0 tags sts pf -> w_file w0 = hi ->
  winv P w0 /\ wd_ok w0 /\ nd w0 /\ wlo w0 = lo' /\ lenN (w_files w0) = N.of_nat n + 1 /\
  (lo' - base) * FB + wpos P w0 = pf.
Proof.
  clear HGC HIO HSHORT.
  intros files hi Hlistx Hfilesx Hbase Hhimax Hndk Hdir Htop
         (_ & _ & _ & _ & Hfl & _ & _ & Hoff & Hpos & Hpend & Hfs & Hplan) Hwf0.
  assert (Hv : vfs w0 = fs_ext P img lo' n) by (rewrite (vfs_nil _ Hpend); exact Hfs).
  assert (Hok0 : wr_ok w0).
  { split.
    - rewrite Hfl. apply contiguous_iota. now exists lo', n.
    - rewrite Hfl, (iota_last P HBS_lo HBS_hi HNB), Hwf0. reflexivity. }
  assert (Hnf0 : lenN (w_files w0) = N.of_nat n + 1) by (rewrite Hfl; unfold files; rewrite lenN_iota; lia).
  assert (Elo0 : wlo w0 = lo') by (unfold wlo; rewrite Hnf0, Hwf0; unfold hi; lia).
  assert (Hin_hi : In hi files) by (apply iota_In; unfold hi; lia).
  split.
  { split; [exact Hok0|]. split; [apply wf_nil; exact Hpend|]. split; [exact Hoff|].
    split; [exact Hplan|]. split; [rewrite Hwf0; exact Hhimax|]. rewrite Hv, Hfl, Hwf0.
    split.
    - exact (Hfull_ext P HBS_lo HBS_hi HNB img lo' n Hlistx Hfilesx).
    - intros x Hx1 Hx2. unfold TornFile.fs_ext. rewrite fs_get_put_other; [now apply Htop|].
      apply filename_neq; fold hi; clear - Hx1 Hx2 Hhimax; lia. }
  split.
  { split; [exact Hok0|]. intros _. unfold dir_ok. rewrite Hfs, Hfl.
    unfold TornFile.fs_ext. apply dir_of_put_in; [exact Hdir|exact Hhimax|exact Hin_hi]. }
  split; [unfold nd; rewrite Hfs; unfold TornFile.fs_ext; now apply nodup_keys_put|].
  split; [exact Elo0|]. split; [exact Hnf0|].
  unfold wpos. rewrite Hnf0, <- Hpos, Hwf0.
  replace (hi - base) with ((lo' - base) + N.of_nat n) by (unfold hi; clear - Hbase; lia).
  replace (N.of_nat n + 1 - 1) with (N.of_nat n) by lia. rewrite N.mul_add_distr_r. apply N.add_assoc.
Qed.

Section Core.
Variable PRE : bytes.
Variable OLD : list entry.
Variable opos : list (N * N).
Variable adm : N -> Prop.
Variable cmax : nat.
Variable rm : N.
Variable img : fsT.
Variable lo' : N.
Variable n : nat.
Variable base zz : N.
Variable qs_log : queues.
Variable lo_log : N.
Variable Glog : ghost.
Hypothesis Hpre : pre_ok PRE OLD opos.
Hypothesis Hrd : pre_reads P PRE (ser OLD) opos adm cmax rm.
Hypothesis Hrc : rc_hyps PRE OLD opos adm rm img lo' n base zz qs_log lo_log Glog.

Local Notation PInvJ := (PInvJ P PRE OLD opos).
Local Notation InvJ := (InvJ P PRE OLD opos).
Local Notation jT := (jT P PRE OLD).
Local Notation jpos := (jpos P PRE OLD opos).
Local Notation files := (iota lo' (Datatypes.S n)).
Local Notation hi := (lo' + N.of_nat n).
Local Notation b' := ((lo' - base) * FB).
Local Notation kb := ((lo' - base) * NB P).
Local Notation fsx := (fs_ext P img lo' n).
Local Notation S_all := (PRE ++ zerosN zz).

(* Besides the recovered state, the statement gives the state before the recovery-time GC, its
   invariant and the trace facts of the reading phase. *)
Theorem recover_core_x_pk pol hint :
  exists w0 qs0 G0 A k st_r G_r,
    InvJ (mkSt w0 qs0 pol) G0 /\ gh_base G0 = gh_base Glog /\ w_pending w0 = [] /\
    w_file w0 = hi /\ wlo w0 = lo' /\ jNEW OLD G0 = [] /\ lenN PRE <= (hi - base) * FB + w_off w0 /\
    (forall q, s_get (abs_qs qs0) q = s_get (abs_qs qs_log) q) /\
    c_ev (w_ctx w0) = rev A /\ c_fs (w_ctx w0) = fsx /\ fold_left apply_event A img = fsx /\
    (forall pe, cpre pe A -> fold_left apply_event pe img = img \/ fold_left apply_event pe img = fsx) /\
    run_gc_if_necessary P (mkSt w0 qs0 pol) hint = (st_r, Ok k) /\
    open P img None pol hint = OpenOk st_r /\ InvJ st_r G_r /\
    (forall q, s_get (abs_qs (s_qs st_r)) q = s_get (abs_qs qs_log) q) /\
    gh_base G_r = gh_base Glog /\ hi <= w_file (s_wr st_r) /\ s_pol st_r = pol /\
    w_pending (s_wr st_r) = [].
Proof.
  destruct Hrc as (Hlistx & Hfilesx & Hbase & Hhimax & Hndk & Hdir & Htop & HSt & HlenS & Hadm & Hroom &
                   HwfO & Hhi & Hbffp & HLlog & HALL & Hbaselog_eq & Hklog & Hgcb).
  pose proof (FB_eq P HBS_lo HBS_hi HNB) as FBeq.
  assert (Hkb : kb * B = b') by (rewrite FBeq; lia).
  pose proof Hpre as (Hol & Hob & Hos).
  assert (HFBpos : 0 < FB) by (rewrite FBeq; nia).
  assert (Hok : stream_ok P S_all).
  { exists ((hi - base + 1) * NB P). rewrite HlenS, FBeq. lia. }
  assert (Hblk : (kb + 1) * B <= lenN S_all).
  { rewrite HlenS, FBeq.
    replace (hi - base + 1) with ((lo' - base) + (N.of_nat n + 1)) by lia. nia. }
  set (F := (N.to_nat (lenN S_all + 22) + length OLD + cmax)%nat).
  destruct (Hrd kb [] [] zz S_all [] F (ES_nil P (lenN PRE)) eq_refl Hok Hblk Hadm Hroom
              ltac:(unfold F; lia)) as (rrs & c & rrf & HD).
  cbv zeta in HD. cbn [ResyncProofs.starts] in HD. rewrite !app_nil_r, (@lenN_nil byte), N.add_0_r in HD.
  rewrite Hkb in HD.
  destruct (sorted_split_at opos b' Hos) as (m & Hm & Hlt & Hge).
  assert (Hlser : length (ser OLD) = length opos) by (rewrite map_length; lia).
  rewrite (dfilter_split P HBS_lo HBS_hi Hcrc b' (ser OLD) opos m Hlser Hlt Hge) in HD.
  assert (Hl2 : length (skipn m (ser OLD)) = length (skipn m opos)) by (rewrite !skipn_length; lia).
  rewrite (map_fst_combine _ _ Hl2), (map_snd_combine _ _ Hl2), combine_length, <- Hl2, Nat.min_id in HD.
  destruct HD as (Hlen & HrdV & Hc & Htr & Hend).
  rewrite skipn_map' in *.
  set (E_pre := firstn m OLD). set (E_suf := skipn m OLD) in *.
  assert (HEsplit : OLD = E_pre ++ E_suf) by (symmetry; apply firstn_skipn).
  assert (HlEpre : length E_pre = m) by (unfold E_pre; rewrite firstn_length; lia).
  assert (Hmk : (m <= gh_k Glog)%nat) by (exact (split_index_le opos b' m _ Hm Hlt Hklog)).
  set (e := N.max b' (lenN PRE)) in *.
  destruct (at_end_fin_x P HBS_lo HBS_hi S_all (rr_fr rrf) e Hend)
    as (pf & Hfin & Hpf1 & Hpf2 & Hpfcase).
  assert (Hpf3 : pf <= ffp (lenN PRE)).
  { unfold e in *. destruct (N.le_gt_cases b' (lenN PRE)) as [Hle|Hgt].
    - replace (N.max b' (lenN PRE)) with (lenN PRE) in Hpf2 by lia. exact Hpf2.
    - replace (N.max b' (lenN PRE)) with b' in Hpf2 by lia.
      rewrite <- Hkb, (ffp_aligned P HBS_lo HBS_hi), Hkb in Hpf2. lia. }
  destruct (rd_open_short P HBS_lo HBS_hi HNB Hcrc img lo' n Hlistx Hfilesx HSHORT)
    as (c0 & rd & Hopen & Hrel).
  assert (HwfS : Forall wf_entry E_suf).
  { rewrite HEsplit in HwfO. apply Forall_app in HwfO. apply HwfO. }
  destruct (open_of_trace_y P HBS_lo HBS_hi HNB Hcrc HIO img lo' n base S_all Hlistx Hfilesx Hbase HSt HlenS
              F c0 rd rrs (ser E_suf) (skipn m opos) c rrf pf E_suf pol hint
              Hopen Hrel Hlen HrdV Htr Hfin eq_refl HwfS)
    as (rrfF & tags & Hspec & Hx & Hres).
  { rewrite map_length. unfold E_suf. rewrite skipn_length. unfold F. lia. }
  cbv zeta in Hspec, Hres, Hx.
  set (w0 := rd_into_writer P (fr_rd (rr_fr rrfF)) (fr_cursor (rr_fr rrfF))) in *.
  pose proof Hspec as (Htl & HF2 & Hsorted & Hrange & Hfl & Hlo & Hcur & Hoff & Hpos & Hpend & Hfs & Hplan).
  assert (HtlE : length tags = length E_suf).
  { rewrite Htl. unfold E_suf. rewrite !skipn_length. lia. }
  destruct (linv_suffix_equal qs_log lo_log Glog E_pre E_suf HLlog ltac:(rewrite HALL; exact HEsplit)
              ltac:(lia) (combine tags E_suf) (map_snd_combine _ _ HtlE))
    as (qs' & Hrep & Hqi & Hndq & Heq).
  rewrite Hrep in Hres. destruct Hres as (Hres & Hloop).
  set (G0 := gh_resplit Glog E_pre E_suf tags).
  assert (HL0 : LInv qs' lo' G0).
  { apply (linv_reopen_suffix qs_log lo_log); try assumption.
    - rewrite HALL. exact HEsplit.
    - lia.
    - eapply Forall_impl; [|exact Hrange]. intros f [Hf _]. exact Hf.
    - exact (qs_wf_ext _ _ (LInv_qs_wf _ _ _ HLlog) Hndq Heq). }
  assert (EALL0 : gh_ALL G0 = OLD).
  { unfold G0. rewrite (gh_resplit_ALL Glog E_pre E_suf tags HtlE). now symmetry. }
  assert (Ek0 : gh_k G0 = m).
  { unfold G0, gh_k, gh_resplit. cbn [gh_dropped gh_pre length]. lia. }
  assert (Hwf0 : w_file w0 = hi).
  { apply (recovered_in_top_file P HBS_lo HBS_hi HNB base hi (w_file w0) (w_off w0) pf e
             (fr_cursor (rr_fr rrf)) (lenN PRE) (lenN S_all)); try assumption; lia. }
  destruct (reopened_writer img lo' n base w0 tags (skipn m opos) pf Hlistx Hfilesx Hbase Hhimax Hndk Hdir Htop
              Hspec Hwf0)
    as (Hw0 & Hwd0 & Hnd0 & Elo0 & Hnf0 & Ecur).
  pose proof Hw0 as (Hok0 & _).
  assert (Hv : vfs w0 = fsx) by (rewrite (vfs_nil _ Hpend); exact Hfs).
  assert (EjN : jNEW OLD G0 = []) by (unfold JInv.jNEW; rewrite EALL0; apply skipn_all).
  assert (HP0 : PInvJ w0 G0).
  { unfold JInv.PInvJ. cbn zeta.
    assert (EjT : jT G0 = PRE).
    { unfold JInv.jT, JInv.jser. rewrite EjN. cbn [map ResyncProofs.encs_of]. apply app_nil_r. }
    assert (Ejp : jpos G0 = opos).
    { unfold JInv.jpos, JInv.jser. rewrite EjN. cbn [map ResyncProofs.starts]. apply app_nil_r. }
    rewrite EjT, Ejp, EALL0, Ek0, Elo0. change (gh_base G0) with (gh_base Glog).
    split; [exact Hw0|]. split; [exact Hwd0|]. split; [exact Hnd0|].
    split; [rewrite Hbaselog_eq; exact Hbase|].
    rewrite Hbaselog_eq, Ecur.
    split; [lia|]. split; [exact Hpf3|].
    split.
    { unfold wstream. rewrite Hnf0, Hv, Hfl, HSt. f_equal. f_equal. f_equal.
      rewrite lenN_app, lenN_zerosN in HlenS.
      replace (lo' - base + (N.of_nat n + 1)) with (hi - base + 1) by lia. lia. }
    split; [exact HwfO|]. split; [apply firstn_all|].
    split; [exact Hlt|].
    split.
    { cbn [G0 gh_resplit gh_E].
      assert (H1 : Forall2 (fun (fe : N * entry) s => (fst fe - base) * FB <= snd s)
                     (combine tags E_suf) (skipn m opos)).
      { apply (Forall2_combine_l (fun f s => (f - base) * FB <= snd s)); [exact HtlE|exact HF2]. }
      pose proof (Forall2_Forall_r _ _ _ _ H1 Hge) as H12.
      eapply Forall2_impl'; [|exact H12]. cbn beta. intros fe s [Hx' Hy]. split; assumption. }
    change (gh_log G0) with (combine tags E_suf).
    apply tags_mono_combine.
    - exact HtlE.
    - exact Hsorted.
    - eapply Forall_impl; [|exact Hrange]. cbn beta. intros f [Hf1 Hf2]. lia.
    - lia. }
  set (st0 := mkSt w0 qs' pol).
  assert (HI0 : InvJ st0 G0).
  { split; cbn [st0 s_wr s_qs]; [exact HP0|]. rewrite Elo0. exact HL0. }
  assert (Hb0 : stream_boundJ P PRE OLD G0 (map snd (gc_log P st0 hint))).
  { unfold JInv.stream_boundJ. rewrite EjN. cbn [app].
    change (gh_base G0) with (gh_base Glog). rewrite Hbaselog_eq. apply Hgcb.
    apply (pos_extra_ext (abs_qs qs')); [intros q; now rewrite Heq|].
    exact (gc_log_pos_extra P st0 hint Hndq). }
  rewrite Hres. unfold open_finish. fold st0.
  destruct (run_gc_if_necessary P st0 hint) as [st1 r] eqn:Egc.
  destruct (gcJ_no_err P HBS_lo HBS_hi HNB Hcrc HGC PRE OLD opos Hpre st0 G0 hint st1 r HI0 Hb0 Egc)
    as (k & ->).
  destruct (invJ_gc P HBS_lo HBS_hi HNB Hcrc HGC PRE OLD opos Hpre st0 G0 hint st1 k HI0 Hb0 Egc)
    as (G' & HI' & Eqs & Epol & Eb & _ & _).
  destruct (run_gc_step P st0 hint st1 (Ok k) Egc Hok0) as (_ & Hfile1 & _).
  destruct (open_read_events P F img c0 rd rrfF qs' Hopen
              ltac:(rewrite Hlistx; discriminate) Hloop) as (A & HevA & _ & HfoldA & HtwoA).
  fold w0 in HevA, HtwoA, HfoldA. rewrite Hfs in HtwoA, HfoldA.
  exists w0, qs', G0, A, k, st1, G'.
  split; [exact HI0|]. split; [reflexivity|]. split; [exact Hpend|]. split; [exact Hwf0|].
  split; [exact Elo0|].
  split; [exact EjN|].
  split; [rewrite <- Hwf0, Hpos; lia|].
  split; [exact Heq|].
  split; [exact HevA|]. split; [exact Hfs|]. split; [exact HfoldA|]. split; [exact HtwoA|].
  split; [exact Egc|].
  split; [reflexivity|]. split; [exact HI'|].
  split; [intros q; rewrite Eqs; exact (Heq q)|]. split; [exact Eb|].
  split; [cbn [st0 s_wr] in Hfile1; lia|]. split; [exact Epol|].
  exact (run_gc_pending P HGC st0 hint st1 k Hpend Egc).
Qed.

Corollary recover_core_pk pol hint :
  exists st_r G_r,
    open P img None pol hint = OpenOk st_r /\ InvJ st_r G_r /\
    (forall q, s_get (abs_qs (s_qs st_r)) q = s_get (abs_qs qs_log) q) /\
    gh_base G_r = gh_base Glog /\ hi <= w_file (s_wr st_r) /\ s_pol st_r = pol /\
    w_pending (s_wr st_r) = [].
Proof.
  destruct (recover_core_x_pk pol hint) as (w0 & qs0 & G0 & A & k & st_r & G_r & H).
  exists st_r, G_r. apply H.
Qed.

(* the recovered state with the room its prefix needs (the sixth component of jstate) *)
Corollary rc_open pol hint :
  exists st_r G_r,
    open P img None pol hint = OpenOk st_r /\ InvJ st_r G_r /\
    lenN PRE + rm <= (w_file (s_wr st_r) + 1 - gh_base G_r) * FB /\
    (forall q, s_get (abs_qs (s_qs st_r)) q = s_get (abs_qs qs_log) q) /\
    hi <= w_file (s_wr st_r) /\ s_pol st_r = pol /\ w_pending (s_wr st_r) = [].
Proof.
  destruct (recover_core_pk pol hint) as (st_r & G_r & Hopen & HIr & Habsr & Ebr & Hfr & Hpolr & Hpendr).
  exists st_r, G_r. split; [exact Hopen|]. split; [exact HIr|]. split; [|auto].
  destruct Hrc as (_ & _ & Hbase & _ & _ & _ & _ & _ & HlenS & _ & Hroom & _ & _ & _ & _ & _ & Eblog & _).
  rewrite Ebr, Eblog. rewrite HlenS in Hroom.
  assert ((hi - base + 1) * FB <= (w_file (s_wr st_r) + 1 - base) * FB) by (apply N.mul_le_mono_r; lia).
  lia.
Qed.

End Core.

(* the zero-extension of the last file of the image does not change the hypotheses *)
Lemma rc_hyps_ext PRE OLD opos adm rm img lo' n base zz qs_log lo_log Glog :
  rc_hyps PRE OLD opos adm rm img lo' n base zz qs_log lo_log Glog ->
  rc_hyps PRE OLD opos adm rm (fs_ext P img lo' n) lo' n base zz qs_log lo_log Glog.
Proof.
  intros (H1 & H2 & H3 & H4 & H5 & H6 & H7 & H8 & H9 & Hrest). cbv zeta in *.
  set (hi := lo' + N.of_nat n) in *. set (files := iota lo' (Datatypes.S n)) in *.
  assert (Hin_hi : In hi files) by (apply iota_In; lia).
  assert (Hfull : forall f, In f files ->
            exists b, fs_get (fs_ext P img lo' n) (filename f) = Some (FFile b) /\ lenN b = FB)
    by exact (Hfull_ext P HBS_lo HBS_hi HNB img lo' n H1 H2).
  assert (Hnd' : nodup_keys (fs_ext P img lo' n)) by (unfold fs_ext; now apply nodup_keys_put).
  assert (Hdir' : dir_of (fs_ext P img lo' n) files).
  { unfold fs_ext. apply dir_of_put_in; [exact H6|exact H4|exact Hin_hi]. }
  assert (Hlist' : list_wal_numbers (fs_ext P img lo' n) = files).
  { assert (E : files = nfiles lo' hi).
    { unfold nfiles, files. f_equal. f_equal. unfold hi. lia. }
    rewrite E. apply (dir_listing P HBS_lo HBS_hi HNB); [exact Hnd'|rewrite <- E; exact Hdir'|unfold hi; lia|exact H4]. }
  assert (Hfiles' : forall f, In f files ->
            exists b, fs_get (fs_ext P img lo' n) (filename f) = Some (FFile b) /\ lenN b <= FB /\
                      (f <> hi -> lenN b = FB)).
  { intros f Hf. destruct (Hfull f Hf) as (b & Hb & Hl). exists b. split; [exact Hb|]. split; [lia|auto]. }
  assert (Eext : fs_ext P (fs_ext P img lo' n) lo' n = fs_ext P img lo' n).
  { apply (fs_ext_full P HBS_lo HBS_hi HNB Hcrc (fs_ext P img lo' n) lo' n Hfiles').
    destruct (Hfull hi Hin_hi) as (b & Hb & Hl). unfold OpenTerm.fcontent, PolicyProofs.fcontent. fold hi.
    first [rewrite Hb; exact Hl | unfold fcontent; rewrite Hb; exact Hl]. }
  split; [exact Hlist'|]. split; [exact Hfiles'|]. split; [exact H3|]. split; [exact H4|].
  split; [exact Hnd'|]. split; [exact Hdir'|].
  split.
  { intros x Hx1 Hx2. unfold fs_ext. rewrite fs_get_put_other; [now apply H7|].
    apply filename_neq; fold hi; lia. }
  split; [rewrite Eext; exact H8|]. split; [exact H9|]. exact Hrest.
Qed.

End Pk.

Print Assumptions recover_core_pk.
Print Assumptions recover_core_x_pk.
Print Assumptions rc_hyps_ext.
