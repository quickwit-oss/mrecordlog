(* HeaderDamageFile.v — properties C08 / C12: HeaderDamage.v lifted from the in-memory stream to
   the directory.  ONE block of one kept WAL file holds arbitrary bytes (frame headers
   included); under NoEmbeddedPath `open` replays a SUB-LIST of the entries the clean directory
   would replay, all the entries lying entirely before the damaged block included.

   (bridge)  a frame trace with its final reader (HeaderDamageEv.ftraceF) is a reads_trc trace,
             go_next by go_next, delivering delivered (asm evs): reads_of_ftraceF.  The frame
             trace itself, from the first block of the first kept file, is
             HeaderDamage.header_damage_from_core.
   (files)   open_header_damaged, open_header_damaged_sub.  The rolling reader over the
             files is the in-memory reader over their concatenation whatever the bytes
             are (FileStream.rd_rel / TornFile.reads_trc_FV do not look at the content);
             DamageFile.trace_to_files / open_of_trace_end need the position of every
             delivered entry (tr_ok) and of the end of the log (at_end): the variants
             without positions, from TornFile.trace_sim alone, are trace_to_files_weak /
             open_of_trace_weak (hd_spec).
   (invariant) from the global invariant: C08_header_damage (what open returns, where the
             recovered records come from), header_damaged_dir_exists (the setting is
             inhabited), C08_header_damage_ok (open succeeds when the reader got through
             the damaged block).
   Instances (real CRC-32) in HeaderDamageFileEx.v: all premises of open_header_damaged
   discharged; one damaged byte making open fail with Corruption. *)
From Coq Require Import Lia ZArith ZifyN ZifyNat ZifyBool Sorted.
From MRL Require Import Bytes BytesProofs Params Names NamesProofs Frame Record Mem Rolling Log
  Driver StreamProofs DamageProofs TornProofs PolicyProofs GcProofs FileStream ResyncProofs
  RecordProofs GhostLog OpenTerm OpenReplay TornFile DamageFile HeaderDamageEv HeaderDamage.

Local Notation sublistD := DamageProofs.sublist.

Section TraceF.
Variable P : params.
Local Notation rframe := (read_frame P vecr (vr_next P) vr_block).
Local Notation readsC := (reads_trc P (vr_next P) vr_block).
Local Notation ftraceF := (ftraceF P).

Lemma delivered_cons_entry b l : delivered (MrEntry b :: l) = b :: delivered l.
Proof. reflexivity. Qed.
Lemma delivered_cons_corrupt l : delivered (MrCorrupt :: l) = delivered l.
Proof. reflexivity. Qed.

(* the go_next trace: the records delivered are those of asm, and the final reader is frE *)
Lemma reads_of_ftraceF n : forall evs fr buf w g frE,
  (length evs <= n)%nat -> ftraceF fr evs frE -> (length evs + 1 <= g)%nat ->
  exists rrs c rrf,
    length rrs = length (delivered (asm evs buf w)) /\
    readsC g (mkRR fr buf w) (combine rrs (delivered (asm evs buf w))) c rrf /\
    (length (delivered (asm evs buf w)) + c <= length evs)%nat /\
    rr_fr rrf = frE.
Proof.
  induction n as [|n IH]; intros evs fr buf w g frE Hn Htr Hg;
    destruct (ago1 evs buf w) as [[[evs' b'] w'] r] eqn:Hago;
    destruct (go_next_traceF P _ _ _ Htr buf w g evs' b' w' r Hg Hago) as (fr' & Hgo & Hnext & Hfin);
    rewrite asm_ago1, Hago;
    destruct (ago1_shape _ _ _ _ _ _ _ Hago) as [->|[[->| ->] Hlt]].
  - exists [], 0%nat, (mkRR fr' b' w'). cbn [delivered flat_map combine length app rr_fr].
    split; [reflexivity|]. split; [apply RC_end; exact Hgo|]. split; [lia|exact (Hfin eq_refl)].
  - lia.
  - lia.
  - exists [], 0%nat, (mkRR fr' b' w'). cbn [delivered flat_map combine length app rr_fr].
    split; [reflexivity|]. split; [apply RC_end; exact Hgo|]. split; [lia|exact (Hfin eq_refl)].
  - destruct (IH evs' fr' b' w' g frE ltac:(lia) (Hnext ltac:(discriminate)) ltac:(lia))
      as (rrs & c & rrf & Hl & Hrd & Hc & Hf).
    exists (mkRR fr buf w :: rrs), c, rrf. rewrite delivered_cons_entry. cbn [length combine].
    split; [now rewrite Hl|]. split; [|split; [lia|exact Hf]].
    apply (RC_rec P vecr (vr_next P) vr_block g _ (mkRR fr' b' w')); [exact Hgo|exact Hrd].
  - destruct (IH evs' fr' b' w' g frE ltac:(lia) (Hnext ltac:(discriminate)) ltac:(lia))
      as (rrs & c & rrf & Hl & Hrd & Hc & Hf).
    exists rrs, (S c), rrf. rewrite delivered_cons_corrupt.
    split; [exact Hl|]. split; [|split; [lia|exact Hf]].
    apply (RC_cor P vecr (vr_next P) vr_block g _ (mkRR fr' b' w')); [exact Hgo|exact Hrd].
Qed.

End TraceF.

Print Assumptions reads_of_ftraceF.


Lemma sublist_map_inv {A C} (f : A -> C) : forall (E : list A) (l : list C),
  sublistD l (map f E) -> exists E', l = map f E' /\ sublistD E' E.
Proof.
  induction E as [|e E IH]; intros l H; cbn [map] in H.
  - inversion H; subst. exists []. split; [reflexivity|constructor].
  - inversion H as [|x l1 l2 H1|x l1 l2 H1]; subst.
    + destruct (IH _ H1) as (E' & -> & HE'). exists E'. split; [reflexivity|now constructor].
    + destruct (IH _ H1) as (E' & -> & HE'). exists (e :: E'). split; [reflexivity|now constructor].
Qed.

Lemma sublistD_refl {A} (l : list A) : sublistD l l.
Proof. exact (HeaderDamage.sublist_refl l). Qed.

Lemma sublistD_nil_l {A} (l : list A) : sublistD [] l.
Proof. exact (DamageFile.sublist_nil_l l). Qed.

Lemma sublistD_app {A} (a a' : list A) : sublistD a a' ->
  forall b b', sublistD b b' -> sublistD (a ++ b) (a' ++ b').
Proof. exact (HeaderDamage.sublist_app a a'). Qed.

Lemma sublistD_Forall {A} (Q : A -> Prop) (l l' : list A) : sublistD l l' -> Forall Q l' -> Forall Q l.
Proof.
  induction 1 as [|x l1 l2 H IH|x l1 l2 H IH]; intros HF.
  - constructor.
  - apply IH. now inversion HF.
  - inversion HF; subst. constructor; [assumption|now apply IH].
Qed.

Section FilesD.
Variable P : params.
Hypothesis HBS_lo : 7 < BS P.
Hypothesis HBS_hi : BS P <= 65542.
Hypothesis HNB : 1 <= NB P.
Hypothesis Hcrc : forall t p, crcf P t p < 2 ^ 32.
Local Notation B := (BS P).
Local Notation FB := (FILE_BYTES P).
Local Notation ffp := (first_frame_pos P).
Local Notation readsC := (reads_trc P (vr_next P) vr_block).
Local Notation readsFc := (reads_trc P (rd_next P) rd_block).
Local Notation H3 f := (f P HBS_lo HBS_hi Hcrc) (only parsing).
Local Notation H2 f := (f P HBS_lo HBS_hi) (only parsing).
Local Notation HN f := (f P HBS_lo HBS_hi HNB) (only parsing).

Section Dir.
Variable fs : fsT.
Variable lo : N.
Variable n : nat.
Local Notation files := (iota lo (Datatypes.S n)).
Local Notation cur := (lo + N.of_nat n).
Hypothesis Hfull : forall f, In f files ->
  exists b, fs_get fs (filename f) = Some (FFile b) /\ lenN b = FB.

Local Notation St := (stream_of fs files).
Local Notation rsim := (rd_rel P fs files).
Local Notation rrsim := (rr_sim rreaderS vecr rsim).
Local Notation HD f := (f P HBS_lo HBS_hi HNB fs lo n Hfull) (only parsing).

(* what `open` builds from the kept files when the reader may have lost its way: the files
   `tags` the k replayed entries are attributed to, and the writer w0 made of the final reader.
   This is DamageFile.dmg_spec without the positions (of the entries, of the end of the log). *)
Definition hd_spec (w0 : rwriter) (tags : list N) (k : nat) : Prop :=
  length tags = k /\
  StronglySorted N.le tags /\
  Forall (fun f => lo <= f /\ f <= w_file w0) tags /\
  w_files w0 = files /\ lo <= w_file w0 /\ w_file w0 <= cur /\
  w_pending w0 = [] /\ c_fs (w_ctx w0) = fs /\ c_plan (w_ctx w0) = None.

Section Kept.
Variables (base : N) (D : bytes).
Hypothesis Hbase : base <= lo.
Hypothesis Hlist : list_wal_numbers fs = files.
Hypothesis HSt : St = dropN ((lo - base) * FB) D.
Hypothesis HlenS : lenN D = (cur - base + 1) * FB.

Local Notation b := ((lo - base) * FB).
Local Notation kb := ((lo - base) * NB P).

(* any vecr trace from the boundary, to the rolling files (cf. DamageFile.trace_to_files) *)
Lemma trace_to_files_weak g rrs ds c rrfV :
  length rrs = length ds ->
  readsC g (mkRR (rd_at P D kb 0) [] false) (combine rrs ds) c rrfV ->
  exists c0 rd lF rrfF,
    rd_open P (ctx_init fs None) = (c0, Ok rd) /\
    readsFc g (rr_open rreaderS rd) lF c rrfF /\
    map snd lF = ds /\
    hd_spec (rd_into_writer P (fr_rd (rr_fr rrfF)) (fr_cursor (rr_fr rrfF))) (tags_of lF) (length ds).
Proof.
  intros Hlen HrdV.
  destruct (rd_open_sim P ltac:(lia) HNB fs files (iota_sorted _ _) Hfull (ctx_init fs None))
    as (c0 & rd & Hopen & Hrel); [split; reflexivity | exact Hlist | discriminate |].
  destruct (trace_sim P HBS_lo HBS_hi HNB Hcrc fs lo n Hfull base D Hbase HSt HlenS g rd rrs ds c rrfV Hrel Hlen HrdV)
    as (lF & rrfF & w0 & HrdF & Hsnd & -> & _ & _ & Hspec).
  exists c0, rd, lF, rrfF. split; [exact Hopen|]. split; [exact HrdF|]. split; [exact Hsnd|].
  exact Hspec.
Qed.

(* ... and to `open` (cf. DamageFile.open_of_trace_end) *)
Lemma open_of_trace_weak F rrs ds c rrfV Ds pol hint :
  L_IO P = false ->
  length rrs = length ds ->
  readsC F (mkRR (rd_at P D kb 0) [] false) (combine rrs ds) c rrfV ->
  ds = map entry_ser Ds -> Forall wf_entry Ds -> (length ds + c < F)%nat ->
  exists w0 tags,
    hd_spec w0 tags (length Ds) /\
    match replay_entries [] (combine tags Ds) with
    | Some qs => open P fs None pol hint = open_finish P w0 qs pol hint
    | None => exists c', open P fs None pol hint = OpenCorruption c'
    end.
Proof.
  intros Hio Hlen HrdV Hds Hwf HF.
  destruct (trace_to_files_weak F rrs ds c rrfV Hlen HrdV)
    as (c0 & rd & lF & rrfF & Hopen & HrdF & Hsnd & Hspec).
  eexists _, (tags_of lF). subst ds. rewrite map_length in Hspec, HF. split; [exact Hspec|].
  exact (HD open_of_files_trace F fs c0 rd lF c rrfF Ds pol hint Hio Hopen HrdF Hsnd Hwf HF).
Qed.

End Kept.

(* Ghost setting as in DamageFile.open_damaged: the WAL is one byte stream numbered from file
   `base`; T = t0 ++ t1 ++ tb ++ t3 is what the writer produced for the (well-formed) entries
   E_pre ++ E_1 ++ E_b ++ E_3, S = T ++ zeros fills the files base..cur; the directory holds the
   full-size files lo..cur, which are the tail, from the block boundary b = (lo - base) * FILE,
   of D, where D is S with ARBITRARY bytes in block blk (a block of a kept file).
     E_pre : the entries whose first frame lies before b (in a file that is gone);
     E_1   : entries from b on that end at or before block blk;
     E_3   : entries that begin at or after the end of block blk;
     E_b   : those in between (any such decomposition will do: E_1 = E_3 = [] is one).
   Under NoEmbeddedPath, open does not run out of fuel and replays E_1 ++ E_mid ++ E_tail, with
   E_mid a sub-list of E_b and E_tail = E_3 — or E_tail = [] if the reader stopped inside block
   blk (it met an all-zero header there, which reads as the end of the log, or blk is the last
   block).  It fails with Corruption only if the replay of that sub-log does.  In the first
   case, if block blk lies inside the written bytes, the writer w0 that open builds stands where
   the writer of the clean directory stands (DamageFile.dmg_spec with end of log |T|; the
   positions sts attached to the tags are not the first-frame positions of the entries: only
   the clause on w0 is informative); in general only hd_spec is known of w0 and the tags. *)
Theorem open_header_damaged base E_pre E_1 E_b E_3 t0 t1 tb t3 z D blk pol hint :
  L_IO P = false ->
  base <= lo ->
  list_wal_numbers fs = files ->
  Forall wf_entry (E_1 ++ E_b ++ E_3) ->
  encs_rel P 0 (map entry_ser E_pre) t0 ->
  encs_rel P (lenN t0) (map entry_ser E_1) t1 ->
  encs_rel P (lenN t0 + lenN t1) (map entry_ser E_b) tb ->
  encs_rel P (lenN t0 + lenN t1 + lenN tb) (map entry_ser E_3) t3 ->
  let T := t0 ++ t1 ++ tb ++ t3 in
  let b := (lo - base) * FB in
  lenN (T ++ zerosN z) = (cur - base + 1) * FB ->
  (* D = T ++ zeros outside block blk *)
  lenN D = lenN (T ++ zerosN z) ->
  takeN (blk * B) D = takeN (blk * B) (T ++ zerosN z) ->
  dropN ((blk + 1) * B) D = dropN ((blk + 1) * B) (T ++ zerosN z) ->
  (blk + 1) * B <= lenN D ->
  (lo - base) * NB P <= blk ->
  St = dropN b D ->
  (* the split of the entries *)
  Forall (fun s => snd s < b) (starts P 0 (map entry_ser E_pre)) ->
  b <= ffp (lenN t0) ->
  (E_1 = [] \/ lenN t0 + lenN t1 <= blk * B) ->
  (E_3 = [] \/ (blk + 1) * B <= ffp (lenN t0 + lenN t1 + lenN tb)) ->
  NoEmbeddedPath P D blk T ->
  exists w0 tags E_mid E_tail,
    sublistD E_mid E_b /\
    ((E_tail = E_3 /\
      ((blk + 1) * B <= lenN T -> exists sts, dmg_spec P fs lo n base w0 tags sts (lenN T))) \/
     (E_tail = [] /\ stopped_in P D blk)) /\
    hd_spec w0 tags (length (E_1 ++ E_mid ++ E_tail)) /\
    match replay_entries [] (combine tags (E_1 ++ E_mid ++ E_tail)) with
    | Some qs => open P fs None pol hint = open_finish P w0 qs pol hint
    | None => exists c, open P fs None pol hint = OpenCorruption c
    end.
Proof.
  intros Hio Hbase Hlist Hwf R0 R1 Rb R3 T b HlenS HlenD Hlo Hhi Hblk Hkb HSt Hst0 Hst1 H1pos H3pos Hne.
  destruct (DamageProofs.encs_rel_any P HBS_lo HBS_hi Hcrc _ _ _ R0) as (pxs0 & E0 & M0 & G0).
  destruct (DamageProofs.encs_rel_any P HBS_lo HBS_hi Hcrc _ _ _ R1) as (pxs1 & E1 & M1 & G1).
  destruct (DamageProofs.encs_rel_any P HBS_lo HBS_hi Hcrc _ _ _ Rb) as (pxsb & Eb & Mb & Gb).
  destruct (DamageProofs.encs_rel_any P HBS_lo HBS_hi Hcrc _ _ _ R3) as (pxs3 & E3 & M3 & G3).
  assert (Hkbb : (lo - base) * NB P * B = b) by (unfold b; rewrite (HN FB_eq); lia).
  assert (HokS : stream_ok P (T ++ zerosN z)).
  { exists ((cur - base + 1) * NB P). rewrite HlenS, (HN FB_eq). lia. }
  assert (HneX : NoEmbeddedPathX P D blk (flat_map snd (pxs0 ++ pxs1 ++ pxsb ++ pxs3))).
  { apply (H3 NoEmbeddedPath_entries D blk _ _
             (H3 encs_any_app _ _ _ E0 _ _ (H3 encs_any_app _ _ _ E1 _ _ (H3 encs_any_app _ _ _ Eb _ _ E3))));
      [|exact Hne].
    rewrite !forallb_app, G0, G1, Gb, G3. reflexivity. }
  assert (Hnil : forall (E : list entry) (pxs : list (bytes * list DamageProofs.fspec)), map fst pxs = map entry_ser E -> E = [] -> pxs = []).
  { intros E pxs HM ->. destruct pxs; [reflexivity|discriminate]. }
  destruct (header_damage_from_core P HBS_lo HBS_hi Hcrc pxs0 pxs1 pxsb pxs3 t0 t1 tb t3 z D blk
              ((lo - base) * NB P) E0 G0 E1 G1 Eb Gb E3 G3 HokS HlenD Hlo Hhi Hblk)
    as (evs & mid & tail & Hft & _ & Hdel & Hsub & Htail).
  { rewrite M0, Hkbb. exact Hst0. }
  { rewrite Hkbb. exact Hst1. }
  { exact Hkb. }
  { destruct H1pos as [E|H]; [left; exact (Hnil _ _ M1 E)|right; exact H]. }
  { destruct H3pos as [E|H]; [left; exact (Hnil _ _ M3 E)|right; exact H]. }
  { exact HneX. }
  rewrite M1, Mb, M3 in *.
  destruct (sublist_map_inv entry_ser E_b mid Hsub) as (E_mid & -> & HsubE).
  assert (HlenD' : lenN D = (cur - base + 1) * FB) by (rewrite HlenD; exact HlenS).
  assert (Hwf1 : Forall wf_entry E_1 /\ Forall wf_entry E_mid /\ Forall wf_entry E_3).
  { apply Forall_app in Hwf as [W1 W2]. apply Forall_app in W2 as [Wb W3].
    split; [exact W1|]. split; [exact (sublistD_Forall _ _ _ HsubE Wb)|exact W3]. }
  destruct Hwf1 as (W1 & Wm & W3).
  set (F := (length evs + 2)%nat).
  destruct Htail as [[-> (e & (frE & HftF & Hend) & He)]|[-> Hstop]].
  - (* the reader got through block blk: the final reader is at the end of the log *)
    set (Ds := E_1 ++ E_mid ++ E_3).
    assert (Hds : delivered (asm evs [] false) = map entry_ser Ds)
      by (rewrite Hdel; unfold Ds; rewrite !map_app; reflexivity).
    destruct (reads_of_ftraceF P (length evs) evs (rd_at P D ((lo - base) * NB P) 0) [] false F frE
                (le_n _) HftF ltac:(unfold F; lia)) as (rrs & c & rrfV & Hl & Hrd & Hc & Hfin).
    assert (HwfD : Forall wf_entry Ds).
    { unfold Ds. apply Forall_app. split; [exact W1|]. apply Forall_app. split; assumption. }
    set (sts := map (fun rr : rreader vecr => (0, bpos P D (fr_rd (rr_fr rr)))) rrs).
    assert (Htr : tr_ok P D rrs sts).
    { unfold tr_ok, sts. clear. induction rrs as [|rr rrs IH]; cbn [map]; constructor; [cbn [snd]; lia|exact IH]. }
    rewrite <- Hfin in Hend.
    destruct (DamageFile.open_of_trace_end P HBS_lo HBS_hi HNB Hcrc fs lo n Hfull base D Hbase Hlist HSt
                HlenD' F rrs _ sts c rrfV e Ds pol hint Hio Hl Hrd Htr Hend Hds HwfD ltac:(unfold F; lia))
      as (w0 & tags & Hspec & Hres).
    exists w0, tags, E_mid, E_3.
    split; [exact HsubE|]. split.
    { left. split; [reflexivity|]. intros Hbig. exists sts. replace (lenN T) with e by exact (He Hbig). exact Hspec. }
    split; [|exact Hres].
    destruct Hspec as (Hlt & _ & Hsrt & Hrng & Hfl & Hlo' & Hcur & _ & Hpend & Hfs & Hplan).
    split; [|repeat split; assumption].
    rewrite Hlt. unfold sts. rewrite map_length, Hl, Hds, map_length. reflexivity.
  - (* the reader stopped inside block blk *)
    set (Ds := E_1 ++ E_mid ++ []).
    assert (Hds : delivered (asm evs [] false) = map entry_ser Ds)
      by (rewrite Hdel; unfold Ds; rewrite !map_app; reflexivity).
    destruct Hft as (frE & HftF).
    destruct (reads_of_ftraceF P (length evs) evs (rd_at P D ((lo - base) * NB P) 0) [] false F frE
                (le_n _) HftF ltac:(unfold F; lia)) as (rrs & c & rrfV & Hl & Hrd & Hc & _).
    assert (HwfD : Forall wf_entry Ds).
    { unfold Ds. apply Forall_app. split; [exact W1|]. apply Forall_app. split; [exact Wm|constructor]. }
    destruct (open_of_trace_weak base D Hbase Hlist HSt HlenD' F rrs _ c rrfV Ds pol hint Hio Hl Hrd Hds HwfD
                ltac:(unfold F; lia)) as (w0 & tags & Hspec & Hres).
    exists w0, tags, E_mid, [].
    split; [exact HsubE|]. split; [right; split; [reflexivity|exact Hstop]|].
    split; [exact Hspec|exact Hres].
Qed.

(* E_all: everything ever written; E_pre / E_suf: what a reader started at the first kept file
   skips / delivers when nothing is damaged.  With arbitrary bytes in one block of a kept file,
   open replays a sub-list of E_suf. *)
Theorem open_header_damaged_sub base E_all T z D blk pol hint :
  L_IO P = false ->
  base <= lo ->
  list_wal_numbers fs = files ->
  Forall wf_entry E_all ->
  encs_rel P 0 (map entry_ser E_all) T ->
  let b := (lo - base) * FB in
  lenN (T ++ zerosN z) = (cur - base + 1) * FB ->
  lenN D = lenN (T ++ zerosN z) ->
  takeN (blk * B) D = takeN (blk * B) (T ++ zerosN z) ->
  dropN ((blk + 1) * B) D = dropN ((blk + 1) * B) (T ++ zerosN z) ->
  (blk + 1) * B <= lenN D ->
  (lo - base) * NB P <= blk ->
  St = dropN b D ->
  b <= ffp (lenN T) ->
  NoEmbeddedPath P D blk T ->
  exists w0 tags E_pre E_suf Es',
    E_all = E_pre ++ E_suf /\
    map entry_ser E_pre = skipped_before P b 0 (map entry_ser E_all) /\
    map entry_ser E_suf = delivered_from P b 0 (map entry_ser E_all) /\
    sublistD Es' E_suf /\
    (((blk + 1) * B <= lenN T -> exists sts, dmg_spec P fs lo n base w0 tags sts (lenN T)) \/
     stopped_in P D blk) /\
    hd_spec w0 tags (length Es') /\
    match replay_entries [] (combine tags Es') with
    | Some qs => open P fs None pol hint = open_finish P w0 qs pol hint
    | None => exists c, open P fs None pol hint = OpenCorruption c
    end.
Proof.
  intros Hio Hbase Hlist Hwf Henc b HlenS HlenD Hlo Hhi Hblk Hkb HSt Hreach Hne.
  pose proof (skipped_delivered P b (map entry_ser E_all) 0) as Hsplit.
  destruct (map_app_inv entry_ser E_all _ _ Hsplit) as (E_pre & E_suf & HE & Hpre & Hsuf).
  pose proof Henc as Henc'. rewrite HE, map_app in Henc'.
  destruct (H3 encs_rel_app_inv _ _ _ _ Henc') as (t0 & ts & ET & R0 & Rs).
  rewrite N.add_0_l in Rs.
  assert (ET' : T = t0 ++ [] ++ ts ++ []) by (rewrite ET; cbn [app]; now rewrite app_nil_r).
  assert (Hst1 : b <= ffp (lenN t0)).
  { destruct E_suf as [|e E_suf'].
    - inversion Rs; subst ts. rewrite app_nil_r in ET. rewrite <- ET. exact Hreach.
    - pose proof (H3 delivered_head b (map entry_ser E_all) 0) as Hh.
      rewrite <- Hsuf, <- Hpre, (H3 cursor_after_rel _ _ _ R0), N.add_0_l in Hh.
      apply Hh. discriminate. }
  assert (Hwf' : Forall wf_entry ([] ++ E_suf ++ [])).
  { cbn [app]. rewrite app_nil_r. rewrite HE in Hwf. apply Forall_app in Hwf. apply Hwf. }
  rewrite ET' in HlenS, HlenD, Hlo, Hhi, Hne.
  destruct (open_header_damaged base E_pre [] E_suf [] t0 [] ts [] z D blk pol hint Hio Hbase Hlist Hwf'
              R0 (ES_nil P _))
    as (w0 & tags & E_mid & E_tail & Hsub & Htail & Hspec & Hres);
    rewrite ?(@lenN_nil byte), ?N.add_0_r; try assumption.
  { constructor. }
  { rewrite Hpre. apply skipped_starts. }
  { left; reflexivity. }
  { left; reflexivity. }
  assert (Etl : E_tail = []) by (destruct Htail as [[E _]|[E _]]; exact E).
  subst E_tail. cbn [app] in Hspec, Hres. rewrite app_nil_r in Hspec, Hres.
  exists w0, tags, E_pre, E_suf, E_mid.
  split; [exact HE|]. split; [exact Hpre|]. split; [exact Hsuf|].
  split; [exact Hsub|]. split; [|split; [exact Hspec|exact Hres]].
  rewrite ET'. destruct Htail as [[_ H]|[_ H]]; [left; exact H|right; exact H].
Qed.

End Dir.
End FilesD.

Print Assumptions open_header_damaged.
Print Assumptions open_header_damaged_sub.

From MRL Require Import Spec SpecRefine ReplaySpec HandleProofs RestartInv RestartFinal DamageAtomic.

(* the model's replay of ANY list of tagged entries (legal or not), seen through the spec-level
   replay of the entries *)
Lemma replay_any_views (fes : glog) qD :
  replay_entries [] fes = Some qD ->
  exists S, t_replay [] 0 (map snd fes) = Some S /\
    forall q m, qs_get qD q = Some m ->
      exists rf n, t_get S q = Some (rf, n) /\ map snd rf = records_of (q_buf m) (q_metas m).
Proof.
  intros Hrep.
  destruct (replay_views_from [] fes qD Hrep) as (cm & S & _ & ES & _ & _ & _ & Hu & _).
  exists S. split; [exact ES|]. intros q m Eq.
  pose proof (untag_abs_get S qD q Hu) as Hq. rewrite Eq in Hq.
  destruct (t_get S q) as [[rf n]|]; [|contradiction].
  unfold untag_q, abs_q in Hq. cbn [fst snd] in Hq. injection Hq as Hr _.
  exists rf, n. split; [reflexivity|exact Hr].
Qed.

(* where the records of a replay come from: every record of every queue of the result is a
   record of an AppendRecords entry of the list, for that queue *)
Lemma replay_origin_any (fes : glog) qD :
  replay_entries [] fes = Some qD ->
  forall q m rec, qs_get qD q = Some m -> In rec (records_of (q_buf m) (q_metas m)) ->
    exists j pos recs, nth_error (map snd fes) j = Some (EAppend q pos recs) /\ In rec recs.
Proof.
  intros Hrep q m rec Eq Hin.
  destruct (replay_any_views fes qD Hrep) as (S & ES & Hv).
  destruct (Hv q m Eq) as (rf & nf & Et & Hr).
  rewrite <- Hr in Hin. apply in_map_iff in Hin. destruct Hin as (r & <- & Hin).
  destruct (t_replay_origin q r _ _ _ _ _ _ ES Et Hin)
    as [(rf0 & n0 & E0 & _)|(j & pos & recs & _ & En & Hr')]; [discriminate|].
  exists j, pos, recs. split; [exact En|exact Hr'].
Qed.

(* the queues of a replay are named by its entries *)
Lemma replay_names_any (fes : glog) qD :
  replay_entries [] fes = Some qD ->
  forall q m, qs_get qD q = Some m -> In q (map entry_queue (map snd fes)).
Proof.
  intros Hrep q m Eq.
  destruct (replay_any_views fes qD Hrep) as (S & ES & Hv).
  destruct (Hv q m Eq) as (rf & nf & Et & _).
  destruct (t_replay_named q _ _ _ _ ES ltac:(rewrite Et; discriminate)) as [H|H]; [|exact H].
  exfalso. apply H. reflexivity.
Qed.

Section InvE.
Variable P : params.
Hypothesis HBS_lo : 7 < BS P.
Hypothesis HBS_hi : BS P <= 65542.
Hypothesis HNB : 1 <= NB P.
Hypothesis Hcrc : forall t p, crcf P t p < 2 ^ 32.
Hypothesis HIO : L_IO P = false.

Local Notation B := (BS P).
Local Notation FB := (FILE_BYTES P).
Local Notation ffp := (first_frame_pos P).
Local Notation H3 f := (f P HBS_lo HBS_hi Hcrc) (only parsing).
Local Notation H2 f := (f P HBS_lo HBS_hi) (only parsing).
Local Notation HW f := (f P HBS_lo HBS_hi HNB Hcrc) (only parsing).
Local Notation HN f := (f P HBS_lo HBS_hi HNB) (only parsing).

(* fs_d is the directory left by drop_log st (= vfs (s_wr st)) with ARBITRARY bytes in block
   blk of the ghost stream, a block of a kept file: same names, kinds and lengths; the kept
   files hold D from the first kept file on, D = the ghost stream (zero-padded to the end of
   the current file) outside block blk; and only genuine frames verify on the reader's path
   through that block. *)
Definition header_damaged_dir (st : state) (G : ghost) (blk : N) (D : bytes) (fs_d : fsT) : Prop :=
  let w := s_wr st in
  let dl := wlo w - gh_base G in
  let S := gh_T P G ++ zerosN ((dl + lenN (w_files w)) * FB - lenN (gh_T P G)) in
  same_shape (vfs w) fs_d /\
  lenN D = lenN S /\
  takeN (blk * B) D = takeN (blk * B) S /\
  dropN ((blk + 1) * B) D = dropN ((blk + 1) * B) S /\
  (blk + 1) * B <= lenN D /\
  dl * NB P <= blk /\
  stream_of fs_d (w_files w) = dropN (dl * FB) D /\
  NoEmbeddedPath P D blk (gh_T P G).

(* open on such a directory, in the terms of open_header_damaged_sub: the entries skipped are
   those before the kept log gh_E G *)
Lemma open_header_damaged_dir st G blk D fs_d :
  Inv P st G -> header_damaged_dir st G blk D fs_d ->
  forall pol hint, exists n w0 tags Es',
    w_files (s_wr st) = iota (wlo (s_wr st)) (S n) /\
    sublistD Es' (map snd (gh_E G)) /\
    (((blk + 1) * B <= lenN (gh_T P G) ->
      exists sts, dmg_spec P fs_d (wlo (s_wr st)) n (gh_base G) w0 tags sts (lenN (gh_T P G))) \/
     stopped_in P D blk) /\
    hd_spec fs_d (wlo (s_wr st)) n w0 tags (length Es') /\
    match replay_entries [] (combine tags Es') with
    | Some qs => open P fs_d None pol hint = open_finish P w0 qs pol hint
    | None => exists c, open P fs_d None pol hint = OpenCorruption c
    end.
Proof.
  intros HI (Hsh & HlenD & Hlo & Hhi & Hblk & Hkb & HSt & Hne) pol hint. cbn zeta in *.
  pose proof HI as (HP & HL).
  set (w := s_wr st) in *.
  pose proof HP as (Hw & Hwd & Hnd & Hbase & Hc1 & Hc2 & Hs & HWf & _). cbn zeta in *.
  destruct (HN winv_files w Hw) as (n & Hfiles & Hfile).
  pose proof Hw as (Hok & _ & Hoff & _ & _ & Hfull & _).
  assert (Hnf : lenN (w_files w) = N.of_nat n + 1) by (rewrite Hfiles, lenN_iota; lia).
  assert (Hwpos : wpos P w = N.of_nat n * FB + w_off w).
  { unfold FileStream.wpos. rewrite Hnf. f_equal. f_equal. lia. }
  set (lo := wlo w) in *. set (base := gh_base G) in *. set (dl := lo - base) in *.
  set (T := gh_T P G) in *.
  set (z := (dl + lenN (w_files w)) * FB - lenN T) in *.
  assert (Hfull' : forall f, In f (iota lo (S n)) ->
            exists b, fs_get fs_d (filename f) = Some (FFile b) /\ lenN b = FB).
  { rewrite <- Hfiles. intros f Hf. destruct (Hfull f Hf) as (b & Hg & Hlb).
    destruct (same_shape_file _ _ _ _ Hsh Hg) as (b' & Hg' & Hlb'). exists b'. split; [exact Hg'|lia]. }
  assert (Hlist : list_wal_numbers fs_d = iota lo (S n)).
  { rewrite (same_shape_listing _ _ Hsh), <- Hfiles. exact (listing_after P w Hw Hwd Hnd). }
  assert (Henc : encs_rel P 0 (map entry_ser (gh_ALL G)) T) by apply (H3 encs_of_rel).
  assert (HSt' : stream_of fs_d (iota lo (S n)) = dropN (dl * FB) D) by (rewrite <- Hfiles; exact HSt).
  assert (HlenS : lenN (T ++ zerosN z) = (lo + N.of_nat n - base + 1) * FB).
  { rewrite lenN_app, lenN_zerosN. unfold z. rewrite Hnf.
    replace (lo + N.of_nat n - base + 1) with (dl + (N.of_nat n + 1)) by lia.
    rewrite Hwpos in Hc1. assert (lenN T <= (dl + (N.of_nat n + 1)) * FB) by lia. lia. }
  assert (Hreach : dl * FB <= ffp (lenN T)) by lia.
  destruct (open_header_damaged_sub P HBS_lo HBS_hi HNB Hcrc fs_d lo n Hfull' base (gh_ALL G) T z D blk
              pol hint HIO Hbase Hlist HWf Henc HlenS HlenD Hlo Hhi Hblk Hkb HSt' Hreach Hne)
    as (w0 & tags & E_pre & E_suf & Es' & HE & Hskip & _ & Hsub & Hpos & Hspec & Hres).
  fold dl in Hskip.
  (* the entries skipped are those before E *)
  destruct (HW PInv_delivered w G HP) as (_ & Eskip). fold lo base dl in Eskip.
  change (map entry_ser (gh_ALL G)) with (gh_ser G) in Hskip.
  rewrite Eskip in Hskip. unfold gh_ser_before in Hskip.
  assert (Hlp : length (gh_before G) = length E_pre).
  { apply (f_equal (@length bytes)) in Hskip. rewrite !map_length in Hskip. lia. }
  rewrite gh_ALL_split in HE.
  destruct (app_inv_len _ _ _ _ HE Hlp) as [_ <-].
  exists n, w0, tags, Es'. split; [exact Hfiles|]. split; [exact Hsub|].
  split; [exact Hpos|]. split; [exact Hspec|exact Hres].
Qed.


(* open on such a directory: it replays a sub-list Es' of the kept log (tags: the files the
   entries are attributed to); it fails with Corruption exactly when the replay of that sub-list
   does (several entries of one block may be lost, e.g. a delete and the following re-creation
   of a queue: HeaderDamageFileEx.B); otherwise it is the recovery-time GC run on the replayed
   queues qD, which does not change them, and every record of qD is a record of an
   AppendRecords entry of Es' for the same queue. *)
Theorem C08_header_damage st G blk D fs_d :
  Inv P st G -> header_damaged_dir st G blk D fs_d ->
  forall pol hint, exists w0 tags Es',
    sublistD Es' (map snd (gh_E G)) /\ length tags = length Es' /\
    match replay_entries [] (combine tags Es') with
    | Some qD =>
        open P fs_d None pol hint = open_finish P w0 qD pol hint /\
        (forall st_r, open P fs_d None pol hint = OpenOk st_r -> s_qs st_r = qD) /\
        (forall q m rec, qs_get qD q = Some m -> In rec (records_of (q_buf m) (q_metas m)) ->
           exists pos recs, In (EAppend q pos recs) Es' /\ In rec recs)
    | None => exists c, open P fs_d None pol hint = OpenCorruption c
    end.
Proof.
  intros HI Hdir pol hint.
  destruct (open_header_damaged_dir st G blk D fs_d HI Hdir pol hint)
    as (n & w0 & tags & Es' & _ & Hsub & _ & (Hlt & _) & Hres).
  exists w0, tags, Es'. split; [exact Hsub|]. split; [exact Hlt|].
  destruct (replay_entries [] (combine tags Es')) as [qD|] eqn:Erep; [|exact Hres].
  split; [exact Hres|]. split.
  - intros st_r Ho. rewrite Hres in Ho. unfold open_finish in Ho.
    pose proof (SpecRefine.run_gc_qs P (mkSt w0 qD pol) hint) as Hqs.
    destruct (run_gc_if_necessary P (mkSt w0 qD pol) hint) as [st1 [k|e]]; [|discriminate].
    injection Ho as <-. exact Hqs.
  - intros q m rec Eq Hin.
    destruct (replay_origin_any _ _ Erep q m rec Eq Hin) as (j & pos & recs & Hn & Hr).
    rewrite map_snd_combine' in Hn by exact Hlt.
    exists pos, recs. split; [exact (nth_error_In _ _ Hn)|exact Hr].
Qed.

(* For every state under the invariant and every block blk of a kept file there is such a
   directory: ONE byte changed, the type byte of the header at the start of the block, set to
   0xFF.  The reader drops the whole block (no frame verifies on its path, so NoEmbeddedPath
   holds whatever the CRC function is). *)
Theorem header_damaged_dir_exists st G blk :
  Inv P st G ->
  (wlo (s_wr st) - gh_base G) * NB P <= blk ->
  blk < (wlo (s_wr st) - gh_base G + lenN (w_files (s_wr st))) * NB P ->
  exists D fs_d, header_damaged_dir st G blk D fs_d /\
                 ((blk + 2) * B <= lenN D -> ~ stopped_in P D blk).
Proof.
  intros HI Hlo Hhi.
  set (w := s_wr st) in *. set (dl := wlo w - gh_base G) in *.
  set (T := gh_T P G). set (z := (dl + lenN (w_files w)) * FB - lenN T).
  set (S := T ++ zerosN z).
  pose proof HI as ((Hw & _ & _ & Hbase & Hc1 & _) & _). cbn zeta in Hc1. fold w dl T in Hc1.
  pose proof Hw as (Hok & _ & _ & _ & Hu & Hfull & _).
  pose proof (winv_wpos_le P HBS_lo HBS_hi HNB w Hw) as Hpos.
  assert (HlenS : lenN S = (dl + lenN (w_files w)) * FB).
  { unfold S. rewrite lenN_app, lenN_zerosN. unfold z. rewrite N.mul_add_distr_r. lia. }
  assert (HFB : FB = NB P * B) by apply (HN FB_eq).
  set (q0 := blk * B).
  assert (Hq : q0 + B <= lenN S).
  { rewrite HlenS, HFB. unfold q0.
    assert ((blk + 1) * B <= (dl + lenN (w_files w)) * NB P * B) by (apply N.mul_le_mono_r; lia). lia. }
  set (pre := takeN q0 S). set (Hd := sliceN q0 (q0 + 6) S ++ ["255"%byte]).
  set (post := dropN (q0 + 7) S).
  set (D := pre ++ Hd ++ post).
  assert (Lpre : lenN pre = q0) by (unfold pre; rewrite lenN_takeN; lia).
  assert (LHd : lenN Hd = 7).
  { unfold Hd. rewrite lenN_app, (FileStream.lenN_sliceN q0 (q0 + 6) S) by lia.
    rewrite lenN_cons, (@lenN_nil byte). lia. }
  assert (Lpost : lenN post = lenN S - (q0 + 7)) by (unfold post; apply lenN_dropN).
  assert (LD : lenN D = lenN S) by (unfold D; rewrite !lenN_app, Lpre, LHd, Lpost; lia).
  assert (Hbad : read_frame P vecr (vr_next P) vr_block (rd_at P D blk 0) =
                 (mkFR (rd_of P D blk) 0 true, FCorrupt)).
  { apply (H3 read_frame_badtype D blk 0 pre Hd post eq_refl); [fold q0; lia|exact LHd|lia| |].
    - unfold Hd. rewrite all_zero_app. cbn [all_zero Byte.eqb]. apply andb_false_r.
    - unfold Hd. rewrite dropN_app_ge by (rewrite (FileStream.lenN_sliceN q0 (q0 + 6) S) by lia; lia).
      rewrite (FileStream.lenN_sliceN q0 (q0 + 6) S) by lia.
      replace (6 - (q0 + 6 - q0)) with 0 by lia. reflexivity. }
  assert (Hreach : forall o, reach P D blk o -> o = 0).
  { induction 1 as [|c c' res Hr IH Hc E]; [reflexivity|]. subst c.
    rewrite Hbad in E. apply (f_equal fst) in E. apply (f_equal fr_corrupt) in E.
    cbn [fst fr_corrupt StreamProofs.rd_at] in E. discriminate E. }
  exists D, (put_stream FB (vfs w) (w_files w) (dropN (dl * FB) D)).
  assert (HlenSd : lenN (dropN (dl * FB) D) = lenN (w_files w) * FB).
  { rewrite lenN_dropN, LD, HlenS, N.mul_add_distr_r. lia. }
  split.
  2:{ intros Hlen2 [Hlt|(o & Hr & Ho & Hz)]; [lia|].
      rewrite (Hreach o Hr), N.add_0_r in Hz. fold q0 in Hz.
      assert (Hsl : sliceN q0 (q0 + 7) D = Hd)
        by (unfold D; apply StreamProofs.sliceN_app_mid'; [exact Lpre|rewrite LHd; reflexivity]).
      rewrite Hsl in Hz. unfold Hd in Hz. rewrite all_zero_app in Hz. cbn [all_zero Byte.eqb] in Hz.
      rewrite andb_false_r in Hz. discriminate Hz. }
  unfold header_damaged_dir. cbn zeta. fold w dl T z S.
  split; [apply put_stream_shape; [exact Hfull|exact HlenSd]|].
  split; [exact LD|].
  split.
  { fold q0. unfold D. rewrite takeN_app_le by lia. unfold pre. rewrite takeN_takeN. f_equal. lia. }
  split.
  { replace ((blk + 1) * B) with (q0 + B) by (unfold q0; lia).
    unfold D. rewrite dropN_app_ge by lia. rewrite Lpre.
    rewrite dropN_app_ge by lia. rewrite LHd. unfold post. rewrite dropN_dropN. f_equal. lia. }
  split; [rewrite LD; unfold q0 in Hq; lia|].
  split; [exact Hlo|].
  split.
  { apply put_stream_stream; [|intros f Hf; exact (N.le_trans _ _ _ (wr_ok_le w f Hok Hf) Hu)|exact HlenSd].
    destruct (wr_ok_files w Hok) as (_ & _ & _ & Hs). exact Hs. }
  intros xs _ _. apply (H3 accepted_genuine_path); [rewrite LD; unfold q0 in Hq; lia|].
  intros o Hr Ho fr' t p E. rewrite (Hreach o Hr), Hbad in E. discriminate E.
Qed.

(* If moreover the damaged block lies inside the written log ((blk + 1) * B <= |T|: what follows
   the log is still zero) and the reader did not stop inside it, the writer open builds stands
   where the clean writer would (DamageFile.dmg_spec), so the recovery-time GC cannot fail
   (DamageAtomic.pz_gc_no_err, under the 2^64-files bound dmg_bound): open returns OpenOk with
   exactly the queues of the replay of the sub-list Es' — or Corruption if that replay fails. *)
Hypothesis HGC : L_GC P = false.

Theorem C08_header_damage_ok st G blk D fs_d :
  Inv P st G -> header_damaged_dir st G blk D fs_d -> dmg_bound P st G ->
  (blk + 1) * B <= lenN (gh_T P G) -> ~ stopped_in P D blk ->
  forall pol hint, exists tags Es',
    sublistD Es' (map snd (gh_E G)) /\ length tags = length Es' /\
    match replay_entries [] (combine tags Es') with
    | Some qD => exists st_r, open P fs_d None pol hint = OpenOk st_r /\ s_qs st_r = qD
    | None => exists c, open P fs_d None pol hint = OpenCorruption c
    end.
Proof.
  intros HI Hdir Hbound Hbig Hns pol hint.
  destruct (open_header_damaged_dir st G blk D fs_d HI Hdir pol hint)
    as (n & w0 & tags & Es' & Hfiles & Hsub & Hpos & (Hlt & _) & Hres).
  destruct Hdir as (Hsh & HlenD & _ & Hhi & _ & Hkb & HSt & _). cbn zeta in *.
  pose proof HI as (HP & _).
  set (w := s_wr st) in *.
  pose proof HP as (Hw & _ & _ & _ & Hc1 & Hc2 & _). cbn zeta in *.
  set (lo := wlo w) in *. set (base := gh_base G) in *. set (dl := lo - base) in *.
  set (T := gh_T P G) in *.
  set (z := (dl + lenN (w_files w)) * FB - lenN T) in *.
  exists tags, Es'. split; [exact Hsub|]. split; [exact Hlt|].
  destruct (replay_entries [] (combine tags Es')) as [qD|] eqn:Erep; [|exact Hres].
  destruct Hpos as [Hpos|Hst]; [|contradiction].
  destruct (Hpos Hbig) as (sts & Hdspec).
  (* the directory holds T' ++ zeros with |T'| = |T| *)
  set (T' := takeN (lenN T) D).
  assert (HlenSz : lenN T + z = lenN D) by (rewrite HlenD, lenN_app, lenN_zerosN; reflexivity).
  assert (HlenT' : lenN T' = lenN T) by (unfold T'; rewrite lenN_takeN; lia).
  assert (HDz : D = T' ++ zerosN z).
  { replace z with (lenN D - lenN T) by lia.
    apply (H3 zero_tail D T z blk (lenN T) HlenD Hhi); lia. }
  assert (Hkbb : dl * FB <= lenN T).
  { rewrite (HN FB_eq). assert (dl * NB P * B <= blk * B) by (apply N.mul_le_mono_r; exact Hkb). lia. }
  assert (Hdspec' : dmg_spec P fs_d lo n base w0 tags sts (N.max (dl * FB) (lenN T)))
    by (rewrite N.max_r by exact Hkbb; exact Hdspec).
  assert (HSt'' : stream_of fs_d (w_files w) =
                  dropN (dl * FB) (T' ++ zerosN ((dl + lenN (w_files w)) * FB - lenN T)))
    by (fold z; rewrite <- HDz; exact HSt).
  destruct (dmg_writer P HBS_lo HBS_hi HNB Hcrc w G fs_d w0 tags sts n T' HP Hfiles Hsh HlenT' HSt'' Hdspec')
    as (HPZ & Elo & Hk1 & Hk2).
  fold lo base dl T in Hk1, Hk2.
  set (st0 := mkSt w0 qD pol).
  set (names := pick_order hint (empty_names qD)).
  assert (Hb0 : FB * wlo (s_wr st0) +
                cursor_after P (wpos P (s_wr st0)) (map entry_ser (pos_entries (s_qs st0) names)) <=
                FB * (U64_MAX + 1)).
  { cbn [st0 s_wr s_qs]. destruct HPZ as (Hw0 & _).
    apply (bound_transfer P HBS_lo HBS_hi HNB Hcrc w w0 (lenN T) dl _ Hw Hw0 Elo Hc1 Hc2 Hk1 Hk2).
    apply Hbound.
    - apply pos_entries_nodup. apply NoDup_pick_order. apply NoDup_empty_names.
      exact (replay_from_nil_nodup _ _ Erep).
    - apply Forall_forall. intros e He.
      destruct (pos_entries_in _ _ _ He) as (q & m & _ & Eq & ->). exists q, (next_position m).
      split; [reflexivity|].
      pose proof (replay_names_any _ _ Erep q m Eq) as Hin.
      rewrite map_snd_combine' in Hin by exact Hlt.
      apply in_map_iff in Hin. destruct Hin as (x & Ex & Hx).
      apply in_map_iff. exists x. split; [exact Ex|exact (sublist_In _ _ _ Hsub Hx)]. }
  rewrite Hres. unfold open_finish. fold st0.
  pose proof (SpecRefine.run_gc_qs P st0 hint) as Hqs.
  destruct (run_gc_if_necessary P st0 hint) as [st1 r] eqn:Egc. cbn [fst] in Hqs.
  destruct (pz_gc_no_err P HBS_lo HBS_hi HNB Hcrc HGC st0 hint st1 r HPZ Hb0 Egc) as (kk & ->).
  exists st1. split; [reflexivity|exact Hqs].
Qed.

End InvE.

Print Assumptions replay_origin_any.
Print Assumptions C08_header_damage.
Print Assumptions header_damaged_dir_exists.
Print Assumptions C08_header_damage_ok.
