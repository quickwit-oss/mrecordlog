(* RestartWrite.v — the ghost extended by one entry, and the logical side of writing it
   (linv_apply: the tagged replay, coverage and legality); the arithmetic of encodings under a
   shift of the cursor; the tracker's first file across writes.  The physical side of a write
   is JInv.pinvJ_write. *)
From Coq Require Import Lia ZArith ZifyN ZifyNat ZifyBool List Sorted.
From MRL Require Import Bytes BytesProofs Params Names NamesProofs Frame Record Mem Spec Rolling Log
  Driver SpecRefine RecordProofs StreamProofs PolicyProofs GcProofs GhostLog ReplaySpec
  HandleProofs FileStream ResyncProofs RestartInv.

Definition gh_snoc (G : ghost) (f : N) (e : entry) : ghost :=
  mkGhost (gh_base G) (gh_dropped G) (gh_pre G) (gh_E G ++ [(f, e)]).

Lemma gh_snoc_log G f e : gh_log (gh_snoc G f e) = gh_log G ++ [(f, e)].
Proof. unfold gh_log, gh_snoc. cbn [gh_pre gh_E]. now rewrite app_assoc. Qed.

Lemma gh_snoc_ALL G f e : gh_ALL (gh_snoc G f e) = gh_ALL G ++ [e].
Proof.
  unfold gh_ALL. rewrite gh_snoc_log, map_app. cbn [map snd gh_snoc gh_dropped].
  now rewrite app_assoc.
Qed.

Lemma gh_snoc_before G f e : gh_before (gh_snoc G f e) = gh_before G.
Proof. reflexivity. Qed.

Lemma gh_snoc_k G f e : gh_k (gh_snoc G f e) = gh_k G.
Proof. reflexivity. Qed.

Lemma legal_log_snoc : forall es m i e,
  legal_log m i es -> (forall m', t_replay m i es = Some m' -> legal m' e) ->
  legal_log m i (es ++ [e]).
Proof.
  induction es as [|x es IH]; intros m i e Hl He.
  - cbn [app]. apply ll_cons; [apply He; reflexivity|]. intros m' _. apply ll_nil.
  - destruct (legal_log_cons_inv _ _ _ _ Hl) as (Hx & m1 & E1 & Hl1).
    cbn [app]. apply ll_cons; [exact Hx|]. intros m' Em'. rewrite E1 in Em'. inversion Em'; subst m'.
    apply IH; [exact Hl1|]. intros m2 E2. apply He. cbn [t_replay]. now rewrite E1.
Qed.

(* where the records of a queue come from *)
Lemma q_apply_origin v i e rf' n' r :
  q_apply v i e = Some (Some (rf', n')) -> In r rf' ->
  (exists rf n, v = Some (rf, n) /\ In r rf) \/ (fst r = i /\ creates e (entry_queue e) = true).
Proof.
  destruct e as [q pos recs|q p|q p|q p]; cbn [q_apply]; intros H Hin.
  - destruct (match v with Some v0 => v0 | None => ([], pos) end) as [old next] eqn:Ev.
    rewrite t_append_all_eq in H. destruct (chk_pos next recs) as [nn|]; [|discriminate].
    inversion H; subst. apply in_app_or in Hin. destruct Hin as [Hin|Hin].
    + left. destruct v as [[rf n]|]; inversion Ev; subst; [|contradiction]. now exists old, next.
    + right. unfold tag_with in Hin. apply in_map_iff in Hin. destruct Hin as (x & <- & _).
      split; [reflexivity|]. cbn [creates entry_queue]. apply bytes_eqb_refl.
  - destruct v as [[recs next]|]; inversion H; subst. left. exists recs, next. split; [reflexivity|].
    apply filter_In in Hin. tauto.
  - destruct v as [[recs next]|].
    + destruct (negb (isnil recs) || negb (next =? p)); inversion H; subst; [contradiction|].
      left. now exists rf', n'.
    + inversion H; subst. contradiction.
  - discriminate.
Qed.

Lemma t_apply_origin m i e m' q rf' n' r :
  t_apply m i e = Some m' -> t_get m' q = Some (rf', n') -> In r rf' ->
  (exists rf n, t_get m q = Some (rf, n) /\ In r rf) \/ (fst r = i /\ creates e q = true).
Proof.
  intros H Eq Hin. destruct (t_apply_some m i e m' H) as (Hq & Ho).
  destruct (bytes_eqb (entry_queue e) q) eqn:Eb.
  - apply bytes_eqb_eq in Eb. subst q. rewrite Eq in Hq.
    destruct (q_apply_origin _ _ _ _ _ _ Hq Hin) as [Hl|Hr]; [now left|now right].
  - apply bytes_eqb_neq in Eb. rewrite (Ho q Eb) in Eq. left. now exists rf', n'.
Qed.

(* a queue present after the entry was present before, or the entry creates it *)
Lemma t_apply_present m i e m' q :
  t_apply m i e = Some m' -> t_get m' q <> None ->
  t_get m q <> None \/ creates e q = true.
Proof.
  intros H Hp. destruct (t_apply_some m i e m' H) as (Hq & Ho).
  destruct (bytes_eqb (entry_queue e) q) eqn:Eb.
  - apply bytes_eqb_eq in Eb. subst q.
    destruct (creates e (entry_queue e)) eqn:Ec; [now right|left].
    intros En. rewrite En in Hq. apply Hp. exact (q_apply_none_stays _ _ _ Hq Ec).
  - apply bytes_eqb_neq in Eb. rewrite (Ho q Eb) in Hp. now left.
Qed.

Lemma creates_entry_queue e : match e with EAppend _ _ _ | EPosition _ _ => creates e (entry_queue e) = true
                                          | _ => True end.
Proof. destruct e; cbn [creates entry_queue]; try exact I; apply bytes_eqb_refl. Qed.

Lemma linv_apply qs lo G f e qs' :
  LInv qs lo G -> qs_wf qs' ->
  (forall F, t_replay [] 0 (gh_ALL G) = Some F -> legal F e) ->
  apply_entry qs f e = Some qs' -> lo <= f ->
  LInv qs' lo (gh_snoc G f e).
Proof.
  intros (_ & Hleg & Hrep & F & EF & Hcov) Hwf' Hlegal Hap Hlo.
  split; [exact Hwf'|]. split.
  { rewrite gh_snoc_ALL. apply legal_log_snoc; [exact Hleg|]. intros m' Em'. now apply Hlegal. }
  split.
  { rewrite gh_snoc_log, replay_app, Hrep. cbn [obind replay_entries]. now rewrite Hap. }
  destruct (legal_apply_some F (length (gh_ALL G)) e (Hlegal F EF)) as (F' & EF').
  exists F'. split.
  { rewrite gh_snoc_ALL, t_replay_app, EF. cbn [t_replay]. rewrite Nat.add_0_l, EF'. reflexivity. }
  assert (Elen : length (gh_ALL G) = (gh_k G + length (gh_E G))%nat).
  { rewrite gh_ALL_split, app_length, gh_before_length, map_length. reflexivity. }
  intros q rf' n' Eq. cbn [gh_snoc gh_E]. rewrite gh_snoc_k. split.
  - rewrite map_app, existsb_app. cbn [map snd existsb].
    destruct (t_apply_present F _ e F' q EF') as [Hp|Hc]; [rewrite Eq; discriminate| |].
    + destruct (t_get F q) as [[rf n]|] eqn:Eq0; [|contradiction].
      destruct (Hcov q rf n Eq0) as (Hc & _). now rewrite Hc.
    + rewrite Hc. now rewrite orb_true_r.
  - apply Forall_forall. intros r Hin.
    destruct (t_apply_origin F _ e F' q rf' n' r EF' Eq Hin) as [(rf & n & Eq0 & Hin0)|(Hi & Hcr)].
    + destruct (Hcov q rf n Eq0) as (_ & Hr). rewrite Forall_forall in Hr.
      destruct (Hr r Hin0) as (j & f0 & e0 & Ej & En & Hf0).
      exists j, f0, e0. split; [exact Ej|]. split; [|exact Hf0].
      rewrite nth_error_app1; [exact En|]. apply nth_error_Some. now rewrite En.
    + exists (length (gh_E G)), f, e. split; [lia|]. split; [|split; [exact Hlo|exact Hcr]].
      rewrite nth_error_app2 by lia. now rewrite Nat.sub_diag.
Qed.


Lemma legal_create qs lo G q F :
  LInv qs lo G -> qs_get qs q = None -> t_replay [] 0 (gh_ALL G) = Some F ->
  legal F (EPosition q 0).
Proof.
  intros HL Eq EF. pose proof (LInv_tget qs lo G F HL EF q) as Ht. rewrite Eq in Ht.
  destruct (t_get F q) as [v|] eqn:Et; [contradiction|]. cbn [legal]. left. now split.
Qed.

Lemma legal_present qs lo G q m F :
  LInv qs lo G -> qs_get qs q = Some m -> t_replay [] 0 (gh_ALL G) = Some F ->
  exists rf, t_get F q = Some (rf, next_position m).
Proof.
  intros HL Eq EF. pose proof (LInv_tget qs lo G F HL EF q) as Ht. rewrite Eq in Ht.
  destruct (t_get F q) as [[rf nx]|] eqn:Et; [|contradiction].
  unfold untag_q, abs_q in Ht. cbn [fst snd] in Ht. inversion Ht; subst. now exists rf.
Qed.

Lemma legal_delete qs lo G q m p F :
  LInv qs lo G -> qs_get qs q = Some m -> t_replay [] 0 (gh_ALL G) = Some F ->
  legal F (EDelete q p).
Proof.
  intros HL Eq EF. destruct (legal_present _ _ _ _ _ _ HL Eq EF) as (rf & Et).
  cbn [legal]. rewrite Et. discriminate.
Qed.

Lemma legal_truncate qs lo G q m p F :
  LInv qs lo G -> qs_get qs q = Some m -> t_replay [] 0 (gh_ALL G) = Some F ->
  legal F (ETruncate q p).
Proof.
  intros HL Eq EF. destruct (legal_present _ _ _ _ _ _ HL Eq EF) as (rf & Et).
  cbn [legal]. rewrite Et. discriminate.
Qed.

Lemma legal_append qs lo G q m position payloads F :
  LInv qs lo G -> qs_get qs q = Some m -> next_position m <= position -> payloads <> [] ->
  t_replay [] 0 (gh_ALL G) = Some F ->
  legal F (EAppend q position (number_from position payloads)).
Proof.
  intros HL Eq Hge Hne EF. destruct (legal_present _ _ _ _ _ _ HL Eq EF) as (rf & Et).
  cbn [legal]. exists rf, (next_position m). split; [exact Et|]. split; [exact Hge|].
  split; [|now exists payloads]. intros H. apply number_from_nil_iff in H. contradiction.
Qed.

Section RestartWrite.
Variable P : params.
Hypothesis HBS_lo : 7 < BS P.
Hypothesis HBS_hi : BS P <= 65542.
Hypothesis HNB : 1 <= NB P.
Hypothesis Hcrc : forall t p, crcf P t p < 2 ^ 32.

Local Notation B := (BS P).
Local Notation FB := (FILE_BYTES P).
Local Notation ffp := (first_frame_pos P).
Local Notation enc_of := (enc_of P).
Local Notation encs_of := (encs_of P).
Local Notation cursor_after := (cursor_after P).
Local Notation starts := (starts P).
Local Notation pad_of := (pad_of P).
Local Notation chunk_of := (chunk_of P).
Local Notation enc_rel := (enc_rel P).
Local Notation H3 f := (f P HBS_lo HBS_hi Hcrc) (only parsing).
Local Notation H2 f := (f P HBS_lo HBS_hi) (only parsing).
Local Notation HN f := (f P HBS_lo HBS_hi HNB) (only parsing).
Local Notation PInv := (PInv P).
Local Notation LInv := (LInv).
Local Notation Inv := (Inv P).

Lemma FB_eq : FB = NB P * B. Proof. unfold FILE_BYTES. lia. Qed.

Lemma pad_of_mod a a' : a' mod B = a mod B -> pad_of a' = pad_of a.
Proof. intros H. unfold StreamProofs.pad_of. now rewrite H. Qed.

Lemma chunk_of_mod a a' p : a' mod B = a mod B -> chunk_of a' p = chunk_of a p.
Proof. intros H. unfold StreamProofs.chunk_of. now rewrite H. Qed.

Lemma add_mod_congr a a' x : a' mod B = a mod B -> (a' + x) mod B = (a + x) mod B.
Proof.
  intros H. rewrite (N.add_mod a' x), (N.add_mod a x) by lia. now rewrite H.
Qed.

Lemma enc_rel_mod a f p e k :
  enc_rel a f p e k -> forall a', a' mod B = a mod B -> enc_rel a' f p e k.
Proof.
  induction 1 as [a f p Hd|a f p e k Hd Hr IH]; intros a' Hm.
  - rewrite <- (pad_of_mod a a' Hm), <- (chunk_of_mod a a' p Hm).
    apply ER_last. now rewrite (chunk_of_mod a a' p Hm).
  - rewrite <- (pad_of_mod a a' Hm), <- (chunk_of_mod a a' p Hm).
    apply ER_more; [now rewrite (chunk_of_mod a a' p Hm)|].
    rewrite (chunk_of_mod a a' p Hm). apply IH.
    rewrite (pad_of_mod a a' Hm). rewrite <- !N.add_assoc. now apply add_mod_congr.
Qed.

Lemma enc_of_mod a a' p : a' mod B = a mod B -> enc_of a' p = enc_of a p.
Proof.
  intros Hm. destruct (H3 enc_of_rel a p) as (k & Hr).
  exact (H3 enc_rel_enc_of a' p _ k (enc_rel_mod _ _ _ _ _ Hr a' Hm)).
Qed.

Lemma enc_of_shift d a p : d mod B = 0 -> enc_of (d + a) p = enc_of a p.
Proof.
  intros Hd. apply enc_of_mod. rewrite N.add_mod by lia. rewrite Hd, N.add_0_l.
  apply N.mod_mod. lia.
Qed.

Lemma mulFB_mod k : (k * FB) mod B = 0.
Proof. rewrite FB_eq, N.mul_assoc. apply N.mod_mul. lia. Qed.

Lemma ffp_between a c : a <= c -> c <= ffp a -> ffp c = ffp a.
Proof using HBS_lo HBS_hi HNB. exact (H2 ffp_between_r a c). Qed.

Lemma enc_of_between a c p : a <= c -> c <= ffp a -> zerosN (c - a) ++ enc_of c p = enc_of a p.
Proof.
  intros H1 H2c.
  rewrite (H3 enc_of_ffp_eq c p), (H3 enc_of_ffp_eq a p), !(H2 pad_of_zeros).
  rewrite (ffp_between a c H1 H2c), app_assoc, <- zerosN_app.
  do 2 f_equal. pose proof (H2 ffp_ge a). lia.
Qed.

Lemma enc_of_between_len a c p : a <= c -> c <= ffp a ->
  c + lenN (enc_of c p) = a + lenN (enc_of a p).
Proof.
  intros H1 H2c. rewrite <- (enc_of_between a c p H1 H2c), lenN_app, lenN_zerosN. lia.
Qed.

Lemma cursor_after_0 es : cursor_after 0 es = lenN (encs_of 0 es).
Proof. unfold ResyncProofs.cursor_after. lia. Qed.

Lemma cursor_after_snoc a es p :
  cursor_after a (es ++ [p]) = cursor_after a es + lenN (enc_of (cursor_after a es) p).
Proof.
  rewrite (H3 cursor_after_app), (H3 cursor_after_cons), (H2 cursor_after_nil). reflexivity.
Qed.

Definition hd_inv (lo : N) (w : rwriter) : Prop := wr_ok w /\ hd_error (w_files w) = Some lo.

Lemma wr_ok_hd w : wr_ok w -> hd_error (w_files w) = Some (wlo w).
Proof.
  intros [Hc Hl]. unfold wlo. destruct (w_files w) as [|lo0 r] eqn:E; [contradiction|].
  cbn [contiguous] in Hc. destruct (chain_length r lo0 (w_file w) Hc Hl) as (Hn & Hle).
  cbn [hd_error]. f_equal. lia.
Qed.

Lemma hd_inv_wlo lo w : hd_inv lo w -> wlo w = lo.
Proof. intros [Hok Hh]. rewrite (wr_ok_hd w Hok) in Hh. now inversion Hh. Qed.

Lemma wr_write_hd lo w d w' r : wr_write P w d = (w', r) -> hd_inv lo w -> hd_inv lo w'.
Proof.
  intros H [Hok Hh]. split; [exact (wr_write_ok P w d w' r H Hok)|].
  revert H. unfold wr_write. destruct d as [|b d'] eqn:Ed.
  - intros H; inversion H; subst. exact Hh.
  - rewrite <- Ed. clear Ed b d'.
    set (w1 := sync_dir (sync_data (bw_flush w))).
    pose proof (presync_tracker w) as Hw1. fold w1 in Hw1. clearbody w1.
    destruct (FILE_BYTES P <? w_off w + lenN d).
    + intros H.
      assert (Hok1 : wr_ok w1) by (eapply same_tracker_ok; eassumption).
      destruct Hw1 as [Hfs Hf].
      rewrite (wr_ok_tracker_next _ Hok1) in H.
      destruct (create_file P (w_ctx w1) (w_file w1 + 1)) as [c [[]|e]];
        inversion H; subst; clear H.
      * destruct (bw_write_all_tracker P
                    (mkWr c (insert_sorted (w_file w1 + 1) (w_files w1)) (w_file w1 + 1) 0 []) d)
          as [H1 _].
        cbn [w_files] in H1. rewrite H1. destruct Hok1 as [Hc Hl].
        rewrite Hfs in *. destruct (w_files w) as [|lo0 r0] eqn:E; [contradiction|].
        cbn [contiguous] in Hc. rewrite (insert_sorted_last r0 lo0 (w_file w1) Hc Hl).
        exact Hh.
      * cbn [w_files]. now rewrite Hfs.
    + intros H; inversion H; subst. destruct (bw_write_all_tracker P w d) as [H1 _].
      now rewrite H1.
Qed.

Lemma write_record_hd lo w p w' r :
  write_record P rwriter (wr_write P) (wr_rem P) w p = (w', r) -> hd_inv lo w -> hd_inv lo w'.
Proof.
  apply (write_record_inv P rwriter (wr_write P) (wr_rem P) (hd_inv lo)).
  intros w0 d w0' r0. apply wr_write_hd.
Qed.

(* the premise of a write: the stream stays below 2^64 files *)
Definition stream_bound (G : ghost) (extra : list entry) : Prop :=
  FB * gh_base G + cursor_after 0 (map entry_ser (gh_ALL G ++ extra)) <= FB * (U64_MAX + 1).

Lemma stream_bound_prefix G x y : stream_bound G (x ++ y) -> stream_bound G x.
Proof.
  unfold stream_bound. rewrite app_assoc, map_app, (H3 cursor_after_app).
  pose proof (H3 cursor_after_ge (map entry_ser y) (cursor_after 0 (map entry_ser (gh_ALL G ++ x)))).
  lia.
Qed.

Lemma stream_bound_snoc G f e x :
  stream_bound G (e :: x) -> stream_bound (gh_snoc G f e) x.
Proof.
  unfold stream_bound. rewrite gh_snoc_ALL, <- app_assoc. cbn [app gh_snoc gh_base]. trivial.
Qed.

Lemma winv_wlo_le w : winv P w -> wlo w <= w_file w.
Proof. intros (Hok & _). destruct (wr_ok_len P (HN HB0) HNB w Hok). lia. Qed.

End RestartWrite.

Print Assumptions linv_apply.
