(* VacRecovered2.v — vacuity audit of CrashRecovered2.crash_recovered_crash and
   CrashRecovered3.crash_recovered_self.
   Instance (BS = 32, NB = 8): create qa, seven appends (the log rolls over to file 1), then the
   interrupted call truncate(qa, ..=4), whose GC unlinks file 0.
   (1) params P_sat 32 8 (no_zero_collision holds): ALL premises of both theorems are jointly
       satisfiable and the theorems are applied; the first crash is taken after the data of the
       call is flushed and before its unlink, so that the RECOVERY itself garbage-collects.
   (2) the real CRC-32: the conclusions checked by computation on every crash image:
       - every crash image of the recovery's own events is recovered to the same abstract state;
       - after recovery and a continuation, every crash image of a further append is recovered
         to the state before or after it. *)
From Coq Require Import Lia ZArith ZifyN ZifyNat ZifyBool List.
From MRL Require Import Bytes BytesProofs Params Names Frame Record Mem Spec Rolling Log Driver Hist
  WriterProofs SpecRefine RecordProofs StreamProofs ResyncProofs GhostLog ReplaySpec TornProofs
  RestartInv RestartWrite RestartStep OpenReplay RestartFinal CrashTrace CrashAtomic NzcVacuous
  VacBase VacCrash JRecoverSelf CrashRecovered CrashRecovered2 CrashRecovered3 CrashHistories VacRecovered.
Import ListNotations.
Import CrashAtomic.CrashExample.

Definition hm : list hop :=
  [HCall (OCreate qa) false;
   HCall (OAppend qa None [pay "1"%byte]) false; HCall (OAppend qa None [pay "2"%byte]) false;
   HCall (OAppend qa None [pay "3"%byte]) false; HCall (OAppend qa None [pay "4"%byte]) false;
   HCall (OAppend qa None [pay "5"%byte]) false; HCall (OAppend qa None [pay "6"%byte]) false;
   HCall (OAppend qa None [pay "7"%byte]) false].
Definition o_t : op := OTruncate qa 4 [].

Definition tm : state :=
  Eval vm_compute in match hrun Pv sv0 hm with Some (s, _) => s | None => st_dummy end.
Definition outs_m : list outcome :=
  Eval vm_compute in match hrun Pv sv0 hm with Some (_, o) => o | None => [] end.
Definition tm' : state := Eval vm_compute in fst (step Pv tm o_t false).
Definition out_t : outcome := Eval vm_compute in snd (step Pv tm o_t false).
Lemma hrun_m : hrun Pv sv0 hm = Some (tm, outs_m). Proof. vm_compute. reflexivity. Qed.
Lemma step_t : step Pv tm o_t false = (tm', out_t). Proof. vm_compute. reflexivity. Qed.

Lemma hist_ok_m : hist_ok Pv sv0 hm.
Proof. unfold hm. do 8 call_tac. exact I. Qed.

Lemma inv_m : exists G, Inv Pv tm G.
Proof.
  destruct (inv_hrun_fresh Pv Pv_BS_lo Pv_BS_hi Pv_NB Pv_crc eq_refl eq_refl _ _ _ _ _ open_sv0 hist_ok_m hrun_m)
    as (G & HI & _).
  now exists G.
Qed.

Example setting_m :
  w_files (s_wr tm) = [0; 1] /\ w_off (s_wr tm) = 112 /\ w_files (s_wr tm') = [1] /\
  w_off (s_wr tm') = 138 /\ FILE_BYTES Pv = 256.
Proof. vm_compute. repeat split; reflexivity. Qed.

Lemma phys_before : crash_phys_bound Pv (s_wr tm) (map snd (step_log Pv tm o_t)) (abs_qs (s_qs tm)).
Proof. apply (crash_phys_bound_by Pv Pv_BS_lo Pv_BS_hi Pv_NB Pv_crc 64); [vm_compute; reflexivity|le_tac]. Qed.
Lemma phys_after : crash_phys_bound Pv (s_wr tm) (map snd (step_log Pv tm o_t)) (abs_qs (s_qs tm')).
Proof. apply (crash_phys_bound_by Pv Pv_BS_lo Pv_BS_hi Pv_NB Pv_crc 64); [vm_compute; reflexivity|le_tac]. Qed.

Theorem crash_setting_m : exists G, crash_setting Pv tm G true o_t false tm' out_t.
Proof.
  destruct inv_m as (G & HI). exists G.
  destruct (crash_bounds_by Pv Pv_BS_lo Pv_BS_hi Pv_NB Pv_crc _ G _ _ _ HI phys_before phys_after) as (Hs & Hc1 & Hc2).
  split; [exact HI|]. split; [reflexivity|]. split; [reflexivity|].
  split; [unfold o_t; wf_tac|].
  split; [exact Hs|]. split; [exact Hc1|]. split; [exact Hc2|]. split; [exact step_t|].
  split; [intros e H; discriminate H|].
  split; [reflexivity|]. le_tac.
Qed.

(* the events of the call, and the first crash: after the flush group, before the unlink *)
Definition evs_t : list event := Eval vm_compute in new_events tm tm'.
Lemma evs_t_eq : c_ev (w_ctx (s_wr tm')) = rev evs_t ++ c_ev (w_ctx (s_wr tm)).
Proof. vm_compute. reflexivity. Qed.
Definition img1 : fsT :=
  Eval vm_compute in fold_left apply_event (crash_events evs_t 4 0) (c_fs (w_ctx (s_wr tm))).
Definition tr : state :=
  Eval vm_compute in match open Pv img1 None (PAlways true) [] with OpenOk s => s | _ => st_dummy end.
Lemma open_img1 : open Pv img1 None (PAlways true) [] = OpenOk tr.
Proof. vm_compute. reflexivity. Qed.

(* the recovery itself unlinks file 0 *)
Example recovery_gcs :
  list_wal_numbers img1 = [0; 1] /\ w_files (s_wr tr) = [1] /\ w_off (s_wr tr) = 138 /\
  existsb (fun e => match e with EvUnlink _ => true | _ => false end) (c_ev (w_ctx (s_wr tr))) = true.
Proof. vm_compute. repeat split; reflexivity. Qed.

Lemma rec_bound_tr : rec_bound Pv tr.
Proof.
  intros c extra Hx Hc.
  pose proof (pos_extra_bound Pv Pv_BS_lo Pv_BS_hi Pv_NB Pv_crc (abs_qs (s_qs tr)) 64 c extra
                ltac:(vm_compute; reflexivity) Hx) as H.
  assert (Hw : wabs Pv (s_wr tr) + BS Pv + 64 * N.of_nat (length (abs_qs (s_qs tr))) <=
               FILE_BYTES Pv * (U64_MAX + 1)) by le_tac.
  lia.
Qed.

Lemma evs_unique evs :
  c_ev (w_ctx (s_wr tm')) = rev evs ++ c_ev (w_ctx (s_wr tm)) -> evs = evs_t.
Proof. exact (new_evs_unique _ _ _ _ evs_t_eq). Qed.

(* crash_recovered_self applies: every crash image of the recovery's own events is recovered to
   the abstract state of tr *)
Theorem crash_recovered_self_inst :
  forall cut2 k2 pol3 hint3, exists st_r2,
    open Pv (fold_left apply_event (crash_events (rev (c_ev (w_ctx (s_wr tr)))) cut2 k2) img1)
         None pol3 hint3 = OpenOk st_r2 /\
    (forall q, s_get (abs_qs (s_qs st_r2)) q = s_get (abs_qs (s_qs tr)) q).
Proof.
  destruct crash_setting_m as (G & Hset).
  destruct (crash_recovered_self Pv Pv_BS_lo Pv_BS_hi Pv_NB Pv_crc eq_refl eq_refl eq_refl Pv_nzc
              tm G true o_t false tm' out_t Hset phys_before phys_after) as (evs & Hev & Hall).
  pose proof (evs_unique evs Hev) as ->.
  intros cut2 k2 pol3 hint3.
  destruct (Hall 4 0 (PAlways true) [] tr open_img1 ltac:(vm_compute; reflexivity) ltac:(le_tac)
              rec_bound_tr cut2 k2 pol3 hint3) as (st_r2 & Ho & Ha & _).
  exists st_r2. split; [exact Ho|exact Ha].
Qed.

(* the continuation after the recovery, and the second interrupted call *)
Definition h2m : list hop := [HCall (OCreate qb) false].
Definition t2 : state :=
  Eval vm_compute in match hrun Pv tr h2m with Some (s, _) => s | None => st_dummy end.
Definition outs_2 : list outcome :=
  Eval vm_compute in match hrun Pv tr h2m with Some (_, o) => o | None => [] end.
Definition o_2 : op := OAppend qb None [pay "9"%byte].
Definition t2' : state := Eval vm_compute in fst (step Pv t2 o_2 false).
Definition out_2 : outcome := Eval vm_compute in snd (step Pv t2 o_2 false).
Lemma hrun_2 : hrun Pv tr h2m = Some (t2, outs_2). Proof. vm_compute. reflexivity. Qed.
Lemma step_2 : step Pv t2 o_2 false = (t2', out_2). Proof. vm_compute. reflexivity. Qed.
Lemma hist_ok_2 : hist_ok Pv tr h2m.
Proof. unfold h2m. call_tac. exact I. Qed.

(* crash_recovered_crash applies: every crash image of the further call o_2 is recovered to the
   state before or after it *)
Theorem crash_recovered_crash_inst :
  exists evs2, c_ev (w_ctx (s_wr t2')) = rev evs2 ++ c_ev (w_ctx (s_wr t2)) /\
    forall cut2 k2 pol3 hint3, exists st_r2,
      open Pv (fold_left apply_event (crash_events evs2 cut2 k2) (c_fs (w_ctx (s_wr t2)))) None pol3 hint3
        = OpenOk st_r2 /\
      ((forall q, s_get (abs_qs (s_qs st_r2)) q = s_get (abs_qs (s_qs t2)) q) \/
       (forall q, s_get (abs_qs (s_qs st_r2)) q = s_get (abs_qs (s_qs t2')) q)).
Proof.
  destruct crash_setting_m as (G & Hset).
  destruct (crash_recovered_crash Pv Pv_BS_lo Pv_BS_hi Pv_NB Pv_crc eq_refl eq_refl eq_refl Pv_nzc
              tm G true o_t false tm' out_t Hset) as (evs & Hev & Hall).
  pose proof (evs_unique evs Hev) as ->.
  destruct (Hall 4 0 true [] tr open_img1 h2m t2 outs_2 hist_ok_2 ltac:(cbn; auto) hrun_2
              o_2 false t2' out_2) as (evs2 & Hev2 & Hall2).
  - unfold o_2. wf_tac.
  - apply (crash_phys_bound_by Pv Pv_BS_lo Pv_BS_hi Pv_NB Pv_crc 64); [vm_compute; reflexivity|le_tac].
  - apply (crash_phys_bound_by Pv Pv_BS_lo Pv_BS_hi Pv_NB Pv_crc 64); [vm_compute; reflexivity|le_tac].
  - exact step_2.
  - vm_compute. reflexivity.
  - le_tac.
  - exists evs2. split; [exact Hev2|]. intros cut2 k2 pol3 hint3.
    destruct (Hall2 cut2 k2 pol3 hint3) as (st_r2 & Ho & Ha & _). exists st_r2. auto.
Qed.

(* crash_histories: a history with two crashes *)
Definition hc : list chop :=
  [CCrash o_t false 4 0 (PAlways true) []; CCall (OCreate qb) false;
   CCrash o_2 false 1 3 (PAlways true) []].

Lemma crash_img_1 : crash_img Pv tm o_t false 4 0 = img1.
Proof.
  unfold crash_img. rewrite step_t. cbn [fst]. rewrite (new_evs_spec tm tm' evs_t evs_t_eq).
  vm_compute. reflexivity.
Qed.
Lemma step_qb : step Pv tr (OCreate qb) false = (t2, OutCreate 19).
Proof. vm_compute. reflexivity. Qed.

Lemma chist_ok_hc : chist_ok Pv tm hc.
Proof.
  unfold hc. cbn [chist_ok]. rewrite step_t. cbn [fst snd]. split.
  { exists true. split; [reflexivity|]. split; [reflexivity|]. split; [unfold o_t; wf_tac|].
    split; [exact phys_before|]. split; [exact phys_after|]. split; [exact step_t|].
    split; [reflexivity|]. le_tac. }
  rewrite crash_img_1, open_img1. rewrite step_qb. cbn [fst snd].
  split; [wf_tac|]. split; [unfold phys_bound; le_tac|].
  rewrite step_2. cbn [fst snd]. split.
  { exists true. split; [reflexivity|]. split; [reflexivity|]. split; [unfold o_2; wf_tac|].
    split; [apply (crash_phys_bound_by Pv Pv_BS_lo Pv_BS_hi Pv_NB Pv_crc 64); [vm_compute; reflexivity|le_tac]|].
    split; [apply (crash_phys_bound_by Pv Pv_BS_lo Pv_BS_hi Pv_NB Pv_crc 64); [vm_compute; reflexivity|le_tac]|].
    split; [exact step_2|]. split; [vm_compute; reflexivity|]. le_tac. }
  destruct (open Pv (crash_img Pv t2 o_2 false 1 3) None (PAlways true) []); exact I.
Qed.

Theorem crash_histories_inst :
  exists st' m', crun Pv tm hc = Some st' /\ jstate Pv st' /\
    chist_spec (abs_qs (s_qs tm)) hc m' /\ forall q, s_get m' q = s_get (abs_qs (s_qs st')) q.
Proof.
  destruct inv_m as (G & HI).
  exact (crash_histories Pv Pv_BS_lo Pv_BS_hi Pv_NB Pv_crc eq_refl eq_refl eq_refl Pv_nzc hc tm
           (jstate_inv Pv Pv_BS_lo Pv_BS_hi Pv_NB Pv_crc tm G HI) chist_ok_hc).
Qed.

Definition rm_ : state :=
  Eval vm_compute in match hrun Pr sr0 hm with Some (s, _) => s | None => st_dummy end.
Definition rm' : state := Eval vm_compute in fst (step Pr rm_ o_t false).

Definition open_abs (img : fsT) : option (state) :=
  match open Pr img None (PAlways true) [] with OpenOk s => Some s | _ => None end.

(* every crash image of the call; for each, every crash image of the recovery's own events:
   (pairs, pairs recovered to the abstract state of the first recovery, pairs whose second image
    differs from the first as a directory, i.e. the crash cut a mutating effect of the recovery) *)
Definition self_census : N * N * N :=
  let evs := new_events rm_ rm' in
  let fs0 := c_fs (w_ctx (s_wr rm_)) in
  let vs := flat_map (fun ck =>
      let img := fold_left apply_event (crash_events evs (fst ck) (snd ck)) fs0 in
      match open_abs img with
      | None => [(0, false)]
      | Some st_r =>
          let evr := rev (c_ev (w_ctx (s_wr st_r))) in
          map (fun ck2 =>
                 let img2 := fold_left apply_event (crash_events evr (fst ck2) (snd ck2)) img in
                 let changed := negb (lenN (list_wal_numbers img2) =? lenN (list_wal_numbers img)) in
                 match open_abs img2 with
                 | Some st_r2 =>
                     (if smap_ext_eqb (abs_qs (s_qs st_r2)) (abs_qs (s_qs st_r)) then 1 else 0, changed)
                 | None => (0, changed)
                 end) (crash_points evr)
      end) (crash_points evs) in
  (lenN vs, lenN (filter (fun v => fst v =? 1) vs), lenN (filter (fun v => snd v) vs)).

(* second crash: recover every crash image of the call, run the continuation, then crash the
   further append everywhere: (images, recovered = before, recovered = after, failures) *)
Definition second_census : N * N * N * N :=
  let evs := new_events rm_ rm' in
  let fs0 := c_fs (w_ctx (s_wr rm_)) in
  let vs := flat_map (fun ck =>
      let img := fold_left apply_event (crash_events evs (fst ck) (snd ck)) fs0 in
      match open_abs img with
      | None => [0]
      | Some st_r =>
          match hrun Pr st_r h2m with
          | None => [0]
          | Some (s2, _) =>
              let '(s2', _) := step Pr s2 o_2 false in
              let evs2 := new_events s2 s2' in
              map (fun ck2 =>
                     let img2 := fold_left apply_event (crash_events evs2 (fst ck2) (snd ck2))
                                           (c_fs (w_ctx (s_wr s2))) in
                     match open_abs img2 with
                     | Some st_r2 =>
                         if smap_ext_eqb (abs_qs (s_qs st_r2)) (abs_qs (s_qs s2)) then 1
                         else if smap_ext_eqb (abs_qs (s_qs st_r2)) (abs_qs (s_qs s2')) then 2 else 0
                     | None => 0
                     end) (crash_points evs2)
          end
      end) (crash_points evs) in
  (lenN vs, lenN (filter (N.eqb 1) vs), lenN (filter (N.eqb 2) vs), lenN (filter (N.eqb 0) vs)).

(* The 34 crash images of the call are 18 distinct directories; the recovery traces mutate so
   little that the 593 images of self_census are among these 18, and the 1955 of second_census are
   537 distinct ones.  open runs once per distinct directory (rows_ix). *)
Definition pts_r : list (N * N) := crash_points (new_events rm_ rm').
Definition img_r (ck : N * N) : fsT :=
  fold_left apply_event (crash_events (new_events rm_ rm') (fst ck) (snd ck)) (c_fs (w_ctx (s_wr rm_))).
Definition opened (img : fsT) : fsT * option state := (img, open_abs img).

Definition self_row (p : fsT * option state) : option (smap * N * list fsT) :=
  match snd p with
  | None => None
  | Some st_r =>
      let evr := rev (c_ev (w_ctx (s_wr st_r))) in
      Some (abs_qs (s_qs st_r), lenN (list_wal_numbers (fst p)),
            map (fun ck2 => fold_left apply_event (crash_events evr (fst ck2) (snd ck2)) (fst p)) (crash_points evr))
  end.
Definition second_row (p : fsT * option state) : option (smap * smap * list fsT) :=
  match snd p with
  | None => None
  | Some st_r =>
      match hrun Pr st_r h2m with
      | None => None
      | Some (s2, _) =>
          let '(s2', _) := step Pr s2 o_2 false in
          let evs2 := new_events s2 s2' in
          Some (abs_qs (s_qs s2), abs_qs (s_qs s2'),
                map (fun ck2 => fold_left apply_event (crash_events evs2 (fst ck2) (snd ck2)) (c_fs (w_ctx (s_wr s2))))
                    (crash_points evs2))
      end
  end.

Definition look_r (img : fsT) : N * option smap :=
  (lenN (list_wal_numbers img), match open_abs img with Some s => Some (abs_qs (s_qs s)) | None => None end).
Definition self_verdict (c : smap * N) (v : N * option smap) : N * bool :=
  let changed := negb (fst v =? snd c) in
  match snd v with
  | Some m => (if smap_ext_eqb m (fst c) then 1 else 0, changed)
  | None => (0, changed)
  end.
Definition second_verdict (c : smap * smap) (v : N * option smap) : N :=
  match snd v with
  | Some m => if smap_ext_eqb m (fst c) then 1 else if smap_ext_eqb m (snd c) then 2 else 0
  | None => 0
  end.

Lemma self_rows img :
  match open_abs img with
  | None => [(0, false)]
  | Some st_r =>
      let evr := rev (c_ev (w_ctx (s_wr st_r))) in
      map (fun ck2 =>
             let img2 := fold_left apply_event (crash_events evr (fst ck2) (snd ck2)) img in
             let changed := negb (lenN (list_wal_numbers img2) =? lenN (list_wal_numbers img)) in
             match open_abs img2 with
             | Some st_r2 =>
                 (if smap_ext_eqb (abs_qs (s_qs st_r2)) (abs_qs (s_qs st_r)) then 1 else 0, changed)
             | None => (0, changed)
             end) (crash_points evr)
  end = judge_all look_r self_verdict [(0, false)] (self_row (opened img)).
Proof.
  unfold self_row, opened, judge_all. cbn [fst snd]. destruct (open_abs img) as [st_r|]; [|reflexivity].
  cbv zeta. rewrite map_map. apply map_ext. intros ck2. unfold self_verdict, look_r. cbn [fst snd].
  destruct (open_abs _); reflexivity.
Qed.

Lemma second_rows img :
  match open_abs img with
  | None => [0]
  | Some st_r =>
      match hrun Pr st_r h2m with
      | None => [0]
      | Some (s2, _) =>
          let '(s2', _) := step Pr s2 o_2 false in
          let evs2 := new_events s2 s2' in
          map (fun ck2 =>
                 let img2 := fold_left apply_event (crash_events evs2 (fst ck2) (snd ck2))
                                       (c_fs (w_ctx (s_wr s2))) in
                 match open_abs img2 with
                 | Some st_r2 =>
                     if smap_ext_eqb (abs_qs (s_qs st_r2)) (abs_qs (s_qs s2)) then 1
                     else if smap_ext_eqb (abs_qs (s_qs st_r2)) (abs_qs (s_qs s2')) then 2 else 0
                 | None => 0
                 end) (crash_points evs2)
      end
  end = judge_all look_r second_verdict [0] (second_row (opened img)).
Proof.
  unfold second_row, opened, judge_all. cbn [fst snd]. destruct (open_abs img) as [st_r|]; [|reflexivity].
  destruct (hrun Pr st_r h2m) as [[s2 ?]|]; [|reflexivity]. destruct (step Pr s2 o_2 false) as [s2' ?].
  cbv zeta. rewrite map_map. apply map_ext. intros ck2. unfold second_verdict, look_r. cbn [fst snd].
  destruct (open_abs _); reflexivity.
Qed.

Definition row_imgs {C} (r : option (C * list fsT)) : list fsT := match r with Some (_, l) => l | None => [] end.
Definition imgs1 : list fsT := Eval vm_compute in distinct fs_key fs_eqb (map img_r pts_r).
Definition firsts_ix : list N :=
  Eval vm_compute in indices fs_key fs_eqb (keyed fs_key imgs1) (map img_r pts_r).
Lemma img_r_ix : map img_r pts_r = map (pick imgs1 (hd [] imgs1)) firsts_ix.
Proof. vm_eq. Qed.
Definition opened1 : list (fsT * option state) := Eval vm_compute in map opened imgs1.
Lemma opened1_ok : map opened imgs1 = opened1.
Proof. vm_eq. Qed.

Definition imgs2 : list fsT :=
  Eval vm_compute in
    distinct fs_key fs_eqb (imgs1 ++ flat_map (fun p => row_imgs (self_row p) ++ row_imgs (second_row p)) opened1).
Definition looked2 : list (N * option smap) := Eval vm_compute in map look_r imgs2.
Lemma looked2_ok : map look_r imgs2 = looked2.
Proof. vm_eq. Qed.
Definition looked_nil : N * option smap := Eval vm_compute in look_r [].
Lemma looked_nil_ok : look_r [] = looked_nil.
Proof. vm_compute. reflexivity. Qed.

Definition row_ix {C} (kreps : list (N * fsT)) (r : option (C * list fsT)) : option (C * list N) :=
  match r with Some (c, l) => Some (c, indices fs_key fs_eqb kreps l) | None => None end.
Definition self_ix : list (option (smap * N * list N)) :=
  Eval vm_compute in let kreps := keyed fs_key imgs2 in map (fun p => row_ix kreps (self_row p)) opened1.
Definition second_ix : list (option (smap * smap * list N)) :=
  Eval vm_compute in let kreps := keyed fs_key imgs2 in map (fun p => row_ix kreps (second_row p)) opened1.

Lemma self_rows_ix :
  map (fun ck => self_row (opened (img_r ck))) pts_r = map (unfold_ix imgs2 []) (map (pick self_ix (hd None self_ix)) firsts_ix).
Proof.
  rewrite <- (map_map img_r (fun i => self_row (opened i))), img_r_ix.
  apply map_pick_tab; [discriminate|].
  rewrite <- (map_map opened self_row), opened1_ok. vm_eq.
Qed.
Lemma second_rows_ix :
  map (fun ck => second_row (opened (img_r ck))) pts_r = map (unfold_ix imgs2 []) (map (pick second_ix (hd None second_ix)) firsts_ix).
Proof.
  rewrite <- (map_map img_r (fun i => second_row (opened i))), img_r_ix.
  apply map_pick_tab; [discriminate|].
  rewrite <- (map_map opened second_row), opened1_ok. vm_eq.
Qed.

Example self_census_ex : self_census = (593, 593, 4).
Proof.
  unfold self_census. cbv zeta. change (crash_points (new_events rm_ rm')) with pts_r.
  rewrite (flat_map_ext _ _ (fun ck => self_rows (img_r ck))).
  rewrite (rows_ix look_r self_verdict [(0, false)] imgs2 [] looked2 looked_nil looked2_ok looked_nil_ok _ _ _ self_rows_ix).
  vm_compute. reflexivity.
Qed.
Example second_census_ex : second_census = (1955, 1819, 136, 0).
Proof.
  unfold second_census. cbv zeta. change (crash_points (new_events rm_ rm')) with pts_r.
  rewrite (flat_map_ext _ _ (fun ck => second_rows (img_r ck))).
  rewrite (rows_ix look_r second_verdict [0] imgs2 [] looked2 looked_nil looked2_ok looked_nil_ok _ _ _ second_rows_ix).
  vm_compute. reflexivity.
Qed.

Print Assumptions crash_setting_m.
Print Assumptions crash_recovered_self_inst.
Print Assumptions crash_recovered_crash_inst.
Print Assumptions crash_histories_inst.
