(* VacDamage.v — vacuity audit: the end-to-end theorems of PropC09 (Inv, damaged_dir,
   dmg_bound).  Instance: DamageAtomic.Example (BS = 32, NB = 2, the real CRC-32; a history of
   8 calls with roll-overs and a GC pass that deletes file 0).  DamageAtomic.Example.C09_ex only
   applies C09_from_fresh to its outer premises; damaged_dir and dmg_bound are not shown
   satisfiable there.  Here: a ghost state G for which Inv, damaged_dir (for the first kept
   entry) and dmg_bound all hold, so that C09_damage_costs_one_entry is applied with ALL its
   premises discharged. *)
From Coq Require Import Lia ZArith ZifyN ZifyNat ZifyBool List.
From MRL Require Import Bytes BytesProofs Params Names Frame Record Mem Spec Rolling Log Driver Hist
  WriterProofs SpecRefine RecordProofs StreamProofs DamageProofs ResyncProofs GhostLog ReplaySpec
  RestartInv RestartWrite RestartStep OpenReplay RestartFinal RestartCorollaries DamageAtomic VacBase.
From MRL Require PropC09.
Import ListNotations.
Import DamageAtomic.Example.

(* dmg_bound from a computation, given the queue names that may occur in the kept log *)
Lemma dmg_bound_by (P : params) (H1 : 7 < BS P) (H2 : BS P <= 65542) (H3 : 1 <= NB P)
      (H4 : forall t p, crcf P t p < 2 ^ 32) K st G names :
  (forall q, In q (map entry_queue (map snd (gh_E G))) -> In q names) ->
  enc_len_ok P K (map pos_ser names) = true ->
  wabs P (s_wr st) + K * N.of_nat (length names) <= FILE_BYTES P * (U64_MAX + 1) ->
  dmg_bound P st G.
Proof.
  intros Hn HK Hb extra Hnd Hall. unfold phys_bound.
  pose proof (pos_entries_bound P H1 H2 H3 H4 names K (wabs P (s_wr st)) extra HK Hnd) as Hc.
  assert (Hall' : Forall (fun e => exists q p, e = EPosition q p /\ In q names) extra).
  { eapply Forall_impl; [|exact Hall]. intros e (q & p & -> & Hq). exists q, p. auto. }
  specialize (Hc Hall'). lia.
Qed.

Definition calls_ex : list (op * bool) := Eval vm_compute in RestartCorollaries.hcalls_t h_ex.
Lemma h_ex_calls : h_ex = hcalls_of calls_ex.
Proof. reflexivity. Qed.

(* a ghost state for st_ex whose log is known: the entries the eight calls logged *)
Lemma ghost_ex : exists G,
  Inv Pc st_ex G /\ gh_base G = 0 /\ gh_dropped G = [] /\ gh_log G = calls_log Pc st0 calls_ex.
Proof.
  pose proof (inv_fresh Pc Pc_BS_lo Pc_BS_hi Pc_NB PNothing st0 open_st0) as HI0.
  pose proof hist_ok_ex as Hok. rewrite h_ex_calls in Hok.
  destruct (calls_inv_log Pc Pc_BS_lo Pc_BS_hi Pc_NB Pc_crc eq_refl calls_ex st0 gh_fresh HI0 Hok)
    as (G & HI & Eb & Ed & El & _).
  exists G. replace st_ex with (fst (run Pc st0 calls_ex)) by (vm_compute; reflexivity).
  split; [exact HI|]. split; [exact Eb|]. split; [exact Ed|].
  rewrite El. change (gh_log gh_fresh) with (@nil (N * entry)). apply app_nil_l.
Qed.

Example ghost_log_ex :
  map snd (calls_log Pc st0 calls_ex) =
  [EPosition qa 0; EPosition qb 0; EAppend qa 0 [(0, pay "x"%byte); (1, pay "y"%byte)];
   EAppend qa 2 [(2, pay "u"%byte)]; ETruncate qa 1; EPosition qb 0;
   EAppend qb 0 [(0, pay "z"%byte)]; EAppend qa 3 [(3, pay "v"%byte); (4, pay "t"%byte)];
   EAppend qb 1 [(1, pay "w"%byte)]].
Proof. vm_compute. reflexivity. Qed.

Lemma dmg_bound_ex G : gh_log G = calls_log Pc st0 calls_ex -> dmg_bound Pc st_ex G.
Proof.
  intros El. apply (dmg_bound_by Pc Pc_BS_lo Pc_BS_hi Pc_NB Pc_crc 64 st_ex G [qa; qb]).
  - intros q Hq. apply gh_E_names in Hq. rewrite El in Hq.
    vm_compute in Hq. vm_compute. intuition.
  - vm_compute. reflexivity.
  - vm_compute. intros H; discriminate H.
Qed.

Lemma C09_damage_costs_one_entry_premises_satisfiable :
  exists G i X ex0 ed k fs_d,
    Inv Pc st_ex G /\ damaged_dir Pc st_ex G i X ex0 ed k fs_d /\ dmg_bound Pc st_ex G.
Proof.
  destruct ghost_ex as (G & HI & _ & _ & El).
  assert (Hne : gh_E G <> []).
  { apply (gh_E_nonempty Pc st_ex G qa ([(2, pay "u"%byte); (3, pay "v"%byte); (4, pay "t"%byte)], 5) HI).
    vm_compute. reflexivity. }
  destruct (gh_E G) as [|[fX X] rest] eqn:EE; [contradiction|].
  destruct (PropC09.C09_damaged_dir_exists Pc Pc_BS_lo Pc_BS_hi Pc_NB Pc_crc st_ex G 0%nat X fX HI)
    as (ex0 & ed & k & fs_d & Hd); [rewrite EE; reflexivity|].
  exists G, 0%nat, X, ex0, ed, k, fs_d. split; [exact HI|]. split; [exact Hd|exact (dmg_bound_ex G El)].
Qed.

Example C09_damage_costs_one_entry_inst :
  exists X fs_d, forall pol hint, exists st_r,
    open Pc fs_d None pol hint = OpenOk st_r /\
    SpecRefine.qs_inv (s_qs st_r) /\
    (forall q m pos payload,
        qs_get (s_qs st_ex) q = Some m ->
        In (pos, payload) (records_of (q_buf m) (q_metas m)) ->
        ~ appended_by X q (pos, payload) ->
        exists m', qs_get (s_qs st_r) q = Some m' /\
                   In (pos, payload) (records_of (q_buf m') (q_metas m'))).
Proof.
  destruct C09_damage_costs_one_entry_premises_satisfiable as (G & i & X & ex0 & ed & k & fs_d & HI & Hd & Hb).
  exists X, fs_d.
  exact (PropC09.C09_damage_costs_one_entry Pc Pc_BS_lo Pc_BS_hi Pc_NB Pc_crc eq_refl eq_refl
           st_ex G i X ex0 ed k fs_d HI Hd Hb).
Qed.

(* C09_from_fresh: outer premises (open, hrun, hist_ok) - DamageAtomic.Example.C09_ex; the Prop
   theorem itself: *)
Example C09_from_fresh_inst : exists G, Inv Pc st_ex G /\ gh_base G = 0.
Proof.
  destruct (PropC09.C09_from_fresh Pc Pc_BS_lo Pc_BS_hi Pc_NB Pc_crc eq_refl eq_refl PNothing st0 h_ex
              st_ex outs_ex open_st0 hrun_ex hist_ok_ex) as (G & HI & Eb & _).
  now exists G.
Qed.
