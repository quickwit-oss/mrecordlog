(* JReopen.v — restart (open) of a state that satisfies the junk-tolerant invariant InvJ
   (invJ_reopen; the writer and the finish are RestartFinal.pinvJ_reopen / invJ_reopen_finish),
   and histories with restarts from such a state (hrunJ_inv, invJ_restart_identity). *)
From Coq Require Import Lia ZArith ZifyN ZifyNat ZifyBool List Sorted.
From MRL Require Import Bytes BytesProofs Params Names NamesProofs Frame Record Mem Spec Rolling Log
  Driver Hist NoopProofs SpecRefine RecordProofs StreamProofs DamageProofs TornProofs PolicyProofs
  GcProofs GhostLog ReplaySpec HandleProofs FileStream ResyncProofs QueueIso OpenTerm
  RestartInv RestartWrite RestartGc RestartStep OpenReplay RestartFinal TornFile JunkStream
  JInv JGc JStep.

Section TraceX.
Variable P : params.
Hypothesis HBS_lo : 7 < BS P.
Hypothesis HBS_hi : BS P <= 65542.
Hypothesis HNB : 1 <= NB P.
Hypothesis Hcrc : forall t p, crcf P t p < 2 ^ 32.
Local Notation B := (BS P).
Local Notation FB := (FILE_BYTES P).
Local Notation ffp := (first_frame_pos P).
Local Notation readsC := (reads_trc P (vr_next P) vr_block).
Local Notation readsFc := (reads_trc P (rd_next P) rd_block).
Local Notation H3 f := (f P HBS_lo HBS_hi Hcrc) (only parsing).
Local Notation H2 f := (f P HBS_lo HBS_hi) (only parsing).
Local Notation HN f := (f P HBS_lo HBS_hi HNB) (only parsing).

Variable fs : fsT.
Variable lo : N.
Variable n : nat.
Local Notation files := (iota lo (Datatypes.S n)).
Local Notation cur := (lo + N.of_nat n).
Hypothesis Hfull : forall f, In f files ->
  exists b, fs_get fs (filename f) = Some (FFile b) /\ lenN b = FB.

Local Notation St := (stream_of fs files).
Local Notation rsim := (rd_rel P fs files).
Local Notation rrsim := (rr_sim rreaderS vecr rsim).
Local Notation HD f := (f P HBS_lo HBS_hi HNB fs lo n Hfull) (only parsing).

Variables (base : N) (S_all : bytes).
Hypothesis Hbase : base <= lo.
Hypothesis HSt : St = dropN ((lo - base) * FB) S_all.
Hypothesis HlenS : lenN S_all = (cur - base + 1) * FB.

Local Notation b := ((lo - base) * FB).
Local Notation kb := ((lo - base) * NB P).
Local Notation fspec := (fspec P lo n base).

(* TornFile.files_of_trace with one more fact: the writer made of the final reader stands at the
   end of its file only if the cursor of the final stream reader is at the end of a block *)
Lemma files_of_trace_x g rd rrs ds sts c rrfV pf :
  rsim rd (vec_at P fs files 0) ->
  length rrs = length ds ->
  readsC g (mkRR (rd_at P S_all kb 0) [] false) (combine rrs ds) c rrfV ->
  tr_ok P S_all rrs sts -> fin_at P S_all (rr_fr rrfV) pf ->
  exists lF rrfF,
    readsFc g (rr_open rreaderS rd) lF c rrfF /\
    map snd lF = ds /\
    fspec fs (rd_into_writer P (fr_rd (rr_fr rrfF)) (fr_cursor (rr_fr rrfF))) (tags_of lF) sts pf /\
    (w_off (rd_into_writer P (fr_rd (rr_fr rrfF)) (fr_cursor (rr_fr rrfF))) = FB ->
     fr_cursor (rr_fr rrfV) = B).
Proof.
  intros Hrel Hlen HrdV Htr (k & c1 & fl & Hfr & Hkblk & Hc & Hpf).
  destruct (trace_tags P HBS_lo HBS_hi HNB Hcrc fs lo n Hfull base S_all Hbase HSt HlenS g rd rrs ds sts c rrfV k c1 fl
              Hrel Hlen HrdV Htr Hfr Hkblk)
    as (lF & rrfF & w0 & i & j & HrdF & Hsnd & -> & Hlt & Hpos & Hsort & Hrng & Hfl & Hfile & Hi & Hj &
        Hoff & Hk & Hrest).
  assert (Hjb : (j + 1) * B <= FB) by (rewrite (HN FB_eq); apply N.mul_le_mono_r; lia).
  exists lF, rrfF. split; [exact HrdF|]. split; [exact Hsnd|].
  split.
  2:{ rewrite Hoff, Hfr. cbn [fr_cursor]. lia. }
  split; [exact Hlt|]. split; [exact Hpos|]. split; [exact Hsort|]. split; [exact Hrng|].
  split; [exact Hfl|]. split; [lia|]. split; [lia|]. split; [rewrite Hoff; lia|].
  split; [rewrite Hpf; exact (HN tags_pos base lo _ _ i j k c1 Hbase Hfile Hoff Hk) | exact Hrest].
Qed.

Lemma open_of_trace_x F fs0 c0 rd rrs ds sts c rrfV pf Ds pol hint :
  L_IO P = false ->
  rd_open P (ctx_init fs0 None) = (c0, Ok rd) -> rsim rd (vec_at P fs files 0) ->
  length rrs = length ds ->
  readsC F (mkRR (rd_at P S_all kb 0) [] false) (combine rrs ds) c rrfV ->
  tr_ok P S_all rrs sts -> fin_at P S_all (rr_fr rrfV) pf ->
  ds = map entry_ser Ds -> Forall wf_entry Ds -> (length ds + c < F)%nat ->
  exists w0 tags,
    fspec fs w0 tags sts pf /\ (w_off w0 = FB -> fr_cursor (rr_fr rrfV) = B) /\
    match replay_entries [] (combine tags Ds) with
    | Some qs => open P fs0 None pol hint = open_finish P w0 qs pol hint
    | None => exists c', open P fs0 None pol hint = OpenCorruption c'
    end.
Proof.
  intros Hio Hopen Hrel Hlen HrdV Htr Hfinat Hds Hwf HF.
  destruct (files_of_trace_x F rd rrs ds sts c rrfV pf Hrel Hlen HrdV Htr Hfinat)
    as (lF & rrfF & HrdF & Hsnd & Hspec & Hx).
  eexists _, (tags_of lF). split; [exact Hspec|]. split; [exact Hx|].
  subst ds. rewrite map_length in HF.
  exact (HD open_of_files_trace F fs0 c0 rd lF c rrfF Ds pol hint Hio Hopen HrdF Hsnd Hwf HF).
Qed.

End TraceX.

Section EndX.
Variable P : params.
Hypothesis HBS_lo : 7 < BS P.
Hypothesis HBS_hi : BS P <= 65542.
Local Notation B := (BS P).
Local Notation ffp := (first_frame_pos P).

(* TornFile.at_end_fin, keeping the case distinction of at_end *)
Lemma at_end_fin_x (S : bytes) fr e :
  at_end P S fr e ->
  exists pf, fin_at P S fr pf /\ e <= pf /\ pf <= ffp e /\
    ((pf = ffp e /\ fr_cursor fr + 7 <= B) \/
     (pf = e /\ exists k c, pf = k * B + c /\ B < c + 7 /\ lenN S < (k + 2) * B)).
Proof.
  intros (k & c & -> & Hblk & Hc & Hcase).
  exists (k * B + c).
  pose proof (ffp_ge P HBS_lo HBS_hi e) as Hge.
  split; [exists k, c, false; repeat split; assumption|].
  destruct Hcase as [[Hp Hc7] | (Hp & Hc7 & Hlast)].
  - split; [lia|]. split; [lia|]. left. split; [exact Hp|].
    cbn [StreamProofs.rd_at fr_cursor]. exact Hc7.
  - split; [lia|]. split; [lia|]. right. split; [exact Hp|]. exists k, c. repeat split; assumption.
Qed.
End EndX.

Section JReopen.
Variable P : params.
Hypothesis HBS_lo : 7 < BS P.
Hypothesis HBS_hi : BS P <= 65542.
Hypothesis HNB : 1 <= NB P.
Hypothesis Hcrc : forall t p, crcf P t p < 2 ^ 32.
Hypothesis HGC : L_GC P = false.
Hypothesis HIO : L_IO P = false.
Hypothesis HSHORT : L_SHORT P = false.
Variable PRE : bytes.
Variable OLD : list entry.
Variable opos : list (N * N).
Variable adm : N -> Prop.
Variable cmax : nat.
Variable rm : N.
Hypothesis Hpre : pre_ok PRE OLD opos.
Hypothesis Hrd : pre_reads P PRE (map entry_ser OLD) opos adm cmax rm.
Hypothesis Hadm : forall m, adm (m * NB P).

Local Notation B := (BS P).
Local Notation FB := (FILE_BYTES P).
Local Notation ffp := (first_frame_pos P).
Local Notation enc_of := (enc_of P).
Local Notation encs_of := (encs_of P).
Local Notation cursor_after := (cursor_after P).
Local Notation starts := (starts P).
Local Notation H3 f := (f P HBS_lo HBS_hi Hcrc) (only parsing).
Local Notation H2 f := (f P HBS_lo HBS_hi) (only parsing).
Local Notation HW f := (f P HBS_lo HBS_hi HNB Hcrc) (only parsing).
Local Notation HN f := (f P HBS_lo HBS_hi HNB) (only parsing).
Local Notation HG f := (f P HBS_lo HBS_hi HNB Hcrc HGC) (only parsing).
Local Notation HJ f := (f P HBS_lo HBS_hi HNB Hcrc HGC PRE OLD opos Hpre) (only parsing).
Local Notation PInvJ := (PInvJ P PRE OLD opos).
Local Notation InvJ := (InvJ P PRE OLD opos).
Local Notation stream_boundJ := (stream_boundJ P PRE OLD).
Local Notation jT := (jT P PRE OLD).
Local Notation jpos := (jpos P PRE OLD opos).
Local Notation jser := (jser OLD).
Local Notation jNEW := (jNEW OLD).

Lemma HB0x : 0 < B. Proof. lia. Qed.

(* what a reader started at the first kept file delivers: exactly the entries of E, at the
   positions jpos from index gh_k on *)
Lemma jdelivered w G :
  PInvJ w G ->
  dfilter ((wlo w - gh_base G) * FB) (map entry_ser OLD ++ jser G)
          (opos ++ starts (lenN PRE) (jser G)) =
  combine (gh_ser_E G) (skipn (gh_k G) (jpos G)) /\
  length (gh_ser_E G) = length (skipn (gh_k G) (jpos G)).
Proof.
  clear Hrd Hadm. clear adm cmax rm.
  intros HPJ.
  pose proof (HW jpos_length PRE OLD opos w G Hpre HPJ) as Hjl.
  pose proof (jALL_split P PRE OLD opos w G HPJ) as Hall.
  destruct HPJ as (_ & _ & _ & _ & _ & _ & _ & _ & _ & HD1 & HD2 & _). cbn zeta in *.
  fold (jpos G).
  assert (Es : map entry_ser OLD ++ jser G = map entry_ser (gh_before G) ++ gh_ser_E G).
  { unfold JInv.jser. rewrite <- map_app, <- Hall, gh_ALL_split, map_app. reflexivity. }
  assert (Hk : (gh_k G <= length (gh_ALL G))%nat).
  { rewrite gh_ALL_split, app_length, gh_before_length. lia. }
  assert (Hlen2 : length (gh_ser_E G) = length (skipn (gh_k G) (jpos G))).
  { rewrite skipn_length, Hjl. unfold gh_ser_E. rewrite !map_length.
    rewrite gh_ALL_split, app_length, gh_before_length, map_length. lia. }
  split; [|exact Hlen2].
  rewrite Es. rewrite <- (firstn_skipn (gh_k G) (jpos G)) at 1.
  rewrite dfilter_app.
  2:{ rewrite map_length, gh_before_length, firstn_length. lia. }
  rewrite (H3 dfilter_none _ _ _ HD1). cbn [app]. apply (H3 dfilter_all).
  clear - HD2. induction HD2 as [|x y l1 l2 [Hxy _] _ IH]; constructor; assumption.
Qed.


(* a writer at offset off of file f, at the absolute position pf, stands in the last file lo + n
   when it is strictly inside f and pf is not before the start of the last file, or when pf is
   so close to the end of a block (a torn header) that the block after it would end beyond the
   last file *)
Lemma in_last_file base lo n f off pf :
  base <= lo -> lo <= f -> f <= lo + n -> off <= FB -> (f - base) * FB + off = pf ->
  (off < FB /\ (lo - base + n) * FB <= pf) \/
  (exists k c, pf = k * B + c /\ B < c + 7 /\ (lo + n - base + 1) * FB < (k + 2) * B) ->
  f = lo + n.
Proof.
  clear - HBS_lo HBS_hi HNB.
  intros Hbase Hlo Hcur Hoff Hpos Hx.
  destruct (N.eq_dec f (lo + n)) as [E|Hne]; [exact E|exfalso].
  assert (Hm : (f - base + 1) * FB <= (lo - base + n) * FB) by (apply N.mul_le_mono_r; lia).
  destruct Hx as [[Hlt Hle] | (k & c & Hkc & Hc7 & Hlast)]; [lia|].
  rewrite (HN FB_eq) in Hlast.
  assert (Hk : (lo + n - base + 1) * NB P < k + 2) by (apply (N.mul_lt_mono_pos_r B); lia).
  assert (Hk' : (lo + n - base + 1) * NB P * B <= (k + 1) * B) by (apply N.mul_le_mono_r; lia).
  assert (HFB : B <= FB) by (rewrite (HN FB_eq); nia).
  rewrite <- N.mul_assoc, <- (HN FB_eq) in Hk'.
  replace (lo + n - base + 1) with (lo - base + n + 1) in Hk' by lia.
  lia.
Qed.


(* the bound a restart needs: whatever position entries (for distinct empty queues) the
   recovery-time GC writes, the stream stays below 2^64 files *)
Definition reopen_boundJ (st : state) (G : ghost) : Prop :=
  forall extra, pos_extra (abs_qs (s_qs st)) extra -> stream_boundJ G extra.

Theorem invJ_reopen st G :
  InvJ st G -> reopen_boundJ st G ->
  lenN PRE + rm <= (w_file (s_wr st) + 1 - gh_base G) * FB ->
  forall pol hint, exists st' G',
    open P (c_fs (drop_log st)) None pol hint = OpenOk st' /\ InvJ st' G' /\
    (forall q, s_get (abs_qs (s_qs st')) q = s_get (abs_qs (s_qs st)) q) /\
    gh_base G' = gh_base G /\ s_pol st' = pol /\ w_file (s_wr st) <= w_file (s_wr st') /\
    (exists extra, gh_ALL G' = gh_ALL G ++ extra /\ pos_extra (abs_qs (s_qs st)) extra).
Proof.
  intros HI Hb Hroom pol hint. pose proof HI as (HP & HL).
  change (c_fs (drop_log st)) with (vfs (s_wr st)).
  set (w := s_wr st) in *.
  pose proof HP as (Hw & Hwd & Hnd & Hbase & Hc1 & Hc2 & Hs & HWf & _). cbn zeta in *.
  destruct (HN winv_files w Hw) as (n & Hfiles & Hfile).
  pose proof Hw as (Hok & _ & Hoff & _ & _ & Hfull & _).
  assert (Hnf : lenN (w_files w) = N.of_nat n + 1) by (rewrite Hfiles, lenN_iota; lia).
  assert (Hwpos : wpos P w = N.of_nat n * FB + w_off w).
  { unfold wpos. rewrite Hnf. f_equal. f_equal. lia. }
  rewrite Hwpos in Hc1, Hc2.
  set (lo := wlo w) in *. set (base := gh_base G) in *. set (dl := lo - base) in *.
  set (T := jT G) in *.
  set (z := (dl + lenN (w_files w)) * FB - lenN T) in *.
  set (t2 := encs_of (lenN PRE) (jser G)).
  assert (ET : T = PRE ++ t2) by reflexivity.
  set (Sall := T ++ zerosN z) in *.
  assert (Hfull' : forall f, In f (iota lo (Datatypes.S n)) ->
            exists b, fs_get (vfs w) (filename f) = Some (FFile b) /\ lenN b = FB).
  { rewrite <- Hfiles. exact Hfull. }
  assert (Hfiles' : forall f, In f (iota lo (Datatypes.S n)) ->
            exists b, fs_get (vfs w) (filename f) = Some (FFile b) /\ lenN b <= FB /\
                      (f <> lo + N.of_nat n -> lenN b = FB)).
  { intros f Hf. destruct (Hfull' f Hf) as (b & Hg & Hl). exists b. split; [exact Hg|].
    split; [lia|]. intros _. exact Hl. }
  assert (Hlist : list_wal_numbers (vfs w) = iota lo (Datatypes.S n)).
  { rewrite <- Hfiles. exact (listing_after P w Hw Hwd Hnd). }
  assert (HSt : stream_of (vfs w) (iota lo (Datatypes.S n)) = dropN (dl * FB) Sall).
  { rewrite <- Hfiles. exact Hs. }
  assert (HlenS : lenN Sall = (lo + N.of_nat n - base + 1) * FB).
  { unfold Sall. rewrite lenN_app, lenN_zerosN. unfold z. rewrite Hnf.
    replace (lo + N.of_nat n - base + 1) with (dl + (N.of_nat n + 1)) by lia.
    assert (lenN T <= (dl + (N.of_nat n + 1)) * FB) by lia. lia. }
  (* the directory needs no extension *)
  assert (Efs : fs_ext P (vfs w) lo n = vfs w).
  { apply (HW fs_ext_full (vfs w) lo n Hfiles').
    destruct (Hfull' (lo + N.of_nat n)) as (b & Hg & Hl); [apply iota_In; lia|].
    unfold fcontent. rewrite Hg. exact Hl. }
  destruct (HW rd_open_short (vfs w) lo n Hlist Hfiles' HSHORT) as (c0 & rd & Hopen & Hrel).
  rewrite Efs in Hrel.
  assert (Hkb : dl * NB P * B = dl * FB) by (rewrite (HN FB_eq); lia).
  set (F := (N.to_nat (lenN Sall + 22) + length (gh_ALL G) + cmax)%nat).
  destruct (Hrd (dl * NB P) (jser G) t2 z Sall [] F) as (rrs & c & rrf & HD).
  { apply (H3 encs_of_rel). }
  { unfold Sall. rewrite ET, <- app_assoc. reflexivity. }
  { exact (HW sok_all (vfs w) lo n Hfiles' base Hbase Sall HlenS). }
  { exact (HW blk_all (vfs w) lo n Hfiles' base Hbase Sall HlenS). }
  { apply Hadm. }
  { rewrite HlenS. replace (lo + N.of_nat n - base + 1) with (w_file w + 1 - base) by lia.
    exact Hroom. }
  { unfold F. lia. }
  cbn zeta in HD. rewrite Hkb in HD.
  destruct (jdelivered w G HP) as (ED & EDl). fold lo base dl in ED.
  rewrite ED in HD. clear ED.
  set (ds := gh_ser_E G) in *. set (sts := skipn (gh_k G) (jpos G)) in *.
  rewrite (map_fst_combine ds sts EDl), (map_snd_combine ds sts EDl) in HD.
  rewrite combine_length, <- EDl, Nat.min_id in HD.
  destruct HD as (Hlrrs & HrdV & Hc & Htr & Hend).
  replace (lenN PRE + lenN t2) with (lenN T) in Hend by (rewrite ET, lenN_app; reflexivity).
  destruct (at_end_fin_x P HBS_lo HBS_hi Sall (rr_fr rrf) _ Hend) as (pf & Hfin & He1 & He2 & Hcase).
  assert (HWfE : Forall wf_entry (map snd (gh_E G))).
  { rewrite gh_ALL_split in HWf. apply Forall_app in HWf. apply HWf. }
  assert (HlE : (length ds <= length (gh_ALL G))%nat).
  { unfold ds, gh_ser_E. rewrite gh_ALL_split, app_length, !map_length. lia. }
  destruct (open_of_trace_x P HBS_lo HBS_hi HNB Hcrc (vfs w) lo n Hfull' base Sall Hbase HSt HlenS
              F (vfs w) c0 rd rrs ds sts c rrf pf (map snd (gh_E G)) pol hint
              HIO Hopen Hrel Hlrrs HrdV Htr Hfin eq_refl HWfE ltac:(unfold F; lia))
    as (w0 & tags & Hspec & Hxo & Hres).
  assert (Efile : w_file w0 = w_file w).
  { pose proof Hspec as (_ & _ & _ & _ & _ & Hlo0 & Hcur0 & Hoff0 & Hpos & _).
    rewrite Hfile. apply (in_last_file base lo (N.of_nat n) _ (w_off w0) pf Hbase Hlo0 Hcur0 Hoff0 Hpos).
    destruct Hcase as [[Hp Hc7] | (Hp & k & c' & Hkc & Hc7 & Hlast)].
    - left. split.
      + destruct (N.eq_dec (w_off w0) FB) as [E|NE]; [specialize (Hxo E); lia | lia].
      + pose proof (H2 ffp_ge (lenN T)) as Hge.
        assert (Hffe : ffp (N.max (dl * FB) (lenN T)) = ffp (lenN T)).
        { apply (HN RestartWrite.ffp_between); [apply N.le_max_r|].
          apply N.max_lub; [clear - Hc2; lia | exact Hge]. }
        rewrite Hp, Hffe. clear - Hc2. fold dl. lia.
    - right. exists k, c'. rewrite <- HlenS. repeat split; assumption. }
  destruct (HW pinvJ_reopen PRE OLD opos w G w0 tags n pf HP Hfiles Hfile Hspec Efile He1 He2)
    as (Hlen & Hlo & Elo & HP0).
  destruct (HG invJ_reopen_finish PRE OLD opos st G w0 tags pol hint Hpre HI Hb Hlen Hlo Elo HP0)
    as (qs' & Hrep & st' & G' & Eo & HI' & Heq & Eb & Epol & Hmono & Hx).
  rewrite Hrep in Hres. rewrite Hres.
  exists st', G'. rewrite <- Efile. auto 8.
Qed.


Lemma restart_reopen_boundJ st G : InvJ st G -> restart_bound P st -> reopen_boundJ st G.
Proof.
  intros (HP & _) Hb extra Hx.
  exact (HW phys_stream_boundJ PRE OLD opos _ _ _ HP (Hb extra Hx)).
Qed.

Theorem hrunJ_inv h : forall st G,
  InvJ st G -> lenN PRE + rm <= (w_file (s_wr st) + 1 - gh_base G) * FB ->
  hist_ok P st h ->
  exists st' outs G',
    hrun P st h = Some (st', outs) /\ InvJ st' G' /\ gh_base G' = gh_base G /\
    lenN PRE + rm <= (w_file (s_wr st') + 1 - gh_base G') * FB /\
    Forall no_io outs /\
    forall m, (forall q, s_get m q = s_get (abs_qs (s_qs st)) q) ->
      exists m' souts,
        s_run m (map sop_of (hcalls h)) = (m', souts) /\
        (forall q, s_get m' q = s_get (abs_qs (s_qs st')) q) /\
        map out_logical outs = map Some souts.
Proof.
  intros st G HI Hroom Hok.
  destruct (hrun_sim P (fun s => exists G', InvJ s G' /\ gh_base G' = gh_base G /\
                          lenN PRE + rm <= (w_file (s_wr s) + 1 - gh_base G') * FB))
    with (h := h) (st := st) as (st' & outs & Er & (G' & HI' & Eb & Hroom') & Hno & Hspec).
  - intros s (G1 & H1 & _). exact (InvJ_qs_inv P PRE OLD opos s G1 H1).
  - intros s o tick s1 out (G1 & H1 & E1 & R1) Hop Hb Es.
    pose proof (HW phys_stream_boundJ PRE OLD opos _ _ _ (proj1 H1) Hb) as HbJ.
    destruct (HJ invJ_step_total s G1 o tick s1 out H1 Hop HbJ Es) as (Hno & G2 & H2' & E2 & _).
    split; [exact Hno|]. exists G2. split; [exact H2'|]. split; [congruence|].
    destruct (InvJ_winv P PRE OLD opos s G1 H1) as ((Hokw & _) & _).
    pose proof (step_wr_step P s o tick) as Hws. rewrite Es in Hws. destruct (Hws Hokw) as (_ & Hm).
    cbn [fst] in Hm. rewrite E2. etransitivity; [exact R1|]. apply N.mul_le_mono_r. lia.
  - intros s pol hint (G1 & H1 & E1 & R1) Hb.
    destruct (invJ_reopen s G1 H1 (restart_reopen_boundJ s G1 H1 Hb) R1 pol hint)
      as (s1 & G2 & Eo & H2' & Heq & E2 & _ & Hmono & _).
    exists s1. split; [exact Eo|]. split; [|exact Heq]. exists G2. split; [exact H2'|].
    split; [congruence|]. rewrite E2. etransitivity; [exact R1|]. apply N.mul_le_mono_r. lia.
  - exists G. split; [exact HI|]. split; [reflexivity|exact Hroom].
  - exact Hok.
  - exists st', outs, G'. auto 8.
Qed.

(* the analogue of C01_restart_identity from an InvJ state: after any history of calls and clean
   restarts, one more clean restart is the identity on the abstract state *)
Theorem invJ_restart_identity st G h st1 outs :
  InvJ st G -> lenN PRE + rm <= (w_file (s_wr st) + 1 - gh_base G) * FB ->
  hrun P st h = Some (st1, outs) -> hist_ok P st h -> restart_bound P st1 ->
  forall pol hint, exists st2,
    restart P st1 pol hint = OpenOk st2 /\
    (forall q, s_get (abs_qs (s_qs st2)) q = s_get (abs_qs (s_qs st1)) q).
Proof.
  intros HI Hroom Hrun Hok Hb pol hint.
  destruct (hrunJ_inv h st G HI Hroom Hok) as (st1' & outs1 & G1 & Er & HI1 & _ & Hroom1 & _).
  rewrite Hrun in Er. injection Er as <- <-.
  destruct (invJ_reopen st1 G1 HI1 (restart_reopen_boundJ st1 G1 HI1 Hb) Hroom1 pol hint)
    as (st' & G' & Eo & _ & Heq & _).
  exists st'. split; [exact Eo|exact Heq].
Qed.

End JReopen.

Print Assumptions invJ_reopen.
Print Assumptions hrunJ_inv.
Print Assumptions invJ_restart_identity.
