(* AllocBound.v — property C10, "never allocates without bound":
   what `open` builds in memory is at most linear in the size of the directory, for ANY
   directory content and ANY fault plan (no invariant on fs, no constraint on the parameters).
   Applying a decoded entry to the queues costs at most alloc_factor * (its serialised length).
   The reader has a potential `unread` (bytes of the listed files it has not yet gone past);
   a frame delivering a payload of n bytes lowers it by 7 + n, no step of the reader raises it;
   hence  (bytes of the record being assembled) + unread  never increases and the record
   handed to the replay loop is paid for by the decrease of `unread`.  rd_open starts the reader
   with unread <= wal_bytes fs + FILE_BYTES; the recovery-time GC does not touch the queues. *)
From Coq Require Import Lia ZArith ZifyN ZifyNat ZifyBool.
From MRL Require Import Bytes BytesProofs Params Names NamesProofs Frame Record Mem Rolling Log
                        RecordProofs MemAcctProofs OpenTerm SpecRefine.

(* K = size_of::<RecordMeta>().  A record with an empty payload takes 12 bytes in the file and
   K bytes in memory, so the amplification factor is ceil(K/12) (and at least 1: payload and
   queue-name bytes are kept one for one). *)
Definition alloc_factor (K : N) : N := N.max 1 ((K + 11) / 12).

Lemma alloc_factor_ge1 K : 1 <= alloc_factor K.
Proof. unfold alloc_factor. lia. Qed.

Lemma alloc_factor_meta K : K <= 12 * alloc_factor K.
Proof.
  unfold alloc_factor.
  pose proof (N.div_mod (K + 11) 12 ltac:(lia)) as Hd.
  pose proof (N.mod_lt (K + 11) 12 ltac:(lia)) as Hm.
  lia.
Qed.

Section EntryCost.
Variable K : N.

Lemma lenN_take_last_file ms : lenN (take_last_file ms) = lenN ms.
Proof.
  induction ms as [|m r IH]; [reflexivity|].
  destruct r as [|m' r'].
  - cbn [take_last_file]. rewrite !lenN_cons. reflexivity.
  - change (take_last_file (m :: m' :: r')) with (m :: take_last_file (m' :: r')).
    rewrite (lenN_cons m), IH, (lenN_cons m (m' :: r')). reflexivity.
Qed.

Lemma append_record_size q file p payload q' :
  append_record q file p payload = Some q' ->
  mq_size K q' = mq_size K q + lenN payload + K.
Proof.
  unfold append_record. destruct (p <? next_position q); [discriminate|].
  intros H. inversion H; subst q'. clear H.
  unfold mq_size. cbn [q_buf q_metas]. rewrite !lenN_app, lenN_cons, lenN_nil.
  assert (Hm : lenN (match last_opt (q_metas q) with
                     | Some m => if opt_N_eqb (m_file m) file
                                 then take_last_file (q_metas q) else q_metas q
                     | None => q_metas q end) = lenN (q_metas q)).
  { destruct (last_opt (q_metas q)) as [m|]; [|reflexivity].
    destruct (opt_N_eqb (m_file m) file); [apply lenN_take_last_file|reflexivity]. }
  rewrite Hm. lia.
Qed.

Lemma append_all_size : forall recs q file q',
  append_all q file recs = Some q' ->
  mq_size K q' = mq_size K q + payload_bytes recs + K * lenN recs.
Proof.
  induction recs as [|[p x] r IH]; intros q file q' H; cbn [append_all] in H.
  - inversion H; subst. cbn [payload_bytes fold_right]. change (lenN (@nil (N * bytes))) with 0. lia.
  - destruct (append_record q file p x) as [q1|] eqn:E1; [|discriminate].
    apply append_record_size in E1. apply IH in H.
    rewrite payload_bytes_cons, lenN_cons. cbn [snd]. lia.
Qed.

Lemma truncate_head_size q p : mq_size K (fst (truncate_head q p)) <= mq_size K q.
Proof.
  unfold truncate_head. destruct (p <? q_start q); [cbn [fst]; lia|].
  destruct (next_position q <=? p + 1); cbn [fst]; unfold mq_size; cbn [q_buf q_metas].
  - change (lenN (@nil byte)) with 0. change (lenN (@nil meta)) with 0. lia.
  - rewrite lenN_map, !lenN_dropN.
    assert (lenN (q_metas q) - idx_ge (p + 1) (q_metas q) <= lenN (q_metas q)) by lia.
    nia.
Qed.

Lemma qs_size_cons n q qs : qs_size K ((n, q) :: qs) = lenN n + mq_size K q + qs_size K qs.
Proof. reflexivity. Qed.

Lemma qs_size_put_new : forall qs n q',
  qs_get qs n = None -> qs_size K (qs_put qs n q') = qs_size K qs + lenN n + mq_size K q'.
Proof.
  induction qs as [|[n0 q0] qs IH]; intros n q'; cbn [qs_get qs_put].
  - intros _. rewrite qs_size_cons. cbn [qs_size fold_right]. lia.
  - destruct (bytes_eqb n0 n); [discriminate|]. intros H.
    rewrite !qs_size_cons, (IH _ _ H). lia.
Qed.

Lemma qs_size_remove qs n : qs_size K (qs_remove qs n) <= qs_size K qs.
Proof.
  induction qs as [|[n0 q0] qs IH]; cbn [qs_remove]; [lia|].
  destruct (bytes_eqb n0 n); rewrite ?qs_size_cons; lia.
Qed.

Lemma mq_size_with_next n : mq_size K (mq_with_next n) = 0.
Proof. reflexivity. Qed.

Lemma ack_position_size qs n next :
  qs_size K (ack_position qs n next) <= qs_size K qs + lenN n.
Proof.
  unfold ack_position. destruct (qs_get qs n) as [q|] eqn:Eg.
  - destruct (negb (mq_is_empty q) || negb (next_position q =? next)); [|lia].
    pose proof (qs_size_put K qs n q (mq_with_next next) Eg) as H.
    rewrite mq_size_with_next in H. lia.
  - rewrite (qs_size_put_new _ _ _ Eg), mq_size_with_next. lia.
Qed.

(* what an entry can add to MemQueues::size *)
Definition entry_mem_cost (e : entry) : N :=
  lenN (entry_queue e) +
  match e with EAppend _ _ recs => payload_bytes recs + K * lenN recs | _ => 0 end.

(* exact form of apply_decoded_entry_size *)
Lemma apply_entry_size qs file e qs' :
  apply_entry qs file e = Some qs' -> qs_size K qs' <= qs_size K qs + entry_mem_cost e.
Proof.
  destruct e as [q pos recs|q pos|q pos|q pos]; unfold entry_mem_cost; cbn [apply_entry entry_queue].
  - set (qs1 := if qs_contains qs q then qs else ack_position qs q pos).
    assert (H1 : qs_size K qs1 <= qs_size K qs + lenN q).
    { unfold qs1. destruct (qs_contains qs q); [lia|apply ack_position_size]. }
    destruct (qs_get qs1 q) as [mqv|] eqn:Eg; [|discriminate].
    destruct (append_all mqv file recs) as [mq'|] eqn:Ea; [|discriminate].
    intros H; inversion H; subst qs'.
    apply append_all_size in Ea.
    pose proof (qs_size_put K qs1 q mqv mq' Eg) as Hp. lia.
  - destruct (qs_get qs q) as [mqv|] eqn:Eg; intros H; inversion H; subst qs'; [|lia].
    pose proof (qs_size_put K qs q mqv (fst (truncate_head mqv pos)) Eg) as Hp.
    pose proof (truncate_head_size mqv pos). lia.
  - intros H; inversion H; subst qs'. pose proof (ack_position_size qs q pos). lia.
  - intros H; inversion H; subst qs'. pose proof (qs_size_remove qs q). lia.
Qed.

Lemma entry_mem_cost_ser e : entry_mem_cost e <= alloc_factor K * lenN (entry_ser e).
Proof.
  rewrite lenN_entry_ser. unfold entry_mem_cost.
  pose proof (alloc_factor_ge1 K) as H1. pose proof (alloc_factor_meta K) as H2.
  set (C := alloc_factor K) in *.
  destruct e as [q pos recs|q pos|q pos|q pos]; cbn [entry_queue entry_payload_bytes].
  - rewrite recs_bytes_payload. nia.
  - nia.
  - nia.
  - nia.
Qed.

(* applying an entry decoded from buf costs at most alloc_factor * |buf| *)
Lemma apply_decoded_entry_size qs file buf e qs' :
  entry_deser buf = Some e -> apply_entry qs file e = Some qs' ->
  qs_size K qs' <= qs_size K qs + alloc_factor K * lenN buf.
Proof.
  intros Hd Ha. apply apply_entry_size in Ha. pose proof (entry_mem_cost_ser e) as Hc.
  apply entry_deser_sound in Hd. destruct Hd as (extra & Hb & _).
  rewrite Hb, lenN_app. nia.
Qed.
End EntryCost.

Section ReadBlock2.
Variable P : params.

(* read_block on any directory: the position never moves back; a delivered block lies inside
   the file *)
Lemma read_block_spec2 c n pos c' pos' r :
  read_block P c n pos = (c', pos', r) ->
  c_fs c' = c_fs c /\ pos <= pos' /\
  match r with
  | Ok (Some blk) => pos' = pos + BS P /\ pos' <= lenN (fcontent (c_fs c) n)
  | _ => True
  end.
Proof.
  intros H. apply read_block_spec in H. destruct H as [Hfs H]. split; [exact Hfs|].
  destruct r as [[blk|]|e]; [|split; [lia|exact I]..].
  destruct H as (Hp & Hle & _). rewrite Hp. split; [lia|]. split; [reflexivity|exact Hle].
Qed.
End ReadBlock2.

(* sumlen fs is sumf at the weight "length of file n" *)
Lemma sumlen_filter_le fs (p q : N -> bool) l :
  (forall x, p x = true -> q x = true) -> sumlen fs (filter p l) <= sumlen fs (filter q l).
Proof. exact (sumf_filter_le (fun n => lenN (fcontent fs n)) p q l). Qed.

Lemma sumlen_after fs files cur n :
  cur < n -> In n files ->
  lenN (fcontent fs n) + sumlen fs (files_after files n) <= sumlen fs (files_after files cur).
Proof. exact (sumf_after (fun n => lenN (fcontent fs n)) files cur n). Qed.

Lemma sumlen_after_head fs first rest :
  sumlen fs (files_after (first :: rest) first) <= sumlen fs rest.
Proof. exact (sumf_after_head (fun n => lenN (fcontent fs n)) first rest). Qed.

Section Unread.
Variable P : params.
Variable fs : fsT.            (* the directory during replay (replay only reads) *)

Definition fsinv (rd : rreaderS) : Prop := c_fs (rd_ctx rd) = fs.

(* bytes of the current file beyond the OS position + the files still to come *)
Definition unread_rd (rd : rreaderS) : N :=
  (lenN (fcontent fs (rd_file rd)) - rd_pos rd)
  + sumlen fs (files_after (rd_files rd) (rd_file rd)).

(* ... + what is left of the block in hand *)
Definition unread_fr (fr : freader rreaderS) : N :=
  unread_rd (fr_rd fr) + (BS P - fr_cursor fr).

Definition unread (rr : rreader_t) : N := unread_fr (rr_fr rr).

Lemma next_file_loop_spec2 : forall cands c rd rd' r,
  c_fs c = fs ->
  next_file_loop P c cands rd = (rd', r) ->
  c_fs (rd_ctx rd') = fs /\ rd_files rd' = rd_files rd /\
  match r with
  | Ok true => In (rd_file rd') cands /\ rd_pos rd' = BS P /\
               BS P <= lenN (fcontent fs (rd_file rd'))
  | _ => rd_file rd' = rd_file rd /\ rd_pos rd' = rd_pos rd
  end.
Proof.
  intros cands c rd rd' r Hc H.
  destruct (next_file_loop_inv _ _ _ _ _ _ H) as (c' & Hc' & Hm). rewrite Hc in *.
  destruct r as [[|]|e]; [destruct Hm as (n & Hin & Hle & ->)|subst rd'..];
    cbn [rd_ctx rd_files rd_file rd_pos]; repeat split; assumption || reflexivity.
Qed.

(* next_block: a delivered block is paid for by BS bytes of `unread`; a failed call does not
   raise it *)
Lemma rd_next_unread rd rd' r :
  fsinv rd -> rd_next P rd = (rd', r) ->
  fsinv rd' /\
  match r with
  | Ok true => unread_rd rd' + BS P <= unread_rd rd
  | _ => unread_rd rd' <= unread_rd rd
  end.
Proof.
  unfold fsinv. intros Hfs H. apply rd_next_inv in H. cbv zeta in H. rewrite Hfs in H.
  destruct H as (c' & Hc' & Hm).
  assert (Hsame : (exists pos', rd_pos rd <= pos' /\
                     pos' <= N.max (rd_pos rd) (lenN (fcontent fs (rd_file rd))) /\
                     rd' = mkRd c' (rd_files rd) (rd_file rd) (rd_block_id rd) pos' (rd_block rd)) ->
                  c_fs (rd_ctx rd') = fs /\ unread_rd rd' <= unread_rd rd).
  { intros (pos' & Hge & _ & ->). unfold unread_rd. cbn [rd_ctx rd_files rd_file rd_pos].
    split; [exact Hc'|lia]. }
  destruct r as [[|]|e]; [|exact (Hsame Hm)..].
  destruct Hm as [[Hle ->]|(n & Hin & Hle & ->)]; unfold unread_rd;
    cbn [rd_ctx rd_files rd_file rd_pos]; (split; [exact Hc'|]); [lia|].
  unfold files_after in Hin. apply filter_In in Hin. destruct Hin as [Hin Hlt].
  pose proof (sumlen_after fs (rd_files rd) (rd_file rd) n ltac:(lia) Hin) as Hs. lia.
Qed.

Lemma read_here_cursor (fr1 fr' : freader rreaderS) r :
  read_here P rd_block fr1 = (fr', r) ->
  fr_rd fr' = fr_rd fr1 /\ fr_cursor fr1 <= fr_cursor fr' /\
  match r with
  | FOk _ pl => fr_cursor fr1 + 7 + lenN pl <= fr_cursor fr' /\ fr_cursor fr' <= BS P
  | _ => True
  end.
Proof.
  unfold read_here, HEADER_LEN.
  destruct (all_zero (sliceN (fr_cursor fr1) (fr_cursor fr1 + 7) (rd_block (fr_rd fr1)))).
  - intros H; inversion H; subst. repeat split; lia.
  - destruct (ft_of_code _) as [t|].
    + destruct (N.ltb_spec (BS P) (fr_cursor fr1 + 7 +
         le_dec (sliceN 4 6 (sliceN (fr_cursor fr1) (fr_cursor fr1 + 7) (rd_block (fr_rd fr1))))))
        as [Hlt|Hge].
      * intros H; inversion H; subst. cbn [fr_rd fr_cursor]. repeat split; lia.
      * destruct (_ =? _); intros H; inversion H; subst; cbn [fr_rd fr_cursor].
        -- split; [reflexivity|]. split; [lia|].
           match goal with |- context [lenN (sliceN ?a ?b ?l)] =>
             pose proof (lenN_sliceN_le a b l) end. lia.
        -- repeat split; lia.
    + intros H; inversion H; subst. cbn [fr_rd fr_cursor]. repeat split; lia.
Qed.

(* one frame: a payload of n bytes costs 7 + n bytes of `unread` *)
Lemma read_frame_unread fr fr' r :
  fsinv (fr_rd fr) -> read_frame P rreaderS (rd_next P) rd_block fr = (fr', r) ->
  fsinv (fr_rd fr') /\
  match r with
  | FOk _ pl => unread_fr fr' + 7 + lenN pl <= unread_fr fr
  | _ => unread_fr fr' <= unread_fr fr
  end.
Proof.
  intros Hinv H. rewrite read_frame_eq in H.
  assert (Hhere : forall fr1, fsinv (fr_rd fr1) -> unread_fr fr1 <= unread_fr fr ->
            read_here P rd_block fr1 = (fr', r) ->
            fsinv (fr_rd fr') /\
            match r with
            | FOk _ pl => unread_fr fr' + 7 + lenN pl <= unread_fr fr
            | _ => unread_fr fr' <= unread_fr fr
            end).
  { intros fr1 Hi Hle Hh. apply read_here_cursor in Hh. destruct Hh as (Hrd & Hc & Hr).
    split; [rewrite Hrd; exact Hi|].
    unfold unread_fr in *. rewrite Hrd.
    destruct r; try lia. }
  destruct (need_skip P fr).
  - destruct (rd_next P (fr_rd fr)) as [r' [[|]|e]] eqn:Hn;
      destruct (rd_next_unread _ _ _ Hinv Hn) as [Hinv' Hle].
    + apply (Hhere (mkFR r' 0 false)); [exact Hinv'| |exact H].
      unfold unread_fr. cbn [fr_rd fr_cursor]. lia.
    + inversion H; subst. cbn [fr_rd]. split; [exact Hinv'|].
      unfold unread_fr. cbn [fr_rd fr_cursor]. lia.
    + inversion H; subst. cbn [fr_rd]. split; [exact Hinv'|].
      unfold unread_fr. cbn [fr_rd fr_cursor]. lia.
  - apply (Hhere fr); [exact Hinv|lia|exact H].
Qed.

Definition rrinv2 (rr : rreader_t) : Prop := fsinv (fr_rd (rr_fr rr)).

(* the bytes of the record being assembled (0 once it has been handed over or dropped) *)
Definition pending (rr : rreader_t) : N := if rr_within rr then lenN (rr_buf rr) else 0.

(* go_next, with ANY fuel (so every intermediate state of the record reader is covered:
   with fuel k the result RFuel returns the state after k frames):
   - the accumulation buffer + unread never increases            (transient allocation)
   - the record being assembled + unread never increases
   - a delivered record is paid for, and nothing is pending after it *)
Lemma go_next_unread : forall fuel rr rr' r,
  rrinv2 rr -> go_next P rreaderS (rd_next P) rd_block fuel rr = (rr', r) ->
  rrinv2 rr' /\
  lenN (rr_buf rr') + unread rr' <= lenN (rr_buf rr) + unread rr /\
  pending rr' + unread rr' <= pending rr + unread rr /\
  (r = RRecord -> lenN (rr_buf rr') + unread rr' <= pending rr + unread rr /\ pending rr' = 0).
Proof.
  intros fuel rr rr' r Hinv.
  apply (go_next_rule P _ _ _
           (fun _ rr1 => rrinv2 rr1 /\
              lenN (rr_buf rr1) + unread rr1 <= lenN (rr_buf rr) + unread rr /\
              pending rr1 + unread rr1 <= pending rr + unread rr)
           (fun rr' r => rrinv2 rr' /\
              lenN (rr_buf rr') + unread rr' <= lenN (rr_buf rr) + unread rr /\
              pending rr' + unread rr' <= pending rr + unread rr /\
              (r = RRecord ->
               lenN (rr_buf rr') + unread rr' <= pending rr + unread rr /\ pending rr' = 0))).
  - intros rr1 (Hi & Hb & Hp). split; [exact Hi|]. split; [exact Hb|]. split; [exact Hp|discriminate].
  - (* one frame: what is pending at rr and unread there stay fixed quantities *)
    intros _ rr1 fr' x (Hi & Hb & Hp) Hrf.
    destruct (read_frame_unread _ _ _ Hi Hrf) as [Hi' Hle].
    set (p0 := pending rr) in *. clearbody p0. unfold rrinv2, unread, pending in *.
    destruct x as [t pl|e| |]; cbv zeta; cbn [rr_fr rr_buf rr_within].
    + destruct (is_first_frame t).
      * (* first frame of a record: the buffer restarts *)
        destruct (is_last_frame t); cbn [app rr_fr rr_buf rr_within].
        -- split; [exact Hi'|]. split; [lia|]. split; [lia|]. intros _. split; [lia|reflexivity].
        -- split; [exact Hi'|]. split; lia.
      * destruct (rr_within rr1).
        -- destruct (is_last_frame t); cbn [rr_fr rr_buf rr_within]; rewrite lenN_app.
           ++ split; [exact Hi'|]. split; [lia|]. split; [lia|]. intros _. split; [lia|reflexivity].
           ++ split; [exact Hi'|]. split; lia.
        -- cbn [rr_fr rr_buf rr_within]. split; [exact Hi'|]. split; lia.
    + split; [exact Hi'|]. split; [lia|]. split; [lia|discriminate].
    + split; [exact Hi'|]. split; [lia|]. split; [lia|discriminate].
    + split; [exact Hi'|]. split; [lia|]. split; [lia|discriminate].
  - split; [exact Hinv|]. split; apply N.le_refl.
Qed.
End Unread.

Section Replay.
Variable P : params.
Variable fs : fsT.
Let K := RMS P.
Let C := alloc_factor (RMS P).

(* the queues built so far are paid for by what has been read:
   qs_size + C * (record being assembled + unread)  never increases *)
Lemma replay_loop_alloc : forall f g rr qs rr' r B,
  rrinv2 fs rr ->
  qs_size K qs + C * (pending rr + unread P fs rr) <= B ->
  replay_loop P f g rr qs = (rr', r) ->
  rrinv2 fs rr' /\
  match r with
  | RpDone qs' => qs_size K qs' + C * (pending rr' + unread P fs rr') <= B
  | _ => True
  end.
Proof.
  intros f g rr qs rr' r B Hinv HB.
  apply (replay_loop_rule P g
           (fun _ rr qs => rrinv2 fs rr /\ qs_size K qs + C * (pending rr + unread P fs rr) <= B)
           (fun rr' r => rrinv2 fs rr' /\
              match r with
              | RpDone qs' => qs_size K qs' + C * (pending rr' + unread P fs rr') <= B
              | _ => True
              end)).
  - intros rr0 qs0 [Hi _]. split; [exact Hi|exact I].
  - intros _ rr0 qs0 rr1 x [Hi HB0] Hgo.
    destruct (go_next_unread P fs _ _ _ _ Hi Hgo) as (Hinv1 & _ & Hpend & Hrec).
    assert (Hsame : qs_size K qs0 + C * (pending rr1 + unread P fs rr1) <= B).
    { pose proof (N.mul_le_mono_l _ _ C Hpend). lia. }
    destruct x as [| | |e|].
    + destruct (Hrec eq_refl) as [Hpaid Hp0].
      destruct (entry_deser (rr_buf rr1)) as [e|] eqn:Ed; [|split; [exact Hinv1|exact Hsame]].
      destruct (apply_entry qs0 (rd_file (fr_rd (rr_fr rr0))) e) as [qs'|] eqn:Ea;
        [|split; [exact Hinv1|exact I]].
      split; [exact Hinv1|].
      pose proof (apply_decoded_entry_size K _ _ _ _ _ Ed Ea) as Hc.
      change (alloc_factor K) with C in Hc. rewrite Hp0.
      assert (Hq : C * (0 + unread P fs rr1) + C * lenN (rr_buf rr1)
                   <= C * (pending rr0 + unread P fs rr0)).
      { rewrite <- N.mul_add_distr_l. apply N.mul_le_mono_l. lia. }
      clearbody C K. lia.
    + split; [exact Hinv1|exact Hsame].
    + split; [exact Hinv1|exact Hsame].
    + destruct (L_IO P); (split; [exact Hinv1|]); [exact Hsame|exact I].
    + split; [exact Hinv1|exact I].
  - split; [exact Hinv|exact HB].
Qed.

(* the record reader's accumulation buffer (the largest transient allocation), at every state
   the loop can be stopped in (any fuel: RpFuel returns the state reached) *)
Lemma replay_loop_buffer : forall f g rr qs rr' r,
  rrinv2 fs rr ->
  replay_loop P f g rr qs = (rr', r) ->
  rrinv2 fs rr' /\
  lenN (rr_buf rr') + unread P fs rr' <= lenN (rr_buf rr) + unread P fs rr.
Proof.
  intros f g rr qs rr' r Hinv.
  apply (replay_loop_reader P g
           (fun rr1 => rrinv2 fs rr1 /\
              lenN (rr_buf rr1) + unread P fs rr1 <= lenN (rr_buf rr) + unread P fs rr)).
  - intros rr0 rr1 x [Hi Hle] Hgo.
    destruct (go_next_unread P fs _ _ _ _ Hi Hgo) as (Hinv1 & Hbuf & _).
    split; [exact Hinv1|lia].
  - split; [exact Hinv|apply N.le_refl].
Qed.
End Replay.


(* total length of the WAL files of the directory listing *)
Definition wal_bytes (fs : fsT) : N := sumlen fs (list_wal_numbers fs).

Lemma wal_bytes_le_fs_bytes fs : wal_bytes fs <= fs_bytes fs.
Proof.
  unfold wal_bytes. apply sumlen_le_fs_bytes.
  - apply sorted_NoDup, listed_sorted.
  - apply listed_bound.
Qed.

Lemma sumlen_le_each fs (M : N) l :
  (forall x, In x l -> lenN (fcontent fs x) <= M) -> sumlen fs l <= M * lenN l.
Proof.
  induction l as [|x l IH]; intros H; [cbn; lia|].
  rewrite sumlen_cons, lenN_cons.
  pose proof (H x (or_introl eq_refl)). specialize (IH (fun y Hy => H y (or_intror Hy))). lia.
Qed.

Lemma sumlen_put_nohit fs name e l :
  (forall x, In x l -> filename x <> name) -> sumlen (fs_put fs name e) l = sumlen fs l.
Proof.
  induction l as [|x l IH]; intros Hno; [reflexivity|].
  rewrite !sumlen_cons, IH by (intros y Hy; apply Hno; now right).
  rewrite fcontent_put.
  destruct (bytes_eqb name (filename x)) eqn:E; [|reflexivity].
  apply bytes_eqb_eq in E. exfalso. apply (Hno x); [now left|congruence].
Qed.

Lemma sumlen_put_le fs name b l :
  NoDup l -> (forall x, In x l -> x <= U64_MAX) ->
  sumlen (fs_put fs name (FFile b)) l <= sumlen fs l + lenN b.
Proof.
  induction l as [|x l IH]; intros Hnd Hb; [cbn; lia|].
  inversion Hnd as [|? ? Hnin Hnd']; subst.
  rewrite !sumlen_cons, fcontent_put.
  destruct (bytes_eqb name (filename x)) eqn:E.
  - apply bytes_eqb_eq in E. rewrite sumlen_put_nohit; [lia|].
    intros y Hy Hf. apply Hnin.
    assert (y = x); [|congruence].
    apply filename_inj; [apply Hb; now right|apply Hb; now left|congruence].
  - specialize (IH Hnd' (fun y Hy => Hb y (or_intror Hy))). lia.
Qed.

Section OpenBound.
Variable P : params.

Lemma ensure_last_full_sumlen c files c' r :
  NoDup files -> (forall x, In x files -> x <= U64_MAX) ->
  ensure_last_full P c files = (c', r) ->
  sumlen (c_fs c') files <= sumlen (c_fs c) files + FILE_BYTES P.
Proof.
  intros Hnd Hb. unfold ensure_last_full.
  destruct (last_opt files) as [n|]; [|intros H; inversion H; subst; lia].
  destruct (lenN (file_content c n) <? FILE_BYTES P); [|intros H; inversion H; subst; lia].
  destruct (open_file c n) as [c1 [u|e]] eqn:Ho; apply open_file_fs in Ho;
    intros H; inversion H; subst; [|rewrite Ho; lia].
  cbn [c_fs ctx_ev ctx_fs]. rewrite Ho.
  pose proof (sumlen_put_le (c_fs c) (filename n) (set_len (file_content c n) (FILE_BYTES P))
                files Hnd Hb) as Hs.
  rewrite lenN_set_len in Hs. exact Hs.
Qed.

Lemma rd_open_tail_unread B c2 files c rd :
  files <> [] ->
  sumlen (c_fs c2) files <= B ->
  (forall c2' r, ensure_last_full P c2 files = (c2', r) -> sumlen (c_fs c2') files <= B) ->
  rd_open_tail P c2 files = (c, Ok rd) ->
  unread P (c_fs (rd_ctx rd)) (rr_open rreaderS rd) <= B.
Proof.
  intros Hne HB Hens H.
  destruct (rd_open_tail_inv _ _ _ _ _ H) as (c3 & u & c4 & u' & pos & blk & He & Ho & Hr & ->).
  assert (HB' : sumlen (c_fs c3) files <= B).
  { destruct (L_SHORT P); [inversion He; subst; lia|]. eapply Hens. exact He. }
  destruct files as [|first rest]; [congruence|]. cbn [hd] in *.
  apply open_file_fs in Ho.
  apply read_block_spec2 in Hr. destruct Hr as (Hfs & _ & Hp & Hlen).
  rewrite N.add_0_l in Hp. subst pos.
  unfold unread, unread_fr, unread_rd, rr_open, fr_open.
  cbn [rr_fr fr_rd fr_cursor rd_ctx rd_files rd_file rd_pos].
  assert (Hfs4 : c_fs c = c_fs c3) by congruence.
  rewrite Hfs4. rewrite Ho in Hlen.
  pose proof (sumlen_after_head (c_fs c3) first rest) as H1.
  rewrite sumlen_cons in HB'. lia.
Qed.
End OpenBound.

Section OpenAlloc.
Variable P : params.

(* the reader starts with at most (listed WAL files) + (one file size) bytes ahead of it:
   open extends a short last file to FILE_BYTES, or creates file 0 in an empty directory *)
Lemma rd_open_unread fs0 plan c rd :
  rd_open P (ctx_init fs0 plan) = (c, Ok rd) ->
  unread P (c_fs (rd_ctx rd)) (rr_open rreaderS rd) <= wal_bytes fs0 + FILE_BYTES P.
Proof.
  intros H. rewrite rd_open_eq in H.
  pose proof (fault_point_fs (ctx_ev (ctx_init fs0 plan) EvReadDir) SReadDir) as Hf.
  destruct (fault_point (ctx_ev (ctx_init fs0 plan) EvReadDir) SReadDir) as [c1 [e|]];
    [inversion H|]. cbn [fst c_fs ctx_ev ctx_init] in Hf.
  destruct (list_wal_numbers (c_fs c1)) as [|x l] eqn:El.
  - (* empty listing: file 0 is created with FILE_BYTES zeros *)
    destruct (create_file P c1 0) as [c' [u|e]] eqn:Hc; [|inversion H].
    assert (Hlen : lenN (fcontent (c_fs c') 0) = FILE_BYTES P).
    { unfold create_file in Hc. destruct (fs_get (c_fs c1) (filename 0)); [inversion Hc|].
      inversion Hc; subst c'. cbn [c_fs ctx_ev ctx_fs].
      rewrite fcontent_put, bytes_eqb_refl. apply lenN_zerosN. }
    assert (Hs : sumlen (c_fs c') [0] <= wal_bytes fs0 + FILE_BYTES P).
    { rewrite sumlen_cons. cbn [sumlen fold_right]. lia. }
    apply (rd_open_tail_unread P (wal_bytes fs0 + FILE_BYTES P) c' [0] c rd);
      [discriminate|exact Hs| |exact H].
    intros c2' r He. unfold ensure_last_full in He. cbn [last_opt] in He.
    rewrite file_content_fcontent, Hlen in He.
    replace (FILE_BYTES P <? FILE_BYTES P) with false in He by lia.
    inversion He; subst. exact Hs.
  - assert (Hnd : NoDup (x :: l)).
    { rewrite <- El. apply sorted_NoDup, listed_sorted. }
    assert (Hb : forall y, In y (x :: l) -> y <= U64_MAX).
    { rewrite <- El. apply listed_bound. }
    assert (Hs : sumlen (c_fs c1) (x :: l) = wal_bytes fs0).
    { rewrite <- El, Hf. reflexivity. }
    apply (rd_open_tail_unread P (wal_bytes fs0 + FILE_BYTES P) c1 (x :: l) c rd);
      [discriminate| | |exact H].
    + lia.
    + intros c2' r He. pose proof (ensure_last_full_sumlen P _ _ _ _ Hnd Hb He). lia.
Qed.

(* At every state the replay can be stopped in (any fuels f, g; the result RpFuel returns the
   state reached after f records / g frames), the accumulation buffer is no larger than the
   bytes of the directory the reader has gone past:
     |rr_buf| + unread <= wal_bytes fs + FILE_BYTES *)
Theorem open_reader_buffer_bound fs plan c rd f g rr r :
  rd_open P (ctx_init fs plan) = (c, Ok rd) ->
  replay_loop P f g (rr_open rreaderS rd) [] = (rr, r) ->
  lenN (rr_buf rr) + unread P (c_fs (rd_ctx rd)) rr <= wal_bytes fs + FILE_BYTES P.
Proof.
  intros Ho Hr. pose proof (rd_open_unread _ _ _ _ Ho) as Hu.
  destruct (replay_loop_buffer P (c_fs (rd_ctx rd)) f g (rr_open rreaderS rd) [] rr r
              eq_refl Hr) as [_ Hb].
  cbn [rr_open rr_buf] in Hb. change (lenN (@nil byte)) with 0 in Hb. lia.
Qed.

Theorem open_with_alloc_bound fuel fs plan pol hint st :
  open_with P fuel fs plan pol hint = OpenOk st ->
  log_memory_used P st <= alloc_factor (RMS P) * (wal_bytes fs + FILE_BYTES P).
Proof.
  intros H.
  destruct (open_with_ok _ _ _ _ _ _ _ H) as (c0 & rd & rr & qs & k & Ho & Hrp & Hg).
  pose proof (rd_open_unread _ _ _ _ Ho) as Hu.
  destruct (replay_loop_alloc P (c_fs (rd_ctx rd)) fuel fuel (rr_open rreaderS rd) [] rr (RpDone qs)
              (alloc_factor (RMS P) * (wal_bytes fs + FILE_BYTES P)) eq_refl
              ltac:(unfold pending; cbn [rr_open rr_within qs_size fold_right];
                    apply N.mul_le_mono_l with (p := alloc_factor (RMS P)) in Hu; lia)
              Hrp) as [_ Hq].
  apply (f_equal (fun x => s_qs (fst x))) in Hg. cbv beta in Hg.
  rewrite run_gc_qs in Hg. cbn [fst s_qs] in Hg.
  unfold log_memory_used. rewrite <- Hg. lia.
Qed.

(* C10, allocation: for ANY directory content and ANY fault plan, what open leaves in memory is
   at most alloc_factor (RMS) * (bytes of the listed WAL files + one file size) *)
Theorem open_alloc_bound fs plan pol hint st :
  open P fs plan pol hint = OpenOk st ->
  log_memory_used P st <= alloc_factor (RMS P) * (wal_bytes fs + FILE_BYTES P).
Proof. apply open_with_alloc_bound. Qed.

(* against the total size of the regular files of the directory *)
Corollary open_alloc_bound_fs_bytes fs plan pol hint st :
  open P fs plan pol hint = OpenOk st ->
  log_memory_used P st <= alloc_factor (RMS P) * (fs_bytes fs + FILE_BYTES P).
Proof.
  intros H. apply open_alloc_bound in H. pose proof (wal_bytes_le_fs_bytes fs) as Hw.
  apply N.add_le_mono_r with (p := FILE_BYTES P) in Hw.
  apply N.mul_le_mono_l with (p := alloc_factor (RMS P)) in Hw. lia.
Qed.

(* against the number of WAL files, when no listed file is longer than FILE_BYTES (the crate
   never makes one longer; without this premise the bound is false: see the counterexample
   alloc_count_bound_needs_premise in AllocBoundTest.v) *)
Corollary open_alloc_bound_count fs plan pol hint st :
  (forall n, In n (list_wal_numbers fs) -> lenN (fcontent fs n) <= FILE_BYTES P) ->
  open P fs plan pol hint = OpenOk st ->
  log_memory_used P st <=
    alloc_factor (RMS P) * (FILE_BYTES P * N.of_nat (length (list_wal_numbers fs)))
    + alloc_factor (RMS P) * FILE_BYTES P.
Proof.
  intros Hlen H. apply open_alloc_bound in H.
  pose proof (sumlen_le_each fs (FILE_BYTES P) (list_wal_numbers fs) Hlen) as Hw.
  fold (wal_bytes fs) in Hw. rewrite lenN_length in Hw.
  rewrite <- N.mul_add_distr_l.
  apply N.add_le_mono_r with (p := FILE_BYTES P) in Hw.
  apply N.mul_le_mono_l with (p := alloc_factor (RMS P)) in Hw. lia.
Qed.
End OpenAlloc.

Print Assumptions apply_entry_size.
Print Assumptions apply_decoded_entry_size.
Print Assumptions read_frame_unread.
Print Assumptions go_next_unread.
Print Assumptions replay_loop_alloc.
Print Assumptions replay_loop_buffer.
Print Assumptions rd_open_unread.
Print Assumptions open_reader_buffer_bound.
Print Assumptions open_with_alloc_bound.
Print Assumptions open_alloc_bound.
Print Assumptions open_alloc_bound_fs_bytes.
Print Assumptions open_alloc_bound_count.
