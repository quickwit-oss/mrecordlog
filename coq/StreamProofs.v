(* StreamProofs.v — property C07: entries of any size round-trip at any block alignment
   (in-memory writer vecw / block reader vecr of Driver.v). *)
From Coq Require Import Lia ZArith ZifyN ZifyNat ZifyBool.
From MRL Require Import Bytes BytesProofs Params Frame Driver OpenTerm.

Lemma takeN_app_exact' {A} n (a b : list A) : lenN a = n -> takeN n (a ++ b) = a.
Proof. intros <-. apply takeN_app_exact. Qed.

Lemma dropN_app_exact' {A} n (a b : list A) : lenN a = n -> dropN n (a ++ b) = b.
Proof. intros <-. apply dropN_app_exact. Qed.

Lemma sliceN_app_mid' {A} lo hi (a b c : list A) :
  lenN a = lo -> lo + lenN b = hi -> sliceN lo hi (a ++ b ++ c) = b.
Proof. intros <- <-. apply sliceN_app_mid. Qed.

Lemma div_sub_same x D : 0 < D -> D <= x -> (x - D) / D + 1 = x / D.
Proof.
  intros HD Hx. replace x with ((x - D) + 1 * D) at 2 by lia.
  rewrite N.div_add by lia. reflexivity.
Qed.

(* abstract every quotient into an opaque N variable (lia then knows it is >= 0) *)
Ltac nodiv := repeat match goal with
  | |- context [N.div ?a ?b] => let q := fresh "q" in set (q := N.div a b) in *; clearbody q
  | H : context [N.div ?a ?b] |- _ => let q := fresh "q" in set (q := N.div a b) in *; clearbody q
  end.

Lemma ft_of_code_code t : ft_of_code (ft_code t) = Some t.
Proof. destruct t; reflexivity. Qed.

Lemma b2n_n2b_code t : b2n (n2b (ft_code t)) = ft_code t.
Proof. destruct t; reflexivity. Qed.

Lemma lenN_header crc len t : lenN (header_bytes crc len t) = 7.
Proof. unfold header_bytes. rewrite !lenN_app, !length_le_enc. reflexivity. Qed.

Lemma header_not_zero crc len t : all_zero (header_bytes crc len t) = false.
Proof.
  unfold header_bytes. rewrite !all_zero_app.
  replace (all_zero [n2b (ft_code t)]) with false by (destruct t; reflexivity).
  now rewrite !andb_false_r.
Qed.

Lemma header_crc crc len t : crc < 2 ^ 32 -> le_dec (takeN 4 (header_bytes crc len t)) = crc.
Proof.
  intros H. unfold header_bytes.
  rewrite takeN_app_exact' by (rewrite length_le_enc; reflexivity).
  apply le_dec_enc_small. exact H.
Qed.

Lemma header_len crc len t : len < 2 ^ 16 -> le_dec (sliceN 4 6 (header_bytes crc len t)) = len.
Proof.
  intros H. unfold header_bytes.
  rewrite sliceN_app_mid' by (rewrite length_le_enc; reflexivity).
  apply le_dec_enc_small. exact H.
Qed.

Lemma header_type crc len t : le_dec (dropN 6 (header_bytes crc len t)) = ft_code t.
Proof.
  unfold header_bytes. rewrite app_assoc.
  rewrite dropN_app_exact' by (rewrite lenN_app, !length_le_enc; reflexivity).
  destruct t; reflexivity.
Qed.

Lemma is_first_frame_type f l : is_first_frame (frame_type f l) = f.
Proof. destruct f, l; reflexivity. Qed.
Lemma is_last_frame_type f l : is_last_frame (frame_type f l) = l.
Proof. destruct f, l; reflexivity. Qed.

Section C07.
Variable P : params.
Hypothesis HBS_lo : 7 < BS P.
Hypothesis HBS_hi : BS P <= 65542.
Hypothesis Hcrc : forall t p, crcf P t p < 2 ^ 32.

Local Notation B := (BS P).

Lemma lenN_frame_bytes t p : lenN (frame_bytes P t p) = 7 + lenN p.
Proof. unfold frame_bytes. now rewrite lenN_app, lenN_header. Qed.

Lemma aligned_intro y k : y = k * B -> y mod B = 0.
Proof. intros ->. apply N.mod_mul. lia. Qed.

(* zero padding emitted before a frame when the cursor is at absolute position a *)
Definition pad_of (a : N) : bytes :=
  if B - a mod B <? 7 then zerosN (B - a mod B) else [].
(* payload bytes taken by the frame written at a *)
Definition chunk_of (a : N) (p : bytes) : N :=
  N.min (max_writable P (B - a mod B)) (lenN p).

Lemma mod_lt_B a : a mod B < B.
Proof. apply N.mod_lt. lia. Qed.

Lemma lenN_pad_of a : lenN (pad_of a) = if B - a mod B <? 7 then B - a mod B else 0.
Proof. unfold pad_of. destruct (B - a mod B <? 7); [apply lenN_zerosN|reflexivity]. Qed.

Lemma max_writable_eq r :
  max_writable P r = if 7 <=? r then r - 7 else B - 7.
Proof. reflexivity. Qed.

Lemma chunk_le a p : chunk_of a p <= lenN p.
Proof. unfold chunk_of. lia. Qed.

Lemma lenN_take_chunk a p : lenN (takeN (chunk_of a p) p) = chunk_of a p.
Proof. rewrite lenN_takeN. pose proof (chunk_le a p). lia. Qed.

(* enc_rel a f p e k: writing payload p (first frame flag f) at cursor a emits e, in k frames *)
Inductive enc_rel : N -> bool -> bytes -> bytes -> nat -> Prop :=
| ER_last a f p :
    dropN (chunk_of a p) p = [] ->
    enc_rel a f p (pad_of a ++ frame_bytes P (frame_type f true) (takeN (chunk_of a p) p)) 1
| ER_more a f p e k :
    dropN (chunk_of a p) p <> [] ->
    enc_rel (a + lenN (pad_of a) + 7 + chunk_of a p) false (dropN (chunk_of a p) p) e k ->
    enc_rel a f p
      (pad_of a ++ frame_bytes P (frame_type f false) (takeN (chunk_of a p) p) ++ e) (S k).

Lemma enc_rel_frames a f p e k : enc_rel a f p e k -> 7 * N.of_nat k <= lenN e /\ (1 <= k)%nat.
Proof.
  induction 1 as [a f p Hd | a f p e k Hd Hr [IH1 IH2]].
  - rewrite lenN_app, lenN_frame_bytes. lia.
  - rewrite !lenN_app, lenN_frame_bytes. lia.
Qed.

Lemma write_frame_vecw w t fp :
  write_frame P vecw (vw_write) (vw_rem P) w t fp =
  (mkVecW (vw_cursor w + lenN (pad_of (vw_cursor w) ++ frame_bytes P t fp))
          (vw_buf w ++ pad_of (vw_cursor w) ++ frame_bytes P t fp),
   Ok (lenN (pad_of (vw_cursor w) ++ frame_bytes P t fp))).
Proof.
  unfold write_frame, vw_rem, pad_of, HEADER_LEN.
  destruct (N.ltb_spec (B - vw_cursor w mod B) 7) as [Hlt|Hge].
  - unfold vw_write at 1. cbn [vw_cursor vw_buf]. unfold vw_write. cbn [vw_cursor vw_buf].
    rewrite !lenN_app, lenN_zerosN, lenN_frame_bytes, <- !app_assoc.
    f_equal; f_equal; lia.
  - unfold vw_write. cbn [app]. rewrite lenN_frame_bytes. f_equal; f_equal; lia.
Qed.

(* A frame that fills its block ends on a block boundary, whether or not it was padded. *)
Lemma full_frame_aligned a :
  (a + lenN (pad_of a) + 7 + max_writable P (B - a mod B)) mod B = 0.
Proof.
  rewrite lenN_pad_of, max_writable_eq, N.leb_antisym.
  pose proof (mod_lt_B a) as Hm. pose proof (N.div_mod a B) as Hdm.
  set (m := a mod B) in *. set (q := a / B) in *. clearbody m q.
  destruct (N.ltb_spec (B - m) 7) as [Hlt|Hge]; cbn [negb].
  - apply (aligned_intro _ (q + 2)). lia.
  - apply (aligned_intro _ (q + 1)). lia.
Qed.

(* Fuel: one frame per B - 7 payload bytes, one more for the remainder, and one more when the
   first frame starts inside a block. After a full frame the cursor is aligned. *)
Definition loop_fuel_ok (a L x : N) : Prop :=
  L / (B - 7) + 2 <= x \/ (a mod B = 0 /\ L / (B - 7) + 1 <= x).

Lemma loop_fuel_step a L n x :
  n < L -> n = max_writable P (B - a mod B) ->
  loop_fuel_ok a L (x + 1) -> (L - n) / (B - 7) + 1 <= x.
Proof.
  intros Hn Hmw [H|[E H]].
  - pose proof (N.div_le_mono (L - n) L (B - 7)) as Hmono. clear Hmw. nodiv. lia.
  - rewrite max_writable_eq, E, N.sub_0_r in Hmw.
    destruct (N.leb_spec 7 B) as [_|Hlt]; [|lia]. subst n.
    rewrite <- (div_sub_same L (B - 7)) in H by lia. clear Hn. nodiv. lia.
Qed.

Lemma write_loop_vecw fuel : forall w f p acc,
  loop_fuel_ok (vw_cursor w) (lenN p) (N.of_nat fuel) ->
  exists e k,
    enc_rel (vw_cursor w) f p e k /\
    write_record_loop P vecw vw_write (vw_rem P) fuel w f p acc =
      (mkVecW (vw_cursor w + lenN e) (vw_buf w ++ e), Ok (acc + lenN e)).
Proof.
  induction fuel as [|fuel IH]; intros w f p acc Hfuel.
  - exfalso. destruct Hfuel as [H|[_ H]]; nodiv; lia.
  - cbn [write_record_loop].
    change (N.min (max_writable P (vw_rem P w)) (lenN p)) with (chunk_of (vw_cursor w) p).
    set (a := vw_cursor w) in *. set (n := chunk_of a p).
    rewrite write_frame_vecw. fold a.
    destruct (dropN n p) as [|x rest] eqn:Hd.
    + cbn [isnil]. exists (pad_of a ++ frame_bytes P (frame_type f true) (takeN n p)), 1%nat.
      split; [apply ER_last; exact Hd|]. reflexivity.
    + cbn [isnil]. rewrite <- Hd.
      set (fb := frame_bytes P (frame_type f false) (takeN n p)).
      assert (Hlen : a + lenN (pad_of a ++ fb) = a + lenN (pad_of a) + 7 + n).
      { unfold fb. rewrite lenN_app, lenN_frame_bytes. unfold n. rewrite lenN_take_chunk. lia. }
      assert (Hnlt : n < lenN p).
      { assert (lenN (dropN n p) <> 0) by (rewrite Hd, lenN_cons; lia).
        rewrite lenN_dropN in H. lia. }
      assert (Hn : n = max_writable P (B - a mod B)).
      { unfold n, chunk_of in *. lia. }
      destruct (IH (mkVecW (a + lenN (pad_of a ++ fb)) (vw_buf w ++ pad_of a ++ fb)) false
                   (dropN n p) (acc + lenN (pad_of a ++ fb))) as (e & k & Hrel & Hloop).
      * right. cbn [vw_cursor]. split.
        -- rewrite Hlen, Hn. apply full_frame_aligned.
        -- rewrite lenN_dropN. apply (loop_fuel_step a); [exact Hnlt|exact Hn|].
           replace (N.of_nat fuel + 1) with (N.of_nat (S fuel)) by lia. exact Hfuel.
      * cbn [vw_cursor vw_buf] in Hrel, Hloop. rewrite Hlen in Hrel.
        exists (pad_of a ++ fb ++ e), (S k). split.
        -- apply ER_more; fold n; [rewrite Hd; discriminate|exact Hrel].
        -- rewrite Hloop, <- !app_assoc, !lenN_app. f_equal; [f_equal; lia|f_equal; lia].
Qed.

Lemma write_record_vecw w p :
  exists e k,
    enc_rel (vw_cursor w) true p e k /\
    write_record P vecw vw_write (vw_rem P) w p =
      (mkVecW (vw_cursor w + lenN e) (vw_buf w ++ e), Ok (lenN e)).
Proof.
  unfold write_record, record_fuel, HEADER_LEN.
  destruct (write_loop_vecw (N.to_nat (lenN p / (B - 7) + 3)) w true p 0) as (e & k & Hrel & Hloop).
  - left. nodiv. lia.
  - exists e, k. split; [exact Hrel|]. rewrite Hloop. reflexivity.
Qed.

(* for the vecw writer, write_record never returns an error *)
Theorem write_record_never_fails : forall w p,
  exists w' n, write_record P vecw vw_write (vw_rem P) w p = (w', Ok n).
Proof.
  intros w p. destruct (write_record_vecw w p) as (e & k & _ & H).
  rewrite H. eauto.
Qed.

(* the returned count is the growth of the buffer and of the cursor; the buffer only grows *)
Theorem write_record_count : forall w p w' n,
  write_record P vecw vw_write (vw_rem P) w p = (w', Ok n) ->
  vw_cursor w' = vw_cursor w + n /\
  exists e, vw_buf w' = vw_buf w ++ e /\ lenN e = n.
Proof.
  intros w p w' n H. destruct (write_record_vecw w p) as (e & k & _ & H').
  rewrite H' in H. inversion H; subst. cbn [vw_cursor vw_buf]. split; [reflexivity|].
  exists e. split; reflexivity.
Qed.

Definition rd_at (S : bytes) (k c : N) : freader vecr :=
  mkFR (mkVecR (dropN ((k + 1) * B) S) (sliceN (k * B) ((k + 1) * B) S)) c false.

Local Notation rframe := (read_frame P vecr (vr_next P) vr_block).
Local Notation gonext := (go_next P vecr (vr_next P) vr_block).

Lemma read_frame_skip S k c :
  B - c < 7 -> (k + 2) * B <= lenN S ->
  rframe (rd_at S k c) = rframe (rd_at S (k + 1) 0).
Proof.
  intros Hc Hlen. unfold read_frame, rd_at, HEADER_LEN. cbn [fr_corrupt fr_cursor fr_rd orb].
  destruct (N.ltb_spec (B - c) 7) as [_|Hge]; [|lia].
  destruct (N.ltb_spec (B - 0) 7) as [Hlt|_]; [lia|].
  unfold vr_next. cbn [vr_rest vr_block].
  rewrite lenN_dropN.
  destruct (N.ltb_spec (lenN S - (k + 1) * B) B) as [Hlt|_]; [lia|].
  rewrite dropN_dropN.
  replace ((k + 1) * B + B) with ((k + 1 + 1) * B) by lia.
  replace (takeN B (dropN ((k + 1) * B) S)) with (sliceN ((k + 1) * B) ((k + 1 + 1) * B) S)
    by (unfold sliceN; f_equal; lia).
  reflexivity.
Qed.

Lemma read_frame_here S k c pre t p post :
  S = pre ++ frame_bytes P t p ++ post -> lenN pre = k * B + c ->
  c + 7 + lenN p <= B -> (k + 1) * B <= lenN S ->
  rframe (rd_at S k c) = (rd_at S k (c + 7 + lenN p), FOk t p).
Proof.
  intros HS Hpre Hfit Hlen.
  set (crc := crcf P (n2b (ft_code t)) p).
  assert (Hhdr : sliceN c (c + 7) (sliceN (k * B) ((k + 1) * B) S) = header_bytes crc (lenN p) t).
  { rewrite sliceN_sliceN by lia. rewrite HS. unfold frame_bytes. fold crc.
    rewrite <- app_assoc. apply sliceN_app_mid'; [exact Hpre|]. rewrite lenN_header. lia. }
  assert (Hpay : sliceN (c + 7) (c + 7 + lenN p) (sliceN (k * B) ((k + 1) * B) S) = p).
  { rewrite sliceN_sliceN by lia. rewrite HS. unfold frame_bytes. fold crc.
    rewrite <- app_assoc. rewrite (app_assoc pre).
    apply sliceN_app_mid'; [rewrite lenN_app, lenN_header; lia|]. lia. }
  unfold read_frame, rd_at, HEADER_LEN. cbn [fr_corrupt fr_cursor fr_rd orb vr_block].
  destruct (N.ltb_spec (B - c) 7) as [Hlt|_]; [lia|].
  cbn [fr_corrupt fr_cursor fr_rd orb vr_block].
  rewrite Hhdr, header_not_zero, header_type, ft_of_code_code.
  rewrite header_len by (change (2 ^ 16) with 65536; lia).
  rewrite header_crc by apply Hcrc.
  destruct (N.ltb_spec B (c + 7 + lenN p)) as [Hlt|_]; [lia|].
  rewrite Hpay. fold crc. rewrite N.eqb_refl. reflexivity.
Qed.

Definition stream_ok (S : bytes) : Prop := exists m, lenN S = m * B.
Definition at_pos (S : bytes) (fr : freader vecr) (a : N) : Prop :=
  exists k c, a = k * B + c /\ c <= B /\ (k + 1) * B <= lenN S /\ fr = rd_at S k c.

Lemma mod_kc k c : c < B -> (k * B + c) mod B = c.
Proof. intros H. rewrite N.add_comm, N.mod_add by lia. apply N.mod_small. exact H. Qed.

Lemma mod_kB k : (k * B + B) mod B = 0.
Proof. apply (aligned_intro _ (k + 1)). lia. Qed.

Lemma blocks_room m n x : n * B + x <= m * B -> 0 < x -> (n + 1) * B <= m * B.
Proof.
  intros H Hx. apply N.mul_le_mono_r.
  destruct (N.le_gt_cases (n + 1) m) as [Hle|Hgt]; [exact Hle|].
  assert (m <= n) as Hmn by lia.
  pose proof (N.mul_le_mono_r m n B Hmn). lia.
Qed.

Lemma read_frame_at S fr a pre t fp post :
  stream_ok S -> at_pos S fr a ->
  S = pre ++ pad_of a ++ frame_bytes P t fp ++ post -> lenN pre = a ->
  lenN fp <= max_writable P (B - a mod B) ->
  exists fr', rframe fr = (fr', FOk t fp) /\
              at_pos S fr' (a + lenN (pad_of a) + 7 + lenN fp).
Proof.
  intros [m Hm] (k & c & Ha & Hc & Hblk & Hfr) HS Hpre Hfp. subst fr.
  assert (HlenS : lenN S = a + lenN (pad_of a) + 7 + lenN fp + lenN post).
  { rewrite HS, !lenN_app, lenN_frame_bytes. lia. }
  rewrite max_writable_eq in Hfp. rewrite lenN_pad_of in HlenS.
  destruct (N.ltb_spec (B - c) 7) as [Hskip|Hno].
  - (* the reader moves to the next block *)
    assert (Hnext : a + lenN (pad_of a) = (k + 1) * B /\ lenN fp <= B - 7).
    { rewrite lenN_pad_of. destruct (N.eq_dec c B) as [E|E].
      - assert (Hmod : a mod B = 0) by (rewrite Ha, E; apply mod_kB).
        rewrite Hmod in *.
        destruct (N.ltb_spec (B - 0) 7) as [Hlt|_]; [lia|].
        destruct (N.leb_spec 7 (B - 0)) as [_|Hlt]; lia.
      - assert (Hmod : a mod B = c) by (rewrite Ha; apply mod_kc; lia).
        rewrite Hmod in *.
        destruct (N.ltb_spec (B - c) 7) as [_|Hge]; [|lia].
        destruct (N.leb_spec 7 (B - c)) as [Hle|_]; lia. }
    destruct Hnext as [Hnext Hfp'].
    assert (Hroom : (k + 1 + 1) * B <= lenN S).
    { rewrite Hm. apply (blocks_room m (k + 1) 7); [|lia].
      rewrite <- Hm, HS, !lenN_app, lenN_frame_bytes. lia. }
    rewrite read_frame_skip by lia.
    rewrite (read_frame_here S (k + 1) 0 (pre ++ pad_of a) t fp post).
    + eexists. split; [reflexivity|].
      exists (k + 1), (0 + 7 + lenN fp). repeat split; lia.
    + rewrite HS, <- app_assoc. reflexivity.
    + rewrite lenN_app. lia.
    + lia.
    + exact Hroom.
  - (* the frame is in the current block *)
    assert (Hmod : a mod B = c) by (rewrite Ha; apply mod_kc; lia).
    assert (Hpad : pad_of a = []).
    { unfold pad_of. rewrite Hmod. destruct (N.ltb_spec (B - c) 7); [lia|reflexivity]. }
    rewrite Hmod in *.
    destruct (N.leb_spec 7 (B - c)) as [_|Hlt]; [|lia].
    rewrite Hpad in *. cbn [app] in HS.
    rewrite (read_frame_here S k c pre t fp post HS) by lia.
    eexists. split; [reflexivity|].
    exists k, (c + 7 + lenN fp). rewrite (@lenN_nil byte). repeat split; lia.
Qed.

Lemma chunk_le_maxw a p : lenN (takeN (chunk_of a p) p) <= max_writable P (B - a mod B).
Proof. rewrite lenN_take_chunk. unfold chunk_of. lia. Qed.

Lemma go_next_frame fuel fr fr' rbuf within f l fp :
  rframe fr = (fr', FOk (frame_type f l) fp) -> (f = true \/ within = true) ->
  gonext (S fuel) (mkRR fr rbuf within) =
    if l then (mkRR fr' ((if f then [] else rbuf) ++ fp) false, RRecord)
    else gonext fuel (mkRR fr' ((if f then [] else rbuf) ++ fp) true).
Proof.
  intros Hrf Hfw. cbn [go_next rr_fr rr_buf rr_within].
  rewrite Hrf, is_first_frame_type, is_last_frame_type.
  assert (Hw : (if f then true else within) = true)
    by (destruct f; [reflexivity | destruct Hfw as [Hf|Hw]; [discriminate|exact Hw]]).
  rewrite Hw. reflexivity.
Qed.

(* the record lemma: reading back what write_record emitted *)
Lemma go_next_record a f p e k :
  enc_rel a f p e k ->
  forall S pre post fr rbuf within fuel,
    stream_ok S -> at_pos S fr a -> S = pre ++ e ++ post -> lenN pre = a ->
    (f = true \/ within = true) -> (k <= fuel)%nat ->
    exists fr',
      gonext fuel (mkRR fr rbuf within) =
        (mkRR fr' ((if f then [] else rbuf) ++ p) false, RRecord) /\
      at_pos S fr' (a + lenN e).
Proof.
  induction 1 as [a f p Hd | a f p e k Hd Hr IH];
    intros S pre post fr rbuf within fuel Hok Hat HS Hpre Hfw Hfuel;
    (destruct fuel as [|fuel]; [lia|]); rewrite <- ?app_assoc in HS;
    destruct (read_frame_at S fr a pre _ _ _ Hok Hat HS Hpre (chunk_le_maxw a p))
      as (fr' & Hrf & Hat');
    rewrite (go_next_frame _ _ _ _ _ _ _ _ Hrf Hfw).
  - exists fr'. split.
    + pose proof (takeN_dropN (chunk_of a p) p) as Htd. rewrite Hd, app_nil_r in Htd.
      rewrite Htd. reflexivity.
    + rewrite lenN_app, lenN_frame_bytes.
      replace (a + (lenN (pad_of a) + (7 + lenN (takeN (chunk_of a p) p))))
        with (a + lenN (pad_of a) + 7 + lenN (takeN (chunk_of a p) p)) by lia.
      exact Hat'.
  - set (fb := frame_bytes P (frame_type f false) (takeN (chunk_of a p) p)) in *.
    rewrite lenN_take_chunk in Hat'.
    destruct (IH S (pre ++ pad_of a ++ fb) post fr'
                ((if f then [] else rbuf) ++ takeN (chunk_of a p) p) true fuel) as (fr'' & Hgo & Hat'').
    + exact Hok.
    + exact Hat'.
    + rewrite HS, <- !app_assoc. reflexivity.
    + rewrite !lenN_app. unfold fb. rewrite lenN_frame_bytes, lenN_take_chunk. lia.
    + right; reflexivity.
    + lia.
    + exists fr''. split.
      * rewrite Hgo. cbn match. rewrite <- app_assoc, takeN_dropN. reflexivity.
      * rewrite !lenN_app. unfold fb. rewrite lenN_frame_bytes, lenN_take_chunk.
        replace (a + (lenN (pad_of a) + (7 + chunk_of a p + lenN e)))
          with (a + lenN (pad_of a) + 7 + chunk_of a p + lenN e) by lia.
        exact Hat''.
Qed.

Inductive encs_rel : N -> list bytes -> bytes -> Prop :=
| ES_nil a : encs_rel a [] []
| ES_cons a p ps e k t :
    enc_rel a true p e k -> encs_rel (a + lenN e) ps t -> encs_rel a (p :: ps) (e ++ t).

Lemma encs_rel_len a es t : encs_rel a es t -> 7 * N.of_nat (length es) <= lenN t.
Proof.
  induction 1 as [a | a p ps e k t He Hes IH].
  - cbn [length]. rewrite (@lenN_nil byte). lia.
  - apply enc_rel_frames in He. cbn [length]. rewrite lenN_app. lia.
Qed.

Lemma mem_write_all_spec entries : forall w,
  exists ns t,
    mem_write_all P w entries = (mkVecW (vw_cursor w + lenN t) (vw_buf w ++ t), ns) /\
    encs_rel (vw_cursor w) entries t /\
    length ns = length entries /\
    fold_right N.add 0 ns = lenN t.
Proof.
  induction entries as [|p ps IH]; intros w.
  - exists [], []. cbn [mem_write_all]. rewrite (@lenN_nil byte), N.add_0_r, app_nil_r.
    destruct w as [c b]. cbn [vw_cursor vw_buf]. repeat split. constructor.
  - cbn [mem_write_all].
    destruct (write_record_vecw w p) as (e & k & Hrel & Hwr). rewrite Hwr.
    destruct (IH (mkVecW (vw_cursor w + lenN e) (vw_buf w ++ e))) as (ns & t & Hall & Hes & Hlen & Hsum).
    rewrite Hall. cbn [vw_cursor vw_buf] in *.
    exists (lenN e :: ns), (e ++ t). repeat split.
    + rewrite lenN_app, <- app_assoc. f_equal. f_equal. lia.
    + econstructor; eassumption.
    + cbn [length]. now rewrite Hlen.
    + cbn [fold_right]. rewrite Hsum, lenN_app. reflexivity.
Qed.

Lemma read_all_entries a es t :
  encs_rel a es t ->
  forall S pre post rr gofuel fuel2,
    stream_ok S -> at_pos S (rr_fr rr) a -> S = pre ++ t ++ post -> lenN pre = a ->
    lenN t <= 7 * N.of_nat gofuel ->
    exists rr',
      at_pos S (rr_fr rr') (a + lenN t) /\
      mem_read_all P (length es + fuel2) gofuel rr =
        map MrEntry es ++ mem_read_all P fuel2 gofuel rr'.
Proof.
  induction 1 as [a | a p ps e k t He Hes IH];
    intros S pre post rr gofuel fuel2 Hok Hat HS Hpre Hgf.
  - exists rr. rewrite (@lenN_nil byte), N.add_0_r. split; [exact Hat|reflexivity].
  - destruct rr as [fr rbuf within]. cbn [rr_fr] in Hat.
    rewrite <- app_assoc in HS. rewrite lenN_app in Hgf.
    pose proof (enc_rel_frames _ _ _ _ _ He) as [Hk _].
    destruct (go_next_record a true p e k He S pre (t ++ post) fr rbuf within gofuel
                Hok Hat HS Hpre) as (fr' & Hgo & Hat'); [left; reflexivity | lia |].
    destruct (IH S (pre ++ e) post (mkRR fr' ([] ++ p) false) gofuel fuel2) as (rr' & Hat'' & Hrd).
    + exact Hok.
    + exact Hat'.
    + rewrite HS, <- app_assoc. reflexivity.
    + rewrite lenN_app. lia.
    + lia.
    + exists rr'. split.
      * rewrite lenN_app. replace (a + (lenN e + lenN t)) with (a + lenN e + lenN t) by lia.
        exact Hat''.
      * cbn [length Nat.add mem_read_all map app]. rewrite Hgo. cbn [rr_buf].
        rewrite Hrd. reflexivity.
Qed.

Lemma slice_zero written z lo hi :
  lenN written <= lo -> all_zero (sliceN lo hi (written ++ zerosN z)) = true.
Proof.
  apply slice_in_zero_tail. rewrite dropN_app_exact. apply all_zero_zerosN.
Qed.

Lemma read_frame_zero S k c :
  7 <= B - c ->
  all_zero (sliceN c (c + 7) (sliceN (k * B) ((k + 1) * B) S)) = true ->
  rframe (rd_at S k c) = (rd_at S k c, FNotAvail).
Proof.
  intros Hc Hz. unfold read_frame, rd_at, HEADER_LEN. cbn [fr_corrupt fr_cursor fr_rd orb vr_block].
  destruct (N.ltb_spec (B - c) 7) as [Hlt|_]; [lia|].
  cbn [fr_corrupt fr_cursor fr_rd orb vr_block]. rewrite Hz. reflexivity.
Qed.

Lemma read_frame_end S written z nb fr :
  S = written ++ zerosN z -> lenN S = (nb + 1) * B -> lenN written <= nb * B ->
  at_pos S fr (lenN written) ->
  exists fr', rframe fr = (fr', FNotAvail).
Proof.
  intros HS HlenS Hnb (k & c & Ha & Hc & Hblk & Hfr). subst fr.
  destruct (N.ltb_spec (B - c) 7) as [Hskip|Hno].
  - assert (Hroom : (k + 1) * B <= nb * B) by (apply (blocks_room nb k c); lia).
    rewrite read_frame_skip by lia.
    rewrite read_frame_zero; [eexists; reflexivity | lia |].
    rewrite sliceN_sliceN by lia. rewrite HS. apply slice_zero. lia.
  - rewrite read_frame_zero; [eexists; reflexivity | lia |].
    rewrite sliceN_sliceN by lia. rewrite HS. apply slice_zero. lia.
Qed.

Lemma mem_stream_shape written :
  exists z nb, mem_stream P written = written ++ zerosN z /\
               lenN (mem_stream P written) = (nb + 1) * B /\ lenN written <= nb * B.
Proof.
  unfold mem_stream.
  set (total := lenN written). set (nb := (total + B - 1) / B).
  exists ((nb + 1) * B - total), nb.
  assert (Hnb : total <= nb * B).
  { pose proof (N.div_mod (total + B - 1) B) as Hdm.
    pose proof (mod_lt_B (total + B - 1)) as Hlt. fold nb in Hdm. clearbody nb.
    set (r := (total + B - 1) mod B) in *. clearbody r. lia. }
  split; [reflexivity|]. split; [|exact Hnb].
  rewrite lenN_app, lenN_zerosN. fold total. lia.
Qed.

Lemma read_all_end rr fr' f gofuel :
  rframe (rr_fr rr) = (fr', FNotAvail) -> (1 <= gofuel)%nat ->
  mem_read_all P (Datatypes.S f) gofuel rr = [MrEnd].
Proof.
  intros Hrf Hg. destruct gofuel as [|g]; [lia|].
  cbn [mem_read_all go_next]. rewrite Hrf. reflexivity.
Qed.

Theorem mem_roundtrip_ok : forall entries,
  exists ns written,
    mem_roundtrip P entries = (ns, written, map MrEntry entries ++ [MrEnd]) /\
    length ns = length entries /\
    fold_right N.add 0 ns = lenN written.
Proof.
  intros entries. unfold mem_roundtrip.
  destruct (mem_write_all_spec entries (mkVecW 0 [])) as (ns & t & Hall & Hes & Hlen & Hsum).
  rewrite Hall. cbn [vw_cursor vw_buf app] in *.
  exists ns, t. split; [|split; assumption].
  f_equal.
  destruct (mem_stream_shape t) as (z & nb & Hshape & HlenS & Hnb).
  set (S := mem_stream P t) in *.
  assert (Hok : stream_ok S) by (exists (nb + 1); exact HlenS).
  assert (HtS : lenN t <= lenN S) by (rewrite Hshape, lenN_app; lia).
  pose proof (encs_rel_len _ _ _ Hes) as Hcount.
  set (fuel := N.to_nat (lenN S / HEADER_LEN + lenN S / B + 4)).
  assert (Hfuel : 7 * N.of_nat (length entries) + 7 <= 7 * N.of_nat fuel /\ lenN t <= 7 * N.of_nat fuel).
  { unfold fuel, HEADER_LEN. pose proof (N.div_mod (lenN S) 7) as Hdm.
    pose proof (N.mod_lt (lenN S) 7) as Hlt.
    set (r := lenN S mod 7) in *. clearbody r. nodiv. lia. }
  destruct Hfuel as [Hf1 Hf2].
  set (rr0 := rr_open vecr (mkVecR (dropN B S) (takeN B S))).
  assert (Hat0 : at_pos S (rr_fr rr0) 0).
  { exists 0, 0. repeat split; try lia.
    unfold rr0, rr_open, fr_open, rd_at. cbn [rr_fr]. unfold sliceN.
    replace ((0 + 1) * B) with B by lia. replace (0 * B) with 0 by lia.
    rewrite dropN_0, N.sub_0_r. reflexivity. }
  clearbody fuel.
  assert (Hsplit : fuel = (length entries + Datatypes.S (fuel - length entries - 1))%nat) by lia.
  rewrite Hsplit at 1.
  destruct (read_all_entries 0 entries t Hes S [] (zerosN z) rr0 fuel
              (Datatypes.S (fuel - length entries - 1)) Hok Hat0) as (rr' & Hat' & Hrd).
  - rewrite Hshape. reflexivity.
  - reflexivity.
  - exact Hf2.
  - rewrite Hrd. f_equal. rewrite N.add_0_l in Hat'.
    destruct (read_frame_end S t z nb (rr_fr rr') Hshape HlenS Hnb Hat') as (fr' & Hrf).
    apply (read_all_end _ fr'); [exact Hrf | lia].
Qed.

End C07.

Print Assumptions write_record_never_fails.
Print Assumptions write_record_count.
Print Assumptions mem_roundtrip_ok.
Check mem_roundtrip_ok.
