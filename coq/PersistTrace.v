(* PersistTrace.v — the I/O trace of one API call under ANY persist policy, starting from a state
   whose BufWriter may hold pending bytes (generalises CrashTrace.step_trace_rel, which assumes
   PAlways and an empty buffer).  Relative to an "anchor" (ev0, fs0, f0, off0: events, directory
   and OS position at a state where nothing was buffered; CrashTrace.tinv) a call either
     (N) only buffers / writes data: the trace invariant tinv holds again, for the bytes D
         accepted so far extended by the bytes of the call (no flush group, no unlink), or
     (P) ends with a flush group: events = data writes ++ flush_group, nothing pending, or
     (G) runs the garbage collector with at least one deletable file (delete / truncate):
         the intermediate states are exposed (gc_trace).
   Also: the initial tinv at an anchor (anchor_tinv). *)
From Coq Require Import Lia ZArith ZifyN ZifyNat ZifyBool List Sorted.
From MRL Require Import Bytes BytesProofs Params Names NamesProofs Frame Record Mem Spec Rolling Log
  Driver SpecRefine RecordProofs StreamProofs PolicyProofs GcProofs GhostLog ReplaySpec
  HandleProofs FileStream ResyncProofs PersistProofs WriterProofs RestartInv RestartWrite RestartGc
  RestartStep OpenReplay CrashTrace.

Lemma rev_inj {A} (a b : list A) : rev a = rev b -> a = b.
Proof. intros H. apply (f_equal (@rev A)) in H. now rewrite !rev_involutive in H. Qed.

Section PTrace.
Variable P : params.
Hypothesis HBS_lo : 7 < BS P.
Hypothesis HBS_hi : BS P <= 65542.
Hypothesis HNB : 1 <= NB P.
Hypothesis Hcrc : forall t p, crcf P t p < 2 ^ 32.
Hypothesis HGC : L_GC P = false.

Local Notation B := (BS P).
Local Notation FB := (FILE_BYTES P).
Local Notation ffp := (first_frame_pos P).
Local Notation enc_of := (enc_of P).
Local Notation encs_of := (encs_of P).
Local Notation sr := (map entry_ser).
Local Notation HW f := (f P HBS_lo HBS_hi HNB Hcrc) (only parsing).
Local Notation HG f := (f P HBS_lo HBS_hi HNB Hcrc HGC) (only parsing).
Local Notation H3 f := (f P HBS_lo HBS_hi Hcrc) (only parsing).

(* the intermediate state of delete / truncate: own entry written, queues updated, the garbage
   collector not yet run *)
Definition mid_state (st : state) (o : op) : option state :=
  match o with
  | ODelete q _ =>
      match qs_get (s_qs st) q with
      | None => None
      | Some mqv =>
          let st1 := fst (write_entry P st (EDelete q (next_position mqv))) in
          Some (set_qs st1 (qs_remove (s_qs st1) q))
      end
  | OTruncate q p _ =>
      match qs_get (s_qs st) q with
      | None => None
      | Some mqv =>
          let st1 := fst (write_entry P st (ETruncate q p)) in
          Some (set_qs st1 (qs_put (s_qs st1) q (fst (truncate_head mqv p))))
      end
  | _ => None
  end.

Definition own_entry (st : state) (o : op) : option entry :=
  match o with
  | ODelete q _ =>
      match qs_get (s_qs st) q with
      | None => None | Some mqv => Some (EDelete q (next_position mqv)) end
  | OTruncate q p _ =>
      match qs_get (s_qs st) q with None => None | Some _ => Some (ETruncate q p) end
  | _ => None
  end.

Definition gc_hint (o : op) : list bytes :=
  match o with ODelete _ h => h | OTruncate _ _ h => h | _ => [] end.

Definition fin_state (o : op) (tick : bool) (st3 : state) : state :=
  match o with ODelete _ _ => persist st3 true | _ => persist_on_policy st3 tick end.

(* delete and truncate follow one scheme: write the call's own entry e, replace the queues by what
   replaying e gives, run the garbage collector, finish *)
Lemma mid_scheme st o st2 :
  mid_state st o = Some st2 ->
  exists e qs' mk,
    own_entry st o = Some e /\
    apply_entry (s_qs st) (w_file (s_wr st)) e = Some qs' /\
    st2 = set_qs (fst (write_entry P st e)) qs' /\
    step_log P st o =
      (w_file (s_wr st), e) ::
      match snd (write_entry P st e) with Ok _ => gc_log P st2 (gc_hint o) | Err _ => [] end /\
    forall t, step P st o t =
      match snd (write_entry P st e) with
      | Err x => (fst (write_entry P st e), OutIo x)
      | Ok n => match run_gc_if_necessary P st2 (gc_hint o) with
                | (st3, Err x) => (st3, OutIo x)
                | (st3, Ok k) => (fin_state o t st3, mk n k)
                end
      end.
Proof.
  destruct o as [q|q hint|q pos payloads|q p hint|a]; cbn [mid_state own_entry]; try discriminate;
    destruct (qs_get (s_qs st) q) as [m|] eqn:Eq; try discriminate; intros Hmid; injection Hmid as <-.
  - exists (EDelete q (next_position m)), (qs_remove (s_qs st) q), (fun n k => OutDelete (n + k)).
    cbn [step step_log gc_hint fin_state apply_entry]. unfold delete_queue, delete_log. rewrite Eq.
    unfold write_entry.
    destruct (write_record P rwriter (wr_write P) (wr_rem P) (s_wr st) _) as [w1 [n|x]];
      cbn [fst snd set_wr s_qs]; repeat split; reflexivity.
  - exists (ETruncate q p), (qs_put (s_qs st) q (fst (truncate_head m p))),
      (fun n k => OutTruncate (snd (truncate_head m p)) (n + k)).
    cbn [step step_log gc_hint fin_state apply_entry]. unfold truncate, truncate_log. rewrite Eq.
    unfold write_entry.
    destruct (write_record P rwriter (wr_write P) (wr_rem P) (s_wr st) _) as [w1 [n|x]];
      destruct (truncate_head m p) as [m' ev]; cbn [fst snd set_wr s_qs]; repeat split; reflexivity.
Qed.

(* with nothing buffered, the end of a delete / truncate call adds at most one flush group *)
Lemma fin_state_tail o tick st3 :
  w_pending (s_wr st3) = [] ->
  let w3 := s_wr st3 in
  let w' := s_wr (fin_state o tick st3) in
  exists tailf, (tailf = [] \/ exists a, tailf = flush_group (w_file w3) a) /\
    c_ev (w_ctx w') = rev tailf ++ c_ev (w_ctx w3) /\ c_fs (w_ctx w') = c_fs (w_ctx w3) /\
    w_pending w' = [] /\ w_file w' = w_file w3 /\ w_off w' = w_off w3 /\ wlo w' = wlo w3.
Proof.
  intros Hp3 w3 w'.
  assert (Hcase : fin_state o tick st3 = st3 \/ exists a, fin_state o tick st3 = persist st3 a).
  { destruct o; cbn [fin_state]; [|right; now exists true| | |];
      unfold persist_on_policy; destruct (s_pol st3) as [|a|a];
      try (now left); try (right; now exists a); (destruct tick; [right; now exists a|now left]). }
  subst w'. destruct Hcase as [->|(a & ->)].
  - exists []. split; [now left|]. repeat split; assumption || reflexivity.
  - destruct (persist_ev_nil (s_wr st3) a Hp3) as (K1 & K2 & _ & K4 & K5 & K6).
    exists (flush_group (w_file (s_wr st3)) a). cbn [persist set_wr s_wr].
    split; [right; now exists a|]. rewrite wlo_persist. repeat split; assumption.
Qed.

Section Ext.
Variable ev0 : list event.
Variable fs0 : fsT.
Variables f0 off0 M : N.
Variable buf0 : bytes.
Variables lo0 cur0 : N.
Local Notation TI := (tinv P ev0 fs0 f0 off0 M buf0 lo0 cur0).

(* the events since the anchor are the data writes of what has left the buffer *)
Lemma TI_trace w D E_i :
  TI w D -> c_ev (w_ctx w) = rev E_i ++ ev0 ->
  exists Dos, wtrace P f0 off0 E_i Dos (w_file w) (os_pos w) /\ D = Dos ++ w_pending w /\
              os_pos w + lenN (w_pending w) = w_off w /\ w_off w <= FB /\
              c_fs (w_ctx w) = fold_left apply_event E_i fs0.
Proof.
  intros Ht HE. destruct (tinv_facts _ _ _ _ _ _ _ _ _ _ _ Ht) as ((_ & Hwf & Hoff & _) & _ & (E & Dos & Hev & Hfs & _ & Htr & HD)).
  assert (E = E_i) by (rewrite Hev in HE; apply app_inv_tail in HE; now apply rev_inj). subst E.
  exists Dos. unfold wf in Hwf. unfold os_pos. repeat split; try assumption. lia.
Qed.

(* ... and with the buffered bytes as one last write: the trace of all of D *)
Lemma TI_trace_all w D E_i :
  TI w D -> c_ev (w_ctx w) = rev E_i ++ ev0 ->
  wtrace P f0 off0 (E_i ++ [EvWrite (filename (w_file w)) (os_pos w) (w_pending w)]) D
         (w_file w) (w_off w) /\
  w_file w <= U64_MAX /\ wlo w = lo0.
Proof.
  intros Ht HE. destruct (TI_trace _ _ _ Ht HE) as (Dos & Htr & -> & Hos & Hoff & _).
  destruct (tinv_facts _ _ _ _ _ _ _ _ _ _ _ Ht) as ((_ & _ & _ & _ & Hu & _) & Hlo & _).
  rewrite <- Hos in Hoff |- *. split; [exact (wtrace_snoc_write P _ _ _ _ _ _ _ Htr Hoff)|]. auto.
Qed.

(* (P): the call ended with a flush group *)
Definition kP (st' : state) (D' : bytes) : Prop :=
  exists wevs a,
    c_ev (w_ctx (s_wr st')) = rev (wevs ++ flush_group (w_file (s_wr st')) a) ++ ev0 /\
    c_fs (w_ctx (s_wr st')) =
      fold_left apply_event (wevs ++ flush_group (w_file (s_wr st')) a) fs0 /\
    wtrace P f0 off0 wevs D' (w_file (s_wr st')) (w_off (s_wr st')) /\
    w_pending (s_wr st') = [] /\ wlo (s_wr st') = lo0.

Lemma kP_persist st D a : TI (s_wr st) D -> kP (persist st a) D.
Proof.
  intros Ht. destruct (tinv_facts _ _ _ _ _ _ _ _ _ _ _ Ht) as ((_ & Hwf & Hoff & _) & Hlo & HtW).
  destruct (HW trW_persist ev0 fs0 f0 off0 (s_wr st) D a HtW Hwf Hoff)
    as (evs & Hev & Hfs & Htr & _ & K2 & K3 & K4).
  exists evs, a. cbn [persist set_wr s_wr]. rewrite K2, K3.
  split; [exact Hev|]. split; [exact Hfs|]. split; [exact Htr|]. split; [exact K4|].
  now rewrite wlo_persist.
Qed.

Lemma fin_pol st D tick :
  TI (s_wr st) D ->
  TI (s_wr (persist_on_policy st tick)) D \/ kP (persist_on_policy st tick) D.
Proof.
  intros Ht. unfold persist_on_policy. destruct (s_pol st) as [|a|a].
  - now left.
  - destruct tick; [right; now apply kP_persist|now left].
  - right. now apply kP_persist.
Qed.

(* (G): the garbage collector found something to delete *)
Definition kG (st : state) (o : op) (tick : bool) (st' : state) (D D' : bytes) : Prop :=
  exists st2 st3 k e D2,
    mid_state st o = Some st2 /\ own_entry st o = Some e /\
    has_deletable st2 = true /\
    run_gc_if_necessary P st2 (gc_hint o) = (st3, Ok k) /\
    st' = fin_state o tick st3 /\
    D2 = D ++ enc_of (cur0 + lenN D) (entry_ser e) /\
    TI (s_wr st2) D2 /\
    step_log P st o = (w_file (s_wr st), e) :: gc_log P st2 (gc_hint o) /\
    D' = D2 ++ encs_of (cur0 + lenN D2) (sr (map snd (gc_log P st2 (gc_hint o)))).

(* after the garbage collector (which did nothing, or is analysed separately) *)
Lemma after_gc st o tick st2 e st3 k D0 :
  mid_state st o = Some st2 -> own_entry st o = Some e ->
  step_log P st o = (w_file (s_wr st), e) :: gc_log P st2 (gc_hint o) ->
  TI (s_wr st2) (D0 ++ enc_of (cur0 + lenN D0) (entry_ser e)) ->
  run_gc_if_necessary P st2 (gc_hint o) = (st3, Ok k) ->
  (match o with ODelete _ _ | OTruncate _ _ _ => True | _ => False end) ->
  let D' := D0 ++ encs_of (cur0 + lenN D0)
                    (sr (map snd ((w_file (s_wr st), e) :: gc_log P st2 (gc_hint o)))) in
  let st' := fin_state o tick st3 in
  TI (s_wr st') D' \/ kP st' D' \/ kG st o tick st' D0 D'.
Proof.
  intros Hmid Hown Hlog Ht Hgc Ho D' st'.
  set (D2 := D0 ++ enc_of (cur0 + lenN D0) (entry_ser e)) in *.
  assert (ED' : D' = D2 ++ encs_of (cur0 + lenN D2) (sr (map snd (gc_log P st2 (gc_hint o))))).
  { unfold D', D2. cbn [map snd ResyncProofs.encs_of]. rewrite app_assoc, lenN_app, N.add_assoc.
    reflexivity. }
  destruct (has_deletable st2) eqn:Ehd.
  - right. right. exists st2, st3, k, e, D2. repeat (split; [assumption || reflexivity|]).
    exact ED'.
  - assert (E3 : st3 = st2).
    { unfold run_gc_if_necessary in Hgc. rewrite Ehd in Hgc. now inversion Hgc. }
    assert (ED : D' = D2).
    { rewrite ED'. unfold gc_log. rewrite Ehd. cbn [map ResyncProofs.encs_of]. apply app_nil_r. }
    rewrite ED. unfold st'. rewrite E3.
    destruct o; try destruct Ho; cbn [fin_state].
    + right. left. now apply kP_persist.
    + destruct (fin_pol st2 D2 tick Ht) as [H|H]; [now left|right; now left].
Qed.

Theorem gstep_trace st D o tick st' out :
  TI (s_wr st) D ->
  cur0 + lenN D + lenN (encs_of (cur0 + lenN D) (sr (map snd (step_log P st o)))) <= M ->
  step P st o tick = (st', out) -> no_io out ->
  let D' := D ++ encs_of (cur0 + lenN D) (sr (map snd (step_log P st o))) in
  TI (s_wr st') D' \/ kP st' D' \/ kG st o tick st' D D'.
Proof.
  intros Ht HM Hstep Hno. cbn zeta.
  assert (Hnoop : step_log P st o = [] -> st' = st ->
            TI (s_wr st') (D ++ encs_of (cur0 + lenN D) (sr (map snd (step_log P st o))))).
  { intros E ->. rewrite E. cbn [map ResyncProofs.encs_of]. now rewrite app_nil_r. }
  destruct (mid_state st o) as [st2|] eqn:Emid.
  {     destruct (mid_scheme st o st2 Emid) as (e1 & qs' & mk & Hown & _ & Est2 & Elog & Hst).
    rewrite (Hst tick) in Hstep. rewrite Elog in HM |- *.
    destruct (write_entry P st e1) as [st1 r1] eqn:Ew. cbn [fst snd] in *.
    assert (HM1 : cur0 + lenN D + lenN (enc_of (cur0 + lenN D) (entry_ser e1)) <= M).
    { destruct r1; cbn [map snd ResyncProofs.encs_of] in HM; rewrite lenN_app in HM; lia. }
    destruct (HW tinv_write_entry _ _ _ _ _ _ _ _ st D _ st1 r1 Ht HM1 Ew) as (-> & _ & _ & Ht1).
    cbn [snd] in *.
    destruct (run_gc_if_necessary P st2 (gc_hint o)) as [st3 [k|err]] eqn:Eg;
      [|inversion Hstep; subst; exfalso; eapply Hno; reflexivity].
    inversion Hstep; subst st' out.
    apply (after_gc st o tick st2 e1 st3 k D Emid Hown Elog); [|exact Eg|].
    - rewrite Est2. exact Ht1.
    - destruct o; try discriminate Emid; exact I. }
  destruct o as [q|q hint|q pos payloads|q p hint|fsync]; cbn [step step_log mid_state] in *.
  -     unfold create_queue in Hstep. unfold create_log in *.
    destruct (qs_contains (s_qs st) q).
    { inversion Hstep; subst. left. now apply Hnoop. }
    destruct (write_entry P st (EPosition q 0)) as [st1 r1] eqn:Ew.
    cbn [map snd ResyncProofs.encs_of] in HM |- *. rewrite app_nil_r in HM |- *.
    destruct (HW tinv_write_entry _ _ _ _ _ _ _ _ st D _ st1 r1 Ht HM Ew) as (-> & _ & _ & Ht1).
    inversion Hstep; subst st' out. right. left.
    destruct (kP_persist st1 _ true Ht1) as (wevs & a & H1 & H2 & H4 & H5 & H6).
    exists wevs, a. cbn [set_qs s_wr persist set_wr] in *. auto.
  -     unfold delete_queue in Hstep. unfold delete_log in *.
    destruct (qs_get (s_qs st) q); [discriminate Emid|].
    inversion Hstep; subst; left; now apply Hnoop.
  -     unfold append_records in Hstep. unfold append_log in *.
    destruct (qs_get (s_qs st) q) as [mqv|];
      [|inversion Hstep; subst; left; now apply Hnoop].
    destruct (match pos with
              | Some p => if p + 1 =? next_position mqv then Some (OutAppend None 0)
                          else if p <? next_position mqv then Some OutPast else None
              | None => None end) as [o|] eqn:Ee.
    { rewrite (append_early_target_none _ _ _ Ee) in *. inversion Hstep; subst; left; now apply Hnoop. }
    rewrite (append_early_target _ _ Ee) in *.
    set (position := match pos with Some p => p | None => next_position mqv end) in *.
    destruct payloads as [|x r]; cbn [number_from] in *;
      [inversion Hstep; subst; left; now apply Hnoop|].
    set (e1 := EAppend q position ((position, x) :: number_from (position + 1) r)) in *.
    destruct (write_entry P st e1) as [st1 r1] eqn:Ew.
    cbn [map snd ResyncProofs.encs_of] in HM |- *. rewrite app_nil_r in HM |- *.
    destruct (HW tinv_write_entry _ _ _ _ _ _ _ _ st D _ st1 r1 Ht HM Ew) as (-> & _ & Epol1 & Ht1).
    destruct (fin_pol st1 _ tick Ht1) as [H|H].
    + left. destruct (append_all mqv (w_file (s_wr st)) ((position, x) :: number_from (position + 1) r));
        inversion Hstep; subst st' out; cbn [set_qs s_wr]; exact H.
    + right. left. destruct H as (wevs & a & H1 & H2 & H4 & H5 & H6).
      destruct (append_all mqv (w_file (s_wr st)) ((position, x) :: number_from (position + 1) r));
        inversion Hstep; subst st' out; exists wevs, a; cbn [set_qs s_wr]; auto.
  -     unfold truncate in Hstep. unfold truncate_log in *.
    destruct (qs_get (s_qs st) q); [discriminate Emid|].
    inversion Hstep; subst; left; now apply Hnoop.
  -     inversion Hstep; subst st' out. right. left. cbn [map ResyncProofs.encs_of].
    rewrite app_nil_r. now apply kP_persist.
Qed.

Definition gc_names (st2 : state) (hint : list bytes) : list bytes :=
  pick_order hint (empty_names (s_qs st2)).
(* after the position entries *)
Definition gc_st0 (st2 : state) (hint : list bytes) : state :=
  fst (record_positions P st2 (gc_names st2 hint) 0).
(* after the persist that precedes the unlinks *)
Definition gc_st1 (st2 : state) (hint : list bytes) : state := persist (gc_st0 st2 hint) true.

Lemma gc_trace st2 D2 hint st3 k :
  TI (s_wr st2) D2 ->
  cur0 + lenN D2 + lenN (encs_of (cur0 + lenN D2) (sr (map snd (gc_log P st2 hint)))) <= M ->
  has_deletable st2 = true ->
  run_gc_if_necessary P st2 hint = (st3, Ok k) ->
  let st1 := gc_st1 st2 hint in
  let f1 := w_file (s_wr st1) in
  let D' := D2 ++ encs_of (cur0 + lenN D2) (sr (map snd (gc_log P st2 hint))) in
  exists wevs m c files',
    c_ev (w_ctx (s_wr st1)) = rev (wevs ++ flush_group f1 true) ++ ev0 /\
    c_fs (w_ctx (s_wr st1)) = fold_left apply_event wevs fs0 /\
    wtrace P f0 off0 wevs D' f1 (w_off (s_wr st1)) /\
    w_pending (s_wr st1) = [] /\
    gc_loop (w_ctx (s_wr st1)) (w_files (s_wr st1)) (referenced st1 (w_file (s_wr st2))) =
      (c, files', Ok tt) /\
    w_files (s_wr st1) = iota lo0 m ++ files' /\
    st3 = set_wr st1 (mkWr c files' (w_file (s_wr st1)) (w_off (s_wr st1)) (w_pending (s_wr st1))) /\
    c_ev c = rev (unlinks lo0 m) ++ c_ev (w_ctx (s_wr st1)) /\
    c_fs c = remove_files (c_fs (w_ctx (s_wr st1))) (iota lo0 m) /\
    lo0 + N.of_nat m <= f1 /\ s_pol st1 = s_pol st2 /\ s_qs st1 = s_qs st2 /\
    wlo (s_wr st1) = lo0 /\ winv P (s_wr st1).
Proof.
  intros Ht HM Ehd Hg st1 f1 D'. subst st1 f1 D'.
  unfold gc_st1, gc_st0, gc_names.
  unfold run_gc_if_necessary in Hg. unfold gc_log in *. rewrite Ehd in *.
  unfold record_empty_queues_position in Hg.
  destruct (record_positions P st2 (pick_order hint (empty_names (s_qs st2))) 0) as [st1 r1] eqn:Er.
  cbn [fst].
  destruct (HW tinv_record_positions _ _ _ _ _ _ _ _ _ st2 D2 0 st1 r1 Ht HM Er)
    as ((k0 & ->) & Eqs & Epol & Ht1).
  rewrite HGC in Hg. cbn [andb] in Hg.
  set (D' := D2 ++ encs_of (cur0 + lenN D2) _) in *.
  destruct (tinv_facts _ _ _ _ _ _ _ _ _ _ _ Ht1) as (Hi1 & Hlo1 & HtW1).
  pose proof Hi1 as (Hok1 & Hwf1 & Hoff1 & _).
  destruct (HW trW_persist ev0 fs0 f0 off0 (s_wr st1) D' true HtW1 Hwf1 Hoff1)
    as (evs & Hev & Hfs & Htr & K1 & K2 & K3 & K4).
  cbn [persist set_wr s_wr] in Hg |- *.
  remember (wr_persist (s_wr st1) true) as wp eqn:Ewp.
  destruct (gc_loop (w_ctx wp) (w_files wp) _) as [[c files] rg] eqn:Egc.
  destruct rg as [[]|e]; inversion Hg; subst st3 k; clear Hg.
  destruct (gc_loop_ok _ _ _ _ _ Egc) as (dropped & Efiles & Hun & _ & Hevg & Hfsg & _).
  rewrite K1, (wr_ok_iota P HBS_lo HBS_hi HNB _ Hok1), Hlo1 in Efiles.
  pose proof (iota_app_inv _ _ _ _ Efiles) as Edr.
  set (m := length dropped) in *.
  assert (Hiw : winv P wp).
  { rewrite Ewp. apply (winv_transfer P (s_wr st1)); [apply wr_persist_key|apply wr_persist_vfs| |exact Hi1].
    apply wf_nil. apply wr_persist_drained. }
  exists evs, m, c, files. cbn [s_pol s_qs]. rewrite K2, K3.
  split; [exact Hev|].
  split; [rewrite Hfs, fold_left_app; apply fold_flush_group|].
  split; [exact Htr|]. split; [exact K4|].
  split; [reflexivity|].
  split; [rewrite K1, (wr_ok_iota P HBS_lo HBS_hi HNB _ Hok1), Hlo1, Efiles, <- Edr; reflexivity|].
  split; [reflexivity|].
  split.
  { rewrite Hevg. unfold unlink_events, unlinks. rewrite <- Edr. reflexivity. }
  split; [rewrite Hfsg, <- Edr; reflexivity|].
  split.
  { destruct (N.le_gt_cases (lo0 + N.of_nat m) (w_file (s_wr st1))) as [Hle|Hgt]; [exact Hle|].
    exfalso. assert (Hin : In (w_file (s_wr st1)) dropped).
    { rewrite Edr. apply iota_In. fold m.
      pose proof (winv_wlo_le P HBS_lo HBS_hi HNB _ Hi1). lia. }
    rewrite Forall_forall in Hun. specialize (Hun _ Hin). unfold referenced in Hun.
    cbn [persist set_wr s_wr] in Hun. rewrite <- Ewp, K2, N.eqb_refl, orb_true_r in Hun.
    discriminate. }
  split; [exact Epol|]. split; [exact Eqs|].
  split; [|exact Hiw].
  rewrite Ewp. rewrite wlo_persist. exact Hlo1.
Qed.

End Ext.
Local Notation call_cursor_w w G := ((wlo w - gh_base G) * FB + wpos P w).

Lemma anchor_tinv w G Xe :
  PInv P w G -> w_pending w = [] -> stream_bound P G Xe ->
  let M := wpos P w + lenN (encs_of (wpos P w) (sr Xe)) in
  tinv P (c_ev (w_ctx w)) (c_fs (w_ctx w)) (w_file w) (w_off w) M
       (takeN (wpos P w) (wstream w)) (wlo w) (wpos P w) w [].
Proof.
  intros HP Hp0 Hbound M.
  destruct (HW pinv_setup w G HP) as (Hlb & Ebuf & HS & Hposn & Hn & Hn1). cbn zeta in *.
  pose proof HP as (Hw & _ & _ & Hbase & Hc1 & Hc2 & _). cbn zeta in Hc1, Hc2.
  set (dl := wlo w - gh_base G) in *.
  set (T := gh_T P G) in *. set (a0 := lenN T) in *.
  set (c := dl * FB + wpos P w) in *.
  set (buf := takeN (wpos P w) (wstream w)) in *.
  set (X := sr Xe) in *.
  assert (EX : encs_of (wpos P w) X = encs_of c X).
  { unfold c. symmetry. apply (HW encs_of_shift). apply (mulFB_mod P HBS_lo HBS_hi HNB). }
  pose proof Hw as (Hok & Hwf' & Hoff & Hplan & Hu & Hfull & Hfresh).
  assert (HM : FB * wlo w + M <= FB * (U64_MAX + 1)).
  { unfold M. rewrite EX. destruct X as [|x X'] eqn:EXX.
    - cbn [ResyncProofs.encs_of]. rewrite (@lenN_nil byte).
      assert (FB * (wlo w + lenN (w_files w)) <= FB * (U64_MAX + 1)) by (apply N.mul_le_mono_l; lia).
      lia.
    - rewrite <- EXX in *.
      assert (Hne : X <> []) by (rewrite EXX; discriminate).
      unfold stream_bound in Hbound. rewrite map_app in Hbound. fold X in Hbound.
      rewrite (H3 cursor_after_app) in Hbound. fold (gh_ser G) in Hbound.
      rewrite (cursor_after_0 P HBS_lo HBS_hi HNB) in Hbound. fold (gh_T P G) in Hbound. fold T in Hbound.
      fold a0 in Hbound. unfold ResyncProofs.cursor_after in Hbound.
      rewrite <- (HW encs_of_between a0 c X Hc1 Hc2 Hne), lenN_app, lenN_zerosN in Hbound.
      replace (wlo w) with (gh_base G + dl) by lia. unfold c in *. nia. }
  assert (Hcur : exists b, fs_get (c_fs (w_ctx w)) (filename (w_file w)) = Some (FFile b)).
  { rewrite <- (vfs_nil w Hp0). destruct (wr_ok_files w Hok) as (pre & Hpre & _).
    destruct (Hfull (w_file w)) as (b & Hb & _); [rewrite Hpre; apply in_or_app; right; now left|].
    now exists b. }
  unfold tinv, tsim. rewrite (@lenN_nil byte), N.add_0_r, app_nil_r.
  split.
  { split; [exact Hw|]. split; [reflexivity|]. split; [exact Hlb|]. split; [exact HS|exact HM]. }
  split; [reflexivity|]. exists []. split; [now rewrite app_nil_r|].
  exists [], []. cbn [rev app fold_left].
  split; [reflexivity|]. split; [reflexivity|]. split; [exact Hcur|].
  split; [|now rewrite Hp0].
  replace (os_pos w) with (w_off w); [constructor|].
  unfold os_pos. rewrite Hp0, (@lenN_nil byte). lia.
Qed.

(* the shape of every crash prefix of the data writes (followed by flush / sync events only) of a
   trace that starts at an anchor: no file is unlinked *)
Theorem anchor_shape_plain w G NEW f1 off1 wevs tail pe :
  PInv P w G -> w_pending w = [] ->
  wtrace P (w_file w) (w_off w) wevs NEW f1 off1 -> Forall noop_ev tail -> f1 <= U64_MAX ->
  cpre pe (wevs ++ tail) ->
  let fs0 := c_fs (w_ctx w) in
  let lo := wlo w in
  let T := gh_T P G in
  let c0 := call_cursor_w w G in
  let img := fold_left apply_event pe fs0 in
  let j := lenN (ev_data pe) in
  exists (hi : N) (short : bool) (z : N),
    lo <= hi /\ w_file w <= hi /\ hi <= f1 /\ hi <= U64_MAX /\
    nodup_keys img /\ dir_of img (nfiles lo hi) /\ list_wal_numbers img = nfiles lo hi /\
    (forall n, lo <= n <= hi ->
       exists b, fs_get img (filename n) = Some (FFile b) /\
                 lenN b = if short && (n =? hi) then 0 else FB) /\
    (short = true -> w_file w < hi) /\
    ev_data pe = takeN j NEW /\ j <= lenN NEW /\
    stream_of (zext P img hi) (nfiles lo hi) =
      dropN ((lo - gh_base G) * FB) (T ++ zerosN (c0 - lenN T) ++ takeN j NEW ++ zerosN z) /\
    c0 + j + z = (hi + 1 - gh_base G) * FB /\
    (forall n, hi < n -> n <= U64_MAX -> fs_get img (filename n) = None) /\
    (cpre pe wevs \/ (j = lenN NEW /\ hi = f1 /\ short = false)).
Proof.
  intros HP Hp0 Htr Htail Hu' Hc fs0 lo T c0 img j. subst fs0 lo T c0 img j.
  destruct (HW pinv_setup w G HP) as (Hlb & Ebuf & HS & Hposn & Hn & Hn1). cbn zeta in *.
  pose proof HP as (Hw & (_ & Hdir) & Hnd & Hbase & Hc1 & Hc2 & _). cbn zeta in Hc1, Hc2.
  pose proof Hw as (Hok & Hwf' & Hoff & Hplan & Hu & Hfull & Hfresh).
  rewrite (vfs_nil w Hp0) in Hfull, Hfresh.
  set (fs0 := c_fs (w_ctx w)) in *. set (lo := wlo w) in *. set (f0 := w_file w) in *.
  assert (Hlo : lo <= f0) by lia.
  assert (Efiles : w_files w = nfiles lo f0).
  { rewrite (wr_ok_iota P HBS_lo HBS_hi HNB w Hok). fold lo. unfold nfiles. f_equal.
    rewrite lenN_length in Hn. lia. }
  assert (Hfull0 : forall n, lo <= n <= f0 -> full_file P fs0 n).
  { intros n Hn'. apply Hfull. rewrite Efiles. apply (nfiles_In P HBS_lo HBS_hi HNB); lia. }
  assert (Hgood : good P fs0 f0 U64_MAX).
  { split; [apply Hfull0; lia|]. intros n H1 H2. now apply Hfresh. }
  assert (Hdir0 : dir_of fs0 (nfiles lo f0)).
  { rewrite <- Efiles. apply Hdir. exact Hu. }
  assert (ES0 : stream_of fs0 (nfiles lo f0) = wstream w).
  { unfold wstream. now rewrite (vfs_nil w Hp0), Efiles. }
  assert (Epos : (f0 - lo) * FB + w_off w = wpos P w).
  { unfold wpos. f_equal. f_equal. lia. }
  destruct (noop_fold _ Htail) as [Ftail Dtail].
  destruct (cpre_data_take _ _ Hc) as (Hdata & Hj).
  rewrite ev_data_app, Dtail, app_nil_r, (wtrace_data P _ _ _ _ _ _ Htr) in Hdata, Hj.
  assert (Himg : exists fc short,
            img_ok P fs0 f0 (w_off w) (fold_left apply_event pe fs0) (ev_data pe) fc short /\
            fc <= f1 /\ (cpre pe wevs \/ (lenN (ev_data pe) = lenN NEW /\ fc = f1 /\ short = false))).
  { destruct (cpre_app_inv _ _ _ Hc) as [Hc1'|(pt & -> & Hc2')].
    - destruct (HW wtrace_img_pre _ _ _ _ _ _ Htr pe fs0 U64_MAX Hc1' Hgood Hu' (N.le_refl _))
        as (fc & short & Hfc & Hok'). exists fc, short. auto.
    - destruct (noop_fold _ (noop_cpre _ _ Htail Hc2')) as [F1 F2].
      exists f1, false. rewrite fold_left_app, F1, ev_data_app, F2, app_nil_r.
      rewrite (wtrace_data P _ _ _ _ _ _ Htr).
      split; [exact (HW wtrace_img_full _ _ _ _ _ _ Htr fs0 U64_MAX Hgood Hu' (N.le_refl _))|].
      split; [lia|right; auto]. }
  destruct Himg as (fc & short & Hok' & Hfc & Hlast).
  pose proof (HW img_ok_len _ _ _ _ _ _ _ Hok' (Hfull0 f0 ltac:(lia)) Hoff ltac:(lia)) as Hlen.
  pose proof Hok' as (Hle' & Hoth' & _ & Hshort' & _).
  destruct (HW assemble fs0 lo f0 (w_off w) _ (ev_data pe) fc short 0%nat Hlo ltac:(lia) Hfull0 Hdir0
              Hok' ltac:(lia)) as (Hdir' & Hlen' & Hstr').
  cbn [iota] in Hdir', Hlen', Hstr'. unfold remove_files in Hdir', Hlen', Hstr'.
  cbn [fold_left] in Hdir', Hlen', Hstr'.
  replace (lo + N.of_nat 0) with lo in Hdir', Hlen', Hstr' by lia.
  set (img := fold_left apply_event pe fs0) in *.
  set (j := lenN (ev_data pe)) in *.
  exists fc, short, (lenN (w_files w) * FB + (fc - f0) * FB - wpos P w - j).
  assert (Hndi : nodup_keys img) by (apply fold_nodup; exact Hnd).
  split; [lia|]. split; [exact Hle'|]. split; [exact Hfc|]. split; [lia|].
  split; [exact Hndi|].
  split; [exact Hdir'|].
  split; [apply (dir_listing P HBS_lo HBS_hi HNB); [exact Hndi|exact Hdir'|lia|lia]|].
  split; [exact Hlen'|].
  split; [exact Hshort'|].
  split; [exact Hdata|]. split; [exact Hj|].
  assert (Hbound' : wpos P w + j <= lenN (w_files w) * FB + (fc - f0) * FB).
  { rewrite <- Epos. replace (lenN (w_files w)) with (f0 - lo + 1) by lia. lia. }
  split.
  { rewrite Hstr', ES0, Epos, HS. rewrite <- Hdata. unfold j in *.
    rewrite (HW stream_to_ghost (takeN (wpos P w) (wstream w)) (gh_T P G) (ev_data pe)
               ((lo - gh_base G) * FB + wpos P w) (lo - gh_base G) (wpos P w)
               (lenN (w_files w) * FB) ((fc - f0) * FB) (N.of_nat 0 * FB));
      try assumption; try reflexivity.
    f_equal. lia. }
  split.
  { replace (fc + 1 - gh_base G) with ((lo - gh_base G) + lenN (w_files w) + (fc - f0)) by lia.
    lia. }
  split; [|exact Hlast].
  intros n Hgt Hle2. unfold img. rewrite Hoth'.
  - apply Hfresh; lia.
  - intros n' Hn'. apply filename_neq; lia.
Qed.

End PTrace.

Print Assumptions gstep_trace.
Print Assumptions gc_trace.
Print Assumptions anchor_tinv.
Print Assumptions anchor_shape_plain.
