(* BytesProofs.v — facts about the byte-string primitives of Bytes.v. *)
From Coq Require Import Lia ZArith ZifyN ZifyNat ZifyBool.
From MRL Require Import Bytes.
Ltac Zify.zify_post_hook ::= Z.div_mod_to_equations.

Arguments N.add : simpl never.
Arguments N.sub : simpl never.
Arguments N.mul : simpl never.
Arguments N.div : simpl never.
Arguments N.modulo : simpl never.
Arguments N.eqb : simpl never.
Arguments N.ltb : simpl never.
Arguments N.leb : simpl never.
Arguments N.pred : simpl never.
Arguments N.succ : simpl never.
Arguments N.min : simpl never.
Arguments N.max : simpl never.
Arguments N.pow : simpl never.

Lemma lenN_acc_spec {A} (l : list A) acc : lenN_acc l acc = acc + N.of_nat (length l).
Proof.
  revert acc; induction l as [|x l IH]; intros acc; cbn [lenN_acc length].
  - lia.
  - rewrite IH. lia.
Qed.

Lemma lenN_length {A} (l : list A) : lenN l = N.of_nat (length l).
Proof. unfold lenN. rewrite lenN_acc_spec. lia. Qed.

Lemma lenN_nil {A} : lenN (@nil A) = 0.
Proof. reflexivity. Qed.

Lemma lenN_cons {A} (x : A) l : lenN (x :: l) = 1 + lenN l.
Proof. rewrite !lenN_length. cbn [length]. lia. Qed.

Lemma lenN_app {A} (a b : list A) : lenN (a ++ b) = lenN a + lenN b.
Proof. rewrite !lenN_length, app_length. lia. Qed.

Lemma lenN_map {A B} (f : A -> B) l : lenN (map f l) = lenN l.
Proof. rewrite !lenN_length, map_length. reflexivity. Qed.

Lemma lenN_0_nil {A} (l : list A) : lenN l = 0 -> l = [].
Proof. destruct l; [reflexivity|]. rewrite lenN_cons. lia. Qed.

Lemma takeN_firstn {A} n (l : list A) : takeN n l = firstn (N.to_nat n) l.
Proof.
  revert n; induction l as [|x l IH]; intros n; cbn [takeN].
  - now rewrite firstn_nil.
  - destruct (N.eqb_spec n 0) as [->|Hn]; [reflexivity|].
    rewrite IH. replace (N.to_nat n) with (S (N.to_nat (N.pred n))) by lia. reflexivity.
Qed.

Lemma dropN_skipn {A} n (l : list A) : dropN n l = skipn (N.to_nat n) l.
Proof.
  revert n; induction l as [|x l IH]; intros n; cbn [dropN].
  - now rewrite skipn_nil.
  - destruct (N.eqb_spec n 0) as [->|Hn]; [reflexivity|].
    rewrite IH. replace (N.to_nat n) with (S (N.to_nat (N.pred n))) by lia. reflexivity.
Qed.

Lemma takeN_dropN {A} n (l : list A) : takeN n l ++ dropN n l = l.
Proof. rewrite takeN_firstn, dropN_skipn. apply firstn_skipn. Qed.

Lemma lenN_takeN {A} n (l : list A) : lenN (takeN n l) = N.min n (lenN l).
Proof. rewrite takeN_firstn, !lenN_length, firstn_length. lia. Qed.

Lemma lenN_dropN {A} n (l : list A) : lenN (dropN n l) = lenN l - n.
Proof. rewrite dropN_skipn, !lenN_length, skipn_length. lia. Qed.

Lemma takeN_0 {A} (l : list A) : takeN 0 l = [].
Proof. destruct l; reflexivity. Qed.

Lemma dropN_0 {A} (l : list A) : dropN 0 l = l.
Proof. destruct l; reflexivity. Qed.

Lemma takeN_all {A} n (l : list A) : lenN l <= n -> takeN n l = l.
Proof. intros H. rewrite takeN_firstn. apply firstn_all2. rewrite lenN_length in H. lia. Qed.

Lemma dropN_all {A} n (l : list A) : lenN l <= n -> dropN n l = [].
Proof. intros H. rewrite dropN_skipn. apply skipn_all2. rewrite lenN_length in H. lia. Qed.

Lemma takeN_app_exact {A} (a b : list A) : takeN (lenN a) (a ++ b) = a.
Proof.
  rewrite takeN_firstn, lenN_length, Nnat.Nat2N.id.
  rewrite firstn_app, Nat.sub_diag, firstn_O, app_nil_r. apply firstn_all.
Qed.

Lemma dropN_app_exact {A} (a b : list A) : dropN (lenN a) (a ++ b) = b.
Proof.
  rewrite dropN_skipn, lenN_length, Nnat.Nat2N.id.
  rewrite skipn_app, Nat.sub_diag, skipn_all. reflexivity.
Qed.

Lemma takeN_app_le {A} n (a b : list A) : n <= lenN a -> takeN n (a ++ b) = takeN n a.
Proof.
  intros H. rewrite !takeN_firstn, firstn_app. rewrite lenN_length in H.
  replace (N.to_nat n - length a)%nat with 0%nat by lia. now rewrite firstn_O, app_nil_r.
Qed.

Lemma dropN_app_le {A} n (a b : list A) : n <= lenN a -> dropN n (a ++ b) = dropN n a ++ b.
Proof.
  intros H. rewrite !dropN_skipn, skipn_app. rewrite lenN_length in H.
  replace (N.to_nat n - length a)%nat with 0%nat by lia. reflexivity.
Qed.

Lemma dropN_app_ge {A} n (a b : list A) : lenN a <= n -> dropN n (a ++ b) = dropN (n - lenN a) b.
Proof.
  intros H. rewrite !dropN_skipn, skipn_app. rewrite lenN_length in *.
  rewrite (skipn_all2 a) by lia. cbn [app]. f_equal. lia.
Qed.

Lemma takeN_app_ge {A} n (a b : list A) : lenN a <= n -> takeN n (a ++ b) = a ++ takeN (n - lenN a) b.
Proof.
  intros H. rewrite !takeN_firstn, firstn_app. rewrite lenN_length in *.
  rewrite (firstn_all2 a) by lia. f_equal. f_equal. lia.
Qed.

Lemma skipn_skipn' {A} (x y : nat) (l : list A) : skipn x (skipn y l) = skipn (x + y) l.
Proof.
  revert l; induction y as [|y IH]; intros l.
  - now rewrite Nat.add_0_r.
  - destruct l as [|a l]; [now rewrite !skipn_nil|].
    rewrite Nat.add_succ_r. cbn [skipn]. apply IH.
Qed.

Lemma dropN_dropN {A} n m (l : list A) : dropN n (dropN m l) = dropN (m + n) l.
Proof.
  rewrite !dropN_skipn, skipn_skipn'. f_equal. lia.
Qed.

Lemma takeN_takeN {A} n m (l : list A) : takeN n (takeN m l) = takeN (N.min n m) l.
Proof.
  rewrite !takeN_firstn, firstn_firstn. f_equal. lia.
Qed.

Lemma sliceN_app_mid {A} (a b c : list A) :
  sliceN (lenN a) (lenN a + lenN b) (a ++ b ++ c) = b.
Proof.
  unfold sliceN. rewrite dropN_app_exact.
  replace (lenN a + lenN b - lenN a) with (lenN b) by lia. apply takeN_app_exact.
Qed.

Lemma zeros_pos_length p : lenN (zeros_pos p) = Npos p.
Proof.
  induction p as [p IH|p IH|]; cbn [zeros_pos].
  - rewrite lenN_cons, lenN_app, IH. lia.
  - rewrite lenN_app, IH. lia.
  - reflexivity.
Qed.

Lemma lenN_zerosN n : lenN (zerosN n) = n.
Proof. destruct n; [reflexivity|]. apply zeros_pos_length. Qed.

Lemma all_zero_app a b : all_zero (a ++ b) = all_zero a && all_zero b.
Proof.
  induction a as [|x a IH]; cbn [app all_zero]; [reflexivity|].
  rewrite IH. now rewrite andb_assoc.
Qed.

Lemma zeros_pos_all_zero p : all_zero (zeros_pos p) = true.
Proof.
  induction p as [p IH|p IH|]; cbn [zeros_pos all_zero]; rewrite ?all_zero_app, ?IH; reflexivity.
Qed.

Lemma all_zero_zerosN n : all_zero (zerosN n) = true.
Proof. destruct n; [reflexivity|]. apply zeros_pos_all_zero. Qed.

Lemma all_zero_takeN n l : all_zero l = true -> all_zero (takeN n l) = true.
Proof.
  intros H. rewrite <- (takeN_dropN n l), all_zero_app in H.
  now apply andb_true_iff in H as [H1 _].
Qed.

Lemma all_zero_dropN n l : all_zero l = true -> all_zero (dropN n l) = true.
Proof.
  intros H. rewrite <- (takeN_dropN n l), all_zero_app in H.
  now apply andb_true_iff in H as [_ H2].
Qed.

Lemma all_zero_unique : forall a b,
  all_zero a = true -> all_zero b = true -> lenN a = lenN b -> a = b.
Proof.
  induction a as [|x a IH]; intros [|y b] Ha Hb Hl.
  - reflexivity.
  - rewrite lenN_nil, lenN_cons in Hl. lia.
  - rewrite lenN_nil, lenN_cons in Hl. lia.
  - cbn [all_zero] in Ha, Hb. apply andb_true_iff in Ha as [Hx Ha], Hb as [Hy Hb].
    apply Byte.byte_dec_bl in Hx, Hy. subst x y. f_equal. apply IH; try assumption.
    rewrite !lenN_cons in Hl. lia.
Qed.

Lemma all_zero_is_zeros l : all_zero l = true -> l = zerosN (lenN l).
Proof.
  intros H. apply all_zero_unique; [exact H|apply all_zero_zerosN|now rewrite lenN_zerosN].
Qed.

Lemma zerosN_app a b : zerosN (a + b) = zerosN a ++ zerosN b.
Proof.
  apply all_zero_unique.
  - apply all_zero_zerosN.
  - rewrite all_zero_app, !all_zero_zerosN. reflexivity.
  - rewrite lenN_app, !lenN_zerosN. reflexivity.
Qed.

Lemma dropN_zerosN n m : dropN n (zerosN m) = zerosN (m - n).
Proof.
  apply all_zero_unique.
  - apply all_zero_dropN, all_zero_zerosN.
  - apply all_zero_zerosN.
  - rewrite lenN_dropN, !lenN_zerosN. reflexivity.
Qed.

Lemma takeN_zerosN n m : n <= m -> takeN n (zerosN m) = zerosN n.
Proof.
  intros H. apply all_zero_unique.
  - apply all_zero_takeN, all_zero_zerosN.
  - apply all_zero_zerosN.
  - rewrite lenN_takeN, !lenN_zerosN. lia.
Qed.

Lemma lenN_set_len b n : lenN (set_len b n) = n.
Proof.
  unfold set_len. destruct (N.leb_spec n (lenN b)).
  - rewrite lenN_takeN. lia.
  - rewrite lenN_app, lenN_zerosN. lia.
Qed.

Lemma dropN_cons_succ {A} k (x : A) l : dropN (1 + k) (x :: l) = dropN k l.
Proof.
  cbn [dropN]. destruct (N.eqb_spec (1 + k) 0) as [E|_]; [lia|].
  f_equal. lia.
Qed.

Lemma dropN_takeN {A} c n (l : list A) : dropN c (takeN n l) = takeN (n - c) (dropN c l).
Proof.
  rewrite !dropN_skipn, !takeN_firstn.
  destruct (N.le_gt_cases c n) as [Hle|Hgt].
  - rewrite firstn_skipn_comm. f_equal. f_equal. lia.
  - replace (N.to_nat (n - c)) with 0%nat by lia. rewrite firstn_O.
    apply skipn_all2. rewrite firstn_length. lia.
Qed.

Lemma sliceN_sliceN {A} c d lo hi (l : list A) :
  lo + d <= hi -> sliceN c d (sliceN lo hi l) = sliceN (lo + c) (lo + d) l.
Proof.
  intros H. unfold sliceN. rewrite dropN_takeN, takeN_takeN, dropN_dropN.
  f_equal. lia.
Qed.

Lemma sliceN_app_l {A} lo hi (x c : list A) :
  hi <= lenN x -> sliceN lo hi (x ++ c) = sliceN lo hi x.
Proof.
  intros H. unfold sliceN. destruct (N.le_gt_cases lo (lenN x)) as [Hlo|Hlo].
  - rewrite dropN_app_le by exact Hlo. apply takeN_app_le. rewrite lenN_dropN. lia.
  - replace (hi - lo) with 0 by lia. now rewrite !takeN_0.
Qed.

Lemma lenN_sliceN {A} lo hi (l : list A) : hi <= lenN l -> lenN (sliceN lo hi l) = hi - lo.
Proof. intros H. unfold sliceN. rewrite lenN_takeN, lenN_dropN. lia. Qed.

Lemma sliceN_to_end {A} a (x : list A) : sliceN a (lenN x) x = dropN a x.
Proof. unfold sliceN. apply takeN_all. rewrite lenN_dropN. lia. Qed.

Lemma sliceN_dropN {A} off a b (x : list A) :
  off <= a -> sliceN (a - off) (b - off) (dropN off x) = sliceN a b x.
Proof.
  intros H. unfold sliceN. rewrite dropN_dropN.
  replace (off + (a - off)) with a by lia.
  replace (b - off - (a - off)) with (b - a) by lia. reflexivity.
Qed.

Lemma sliceN_then_dropN {A} a b (x : list A) :
  a <= b -> sliceN a b x ++ dropN b x = dropN a x.
Proof.
  intros H. unfold sliceN.
  replace (dropN b x) with (dropN (b - a) (dropN a x)).
  - apply takeN_dropN.
  - rewrite dropN_dropN. f_equal. lia.
Qed.

Lemma b2n_lt (b : byte) : b2n b < 256.
Proof. unfold b2n. pose proof (Byte.to_N_bounded b). lia. Qed.

Lemma b2n_n2b n : b2n (n2b n) = n mod 256.
Proof.
  unfold n2b, b2n.
  destruct (Byte.of_N (n mod 256)) as [b|] eqn:E.
  - now apply Byte.to_of_N in E.
  - apply Byte.of_N_None_iff in E. pose proof (N.mod_lt n 256). lia.
Qed.

Lemma n2b_b2n b : n2b (b2n b) = b.
Proof.
  unfold n2b, b2n. rewrite N.mod_small by (pose proof (Byte.to_N_bounded b); lia).
  now rewrite Byte.of_to_N.
Qed.

Lemma b2n_inj a b : b2n a = b2n b -> a = b.
Proof. intros H. rewrite <- (n2b_b2n a), <- (n2b_b2n b). now rewrite H. Qed.

Lemma byte_eqb_eq a b : Byte.eqb a b = true <-> a = b.
Proof. split; [apply Byte.byte_dec_bl | apply Byte.byte_dec_lb]. Qed.

Lemma bytes_eqb_eq a b : bytes_eqb a b = true <-> a = b.
Proof.
  revert b; induction a as [|x a IH]; intros [|y b]; cbn [bytes_eqb]; split; intros H;
    try reflexivity; try discriminate.
  - apply andb_true_iff in H as [H1 H2]. apply byte_eqb_eq in H1. apply IH in H2. now subst.
  - inversion H; subst. apply andb_true_iff. split; [now apply byte_eqb_eq | now apply IH].
Qed.

Lemma bytes_eqb_refl a : bytes_eqb a a = true.
Proof. now apply bytes_eqb_eq. Qed.

Lemma bytes_eqb_neq a b : bytes_eqb a b = false <-> a <> b.
Proof.
  split.
  - intros H E. apply bytes_eqb_eq in E. congruence.
  - intros H. destruct (bytes_eqb a b) eqn:E; [|reflexivity]. apply bytes_eqb_eq in E. contradiction.
Qed.

Lemma bytes_eqb_sym a b : bytes_eqb a b = bytes_eqb b a.
Proof.
  destruct (bytes_eqb a b) eqn:E.
  - apply bytes_eqb_eq in E. subst. now rewrite bytes_eqb_refl.
  - symmetry. apply bytes_eqb_neq. apply bytes_eqb_neq in E. congruence.
Qed.

Lemma length_le_enc k n : lenN (le_enc k n) = N.of_nat k.
Proof.
  revert n; induction k as [|k IH]; intros n; cbn [le_enc]; [reflexivity|].
  rewrite lenN_cons, IH. lia.
Qed.

Lemma le_dec_enc k n : le_dec (le_enc k n) = n mod 256 ^ N.of_nat k.
Proof.
  revert n; induction k as [|k IH]; intros n; cbn [le_enc le_dec].
  - now rewrite N.mod_1_r.
  - rewrite b2n_n2b, IH.
    replace (N.of_nat (S k)) with (N.succ (N.of_nat k)) by lia.
    rewrite N.pow_succ_r'.
    pose proof (N.pow_nonzero 256 (N.of_nat k)) as Hp.
    rewrite (N.mod_mul_r n 256 (256 ^ N.of_nat k)) by lia. lia.
Qed.

Lemma le_dec_enc_small k n : n < 256 ^ N.of_nat k -> le_dec (le_enc k n) = n.
Proof. intros H. rewrite le_dec_enc. now apply N.mod_small. Qed.

Lemma le_dec_bound bs : le_dec bs < 256 ^ lenN bs.
Proof.
  induction bs as [|b r IH]; cbn [le_dec].
  - now vm_compute.
  - rewrite lenN_cons. replace (1 + lenN r) with (N.succ (lenN r)) by lia.
    rewrite N.pow_succ_r'. pose proof (b2n_lt b). lia.
Qed.

Lemma le_enc_dec bs : le_enc (length bs) (le_dec bs) = bs.
Proof.
  induction bs as [|b r IH]; cbn [le_dec le_enc length]; [reflexivity|].
  pose proof (b2n_lt b) as Hb. f_equal.
  - rewrite <- (n2b_b2n b) at 2. unfold n2b. f_equal.
    replace (b2n b + 256 * le_dec r) with (b2n b + le_dec r * 256) by lia.
    rewrite N.mod_add by lia. now rewrite N.mod_small by lia.
  - replace (b2n b + 256 * le_dec r) with (b2n b + le_dec r * 256) by lia.
    rewrite N.div_add by lia. rewrite N.div_small by lia. now rewrite N.add_0_l.
Qed.

(* Rolling.fs_get/fs_put/fs_remove, Mem.qs_get/... and Spec.s_get/... are these functions at one
   value type each (the same fixpoints, so the lemmas below apply to them by conversion). *)
Section Assoc.
Context {V : Type}.

Fixpoint assoc_get (m : list (bytes * V)) (k : bytes) : option V :=
  match m with
  | [] => None
  | (n, v) :: r => if bytes_eqb n k then Some v else assoc_get r k
  end.

Fixpoint assoc_put (m : list (bytes * V)) (k : bytes) (v : V) : list (bytes * V) :=
  match m with
  | [] => [(k, v)]
  | (n, v0) :: r => if bytes_eqb n k then (n, v) :: r else (n, v0) :: assoc_put r k v
  end.

Fixpoint assoc_remove (m : list (bytes * V)) (k : bytes) : list (bytes * V) :=
  match m with
  | [] => []
  | (n, v) :: r => if bytes_eqb n k then assoc_remove r k else (n, v) :: assoc_remove r k
  end.

Lemma assoc_get_put_same m k v : assoc_get (assoc_put m k v) k = Some v.
Proof.
  induction m as [|[n v0] r IH]; cbn [assoc_put assoc_get].
  - now rewrite bytes_eqb_refl.
  - destruct (bytes_eqb n k) eqn:E; cbn [assoc_get]; rewrite E; [reflexivity|exact IH].
Qed.

Lemma assoc_get_put_other m k v k' : k <> k' -> assoc_get (assoc_put m k v) k' = assoc_get m k'.
Proof.
  intros Hne. apply bytes_eqb_neq in Hne.
  induction m as [|[n v0] r IH]; cbn [assoc_put assoc_get].
  - now rewrite Hne.
  - destruct (bytes_eqb n k) eqn:E; cbn [assoc_get].
    + apply bytes_eqb_eq in E. subst n. now rewrite Hne.
    + now rewrite IH.
Qed.

Lemma assoc_get_remove_same m k : assoc_get (assoc_remove m k) k = None.
Proof.
  induction m as [|[n v0] r IH]; cbn [assoc_remove assoc_get]; [reflexivity|].
  destruct (bytes_eqb n k) eqn:E; cbn [assoc_get]; [exact IH|]. now rewrite E.
Qed.

Lemma assoc_get_remove_other m k k' : k <> k' -> assoc_get (assoc_remove m k) k' = assoc_get m k'.
Proof.
  intros Hne. apply bytes_eqb_neq in Hne.
  induction m as [|[n v0] r IH]; cbn [assoc_remove assoc_get]; [reflexivity|].
  destruct (bytes_eqb n k) eqn:E; cbn [assoc_get].
  - apply bytes_eqb_eq in E. subst n. now rewrite Hne.
  - now rewrite IH.
Qed.
End Assoc.

Lemma last_opt_app {A} (l : list A) x : last_opt (l ++ [x]) = Some x.
Proof.
  induction l as [|y l IH]; [reflexivity|].
  cbn [app]. destruct (l ++ [x]) eqn:E; [destruct l; discriminate|]. cbn [last_opt]. exact IH.
Qed.

Lemma last_opt_nil_iff {A} (l : list A) : last_opt l = None <-> l = [].
Proof.
  split; [|intros ->; reflexivity].
  induction l as [|y l IH]; [reflexivity|]. cbn [last_opt]. destruct l; [discriminate|]. intros H.
  specialize (IH H). discriminate.
Qed.

Lemma last_opt_cons2 {A} (x y : A) r : last_opt (x :: y :: r) = last_opt (y :: r).
Proof. reflexivity. Qed.

Lemma last_opt_cons_ne {A} (x : A) l : l <> [] -> last_opt (x :: l) = last_opt l.
Proof. destruct l; [congruence|reflexivity]. Qed.

Lemma last_opt_cons {A} (x : A) l :
  last_opt (x :: l) = match last_opt l with Some y => Some y | None => Some x end.
Proof.
  destruct (last_opt l) eqn:E.
  - rewrite last_opt_cons_ne, E; [reflexivity|]. intros ->. discriminate.
  - apply last_opt_nil_iff in E. now subst l.
Qed.

Lemma last_opt_In {A} (l : list A) x : last_opt l = Some x -> In x l.
Proof.
  induction l as [|y l IH]; intros H; [discriminate|].
  rewrite last_opt_cons in H. destruct (last_opt l) as [z|] eqn:E.
  - inversion H; subst. right. now apply IH.
  - inversion H. now left.
Qed.

Lemma isnil_true {A} (l : list A) : isnil l = true <-> l = [].
Proof. destruct l; cbn; split; congruence. Qed.

Lemma filter_all_true {A} (f : A -> bool) l :
  (forall x, In x l -> f x = true) -> filter f l = l.
Proof.
  induction l as [|x l IH]; intros H; cbn [filter]; [reflexivity|].
  rewrite (H x (or_introl eq_refl)). f_equal. apply IH. intros y Hy. apply H. now right.
Qed.

Lemma filter_all_false {A} (f : A -> bool) l :
  (forall x, In x l -> f x = false) -> filter f l = [].
Proof.
  induction l as [|x l IH]; intros H; cbn [filter]; [reflexivity|].
  rewrite (H x (or_introl eq_refl)). apply IH. intros y Hy. apply H. now right.
Qed.

Lemma filter_andb {A} (f g : A -> bool) l :
  filter (fun x => f x && g x) l = filter g (filter f l).
Proof.
  induction l as [|x l IH]; cbn [filter]; [reflexivity|].
  destruct (f x); cbn [andb filter]; [|exact IH].
  destruct (g x); [f_equal|]; exact IH.
Qed.

Lemma app_inv_len {A} (l1 : list A) : forall l1' l2 l2',
  l1 ++ l2 = l1' ++ l2' -> length l1 = length l1' -> l1 = l1' /\ l2 = l2'.
Proof.
  induction l1 as [|x l1 IH]; intros [|y l1'] l2 l2' H Hl; cbn [length] in Hl; try discriminate.
  - split; [reflexivity | exact H].
  - cbn [app] in H. injection H as -> H. destruct (IH _ _ _ H ltac:(lia)) as [-> ->].
    split; reflexivity.
Qed.

Lemma nth_error_split {A} : forall (l : list A) i x,
  nth_error l i = Some x -> l = firstn i l ++ x :: skipn (S i) l /\ length (firstn i l) = i.
Proof.
  induction l as [|y l IH]; intros [|i] x H; cbn [nth_error] in H; try discriminate.
  - inversion H; subst. split; reflexivity.
  - destruct (IH i x H) as [E L]. cbn [firstn skipn app length]. split; [now f_equal|now f_equal].
Qed.

Lemma combine_app {A C} (l1 : list A) : forall (l1' : list C) l2 l2',
  length l1 = length l1' -> combine (l1 ++ l2) (l1' ++ l2') = combine l1 l1' ++ combine l2 l2'.
Proof.
  induction l1 as [|x l1 IH]; intros [|y l1'] l2 l2' H; cbn [length] in H; try discriminate;
    cbn [app combine]; [reflexivity|]. f_equal. apply IH. lia.
Qed.

Lemma map_snd_combine {A C} (l1 : list A) : forall (l2 : list C),
  length l1 = length l2 -> map snd (combine l1 l2) = l2.
Proof.
  induction l1 as [|x l1 IH]; intros [|y l2] H; cbn [length] in H; try discriminate; cbn [combine map snd].
  - reflexivity.
  - f_equal. apply IH. lia.
Qed.

Lemma Forall2_length' {A C} (R : A -> C -> Prop) l1 l2 : Forall2 R l1 l2 -> length l1 = length l2.
Proof. induction 1; cbn [length]; congruence. Qed.
