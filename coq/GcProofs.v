(* GcProofs.v — property C06: WAL files are reclaimed as soon as nothing retained lives in them:
   what the GC loop does, the tracker invariant of the rolling writer, tightness of the file set
   after truncate / delete_queue, and that the directory holds exactly the tracked files. *)
From Coq Require Import Lia ZArith ZifyN ZifyNat ZifyBool.
From MRL Require Import Bytes BytesProofs Params Names NamesProofs Frame Record Mem Rolling Log
                        Hist NoopProofs WriterProofs OpenTerm.

(* the unlink events of a GC pass, most recent first (as in c_ev) *)
Definition unlink_events (dropped : list N) : list event :=
  rev (map (fun f => EvUnlink (filename f)) dropped).

(* the directory with the names of the dropped files removed, oldest first *)
Definition remove_files (fs : fsT) (dropped : list N) : fsT :=
  fold_left (fun fs f => fs_remove fs (filename f)) dropped fs.

(* GC never stops early: what is left is empty only if there was nothing, or is a single file,
   or starts with a referenced file *)
Definition gc_tight (refd : N -> bool) (files files' : list N) : Prop :=
  match files' with
  | [] => files = []
  | [_] => True
  | f :: _ => refd f = true
  end.

(* Whatever the result, what is left is a suffix of the tracker, the dropped files were all
   unreferenced, and a non-empty tracker stays non-empty.  (A failed unlink still drops the file
   from the tracker.)  On success every dropped file was unlinked and nothing else changed. *)
Definition gc_post (refd : N -> bool) (c : ioctx) (files : list N) (c' : ioctx) (files' : list N)
           (r : res unit) : Prop :=
  exists dropped,
    files = dropped ++ files' /\
    Forall (fun f => refd f = false) dropped /\
    (files <> [] -> files' <> []) /\
    (r = Ok tt ->
     gc_tight refd files files' /\
     c_ev c' = unlink_events dropped ++ c_ev c /\
     c_fs c' = remove_files (c_fs c) dropped /\
     c_plan c' = c_plan c /\ c_nreaddir c' = c_nreaddir c /\
     c_nopen c' = c_nopen c /\ c_nread c' = c_nread c).

Lemma gc_loop_spec : forall files c refd c' files' r,
  gc_loop c files refd = (c', files', r) -> gc_post refd c files c' files' r.
Proof.
  induction files as [|f rest IH]; intros c refd c' files' r; cbn [gc_loop].
  - intros H; inversion H; subst. exists []. cbn. repeat split; auto.
  - destruct rest as [|g rest'].
    + intros H; inversion H; subst. exists []. cbn. repeat split; auto.
    + destruct (refd f) eqn:Ef.
      * intros H; inversion H; subst. exists []. cbn. repeat split; auto.
      * set (c1 := ctx_ev (ctx_fs c (fs_remove (c_fs c) (filename f))) (EvUnlink (filename f))).
        assert (Hgo : gc_loop c1 (g :: rest') refd = (c', files', r) ->
                      gc_post refd c (f :: g :: rest') c' files' r).
        { intros H. apply IH in H. destruct H as [dr [Hd [Hf [Hn Hok]]]].
          exists (f :: dr). split; [cbn [app]; now rewrite Hd|].
          split; [constructor; assumption|].
          split; [intros _; apply Hn; discriminate|].
          intros Hr. destruct (Hok Hr) as [Ht [He [Hs Hrest]]].
          split.
          { unfold gc_tight in *. destruct files' as [|a [|b r']]; [discriminate|exact I|exact Ht]. }
          split.
          { rewrite He. unfold unlink_events. cbn [map rev]. now rewrite <- app_assoc. }
          split; [exact Hs|exact Hrest]. }
        assert (Hstop : forall e, (c, g :: rest', Err e) = (c', files', r) ->
                                  gc_post refd c (f :: g :: rest') c' files' r).
        { intros e H; inversion H; subst. exists [f].
          repeat split; try discriminate. constructor; [exact Ef|constructor]. }
        destruct (fs_get (c_fs c) (filename f)) as [[b| |]|];
          [exact Hgo|apply Hstop|exact Hgo|apply Hstop].
Qed.

Theorem gc_loop_ok : forall files c refd c' files',
  gc_loop c files refd = (c', files', Ok tt) ->
  exists dropped,
    files = dropped ++ files' /\
    Forall (fun f => refd f = false) dropped /\
    gc_tight refd files files' /\
    c_ev c' = unlink_events dropped ++ c_ev c /\
    c_fs c' = remove_files (c_fs c) dropped /\
    c_plan c' = c_plan c /\ c_nreaddir c' = c_nreaddir c /\
    c_nopen c' = c_nopen c /\ c_nread c' = c_nread c.
Proof.
  intros files c refd c' files' H.
  destruct (gc_loop_spec _ _ _ _ _ _ H) as [d [Hd [Hf [_ Hok]]]].
  exists d. split; [exact Hd|]. split; [exact Hf|]. exact (Hok eq_refl).
Qed.

Corollary gc_loop_err_suffix files c refd c' files' e :
  gc_loop c files refd = (c', files', Err e) -> exists dropped, files = dropped ++ files'.
Proof. intros H. apply gc_loop_spec in H. destruct H as [d [H _]]. now exists d. Qed.

(* y1 = lo+1, y2 = lo+2, ... *)
Fixpoint chain (lo : N) (l : list N) : Prop :=
  match l with [] => True | y :: r => y = lo + 1 /\ chain y r end.

(* consecutive numbers lo, lo+1, ..., hi; non-empty *)
Definition contiguous (files : list N) : Prop :=
  match files with [] => False | lo :: r => chain lo r end.

(* the run of files ends at the file being written *)
Definition wr_ok (w : rwriter) : Prop :=
  contiguous (w_files w) /\ last_opt (w_files w) = Some (w_file w).

(* the same thing, explicitly *)
Fixpoint iota (lo : N) (n : nat) : list N :=
  match n with O => [] | S k => lo :: iota (lo + 1) k end.

Lemma chain_iota : forall r lo, chain lo r <-> r = iota (lo + 1) (length r).
Proof.
  induction r as [|y r IH]; intros lo; cbn [chain length iota].
  - split; auto.
  - split.
    + intros [Hy Hc]. subst y. f_equal. now apply IH.
    + intros H. injection H as Hy Hr. split; [exact Hy|]. apply IH. now rewrite <- Hy in Hr.
Qed.

Lemma contiguous_iota files :
  contiguous files <-> exists lo n, files = iota lo (S n).
Proof.
  split.
  - destruct files as [|lo r]; [intros []|]. cbn [contiguous]. intros H.
    exists lo, (length r). cbn [iota]. f_equal. now apply chain_iota.
  - intros [lo [n H]]. subst files. cbn [iota contiguous]. apply chain_iota.
    f_equal. clear. generalize (lo + 1). induction n as [|n IH]; intros a; cbn [iota length]; [reflexivity|].
    now rewrite <- IH.
Qed.

Lemma chain_bounds : forall r lo hi,
  chain lo r -> last_opt (lo :: r) = Some hi ->
  lo <= hi /\ forall x, In x (lo :: r) -> lo <= x /\ x <= hi.
Proof.
  induction r as [|y r IH]; intros lo hi Hc Hl.
  - cbn in Hl. injection Hl as Hl. subst hi. split; [lia|].
    intros x [Hx|[]]. subst x. lia.
  - cbn [chain] in Hc. destruct Hc as [Hy Hc]. rewrite last_opt_cons2 in Hl.
    destruct (IH y hi Hc Hl) as [Hle Hin]. split; [lia|].
    intros x [Hx|Hx]; [subst x; lia|]. specialize (Hin x Hx). lia.
Qed.

Lemma chain_length : forall r lo hi,
  chain lo r -> last_opt (lo :: r) = Some hi -> lenN (lo :: r) = hi - lo + 1 /\ lo <= hi.
Proof.
  induction r as [|y r IH]; intros lo hi Hc Hl.
  - cbn in Hl. injection Hl as Hl. subst hi. rewrite lenN_cons, lenN_nil. lia.
  - cbn [chain] in Hc. destruct Hc as [Hy Hc]. rewrite last_opt_cons2 in Hl.
    destruct (IH y hi Hc Hl) as [Hlen Hle]. rewrite lenN_cons, Hlen. lia.
Qed.

Lemma tracker_next_none : forall files cur,
  (forall x, In x files -> x <= cur) -> tracker_next files cur = None.
Proof.
  induction files as [|x r IH]; intros cur H; cbn [tracker_next]; [reflexivity|].
  destruct (N.ltb_spec cur x) as [Hlt|Hge].
  - specialize (H x (or_introl eq_refl)). lia.
  - apply IH. intros y Hy. apply H. now right.
Qed.

Lemma insert_sorted_last : forall r lo hi,
  chain lo r -> last_opt (lo :: r) = Some hi ->
  insert_sorted (hi + 1) (lo :: r) = (lo :: r) ++ [hi + 1].
Proof.
  induction r as [|y r IH]; intros lo hi Hc Hl.
  - cbn in Hl. injection Hl as Hl. subst hi. cbn [insert_sorted app].
    destruct (N.ltb_spec (lo + 1) lo) as [H|_]; [lia|].
    destruct (N.eqb_spec (lo + 1) lo) as [H|_]; [lia|]. reflexivity.
  - destruct (chain_bounds _ _ _ Hc Hl) as [Hle _].
    cbn [chain] in Hc. destruct Hc as [Hy Hc]. rewrite last_opt_cons2 in Hl.
    specialize (IH y hi Hc Hl).
    change (insert_sorted (hi + 1) (lo :: y :: r))
      with (if hi + 1 <? lo then hi + 1 :: lo :: y :: r
            else if hi + 1 =? lo then lo :: y :: r else lo :: insert_sorted (hi + 1) (y :: r)).
    destruct (N.ltb_spec (hi + 1) lo) as [H|_]; [lia|].
    destruct (N.eqb_spec (hi + 1) lo) as [H|_]; [lia|].
    rewrite IH. reflexivity.
Qed.

Lemma chain_snoc : forall r lo hi,
  chain lo r -> last_opt (lo :: r) = Some hi -> chain lo (r ++ [hi + 1]).
Proof.
  induction r as [|y r IH]; intros lo hi Hc Hl.
  - cbn in Hl. injection Hl as Hl. subst hi. cbn. auto.
  - cbn [chain] in Hc. destruct Hc as [Hy Hc]. rewrite last_opt_cons2 in Hl.
    cbn [app chain]. split; [exact Hy|]. now apply IH.
Qed.

Lemma chain_contiguous lo l : chain lo l -> l <> [] -> contiguous l.
Proof. destruct l as [|y r]; [congruence|]. cbn [chain contiguous]. now intros [_ H] _. Qed.

Lemma contiguous_suffix : forall d l,
  contiguous (d ++ l) -> l <> [] -> contiguous l /\ last_opt (d ++ l) = last_opt l.
Proof.
  induction d as [|a d IH]; intros l Hc Hl; cbn [app] in *; [auto|].
  cbn [contiguous] in Hc.
  assert (Hne : d ++ l <> []).
  { destruct d; cbn [app]; [exact Hl|discriminate]. }
  apply chain_contiguous in Hc; [|exact Hne].
  destruct (IH l Hc Hl) as [H1 H2]. split; [exact H1|].
  rewrite last_opt_cons_ne by exact Hne. exact H2.
Qed.

Lemma wr_ok_tracker_next w : wr_ok w -> tracker_next (w_files w) (w_file w) = None.
Proof.
  intros [Hc Hl]. apply tracker_next_none. destruct (w_files w) as [|lo r]; [intros x []|].
  cbn [contiguous] in Hc. destruct (chain_bounds _ _ _ Hc Hl) as [_ H].
  intros x Hx. now apply H.
Qed.

Lemma wr_ok_roll files cur :
  contiguous files -> last_opt files = Some cur ->
  contiguous (insert_sorted (cur + 1) files) /\
  last_opt (insert_sorted (cur + 1) files) = Some (cur + 1).
Proof.
  intros Hc Hl. destruct files as [|lo r]; [destruct Hc|]. cbn [contiguous] in Hc.
  rewrite (insert_sorted_last _ _ _ Hc Hl). split.
  - cbn [app contiguous]. now apply chain_snoc.
  - apply last_opt_app.
Qed.

Lemma wr_ok_same w w' :
  w_files w' = w_files w -> w_file w' = w_file w -> wr_ok w -> wr_ok w'.
Proof. unfold wr_ok. intros -> ->. auto. Qed.

Section GenericRel.
Variable P : params.
Variable W : Type.
Variable wwrite : W -> bytes -> W * res unit.
Variable wrem : W -> N.
Variable R : W -> W -> Prop.
Hypothesis R_refl : forall w, R w w.
Hypothesis R_trans : forall a b c, R a b -> R b c -> R a c.
Hypothesis wwrite_R : forall w d w' r, wwrite w d = (w', r) -> R w w'.

Lemma write_frame_rel w t p w' r :
  write_frame P W wwrite wrem w t p = (w', r) -> R w w'.
Proof.
  unfold write_frame.
  destruct (N.ltb_spec (wrem w) HEADER_LEN) as [Hlt|Hge].
  - destruct (wwrite w (zerosN (wrem w))) as [w1 [[]|e]] eqn:E1.
    + destruct (wwrite w1 (frame_bytes P t p)) as [w2 [[]|e]] eqn:E2;
        intros H; inversion H; subst; clear H;
        apply wwrite_R in E1; apply wwrite_R in E2; eapply R_trans; eassumption.
    + intros H; inversion H; subst. eapply wwrite_R; eassumption.
  - destruct (wwrite w (frame_bytes P t p)) as [w2 [[]|e]] eqn:E2;
      intros H; inversion H; subst; clear H; eapply wwrite_R; eassumption.
Qed.

Lemma write_record_loop_rel fuel : forall w isf payload acc w' r,
  write_record_loop P W wwrite wrem fuel w isf payload acc = (w', r) -> R w w'.
Proof.
  induction fuel as [|fuel IH]; intros w isf payload acc w' r; cbn [write_record_loop].
  - intros H; inversion H; subst. apply R_refl.
  - destruct (write_frame P W wwrite wrem w _ _) as [w1 [k|e]] eqn:E; apply write_frame_rel in E.
    + destruct (isnil (dropN _ payload)).
      * intros H; inversion H; subst. exact E.
      * intros H. apply IH in H. eapply R_trans; eassumption.
    + intros H; inversion H; subst. exact E.
Qed.

(* any reflexive-transitive relation established by every block write holds across
   write_record, whatever its result *)
Theorem write_record_rel w payload w' r :
  write_record P W wwrite wrem w payload = (w', r) -> R w w'.
Proof. unfold write_record. apply write_record_loop_rel. Qed.
End GenericRel.

(* in particular: an invariant of the block writer *)
Theorem write_record_inv P W wwrite wrem (Inv : W -> Prop) :
  (forall w d w' r, wwrite w d = (w', r) -> Inv w -> Inv w') ->
  forall w payload w' r,
    write_record P W wwrite wrem w payload = (w', r) -> Inv w -> Inv w'.
Proof.
  intros Hw w payload w' r H.
  apply (write_record_rel P W wwrite wrem (fun a b => Inv a -> Inv b)) with (1 := fun a h => h)
    (4 := H); [intros a b c H1 H2 Ha; auto|exact Hw].
Qed.

(* A reflexive-transitive relation between the rolling writer before and after, established by
   every block write (whatever its result), every persist and every GC pass, holds across every
   API call.  With R a b := Inv a -> Inv b this carries an invariant. *)
Section StepCarry.
Variable P : params.
Variable R : rwriter -> rwriter -> Prop.
Hypothesis R_refl : forall w, R w w.
Hypothesis R_trans : forall a b c, R a b -> R b c -> R a c.
Hypothesis R_write : forall w d w' r, wr_write P w d = (w', r) -> R w w'.
Hypothesis R_persist : forall w a, R w (wr_persist w a).
Hypothesis R_gc : forall w refd c files r,
  gc_loop (w_ctx w) (w_files w) refd = (c, files, r) ->
  R w (mkWr c files (w_file w) (w_off w) (w_pending w)).

Lemma write_entry_carry st e : R (s_wr st) (s_wr (fst (write_entry P st e))).
Proof.
  unfold write_entry.
  destruct (write_record P rwriter (wr_write P) (wr_rem P) (s_wr st) (entry_ser e)) as [w r] eqn:E.
  exact (write_record_rel P _ _ _ R R_refl R_trans R_write _ _ _ _ E).
Qed.

Lemma persist_carry st a : R (s_wr st) (s_wr (persist st a)).
Proof. apply R_persist. Qed.

Lemma persist_on_policy_carry st tick : R (s_wr st) (s_wr (persist_on_policy st tick)).
Proof.
  unfold persist_on_policy. destruct (s_pol st) as [|a|a]; [apply R_refl| |apply persist_carry].
  destruct tick; [apply persist_carry|apply R_refl].
Qed.

Lemma record_positions_carry names : forall st acc,
  R (s_wr st) (s_wr (fst (record_positions P st names acc))).
Proof.
  induction names as [|nm r IH]; intros st acc; cbn [record_positions]; [apply R_refl|].
  destruct (qs_get (s_qs st) nm) as [q|]; [|apply IH].
  pose proof (write_entry_carry st (EPosition nm (next_position q))) as H.
  destruct (write_entry P st (EPosition nm (next_position q))) as [st1 [k|e]]; [|exact H].
  eapply R_trans; [exact H|apply IH].
Qed.

Lemma record_empty_carry st hint :
  R (s_wr st) (s_wr (fst (record_empty_queues_position P st hint))).
Proof.
  unfold record_empty_queues_position.
  pose proof (record_positions_carry (pick_order hint (empty_names (s_qs st))) st 0) as H.
  destruct (record_positions P st _ 0) as [st1 [n|e]]; [|exact H].
  destruct (L_GC P && (n =? 0)); [exact H|].
  eapply R_trans; [exact H|apply persist_carry].
Qed.

Lemma run_gc_carry st hint : R (s_wr st) (s_wr (fst (run_gc_if_necessary P st hint))).
Proof.
  unfold run_gc_if_necessary. destruct (has_deletable st); [|apply R_refl].
  pose proof (record_empty_carry st hint) as H.
  destruct (record_empty_queues_position P st hint) as [st1 [n|e]]; [|exact H].
  cbv zeta. destruct (gc_loop _ _ _) as [[c files] rr] eqn:G. apply R_gc in G.
  destruct rr as [[]|e]; (eapply R_trans; [exact H|exact G]).
Qed.

(* write_entry, then (on success) a change of the queues, then a GC pass: the common prefix of
   delete_queue and truncate *)
Lemma write_gc_carry st e f hint :
  match write_entry P st e with
  | (st1, Ok _) => R (s_wr st) (s_wr (fst (run_gc_if_necessary P (set_qs st1 (f st1)) hint)))
  | (st1, Err _) => R (s_wr st) (s_wr st1)
  end.
Proof.
  pose proof (write_entry_carry st e) as H.
  destruct (write_entry P st e) as [st1 [k|err]]; [|exact H].
  eapply R_trans; [exact H|]. apply (run_gc_carry (set_qs st1 (f st1)) hint).
Qed.

Theorem step_carry st o tick : R (s_wr st) (s_wr (fst (step P st o tick))).
Proof.
  destruct o as [q|q hint|q pos payloads|q p hint|a]; cbn [step].
  - unfold create_queue. destruct (qs_contains (s_qs st) q); [apply R_refl|].
    pose proof (write_entry_carry st (EPosition q 0)) as H.
    destruct (write_entry P st (EPosition q 0)) as [st1 [k|e]]; [|exact H].
    eapply R_trans; [exact H|apply persist_carry].
  - unfold delete_queue. destruct (qs_get (s_qs st) q) as [m|]; [|apply R_refl].
    pose proof (write_gc_carry st (EDelete q (next_position m)) (fun s => qs_remove (s_qs s) q) hint) as H.
    destruct (write_entry P st _) as [st1 [k|e]]; [|exact H].
    destruct (run_gc_if_necessary P _ hint) as [st3 [k2|e]]; [|exact H].
    eapply R_trans; [exact H|apply persist_carry].
  - destruct (append_records_cases P st q pos payloads tick)
      as [[out [_ Eq]]|(m & position & m' & _ & _ & _ & _ & _ & Eq)]; rewrite Eq; [apply R_refl|].
    pose proof (write_entry_carry st (EAppend q position (number_from position payloads))) as H.
    destruct (write_entry P st _) as [st1 [k|e]]; [|exact H].
    eapply R_trans; [exact H|apply persist_on_policy_carry].
  - unfold truncate. destruct (qs_get (s_qs st) q) as [m|]; [|apply R_refl].
    pose proof (write_gc_carry st (ETruncate q p)
                  (fun s => qs_put (s_qs s) q (fst (truncate_head m p))) hint) as H.
    destruct (write_entry P st _) as [st1 [k|e]]; [|exact H].
    destruct (truncate_head m p) as [m' ev]. cbn [fst] in H.
    destruct (run_gc_if_necessary P _ hint) as [st3 [k2|e]]; [|exact H].
    eapply R_trans; [exact H|apply persist_on_policy_carry].
  - apply persist_carry.
Qed.

Theorem run_carry : forall h st, R (s_wr st) (s_wr (fst (run P st h))).
Proof.
  induction h as [|[o tick] h IH]; intros st; cbn [run]; [apply R_refl|].
  pose proof (step_carry st o tick) as Hs. destruct (step P st o tick) as [st1 out].
  specialize (IH st1). destruct (run P st1 h) as [st2 outs].
  eapply R_trans; eassumption.
Qed.
End StepCarry.

(* One block write is made of a sync (when the file rolls), the opening or the creation of the
   next file, and a buffered write: a preorder on writers that each of these respects is
   respected by wr_write, whatever its result. *)
Section WrWriteCarry.
Variable P : params.
Variable R : rwriter -> rwriter -> Prop.
Hypothesis R_refl : forall w, R w w.
Hypothesis R_trans : forall a b c, R a b -> R b c -> R a c.
Hypothesis R_sync : forall w, R w (wr_persist w true).
Hypothesis R_bw : forall w d, R w (bw_write_all P w d).
Hypothesis R_open : forall w nxt c r,
  tracker_next (w_files w) (w_file w) = Some nxt -> open_file (w_ctx w) nxt = (c, r) ->
  R w (match r with Ok _ => mkWr c (w_files w) nxt 0 [] | Err _ => wr_ctx w c end).
Hypothesis R_create : forall w c r,
  tracker_next (w_files w) (w_file w) = None -> create_file P (w_ctx w) (w_file w + 1) = (c, r) ->
  R w (match r with
       | Ok _ => mkWr c (insert_sorted (w_file w + 1) (w_files w)) (w_file w + 1) 0 []
       | Err _ => wr_ctx w c
       end).

Lemma wr_write_carry w d : R w (fst (wr_write P w d)).
Proof.
  unfold wr_write. destruct d as [|b d'] eqn:Ed; [apply R_refl|]. rewrite <- Ed. clear Ed b d'.
  destruct (FILE_BYTES P <? w_off w + lenN d); [|apply R_bw].
  apply (R_trans _ _ _ (R_sync w)).
  change (sync_dir (sync_data (bw_flush w))) with (wr_persist w true).
  set (w1 := wr_persist w true). clearbody w1.
  destruct (tracker_next (w_files w1) (w_file w1)) as [nxt|] eqn:Et.
  - pose proof (R_open w1 nxt) as H.
    destruct (open_file (w_ctx w1) nxt) as [c [[]|e]]; specialize (H _ _ Et eq_refl); cbn [fst];
      [exact (R_trans _ _ _ H (R_bw _ d))|exact H].
  - pose proof (R_create w1) as H.
    destruct (create_file P (w_ctx w1) (w_file w1 + 1)) as [c [[]|e]]; specialize (H _ _ Et eq_refl);
      cbn [fst]; [exact (R_trans _ _ _ H (R_bw _ d))|exact H].
Qed.
End WrWriteCarry.

Section Rolling.
Variable P : params.

(* w' has the same tracker and current file as w *)
Definition same_tracker (w w' : rwriter) : Prop :=
  w_files w' = w_files w /\ w_file w' = w_file w.

Lemma same_tracker_refl w : same_tracker w w.
Proof. split; reflexivity. Qed.

Lemma flush_buf_tracker w : same_tracker w (flush_buf w).
Proof. unfold flush_buf. destruct (w_pending w); split; reflexivity. Qed.

Lemma presync_tracker w : same_tracker w (sync_dir (sync_data (bw_flush w))).
Proof. exact (flush_buf_tracker w). Qed.

Lemma wr_persist_tracker w a : same_tracker w (wr_persist w a).
Proof. destruct a; exact (flush_buf_tracker w). Qed.

Lemma bw_write_all_tracker w d : same_tracker w (bw_write_all P w d).
Proof.
  unfold bw_write_all, bw_write_all0.
  destruct (lenN d <? BS P - lenN (w_pending w)); [split; reflexivity|].
  set (w1 := if BS P - lenN (w_pending w) <? lenN d then flush_buf w else w).
  assert (H1 : same_tracker w w1).
  { unfold w1. destruct (_ <? _); [apply flush_buf_tracker|apply same_tracker_refl]. }
  destruct H1 as [H1 H2].
  destruct (BS P <=? lenN d); split; cbn [w_files w_file]; assumption.
Qed.

Lemma same_tracker_ok w w' : same_tracker w w' -> wr_ok w -> wr_ok w'.
Proof. intros [H1 H2]. now apply wr_ok_same. Qed.

(* what one block write does to the tracker: the invariant is kept (also on failure) and the
   current file number never decreases *)
Definition wr_step (w w' : rwriter) : Prop :=
  wr_ok w -> wr_ok w' /\ w_file w <= w_file w'.

Lemma wr_step_refl w : wr_step w w.
Proof. intros H. split; [exact H|lia]. Qed.

Lemma wr_step_trans a b c : wr_step a b -> wr_step b c -> wr_step a c.
Proof.
  unfold wr_step. intros H1 H2 Ha. destruct (H1 Ha) as [Hb Hab].
  destruct (H2 Hb) as [Hc Hbc]. split; [exact Hc|lia].
Qed.

Lemma same_tracker_step w w' : same_tracker w w' -> wr_step w w'.
Proof.
  intros Hs Hok. split; [eapply same_tracker_ok; eassumption|].
  destruct Hs as [_ Hs]. rewrite Hs. lia.
Qed.

Lemma wr_write_step w d w' r : wr_write P w d = (w', r) -> wr_step w w'.
Proof.
  intros H.
  enough (C : wr_step w (fst (wr_write P w d))) by now rewrite H in C.
  apply (wr_write_carry P wr_step wr_step_refl wr_step_trans).
  - intros w0. apply same_tracker_step, wr_persist_tracker.
  - intros w0 d0. apply same_tracker_step, bw_write_all_tracker.
  - (* under the invariant the next file is never tracked already *)
    intros w0 nxt c r0 Et _ Hok. rewrite (wr_ok_tracker_next _ Hok) in Et. discriminate.
  - intros w0 c r0 _ _ [Hc Hl]. unfold wr_ok. destruct r0 as [[]|e]; cbn [wr_ctx w_files w_file].
    + split; [now apply wr_ok_roll|lia].
    + split; [now split|lia].
Qed.

Theorem wr_write_ok w d w' r : wr_write P w d = (w', r) -> wr_ok w -> wr_ok w'.
Proof. intros H Hok. now destruct (wr_write_step _ _ _ _ H Hok). Qed.

Theorem wr_write_file_mono w d w' r :
  wr_write P w d = (w', r) -> wr_ok w -> w_file w <= w_file w'.
Proof. intros H Hok. now destruct (wr_write_step _ _ _ _ H Hok). Qed.

(* on a failed block write the tracker is exactly as it was: a file that could not be created is
   untracked again *)
Theorem wr_write_err_tracker w d w' e :
  wr_write P w d = (w', Err e) -> wr_ok w -> same_tracker w w'.
Proof.
  unfold wr_write. destruct d as [|b d'] eqn:Ed; [discriminate|].
  rewrite <- Ed. clear Ed b d'.
  set (w1 := sync_dir (sync_data (bw_flush w))).
  pose proof (presync_tracker w) as Hw1. fold w1 in Hw1. clearbody w1.
  destruct (FILE_BYTES P <? w_off w + lenN d); [|discriminate].
  intros H Hok.
  assert (Hok1 : wr_ok w1) by (eapply same_tracker_ok; eassumption).
  rewrite (wr_ok_tracker_next _ Hok1) in H.
  destruct (create_file P (w_ctx w1) (w_file w1 + 1)) as [c [[]|e']]; inversion H; subst.
  destruct Hw1 as [H1 H2]. split; cbn [w_files w_file]; assumption.
Qed.

Theorem wr_persist_ok w a : wr_ok w -> wr_ok (wr_persist w a).
Proof. apply same_tracker_ok. apply wr_persist_tracker. Qed.

Lemma write_record_wr_step w payload w' r :
  write_record P rwriter (wr_write P) (wr_rem P) w payload = (w', r) -> wr_step w w'.
Proof.
  apply (write_record_rel P rwriter (wr_write P) (wr_rem P) wr_step
           wr_step_refl wr_step_trans wr_write_step).
Qed.

Theorem write_record_wr_ok w payload w' r :
  write_record P rwriter (wr_write P) (wr_rem P) w payload = (w', r) -> wr_ok w -> wr_ok w'.
Proof. intros H Hok. now destruct (write_record_wr_step _ _ _ _ H Hok). Qed.

(* GC keeps the invariant, whatever its result and whatever `refd` is: it always leaves at
   least one file, and what it leaves is a suffix of the tracker *)
Theorem gc_loop_wr_ok w refd c files r :
  gc_loop (w_ctx w) (w_files w) refd = (c, files, r) ->
  wr_ok w -> wr_ok (mkWr c files (w_file w) (w_off w) (w_pending w)).
Proof.
  intros H [Hc Hl]. apply gc_loop_spec in H. destruct H as [d [Hd [_ [Hne _]]]].
  assert (Hn : w_files w <> []) by (destruct (w_files w); [destruct Hc|discriminate]).
  specialize (Hne Hn). rewrite Hd in Hc, Hl.
  destruct (contiguous_suffix _ _ Hc Hne) as [H1 H2].
  unfold wr_ok. cbn [w_files w_file]. split; [exact H1|congruence].
Qed.

Lemma wr_persist_step w a : wr_step w (wr_persist w a).
Proof. apply same_tracker_step, wr_persist_tracker. Qed.

Lemma gc_loop_wr_step w refd c files r :
  gc_loop (w_ctx w) (w_files w) refd = (c, files, r) ->
  wr_step w (mkWr c files (w_file w) (w_off w) (w_pending w)).
Proof. intros G Hok. split; [exact (gc_loop_wr_ok _ _ _ _ _ G Hok)|cbn [w_file]; lia]. Qed.

Definition st_step (st st' : state) : Prop := wr_step (s_wr st) (s_wr st').

Lemma write_entry_step st e st' r : write_entry P st e = (st', r) -> st_step st st'.
Proof.
  intros H. pose proof (write_entry_carry P wr_step wr_step_refl wr_step_trans wr_write_step st e) as C.
  now rewrite H in C.
Qed.

Lemma write_entry_qs st e st' r : write_entry P st e = (st', r) -> s_qs st' = s_qs st.
Proof. intros H. destruct (write_entry_frame P st e) as [w Hw]. rewrite H in Hw. cbn [fst] in Hw. now subst st'. Qed.

Lemma persist_step st a : st_step st (persist st a).
Proof. apply wr_persist_step. Qed.

Lemma persist_on_policy_tracker st tick :
  same_tracker (s_wr st) (s_wr (persist_on_policy st tick)) /\
  s_qs (persist_on_policy st tick) = s_qs st.
Proof.
  split.
  - apply (persist_on_policy_carry same_tracker same_tracker_refl (fun w a => wr_persist_tracker w a)).
  - apply persist_on_policy_qs.
Qed.

Lemma persist_on_policy_step st tick : st_step st (persist_on_policy st tick).
Proof. apply same_tracker_step. apply persist_on_policy_tracker. Qed.

Lemma record_empty_step st hint st' r :
  record_empty_queues_position P st hint = (st', r) -> st_step st st' /\ s_qs st' = s_qs st.
Proof.
  intros H.
  pose proof (record_empty_carry P wr_step wr_step_refl wr_step_trans wr_write_step wr_persist_step
                st hint) as C.
  rewrite H in C. split; [exact C|].
  clear C. unfold record_empty_queues_position in H.
  destruct (record_positions_frame P (pick_order hint (empty_names (s_qs st))) st 0) as [w Hw].
  destruct (record_positions P st _ 0) as [st1 [k|e]]; cbn [fst] in Hw; subst st1.
  - destruct (L_GC P && (k =? 0)); inversion H; reflexivity.
  - inversion H; reflexivity.
Qed.

Lemma run_gc_step st hint st' r :
  run_gc_if_necessary P st hint = (st', r) ->
  wr_ok (s_wr st) ->
  wr_ok (s_wr st') /\ w_file (s_wr st) <= w_file (s_wr st') /\ s_qs st' = s_qs st.
Proof.
  intros H Hok.
  pose proof (run_gc_carry P wr_step wr_step_refl wr_step_trans wr_write_step wr_persist_step
                gc_loop_wr_step st hint Hok) as [C1 C2].
  destruct (run_gc_frame P st hint) as [w Hw].
  rewrite H in C1, C2, Hw. cbn [fst] in *. subst st'.
  split; [exact C1|split; [exact C2|reflexivity]].
Qed.

(* both at once: the invariant is kept by every call, and the file being written only moves
   forward *)
Lemma step_wr_step st o tick : st_step st (fst (step P st o tick)).
Proof.
  exact (step_carry P wr_step wr_step_refl wr_step_trans wr_write_step wr_persist_step
           gc_loop_wr_step st o tick).
Qed.

Theorem step_wr_ok st o tick : wr_ok (s_wr st) -> wr_ok (s_wr (fst (step P st o tick))).
Proof. intros Hok. now destruct (step_wr_step st o tick Hok). Qed.

Theorem step_file_mono st o tick :
  wr_ok (s_wr st) -> w_file (s_wr st) <= w_file (s_wr (fst (step P st o tick))).
Proof. intros Hok. now destruct (step_wr_step st o tick Hok). Qed.
End Rolling.

Section Tight.
Variable P : params.

(* the oldest tracked file is the one being written, or is referenced by a retained record, or
   is not older than g *)
Definition tight_from (g : N) (st : state) : Prop :=
  exists lo, hd_error (w_files (s_wr st)) = Some lo /\
    (lo = w_file (s_wr st) \/ qs_ref lo (s_qs st) = true \/ g <= lo).

Lemma tight_from_mono g1 g2 st : g1 <= g2 -> tight_from g2 st -> tight_from g1 st.
Proof.
  intros Hg [lo [Hh Ht]]. exists lo. split; [exact Hh|].
  destruct Ht as [Ht|[Ht|Ht]]; [now left|now right; left|right; right; lia].
Qed.

Lemma tight_from_same g st st' :
  same_tracker (s_wr st) (s_wr st') -> s_qs st' = s_qs st -> tight_from g st -> tight_from g st'.
Proof.
  intros [H1 H2] H3 [lo [Hh Ht]]. exists lo. rewrite H1, H2, H3. split; assumption.
Qed.

Lemma referenced_cases st guard f :
  referenced st guard f = true ->
  f = w_file (s_wr st) \/ qs_ref f (s_qs st) = true \/ f = guard.
Proof.
  unfold referenced. intros H.
  apply orb_true_iff in H. destruct H as [H|H]; [|now right; left].
  apply orb_true_iff in H. destruct H as [H|H].
  - right; right. now apply N.eqb_eq.
  - left. now apply N.eqb_eq.
Qed.

(* a successful GC pass leaves a tight file set: relative to the file the writer was in when
   the pass started *)
Lemma run_gc_tight st hint st' n :
  run_gc_if_necessary P st hint = (st', Ok n) -> wr_ok (s_wr st) ->
  tight_from (w_file (s_wr st)) st'.
Proof.
  unfold run_gc_if_necessary. destruct (has_deletable st) eqn:Hdel.
  - destruct (record_empty_queues_position P st hint) as [st1 [n0|e]] eqn:E; [|discriminate].
    apply record_empty_step in E. destruct E as [E1 E2].
    destruct (gc_loop _ _ _) as [[c files] [[]|e]] eqn:G; [|discriminate].
    intros H Hok. inversion H; subst; clear H.
    destruct (E1 Hok) as [Hok1 Hle].
    pose proof (gc_loop_wr_ok _ _ _ _ _ G Hok1) as [Hc Hl]. cbn [w_files w_file] in Hc, Hl.
    apply gc_loop_ok in G. destruct G as [dr [_ [_ [Ht _]]]].
    unfold tight_from. cbn [set_wr s_wr s_qs w_files w_file].
    destruct files as [|a [|b r]].
    + destruct Hc.
    + exists a. split; [reflexivity|]. left. cbn in Hl. congruence.
    + exists a. split; [reflexivity|]. cbn [gc_tight] in Ht.
      apply referenced_cases in Ht. destruct Ht as [Ht|[Ht|Ht]];
        [now left|now right; left|right; right; lia].
  - intros H Hok. inversion H; subst; clear H. destruct Hok as [Hc Hl].
    unfold has_deletable in Hdel. unfold tight_from.
    destruct (w_files (s_wr st')) as [|a [|b r]].
    + destruct Hc.
    + exists a. split; [reflexivity|]. left. cbn in Hl. congruence.
    + exists a. split; [reflexivity|]. apply negb_false_iff in Hdel.
      apply referenced_cases in Hdel. destruct Hdel as [Ht|[Ht|Ht]];
        [now left|now right; left|right; right; lia].
Qed.

Theorem truncate_tight st q p hint tick st' ev n :
  wr_ok (s_wr st) -> truncate P st q p hint tick = (st', OutTruncate ev n) ->
  tight_from (w_file (s_wr st)) st'.
Proof.
  intros Hok. unfold truncate. destruct (qs_get (s_qs st) q) as [m|]; [|discriminate].
  destruct (write_entry P st _) as [st1 [k|e]] eqn:E; [|discriminate].
  apply write_entry_step in E. destruct (E Hok) as [Hok1 Hle].
  destruct (truncate_head m p) as [m' ev'].
  destruct (run_gc_if_necessary P _ hint) as [st3 [k2|e]] eqn:G; [|discriminate].
  intros H; inversion H; subst; clear H.
  apply run_gc_tight in G; [|exact Hok1]. cbn [set_qs s_wr] in G.
  eapply tight_from_mono; [exact Hle|].
  eapply tight_from_same; [| |exact G]; apply persist_on_policy_tracker.
Qed.

Theorem delete_queue_tight st q hint st' n :
  wr_ok (s_wr st) -> delete_queue P st q hint = (st', OutDelete n) ->
  tight_from (w_file (s_wr st)) st'.
Proof.
  intros Hok. unfold delete_queue. destruct (qs_get (s_qs st) q) as [m|]; [|discriminate].
  destruct (write_entry P st _) as [st1 [k|e]] eqn:E; [|discriminate].
  apply write_entry_step in E. destruct (E Hok) as [Hok1 Hle].
  destruct (run_gc_if_necessary P _ hint) as [st3 [k2|e]] eqn:G; [|discriminate].
  intros H; inversion H; subst; clear H.
  apply run_gc_tight in G; [|exact Hok1]. cbn [set_qs s_wr] in G.
  eapply tight_from_mono; [exact Hle|].
  eapply tight_from_same; [| |exact G]; [apply wr_persist_tracker|reflexivity].
Qed.

(* C06: after a successful truncate / delete_queue no tracked file is older than both the oldest
   file that a retained record still references and the file that was being written when the
   call began *)
Theorem step_gc_tight st o tick st' out :
  wr_ok (s_wr st) -> step P st o tick = (st', out) ->
  ((exists q p h ev n, o = OTruncate q p h /\ out = OutTruncate ev n) \/
   (exists q h n, o = ODelete q h /\ out = OutDelete n)) ->
  exists lo, hd_error (w_files (s_wr st')) = Some lo /\
    (lo = w_file (s_wr st') \/ qs_ref lo (s_qs st') = true \/ w_file (s_wr st) <= lo).
Proof.
  intros Hok Hs [[q [p [h [ev [n [-> ->]]]]]]|[q [h [n [-> ->]]]]]; cbn [step] in Hs.
  - eapply truncate_tight; eassumption.
  - eapply delete_queue_tight; eassumption.
Qed.

(* disk usage: by definition the number of tracked files times the file size; with the
   invariant, the span from the oldest file to the one being written *)
Theorem disk_used_files st : log_disk_used P st = lenN (w_files (s_wr st)) * FILE_BYTES P.
Proof. reflexivity. Qed.

Theorem disk_used_span st lo :
  wr_ok (s_wr st) -> hd_error (w_files (s_wr st)) = Some lo ->
  lo <= w_file (s_wr st) /\
  log_disk_used P st = (w_file (s_wr st) - lo + 1) * FILE_BYTES P.
Proof.
  intros [Hc Hl] Hh. unfold log_disk_used.
  destruct (w_files (s_wr st)) as [|a r]; [discriminate|]. cbn in Hh. injection Hh as ->.
  cbn [contiguous] in Hc. destruct (chain_length _ _ _ Hc Hl) as [H1 H2].
  split; [exact H2|]. now rewrite H1.
Qed.

(* the two together, for the state after a successful truncate / delete_queue *)
Corollary step_gc_disk_used st o tick st' out :
  wr_ok (s_wr st) -> step P st o tick = (st', out) ->
  ((exists q p h ev n, o = OTruncate q p h /\ out = OutTruncate ev n) \/
   (exists q h n, o = ODelete q h /\ out = OutDelete n)) ->
  exists lo, hd_error (w_files (s_wr st')) = Some lo /\ lo <= w_file (s_wr st') /\
    log_disk_used P st' = (w_file (s_wr st') - lo + 1) * FILE_BYTES P /\
    (lo = w_file (s_wr st') \/ qs_ref lo (s_qs st') = true \/ w_file (s_wr st) <= lo).
Proof.
  intros Hok Hs Ho. destruct (step_gc_tight _ _ _ _ _ Hok Hs Ho) as [lo [Hh Ht]].
  exists lo. pose proof (step_wr_ok P st o tick Hok) as Hok'. rewrite Hs in Hok'. cbn [fst] in Hok'.
  destruct (disk_used_span _ _ Hok' Hh) as [H1 H2]. repeat split; assumption.
Qed.
End Tight.

Section StepInv.
Variable P : params.
Variable Inv : rwriter -> Prop.
Hypothesis Inv_write : forall w d w' r, wr_write P w d = (w', r) -> Inv w -> Inv w'.
Hypothesis Inv_persist : forall w a, Inv w -> Inv (wr_persist w a).
Hypothesis Inv_gc : forall w refd c files r,
  gc_loop (w_ctx w) (w_files w) refd = (c, files, r) -> Inv w ->
  Inv (mkWr c files (w_file w) (w_off w) (w_pending w)).

(* instances of StepCarry for the relation "Inv before implies Inv after" *)
Let keeps (a b : rwriter) : Prop := Inv a -> Inv b.
Let keeps_refl : forall w, keeps w w := fun _ h => h.
Let keeps_trans : forall a b c, keeps a b -> keeps b c -> keeps a c := fun _ _ _ f g h => g (f h).

Lemma write_entry_inv st e st' r : write_entry P st e = (st', r) -> Inv (s_wr st) -> Inv (s_wr st').
Proof.
  intros H. pose proof (write_entry_carry P keeps keeps_refl keeps_trans Inv_write st e) as C.
  now rewrite H in C.
Qed.

Lemma record_positions_inv names : forall st acc st' r,
  record_positions P st names acc = (st', r) -> Inv (s_wr st) -> Inv (s_wr st').
Proof.
  intros st acc st' r H.
  pose proof (record_positions_carry P keeps keeps_refl keeps_trans Inv_write names st acc) as C.
  now rewrite H in C.
Qed.

Lemma run_gc_inv st hint st' r :
  run_gc_if_necessary P st hint = (st', r) -> Inv (s_wr st) -> Inv (s_wr st').
Proof.
  intros H.
  pose proof (run_gc_carry P keeps keeps_refl keeps_trans Inv_write Inv_persist Inv_gc st hint) as C.
  now rewrite H in C.
Qed.

Theorem step_inv st o tick : Inv (s_wr st) -> Inv (s_wr (fst (step P st o tick))).
Proof. exact (step_carry P keeps keeps_refl keeps_trans Inv_write Inv_persist Inv_gc st o tick). Qed.
End StepInv.

Lemma fs_get_put_same fs k e : fs_get (fs_put fs k e) k = Some e.
Proof. exact (assoc_get_put_same fs k e). Qed.

Lemma fs_get_put_other fs k e k' : k <> k' -> fs_get (fs_put fs k e) k' = fs_get fs k'.
Proof. exact (assoc_get_put_other fs k e k'). Qed.

Lemma fs_get_remove_same fs k : fs_get (fs_remove fs k) k = None.
Proof. exact (assoc_get_remove_same fs k). Qed.

Lemma fs_get_remove_other fs k k' : k <> k' -> fs_get (fs_remove fs k) k' = fs_get fs k'.
Proof. exact (assoc_get_remove_other fs k k'). Qed.

Lemma chain_lb : forall r lo x, chain lo r -> In x r -> lo < x.
Proof.
  induction r as [|y r IH]; intros lo x Hc Hx; [destruct Hx|].
  cbn [chain] in Hc. destruct Hc as [Hy Hc]. destruct Hx as [Hx|Hx]; [lia|].
  specialize (IH y x Hc Hx). lia.
Qed.

(* the regular files named wal-<n> (n a u64) are exactly the tracked files *)
Definition dir_of (fs : fsT) (files : list N) : Prop :=
  forall n, n <= U64_MAX ->
    ((exists b, fs_get fs (filename n) = Some (FFile b)) <-> In n files).

Definition dir_ok (w : rwriter) : Prop := dir_of (c_fs (w_ctx w)) (w_files w).

Lemma dir_of_put fs files files' n b :
  dir_of fs files -> n <= U64_MAX ->
  (forall x, In x files' <-> x = n \/ In x files) ->
  dir_of (fs_put fs (filename n) (FFile b)) files'.
Proof.
  intros Hd Hn Hin m Hm. rewrite Hin. destruct (N.eq_dec m n) as [->|Hne].
  - rewrite fs_get_put_same. split; [now left|]. intros _. now exists b.
  - rewrite fs_get_put_other.
    + rewrite (Hd m Hm). intuition.
    + intros E. apply filename_inj in E; [congruence|assumption|assumption].
Qed.

Lemma dir_of_put_in fs files n b :
  dir_of fs files -> n <= U64_MAX -> In n files ->
  dir_of (fs_put fs (filename n) (FFile b)) files.
Proof.
  intros Hd Hn Hin. apply dir_of_put with (files := files); [exact Hd|exact Hn|].
  intros x. split; [now right|]. intros [->|H]; assumption.
Qed.

Lemma dir_of_remove fs files files' n :
  dir_of fs files -> n <= U64_MAX ->
  (forall x, In x files' <-> x <> n /\ In x files) ->
  dir_of (fs_remove fs (filename n)) files'.
Proof.
  intros Hd Hn Hin m Hm. rewrite Hin. destruct (N.eq_dec m n) as [->|Hne].
  - rewrite fs_get_remove_same. split; [intros [b Hb]; discriminate|intros [H _]; congruence].
  - rewrite fs_get_remove_other.
    + rewrite (Hd m Hm). intuition.
    + intros E. apply filename_inj in E; [congruence|assumption|assumption].
Qed.

Section Dir.
Variable P : params.

Definition cur_in (w : rwriter) : Prop := In (w_file w) (w_files w).

Lemma wr_ok_cur_in w : wr_ok w -> cur_in w.
Proof. intros [_ Hl]. now apply last_opt_In. Qed.

Lemma flush_buf_dir w :
  cur_in w -> w_file w <= U64_MAX -> dir_ok w -> dir_ok (flush_buf w).
Proof.
  intros Hin Hle Hd. unfold flush_buf. destruct (w_pending w); [exact Hd|].
  unfold dir_ok, os_write. cbn [w_ctx w_files ctx_ev ctx_fs c_fs].
  now apply dir_of_put_in.
Qed.

(* flushing aside, a persist only appends events: directory and tracker are those of flush_buf *)
Lemma wr_persist_dir w a :
  cur_in w -> w_file w <= U64_MAX -> dir_ok w -> dir_ok (wr_persist w a).
Proof. destruct a; exact (flush_buf_dir w). Qed.

Lemma bw_write_all_dir w d :
  cur_in w -> w_file w <= U64_MAX -> dir_ok w -> dir_ok (bw_write_all P w d).
Proof.
  intros Hin Hle Hd. unfold bw_write_all, bw_write_all0.
  destruct (lenN d <? BS P - lenN (w_pending w)); [exact Hd|].
  set (w1 := if BS P - lenN (w_pending w) <? lenN d then flush_buf w else w).
  assert (Hd1 : dir_ok w1).
  { unfold w1. destruct (_ <? _); [now apply flush_buf_dir|exact Hd]. }
  assert (Ht : same_tracker w w1).
  { unfold w1. destruct (_ <? _); [apply flush_buf_tracker|apply same_tracker_refl]. }
  clearbody w1. destruct Ht as [H1 H2].
  destruct (BS P <=? lenN d).
  - unfold dir_ok, os_write in *. cbn [w_ctx w_files ctx_ev ctx_fs c_fs].
    apply dir_of_put_in; [exact Hd1|congruence|]. unfold cur_in in Hin. congruence.
  - exact Hd1.
Qed.

Lemma create_file_dir c n c' files :
  create_file P c n = (c', Ok tt) -> n <= U64_MAX -> dir_of (c_fs c) files ->
  dir_of (c_fs c') (insert_sorted n files).
Proof.
  unfold create_file. destruct (fs_get (c_fs c) (filename n)); [discriminate|].
  intros H Hn Hd. inversion H; subst; clear H. cbn [ctx_ev ctx_fs c_fs].
  apply dir_of_put with (files := insert_sorted n files); [|exact Hn|].
  - apply dir_of_put with (files := files); [exact Hd|exact Hn|apply insert_sorted_In].
  - intros x. rewrite insert_sorted_In. intuition.
Qed.

Lemma create_file_err_fs c n c' e : create_file P c n = (c', Err e) -> c' = c.
Proof.
  unfold create_file. destruct (fs_get (c_fs c) (filename n)); intros H; inversion H; reflexivity.
Qed.

(* the invariant carried through the API: the tracker is a contiguous run ending at the current
   file and, as long as file numbers fit in a u64, the directory agrees with the tracker *)
Definition wd_ok (w : rwriter) : Prop := wr_ok w /\ (w_file w <= U64_MAX -> dir_ok w).

Lemma wr_persist_wd_ok w a : wd_ok w -> wd_ok (wr_persist w a).
Proof.
  intros [Hok Hdir]. split; [now apply wr_persist_ok|].
  destruct (wr_persist_tracker w a) as [_ H2]. rewrite H2. intros Hle.
  apply wr_persist_dir; [now apply wr_ok_cur_in|exact Hle|auto].
Qed.

Lemma bw_write_all_wd_ok w d : wd_ok w -> wd_ok (bw_write_all P w d).
Proof.
  intros [Hok Hdir]. pose proof (bw_write_all_tracker P w d) as Ht.
  split; [exact (same_tracker_ok _ _ Ht Hok)|].
  destruct Ht as [_ H2]. rewrite H2. intros Hle.
  apply bw_write_all_dir; [now apply wr_ok_cur_in|exact Hle|auto].
Qed.

Lemma wr_write_wd_ok w d w' r : wr_write P w d = (w', r) -> wd_ok w -> wd_ok w'.
Proof.
  intros H.
  enough (C : wd_ok w -> wd_ok (fst (wr_write P w d))) by now rewrite H in C.
  apply (wr_write_carry P (fun a b => wd_ok a -> wd_ok b)); try (intros; auto; fail).
  - intros w0. apply wr_persist_wd_ok.
  - intros w0 d0. apply bw_write_all_wd_ok.
  - intros w0 nxt c r0 Et _ [Hok _]. rewrite (wr_ok_tracker_next _ Hok) in Et. discriminate.
  - intros w0 c r0 _ Ec [Hok Hdir]. destruct r0 as [[]|e].
    + (* the new file enters the tracker and the directory together *)
      destruct Hok as [Hc Hl]. split; [now apply wr_ok_roll|].
      cbn [w_file]. intros Hle. unfold dir_ok. cbn [w_ctx w_files].
      eapply create_file_dir; [exact Ec|exact Hle|]. apply Hdir. lia.
    + apply create_file_err_fs in Ec. subst c. exact (conj Hok Hdir).
Qed.

(* under dir_of every tracked file is a regular file, so the loop never fails and removes from
   the directory exactly what it removes from the tracker *)
Lemma gc_loop_dir : forall files c refd c' files' r,
  gc_loop c files refd = (c', files', r) ->
  contiguous files -> (forall x, In x files -> x <= U64_MAX) ->
  dir_of (c_fs c) files -> dir_of (c_fs c') files' /\ r = Ok tt.
Proof.
  induction files as [|f rest IH]; intros c refd c' files' r; cbn [gc_loop].
  - intros H; inversion H; subst. auto.
  - destruct rest as [|g rest'].
    + intros H; inversion H; subst. auto.
    + destruct (refd f).
      * intros H; inversion H; subst. auto.
      * intros H Hc Hb Hd.
        assert (Hf : f <= U64_MAX) by (apply Hb; now left).
        destruct (proj2 (Hd f Hf) (or_introl eq_refl)) as [b Hb'].
        rewrite Hb' in H.
        apply IH in H; [exact H| | |].
        -- cbn [contiguous chain] in *. tauto.
        -- intros x Hx. apply Hb. now right.
        -- cbn [ctx_ev ctx_fs c_fs]. apply dir_of_remove with (files := f :: g :: rest');
             [exact Hd|exact Hf|].
           intros x. cbn [contiguous] in Hc. split.
           ++ intros Hx. split; [|now right].
              pose proof (chain_lb _ _ _ Hc Hx). lia.
           ++ intros [Hne [Hx|Hx]]; [congruence|exact Hx].
Qed.

Lemma gc_loop_wd_ok w refd c files r :
  gc_loop (w_ctx w) (w_files w) refd = (c, files, r) -> wd_ok w ->
  wd_ok (mkWr c files (w_file w) (w_off w) (w_pending w)).
Proof.
  intros H [Hok Hdir]. split; [eapply gc_loop_wr_ok; eassumption|].
  cbn [w_file]. intros Hle. unfold dir_ok. cbn [w_ctx w_files].
  destruct Hok as [Hc Hl].
  eapply gc_loop_dir; [exact H|exact Hc| |now apply Hdir].
  intros x Hx. destruct (w_files w) as [|lo rr]; [destruct Hx|].
  cbn [contiguous] in Hc. destruct (chain_bounds _ _ _ Hc Hl) as [_ Hbd].
  specialize (Hbd x Hx). lia.
Qed.

Theorem step_wd_ok st o tick : wd_ok (s_wr st) -> wd_ok (s_wr (fst (step P st o tick))).
Proof.
  apply (step_inv P wd_ok wr_write_wd_ok wr_persist_wd_ok gc_loop_wd_ok).
Qed.

(* the directory agrees with the tracker after every call, as long as the number of the file
   being written still fits in a u64 *)
Theorem step_dir_ok st o tick :
  wr_ok (s_wr st) -> dir_ok (s_wr st) ->
  w_file (s_wr (fst (step P st o tick))) <= U64_MAX ->
  dir_ok (s_wr (fst (step P st o tick))).
Proof.
  intros Hok Hd Hle.
  destruct (step_wd_ok st o tick (conj Hok (fun _ => Hd))) as [_ H]. now apply H.
Qed.

(* consequently GC never fails with an I/O error in such a state *)
Theorem gc_loop_no_err w refd c files r :
  gc_loop (w_ctx w) (w_files w) refd = (c, files, r) ->
  wr_ok w -> dir_ok w -> w_file w <= U64_MAX -> r = Ok tt.
Proof.
  intros H [Hc Hl] Hd Hle.
  eapply gc_loop_dir; [exact H|exact Hc| |exact Hd].
  intros x Hx. destruct (w_files w) as [|lo rr]; [destruct Hx|].
  cbn [contiguous] in Hc. destruct (chain_bounds _ _ _ Hc Hl) as [_ Hbd].
  specialize (Hbd x Hx). lia.
Qed.
End Dir.

From Coq Require Import Sorted.

(* every name occurs once in the directory *)
Definition nodup_keys (fs : fsT) : Prop := NoDup (map fst fs).

Lemma In_keys_put fs k e k' :
  In k' (map fst (fs_put fs k e)) <-> k' = k \/ In k' (map fst fs).
Proof.
  induction fs as [|[n0 e0] r IH]; cbn [fs_put map fst In].
  - intuition.
  - destruct (bytes_eqb n0 k) eqn:E; cbn [map fst In].
    + apply bytes_eqb_eq in E. subst n0. intuition.
    + rewrite IH. intuition.
Qed.

Lemma nodup_keys_put fs k e : nodup_keys fs -> nodup_keys (fs_put fs k e).
Proof.
  unfold nodup_keys. induction fs as [|[n0 e0] r IH]; cbn [fs_put map fst]; intros Hn.
  - constructor; [intros []|constructor].
  - inversion Hn as [|x l Hx Hr]; subst.
    destruct (bytes_eqb n0 k) eqn:E; cbn [map fst].
    + now constructor.
    + constructor; [|now apply IH].
      rewrite In_keys_put. intros [H|H]; [|contradiction].
      subst n0. rewrite bytes_eqb_refl in E. discriminate.
Qed.

Lemma In_keys_remove fs k k' : In k' (map fst (fs_remove fs k)) -> In k' (map fst fs).
Proof.
  induction fs as [|[n0 e0] r IH]; cbn [fs_remove map fst In]; [auto|].
  destruct (bytes_eqb n0 k); cbn [map fst In]; intuition.
Qed.

Lemma nodup_keys_remove fs k : nodup_keys fs -> nodup_keys (fs_remove fs k).
Proof.
  unfold nodup_keys. induction fs as [|[n0 e0] r IH]; cbn [fs_remove map fst]; intros Hn; [exact Hn|].
  inversion Hn as [|x l Hx Hr]; subst.
  destruct (bytes_eqb n0 k); cbn [map fst]; [now apply IH|].
  constructor; [|now apply IH]. intros H. apply In_keys_remove in H. contradiction.
Qed.

Lemma fs_get_In fs k e : nodup_keys fs -> (fs_get fs k = Some e <-> In (k, e) fs).
Proof.
  unfold nodup_keys. induction fs as [|[n0 e0] r IH]; cbn [fs_get map fst In]; intros Hn.
  - split; [discriminate|intros []].
  - inversion Hn as [|x l Hx Hr]; subst. destruct (bytes_eqb n0 k) eqn:E.
    + apply bytes_eqb_eq in E. subst n0. split.
      * intros H; injection H as ->. now left.
      * intros [H|H]; [congruence|]. exfalso. apply Hx.
        change k with (fst (k, e)). now apply in_map.
    + rewrite (IH Hr). split; [now right|]. intros [H|H]; [|exact H].
      injection H as -> ->. rewrite bytes_eqb_refl in E. discriminate.
Qed.

Lemma In_list_wal_numbers fs n :
  In n (list_wal_numbers fs) <->
  exists name b, In (name, FFile b) fs /\ filename_to_position name = Some n.
Proof.
  induction fs as [|[nm e] r IH]; [split; [intros []|intros [nm [b [[] _]]]]|].
  cbn [list_wal_numbers fold_right]. fold (list_wal_numbers r).
  assert (Hcons : (exists name b, In (name, FFile b) ((nm, e) :: r) /\
                                  filename_to_position name = Some n) <->
                  (exists b, e = FFile b /\ filename_to_position nm = Some n) \/
                  In n (list_wal_numbers r)).
  { rewrite IH. split.
    - intros [name [b [[H|H] Hp]]]; [injection H as -> ->; left; now exists b|right; now exists name, b].
    - intros [[b [-> Hp]]|[name [b [H Hp]]]]; [exists nm, b; split; [now left|exact Hp]|].
      exists name, b. split; [now right|exact Hp]. }
  rewrite Hcons. clear Hcons IH.
  destruct e as [b0| |].
  - destruct (filename_to_position nm) as [k|].
    + rewrite insert_sorted_In. split.
      * intros [->|H]; [left; now exists b0|now right].
      * intros [[b [_ H]]|H]; [left; congruence|now right].
    + split; [now right|]. intros [[b [_ H]]|H]; [discriminate|exact H].
  - split; [now right|]. intros [[b [H _]]|H]; [discriminate|exact H].
  - split; [now right|]. intros [[b [H _]]|H]; [discriminate|exact H].
Qed.

Lemma list_wal_numbers_sorted fs : StronglySorted N.lt (list_wal_numbers fs).
Proof. apply listed_sorted. Qed.

Lemma chain_sorted : forall r lo, chain lo r -> StronglySorted N.lt (lo :: r).
Proof.
  induction r as [|y r IH]; intros lo Hc.
  - constructor; constructor.
  - constructor.
    + apply IH. cbn [chain] in Hc. tauto.
    + rewrite Forall_forall. intros x Hx. eapply chain_lb; eassumption.
Qed.

Lemma sorted_ext : forall l1 l2,
  StronglySorted N.lt l1 -> StronglySorted N.lt l2 ->
  (forall x, In x l1 <-> In x l2) -> l1 = l2.
Proof.
  induction l1 as [|a r1 IH]; intros l2 H1 H2 Hin.
  - destruct l2 as [|b r2]; [reflexivity|]. exfalso. apply (Hin b). now left.
  - destruct l2 as [|b r2]; [exfalso; apply (Hin a); now left|].
    inversion H1 as [|x l Hs1 Ha]; subst. inversion H2 as [|x l Hs2 Hb]; subst.
    rewrite Forall_forall in Ha, Hb.
    assert (Hab : a = b).
    { destruct (proj1 (Hin a) (or_introl eq_refl)) as [E|E]; [congruence|].
      destruct (proj2 (Hin b) (or_introl eq_refl)) as [E'|E']; [congruence|].
      specialize (Ha b E'). specialize (Hb a E). lia. }
    subst b. f_equal. apply IH; [exact Hs1|exact Hs2|].
    intros x. split; intros Hx.
    + destruct (proj1 (Hin x) (or_intror Hx)) as [E|E]; [|exact E].
      specialize (Ha x Hx). lia.
    + destruct (proj2 (Hin x) (or_intror Hx)) as [E|E]; [|exact E].
      specialize (Hb x Hx). lia.
Qed.

(* with unique names, dir_ok says exactly that a fresh Directory::open lists the tracker *)
Theorem dir_ok_listing w :
  nodup_keys (c_fs (w_ctx w)) -> wr_ok w -> dir_ok w -> w_file w <= U64_MAX ->
  list_wal_numbers (c_fs (w_ctx w)) = w_files w.
Proof.
  intros Hnd [Hc Hl] Hd Hle. apply sorted_ext.
  - apply list_wal_numbers_sorted.
  - destruct (w_files w) as [|lo r]; [destruct Hc|]. now apply chain_sorted.
  - intros n. rewrite In_list_wal_numbers. split.
    + intros [name [b [Hin Hp]]]. apply parse_exact in Hp. destruct Hp as [-> Hn].
      apply (Hd n Hn). exists b. now apply fs_get_In.
    + intros Hin.
      assert (Hn : n <= U64_MAX).
      { destruct (w_files w) as [|lo r]; [destruct Hin|]. cbn [contiguous] in Hc.
        destruct (chain_bounds _ _ _ Hc Hl) as [_ Hb]. specialize (Hb n Hin). lia. }
      destruct (proj2 (Hd n Hn) Hin) as [b Hb]. exists (filename n), b.
      split; [now apply fs_get_In|now apply parse_print].
Qed.

Section NoDupKeys.
Variable P : params.

Definition nd (w : rwriter) : Prop := nodup_keys (c_fs (w_ctx w)).

Lemma create_file_nd c n c' r : create_file P c n = (c', r) -> nodup_keys (c_fs c) -> nodup_keys (c_fs c').
Proof.
  unfold create_file. destruct (fs_get (c_fs c) (filename n)); intros H; inversion H; subst;
    [auto|]. cbn [ctx_ev ctx_fs c_fs]. intros Hn. now apply nodup_keys_put, nodup_keys_put.
Qed.

Lemma flush_buf_nd w : nd w -> nd (flush_buf w).
Proof.
  unfold flush_buf, nd. destruct (w_pending w); [auto|].
  unfold os_write. cbn [w_ctx ctx_ev ctx_fs c_fs]. apply nodup_keys_put.
Qed.

Lemma wr_persist_nd w a : nd w -> nd (wr_persist w a).
Proof. destruct a; exact (flush_buf_nd w). Qed.

Lemma bw_write_all_nd w d : nd w -> nd (bw_write_all P w d).
Proof.
  intros H. unfold bw_write_all, bw_write_all0.
  destruct (lenN d <? BS P - lenN (w_pending w)); [exact H|].
  set (w1 := if BS P - lenN (w_pending w) <? lenN d then flush_buf w else w).
  assert (H1 : nd w1) by (unfold w1; destruct (_ <? _); [now apply flush_buf_nd|exact H]).
  clearbody w1. destruct (BS P <=? lenN d); [|exact H1].
  unfold nd, os_write in *. cbn [w_ctx ctx_ev ctx_fs c_fs]. now apply nodup_keys_put.
Qed.

Lemma wr_write_nd w d w' r : wr_write P w d = (w', r) -> nd w -> nd w'.
Proof.
  intros H.
  enough (C : nd w -> nd (fst (wr_write P w d))) by now rewrite H in C.
  apply (wr_write_carry P (fun a b => nd a -> nd b)); try (intros; auto; fail).
  - intros w0. apply wr_persist_nd.
  - intros w0 d0. apply bw_write_all_nd.
  - intros w0 nxt c r0 _ Eo Hn. apply open_file_fs in Eo.
    destruct r0 as [[]|e]; unfold nd, wr_ctx in *; cbn [w_ctx]; now rewrite Eo.
  - intros w0 c r0 _ Ec Hn. apply create_file_nd in Ec; [|exact Hn]. destruct r0 as [[]|e]; exact Ec.
Qed.

Lemma gc_loop_nd : forall files c refd c' files' r,
  gc_loop c files refd = (c', files', r) -> nodup_keys (c_fs c) -> nodup_keys (c_fs c').
Proof.
  induction files as [|f rest IH]; intros c refd c' files' r; cbn [gc_loop].
  - intros H; inversion H; subst. auto.
  - destruct rest as [|g rest'].
    + intros H; inversion H; subst. auto.
    + destruct (refd f).
      * intros H; inversion H; subst. auto.
      * destruct (fs_get (c_fs c) (filename f)) as [[b| |]|].
        -- intros H Hn. apply IH in H; [exact H|]. cbn [ctx_ev ctx_fs c_fs]. now apply nodup_keys_remove.
        -- intros H; inversion H; subst. auto.
        -- intros H Hn. apply IH in H; [exact H|]. cbn [ctx_ev ctx_fs c_fs]. now apply nodup_keys_remove.
        -- intros H; inversion H; subst. auto.
Qed.

Theorem step_nodup_keys st o tick :
  nodup_keys (c_fs (w_ctx (s_wr st))) ->
  nodup_keys (c_fs (w_ctx (s_wr (fst (step P st o tick))))).
Proof.
  apply (step_inv P nd wr_write_nd wr_persist_nd).
  intros w refd c files r H Hn. unfold nd. cbn [w_ctx]. eapply gc_loop_nd; eassumption.
Qed.

(* after every call, a fresh listing of the directory returns exactly the tracker *)
Theorem step_listing st o tick :
  nodup_keys (c_fs (w_ctx (s_wr st))) -> wr_ok (s_wr st) -> dir_ok (s_wr st) ->
  w_file (s_wr (fst (step P st o tick))) <= U64_MAX ->
  list_wal_numbers (c_fs (w_ctx (s_wr (fst (step P st o tick))))) =
  w_files (s_wr (fst (step P st o tick))).
Proof.
  intros Hn Hok Hd Hle. apply dir_ok_listing.
  - now apply step_nodup_keys.
  - now apply step_wr_ok.
  - now apply step_dir_ok.
  - exact Hle.
Qed.
End NoDupKeys.

Print Assumptions gc_loop_ok.
Print Assumptions gc_loop_err_suffix.
Print Assumptions wr_write_ok.
Print Assumptions wr_write_err_tracker.
Print Assumptions wr_persist_ok.
Print Assumptions write_record_rel.
Print Assumptions write_record_inv.
Print Assumptions write_record_wr_ok.
Print Assumptions gc_loop_wr_ok.
Print Assumptions step_wr_ok.
Print Assumptions step_file_mono.
Print Assumptions truncate_tight.
Print Assumptions delete_queue_tight.
Print Assumptions step_gc_tight.
Print Assumptions disk_used_span.
Print Assumptions step_gc_disk_used.
Print Assumptions step_dir_ok.
Print Assumptions gc_loop_no_err.
Print Assumptions dir_ok_listing.
Print Assumptions step_nodup_keys.
Print Assumptions step_listing.
Print Assumptions wr_write_file_mono.
Print Assumptions step_inv.
Print Assumptions step_wd_ok.

(* non-vacuity of the definitions *)
Example contiguous_ex : contiguous [3; 4; 5] /\ ~ contiguous [3; 5] /\ ~ contiguous [].
Proof. cbn. repeat split; try reflexivity; intros H; try destruct H as [H _]; try discriminate; exact H. Qed.
