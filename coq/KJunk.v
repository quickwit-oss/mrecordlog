(* KJunk.v — junk that may be entered at an interior block boundary.
   junk_at2 = junk_at plus: a reader started at a block boundary strictly inside the junk
   (after the first-frame position of its start) walks to its end without delivering anything.
   The torn encoding of an entry is junk_at2 (KWalk.torn_walk3), and appending such junk keeps
   the admissible set of block boundaries UNCHANGED (pre_cont_junk2), so a file boundary that
   falls inside a torn entry that spans two files stays admissible. *)
From Coq Require Import Lia ZArith ZifyN ZifyNat ZifyBool List Sorted.
From MRL Require Import Bytes BytesProofs Params Frame Driver StreamProofs DamageProofs TornProofs
  ResyncProofs OpenTerm OpenReplay TornFile JunkStream KWalk.

Section KJunk.
Variable P : params.
Hypothesis HBS_lo : 7 < BS P.
Hypothesis HBS_hi : BS P <= 65542.
Hypothesis Hcrc : forall t p, crcf P t p < 2 ^ 32.

Local Notation B := (BS P).
Local Notation encrel := (enc_rel P).
Local Notation rdat := (rd_at P).
Local Notation sok := (stream_ok P).
Local Notation ffp := (first_frame_pos P).
Local Notation H3 f := (f P HBS_lo HBS_hi Hcrc) (only parsing).

Definition junk_at2 (a r : N) (W : bytes) : Prop :=
  junk_at P a r W /\
  forall S pre post kb rbuf,
    sok S -> S = pre ++ W ++ post -> lenN pre = a -> r + 7 <= lenN S ->
    ffp a < kb * B -> kb * B < r ->
    nr_walk P S (kb * B) r (mkRR (rdat S kb 0) rbuf false).

Theorem junk_of_torn2 a x e k j :
  no_zero_collision P ->
  encrel a true x e k -> j < lenN e -> all_zero (dropN j e) = false ->
  exists r W,
    junk_at2 a r W /\
    (forall z, r <= a + j + z -> takeN j e ++ zerosN z = W ++ zerosN (a + j + z - r)) /\
    (forall m, a + j <= m * B -> r <= m * B) /\
    (forall m, m * B <= a + j -> m * B <= r).
Proof.
  intros Hnc He Hj Hnz.
  destruct (H3 torn_walk3 a true x e k He j Hj) as (r & W & Har & HlW & Hspec & Hup & Hlo & Hrd).
  exists r, W. split; [|split; [exact Hspec|split; [exact Hup|exact Hlo]]].
  split.
  - split; [exact Har|]. split; [exact HlW|].
    intros S pre post fr rbuf within Hok Hat HS Hpre Hroom.
    destruct (Hrd S pre post Hok HS Hpre Hroom) as (HrdA & _ & _).
    exact (H3 walk_out_nr S a r x e j fr rbuf within Hnc Hnz (HrdA fr rbuf within Hat (or_introl eq_refl))).
  - intros S pre post kb rbuf Hok HS Hpre Hroom H1 H2'.
    destruct (Hrd S pre post Hok HS Hpre Hroom) as (_ & _ & HrdD).
    exact (HrdD kb rbuf H1 H2').
Qed.

(* appending a junk segment: the admissible boundaries do not change *)
Theorem pre_cont_junk2 PRE ops opos adm cmax rm r W :
  pre_cont P PRE ops opos adm cmax rm -> junk_at2 (lenN PRE) r W -> rm <= r - lenN PRE + 7 ->
  pre_cont P (PRE ++ W) ops opos adm (Datatypes.S cmax) 7.
Proof.
  intros Hpc (Hj & Hint) Hrm. pose proof Hj as (Har & HlW & _).
  apply (H3 pre_cont_walk PRE ops opos adm cmax rm r W 1%nat 7 Hpc Har HlW Hrm).
  intros S post gofuel Hok HS Hroom Hgf. split.
  - intros rr rr1 g.
    exact (H3 junk_at_walk (lenN PRE) r W S PRE post gofuel rr rr1 g Hj Hok HS eq_refl Hroom Hgf).
  - intros kb buf0 _ Hblk H1 H2'.
    apply (H3 arrive_nr_walk S gofuel (kb * B) r _ _ gofuel (H3 arrive_boundary S kb buf0 gofuel Hblk)
             ltac:(lia) Hgf).
    exact (Hint S PRE post kb buf0 Hok HS eq_refl Hroom H1 H2').
Qed.

End KJunk.

Print Assumptions junk_of_torn2.
Print Assumptions pre_cont_junk2.
