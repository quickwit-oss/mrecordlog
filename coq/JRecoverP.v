(* JRecoverP.v — what `open` of a crash image needs besides the reading phase: where the sorted
   position list splits at the first listed file, the reopening lemma of TornFile with the reader
   and the replay loop of the code exported, and the file the recovered writer stands in. *)
From Coq Require Import Lia ZArith ZifyN ZifyNat ZifyBool List Sorted.
From MRL Require Import Bytes BytesProofs Params Names NamesProofs Frame Record Mem Spec Rolling Log
  Driver Hist NoopProofs SpecRefine RecordProofs StreamProofs PolicyProofs GcProofs GhostLog ReplaySpec
  HandleProofs FileStream ResyncProofs QueueIso RestartInv RestartWrite RestartGc RestartStep
  OpenReplay RestartFinal TornProofs TornFile CrashTrace CrashAtomic
  JInv JGc JStep JunkStream JReopen JRecoverL JOpenQuiet.

Lemma skipn_map' {A C} (f : A -> C) : forall n l, skipn n (map f l) = map f (skipn n l).
Proof. induction n as [|n IH]; intros [|x l]; cbn [skipn map]; try reflexivity. apply IH. Qed.

Lemma split_index_le (l : list (N * N)) b m k :
  (m <= length l)%nat ->
  Forall (fun s => snd s < b) (firstn m l) -> Forall (fun s => b <= snd s) (skipn k l) -> (m <= k)%nat.
Proof.
  intros Hm H1 H2. destruct (Nat.le_gt_cases m k) as [|Hgt]; [assumption|exfalso].
  destruct (nth_error l k) as [s|] eqn:E.
  2:{ apply nth_error_None in E. lia. }
  assert (Hin1 : In s (firstn m l)).
  { apply (nth_error_In _ k). rewrite nth_error_firstn_lt by lia. exact E. }
  assert (Hin2 : In s (skipn k l)).
  { apply (nth_error_In _ 0). rewrite nth_error_skipn'. now rewrite Nat.add_0_r. }
  rewrite Forall_forall in H1, H2. specialize (H1 s Hin1). specialize (H2 s Hin2). lia.
Qed.

Section RecoverCore.
Variable P : params.
Hypothesis HBS_lo : 7 < BS P.
Hypothesis HBS_hi : BS P <= 65542.
Hypothesis HNB : 1 <= NB P.
Hypothesis Hcrc : forall t p, crcf P t p < 2 ^ 32.
Hypothesis HIO : L_IO P = false.

Local Notation B := (BS P).
Local Notation FB := (FILE_BYTES P).
Local Notation ffp := (first_frame_pos P).
Local Notation H3 f := (f P HBS_lo HBS_hi Hcrc) (only parsing).
Local Notation H2 f := (f P HBS_lo HBS_hi) (only parsing).
Local Notation HN f := (f P HBS_lo HBS_hi HNB) (only parsing).

Lemma dfilter_split b (es : list bytes) (pos : list (N * N)) m :
  length es = length pos ->
  Forall (fun s => snd s < b) (firstn m pos) -> Forall (fun s => b <= snd s) (skipn m pos) ->
  dfilter b es pos = combine (skipn m es) (skipn m pos).
Proof.
  intros Hl H1 H2'.
  rewrite <- (firstn_skipn m es) at 1. rewrite <- (firstn_skipn m pos) at 1.
  rewrite dfilter_app by (rewrite !firstn_length, Hl; reflexivity).
  rewrite (H3 dfilter_none _ _ _ H1). cbn [app]. apply (H3 dfilter_all _ _ _ H2').
Qed.

(* The reading phase ends at pf, at or after the end e of the data and, unless e lies in the last
   block of the stream, at the first frame position after it (JReopen.at_end_fin_x).  A writer
   placed at pf below the last listed file hi would leave the whole of hi after pf; but the stream
   ends with hi, and data reaches into hi. *)
Lemma recovered_in_top_file base hi wf woff pf e c lenPRE lenS :
  base <= wf -> wf <= hi -> woff <= FB -> (woff = FB -> c = B) ->
  (wf - base) * FB + woff = pf ->
  (hi - base) * FB <= ffp lenPRE -> lenPRE <= e -> lenS = (hi - base + 1) * FB ->
  (pf = ffp e /\ c + 7 <= B) \/
  (pf = e /\ exists k c', pf = k * B + c' /\ B < c' + 7 /\ lenS < (k + 2) * B) ->
  wf = hi.
Proof.
  intros Hb Hle Hoff Hx Hpos Hhi He HlenS Hcase.
  destruct (N.eq_dec wf hi) as [E|Hne]; [exact E|exfalso].
  assert (Hle1 : (wf - base) * FB + FB <= (hi - base) * FB).
  { replace ((wf - base) * FB + FB) with ((wf - base + 1) * FB) by lia.
    apply N.mul_le_mono_r. lia. }
  destruct Hcase as [(Epf & Hc7) | (Epf & k & c' & Ekc & Hcc & Hlast)].
  - pose proof (ffp_mono P HBS_lo HBS_hi lenPRE e He) as Hmono.
    assert (woff <> FB) by (intros E; specialize (Hx E); lia). lia.
  - rewrite HlenS in Hlast.
    assert (Hk1 : (hi - base + 1) * NB P < k + 2).
    { apply (H2 TornProofs.mulB_lt_inv). rewrite <- N.mul_assoc, <- (HN FB_eq). exact Hlast. }
    assert (Hk2 : (hi - base) * FB + FB <= (k + 1) * B).
    { replace ((hi - base) * FB + FB) with ((hi - base + 1) * NB P * B) by (rewrite (HN FB_eq); lia).
      apply N.mul_le_mono_r. lia. }
    assert (HFBB : B <= FB) by (apply FB_ge_B; [clear - HBS_lo; lia|exact HNB]).
    lia.
Qed.

Section TraceY.
Variable img : fsT.
Variable lo' : N.
Variable n : nat.
Variable base : N.
Variable S_all : bytes.
Local Notation files := (iota lo' (Datatypes.S n)).
Local Notation hi := (lo' + N.of_nat n).
Local Notation b' := ((lo' - base) * FB).
Local Notation kb := ((lo' - base) * NB P).
Local Notation fsx := (fs_ext P img lo' n).
Hypothesis Hlistx : list_wal_numbers img = files.
Hypothesis Hfilesx : forall f, In f files ->
  exists b, fs_get img (filename f) = Some (FFile b) /\ lenN b <= FB /\ (f <> hi -> lenN b = FB).
Hypothesis Hbase : base <= lo'.
Hypothesis HSt : stream_of fsx files = dropN b' S_all.
Hypothesis HlenS : lenN S_all = (hi - base + 1) * FB.

(* TornFile.open_of_trace, exporting the reader and the replay loop of the code *)
Lemma open_of_trace_y F c0 rd rrs ds sts c rrfV pf Ds pol hint :
  rd_open P (ctx_init img None) = (c0, Ok rd) -> rd_rel P fsx files rd (vec_at P fsx files 0) ->
  length rrs = length ds ->
  reads_trc P (vr_next P) vr_block F (mkRR (rd_at P S_all kb 0) [] false) (combine rrs ds) c rrfV ->
  tr_ok P S_all rrs sts -> fin_at P S_all (rr_fr rrfV) pf ->
  ds = map entry_ser Ds -> Forall wf_entry Ds -> (length ds + c < F)%nat ->
  exists rrfF tags,
    let w0 := rd_into_writer P (fr_rd (rr_fr rrfF)) (fr_cursor (rr_fr rrfF)) in
    fspec P lo' n base fsx w0 tags sts pf /\ (w_off w0 = FB -> fr_cursor (rr_fr rrfV) = B) /\
    match replay_entries [] (combine tags Ds) with
    | Some qs => open P img None pol hint = open_finish P w0 qs pol hint /\
                 replay_loop P F F (rr_open rreaderS rd) [] = (rrfF, RpDone qs)
    | None => exists c', open P img None pol hint = OpenCorruption c'
    end.
Proof.
  intros Hopen Hrel Hlen HrdV Htr Hfinat Hds Hwf HF.
  pose proof (Hfull_ext P HBS_lo HBS_hi HNB img lo' n Hlistx Hfilesx) as Hfull.
  destruct (files_of_trace_x P HBS_lo HBS_hi HNB Hcrc fsx lo' n Hfull base S_all Hbase HSt HlenS
              F rd rrs ds sts c rrfV pf Hrel Hlen HrdV Htr Hfinat)
    as (lF & rrfF & HrdF & Hsnd & Hspec & Hx).
  exists rrfF, (tags_of lF). cbv zeta. split; [exact Hspec|]. split; [exact Hx|].
  assert (Hdeser : Forall2 (fun x e0 => entry_deser (snd x) = Some e0) lF Ds).
  { apply deser_of_map_snd; [rewrite Hsnd; exact Hds | exact Hwf]. }
  assert (HlF : length lF = length ds) by (rewrite <- Hsnd, map_length; reflexivity).
  pose proof (replay_loop_fold_c P F _ _ _ _ HrdF Ds Hdeser F [] ltac:(lia)) as Hfold.
  destruct (replay_entries [] (combine (tags_of lF) Ds)) as [qs|].
  - split; [|exact Hfold].
    apply (open_fuel_elim P HBS_lo HBS_hi HNB fsx lo' n Hfull F); [exact HIO | | apply open_finish_not_fuel].
    unfold open_with. rewrite Hopen, Hfold. reflexivity.
  - destruct Hfold as [rr' Hfold]. exists (reader_ctx rr').
    apply (open_fuel_elim P HBS_lo HBS_hi HNB fsx lo' n Hfull F); [exact HIO | | discriminate].
    unfold open_with. rewrite Hopen, Hfold. reflexivity.
Qed.

End TraceY.
End RecoverCore.
