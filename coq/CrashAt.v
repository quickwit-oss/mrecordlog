(* CrashAt.v — crash recovery PER CRASH POINT.
   The interrupted call may roll over to a new file and may end in the last block of its file.
   The premises are on the crash point (cut, k) itself, pe := crash_events evs cut k:
     no_create pe                                             no EvCreate before the crash
     w_off (s_wr st) + lenN (ev_data pe) + BS P <= FILE_BYTES P   the cut leaves a whole block.
   jstate_crash_at, jstate_crash_self_at (crash during the recovery of such an image),
   crash_histories_at (whole histories).  They are proved for the weaker premise
   crash_point_fits (jstate_crash_fits, jstate_crash_self_fits), which also serves CrashAt2.v and
   CrashAt3.v. *)
From Coq Require Import Lia ZArith ZifyN ZifyNat ZifyBool List Sorted.
From MRL Require Import Bytes BytesProofs Params Names NamesProofs Frame Record Mem Spec Rolling Log
  Driver Hist NoopProofs SpecRefine RecordProofs StreamProofs PolicyProofs GcProofs GhostLog ReplaySpec
  HandleProofs FileStream ResyncProofs QueueIso RestartInv RestartWrite RestartGc RestartStep
  OpenReplay RestartFinal TornProofs TornFile CrashTrace CrashAtomic
  JInv JGc JStep JunkStream JReopen JRecoverL JRecoverP JRecoverL2
  JCrashShape JRecover2 JRecoverPk JRecover3 JRecoverGc JRecoverSelf
  CrashRecovered CrashRecovered2 CrashRecovered3 CrashHistories JRecover4 JRecover5.

Section At.
Variable P : params.
Hypothesis HBS_lo : 7 < BS P.
Hypothesis HBS_hi : BS P <= 65542.
Hypothesis HNB : 1 <= NB P.
Hypothesis Hcrc : forall t p, crcf P t p < 2 ^ 32.
Hypothesis HGC : L_GC P = false.
Hypothesis HIO : L_IO P = false.
Hypothesis HSHORT : L_SHORT P = false.
Hypothesis Hnc : no_zero_collision P.

Local Notation B := (BS P).
Local Notation FB := (FILE_BYTES P).
Local Notation ser := (map entry_ser).

(* the premises on the call, without any restriction on its geometry *)
Definition crash_call_ok0 (st : state) (a : bool) (o : op) (tick : bool) (st' : state) (out : outcome) : Prop :=
  w_pending (s_wr st) = [] /\ s_pol st = PAlways a /\
  op_wf_strict (s_qs st) o /\
  crash_phys_bound P (s_wr st) (map snd (step_log P st o)) (abs_qs (s_qs st)) /\
  crash_phys_bound P (s_wr st) (map snd (step_log P st o)) (abs_qs (s_qs st')) /\
  step P st o tick = (st', out).

(* the premises on the crash point *)
Definition crash_point_ok (st : state) (pe : list event) : Prop :=
  no_create pe /\ w_off (s_wr st) + lenN (ev_data pe) + B <= FB.

(* The weakest premise on the crash point pe of a call with the events evs: all the data of the
   call are in the image, or the torn data leave a whole block in the top file of the image, or
   they end exactly at its end.  crash_point_ok implies it (crash_point_ok_fits), and so do the
   premises of CrashAt2.v and CrashAt3.v, by their definitions. *)
Definition crash_point_fits (st : state) (evs pe : list event) : Prop :=
  lenN (ev_data pe) = lenN (ev_data evs) \/
  forall hi, is_top (fold_left apply_event pe (c_fs (w_ctx (s_wr st)))) hi -> w_file (s_wr st) <= hi ->
    w_file (s_wr st) * FB + w_off (s_wr st) + lenN (ev_data pe) + B <= (hi + 1) * FB \/
    w_file (s_wr st) * FB + w_off (s_wr st) + lenN (ev_data pe) = (hi + 1) * FB.

(* without an EvCreate the top file of the image is still the file of the writer *)
Lemma no_create_top st pe hi :
  jstate P st -> w_pending (s_wr st) = [] -> no_create pe ->
  is_top (fold_left apply_event pe (c_fs (w_ctx (s_wr st)))) hi -> w_file (s_wr st) <= hi ->
  hi = w_file (s_wr st).
Proof.
  intros (PRE0 & OLD0 & opos0 & adm0 & cmax0 & rm0 & G & _ & _ & _ & _ & HI & _) Hp0 Hnc1
         (Hmax & (b & Hb) & _) Hle.
  destruct (InvJ_winv P PRE0 OLD0 opos0 st G HI) as ((_ & _ & _ & _ & _ & _ & Hfresh) & _).
  rewrite (vfs_nil _ Hp0) in Hfresh.
  destruct (N.eq_dec hi (w_file (s_wr st))) as [E|Hne]; [exact E|exfalso].
  rewrite (no_create_absent pe Hnc1 _ (filename hi)) in Hb; [discriminate|].
  apply Hfresh; lia.
Qed.

Lemma crash_point_ok_fits st evs pe :
  jstate P st -> w_pending (s_wr st) = [] -> crash_point_ok st pe -> crash_point_fits st evs pe.
Proof.
  intros Hj Hp0 (Hnc1 & Hfit). right. intros hi Ht Hle. left.
  rewrite (no_create_top st pe hi Hj Hp0 Hnc1 Ht Hle), N.mul_add_distr_r. lia.
Qed.

(* the common part: the package of JRecoverPk.rc_open for the image *)
Lemma crash_setup st a o tick st' out :
  jstate P st -> crash_call_ok0 st a o tick st' out ->
  (forall e, out <> OutIo e) /\
  exists evs, c_ev (w_ctx (s_wr st')) = rev evs ++ c_ev (w_ctx (s_wr st)) /\
    forall cut k, crash_point_fits st evs (crash_events evs cut k) ->
      let img := fold_left apply_event (crash_events evs cut k) (c_fs (w_ctx (s_wr st))) in
      exists PRE OLD opos adm cmax rm lo' n base zz qs_log lo_log Glog,
        pre_ok PRE OLD opos /\ pre_cont P PRE (ser OLD) opos adm cmax rm /\ rm <= 7 /\
        (forall m, adm (m * NB P)) /\
        rc_hyps P PRE OLD opos adm rm img lo' n base zz qs_log lo_log Glog /\
        is_top img (lo' + N.of_nat n) /\ w_file (s_wr st) <= lo' + N.of_nat n /\
        ((forall q, s_get (abs_qs qs_log) q = s_get (abs_qs (s_qs st)) q) \/
         (forall q, s_get (abs_qs qs_log) q = s_get (abs_qs (s_qs st')) q)).
Proof.
  intros (PRE0 & OLD0 & opos0 & adm0 & cmax0 & rm0 & G & Hpre0 & Hpc0 & Hrm0 & Hadm0 & HI & Hroom0)
         (Hp0 & Hpol & Hop & Hb1 & Hb2 & Hstep).
  destruct (call_vcall P HBS_lo HBS_hi HNB Hcrc HGC PRE0 OLD0 opos0 Hpre0 st G a o tick st' out
              HI Hp0 Hpol Hop Hb1 Hb2 Hstep) as (Hno & Hc1 & Hc2 & G' & evs & Hev & Hv).
  split; [exact Hno|].
  exists evs. split; [exact Hev|]. intros cut k Hfit. cbn zeta.
  pose proof Hv as (_ & _ & _ & _ & _ & _ & _ & Hct & _).
  unfold crash_point_fits in Hfit. rewrite (call_trace_data _ _ _ _ _ _ _ _ Hct) in Hfit.
  destruct (recover_vcall_setup_gen P HBS_lo HBS_hi HNB Hcrc Hnc PRE0 OLD0 opos0 adm0 cmax0 rm0
              Hpre0 Hpc0 Hrm0 Hadm0 st G _ st' G' evs Hv Hc1 Hc2 _ (crash_events_cpre evs cut k))
    as (PRE & OLD & opos & adm & cmax & rm & lo' & n & zz & qs_log & lo_log & Glog &
        Hpre & Hpc & Hrm & Hadm & Hrc & Htop & Hle & _ & Habs).
  { destruct Hfit as [E|Hf]; [left; exact (conj E Hroom0)|right].
    intros hi Ht Hle. destruct (Hf hi Ht Hle) as [H|H]; [left; exact H|right; exact (conj H Hroom0)]. }
  exists PRE, OLD, opos, adm, cmax, rm, lo', n, (gh_base G), zz, qs_log, lo_log, Glog. auto 10.
Qed.

Theorem jstate_crash_fits st a o tick st' out :
  jstate P st -> crash_call_ok0 st a o tick st' out ->
  (forall e, out <> OutIo e) /\
  exists evs, c_ev (w_ctx (s_wr st')) = rev evs ++ c_ev (w_ctx (s_wr st)) /\
    forall cut k pol hint, crash_point_fits st evs (crash_events evs cut k) ->
      let img := fold_left apply_event (crash_events evs cut k) (c_fs (w_ctx (s_wr st))) in
      exists st_r, open P img None pol hint = OpenOk st_r /\ jstate P st_r /\
        s_pol st_r = pol /\ w_pending (s_wr st_r) = [] /\
        ((forall q, s_get (abs_qs (s_qs st_r)) q = s_get (abs_qs (s_qs st)) q) \/
         (forall q, s_get (abs_qs (s_qs st_r)) q = s_get (abs_qs (s_qs st')) q)).
Proof.
  intros Hj Hcc. destruct (crash_setup st a o tick st' out Hj Hcc) as (Hno & evs & Hev & Hall).
  split; [exact Hno|]. exists evs. split; [exact Hev|]. intros cut k pol hint Hpt. cbn zeta.
  destruct (Hall cut k Hpt)
    as (PRE & OLD & opos & adm & cmax & rm & lo' & n & base & zz & qs_log & lo_log & Glog &
        Hpre & Hpc & Hrm & Hadm & Hrc & _ & _ & Habs).
  cbn zeta in Hrc.
  pose proof (pre_reads_of_cont P HBS_lo HBS_hi Hcrc PRE (ser OLD) opos adm cmax rm Hpc) as Hrd.
  destruct (rc_open P HBS_lo HBS_hi HNB Hcrc HGC HIO HSHORT PRE OLD opos adm cmax rm _ lo' n
              base zz qs_log lo_log Glog Hpre Hrd Hrc pol hint)
    as (st_r & G_r & Hopen & HIr & Hroom & Habsr & _ & Hpolr & Hpendr).
  exists st_r. split; [exact Hopen|].
  split; [exact (jstate_intro P _ _ _ _ _ _ _ _ Hpre Hpc Hrm Hadm HIr Hroom)|].
  split; [exact Hpolr|]. split; [exact Hpendr|].
  destruct Habs as [Ha|Ha]; [left|right]; intros q; now rewrite Habsr, Ha.
Qed.

(* a crash during the recovery of such an image; the recovery-time GC stays in the top file of
   the image, before its last block *)
Theorem jstate_crash_self_fits st a o tick st' out :
  jstate P st -> crash_call_ok0 st a o tick st' out ->
  exists evs, c_ev (w_ctx (s_wr st')) = rev evs ++ c_ev (w_ctx (s_wr st)) /\
    forall cut k pol hint st_r, crash_point_fits st evs (crash_events evs cut k) ->
      let img := fold_left apply_event (crash_events evs cut k) (c_fs (w_ctx (s_wr st))) in
      open P img None pol hint = OpenOk st_r ->
      (forall hi, is_top img hi -> w_file (s_wr st) <= hi -> w_file (s_wr st_r) = hi) ->
      w_off (s_wr st_r) + B <= FB -> rec_bound P st_r ->
      forall cut2 k2 pol3 hint3,
        exists st_r2,
          open P (fold_left apply_event (crash_events (rev (c_ev (w_ctx (s_wr st_r)))) cut2 k2) img)
               None pol3 hint3 = OpenOk st_r2 /\
          (forall q, s_get (abs_qs (s_qs st_r2)) q = s_get (abs_qs (s_qs st_r)) q) /\
          jstate P st_r2 /\ s_pol st_r2 = pol3 /\ w_pending (s_wr st_r2) = [].
Proof.
  intros Hj Hcc. destruct (crash_setup st a o tick st' out Hj Hcc) as (Hno & evs & Hev & Hall).
  exists evs. split; [exact Hev|]. intros cut k pol hint st_r Hpt. cbn zeta.
  intros Hopen Hrollr Hblkr Hrb cut2 k2 pol3 hint3.
  destruct (Hall cut k Hpt)
    as (PRE & OLD & opos & adm & cmax & rm & lo' & n & base & zz & qs_log & lo_log & Glog &
        Hpre & Hpc & Hrm & Hadm & Hrc & Htop & Hle & Habs).
  cbn zeta in Hrc.
  destruct (recover_self P HBS_lo HBS_hi HNB Hcrc HGC HIO HSHORT Hnc PRE OLD opos adm cmax rm _ lo' n
              base zz qs_log lo_log Glog pol hint st_r Hpre Hpc Hrm Hadm Hrc Hopen
              (Hrollr _ Htop Hle) Hblkr Hrb)
    as (_ & _ & Hall2).
  exact (Hall2 (crash_events (rev (c_ev (w_ctx (s_wr st_r)))) cut2 k2)
               (crash_events_cpre _ cut2 k2) pol3 hint3).
Qed.

Theorem jstate_crash_at st a o tick st' out :
  jstate P st -> crash_call_ok0 st a o tick st' out ->
  (forall e, out <> OutIo e) /\
  exists evs, c_ev (w_ctx (s_wr st')) = rev evs ++ c_ev (w_ctx (s_wr st)) /\
    forall cut k pol hint, crash_point_ok st (crash_events evs cut k) ->
      let img := fold_left apply_event (crash_events evs cut k) (c_fs (w_ctx (s_wr st))) in
      exists st_r, open P img None pol hint = OpenOk st_r /\ jstate P st_r /\
        s_pol st_r = pol /\ w_pending (s_wr st_r) = [] /\
        ((forall q, s_get (abs_qs (s_qs st_r)) q = s_get (abs_qs (s_qs st)) q) \/
         (forall q, s_get (abs_qs (s_qs st_r)) q = s_get (abs_qs (s_qs st')) q)).
Proof.
  intros Hj Hcc. destruct (jstate_crash_fits st a o tick st' out Hj Hcc) as (Hno & evs & Hev & Hall).
  split; [exact Hno|]. exists evs. split; [exact Hev|]. intros cut k pol hint Hpt.
  exact (Hall cut k pol hint (crash_point_ok_fits st evs _ Hj (proj1 Hcc) Hpt)).
Qed.

(* a crash during the recovery of such an image *)
Theorem jstate_crash_self_at st a o tick st' out :
  jstate P st -> crash_call_ok0 st a o tick st' out ->
  exists evs, c_ev (w_ctx (s_wr st')) = rev evs ++ c_ev (w_ctx (s_wr st)) /\
    forall cut k pol hint st_r, crash_point_ok st (crash_events evs cut k) ->
      let img := fold_left apply_event (crash_events evs cut k) (c_fs (w_ctx (s_wr st))) in
      open P img None pol hint = OpenOk st_r ->
      w_file (s_wr st_r) = w_file (s_wr st) -> w_off (s_wr st_r) + B <= FB -> rec_bound P st_r ->
      forall cut2 k2 pol3 hint3,
        exists st_r2,
          open P (fold_left apply_event (crash_events (rev (c_ev (w_ctx (s_wr st_r)))) cut2 k2) img)
               None pol3 hint3 = OpenOk st_r2 /\
          (forall q, s_get (abs_qs (s_qs st_r2)) q = s_get (abs_qs (s_qs st_r)) q) /\
          jstate P st_r2 /\ s_pol st_r2 = pol3 /\ w_pending (s_wr st_r2) = [].
Proof.
  intros Hj Hcc. destruct (jstate_crash_self_fits st a o tick st' out Hj Hcc) as (evs & Hev & Hall).
  exists evs. split; [exact Hev|]. intros cut k pol hint st_r (Hnc1 & Hfit) img Hopen Hrollr.
  apply (Hall cut k pol hint st_r (crash_point_ok_fits st evs _ Hj (proj1 Hcc) (conj Hnc1 Hfit)) Hopen).
  intros hi Ht Hle. rewrite Hrollr. symmetry. exact (no_create_top st _ hi Hj (proj1 Hcc) Hnc1 Ht Hle).
Qed.

Fixpoint chist_ok_at (st : state) (h : list (chop)) : Prop :=
  match h with
  | [] => True
  | CCall o tick :: r =>
      op_wf_strict (s_qs st) o /\
      phys_bound P (s_wr st) (map snd (step_log P st o)) /\
      chist_ok_at (fst (step P st o tick)) r
  | CRestart pol hint :: r =>
      restart_bound P st /\
      match restart P st pol hint with OpenOk st' => chist_ok_at st' r | _ => True end
  | CCrash o tick cut k pol hint :: r =>
      (exists a, crash_call_ok0 st a o tick (fst (step P st o tick)) (snd (step P st o tick))) /\
      crash_point_ok st (crash_events (new_evs st (fst (step P st o tick))) cut k) /\
      match open P (crash_img P st o tick cut k) None pol hint with
      | OpenOk st' => chist_ok_at st' r
      | _ => True
      end
  end.

Theorem crash_histories_at h : forall st,
  jstate P st -> chist_ok_at st h ->
  exists st' m',
    crun P st h = Some st' /\ jstate P st' /\
    chist_spec (abs_qs (s_qs st)) h m' /\
    forall q, s_get m' q = s_get (abs_qs (s_qs st')) q.
Proof.
  apply (crash_histories_gen P HBS_lo HBS_hi HNB Hcrc HGC HIO HSHORT chist_ok_at);
    [intros st o tick r H; exact H|intros st pol hint r H; exact H|].
  intros st o tick cut k pol hint r Hj ((a & Hcc) & Hpt & Hok).
  destruct (crash_step P st o tick cut k pol hint Hj) as (st_r & Ho & Hjr & Habs).
  { intros s1 out Es. rewrite Es in Hcc, Hpt. cbn [fst snd] in Hcc, Hpt.
    destruct (jstate_crash_at st a o tick s1 out Hj Hcc) as (Hno & evs & Hev & Hall).
    split; [exact Hno|]. exists evs. split; [exact Hev|].
    rewrite (new_evs_spec st s1 evs Hev) in Hpt.
    destruct (Hall cut k pol hint Hpt) as (st_r & Ho & Hjr & _ & _ & Habs). exists st_r. auto. }
  rewrite Ho in Hok. exists st_r. auto.
Qed.

End At.

Print Assumptions jstate_crash_at.
Print Assumptions jstate_crash_self_at.
Print Assumptions crash_histories_at.
