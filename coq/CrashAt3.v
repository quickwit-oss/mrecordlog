(* CrashAt3.v — CrashAt2.v with the weaker premise crash_point_ok3 on the crash point (it
   restates CrashAt.crash_point_fits, from which CrashAt.v, upstream of this file, proves its own
   theorems): for the top WAL file hi of the crash image,
        w_file st * FILE_BYTES + w_off st + lenN (ev_data pe) + BS <= (hi + 1) * FILE_BYTES
     \/ w_file st * FILE_BYTES + w_off st + lenN (ev_data pe)       = (hi + 1) * FILE_BYTES
   (the torn data leave a whole block in the top file, OR end exactly at its end - the crash hit
   between the completion of a file and the creation of its successor),
   OR, without any geometric condition, all the data of the call are in the image
        lenN (ev_data pe) = lenN (ev_data evs)
   (the crash hit the flush / sync / unlink tail of the call).
   The only crash points of a call excluded: the torn data end strictly inside the LAST
   block of the top file of the image.
   jstate_crash_at3, jstate_crash_self_at3, crash_histories_at3. *)
From Coq Require Import Lia ZArith ZifyN ZifyNat ZifyBool List Sorted.
From MRL Require Import Bytes BytesProofs Params Names NamesProofs Frame Record Mem Spec Rolling Log
  Driver Hist NoopProofs SpecRefine RecordProofs StreamProofs PolicyProofs GcProofs GhostLog ReplaySpec
  HandleProofs FileStream ResyncProofs QueueIso RestartInv RestartWrite RestartGc RestartStep
  OpenReplay RestartFinal TornProofs TornFile CrashTrace CrashAtomic
  JInv JGc JStep JunkStream JReopen JRecoverL JRecoverP JRecoverL2
  JCrashShape JRecover2 JRecoverPk JRecover3 JRecoverGc JRecoverSelf
  CrashRecovered CrashRecovered2 CrashRecovered3 CrashHistories JRecover4 CrashAt JRecover5 CrashAt2.

Section At3.
Variable P : params.
Hypothesis HBS_lo : 7 < BS P.
Hypothesis HBS_hi : BS P <= 65542.
Hypothesis HNB : 1 <= NB P.
Hypothesis Hcrc : forall t p, crcf P t p < 2 ^ 32.
Hypothesis HGC : L_GC P = false.
Hypothesis HIO : L_IO P = false.
Hypothesis HSHORT : L_SHORT P = false.
Hypothesis Hnc : no_zero_collision P.

Local Notation B := (BS P).
Local Notation FB := (FILE_BYTES P).
Local Notation ser := (map entry_ser).

Local Notation crash_call_ok0 := (crash_call_ok0 P).

(* the premise on the crash point; evs = all the events of the call *)
Definition crash_point_ok3 (st : state) (evs pe : list event) : Prop :=
  lenN (ev_data pe) = lenN (ev_data evs) \/
  forall hi, is_top (fold_left apply_event pe (c_fs (w_ctx (s_wr st)))) hi -> w_file (s_wr st) <= hi ->
    w_file (s_wr st) * FB + w_off (s_wr st) + lenN (ev_data pe) + B <= (hi + 1) * FB \/
    w_file (s_wr st) * FB + w_off (s_wr st) + lenN (ev_data pe) = (hi + 1) * FB.

Lemma crash_point_ok_23 st evs pe : crash_point_ok2 P st pe -> crash_point_ok3 st evs pe.
Proof. intros H. right. intros hi Ht Hle. left. exact (H hi Ht Hle). Qed.

(* sufficient conditions that are checkable by computation *)
Lemma crash_point_ok3_all_data st evs pe :
  lenN (ev_data pe) = lenN (ev_data evs) -> crash_point_ok3 st evs pe.
Proof. intros H. left. exact H. Qed.

Lemma crash_point_ok3_of_file st evs pe n :
  n <= U64_MAX ->
  fs_get (fold_left apply_event pe (c_fs (w_ctx (s_wr st)))) (filename n) <> None ->
  w_file (s_wr st) * FB + w_off (s_wr st) + lenN (ev_data pe) + B <= (n + 1) * FB ->
  crash_point_ok3 st evs pe.
Proof. intros H1 H2 H3. apply crash_point_ok_23. exact (crash_point_ok2_of_file P st pe n H1 H2 H3). Qed.

Lemma crash_point_ok3_of_file_end st evs pe n :
  n <= U64_MAX ->
  fs_get (fold_left apply_event pe (c_fs (w_ctx (s_wr st)))) (filename n) <> None ->
  w_file (s_wr st) * FB + w_off (s_wr st) + lenN (ev_data pe) = (n + 1) * FB ->
  crash_point_ok3 st evs pe.
Proof.
  clear Hcrc HGC HIO HSHORT Hnc.
  intros Hn Hex Hfit. right. intros hi (Hmax & _ & Htop) _.
  destruct (N.lt_ge_cases hi n) as [Hlt|Hge]; [exfalso; apply Hex; exact (Htop n Hlt Hn)|].
  destruct (N.eq_dec hi n) as [->|Hne]; [right; exact Hfit|left].
  assert ((n + 2) * FB <= (hi + 1) * FB) by (apply N.mul_le_mono_r; lia).
  assert (B <= FB) by (unfold FILE_BYTES; nia).
  lia.
Qed.

Theorem jstate_crash_at3 st a o tick st' out :
  jstate P st -> crash_call_ok0 st a o tick st' out ->
  (forall e, out <> OutIo e) /\
  exists evs, c_ev (w_ctx (s_wr st')) = rev evs ++ c_ev (w_ctx (s_wr st)) /\
    forall cut k pol hint, crash_point_ok3 st evs (crash_events evs cut k) ->
      let img := fold_left apply_event (crash_events evs cut k) (c_fs (w_ctx (s_wr st))) in
      exists st_r, open P img None pol hint = OpenOk st_r /\ jstate P st_r /\
        s_pol st_r = pol /\ w_pending (s_wr st_r) = [] /\
        ((forall q, s_get (abs_qs (s_qs st_r)) q = s_get (abs_qs (s_qs st)) q) \/
         (forall q, s_get (abs_qs (s_qs st_r)) q = s_get (abs_qs (s_qs st')) q)).
Proof.
  exact (jstate_crash_fits P HBS_lo HBS_hi HNB Hcrc HGC HIO HSHORT Hnc st a o tick st' out).
Qed.

(* a crash during the recovery of such an image *)
Theorem jstate_crash_self_at3 st a o tick st' out :
  jstate P st -> crash_call_ok0 st a o tick st' out ->
  exists evs, c_ev (w_ctx (s_wr st')) = rev evs ++ c_ev (w_ctx (s_wr st)) /\
    forall cut k pol hint st_r, crash_point_ok3 st evs (crash_events evs cut k) ->
      let img := fold_left apply_event (crash_events evs cut k) (c_fs (w_ctx (s_wr st))) in
      open P img None pol hint = OpenOk st_r ->
      is_top img (w_file (s_wr st_r)) -> w_off (s_wr st_r) + B <= FB -> rec_bound P st_r ->
      forall cut2 k2 pol3 hint3,
        exists st_r2,
          open P (fold_left apply_event (crash_events (rev (c_ev (w_ctx (s_wr st_r)))) cut2 k2) img)
               None pol3 hint3 = OpenOk st_r2 /\
          (forall q, s_get (abs_qs (s_qs st_r2)) q = s_get (abs_qs (s_qs st_r)) q) /\
          jstate P st_r2 /\ s_pol st_r2 = pol3 /\ w_pending (s_wr st_r2) = [].
Proof.
  intros Hj Hcc.
  destruct (jstate_crash_self_fits P HBS_lo HBS_hi HNB Hcrc HGC HIO HSHORT Hnc st a o tick st' out Hj Hcc)
    as (evs & Hev & Hall).
  exists evs. split; [exact Hev|]. intros cut k pol hint st_r Hpt img Hopen Htopr.
  apply (Hall cut k pol hint st_r Hpt Hopen).
  intros hi Ht _. exact (is_top_unique _ _ _ Htopr Ht).
Qed.

Fixpoint chist_ok_at3 (st : state) (h : list (chop)) : Prop :=
  match h with
  | [] => True
  | CCall o tick :: r =>
      op_wf_strict (s_qs st) o /\
      phys_bound P (s_wr st) (map snd (step_log P st o)) /\
      chist_ok_at3 (fst (step P st o tick)) r
  | CRestart pol hint :: r =>
      restart_bound P st /\
      match restart P st pol hint with OpenOk st' => chist_ok_at3 st' r | _ => True end
  | CCrash o tick cut k pol hint :: r =>
      (exists a, crash_call_ok0 st a o tick (fst (step P st o tick)) (snd (step P st o tick))) /\
      crash_point_ok3 st (new_evs st (fst (step P st o tick)))
                      (crash_events (new_evs st (fst (step P st o tick))) cut k) /\
      match open P (crash_img P st o tick cut k) None pol hint with
      | OpenOk st' => chist_ok_at3 st' r
      | _ => True
      end
  end.

Theorem crash_histories_at3 h : forall st,
  jstate P st -> chist_ok_at3 st h ->
  exists st' m',
    crun P st h = Some st' /\ jstate P st' /\
    chist_spec (abs_qs (s_qs st)) h m' /\
    forall q, s_get m' q = s_get (abs_qs (s_qs st')) q.
Proof.
  apply (crash_histories_gen P HBS_lo HBS_hi HNB Hcrc HGC HIO HSHORT chist_ok_at3);
    [intros st o tick r H; exact H|intros st pol hint r H; exact H|].
  intros st o tick cut k pol hint r Hj ((a & Hcc) & Hpt & Hok).
  destruct (crash_step P st o tick cut k pol hint Hj) as (st_r & Ho & Hjr & Habs).
  { intros s1 out Es. rewrite Es in Hcc, Hpt. cbn [fst snd] in Hcc, Hpt.
    destruct (jstate_crash_at3 st a o tick s1 out Hj Hcc) as (Hno & evs & Hev & Hall).
    split; [exact Hno|]. exists evs. split; [exact Hev|].
    rewrite (new_evs_spec st s1 evs Hev) in Hpt.
    destruct (Hall cut k pol hint Hpt) as (st_r & Ho & Hjr & _ & _ & Habs). exists st_r. auto. }
  rewrite Ho in Hok. exists st_r. auto.
Qed.

End At3.

Print Assumptions jstate_crash_at3.
Print Assumptions jstate_crash_self_at3.
Print Assumptions crash_histories_at3.
