(* SpecRefine.v — the in-memory queues (Mem.v) and the log API (Log.v) refine the sequential
   queue-map specification (Spec.v). *)
From Coq Require Import Lia ZArith ZifyN ZifyNat ZifyBool.
From MRL Require Import Bytes BytesProofs Params Names Frame Record Mem Spec Rolling Log NoopProofs
                        WriterProofs.

Lemma take_while_andb_filter {A} (f g : A -> bool) l :
  take_while (fun x => f x && g x) (filter f l) = take_while g (filter f l).
Proof.
  induction l as [|x l IH]; cbn [filter]; [reflexivity|].
  destruct (f x) eqn:E; [|exact IH]. cbn [take_while]. rewrite E. cbn [andb].
  destruct (g x); [f_equal; exact IH|reflexivity].
Qed.

Lemma last_opt_filter {A} (f : A -> bool) l x :
  last_opt l = Some x -> f x = true -> last_opt (filter f l) = Some x.
Proof.
  induction l as [|y l IH]; intros Hl Hf; [discriminate|].
  rewrite last_opt_cons in Hl. cbn [filter].
  destruct (last_opt l) as [z|] eqn:E.
  - inversion Hl; subst z. specialize (IH eq_refl Hf).
    destruct (f y); [|exact IH]. rewrite last_opt_cons, IH. reflexivity.
  - inversion Hl; subst y. apply last_opt_nil_iff in E. subst l. rewrite Hf. reflexivity.
Qed.

(* positions strictly increasing and >= lp; offsets non-decreasing, >= lo and <= len *)
Fixpoint metas_ok (lp lo len : N) (ms : list meta) : Prop :=
  match ms with
  | [] => lo <= len
  | m :: r => lp <= m_pos m /\ lo <= m_off m /\ metas_ok (m_pos m + 1) (m_off m) len r
  end.

Definition first_off (ms : list meta) : N := match ms with m :: _ => m_off m | [] => 0 end.

Definition mq_inv (q : mq) : Prop :=
     metas_ok (q_start q) 0 (lenN (q_buf q)) (q_metas q)
  /\ first_off (q_metas q) = 0
  /\ (q_metas q = [] -> q_buf q = []).

Definition qs_inv (qs : queues) : Prop := forall n q, In (n, q) qs -> mq_inv q.

Lemma mq_inv_default : mq_inv mq_default.
Proof. unfold mq_inv, mq_default. cbn. repeat split; lia. Qed.

Lemma mq_inv_with_next n : mq_inv (mq_with_next n).
Proof. unfold mq_inv, mq_with_next. cbn. repeat split; lia. Qed.

Lemma metas_ok_weaken lp lo len ms lp' lo' :
  metas_ok lp lo len ms -> lp' <= lp -> lo' <= lo -> metas_ok lp' lo' len ms.
Proof.
  destruct ms as [|m r]; cbn [metas_ok]; intros H Hp Ho; [lia|].
  destruct H as (H1 & H2 & H3). repeat split; try lia. exact H3.
Qed.

Lemma metas_ok_lo_le lp lo len ms : metas_ok lp lo len ms -> lo <= len.
Proof.
  revert lp lo; induction ms as [|m r IH]; intros lp lo H; cbn [metas_ok] in H; [exact H|].
  destruct H as (_ & H2 & H3). apply IH in H3. lia.
Qed.

Lemma metas_ok_pos_ge lp lo len ms m : metas_ok lp lo len ms -> In m ms -> lp <= m_pos m.
Proof.
  revert lp lo; induction ms as [|m0 r IH]; intros lp lo H Hin; [destruct Hin|].
  cbn [metas_ok] in H. destruct H as (H1 & H2 & H3). destruct Hin as [->|Hin]; [exact H1|].
  specialize (IH _ _ H3 Hin). lia.
Qed.

Definition stop_of (buf : bytes) (r : list meta) : N :=
  match r with m' :: _ => m_off m' | [] => lenN buf end.

Lemma records_of_cons buf m r :
  records_of buf (m :: r) = (m_pos m, sliceN (m_off m) (stop_of buf r) buf) :: records_of buf r.
Proof. reflexivity. Qed.

Lemma lenN_records_of buf ms : lenN (records_of buf ms) = lenN ms.
Proof.
  induction ms as [|m r IH]; [reflexivity|].
  rewrite records_of_cons, !lenN_cons, IH. reflexivity.
Qed.

Lemma records_of_nil_iff buf ms : records_of buf ms = [] <-> ms = [].
Proof. destruct ms; split; intros H; try reflexivity; discriminate. Qed.

Lemma records_of_dropN buf k ms : records_of buf (dropN k ms) = dropN k (records_of buf ms).
Proof.
  revert k; induction ms as [|m r IH]; intros k; [reflexivity|].
  rewrite records_of_cons. cbn [dropN]. destruct (N.eqb_spec k 0) as [_|_].
  - apply records_of_cons.
  - apply IH.
Qed.

Lemma records_of_pos_in buf ms x :
  In x (records_of buf ms) -> exists m, In m ms /\ fst x = m_pos m.
Proof.
  induction ms as [|m r IH]; intros H; [destruct H|].
  rewrite records_of_cons in H. destruct H as [<-|H].
  - exists m. split; [now left|reflexivity].
  - destruct (IH H) as (m' & Hin & E). exists m'. split; [now right|exact E].
Qed.

Lemma records_pos_ge buf lp lo len ms x :
  metas_ok lp lo len ms -> In x (records_of buf ms) -> lp <= fst x.
Proof.
  intros H Hin. destruct (records_of_pos_in _ _ _ Hin) as (m & Hm & ->).
  eapply metas_ok_pos_ge; eauto.
Qed.

Lemma last_opt_records_of buf ms :
  last_opt (records_of buf ms) =
  match last_opt ms with Some m => Some (m_pos m, dropN (m_off m) buf) | None => None end.
Proof.
  induction ms as [|m r IH]; [reflexivity|].
  rewrite records_of_cons, !last_opt_cons, IH.
  destruct (last_opt r) as [m'|] eqn:E; [reflexivity|].
  apply last_opt_nil_iff in E. subst r. cbn [stop_of]. now rewrite sliceN_to_end.
Qed.

Definition next_of (start : N) (recs : list (N * bytes)) : N :=
  match last_opt recs with Some r => fst r + 1 | None => start end.

Lemma next_position_recs q :
  next_position q = next_of (q_start q) (records_of (q_buf q) (q_metas q)).
Proof.
  unfold next_position, next_of. rewrite last_opt_records_of.
  destruct (last_opt (q_metas q)); reflexivity.
Qed.

Lemma metas_ok_last_ge lp lo len ms m ml :
  metas_ok lp lo len ms -> In m ms -> last_opt ms = Some ml -> m_pos m <= m_pos ml.
Proof.
  revert lp lo; induction ms as [|m0 r IH]; intros lp lo H Hin Hl; [destruct Hin|].
  cbn [metas_ok] in H. destruct H as (H1 & H2 & H3).
  rewrite last_opt_cons in Hl. destruct (last_opt r) as [z|] eqn:E.
  - inversion Hl; subst z. destruct Hin as [->|Hin].
    + pose proof (metas_ok_pos_ge _ _ _ _ _ H3 (last_opt_In _ _ E)). lia.
    + eapply IH; eauto.
  - apply last_opt_nil_iff in E. subst r. inversion Hl; subst ml.
    destruct Hin as [->|[]]. lia.
Qed.

Lemma records_pos_lt_next q x :
  mq_inv q -> In x (records_of (q_buf q) (q_metas q)) -> q_start q <= fst x < next_position q.
Proof.
  intros (Hok & _ & _) Hin. split; [eapply records_pos_ge; eauto|].
  destruct (records_of_pos_in _ _ _ Hin) as (m & Hm & ->).
  unfold next_position. destruct (last_opt (q_metas q)) as [ml|] eqn:E.
  - pose proof (metas_ok_last_ge _ _ _ _ _ _ Hok Hm E). lia.
  - apply last_opt_nil_iff in E. rewrite E in Hm. destruct Hm.
Qed.

Lemma take_last_file_cons m r :
  take_last_file (m :: r) =
  match r with [] => [mkMeta (m_off m) None (m_pos m)] | _ => m :: take_last_file r end.
Proof. destruct r; reflexivity. Qed.

Lemma metas_ok_take_last_file lp lo len ms :
  metas_ok lp lo len (take_last_file ms) <-> metas_ok lp lo len ms.
Proof.
  revert lp lo; induction ms as [|m r IH]; intros lp lo; [reflexivity|].
  rewrite take_last_file_cons. destruct r as [|m' r'].
  - cbn [metas_ok m_pos m_off]. reflexivity.
  - cbn [metas_ok] in *. rewrite IH. reflexivity.
Qed.

Lemma first_off_take_last_file ms : first_off (take_last_file ms) = first_off ms.
Proof. destruct ms as [|m [|m' r]]; reflexivity. Qed.

Lemma records_of_take_last_file buf ms :
  records_of buf (take_last_file ms) = records_of buf ms.
Proof.
  induction ms as [|m r IH]; [reflexivity|].
  rewrite take_last_file_cons. destruct r as [|m' r'].
  - reflexivity.
  - rewrite !records_of_cons, IH. f_equal.
    rewrite take_last_file_cons. destruct r'; reflexivity.
Qed.

Lemma take_last_file_nil_iff ms : take_last_file ms = [] <-> ms = [].
Proof. destruct ms as [|m [|m' r]]; split; intros H; try reflexivity; discriminate. Qed.

Lemma metas_ok_snoc lp lo len len' ms f t :
  metas_ok lp lo len ms ->
  match last_opt ms with Some m => m_pos m + 1 | None => lp end <= t ->
  len <= len' ->
  metas_ok lp lo len' (ms ++ [mkMeta len f t]).
Proof.
  revert lp lo; induction ms as [|m r IH]; intros lp lo H Ht Hl.
  - cbn [metas_ok app last_opt m_pos m_off] in *. lia.
  - cbn [app metas_ok] in *. destruct H as (H1 & H2 & H3). repeat split; try assumption.
    apply IH; try assumption. rewrite last_opt_cons in Ht.
    destruct (last_opt r); exact Ht.
Qed.

Lemma records_of_snoc buf pl lp lo ms f t :
  metas_ok lp lo (lenN buf) ms ->
  records_of (buf ++ pl) (ms ++ [mkMeta (lenN buf) f t]) = records_of buf ms ++ [(t, pl)].
Proof.
  revert lp lo; induction ms as [|m r IH]; intros lp lo H.
  - cbn [app]. rewrite records_of_cons. cbn [records_of stop_of m_pos m_off app].
    rewrite sliceN_to_end, dropN_app_exact. reflexivity.
  - cbn [app]. rewrite !records_of_cons. cbn [metas_ok] in H. destruct H as (H1 & H2 & H3).
    rewrite (IH _ _ H3). cbn [app]. f_equal. f_equal.
    pose proof (metas_ok_lo_le _ _ _ _ H3) as Hle.
    destruct r as [|m' r'].
    + cbn [app stop_of m_off]. apply sliceN_app_l; lia.
    + cbn [app stop_of]. cbn [metas_ok] in H3. destruct H3 as (H4 & H5 & H6).
      apply metas_ok_lo_le in H6. apply sliceN_app_l; lia.
Qed.

(* the metas the new record is pushed onto *)
Definition metas_before (q : mq) (file : N) : list meta :=
  match last_opt (q_metas q) with
  | Some m => if opt_N_eqb (m_file m) file then take_last_file (q_metas q) else q_metas q
  | None => q_metas q
  end.

Lemma metas_before_cases q file :
  metas_before q file = q_metas q \/ metas_before q file = take_last_file (q_metas q).
Proof.
  unfold metas_before. destruct (last_opt (q_metas q)) as [m|]; [|now left].
  destruct (opt_N_eqb (m_file m) file); [now right|now left].
Qed.

Lemma append_record_some q file target payload q' :
  append_record q file target payload = Some q' ->
  next_position q <= target /\
  q' = mkMq (q_buf q ++ payload)
            (if (q_start q =? 0) && isnil (q_metas q) then target else q_start q)
            (metas_before q file ++ [mkMeta (lenN (q_buf q)) (Some file) target]).
Proof.
  unfold append_record, metas_before.
  destruct (N.ltb_spec target (next_position q)) as [Hlt|Hge]; [discriminate|].
  intros H. inversion H. split; [exact Hge|reflexivity].
Qed.

Lemma last_pos_take_last_file ms :
  match last_opt (take_last_file ms) with Some m => Some (m_pos m) | None => None end =
  match last_opt ms with Some m => Some (m_pos m) | None => None end.
Proof.
  induction ms as [|m r IH]; [reflexivity|].
  rewrite take_last_file_cons. destruct r as [|m' r']; [reflexivity|].
  rewrite (last_opt_cons m (take_last_file (m' :: r'))), (last_opt_cons m (m' :: r')).
  destruct (last_opt (take_last_file (m' :: r'))) as [a|] eqn:Ea;
    destruct (last_opt (m' :: r')) as [b|] eqn:Eb; try exact IH; try discriminate.
  reflexivity.
Qed.

Theorem append_record_some_refines q file target payload q' :
  mq_inv q -> append_record q file target payload = Some q' ->
  mq_inv q' /\
  records_of (q_buf q') (q_metas q') = records_of (q_buf q) (q_metas q) ++ [(target, payload)] /\
  next_position q' = target + 1.
Proof.
  intros (Hok & Hfo & Hnil) H. apply append_record_some in H. destruct H as (Hge & ->).
  set (start' := if (q_start q =? 0) && isnil (q_metas q) then target else q_start q).
  assert (Hnext : next_position (mkMq (q_buf q ++ payload) start'
             (metas_before q file ++ [mkMeta (lenN (q_buf q)) (Some file) target])) = target + 1).
  { unfold next_position. cbn [q_metas]. now rewrite last_opt_app. }
  assert (Hok' : metas_ok start' 0 (lenN (q_buf q)) (q_metas q)).
  { destruct (q_metas q) as [|m r] eqn:Em.
    - cbn [metas_ok]. lia.
    - unfold start'. cbn [isnil]. rewrite andb_false_r. exact Hok. }
  assert (Hst : match last_opt (q_metas q) with Some m => m_pos m + 1 | None => start' end <= target).
  { unfold next_position in Hge. destruct (last_opt (q_metas q)) as [m|] eqn:El; [exact Hge|].
    apply last_opt_nil_iff in El. unfold start'. rewrite El. cbn [isnil]. rewrite andb_true_r.
    destruct (N.eqb_spec (q_start q) 0); lia. }
  split; [|split; [|exact Hnext]].
  - unfold mq_inv. cbn [q_buf q_start q_metas]. rewrite lenN_app.
    destruct (metas_before_cases q file) as [E|E]; rewrite E.
    + split; [|split].
      * apply metas_ok_snoc; [exact Hok'|exact Hst|lia].
      * destruct (q_metas q) as [|m r] eqn:Em; [|exact Hfo].
        cbn [app first_off m_off]. rewrite (Hnil eq_refl). reflexivity.
      * intros Hc. destruct (q_metas q); discriminate.
    + split; [|split].
      * apply metas_ok_snoc; [now apply metas_ok_take_last_file| |lia].
        pose proof (last_pos_take_last_file (q_metas q)) as Hl.
        destruct (last_opt (take_last_file (q_metas q))) as [a|];
          destruct (last_opt (q_metas q)) as [b|]; try discriminate; [|exact Hst].
        inversion Hl as [Hab]. rewrite Hab. exact Hst.
      * destruct (q_metas q) as [|m r] eqn:Em.
        -- cbn [take_last_file app first_off m_off]. rewrite (Hnil eq_refl). reflexivity.
        -- rewrite <- Hfo. destruct r; reflexivity.
      * intros Hc. destruct (take_last_file (q_metas q)); discriminate.
  - cbn [q_buf q_metas].
    destruct (metas_before_cases q file) as [E|E]; rewrite E.
    + eapply records_of_snoc; exact Hok.
    + rewrite <- (records_of_take_last_file (q_buf q) (q_metas q)).
      eapply records_of_snoc. apply metas_ok_take_last_file. exact Hok.
Qed.

Theorem append_record_refines q file target payload q' :
  mq_inv q -> next_position q <= target -> append_record q file target payload = Some q' ->
  mq_inv q' /\
  records_of (q_buf q') (q_metas q') = records_of (q_buf q) (q_metas q) ++ [(target, payload)] /\
  next_position q' = target + 1.
Proof. intros Hi _ H. eapply append_record_some_refines; eauto. Qed.

Lemma number_from_s_number p l : number_from p l = s_number p l.
Proof. revert p; induction l as [|x l IH]; intros p; cbn [number_from s_number]; [reflexivity|]. now rewrite IH. Qed.

Theorem append_all_refines : forall payloads q file p,
  mq_inv q -> next_position q <= p -> payloads <> [] ->
  exists q', append_all q file (number_from p payloads) = Some q' /\
    mq_inv q' /\
    records_of (q_buf q') (q_metas q') = records_of (q_buf q) (q_metas q) ++ s_number p payloads /\
    next_position q' = p + lenN payloads.
Proof.
  induction payloads as [|x r IH]; intros q file p Hi Hn Hne; [congruence|].
  cbn [number_from append_all s_number].
  destruct (append_record_next q file p x Hn) as (q1 & E1 & Hn1). rewrite E1.
  destruct (append_record_some_refines _ _ _ _ _ Hi E1) as (Hi1 & Hr1 & _).
  destruct r as [|y r'].
  - cbn [number_from append_all s_number]. exists q1.
    split; [reflexivity|]. split; [exact Hi1|]. split; [exact Hr1|].
    rewrite Hn1. rewrite lenN_cons, lenN_nil. lia.
  - destruct (IH q1 file (p + 1) Hi1 ltac:(lia) ltac:(discriminate)) as (q' & E' & Hi' & Hr' & Hn').
    exists q'. split; [exact E'|]. split; [exact Hi'|]. split.
    + rewrite Hr', Hr1, <- app_assoc. reflexivity.
    + rewrite Hn'. rewrite (lenN_cons x). lia.
Qed.

Lemma append_all_inv : forall recs q file q',
  mq_inv q -> append_all q file recs = Some q' ->
  mq_inv q' /\ records_of (q_buf q') (q_metas q') = records_of (q_buf q) (q_metas q) ++ recs.
Proof.
  induction recs as [|[p x] r IH]; intros q file q' Hi H; cbn [append_all] in H.
  - inversion H; subst. rewrite app_nil_r. now split.
  - destruct (append_record q file p x) as [q1|] eqn:E1; [|discriminate].
    destruct (append_record_some_refines _ _ _ _ _ Hi E1) as (Hi1 & Hr1 & _).
    destruct (IH _ _ _ Hi1 H) as (Hi' & Hr'). split; [exact Hi'|].
    rewrite Hr', Hr1, <- app_assoc. reflexivity.
Qed.

Lemma idx_ge_le p ms : idx_ge p ms <= lenN ms.
Proof.
  induction ms as [|m r IH]; cbn [idx_ge]; [apply N.le_0_l|].
  rewrite lenN_cons. destruct (N.ltb_spec (m_pos m) p); lia.
Qed.

Lemma drop_idx_filter buf p lp lo len ms :
  metas_ok lp lo len ms ->
  dropN (idx_ge p ms) (records_of buf ms) = filter (fun r => p <=? fst r) (records_of buf ms).
Proof.
  revert lp lo; induction ms as [|m r IH]; intros lp lo H; [reflexivity|].
  cbn [idx_ge]. destruct (N.ltb_spec (m_pos m) p) as [Hlt|Hge].
  - rewrite records_of_cons, dropN_cons_succ. cbn [filter fst].
    destruct (N.leb_spec p (m_pos m)) as [Hc|_]; [lia|].
    cbn [metas_ok] in H. destruct H as (_ & _ & H3). eapply IH; exact H3.
  - rewrite dropN_0. symmetry. apply filter_all_true. intros x Hx.
    assert (H' : metas_ok (m_pos m) lo len (m :: r)).
    { cbn [metas_ok] in *. destruct H as (H1 & H2 & H3). repeat split; try assumption; lia. }
    pose proof (records_pos_ge _ _ _ _ _ _ H' Hx). lia.
Qed.

Lemma metas_ok_drop_idx p lp lo len ms :
  metas_ok lp lo len ms -> metas_ok (N.max lp p) lo len (dropN (idx_ge p ms) ms).
Proof.
  revert lp lo; induction ms as [|m r IH]; intros lp lo H; [exact H|].
  cbn [idx_ge]. destruct (N.ltb_spec (m_pos m) p) as [Hlt|Hge].
  - rewrite dropN_cons_succ. cbn [metas_ok] in H. destruct H as (H1 & H2 & H3).
    eapply metas_ok_weaken; [apply IH; exact H3|lia|lia].
  - rewrite dropN_0. cbn [metas_ok] in *. destruct H as (H1 & H2 & H3).
    repeat split; try assumption; lia.
Qed.

Lemma metas_ok_rebase off lp lo len ms :
  metas_ok lp lo len ms -> off <= lo ->
  metas_ok lp (lo - off) (len - off) (map (rebase off) ms).
Proof.
  revert lp lo; induction ms as [|m r IH]; intros lp lo H Ho; cbn [map metas_ok] in *; [lia|].
  destruct H as (H1 & H2 & H3). cbn [rebase m_pos m_off]. repeat split; try lia.
  apply IH; [exact H3|lia].
Qed.

Lemma records_of_rebase off buf lp lo ms :
  metas_ok lp lo (lenN buf) ms -> off <= lo ->
  records_of (dropN off buf) (map (rebase off) ms) = records_of buf ms.
Proof.
  revert lp lo; induction ms as [|m r IH]; intros lp lo H Ho; [reflexivity|].
  cbn [map]. rewrite !records_of_cons. cbn [metas_ok] in H. destruct H as (H1 & H2 & H3).
  rewrite (IH _ _ H3) by lia. cbn [rebase m_pos m_off]. f_equal. f_equal.
  destruct r as [|m' r']; cbn [map stop_of rebase m_off].
  - rewrite lenN_dropN. apply sliceN_dropN. lia.
  - apply sliceN_dropN. lia.
Qed.

Theorem truncate_head_refines q p :
  mq_inv q ->
  let '(q', k) := truncate_head q p in
  mq_inv q' /\
  records_of (q_buf q') (q_metas q') =
    filter (fun r => p <? fst r) (records_of (q_buf q) (q_metas q)) /\
  k = lenN (records_of (q_buf q) (q_metas q)) - lenN (records_of (q_buf q') (q_metas q')) /\
  next_position q' =
    (if isnil (records_of (q_buf q') (q_metas q')) && (next_position q <=? p + 1)
     then p + 1 else next_position q).
Proof.
  intros Hi. unfold truncate_head.
  destruct (N.ltb_spec p (q_start q)) as [Hlt|Hge].
  { (* nothing to evict *)
    assert (Hf : filter (fun r => p <? fst r) (records_of (q_buf q) (q_metas q)) =
                 records_of (q_buf q) (q_metas q)).
    { apply filter_all_true. intros x Hx. pose proof (records_pos_lt_next _ _ Hi Hx). lia. }
    split; [exact Hi|]. split; [now rewrite Hf|]. split; [lia|].
    destruct (isnil (records_of (q_buf q) (q_metas q))) eqn:En; cbn [andb]; [|reflexivity].
    apply isnil_true, records_of_nil_iff in En.
    destruct (N.leb_spec (next_position q) (p + 1)) as [Hle|_]; [|reflexivity].
    unfold next_position in *. rewrite En in *. cbn [last_opt] in *. lia. }
  destruct (N.leb_spec (next_position q) (p + 1)) as [Hle|Hgt].
  { (* everything goes *)
    assert (Hf : filter (fun r => p <? fst r) (records_of (q_buf q) (q_metas q)) = []).
    { apply filter_all_false. intros x Hx. pose proof (records_pos_lt_next _ _ Hi Hx). lia. }
    cbn [q_buf q_metas records_of]. rewrite Hf.
    split; [apply (mq_inv_with_next (p + 1))|]. split; [reflexivity|].
    split; [rewrite lenN_records_of, lenN_nil; lia|].
    cbn [isnil andb]. reflexivity. }
  (* a proper suffix is kept *)
  destruct Hi as (Hok & Hfo & Hnil).
  set (buf := q_buf q) in *. set (ms := q_metas q) in *.
  set (k := idx_ge (p + 1) ms). set (kept := dropN k ms).
  pose proof (metas_ok_drop_idx (p + 1) _ _ _ _ Hok) as Hk. fold k kept in Hk.
  assert (Hrk : records_of buf kept = filter (fun r => p <? fst r) (records_of buf ms)).
  { unfold kept. rewrite records_of_dropN. unfold k. rewrite (drop_idx_filter _ _ _ _ _ _ Hok).
    apply filter_ext. intros a. lia. }
  (* the last record is retained *)
  rewrite next_position_recs in Hgt. fold buf ms in Hgt. unfold next_of in Hgt.
  destruct (last_opt (records_of buf ms)) as [x|] eqn:El; [|lia].
  assert (Hlk : last_opt (records_of buf kept) = Some x).
  { rewrite Hrk. apply last_opt_filter; [exact El|lia]. }
  destruct kept as [|m r'] eqn:Ekept; [discriminate|].
  cbn [first_off]. cbn [q_buf q_metas].
  assert (Hk' : metas_ok (N.max (q_start q) (p + 1)) (m_off m) (lenN buf) (m :: r')).
  { cbn [metas_ok] in *. destruct Hk as (H1 & H2 & H3). repeat split; try assumption; lia. }
  assert (Hrec : records_of (dropN (m_off m) buf) (map (rebase (m_off m)) (m :: r')) =
                 records_of buf (m :: r')).
  { eapply records_of_rebase; [exact Hk'|lia]. }
  rewrite Hrec, Hrk.
  split; [|split; [reflexivity|split]].
  - unfold mq_inv. cbn [q_buf q_start q_metas]. split; [|split].
    + rewrite lenN_dropN.
      pose proof (metas_ok_rebase (m_off m) _ _ _ _ Hk' ltac:(lia)) as Hr.
      replace (m_off m - m_off m) with 0 in Hr by lia.
      eapply metas_ok_weaken; [exact Hr|lia|lia].
    + cbn [map first_off rebase m_off]. lia.
    + discriminate.
  - rewrite <- Hrk, <- Ekept. unfold kept. rewrite records_of_dropN, lenN_dropN, lenN_records_of.
    pose proof (idx_ge_le (p + 1) ms). fold k in H. lia.
  - rewrite <- Hrk. rewrite next_position_recs. cbn [q_buf q_start q_metas].
    rewrite Hrec. unfold next_of. rewrite Hlk.
    destruct (records_of buf (m :: r')) eqn:Er; [discriminate|]. cbn [isnil andb].
    rewrite next_position_recs. fold buf ms. unfold next_of. rewrite El. reflexivity.
Qed.

Fixpoint recs_sorted (lp : N) (l : list (N * bytes)) : Prop :=
  match l with
  | [] => True
  | r :: t => lp <= fst r /\ recs_sorted (fst r + 1) t
  end.

Lemma recs_sorted_records buf lp lo len ms :
  metas_ok lp lo len ms -> recs_sorted lp (records_of buf ms).
Proof.
  revert lp lo; induction ms as [|m r IH]; intros lp lo H; [exact I|].
  rewrite records_of_cons. cbn [metas_ok recs_sorted fst] in *.
  destruct H as (H1 & _ & H3). split; [exact H1|]. eapply IH; exact H3.
Qed.

Lemma recs_sorted_weaken lp lp' l : recs_sorted lp l -> lp' <= lp -> recs_sorted lp' l.
Proof. destruct l as [|r t]; cbn [recs_sorted]; [trivial|]. intros (H1 & H2) H. split; [lia|exact H2]. Qed.

Lemma recs_sorted_ge lp l x : recs_sorted lp l -> In x l -> lp <= fst x.
Proof.
  revert lp; induction l as [|r t IH]; intros lp H Hin; [destruct Hin|].
  cbn [recs_sorted] in H. destruct H as (H1 & H2). destruct Hin as [<-|Hin]; [exact H1|].
  specialize (IH _ H2 Hin). lia.
Qed.

Lemma recs_sorted_filter f lp l : recs_sorted lp l -> recs_sorted lp (filter f l).
Proof.
  revert lp; induction l as [|r t IH]; intros lp H; [exact I|].
  cbn [recs_sorted filter] in *. destruct H as (H1 & H2). specialize (IH _ H2).
  destruct (f r).
  - cbn [recs_sorted]. split; assumption.
  - eapply recs_sorted_weaken; [exact IH|lia].
Qed.

(* on a sorted list, take_while of a downward-closed predicate is filter *)
Lemma take_while_filter_sorted (g : N -> bool) lp l :
  recs_sorted lp l ->
  (forall a b, a <= b -> g b = true -> g a = true) ->
  take_while (fun r => g (fst r)) l = filter (fun r => g (fst r)) l.
Proof.
  intros Hs Hg. revert lp Hs; induction l as [|r t IH]; intros lp Hs; [reflexivity|].
  cbn [take_while filter recs_sorted] in *. destruct Hs as (H1 & H2).
  destruct (g (fst r)) eqn:E.
  - f_equal. eapply IH; exact H2.
  - symmetry. apply filter_all_false. intros x Hx.
    pose proof (recs_sorted_ge _ _ _ H2 Hx) as Hge.
    destruct (g (fst x)) eqn:Ex; [|reflexivity].
    rewrite (Hg (fst r) (fst x) ltac:(lia) Ex) in E. discriminate.
Qed.

Definition lob (lo : bound) (p : N) : bool :=
  match lo with Incl a => a <=? p | Excl a => a <? p | Unb => true end.
Definition hib (hi : bound) (p : N) : bool :=
  match hi with Incl b => p <=? b | Excl b => p <? b | Unb => true end.

Lemma in_bounds_split lo hi p : in_bounds lo hi p = lob lo p && hib hi p.
Proof. reflexivity. Qed.

Lemma hib_down hi a b : a <= b -> hib hi b = true -> hib hi a = true.
Proof. destruct hi as [n|n|]; cbn [hib]; intros; lia. Qed.

Lemma has_pos_false a lp lo len ms : metas_ok lp lo len ms -> a < lp -> has_pos a ms = false.
Proof.
  revert lp lo; induction ms as [|m r IH]; intros lp lo H Ha; [reflexivity|].
  unfold has_pos in *. cbn [existsb metas_ok] in *. destruct H as (H1 & _ & H3).
  rewrite (IH _ _ H3) by lia. destruct (N.eqb_spec (m_pos m) a); [lia|reflexivity].
Qed.

Lemma has_pos_cons a m r : has_pos a (m :: r) = (m_pos m =? a) || has_pos a r.
Proof. reflexivity. Qed.

Lemma drop_start_filter buf lo lp loff len ms :
  metas_ok lp loff len ms ->
  dropN (range_start_idx lo ms) (records_of buf ms) =
  filter (fun r => lob lo (fst r)) (records_of buf ms).
Proof.
  intros H. destruct lo as [a|a|]; cbn [range_start_idx lob].
  - eapply drop_idx_filter; exact H.
  - revert lp loff H; induction ms as [|m r IH]; intros lp loff H.
    { cbn [has_pos existsb idx_ge records_of]. reflexivity. }
    cbn [metas_ok] in H. destruct H as (H1 & H2 & H3).
    rewrite has_pos_cons. cbn [idx_ge]. rewrite records_of_cons. cbn [filter fst].
    destruct (N.ltb_spec (m_pos m) a) as [Hlt|Hge].
    + destruct (N.eqb_spec (m_pos m) a) as [He|_]; [lia|]. cbn [orb].
      destruct (N.ltb_spec a (m_pos m)) as [Hc|_]; [lia|].
      specialize (IH _ _ H3). destruct (has_pos a r).
      * replace (1 + idx_ge a r + 1) with (1 + (idx_ge a r + 1)) by lia.
        rewrite dropN_cons_succ. exact IH.
      * rewrite dropN_cons_succ. exact IH.
    + assert (Hall : filter (fun r0 => a <? fst r0) (records_of buf r) = records_of buf r).
      { apply filter_all_true. intros x Hx. pose proof (records_pos_ge _ _ _ _ _ _ H3 Hx). lia. }
      rewrite Hall.
      destruct (N.eqb_spec (m_pos m) a) as [He|Hne]; cbn [orb].
      * destruct (N.ltb_spec a (m_pos m)) as [Hc|_]; [lia|].
        replace (0 + 1) with (1 + 0) by lia. rewrite dropN_cons_succ, dropN_0. reflexivity.
      * rewrite (has_pos_false a _ _ _ _ H3) by lia.
        destruct (N.ltb_spec a (m_pos m)) as [_|Hc]; [|lia]. rewrite dropN_0. reflexivity.
  - rewrite dropN_0. symmetry. apply filter_all_true. reflexivity.
Qed.

Theorem range_refines q lo hi :
  mq_inv q ->
  mq_range q lo hi =
  filter (fun r => in_bounds lo hi (fst r)) (records_of (q_buf q) (q_metas q)).
Proof.
  intros (Hok & _ & _). unfold mq_range.
  rewrite (drop_start_filter _ lo _ _ _ _ Hok).
  rewrite (filter_ext _ (fun r => lob lo (fst r) && hib hi (fst r))
                      (fun r => in_bounds_split lo hi (fst r))).
  rewrite filter_andb.
  rewrite <- (take_while_filter_sorted (hib hi) (q_start q)).
  - rewrite <- (take_while_andb_filter (fun r => lob lo (fst r)) (fun r => hib hi (fst r))).
    reflexivity.
  - apply recs_sorted_filter. eapply recs_sorted_records; exact Hok.
  - apply hib_down.
Qed.

Theorem last_record_refines q :
  mq_inv q -> mq_last_record q = last_opt (records_of (q_buf q) (q_metas q)).
Proof. intros _. unfold mq_last_record. now rewrite last_opt_records_of. Qed.

Theorem last_position_refines q :
  last_position q = (if next_position q =? 0 then None else Some (next_position q - 1)).
Proof. reflexivity. Qed.

Lemma concat_records buf lp lo ms :
  metas_ok lp lo (lenN buf) ms ->
  concat (map snd (records_of buf ms)) =
  match ms with [] => [] | m :: _ => dropN (m_off m) buf end.
Proof.
  revert lp lo; induction ms as [|m r IH]; intros lp lo H; [reflexivity|].
  rewrite records_of_cons. cbn [map concat snd]. cbn [metas_ok] in H.
  destruct H as (H1 & H2 & H3). rewrite (IH _ _ H3).
  destruct r as [|m' r']; cbn [stop_of].
  - rewrite app_nil_r. apply sliceN_to_end.
  - apply sliceN_then_dropN. cbn [metas_ok] in H3. lia.
Qed.

Theorem buf_is_concat q :
  mq_inv q -> q_buf q = concat (map snd (records_of (q_buf q) (q_metas q))).
Proof.
  intros (Hok & Hfo & Hnil). rewrite (concat_records _ _ _ _ Hok).
  destruct (q_metas q) as [|m r]; [now apply Hnil|].
  cbn [first_off] in Hfo. rewrite Hfo, dropN_0. reflexivity.
Qed.

Theorem ring_get_range_ok (left right : bytes) s e :
  s <= e -> e <= lenN left + lenN right ->
  ring_get_range left right s e = sliceN s e (left ++ right).
Proof.
  intros Hse He. unfold ring_get_range.
  destruct (N.ltb_spec e (lenN left)) as [H1|H1].
  - symmetry. apply sliceN_app_l; lia.
  - destruct (N.leb_spec (lenN left) s) as [H2|H2].
    + unfold sliceN. rewrite dropN_app_ge by lia. f_equal. lia.
    + unfold sliceN. rewrite dropN_app_le by lia.
      rewrite takeN_app_ge by (rewrite lenN_dropN; lia).
      rewrite lenN_dropN. f_equal. f_equal. lia.
Qed.

Definition abs_q (q : mq) : squeue := (records_of (q_buf q) (q_metas q), next_position q).
Definition abs_qs (qs : queues) : smap := map (fun '(n, q) => (n, abs_q q)) qs.

Definition sop_of (o : op) : sop :=
  match o with
  | OCreate q => SCreate q
  | ODelete q _ => SDelete q
  | OAppend q pos pl => SAppend q pos pl
  | OTruncate q p _ => STruncate q p
  | OPersist _ => SPersist
  end.

Definition out_logical (o : outcome) : option sout :=
  match o with
  | OutCreate _ | OutDelete _ | OutPersist => Some SOk
  | OutAppend l _ => Some (SAppended l)
  | OutTruncate e _ => Some (STruncated e)
  | OutAlreadyExists => Some SAlreadyExists
  | OutMissing => Some SMissing
  | OutPast => Some SPast
  | OutIo _ => None
  end.

Lemma abs_get qs n :
  s_get (abs_qs qs) n = match qs_get qs n with Some q => Some (abs_q q) | None => None end.
Proof.
  induction qs as [|[n0 q0] r IH]; [reflexivity|].
  cbn [abs_qs map s_get qs_get]. fold (abs_qs r). destruct (bytes_eqb n0 n); [reflexivity|exact IH].
Qed.

Lemma abs_put qs n q : s_put (abs_qs qs) n (abs_q q) = abs_qs (qs_put qs n q).
Proof.
  induction qs as [|[n0 q0] r IH]; [reflexivity|].
  cbn [abs_qs map s_put qs_put]. fold (abs_qs r).
  destruct (bytes_eqb n0 n); cbn [map]; [reflexivity|]. fold (abs_qs (qs_put r n q)).
  now rewrite IH.
Qed.

Lemma abs_remove qs n : s_remove (abs_qs qs) n = abs_qs (qs_remove qs n).
Proof.
  induction qs as [|[n0 q0] r IH]; [reflexivity|].
  cbn [abs_qs map s_remove qs_remove]. fold (abs_qs r).
  destruct (bytes_eqb n0 n); cbn [map]; [exact IH|]. fold (abs_qs (qs_remove r n)).
  now rewrite IH.
Qed.

Lemma qs_get_In qs n q : qs_get qs n = Some q -> exists n', In (n', q) qs.
Proof.
  induction qs as [|[n0 q0] r IH]; intros H; [discriminate|].
  cbn [qs_get] in H. destruct (bytes_eqb n0 n).
  - inversion H; subst. exists n0. now left.
  - destruct (IH H) as (n' & Hin). exists n'. now right.
Qed.

Lemma qs_inv_get qs n q : qs_inv qs -> qs_get qs n = Some q -> mq_inv q.
Proof. intros Hi H. destruct (qs_get_In _ _ _ H) as (n' & Hin). eapply Hi; exact Hin. Qed.

Lemma qs_inv_put qs n q : qs_inv qs -> mq_inv q -> qs_inv (qs_put qs n q).
Proof.
  intros Hi Hq. induction qs as [|[n0 q0] r IH].
  - intros n' q' [E|[]]. inversion E; subst. exact Hq.
  - cbn [qs_put]. destruct (bytes_eqb n0 n).
    + intros n' q' [E|Hin]; [inversion E; subst; exact Hq|]. eapply Hi. right. exact Hin.
    + intros n' q' [E|Hin]; [eapply Hi; left; exact E|].
      eapply IH; [|exact Hin]. intros n1 q1 H1. eapply Hi. right. exact H1.
Qed.

Lemma qs_inv_remove qs n : qs_inv qs -> qs_inv (qs_remove qs n).
Proof.
  intros Hi. induction qs as [|[n0 q0] r IH].
  - intros n' q' [].
  - assert (Hr : qs_inv r) by (intros n1 q1 H1; eapply Hi; right; exact H1).
    cbn [qs_remove]. destruct (bytes_eqb n0 n); [exact (IH Hr)|].
    intros n' q' [E|Hin]; [eapply Hi; left; exact E|]. eapply IH; eauto.
Qed.

Lemma qs_inv_nil : qs_inv [].
Proof. intros n q []. Qed.

Lemma qs_inv_ack qs n next : qs_inv qs -> qs_inv (ack_position qs n next).
Proof.
  intros Hi. unfold ack_position. destruct (qs_get qs n) as [q|].
  - destruct (negb (mq_is_empty q) || negb (next_position q =? next)); [|exact Hi].
    apply qs_inv_put; [exact Hi|apply mq_inv_with_next].
  - apply qs_inv_put; [exact Hi|apply mq_inv_with_next].
Qed.

Section WithParams.
Variable P : params.

Lemma write_entry_qs st e : s_qs (fst (write_entry P st e)) = s_qs st.
Proof. destruct (write_entry_frame P st e) as [w ->]. reflexivity. Qed.

Lemma persist_qs st f : s_qs (persist st f) = s_qs st.
Proof. reflexivity. Qed.

Lemma persist_on_policy_qs st tick : s_qs (persist_on_policy st tick) = s_qs st.
Proof. exact (WriterProofs.persist_on_policy_qs st tick). Qed.

Lemma run_gc_qs st hint : s_qs (fst (run_gc_if_necessary P st hint)) = s_qs st.
Proof. destruct (run_gc_frame P st hint) as [w ->]. reflexivity. Qed.

Lemma last_pos_of_number : forall payloads p,
  payloads <> [] -> last_pos_of p (number_from p payloads) = p + lenN payloads - 1.
Proof.
  unfold last_pos_of.
  assert (H : forall payloads p, payloads <> [] ->
            exists x, last_opt (number_from p payloads) = Some (p + lenN payloads - 1, x)).
  { induction payloads as [|x r IH]; intros p Hne; [congruence|].
    cbn [number_from]. rewrite last_opt_cons. destruct r as [|y r'].
    - cbn [number_from last_opt]. exists x. rewrite lenN_cons, lenN_nil. f_equal. f_equal. lia.
    - destruct (IH (p + 1) ltac:(discriminate)) as (z & ->). exists z.
      rewrite (lenN_cons x). f_equal. f_equal. lia. }
  intros payloads p Hne. destruct (H payloads p Hne) as (x & ->). reflexivity.
Qed.

Lemma number_from_nil_iff p l : number_from p l = [] <-> l = [].
Proof. destruct l; cbn [number_from]; split; intros H; try reflexivity; discriminate. Qed.

Lemma create_refines st q :
  qs_inv (s_qs st) ->
  let '(st', out) := create_queue P st q in
  qs_inv (s_qs st') /\
  (forall so, out_logical out = Some so ->
     s_step (abs_qs (s_qs st)) (SCreate q) = (abs_qs (s_qs st'), so)).
Proof.
  intros Hi. unfold create_queue, qs_contains. cbn [s_step]. rewrite abs_get.
  destruct (qs_get (s_qs st) q) as [m|] eqn:E.
  - split; [exact Hi|]. intros so H. inversion H. reflexivity.
  - pose proof (write_entry_qs st (EPosition q 0)) as Hw.
    destruct (write_entry P st (EPosition q 0)) as [st1 [n|e]]; cbn [fst] in Hw.
    + cbn [set_qs s_qs persist set_wr]. rewrite Hw. split.
      * apply qs_inv_put; [exact Hi|apply mq_inv_default].
      * intros so H. inversion H. rewrite <- abs_put. reflexivity.
    + rewrite Hw. split; [exact Hi|]. intros so H. discriminate.
Qed.

Lemma delete_refines st q hint :
  qs_inv (s_qs st) ->
  let '(st', out) := delete_queue P st q hint in
  qs_inv (s_qs st') /\
  (forall so, out_logical out = Some so ->
     s_step (abs_qs (s_qs st)) (SDelete q) = (abs_qs (s_qs st'), so)).
Proof.
  intros Hi. unfold delete_queue. cbn [s_step]. rewrite abs_get.
  destruct (qs_get (s_qs st) q) as [m|] eqn:E.
  - pose proof (write_entry_qs st (EDelete q (next_position m))) as Hw.
    destruct (write_entry P st (EDelete q (next_position m))) as [st1 [n|e]]; cbn [fst] in Hw.
    + pose proof (run_gc_qs (set_qs st1 (qs_remove (s_qs st1) q)) hint) as Hg.
      destruct (run_gc_if_necessary P (set_qs st1 (qs_remove (s_qs st1) q)) hint)
        as [st3 [k|e]]; cbn [fst set_qs s_qs] in Hg.
      * rewrite persist_qs, Hg, Hw. split; [now apply qs_inv_remove|].
        intros so H. inversion H. rewrite abs_remove. reflexivity.
      * rewrite Hg, Hw. split; [now apply qs_inv_remove|]. intros so H. discriminate.
    + rewrite Hw. split; [exact Hi|]. intros so H. discriminate.
  - split; [exact Hi|]. intros so H. inversion H. reflexivity.
Qed.

Lemma truncate_refines st q p hint tick :
  qs_inv (s_qs st) ->
  let '(st', out) := truncate P st q p hint tick in
  qs_inv (s_qs st') /\
  (forall so, out_logical out = Some so ->
     s_step (abs_qs (s_qs st)) (STruncate q p) = (abs_qs (s_qs st'), so)).
Proof.
  intros Hi. unfold truncate. cbn [s_step]. rewrite abs_get.
  destruct (qs_get (s_qs st) q) as [m|] eqn:E.
  - pose proof (write_entry_qs st (ETruncate q p)) as Hw.
    destruct (write_entry P st (ETruncate q p)) as [st1 [n|e]]; cbn [fst] in Hw.
    + pose proof (truncate_head_refines m p (qs_inv_get _ _ _ Hi E)) as Ht.
      destruct (truncate_head m p) as [m' ev]. destruct Ht as (Hi' & Hr & Hev & Hn).
      pose proof (run_gc_qs (set_qs st1 (qs_put (s_qs st1) q m')) hint) as Hg.
      destruct (run_gc_if_necessary P (set_qs st1 (qs_put (s_qs st1) q m')) hint)
        as [st3 [k|e]]; cbn [fst set_qs s_qs] in Hg.
      * rewrite persist_on_policy_qs, Hg, Hw. split; [now apply qs_inv_put|].
        intros so H. inversion H. unfold abs_q at 1. cbn iota.
        rewrite <- abs_put. unfold abs_q. rewrite Hn, Hev, Hr. reflexivity.
      * rewrite Hg, Hw. split; [now apply qs_inv_put|]. intros so H. discriminate.
    + rewrite Hw. split; [exact Hi|]. intros so H. discriminate.
  - split; [exact Hi|]. intros so H. inversion H. reflexivity.
Qed.

(* a rejected or no-op call is rejected, or a no-op, in the specification too *)
Lemma noop_refines st o out so :
  noop_call st o out -> out_logical out = Some so ->
  s_step (abs_qs (s_qs st)) (sop_of o) = (abs_qs (s_qs st), so).
Proof.
  intros H Ho.
  destruct H as [q Hq|q hint Hq|q pos pl Hq|q p hint Hq|q m p pl Hq Hp|q m p pl Hq Hp|q m pos Hq Hp];
    cbn [out_logical] in Ho; injection Ho as <-; cbn [sop_of s_step]; rewrite abs_get.
  - unfold qs_contains in Hq. destruct (qs_get (s_qs st) q); [reflexivity|discriminate].
  - now rewrite Hq.
  - now rewrite Hq.
  - now rewrite Hq.
  - rewrite Hq. unfold abs_q.
    destruct (N.eqb_spec (p + 1) (next_position m)); [reflexivity|contradiction].
  - rewrite Hq. unfold abs_q. destruct (N.eqb_spec (p + 1) (next_position m)); [lia|].
    destruct (N.ltb_spec p (next_position m)); [reflexivity|lia].
  - rewrite Hq. unfold abs_q. destruct pos as [p|]; [|reflexivity].
    destruct (N.eqb_spec (p + 1) (next_position m)); [lia|].
    destruct (N.ltb_spec p (next_position m)); [lia|reflexivity].
Qed.

Lemma append_refines st q pos payloads tick :
  qs_inv (s_qs st) ->
  let '(st', out) := append_records P st q pos payloads tick in
  qs_inv (s_qs st') /\
  (forall so, out_logical out = Some so ->
     s_step (abs_qs (s_qs st)) (SAppend q pos payloads) = (abs_qs (s_qs st'), so)).
Proof.
  intros Hi.
  destruct (append_records_cases P st q pos payloads tick)
    as [[out [Hn Eq]]|(m & position & m' & E & Epos & Hpos & Hne & Em & Eq)]; rewrite Eq.
  { split; [exact Hi|]. intros so Ho. exact (noop_refines _ _ _ _ Hn Ho). }
  pose proof (qs_inv_get _ _ _ Hi E) as Hm.
  pose proof (write_entry_qs st (EAppend q position (number_from position payloads))) as Hw.
  destruct (write_entry P st _) as [st1 [n|e]]; cbn [fst] in Hw.
  2:{ rewrite Hw. split; [exact Hi|]. intros so H. discriminate. }
  destruct (append_all_refines payloads m (w_file (s_wr st)) position Hm Hpos Hne)
    as (m0 & Em0 & Hi' & Hr' & Hn').
  rewrite Em in Em0. injection Em0 as <-.
  cbn [set_qs s_qs]. rewrite persist_on_policy_qs, Hw. split; [now apply qs_inv_put|].
  intros so H. inversion H. rewrite <- abs_put. unfold abs_q. rewrite Hr', Hn'.
  rewrite last_pos_of_number by exact Hne.
  (* the specification passes the same guards *)
  cbn [s_step]. rewrite abs_get, E. unfold abs_q.
  destruct payloads as [|x r]; [contradiction|].
  destruct pos as [p|]; subst position; [|reflexivity].
  destruct (N.eqb_spec (p + 1) (next_position m)); [lia|].
  destruct (N.ltb_spec p (next_position m)); [lia|reflexivity].
Qed.

Theorem step_refines : forall st o tick,
  qs_inv (s_qs st) ->
  let '(st', out) := step P st o tick in
  qs_inv (s_qs st') /\
  (forall so, out_logical out = Some so ->
              s_step (abs_qs (s_qs st)) (sop_of o) = (abs_qs (s_qs st'), so)).
Proof.
  intros st o tick Hi. destruct o as [q|q hint|q pos payloads|q p hint|fs]; cbn [step sop_of].
  - apply create_refines; exact Hi.
  - apply delete_refines; exact Hi.
  - apply append_refines; exact Hi.
  - apply truncate_refines; exact Hi.
  - rewrite persist_qs. split; [exact Hi|]. intros so H. inversion H. reflexivity.
Qed.

(* OutPast is only ever produced by the early guard: append_all cannot fail after it *)
Theorem append_past_only_guard st q pos payloads tick :
  snd (append_records P st q pos payloads tick) = OutPast ->
  exists m p, qs_get (s_qs st) q = Some m /\ pos = Some p /\ p + 1 < next_position m.
Proof.
  destruct (append_records_cases P st q pos payloads tick)
    as [[out [Hn Eq]]|(m & position & m' & _ & _ & _ & _ & _ & Eq)]; rewrite Eq; cbn [snd].
  - intros ->. inversion Hn as [| | | | |q0 m0 p0 pl Hq Hp|]; subst. now exists m0, p0.
  - destruct (write_entry P st _) as [st1 [n|e]]; discriminate.
Qed.

Fixpoint s_run (m : smap) (ops : list sop) : smap * list sout :=
  match ops with
  | [] => (m, [])
  | o :: r =>
      let '(m1, out) := s_step m o in
      let '(m2, outs) := s_run m1 r in (m2, out :: outs)
  end.

Theorem run_refines : forall h st,
  qs_inv (s_qs st) ->
  let '(st', outs) := run P st h in
  qs_inv (s_qs st') /\
  (forall souts, map out_logical outs = map Some souts ->
     s_run (abs_qs (s_qs st)) (map (fun ot => sop_of (fst ot)) h) = (abs_qs (s_qs st'), souts)).
Proof.
  induction h as [|[o tick] h IH]; intros st Hi; cbn [run].
  - split; [exact Hi|]. intros souts H. destruct souts; [reflexivity|discriminate].
  - pose proof (step_refines st o tick Hi) as Hs.
    destruct (step P st o tick) as [st1 out]. destruct Hs as (Hi1 & Hs).
    specialize (IH st1 Hi1). destruct (run P st1 h) as [st2 outs]. destruct IH as (Hi2 & IH).
    split; [exact Hi2|]. intros souts H. destruct souts as [|so souts]; [discriminate|].
    cbn [map] in H. inversion H as [[H1 H2]].
    cbn [map s_run fst]. rewrite (Hs so H1). rewrite (IH souts H2). reflexivity.
Qed.

(* from the empty log every history refines the specification *)
Corollary run_refines_from_empty : forall h w pol,
  let '(st', outs) := run P (mkSt w [] pol) h in
  qs_inv (s_qs st') /\
  (forall souts, map out_logical outs = map Some souts ->
     s_run [] (map (fun ot => sop_of (fst ot)) h) = (abs_qs (s_qs st'), souts)).
Proof. intros h w pol. apply (run_refines h (mkSt w [] pol)). apply qs_inv_nil. Qed.
End WithParams.

Theorem log_range_refines st q lo hi :
  qs_inv (s_qs st) -> log_range st q lo hi = s_range (abs_qs (s_qs st)) q lo hi.
Proof.
  intros Hi. unfold log_range, s_range. rewrite abs_get.
  destruct (qs_get (s_qs st) q) as [m|] eqn:E; [|reflexivity].
  unfold abs_q. now rewrite (range_refines m lo hi (qs_inv_get _ _ _ Hi E)).
Qed.

Theorem log_last_position_refines st q :
  log_last_position st q = s_last_position (abs_qs (s_qs st)) q.
Proof.
  unfold log_last_position, s_last_position. rewrite abs_get.
  destruct (qs_get (s_qs st) q) as [m|]; reflexivity.
Qed.

Theorem log_last_record_refines st q :
  qs_inv (s_qs st) -> log_last_record st q = s_last_record (abs_qs (s_qs st)) q.
Proof.
  intros Hi. unfold log_last_record, s_last_record. rewrite abs_get.
  destruct (qs_get (s_qs st) q) as [m|] eqn:E; [|reflexivity].
  unfold abs_q. now rewrite (last_record_refines m (qs_inv_get _ _ _ Hi E)).
Qed.

Theorem apply_entry_inv qs file e qs' :
  qs_inv qs -> apply_entry qs file e = Some qs' -> qs_inv qs'.
Proof.
  intros Hi H. destruct e as [q pos recs|q p|q p|q p]; cbn [apply_entry] in H.
  - set (qs1 := if qs_contains qs q then qs else ack_position qs q pos) in *.
    assert (Hi1 : qs_inv qs1).
    { unfold qs1. destruct (qs_contains qs q); [exact Hi|now apply qs_inv_ack]. }
    destruct (qs_get qs1 q) as [m|] eqn:E; [|discriminate].
    destruct (append_all m file recs) as [m'|] eqn:Ea; [|discriminate].
    inversion H; subst. apply qs_inv_put; [exact Hi1|].
    eapply append_all_inv; [|exact Ea]. eapply qs_inv_get; eauto.
  - destruct (qs_get qs q) as [m|] eqn:E.
    + inversion H; subst. apply qs_inv_put; [exact Hi|].
      pose proof (truncate_head_refines m p (qs_inv_get _ _ _ Hi E)) as Ht.
      destruct (truncate_head m p) as [m' k]. cbn [fst]. apply Ht.
    + inversion H; subst. exact Hi.
  - inversion H; subst. now apply qs_inv_ack.
  - inversion H; subst. now apply qs_inv_remove.
Qed.

Lemma replay_loop_inv P : forall fuel gofuel rr qs rr' qs',
  qs_inv qs -> replay_loop P fuel gofuel rr qs = (rr', RpDone qs') -> qs_inv qs'.
Proof.
  induction fuel as [|fuel IH]; intros gofuel rr qs rr' qs' Hi H; cbn [replay_loop] in H.
  - discriminate.
  - destruct (go_next P rreaderS (rd_next P) rd_block gofuel rr) as [rr1 [| | |e|]].
    + destruct (entry_deser (rr_buf rr1)) as [e|]; [|eapply IH; eauto].
      destruct (apply_entry qs (rd_file (fr_rd (rr_fr rr))) e) as [qs1|] eqn:Ea; [|discriminate].
      eapply IH; [|exact H]. eapply apply_entry_inv; eauto.
    + inversion H; subst. exact Hi.
    + eapply IH; eauto.
    + destruct (L_IO P); [eapply IH; eauto|discriminate].
    + discriminate.
Qed.

Theorem open_with_inv P fuel fs plan pol hint st :
  open_with P fuel fs plan pol hint = OpenOk st -> qs_inv (s_qs st).
Proof.
  unfold open_with. destruct (rd_open P (ctx_init fs plan)) as [c [rd|e]]; [|discriminate].
  destruct (replay_loop P fuel fuel (rr_open rreaderS rd) []) as [rr res] eqn:Er.
  destruct res as [qs| |e|]; try discriminate.
  pose proof (replay_loop_inv P _ _ _ _ _ _ qs_inv_nil Er) as Hi.
  set (st0 := mkSt _ qs pol).
  pose proof (run_gc_qs P st0 hint) as Hg.
  destruct (run_gc_if_necessary P st0 hint) as [st1 [k|e]]; [|discriminate].
  intros H. inversion H; subst. cbn [fst] in Hg. rewrite Hg. exact Hi.
Qed.

Corollary open_inv P fs plan pol hint st :
  open P fs plan pol hint = OpenOk st -> qs_inv (s_qs st).
Proof. apply open_with_inv. Qed.

Definition payload_bytes (recs : list (N * bytes)) : N :=
  fold_right (fun r acc => lenN (snd r) + acc) 0 recs.

Lemma lenN_concat_payloads recs : lenN (concat (map snd recs)) = payload_bytes recs.
Proof.
  induction recs as [|r t IH]; [reflexivity|].
  cbn [map concat payload_bytes fold_right]. rewrite lenN_app, IH. reflexivity.
Qed.

Theorem mq_size_formula K q :
  mq_inv q ->
  mq_size K q = payload_bytes (records_of (q_buf q) (q_metas q))
              + K * lenN (records_of (q_buf q) (q_metas q)).
Proof.
  intros Hi. unfold mq_size.
  pose proof (f_equal lenN (buf_is_concat q Hi)) as Hb.
  rewrite lenN_concat_payloads in Hb. rewrite lenN_records_of. lia.
Qed.

Theorem qs_size_formula : forall K qs, qs_inv qs ->
  qs_size K qs =
  fold_right (fun '(n, (recs, _)) acc => lenN n + payload_bytes recs + K * lenN recs + acc)
             0 (abs_qs qs).
Proof.
  intros K qs. induction qs as [|[n q] r IH]; intros Hi; [reflexivity|].
  unfold qs_size in *. cbn [abs_qs map fold_right]. fold (abs_qs r).
  assert (Hr : qs_inv r) by (intros n1 q1 H1; eapply Hi; right; exact H1).
  rewrite (IH Hr). unfold abs_q at 1.
  rewrite (mq_size_formula K q (Hi n q (or_introl eq_refl))). lia.
Qed.

Corollary log_memory_used_formula P st :
  qs_inv (s_qs st) ->
  log_memory_used P st =
  fold_right (fun '(n, (recs, _)) acc => lenN n + payload_bytes recs + RMS P * lenN recs + acc)
             0 (abs_qs (s_qs st)).
Proof. intros Hi. unfold log_memory_used. now apply qs_size_formula. Qed.

Print Assumptions step_refines.
Print Assumptions run_refines.
Print Assumptions append_record_refines.
Print Assumptions append_all_refines.
Print Assumptions range_refines.
Print Assumptions truncate_head_refines.
Print Assumptions last_record_refines.
Print Assumptions buf_is_concat.
Print Assumptions ring_get_range_ok.
Print Assumptions apply_entry_inv.
Print Assumptions qs_size_formula.
Print Assumptions open_inv.
Print Assumptions log_range_refines.
Print Assumptions append_past_only_guard.
