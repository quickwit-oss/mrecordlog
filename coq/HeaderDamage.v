(* HeaderDamage.v — properties C08 / C12, finding F4 made precise, stream level:
   ONE block of the stream damaged arbitrarily, frame HEADERS included (length field, type
   byte), so that frame boundaries are no longer where the writer put them.
   Setting as in DamageProofs.v: in-memory writer vecw / block reader vecr of Driver.v.
   The frame trace of a reader started at any block boundary before the damaged block, on a
   stream with or without the spare zero block of mem_stream, with the reader it is left in at
   the end (frames_from, header_damage_from_core), serves both the in-memory theorems here
   (header_damage_core: start at block 0) and the directory theorems of HeaderDamageFile.v. *)
From Coq Require Import Lia ZArith ZifyN ZifyNat ZifyBool.
From MRL Require Import Bytes BytesProofs Params Frame Driver StreamProofs DamageProofs TornProofs
  ResyncProofs HeaderDamageEv.
From MRL Require FileStream OpenReplay TornFile DamageFile.

Lemma takeN_add {A} x y (m : list A) : takeN (x + y) m = takeN x m ++ takeN y (dropN x m).
Proof.
  destruct (N.le_gt_cases x (lenN m)) as [Hle|Hgt].
  - rewrite <- (takeN_dropN x m) at 1.
    rewrite takeN_app_ge by (rewrite lenN_takeN; lia).
    rewrite lenN_takeN. f_equal. f_equal. lia.
  - rewrite (dropN_all x m) by lia. rewrite !takeN_all by (try rewrite (@lenN_nil A); lia).
    cbn [takeN]. now rewrite app_nil_r.
Qed.

Lemma sliceN_cat {A} a b c (l : list A) :
  a <= b -> b <= c -> sliceN a b l ++ sliceN b c l = sliceN a c l.
Proof.
  intros H1 H2. unfold sliceN.
  replace (c - a) with ((b - a) + (c - b)) by lia. rewrite takeN_add, dropN_dropN.
  replace (a + (b - a)) with b by lia. reflexivity.
Qed.

Lemma split3 {A} x y (D : list A) : x <= y -> D = takeN x D ++ sliceN x y D ++ dropN y D.
Proof.
  intros H. rewrite <- (takeN_dropN x D) at 1. f_equal.
  unfold sliceN. rewrite <- (takeN_dropN (y - x) (dropN x D)) at 1. f_equal.
  rewrite dropN_dropN. f_equal. lia.
Qed.

Lemma sliceN_agree_lo {A} n x y (D S : list A) :
  takeN n D = takeN n S -> y <= n -> sliceN x y D = sliceN x y S.
Proof.
  intros E Hy.
  assert (H : forall L : list A, sliceN x y (takeN n L) = sliceN x y L).
  { intros L. unfold sliceN. rewrite dropN_takeN, takeN_takeN. f_equal. lia. }
  rewrite <- (H D), <- (H S), E. reflexivity.
Qed.

Lemma sliceN_agree_hi {A} n x y (D S : list A) :
  dropN n D = dropN n S -> n <= x -> sliceN x y D = sliceN x y S.
Proof.
  intros E Hx. unfold sliceN.
  replace x with (n + (x - n)) by lia. rewrite <- !dropN_dropN, E. reflexivity.
Qed.

Lemma ft_of_code_inv n t : ft_of_code n = Some t -> n = ft_code t.
Proof.
  intros H. destruct n as [|p]; [discriminate|].
  do 3 (try destruct p as [p|p|]); cbn in H; try discriminate; inversion H; reflexivity.
Qed.

(* a 7-byte header with a valid type byte is the serialisation of its decoded fields *)
Lemma hdr_decompose (hdr : bytes) t :
  lenN hdr = 7 -> ft_of_code (le_dec (dropN 6 hdr)) = Some t ->
  hdr = header_bytes (le_dec (takeN 4 hdr)) (le_dec (sliceN 4 6 hdr)) t.
Proof.
  intros Hl Ht. unfold header_bytes.
  assert (E : hdr = takeN 4 hdr ++ sliceN 4 6 hdr ++ dropN 6 hdr) by (apply split3; lia).
  assert (L4 : length (takeN 4 hdr) = 4%nat).
  { pose proof (lenN_takeN 4 hdr) as H. rewrite (lenN_length (takeN 4 hdr)) in H. lia. }
  assert (L2 : length (sliceN 4 6 hdr) = 2%nat).
  { pose proof (FileStream.lenN_sliceN 4 6 hdr) as H. rewrite (lenN_length (sliceN 4 6 hdr)) in H. lia. }
  assert (L1 : lenN (dropN 6 hdr) = 1) by (rewrite lenN_dropN; lia).
  rewrite <- L4 at 1. rewrite le_enc_dec. rewrite <- L2 at 1. rewrite le_enc_dec.
  destruct (dropN 6 hdr) as [|tb [|tb' r]] eqn:Ed.
  - rewrite (@lenN_nil byte) in L1. lia.
  - cbn [le_dec] in Ht. apply ft_of_code_inv in Ht.
    replace (n2b (ft_code t)) with tb; [exact E|].
    rewrite <- Ht. replace (b2n tb + 256 * 0) with (b2n tb) by lia. now rewrite n2b_b2n.
  - rewrite !lenN_cons in L1. lia.
Qed.

Section HD.
Variable P : params.
Hypothesis HBS_lo : 7 < BS P.
Hypothesis HBS_hi : BS P <= 65542.
Hypothesis Hcrc : forall t p, crcf P t p < 2 ^ 32.

Local Notation B := (BS P).
Local Notation rframe := (read_frame P vecr (vr_next P) vr_block).
Local Notation pad_of := (pad_of P).
Local Notation rd_at := (rd_at P).
Local Notation rd_of := (rd_of P).
Local Notation at_pos := (at_pos P).
Local Notation stream_ok := (stream_ok P).
Local Notation layout := (layout P).
Local Notation fs_good := (fs_good P).
Local Notation good_fs := (good_fs P).
Local Notation ffp := (first_frame_pos P).
Local Notation ftrace := (ftrace P).
Local Notation ftraceF := (ftraceF P).
Local Notation H3 f := (f P HBS_lo HBS_hi Hcrc) (only parsing).
Local Notation H2 f := (f P HBS_lo HBS_hi) (only parsing).
Local Notation pad_geom := (H2 TornProofs.pad_geom).
Local Notation at_pos_pad := (H3 TornProofs.at_pos_pad).
Local Notation kc_unique := (H2 TornProofs.kc_unique).
Local Notation blocks_above := (H2 TornProofs.blocks_above).
Local Notation block_exists := (H3 TornProofs.block_exists).
Local Notation mulB_lt_inv := (H2 TornProofs.mulB_lt_inv).
Local Notation mulB_le := (TornProofs.mulB_le P).
Local Notation read_frame_corruptflag := (H3 TornProofs.read_frame_corruptflag).
Local Notation read_frame_skip := (H3 StreamProofs.read_frame_skip).
Local Notation read_frame_zero := (H3 StreamProofs.read_frame_zero).
Local Notation read_frame_gen_here := (H3 DamageProofs.read_frame_gen_here).

Implicit Types D S : bytes.

Lemma lenN_block D k : (k + 1) * B <= lenN D -> lenN (sliceN (k * B) ((k + 1) * B) D) = B.
Proof. intros H. rewrite FileStream.lenN_sliceN by exact H. lia. Qed.

Lemma read_frame_cases D k c :
  c + 7 <= B -> (k + 1) * B <= lenN D ->
  (rframe (rd_at D k c) = (rd_at D k c, FNotAvail) /\
   all_zero (sliceN (k * B + c) (k * B + c + 7) D) = true) \/
  (exists c', rframe (rd_at D k c) = (mkFR (rd_of D k) c' true, FCorrupt)) \/
  (exists len, c + 7 + len <= B /\ rframe (rd_at D k c) = (rd_at D k (c + 7 + len), FCorrupt)) \/
  (exists t p, c + 7 + lenN p <= B /\
     rframe (rd_at D k c) = (rd_at D k (c + 7 + lenN p), FOk t p) /\
     sliceN (k * B + c) (k * B + c + 7 + lenN p) D = frame_bytes P t p).
Proof.
  intros Hc Hblk.
  unfold read_frame, StreamProofs.rd_at, HEADER_LEN. cbn [fr_corrupt fr_cursor fr_rd orb vr_block].
  destruct (N.ltb_spec (B - c) 7) as [Hlt|_]; [lia|].
  cbn [fr_corrupt fr_cursor fr_rd orb vr_block].
  set (blk := sliceN (k * B) ((k + 1) * B) D).
  assert (Lblk : lenN blk = B) by (apply lenN_block; exact Hblk).
  set (hdr := sliceN c (c + 7) blk).
  assert (Lhdr : lenN hdr = 7) by (unfold hdr; rewrite FileStream.lenN_sliceN by lia; lia).
  destruct (all_zero hdr) eqn:Ez.
  { left. split; [reflexivity|]. unfold hdr, blk in Ez. rewrite sliceN_sliceN in Ez by lia.
    replace (k * B + (c + 7)) with (k * B + c + 7) in Ez by lia. exact Ez. }
  right.
  destruct (ft_of_code (le_dec (dropN 6 hdr))) as [t|] eqn:Et.
  2:{ left. exists c. reflexivity. }
  set (len := le_dec (sliceN 4 6 hdr)).
  destruct (N.ltb_spec B (c + 7 + len)) as [Hlong|Hfit].
  { left. exists (c + 7). reflexivity. }
  right.
  set (payload := sliceN (c + 7) (c + 7 + len) blk).
  assert (Lp : lenN payload = len) by (unfold payload; rewrite FileStream.lenN_sliceN by lia; lia).
  destruct (N.eqb_spec (crcf P (n2b (ft_code t)) payload) (le_dec (takeN 4 hdr))) as [Ecrc|Ncrc].
  - right. exists t, payload. rewrite Lp. split; [exact Hfit|]. split; [reflexivity|].
    unfold frame_bytes. rewrite Ecrc, Lp.
    pose proof (hdr_decompose hdr t Lhdr Et) as Eh. fold len in Eh. rewrite <- Eh.
    unfold hdr, payload, blk. rewrite !sliceN_sliceN by lia.
    replace (k * B + (c + 7)) with (k * B + c + 7) by lia.
    replace (k * B + (c + 7 + len)) with (k * B + c + 7 + len) by lia.
    symmetry. apply sliceN_cat; lia.
  - left. exists len. split; [exact Hfit|reflexivity].
Qed.

(* a frame image (any 4 checksum bytes) standing at (k, c) of D *)
Lemma read_frame_present D k c x :
  lenN (fs_c4 x) = 4 -> c + 7 + lenN (fs_pl x) <= B -> (k + 1) * B <= lenN D ->
  sliceN (k * B + c) (k * B + c + 7 + lenN (fs_pl x)) D = fs_bytes x ->
  rframe (rd_at D k c) =
    (rd_at D k (c + 7 + lenN (fs_pl x)),
     if fs_good x then FOk (fs_ty x) (fs_pl x) else FCorrupt).
Proof.
  intros Hc4 Hfit Hblk Hsl.
  pose proof (split3 (k * B + c) (k * B + c + 7 + lenN (fs_pl x)) D) as HD.
  rewrite Hsl in HD. unfold fs_bytes in HD.
  rewrite (read_frame_gen_here D k c _ _ _ _ _ (HD ltac:(lia)) Hc4); try lia.
  - reflexivity.
  - rewrite lenN_takeN. lia.
Qed.

(* leaving block k: to the next block if there is one, otherwise the end *)
Definition leaves (D : bytes) (k : N) (fr : freader vecr) : Prop :=
  ((k + 2) * B <= lenN D -> rframe fr = rframe (rd_at D (k + 1) 0)) /\
  (lenN D < (k + 2) * B -> exists fr', rframe fr = (fr', FNotAvail)).

Lemma read_frame_nonext D k c cf :
  lenN D < (k + 2) * B -> cf = true \/ B - c < 7 ->
  exists fr', rframe (mkFR (rd_of D k) c cf) = (fr', FNotAvail).
Proof.
  intros Hlen Hskip. unfold read_frame, TornProofs.rd_of, HEADER_LEN.
  cbn [fr_corrupt fr_cursor fr_rd].
  assert (E : cf || (B - c <? 7) = true).
  { destruct Hskip as [->|H]; [reflexivity|]. apply orb_true_iff. right. apply N.ltb_lt. exact H. }
  rewrite E. unfold vr_next. cbn [vr_rest vr_block]. rewrite lenN_dropN.
  destruct (N.ltb_spec (lenN D - (k + 1) * B) B) as [_|Hge]; [|lia].
  eexists. reflexivity.
Qed.

Lemma leaves_skip D k c : B - c < 7 -> leaves D k (rd_at D k c).
Proof.
  intros Hc. split.
  - intros Hlen. apply read_frame_skip; [exact Hc|exact Hlen].
  - intros Hlen. apply (read_frame_nonext D k c false Hlen). right. exact Hc.
Qed.

Lemma leaves_flag D k c : leaves D k (mkFR (rd_of D k) c true).
Proof.
  split.
  - intros Hlen. apply read_frame_corruptflag. exact Hlen.
  - intros Hlen. apply (read_frame_nonext D k c true Hlen). left. reflexivity.
Qed.


Fixpoint fpos (a : N) (xs : list fspec) : list (N * fspec) :=
  match xs with
  | [] => []
  | x :: r => (a + lenN (pad_of a), x) :: fpos (a + lenN (pad_of a) + 7 + lenN (fs_pl x)) r
  end.

Definition qend (qx : N * fspec) : N := fst qx + 7 + lenN (fs_pl (snd qx)).

(* positions at or after lo, frames not overlapping *)
Fixpoint spaced (lo : N) (G : list (N * fspec)) : Prop :=
  match G with [] => True | qx :: r => lo <= fst qx /\ spaced (qend qx) r end.

Lemma map_snd_fpos xs : forall a, map snd (fpos a xs) = xs.
Proof. induction xs as [|x xs IH]; intros a; cbn [fpos map snd]; [reflexivity|]. now rewrite IH. Qed.

Lemma lenN_fs_bytes x : lenN (fs_c4 x) = 4 -> lenN (fs_bytes x) = 7 + lenN (fs_pl x).
Proof. intros H. unfold fs_bytes. apply lenN_dframe. exact H. Qed.

Lemma layout_step_pos a x (e : bytes) :
  lenN (fs_c4 x) = 4 ->
  a + lenN (pad_of a ++ fs_bytes x ++ e) = a + lenN (pad_of a) + 7 + lenN (fs_pl x) + lenN e.
Proof. intros H. rewrite !lenN_app, lenN_fs_bytes by exact H. lia. Qed.

Lemma fpos_app a xs1 e1 : layout a xs1 e1 ->
  forall xs2, fpos a (xs1 ++ xs2) = fpos a xs1 ++ fpos (a + lenN e1) xs2.
Proof.
  induction 1 as [a | a x xs e Hc4 Hfit Hl IH]; intros xs2.
  - cbn [app fpos]. rewrite (@lenN_nil byte), N.add_0_r. reflexivity.
  - cbn [app fpos]. f_equal. rewrite IH. f_equal. f_equal. rewrite layout_step_pos by exact Hc4. reflexivity.
Qed.

Lemma spaced_fpos xs : forall a lo, lo <= ffp a -> spaced lo (fpos a xs).
Proof.
  induction xs as [|x xs IH]; intros a lo H; cbn [fpos spaced]; [exact I|].
  split; [exact H|]. apply IH. unfold qend, first_frame_pos. cbn [fst snd]. lia.
Qed.

Lemma spaced_fpos_or xs a lo : xs = [] \/ lo <= ffp a -> spaced lo (fpos a xs).
Proof. intros [->|H]; [exact I|]. apply spaced_fpos. exact H. Qed.

Lemma fpos_bounds a xs e : layout a xs e ->
  Forall (fun qx => a <= fst qx /\ qend qx <= a + lenN e) (fpos a xs).
Proof.
  induction 1 as [a | a x xs e Hc4 Hfit Hl IH]; cbn [fpos]; constructor.
  - unfold qend. cbn [fst snd]. rewrite layout_step_pos by exact Hc4. lia.
  - eapply Forall_impl; [|exact IH]. intros qx [H1 H2]. rewrite layout_step_pos by exact Hc4. lia.
Qed.

Definition present1 (D : bytes) (qx : N * fspec) : Prop :=
  sliceN (fst qx) (qend qx) D = fs_bytes (snd qx).

Lemma layout_present a xs e : layout a xs e ->
  forall D pre post, D = pre ++ e ++ post -> lenN pre = a -> Forall (present1 D) (fpos a xs).
Proof.
  induction 1 as [a | a x xs e Hc4 Hfit Hl IH]; intros D pre post HD Hpre; cbn [fpos]; constructor.
  - unfold present1, qend. cbn [fst snd].
    rewrite HD, <- !app_assoc, (app_assoc pre).
    apply sliceN_app_mid'; [rewrite lenN_app; lia|]. rewrite lenN_fs_bytes by exact Hc4. lia.
  - apply (IH D (pre ++ pad_of a ++ fs_bytes x) post).
    + rewrite HD, <- !app_assoc. reflexivity.
    + rewrite !lenN_app, lenN_fs_bytes by exact Hc4. lia.
Qed.

(* every frame lies within one block *)
Definition fits1 (qx : N * fspec) : Prop := exists k, k * B <= fst qx /\ qend qx <= (k + 1) * B.

Lemma layout_fits a xs e : layout a xs e -> Forall fits1 (fpos a xs).
Proof.
  induction 1 as [a | a x xs e Hc4 Hfit Hl IH]; cbn [fpos]; constructor; [|exact IH].
  destruct (pad_geom a) as (k' & c' & Hp & Hc' & Hmw & _).
  exists k'. unfold qend. cbn [fst snd]. lia.
Qed.

Lemma spaced_split lo' : forall R lo, spaced lo R ->
  exists Rs R', R = Rs ++ R' /\ Forall (fun qx => fst qx < lo') Rs /\ spaced lo' R'.
Proof.
  induction R as [|qx r IH]; intros lo H.
  - exists [], []. repeat split; constructor.
  - destruct H as [H1 H2]. destruct (N.lt_ge_cases (fst qx) lo') as [Hlt|Hge].
    + destruct (IH _ H2) as (Rs & R' & -> & HF & HS).
      exists (qx :: Rs), R'. repeat split; [constructor; assumption|exact HS].
    + exists [], (qx :: r). repeat split; [constructor|exact Hge|exact H2].
Qed.

Lemma spaced_in_ge R : forall lo qx, spaced lo R -> In qx R -> lo <= fst qx.
Proof.
  induction R as [|q1 r IH]; intros lo qx H Hin; [contradiction|].
  destruct H as [H1 H2]. destruct Hin as [<-|Hin]; [exact H1|].
  pose proof (IH _ _ H2 Hin) as H. unfold qend in H. lia.
Qed.

Lemma spaced_head lo R x : spaced lo R -> In (lo, x) R ->
  exists r, R = (lo, x) :: r /\ spaced (qend (lo, x)) r.
Proof.
  destruct R as [|q1 r]; [contradiction|]. intros [H1 H2] [E|Hin].
  - subst q1. exists r. split; [reflexivity|exact H2].
  - pose proof (spaced_in_ge _ _ _ H2 Hin) as H. unfold qend in H. cbn [fst] in H. lia.
Qed.

Lemma split_prefix lo A : forall R A' R',
  Forall (fun qx => fst qx < lo) A -> spaced lo R' -> A ++ R = A' ++ R' ->
  exists M, A' = A ++ M /\ R = M ++ R'.
Proof.
  induction A as [|y A IH]; intros R A' R' HA HR' E.
  - exists A'. split; [reflexivity|exact E].
  - destruct A' as [|y' A'].
    + cbn [app] in E. subst R'. destruct HR' as [H1 _].
      pose proof (Forall_inv HA) as H. cbn beta in H. lia.
    + cbn [app] in E. inversion E as [[Ey E']]. subst y'.
      destruct (IH R A' R' (Forall_inv_tail HA) HR' E') as (M & -> & ->).
      exists M. split; reflexivity.
Qed.

Lemma split_unique lo A R A' R' :
  Forall (fun qx => fst qx < lo) A -> spaced lo R ->
  Forall (fun qx => fst qx < lo) A' -> spaced lo R' ->
  A ++ R = A' ++ R' -> A = A' /\ R = R'.
Proof.
  intros HA HR HA' HR' E.
  destruct (split_prefix lo A R A' R' HA HR' E) as (M & EA & ER).
  destruct M as [|m M].
  - rewrite app_nil_r in EA. subst. split; reflexivity.
  - exfalso. subst R. destruct HR as [H1 _].
    rewrite Forall_forall in HA'. specialize (HA' m). rewrite EA in HA'.
    specialize (HA' ltac:(apply in_or_app; right; left; reflexivity)). lia.
Qed.

(* a block boundary splits a layout into whole frames *)
Lemma layout_split a xs e : layout a xs e -> forall kb, a <= kb * B ->
  exists xs1 xs2 e1 e2,
    xs = xs1 ++ xs2 /\ e = e1 ++ e2 /\ layout a xs1 e1 /\ layout (a + lenN e1) xs2 e2 /\
    a + lenN e1 <= kb * B /\ (xs2 = [] \/ kb * B <= ffp (a + lenN e1)).
Proof.
  induction 1 as [a | a x xs e Hc4 Hfit Hl IH]; intros kb Ha.
  - exists [], [], [], []. rewrite (@lenN_nil byte), N.add_0_r.
    repeat split; try constructor. exact Ha. reflexivity.
  - destruct (N.le_gt_cases (kb * B) (ffp a)) as [Hle|Hgt].
    + exists [], (x :: xs), [], (pad_of a ++ fs_bytes x ++ e).
      rewrite (@lenN_nil byte), N.add_0_r.
      repeat split; [constructor|apply LY_cons; assumption|exact Ha|right; exact Hle].
    + destruct (pad_geom a) as (k' & c' & Hp & Hc' & Hmw & _).
      unfold first_frame_pos in Hgt.
      pose proof (blocks_above kb k' (c' + 1)) as Hb.
      destruct (IH kb) as (xs1 & xs2 & e1 & e2 & -> & -> & L1 & L2 & Hle & Hor); [lia|].
      exists (x :: xs1), xs2, (pad_of a ++ fs_bytes x ++ e1), e2.
      rewrite layout_step_pos by exact Hc4.
      repeat split.
      * now rewrite <- !app_assoc.
      * apply LY_cons; assumption.
      * exact L2.
      * exact Hle.
      * exact Hor.
Qed.

(* the only places of block b of D where the byte image of a CRC-valid frame stands are the
   starts of frames the writer put there, and the image is that frame *)
Definition NoEmbeddedX (D : bytes) (b : N) (xs : list fspec) : Prop :=
  forall o t p, o + 7 + lenN p <= B ->
    sliceN (b * B + o) (b * B + o + 7 + lenN p) D = frame_bytes P t p ->
    In (b * B + o, good_fs t p) (fpos 0 xs).

(* the cursor positions the frame reader goes through inside block b, entering it at 0: after a
   valid header it continues at cursor + 7 + length field, whether the CRC matched or not *)
Inductive reach (D : bytes) (b : N) : N -> Prop :=
| reach_0 : reach D b 0
| reach_step c c' res :
    reach D b c -> c + 7 <= B -> rframe (rd_at D b c) = (rd_at D b c', res) -> reach D b c'.

(* the same requirement, only at the places the reader actually visits: the weakest form *)
Definition NoEmbeddedPathX (D : bytes) (b : N) (xs : list fspec) : Prop :=
  forall o, reach D b o -> forall t p, o + 7 + lenN p <= B ->
    sliceN (b * B + o) (b * B + o + 7 + lenN p) D = frame_bytes P t p ->
    In (b * B + o, good_fs t p) (fpos 0 xs).

Lemma NoEmbeddedX_path D b xs : NoEmbeddedX D b xs -> NoEmbeddedPathX D b xs.
Proof. intros H o _ t p. apply H. Qed.

(* the byte image of a CRC-valid frame standing at (b, o) is accepted by the reader there *)
Lemma image_accepted D b o t p :
  (b + 1) * B <= lenN D -> o + 7 + lenN p <= B ->
  sliceN (b * B + o) (b * B + o + 7 + lenN p) D = frame_bytes P t p ->
  rframe (rd_at D b o) = (rd_at D b (o + 7 + lenN p), FOk t p).
Proof.
  intros Hblk Hfit Hsl.
  pose proof (read_frame_present D b o (good_fs t p)) as E.
  rewrite (good_fs_bytes P), (good_fs_good P Hcrc) in E.
  apply E; [apply length_le_enc|exact Hfit|exact Hblk|exact Hsl].
Qed.

(* equivalently: every frame the reader ACCEPTS on its way through block b is a frame the
   writer put at that very place *)
Lemma accepted_genuine_path D b xs :
  (b + 1) * B <= lenN D ->
  (forall o, reach D b o -> o + 7 <= B -> forall fr' t p,
     rframe (rd_at D b o) = (fr', FOk t p) -> In (b * B + o, good_fs t p) (fpos 0 xs)) ->
  NoEmbeddedPathX D b xs.
Proof.
  intros Hblk H o Hr t p Hfit Hsl.
  eapply (H o Hr); [lia|]. exact (image_accepted D b o t p Hblk Hfit Hsl).
Qed.

Lemma accepted_genuine_all D b xs :
  (b + 1) * B <= lenN D ->
  (forall o, o + 7 <= B -> forall fr' t p,
     rframe (rd_at D b o) = (fr', FOk t p) -> In (b * B + o, good_fs t p) (fpos 0 xs)) ->
  NoEmbeddedX D b xs.
Proof.
  intros Hblk H o t p Hfit Hsl.
  eapply (H o); [lia|]. exact (image_accepted D b o t p Hblk Hfit Hsl).
Qed.

(* the reader ended inside block b: it met an all-zero header on its way through the block
   (which reads as the end of the log), or there is no block after b *)
Definition stopped_in (D : bytes) (b : N) : Prop :=
  lenN D < (b + 2) * B \/
  exists o, reach D b o /\ o + 7 <= B /\ all_zero (sliceN (b * B + o) (b * B + o + 7) D) = true.

Section Chain.
Variable D : bytes.
Variable b : N.
Variable xs : list fspec.
Hypothesis Hblk : (b + 1) * B <= lenN D.
Hypothesis Hne : NoEmbeddedPathX D b xs.
Hypothesis Hfits : Forall fits1 (fpos 0 xs).

(* how a reader fr inside block b goes on after the events evs: it ends inside the block, or it
   goes on exactly as a reader at the start of block b + 1 does, the frames R' still ahead *)
Definition outcome (fr : freader vecr) (evs : list fev) (R' : list (N * fspec)) : Prop :=
  (ftrace fr evs /\ stopped_in D b) \/
  ((b + 2) * B <= lenN D /\ spaced ((b + 1) * B) R' /\
   forall evs3 frE, ftraceF (rd_at D (b + 1) 0) evs3 frE -> ftraceF fr (evs ++ evs3) frE).

Lemma outcome_leaves fr R' : leaves D b fr -> spaced ((b + 1) * B) R' -> outcome fr [] R'.
Proof.
  intros [Hn He] HR'. destruct (N.le_gt_cases ((b + 2) * B) (lenN D)) as [Hle|Hgt].
  - right. split; [exact Hle|]. split; [exact HR'|].
    intros evs3 frE Ht. exact (ftraceF_cong P _ _ _ _ (Hn Hle) Ht).
  - left. destruct (He Hgt) as [fr' Hf]. split; [exists fr'; exact (FF_end P _ _ Hf)|left; exact Hgt].
Qed.

Lemma outcome_ok fr fr' t p evs R' :
  rframe fr = (fr', FOk t p) -> outcome fr' evs R' -> outcome fr (EvOk t p :: evs) R'.
Proof.
  intros E [[Hl Hst] | (Hlen & Hsp & Hl)].
  - left. split; [exact (ftrace_ok P _ _ _ _ _ E Hl)|exact Hst].
  - right. split; [exact Hlen|]. split; [exact Hsp|].
    intros evs3 frE Ht. exact (FF_ok P _ _ _ _ _ _ E (Hl _ _ Ht)).
Qed.

Lemma outcome_bad fr fr' evs R' :
  rframe fr = (fr', FCorrupt) -> outcome fr' evs R' -> outcome fr (EvBad :: evs) R'.
Proof.
  intros E [[Hl Hst] | (Hlen & Hsp & Hl)].
  - left. split; [exact (ftrace_bad P _ _ _ E Hl)|exact Hst].
  - right. split; [exact Hlen|]. split; [exact Hsp|].
    intros evs3 frE Ht. exact (FF_bad P _ _ _ _ E (Hl _ _ Ht)).
Qed.

Lemma chain_end c st Gd R :
  c <= B -> B - c < 7 -> fpos 0 xs = Gd ++ R -> spaced (b * B + c) R ->
  exists evs Rc R' st',
    R = Rc ++ R' /\ thin st (map snd Rc) evs st' /\
    Forall (fun qx => fst qx < (b + 1) * B) Rc /\
    7 * N.of_nat (length evs) <= B - c + 7 /\ outcome (rd_at D b c) evs R'.
Proof.
  intros Hc Hend HG HR. exists [], [], R, st.
  split; [reflexivity|]. split; [constructor|]. split; [constructor|]. split; [cbn [length]; lia|].
  apply outcome_leaves; [exact (leaves_skip D b c Hend)|].
  (* a frame that begins in the last 6 bytes of block b would not fit in one block *)
  destruct R as [|qx r]; [exact I|]. destruct HR as [H1 H2]. split; [|exact H2].
  rewrite Forall_forall in Hfits.
  destruct (Hfits qx) as (k' & Hk1 & Hk2).
  { rewrite HG. apply in_or_app. right. left. reflexivity. }
  unfold qend in Hk2.
  destruct (N.le_gt_cases ((b + 1) * B) (fst qx)) as [Hle|Hgt]; [exact Hle|exfalso].
  assert (Hk : k' < b + 1) by (apply mulB_lt_inv; lia).
  assert (Hk' : k' + 1 <= b + 1) by lia.
  pose proof (mulB_le _ _ Hk'). lia.
Qed.

(* The reader at cursor c of block b, the genuine frames R still ahead of it (Gd behind it).  Up
   to the end of the block it reports events evs that are a thinning of the frames Rc it passes:
   by NoEmbeddedPathX a frame it accepts is the next genuine one; after a Corruption it may have
   jumped over genuine frames.  Every call moves the cursor by at least 7, whence the count. *)
Lemma chain n : forall c, c <= B -> B - c <= N.of_nat n -> reach D b c ->
  forall st Gd R, fpos 0 xs = Gd ++ R ->
    Forall (fun qx => fst qx < b * B + c) Gd -> spaced (b * B + c) R ->
  exists evs Rc R' st',
    R = Rc ++ R' /\ thin st (map snd Rc) evs st' /\
    Forall (fun qx => fst qx < (b + 1) * B) Rc /\
    7 * N.of_nat (length evs) <= B - c + 7 /\ outcome (rd_at D b c) evs R'.
Proof.
  induction n as [|n IH]; intros c Hc Hn Hrc st Gd R HG HGd HR;
    (destruct (N.lt_ge_cases (B - c) 7) as [Hend|Hroom];
     [apply (chain_end c st Gd R Hc Hend HG HR)|]); [lia|].
  assert (Hroom' : c + 7 <= B) by lia.
  destruct (read_frame_cases D b c) as
    [Hz | [(c' & Hbad) | [(len & Hfit & Hbad) | (t & p & Hfit & Hgood & Hsl)]]]; [lia|exact Hblk| | | |].
  - (* zero header: the reader stops *)
    exists [], [], R, st.
    split; [reflexivity|]. split; [constructor|]. split; [constructor|]. split; [cbn [length]; lia|].
    left. destruct Hz as [Hz Hzero]. split; [exists (rd_at D b c); exact (FF_end P _ _ Hz)|].
    right. exists c. split; [exact Hrc|]. split; [exact Hroom'|exact Hzero].
  - (* invalid header: the rest of the block is dropped *)
    destruct (spaced_split ((b + 1) * B) R _ HR) as (Rs & R1 & -> & HRs & HR1).
    exists [EvBad], Rs, R1, false.
    split; [reflexivity|]. split.
    { apply T_bad. rewrite <- (app_nil_r (map snd Rs)). apply thin_skips. constructor. }
    split; [exact HRs|]. split; [cbn [length]; lia|].
    exact (outcome_bad _ _ _ _ Hbad (outcome_leaves _ _ (leaves_flag D b c') HR1)).
  - (* valid header, CRC mismatch: jump by the (untrusted) length *)
    destruct (spaced_split (b * B + (c + 7 + len)) R _ HR) as (Rs & R1 & -> & HRs & HR1).
    destruct (IH (c + 7 + len) Hfit ltac:(lia) (reach_step D b _ _ _ Hrc Hroom' Hbad) false (Gd ++ Rs) R1) as
      (evs' & Rc' & R' & st' & -> & Hth & HF & Hlen' & Hout).
    { rewrite HG, app_assoc. reflexivity. }
    { apply Forall_app. split; [|exact HRs].
      eapply Forall_impl; [|exact HGd]. intros qx H. cbn beta in H. lia. }
    { exact HR1. }
    exists (EvBad :: evs'), (Rs ++ Rc'), R', st'.
    split; [now rewrite app_assoc|]. split.
    { rewrite map_app. apply T_bad. apply thin_skips. exact Hth. }
    split.
    { apply Forall_app. split; [|exact HF].
      eapply Forall_impl; [|exact HRs]. intros qx H. cbn beta in H. lia. }
    split; [cbn [length]; lia|]. exact (outcome_bad _ _ _ _ Hbad Hout).
  - (* a frame verifies: by NoEmbedded it is the next genuine frame *)
    pose proof (Hne c Hrc t p Hfit Hsl) as Hin. rewrite HG in Hin.
    apply in_app_or in Hin as [Hin|Hin].
    { rewrite Forall_forall in HGd. specialize (HGd _ Hin). cbn [fst] in HGd. lia. }
    destruct (spaced_head _ _ _ HR Hin) as (r & -> & Hr).
    unfold qend in Hr. cbn [fst snd DamageProofs.good_fs fs_pl] in Hr.
    destruct (IH (c + 7 + lenN p) Hfit ltac:(lia) (reach_step D b _ _ _ Hrc Hroom' Hgood) true
                (Gd ++ [(b * B + c, good_fs t p)]) r) as
      (evs' & Rc' & R' & st' & -> & Hth & HF & Hlen' & Hout).
    { rewrite HG, <- app_assoc. reflexivity. }
    { apply Forall_app. split.
      - eapply Forall_impl; [|exact HGd]. intros qx H. cbn beta in H. lia.
      - constructor; [cbn [fst]; lia|constructor]. }
    { replace (b * B + (c + 7 + lenN p)) with (b * B + c + 7 + lenN p) by lia. exact Hr. }
    exists (EvOk t p :: evs'), ((b * B + c, good_fs t p) :: Rc'), R', st'.
    split; [reflexivity|]. split.
    { cbn [map snd]. exact (T_ok st (good_fs t p) _ _ _ Hth). }
    split; [constructor; [cbn [fst]; lia|exact HF]|].
    split; [cbn [length]; lia|]. exact (outcome_ok _ _ _ _ _ _ Hgood Hout).
Qed.

End Chain.

Local Notation encs_any := (encs_any P).
Local Notation intact := (intact P).
Local Notation boundary_is_ffp := (H2 ResyncProofs.boundary_is_ffp).
Local Notation ffp_le_boundary := (H2 ResyncProofs.ffp_le_boundary).
Local Notation ffp_aligned := (H2 ResyncProofs.ffp_aligned).
Local Notation at_pos_open := (H3 DamageProofs.at_pos_open).
Local Notation encs_any_layout := (H3 DamageProofs.encs_any_layout).
Local Notation layout_app := (H3 DamageProofs.layout_app).
Local Notation layout_len := (H3 DamageProofs.layout_len).
Local Notation mem_stream_shape := (H3 StreamProofs.mem_stream_shape).

Lemma layout_nil_inv a e : layout a [] e -> e = [].
Proof. intros H. inversion H. reflexivity. Qed.

Lemma encs_any_nil_inv a t : encs_any a [] t -> t = [].
Proof. intros H. inversion H. reflexivity. Qed.

Lemma intact_flat pxs : forallb intact pxs = true -> forallb fs_good (flat_map snd pxs) = true.
Proof.
  induction pxs as [|px pxs IH]; intros H; [reflexivity|].
  cbn [forallb] in H. apply andb_true_iff in H as [H1 H2].
  cbn [flat_map]. rewrite forallb_app. unfold DamageProofs.intact in H1. rewrite H1, (IH H2). reflexivity.
Qed.

Lemma present_lo D S n G :
  takeN n D = takeN n S -> Forall (present1 S) G -> Forall (fun qx => qend qx <= n) G ->
  Forall (present1 D) G.
Proof.
  intros E HS HG. rewrite Forall_forall in *. intros qx Hin. unfold present1.
  rewrite (sliceN_agree_lo n _ _ D S E (HG _ Hin)). exact (HS _ Hin).
Qed.

Lemma present_hi D S n G :
  dropN n D = dropN n S -> Forall (present1 S) G -> Forall (fun qx => n <= fst qx) G ->
  Forall (present1 D) G.
Proof.
  intros E HS HG. rewrite Forall_forall in *. intros qx Hin. unfold present1.
  rewrite (sliceN_agree_hi n _ _ D S E (HG _ Hin)). exact (HS _ Hin).
Qed.

Lemma spaced_all_ge R : forall lo, spaced lo R -> Forall (fun qx => lo <= fst qx) R.
Proof.
  intros lo H. rewrite Forall_forall. intros qx Hin. exact (spaced_in_ge _ _ _ H Hin).
Qed.

Lemma kB_c_zero k c : 0 = k * B + c -> k = 0 /\ c = 0.
Proof.
  intros H. destruct (N.eq_dec k 0) as [->|Hk]; [lia|].
  assert (H1 : 1 <= k) by lia. pose proof (mulB_le _ _ H1). lia.
Qed.

Lemma read_stream_trace D evs :
  B <= lenN D -> ftrace (rd_at D 0 0) evs -> 7 * N.of_nat (length evs) <= lenN D + 7 ->
  mem_read_stream P D = asm evs [] false.
Proof.
  intros HB Hft Hlen.
  destruct (at_pos_open D HB) as (k' & c' & Hr' & Hc' & Hblk' & Hfr).
  destruct (kB_c_zero _ _ Hr') as [-> ->].
  unfold mem_read_stream.
  change (mem_open_reader P D) with (mkRR (rr_fr (mem_open_reader P D)) [] false).
  rewrite Hfr.
  assert (Hf : 7 * N.of_nat (length evs) + 7 <=
               7 * N.of_nat (N.to_nat (lenN D / HEADER_LEN + lenN D / B + 4))).
  { unfold HEADER_LEN. pose proof (N.div_mod (lenN D) 7) as Hdm. pose proof (N.mod_lt (lenN D) 7) as Hlt.
    set (r := lenN D mod 7) in *. clearbody r. nodiv. lia. }
  apply (mem_read_all_trace P); [exact Hft|lia|lia].
Qed.

Lemma sublist_refl {A} (l : list A) : sublist l l.
Proof. induction l; constructor; assumption. Qed.

Lemma sublist_app {A} (a a' : list A) : sublist a a' ->
  forall b b', sublist b b' -> sublist (a ++ b) (a' ++ b').
Proof.
  induction 1 as [|x l1 l2 H IH|x l1 l2 H IH]; intros b b' Hb; cbn [app].
  - exact Hb.
  - apply SL_skip. apply IH. exact Hb.
  - apply SL_keep. apply IH. exact Hb.
Qed.

Lemma sublist_In {A} (l1 l2 : list A) x : sublist l1 l2 -> In x l1 -> In x l2.
Proof.
  induction 1 as [|y l1 l2 Hs IH|y l1 l2 Hs IH]; intros Hx; [exact Hx|right; auto|].
  destruct Hx as [->|Hx]; [left; reflexivity|right; auto].
Qed.

Local Notation at_end := (OpenReplay.at_end P).
Local Notation enc_any := (enc_any P).

(* from fr the frame events are evs, and the reader left by the final FNotAvail satisfies Q *)
Definition ends (Q : freader vecr -> Prop) (fr : freader vecr) (evs : list fev) : Prop :=
  exists frE, ftraceF fr evs frE /\ Q frE.

(* Q for: the final reader is where OpenReplay.at_end puts a reader that met the end of the log
   at e *)
Definition end_at (D : bytes) (e : N) (frE : freader vecr) : Prop := at_end D frE e.
Definition endsAt (D : bytes) (fr : freader vecr) (evs : list fev) (e : N) : Prop :=
  ends (end_at D e) fr evs.

(* `ends` from any reader at the (unnormalised) cursor a *)
Definition trA (D : bytes) (Q : freader vecr -> Prop) (a : N) (evs : list fev) : Prop :=
  forall fr, at_pos D fr a -> ends Q fr evs.

Lemma ends_ftrace Q fr evs : ends Q fr evs -> ftrace fr evs.
Proof. intros (frE & H & _). exists frE. exact H. Qed.

Lemma ftrace_ends fr evs : ftrace fr evs -> ends (fun _ => True) fr evs.
Proof. intros (frE & H). exists frE. split; [exact H|exact I]. Qed.

Lemma ends_cong Q fr1 fr2 evs : rframe fr1 = rframe fr2 -> ends Q fr2 evs -> ends Q fr1 evs.
Proof. intros E (frE & H & He). exists frE. split; [exact (ftraceF_cong P _ _ _ _ E H)|exact He]. Qed.

Lemma ends_ok Q fr fr' t p evs :
  rframe fr = (fr', FOk t p) -> ends Q fr' evs -> ends Q fr (EvOk t p :: evs).
Proof. intros E (frE & H & He). exists frE. split; [exact (FF_ok P _ _ _ _ _ _ E H)|exact He]. Qed.

Lemma trA_frames D Q : stream_ok D -> forall a xs e, layout a xs e ->
  forallb fs_good xs = true -> Forall (present1 D) (fpos a xs) ->
  a + lenN e <= lenN D ->
  forall evs, trA D Q (a + lenN e) evs -> trA D Q a (map ev_of xs ++ evs).
Proof.
  intros Hok a xs e Hl.
  induction Hl as [a | a x xs e Hc4 Hfit Hl IH]; intros Hg Hpres Hroom evs Htr.
  - rewrite (@lenN_nil byte), N.add_0_r in Htr. exact Htr.
  - cbn [forallb] in Hg. apply andb_true_iff in Hg as [Hgx Hg].
    cbn [fpos] in Hpres. pose proof (Forall_inv Hpres) as Hp1. apply Forall_inv_tail in Hpres.
    unfold present1, qend in Hp1. cbn [fst snd] in Hp1.
    destruct (pad_geom a) as (k' & c' & Hp & Hc' & Hmw & _).
    rewrite layout_step_pos in Hroom, Htr by exact Hc4.
    set (a' := a + lenN (pad_of a) + 7 + lenN (fs_pl x)) in *.
    pose proof (IH Hg Hpres Hroom evs Htr) as Hrest.
    assert (Hblk : (k' + 1) * B <= lenN D) by (apply (block_exists D k' c' 7 Hok); lia).
    intros fr Hat. cbn [map app].
    apply (ends_cong Q fr (rd_at D k' c'));
      [exact (at_pos_pad D fr a k' c' Hok Hat Hp Hc' Hblk)|].
    apply (ends_ok Q _ (rd_at D k' (c' + 7 + lenN (fs_pl x)))).
    + assert (Hsl : sliceN (k' * B + c') (k' * B + c' + 7 + lenN (fs_pl x)) D = fs_bytes x)
        by (rewrite <- Hp; exact Hp1).
      rewrite (read_frame_present D k' c' x Hc4 ltac:(lia) Hblk Hsl).
      rewrite Hgx. reflexivity.
    + apply Hrest. exists k', (c' + 7 + lenN (fs_pl x)).
      split; [unfold a'; lia|]. split; [lia|]. split; [exact Hblk|reflexivity].
Qed.

(* the end of the log: everything from a on is zero (any position, room for a header or not) *)
Lemma trA_end_gen D written z a :
  D = written ++ zerosN z -> lenN written <= a -> trA D (end_at D a) a [].
Proof.
  intros HD Hw fr Hat.
  destruct (H3 OpenReplay.read_frame_end_gen D written z fr a HD Hw Hat) as (fr' & Hrf & Hend).
  exists fr'. split; [exact (FF_end P _ _ Hrf)|exact Hend].
Qed.

(* the end of the log: a zero header at the normalised position (what follows may be anything) *)
Lemma trA_zero D a k c :
  stream_ok D -> ffp a = k * B + c -> c + 7 <= B -> (k + 1) * B <= lenN D ->
  all_zero (sliceN (k * B + c) (k * B + c + 7) D) = true -> trA D (end_at D a) a [].
Proof.
  intros Hok Hp Hc Hblk Hz fr Hat.
  apply (ends_cong _ fr (rd_at D k c));
    [exact (at_pos_pad D fr a k c Hok Hat Hp Hc Hblk)|].
  exists (rd_at D k c). split.
  - apply (FF_end P). apply read_frame_zero; [lia|].
    rewrite sliceN_sliceN by lia. replace (k * B + (c + 7)) with (k * B + c + 7) by lia. exact Hz.
  - exists k, c. split; [reflexivity|]. split; [exact Hblk|]. split; [lia|].
    left. split; [symmetry; exact Hp|exact Hc].
Qed.

Lemma trA_norm D Q a evs k c :
  stream_ok D -> trA D Q a evs -> ffp a = k * B + c -> c + 7 <= B -> (k + 1) * B <= lenN D ->
  ends Q (rd_at D k c) evs.
Proof.
  intros Hok Htr Hp Hc Hblk. unfold first_frame_pos in Hp.
  destruct (pad_geom a) as (k' & c' & Hp' & Hc' & _ & [Hz | (Hc0 & Hpad & k0 & Hk & Ha)]).
  - apply Htr. exists k, c. repeat split; try lia.
  - destruct (kc_unique k c k' c') as [<- <-]; [lia|lia|lia|].
    assert (Hat : at_pos D (rd_at D k0 (B - lenN (pad_of a))) a).
    { exists k0, (B - lenN (pad_of a)). split; [exact Ha|]. split; [lia|].
      split; [|reflexivity]. subst k. lia. }
    apply (ends_cong Q _ (rd_at D k0 (B - lenN (pad_of a)))); [|exact (Htr _ Hat)].
    symmetry. exact (at_pos_pad D _ a k c Hok Hat Hp Hc Hblk).
Qed.

Lemma trA_of_norm D Q a evs k c :
  stream_ok D -> ffp a = k * B + c -> c + 7 <= B -> (k + 1) * B <= lenN D ->
  ends Q (rd_at D k c) evs -> trA D Q a evs.
Proof.
  intros Hok Hp Hc Hblk He fr Hat.
  apply (ends_cong Q fr (rd_at D k c)); [|exact He].
  exact (at_pos_pad D fr a k c Hok Hat Hp Hc Hblk).
Qed.

Lemma trA_shift D Q a a' evs :
  stream_ok D -> ffp a = ffp a' -> ffp a + 7 <= lenN D -> trA D Q a' evs -> trA D Q a evs.
Proof.
  intros Hok Hff Hroom Htr.
  destruct (pad_geom a') as (k & c & Hp & Hc & _).
  assert (Hblk : (k + 1) * B <= lenN D).
  { apply (block_exists D k c 7 Hok); [|lia]. unfold first_frame_pos in Hff, Hroom. lia. }
  apply (trA_of_norm D Q a evs k c Hok); [rewrite Hff; exact Hp|exact Hc|exact Hblk|].
  exact (trA_norm D Q a' evs k c Hok Htr Hp Hc Hblk).
Qed.


Lemma at_pos_start D k : (k + 1) * B <= lenN D -> at_pos D (rd_at D k 0) (k * B).
Proof. intros H. exists k, 0. repeat split; lia. Qed.

Lemma trA_start D Q a evs k :
  stream_ok D -> trA D Q a evs -> ffp a = k * B -> (k + 1) * B <= lenN D ->
  ends Q (rd_at D k 0) evs.
Proof.
  intros Hok Htr Hp Hblk.
  apply (trA_norm D Q a evs k 0 Hok Htr); [rewrite N.add_0_r; exact Hp|lia|exact Hblk].
Qed.

Lemma trA_of_start D Q a evs k :
  stream_ok D -> ffp a = k * B -> (k + 1) * B <= lenN D ->
  ends Q (rd_at D k 0) evs -> trA D Q a evs.
Proof.
  intros Hok Hp Hblk He.
  apply (trA_of_norm D Q a evs k 0 Hok); [rewrite N.add_0_r; exact Hp|lia|exact Hblk|exact He].
Qed.

(* D agrees with t ++ zeros outside block b: beyond the written bytes it is zero *)
Lemma zero_before D t z b r :
  takeN (b * B) D = takeN (b * B) (t ++ zerosN z) -> lenN t <= r -> r + 7 <= b * B ->
  all_zero (sliceN r (r + 7) D) = true.
Proof.
  intros Hlo H1 H2'. rewrite (sliceN_agree_lo (b * B) r (r + 7) D _ Hlo H2').
  apply slice_zero. exact H1.
Qed.

Lemma zero_tail D t z b r :
  lenN D = lenN (t ++ zerosN z) ->
  dropN ((b + 1) * B) D = dropN ((b + 1) * B) (t ++ zerosN z) ->
  lenN t <= r -> (b + 1) * B <= r -> r <= lenN D ->
  D = takeN r D ++ zerosN (lenN D - r).
Proof.
  intros HlenD Hhi H1 H2' H3'.
  rewrite <- (takeN_dropN r D) at 1. f_equal.
  replace r with ((b + 1) * B + (r - (b + 1) * B)) at 1 by lia.
  rewrite <- dropN_dropN, Hhi, dropN_dropN.
  replace ((b + 1) * B + (r - (b + 1) * B)) with r by lia.
  rewrite dropN_app_ge by lia. rewrite FileStream.dropN_zerosN. f_equal.
  rewrite HlenD, lenN_app, lenN_zerosN. lia.
Qed.

(* the clean frames Y after block b, from the end of the block to the end of the log *)
Lemma frames_after D t z b aT Y eY :
  stream_ok D -> lenN D = lenN (t ++ zerosN z) ->
  dropN ((b + 1) * B) D = dropN ((b + 1) * B) (t ++ zerosN z) ->
  layout aT Y eY -> forallb fs_good Y = true -> Forall (present1 D) (fpos aT Y) ->
  aT <= (b + 1) * B -> Y = [] \/ (b + 1) * B <= ffp aT -> aT + lenN eY = lenN t ->
  (b + 2) * B <= lenN D ->
  trA D (end_at D (N.max ((b + 1) * B) (lenN t))) ((b + 1) * B) (map ev_of Y).
Proof.
  intros Hok HlenD Hhi LY GY PD3 HaT HY Eend Hlen2.
  pose proof (zero_tail D t z b) as HzS. specialize (fun r => HzS r HlenD Hhi).
  assert (HltD : lenN t <= lenN D) by (rewrite HlenD, lenN_app; lia).
  set (lt := lenN t) in *.
  assert (Hbase : lt <= (b + 1) * B -> trA D (end_at D (N.max ((b + 1) * B) lt)) ((b + 1) * B) []).
  { intros Hle. replace (N.max ((b + 1) * B) lt) with ((b + 1) * B) by lia.
    apply (trA_end_gen D (takeN ((b + 1) * B) D) (lenN D - (b + 1) * B)).
    - apply HzS; lia.
    - rewrite lenN_takeN. lia. }
  destruct HY as [EY|HYr].
  - rewrite EY in LY |- *. cbn [map]. apply layout_nil_inv in LY.
    apply (f_equal lenN) in LY. rewrite (@lenN_nil byte) in LY.
    apply Hbase. lia.
  - pose proof (boundary_is_ffp aT (b + 1) HaT HYr) as Eff.
    apply (trA_shift D _ ((b + 1) * B) aT _ Hok); [rewrite ffp_aligned; exact Eff|rewrite ffp_aligned; lia|].
    rewrite <- (app_nil_r (map ev_of Y)).
    apply (trA_frames D _ Hok aT _ _ LY GY PD3); rewrite Eend; [exact HltD|].
    destruct (N.le_gt_cases ((b + 1) * B) lt) as [Hge|Hlt'].
    + replace (N.max ((b + 1) * B) lt) with lt by lia.
      apply (trA_end_gen D (takeN lt D) (lenN D - lt)); [apply HzS; lia|rewrite lenN_takeN; lia].
    + apply (trA_shift D _ lt ((b + 1) * B) _ Hok).
      * rewrite ffp_aligned. rewrite Eff. apply (H2 TornFile.ffp_between); lia.
      * rewrite (H2 TornFile.ffp_between aT lt) by lia. rewrite <- Eff. lia.
      * apply Hbase. lia.
Qed.

(* a layout beginning at or before block b, cut at the two boundaries of the block: the frames
   H end at or before the block, the frames T begin at or after its end *)
Lemma layout_block_split a M eM b : layout a M eM -> a <= b * B ->
  exists H Xb T eH eb eT,
    M = H ++ Xb ++ T /\ eM = eH ++ eb ++ eT /\
    layout a H eH /\ layout (a + lenN eH) Xb eb /\ layout (a + lenN eH + lenN eb) T eT /\
    a + lenN eH <= b * B /\ (Xb ++ T = [] \/ b * B <= ffp (a + lenN eH)) /\
    a + lenN eH + lenN eb <= (b + 1) * B /\
    (T = [] \/ (b + 1) * B <= ffp (a + lenN eH + lenN eb)).
Proof.
  intros L Ha.
  destruct (layout_split _ _ _ L b Ha) as (H & X2 & eH & e2 & -> & -> & LH & LX2 & HaH & HorH).
  destruct (layout_split _ _ _ LX2 (b + 1)) as (Xb & T & eb & eT & -> & -> & LXb & LT & HaT & HorT);
    [lia|].
  exists H, Xb, T, eH, eb, eT. repeat split; assumption.
Qed.

(* D agrees with the clean stream t ++ zeros outside block b: the frames A that end before the
   block and the frames Y that begin after it stand in D as the writer put them *)
Lemma outside_present D b t z A Xb Y eA eb eY aH aT :
  layout 0 A eA -> layout aH Xb eb -> layout aT Y eY ->
  lenN eA = aH -> aH + lenN eb = aT -> t = eA ++ eb ++ eY ->
  takeN (b * B) D = takeN (b * B) (t ++ zerosN z) ->
  dropN ((b + 1) * B) D = dropN ((b + 1) * B) (t ++ zerosN z) ->
  aH <= b * B -> (Y = [] \/ (b + 1) * B <= ffp aT) ->
  fpos 0 (A ++ Xb ++ Y) = fpos 0 A ++ fpos aH Xb ++ fpos aT Y /\
  Forall fits1 (fpos 0 (A ++ Xb ++ Y)) /\
  Forall (present1 D) (fpos 0 A) /\ Forall (present1 D) (fpos aT Y).
Proof.
  intros LA LX LY <- <- -> Hlo Hhi HaH HY.
  pose proof (layout_app _ _ _ LA _ _ (layout_app _ _ _ LX _ _ LY)) as Lxs.
  assert (Hfp : fpos 0 (A ++ Xb ++ Y) =
                fpos 0 A ++ fpos (lenN eA) Xb ++ fpos (lenN eA + lenN eb) Y).
  { rewrite (fpos_app 0 _ _ LA), (fpos_app _ _ _ LX). reflexivity. }
  split; [exact Hfp|]. split; [exact (layout_fits _ _ _ Lxs)|].
  pose proof (layout_present 0 _ _ Lxs _ [] (zerosN z) eq_refl eq_refl) as PresS.
  rewrite Hfp in PresS. apply Forall_app in PresS as [PS1 PS3]. apply Forall_app in PS3 as [_ PS3].
  split.
  - apply (present_lo D _ (b * B) _ Hlo PS1).
    eapply Forall_impl; [|exact (fpos_bounds _ _ _ LA)]. intros qx [_ Hq]. cbn beta in Hq. lia.
  - exact (present_hi D _ ((b + 1) * B) _ Hhi PS3 (spaced_all_ge _ _ (spaced_fpos_or _ _ _ HY))).
Qed.

(* The frames of the clean stream t, in four groups: G (before the starting boundary kb * B),
   C (clean: between the boundary and block b), M (those that may be touched: everything from
   the first frame that reaches into block b up to the last frame of the group, chosen by the
   caller), F3 (clean: at or after the end of block b).  The reader started at block kb reads
   the frames of C, then events evM that are a thinning of M, then either the frames of F3 — and
   it is left at the end e of the log (e = |t| when block b lies inside the written bytes) — or,
   if it met an all-zero header inside block b, or block b is the last one, nothing more.
   Inside block b every call moves the cursor by at least 7: evM has at most B / 7 + 1 events
   more than M has frames. *)
Theorem frames_from G C M F3 eG eC eM t3 z D b kb :
  layout 0 G eG -> layout (lenN eG) C eC -> layout (lenN eG + lenN eC) M eM ->
  layout (lenN eG + lenN eC + lenN eM) F3 t3 ->
  forallb fs_good (G ++ C ++ M ++ F3) = true ->
  stream_ok ((eG ++ eC ++ eM ++ t3) ++ zerosN z) ->
  lenN D = lenN ((eG ++ eC ++ eM ++ t3) ++ zerosN z) ->
  takeN (b * B) D = takeN (b * B) ((eG ++ eC ++ eM ++ t3) ++ zerosN z) ->
  dropN ((b + 1) * B) D = dropN ((b + 1) * B) ((eG ++ eC ++ eM ++ t3) ++ zerosN z) ->
  (b + 1) * B <= lenN D ->
  lenN eG <= kb * B -> kb * B <= ffp (lenN eG) -> kb <= b ->
  lenN eG + lenN eC <= b * B ->
  (F3 = [] \/ (b + 1) * B <= ffp (lenN eG + lenN eC + lenN eM)) ->
  NoEmbeddedPathX D b (G ++ C ++ M ++ F3) ->
  exists evM c',
    7 * N.of_nat (length evM) <= 7 * N.of_nat (length M) + B + 7 /\
    ((thin true M evM c' /\
      exists e, endsAt D (rd_at D kb 0) (map ev_of C ++ evM ++ map ev_of F3) e /\
                ((b + 1) * B <= lenN (eG ++ eC ++ eM ++ t3) -> e = lenN (eG ++ eC ++ eM ++ t3))) \/
     (exists Mp Ms, M = Mp ++ Ms /\ thin true Mp evM c' /\
                    ftrace (rd_at D kb 0) (map ev_of C ++ evM) /\ stopped_in D b)).
Proof.
  intros LG LC Lb L3 Gall HokS HlenD Hlo Hhi Hb HposG HposC Hkb H1pos H3pos Hne.
  destruct (layout_block_split _ _ _ b Lb H1pos) as
    (H & Xb & T & eH & eb & eT & EM & EeM & LH & LXb & LT & HaH & HorH & HaT & HorT).
  set (aH := lenN eG + lenN eC + lenN eH) in *. set (aT := aH + lenN eb) in *.
  set (t := eG ++ eC ++ eM ++ t3) in *. set (lt := lenN t) in *.
  assert (Hpos3 : aT + lenN eT = lenN eG + lenN eC + lenN eM).
  { rewrite EeM, !lenN_app. unfold aT, aH. lia. }
  assert (Hlt : aT + lenN (eT ++ t3) = lt).
  { unfold lt, t. rewrite !lenN_app. lia. }
  pose proof (layout_app _ _ _ LC _ _ LH) as LCH.
  assert (L1H : layout 0 (G ++ C ++ H) (eG ++ eC ++ eH)) by exact (layout_app _ _ _ LG _ _ LCH).
  assert (EaH : lenN (eG ++ eC ++ eH) = aH) by (rewrite !lenN_app; unfold aH; lia).
  assert (LY : layout aT (T ++ F3) (eT ++ t3)).
  { apply (layout_app _ _ _ LT). rewrite Hpos3. exact L3. }
  assert (HY : T ++ F3 = [] \/ (b + 1) * B <= ffp aT).
  { destruct HorT as [ET | HT]; [|right; exact HT]. subst T.
    rewrite (layout_nil_inv _ _ LT), (@lenN_nil byte), N.add_0_r in Hpos3.
    destruct H3pos as [E3'|H3']; [left; rewrite E3'; reflexivity|right].
    rewrite Hpos3. exact H3'. }
  assert (Exs : G ++ C ++ M ++ F3 = (G ++ C ++ H) ++ Xb ++ T ++ F3)
    by (rewrite EM, <- !app_assoc; reflexivity).
  assert (Et : t = (eG ++ eC ++ eH) ++ eb ++ eT ++ t3)
    by (unfold t; rewrite EeM, <- !app_assoc; reflexivity).
  destruct (outside_present D b t z _ _ _ _ _ _ aH aT L1H LXb LY EaH eq_refl Et Hlo Hhi HaH HY)
    as (Hfp & Hfits & PD1 & PD3).
  rewrite Exs in Gall, Hne. set (xs := (G ++ C ++ H) ++ Xb ++ T ++ F3) in *.
  assert (GG : forallb fs_good (C ++ H) = true /\ forallb fs_good (T ++ F3) = true).
  { unfold xs in Gall. rewrite !forallb_app in Gall. rewrite !andb_true_iff in Gall.
    destruct Gall as ((_ & GC & GH) & _ & GT & G3).
    rewrite !forallb_app, GC, GH, GT, G3. split; reflexivity. }
  destruct GG as [GCH GY].
  destruct HokS as (m & HlenS).
  assert (Hok : stream_ok D) by (exists m; lia).
  assert (HltD : lt <= lenN D) by (rewrite HlenD, lenN_app; fold lt; lia).
  pose proof (ffp_le_boundary aH b HaH) as HffH.
  assert (Eff0 : ffp (lenN eG) = kb * B) by (symmetry; apply boundary_is_ffp; assumption).
  (* the clean frames between the starting boundary and block b *)
  assert (P1F : forall Q evs, trA D Q aH evs -> trA D Q (lenN eG) (map ev_of (C ++ H) ++ evs)).
  { intros Q evs Htr.
    assert (Eend : lenN eG + lenN (eC ++ eH) = aH) by (rewrite lenN_app; unfold aH; lia).
    assert (PDC : Forall (present1 D) (fpos (lenN eG) (C ++ H))).
    { rewrite (fpos_app 0 _ _ LG), N.add_0_l in PD1. apply Forall_app in PD1. apply PD1. }
    pose proof (trA_frames D Q Hok (lenN eG) (C ++ H) (eC ++ eH) LCH GCH PDC) as R.
    rewrite Eend in R. apply R; [lia|exact Htr]. }
  assert (Hkblk : (kb + 1) * B <= lenN D).
  { assert (Hk1 : kb + 1 <= b + 1) by lia. pose proof (mulB_le _ _ Hk1). lia. }
  assert (HstartF : forall Q evs, trA D Q (lenN eG) evs -> ends Q (rd_at D kb 0) evs).
  { intros Q evs Htr. exact (trA_start D Q (lenN eG) evs kb Hok Htr Eff0 Hkblk). }
  destruct (thin_oks H true) as (c1 & ThH).
  destruct (N.lt_ge_cases (ffp aH) (b * B)) as [HA|HBge].
  - (* the data ends before block b: the damaged block is never decoded as data *)
    destruct HorH as [EX|Hge]; [|lia].
    apply app_eq_nil in EX as [EXb ET]. subst Xb T.
    pose proof (layout_nil_inv _ _ LXb) as Eeb. pose proof (layout_nil_inv _ _ LT) as EeT.
    assert (E3' : F3 = []).
    { destruct H3pos as [E|Hge]; [exact E|exfalso].
      rewrite <- Hpos3, EeT, (@lenN_nil byte), N.add_0_r in Hge. unfold aT in Hge.
      rewrite Eeb, (@lenN_nil byte), N.add_0_r in Hge. lia. }
    subst F3. pose proof (layout_nil_inv _ _ L3) as Et3.
    assert (Hlt' : lt = aH).
    { rewrite <- Hlt, Et3, EeT. unfold aT. rewrite Eeb. cbn [app]. rewrite (@lenN_nil byte). lia. }
    assert (HtrF : trA D (end_at D aH) aH []).
    { destruct (pad_geom aH) as (k' & c' & Hp & Hc' & _).
      pose proof HA as HA'. unfold first_frame_pos in HA'. rewrite Hp in HA'.
      pose proof (blocks_above b k' (c' + 1)) as Hbl.
      apply (trA_zero D aH k' c' Hok Hp Hc'); [lia|].
      apply (zero_before D t z b); [exact Hlo|fold lt; lia|lia]. }
    pose proof (HstartF _ _ (P1F _ _ HtrF)) as Hft.
    exists (map ev_of H), c1. rewrite EM, app_nil_r. split; [rewrite map_length; lia|].
    left. split; [exact ThH|].
    exists aH. split.
    + cbn [map]. rewrite !app_nil_r in *. rewrite map_app in Hft. exact Hft.
    + intros Hbig. exfalso. lia.
  - (* the reader enters block b at its start *)
    assert (Eff : ffp aH = b * B) by lia.
    destruct (chain D b xs Hb Hne Hfits (N.to_nat B) 0 ltac:(lia) ltac:(lia) (reach_0 D b) c1
                (fpos 0 (G ++ C ++ H)) (fpos aH Xb ++ fpos aT (T ++ F3)) Hfp)
      as (evs2 & Rc & R' & st' & ER & Hth & HF & Hcnt & Hout).
    { eapply Forall_impl; [|exact (fpos_bounds _ _ _ L1H)]. intros qx [_ Hq]. unfold qend in Hq. lia. }
    { rewrite <- (fpos_app aH _ _ LXb). apply spaced_fpos. lia. }
    destruct (split_prefix ((b + 1) * B) Rc R' (fpos aH Xb) (fpos aT (T ++ F3)) HF
                (spaced_fpos_or _ _ _ HY) (eq_sym ER))
      as (M' & EXb & ER').
    assert (EXb' : Xb = map snd Rc ++ map snd M').
    { rewrite <- (map_snd_fpos Xb aH), EXb, map_app. reflexivity. }
    assert (HlenM : (length H + length T <= length M)%nat)
      by (rewrite EM, !app_length; lia).
    destruct Hout as [[Hstop Hst] | (Hlen2 & Hsp & Hcont)].
    + (* the reader stopped inside block b *)
      assert (Htr : trA D (fun _ => True) aH evs2).
      { apply (trA_of_start D _ aH _ b Hok Eff Hb). exact (ftrace_ends _ _ Hstop). }
      pose proof (ends_ftrace _ _ _ (HstartF _ _ (P1F _ _ Htr))) as Hft.
      exists (map ev_of H ++ evs2), st'. split; [rewrite app_length, map_length; lia|]. right.
      exists (H ++ map snd Rc), (map snd M' ++ T).
      split; [rewrite EM, EXb', <- !app_assoc; reflexivity|].
      split; [exact (thin_app _ _ _ _ ThH _ _ _ Hth)|].
      split; [|exact Hst].
      rewrite map_app, <- !app_assoc in Hft. exact Hft.
    + (* the reader went on to block b + 1 *)
      assert (EM' : M' = []).
      { destruct M' as [|m0 M']; [reflexivity|exfalso].
        rewrite ER' in Hsp. destruct Hsp as [Hm _].
        pose proof (fpos_bounds _ _ _ LXb) as Hbd. rewrite Forall_forall in Hbd.
        destruct (Hbd m0) as [_ Hq].
        { rewrite EXb. apply in_or_app. right. left. reflexivity. }
        unfold qend in Hq. fold aT in Hq. lia. }
      subst M'. rewrite app_nil_r in EXb'. rewrite <- EXb' in Hth.
      assert (Hlen2' : (b + 1 + 1) * B <= lenN D) by (clear - Hlen2; lia).
      (* the clean frames after block b, to the end of the log *)
      destruct (frames_after D t z b aT (T ++ F3) (eT ++ t3) Hok HlenD Hhi LY GY PD3 HaT HY Hlt Hlen2
                  _ (at_pos_start D (b + 1) Hlen2')) as (frE & HF3 & HE3).
      assert (Htr : trA D (end_at D (N.max ((b + 1) * B) lt)) aH (evs2 ++ map ev_of (T ++ F3))).
      { apply (trA_of_start D _ aH _ b Hok Eff Hb).
        exists frE. split; [exact (Hcont _ _ HF3)|exact HE3]. }
      pose proof (HstartF _ _ (P1F _ _ Htr)) as Hft0.
      destruct (thin_oks T st') as (c3 & ThT).
      exists (map ev_of H ++ evs2 ++ map ev_of T), c3.
      split; [rewrite !app_length, !map_length; lia|]. left.
      split.
      { rewrite EM. exact (thin_app _ _ _ _ ThH _ _ _ (thin_app _ _ _ _ Hth _ _ _ ThT)). }
      exists (N.max ((b + 1) * B) lt). split.
      * rewrite !map_app, <- !app_assoc in Hft0. rewrite <- !app_assoc. exact Hft0.
      * intros Hbig. lia.
Qed.

(* the entry that straddles the starting boundary (DamageFile.enc_any_split_at_block, with the
   frames) *)
Lemma enc_any_split_frames a f p xs e :
  enc_any a f p xs e ->
  forall kb, ffp a < kb * B -> kb * B <= a + lenN e ->
    kb * B = a + lenN e \/
    exists xs1 xs2 e1 e2 p2,
      xs = xs1 ++ xs2 /\ e = e1 ++ e2 /\ a + lenN e1 = kb * B /\
      layout a xs1 e1 /\ enc_any (kb * B) false p2 xs2 e2.
Proof.
  induction 1 as [a f p x Hd Hff | a f p x xs e Hd Hff Hr IH]; intros kb Hlo Hhi;
    pose proof (H3 DamageFile.lenN_fs_bytes _ _ _ _ _ Hff) as Hlx; unfold first_frame_pos in Hlo;
    destruct (pad_geom a) as (k' & c' & Hp & Hc' & Hmw & _).
  - left. rewrite lenN_app, Hlx in *.
    pose proof (H3 DamageProofs.chunk_fits a p) as Hch.
    pose proof (blocks_above kb k' (c' + 1)) as Hb. lia.
  - rewrite !lenN_app, Hlx in *.
    pose proof (H3 ResyncProofs.chunk_full a p Hd) as Hch.
    pose proof (blocks_above kb k' (c' + 1)) as Hb.
    set (a' := a + lenN (pad_of a) + 7 + StreamProofs.chunk_of P a p) in *.
    assert (Ha' : a' = (k' + 1) * B) by (unfold a'; lia).
    assert (L1 : layout a [x] (pad_of a ++ fs_bytes x)).
    { destruct Hff as (_ & Hc4 & Hl & _).
      rewrite <- (app_nil_r (fs_bytes x)). apply LY_cons; [exact Hc4| |constructor].
      rewrite Hl. apply (H3 DamageProofs.chunk_fits). }
    destruct (N.eq_dec (kb * B) a') as [E|E].
    + right. exists [x], xs, (pad_of a ++ fs_bytes x), e, (dropN (StreamProofs.chunk_of P a p) p).
      split; [reflexivity|]. split; [now rewrite <- app_assoc|].
      split; [rewrite lenN_app, Hlx; unfold a' in E; lia|].
      split; [exact L1|]. rewrite E; exact Hr.
    + assert (Hffp : ffp a' = a') by (rewrite Ha'; apply ffp_aligned).
      destruct (IH kb) as [Hend | (xs1 & xs2 & e1 & e2 & p2 & Hx & He & Hl & Lx1 & Hrel)].
      * rewrite Hffp. lia.
      * lia.
      * left. lia.
      * right. exists (x :: xs1), xs2, (pad_of a ++ fs_bytes x ++ e1), e2, p2.
        split; [rewrite Hx; reflexivity|].
        split; [rewrite He, <- !app_assoc; reflexivity|].
        split; [rewrite !lenN_app, Hlx; unfold a' in Hl; lia|].
        split; [|exact Hrel].
        destruct Hff as (_ & Hc4 & Hlp & _).
        apply LY_cons; [exact Hc4|rewrite Hlp; apply (H3 DamageProofs.chunk_fits)|].
        rewrite Hlp. exact Lx1.
Qed.

(* the entries pxs0 all begin before the boundary kb * B: either they also end before it, or
   the last one straddles it and A1 are its frames from the boundary on *)
Lemma encs_any_boundary a pxs0 t0 kb :
  encs_any a pxs0 t0 -> a <= kb * B ->
  Forall (fun s => snd s < kb * B) (starts P a (map fst pxs0)) ->
  a + lenN t0 <= kb * B \/
  exists A0 A1 e0 e2 p2,
    flat_map snd pxs0 = A0 ++ A1 /\ t0 = e0 ++ e2 /\ a + lenN e0 = kb * B /\
    layout a A0 e0 /\ enc_any (kb * B) false p2 A1 e2.
Proof.
  intros Hes Ha Hall.
  induction pxs0 as [|[x xs] pxs' _] using rev_ind.
  - left. inversion Hes; subst. rewrite (@lenN_nil byte). lia.
  - destruct (H3 DamageFile.encs_any_app_inv pxs' a [(x, xs)] t0 Hes) as (t1' & tx & -> & Hes' & Hx).
    inversion Hx as [|a0 p0 xs0 ex pxs0 t'' Hex Hnil]; subst.
    inversion Hnil; subst. rewrite app_nil_r in *.
    rewrite map_app, (H3 starts_app) in Hall. apply Forall_app in Hall as [_ Hlast].
    rewrite (H3 DamageFile.encs_any_cursor _ _ _ Hes') in Hlast. cbn [map starts fst] in Hlast.
    inversion Hlast as [|s l Hs _]; subst. cbn [snd] in Hs.
    rewrite lenN_app.
    destruct (N.le_gt_cases (kb * B) (a + lenN t1' + lenN ex)) as [Hle|Hgt]; [|left; lia].
    destruct (enc_any_split_frames _ _ _ _ _ Hex kb Hs Hle)
      as [Hend | (xs1 & xs2 & e1 & e2 & p2 & Hxs & He & Hl & Lx1 & Hrel)].
    + left. lia.
    + right. exists (flat_map snd pxs' ++ xs1), xs2, (t1' ++ e1), e2, p2.
      split; [rewrite flat_map_app; cbn [flat_map snd]; rewrite app_nil_r, Hxs, <- app_assoc; reflexivity|].
      split; [rewrite He, <- app_assoc; reflexivity|].
      split; [rewrite lenN_app; lia|].
      split; [|exact Hrel].
      apply (layout_app _ _ _ (encs_any_layout _ _ _ Hes')). exact Lx1.
Qed.

(* pxs0: the entries whose first frame lies before the starting boundary kb * B (the last one
   may reach anywhere); pxs1: entries from the boundary on that end at or before block b;
   pxs3: entries that begin at or after the end of block b; pxsb: those in between.
   The reader started at block kb (<= b) delivers all of pxs1, a sub-list of pxsb, and all of
   pxs3, and ends where the clean reader ends — or, if it stopped inside block b, nothing after. *)
Theorem header_damage_from_core pxs0 pxs1 pxsb pxs3 t0 t1 tb t3 z D b kb :
  encs_any 0 pxs0 t0 -> forallb intact pxs0 = true ->
  encs_any (lenN t0) pxs1 t1 -> forallb intact pxs1 = true ->
  encs_any (lenN t0 + lenN t1) pxsb tb -> forallb intact pxsb = true ->
  encs_any (lenN t0 + lenN t1 + lenN tb) pxs3 t3 -> forallb intact pxs3 = true ->
  stream_ok ((t0 ++ t1 ++ tb ++ t3) ++ zerosN z) ->
  lenN D = lenN ((t0 ++ t1 ++ tb ++ t3) ++ zerosN z) ->
  takeN (b * B) D = takeN (b * B) ((t0 ++ t1 ++ tb ++ t3) ++ zerosN z) ->
  dropN ((b + 1) * B) D = dropN ((b + 1) * B) ((t0 ++ t1 ++ tb ++ t3) ++ zerosN z) ->
  (b + 1) * B <= lenN D ->
  Forall (fun s => snd s < kb * B) (starts P 0 (map fst pxs0)) ->
  kb * B <= ffp (lenN t0) -> kb <= b ->
  (pxs1 = [] \/ lenN t0 + lenN t1 <= b * B) ->
  (pxs3 = [] \/ (b + 1) * B <= ffp (lenN t0 + lenN t1 + lenN tb)) ->
  NoEmbeddedPathX D b (flat_map snd (pxs0 ++ pxs1 ++ pxsb ++ pxs3)) ->
  exists evs mid tail,
    ftrace (rd_at D kb 0) evs /\
    7 * N.of_nat (length evs) <= lenN (t0 ++ t1 ++ tb ++ t3) + B + 7 /\
    delivered (asm evs [] false) = map fst pxs1 ++ mid ++ tail /\
    sublist mid (map fst pxsb) /\
    ((tail = map fst pxs3 /\
      exists e, endsAt D (rd_at D kb 0) evs e /\
                ((b + 1) * B <= lenN (t0 ++ t1 ++ tb ++ t3) -> e = lenN (t0 ++ t1 ++ tb ++ t3))) \/
     (tail = [] /\ stopped_in D b)).
Proof.
  intros E0 G0 E1 G1 Eb Gb E3 G3 HokS HlenD Hlo Hhi Hb Hst0 Hst1 Hkb H1pos H3pos Hne.
  pose proof (encs_any_layout _ _ _ E0) as L0.
  pose proof (encs_any_layout _ _ _ E1) as L1.
  pose proof (encs_any_layout _ _ _ Eb) as Lb.
  pose proof (encs_any_layout _ _ _ E3) as L3.
  set (F0 := flat_map snd pxs0) in *. set (F1 := flat_map snd pxs1) in *.
  set (Fb := flat_map snd pxsb) in *. set (F3 := flat_map snd pxs3) in *.
  assert (Exs : flat_map snd (pxs0 ++ pxs1 ++ pxsb ++ pxs3) = F0 ++ F1 ++ Fb ++ F3)
    by (rewrite !flat_map_app; reflexivity).
  rewrite Exs in Hne.
  assert (Gall : forallb fs_good (F0 ++ F1 ++ Fb ++ F3) = true).
  { rewrite !forallb_app. unfold F0, F1, Fb, F3.
    rewrite (intact_flat _ G0), (intact_flat _ G1), (intact_flat _ Gb), (intact_flat _ G3).
    reflexivity. }
  assert (H3posF : F3 = [] \/ (b + 1) * B <= ffp (lenN t0 + lenN t1 + lenN tb)).
  { destruct H3pos as [->|H]; [left; reflexivity|right; exact H]. }
  assert (Hkbb : kb * B <= b * B) by (apply mulB_le; exact Hkb).
  assert (Lall : layout 0 (F0 ++ F1 ++ Fb ++ F3) (t0 ++ t1 ++ tb ++ t3)).
  { apply (layout_app _ _ _ L0). rewrite N.add_0_l.
    apply (layout_app _ _ _ L1). apply (layout_app _ _ _ Lb). exact L3. }
  pose proof (layout_len _ _ _ Lall) as Hframes. rewrite !app_length in Hframes.
  set (LT := lenN (t0 ++ t1 ++ tb ++ t3)) in *.
  (* what is left to do once the frame trace is known *)
  assert (Fin : forall q p2 A1 e2 C M,
            (A1 = [] \/ enc_any q false p2 A1 e2) -> forallb fs_good A1 = true ->
            (length A1 <= length F0)%nat ->
            ((C = A1 ++ F1 /\ M = Fb) \/ (C = [] /\ pxs1 = [] /\ M = A1 ++ Fb)) ->
            (exists evM c',
               7 * N.of_nat (length evM) <= 7 * N.of_nat (length M) + B + 7 /\
               ((thin true M evM c' /\
                 exists e, endsAt D (rd_at D kb 0) (map ev_of C ++ evM ++ map ev_of F3) e /\
                           ((b + 1) * B <= LT -> e = LT)) \/
                (exists Mp Ms, M = Mp ++ Ms /\ thin true Mp evM c' /\
                               ftrace (rd_at D kb 0) (map ev_of C ++ evM) /\ stopped_in D b))) ->
            exists evs mid tail,
              ftrace (rd_at D kb 0) evs /\
              7 * N.of_nat (length evs) <= LT + B + 7 /\
              delivered (asm evs [] false) = map fst pxs1 ++ mid ++ tail /\
              sublist mid (map fst pxsb) /\
              ((tail = map fst pxs3 /\
                exists e, endsAt D (rd_at D kb 0) evs e /\ ((b + 1) * B <= LT -> e = LT)) \/
               (tail = [] /\ stopped_in D b))).
  { intros q p2 A1 e2 C M HA GA HlA Hshape (evM & c' & HcM & [[Hth (e & Hft & He)] | (Mp & Ms & EM & Hth & Hft & Hstop)]).
    all: assert (HCM : (length C + length M <= length F0 + length F1 + length Fb)%nat)
      by (destruct Hshape as [[-> ->]|(-> & _ & ->)]; rewrite ?app_length; cbn [length]; lia).
    - destruct (finish_core P q p2 A1 e2 _ _ _ _ _ _ _ _ _ C M evM c' HA GA E1 G1 Eb Gb E3 G3 Hshape Hth)
        as (mid & Hdel & Hsub).
      exists (map ev_of C ++ evM ++ map ev_of F3), mid, (map fst pxs3).
      split; [exact (ends_ftrace _ _ _ Hft)|].
      split; [rewrite !app_length, !map_length; lia|]. split; [exact Hdel|]. split; [exact Hsub|].
      left. split; [reflexivity|]. exists e. split; [exact Hft|exact He].
    - destruct (finish_stop P q p2 A1 e2 _ _ _ _ _ _ C M Mp Ms evM c' HA GA E1 G1 Eb Gb Hshape EM Hth)
        as (mid & Hdel & Hsub).
      exists (map ev_of C ++ evM), mid, [].
      split; [exact Hft|]. split; [rewrite app_length, map_length; lia|].
      split; [rewrite app_nil_r; exact Hdel|]. split; [exact Hsub|right; split; [reflexivity|exact Hstop]]. }
  destruct (encs_any_boundary 0 pxs0 t0 kb E0 ltac:(lia) Hst0)
    as [HL | (A0 & A1 & e0 & e2 & p2 & EF0 & Et0 & He0 & LA0 & EA1)].
  - (* the entries before the boundary end before it *)
    rewrite N.add_0_l in HL.
    assert (HposM : lenN t0 + lenN t1 <= b * B).
    { destruct H1pos as [->|H]; [|exact H].
      rewrite (encs_any_nil_inv _ _ E1), (@lenN_nil byte). lia. }
    apply (Fin 0 [] [] [] F1 Fb (or_introl eq_refl) eq_refl (Nat.le_0_l _) (or_introl (conj eq_refl eq_refl))).
    exact (frames_from F0 F1 Fb F3 t0 t1 tb t3 z D b kb L0 L1 Lb L3 Gall HokS HlenD Hlo Hhi Hb
             HL Hst1 Hkb HposM H3posF Hne).
  - rewrite N.add_0_l in He0. fold F0 in EF0.
    assert (HlA1 : (length A1 <= length F0)%nat) by (rewrite EF0, app_length; lia).
    assert (GA1 : forallb fs_good A1 = true).
    { pose proof (intact_flat _ G0) as G. fold F0 in G. rewrite EF0, forallb_app in G.
      apply andb_true_iff in G. apply G. }
    assert (LA1 : layout (lenN e0) A1 e2) by (rewrite He0; exact (H3 enc_any_layout _ _ _ _ _ EA1)).
    assert (Hlt0 : lenN t0 = lenN e0 + lenN e2) by (rewrite Et0, lenN_app; reflexivity).
    assert (HposC : kb * B <= ffp (lenN e0)) by (rewrite He0, ffp_aligned; lia).
    destruct (N.le_gt_cases (lenN t0 + lenN t1) (b * B)) as [HposM|Hbig].
    + (* the straddling entry and pxs1 end before block b *)
      apply (Fin (kb * B) p2 A1 e2 (A1 ++ F1) Fb (or_intror EA1) GA1 HlA1 (or_introl (conj eq_refl eq_refl))).
      assert (LC : layout (lenN e0) (A1 ++ F1) (e2 ++ t1)).
      { apply (layout_app _ _ _ LA1). rewrite <- Hlt0. exact L1. }
      assert (ElC : lenN e0 + lenN (e2 ++ t1) = lenN t0 + lenN t1) by (rewrite lenN_app; lia).
      assert (ES : (t0 ++ t1 ++ tb ++ t3) = (e0 ++ (e2 ++ t1) ++ tb ++ t3))
        by (rewrite Et0, <- !app_assoc; reflexivity).
      unfold LT. rewrite ES. rewrite ES in HokS, HlenD, Hlo, Hhi.
      rewrite EF0, <- app_assoc, (app_assoc A1 F1) in Hne, Gall.
      apply (frames_from A0 (A1 ++ F1) Fb F3 e0 (e2 ++ t1) tb t3 z D b kb LA0 LC);
        rewrite ?ElC; try assumption; lia.
    + (* the straddling entry reaches into block b (or beyond) *)
      assert (Ep1 : pxs1 = []) by (destruct H1pos as [E|H]; [exact E|lia]).
      assert (Et1 : t1 = []) by (subst pxs1; exact (encs_any_nil_inv _ _ E1)).
      assert (EF1 : F1 = []) by (unfold F1; rewrite Ep1; reflexivity).
      apply (Fin (kb * B) p2 A1 e2 [] (A1 ++ Fb) (or_intror EA1) GA1 HlA1
               (or_intror (conj eq_refl (conj Ep1 eq_refl)))).
      rewrite Et1, (@lenN_nil byte), N.add_0_r in *.
      assert (LM : layout (lenN e0 + lenN (@nil byte)) (A1 ++ Fb) (e2 ++ tb)).
      { rewrite (@lenN_nil byte), N.add_0_r. apply (layout_app _ _ _ LA1). rewrite <- Hlt0. exact Lb. }
      assert (ElM : lenN e0 + lenN (@nil byte) + lenN (e2 ++ tb) = lenN t0 + lenN tb)
        by (rewrite lenN_app, (@lenN_nil byte); lia).
      assert (ES : (t0 ++ [] ++ tb ++ t3) = (e0 ++ [] ++ (e2 ++ tb) ++ t3))
        by (rewrite Et0; cbn [app]; rewrite <- !app_assoc; reflexivity).
      unfold LT. rewrite ?Et1, ES. rewrite ES in HokS, HlenD, Hlo, Hhi.
      rewrite EF0, EF1 in Hne, Gall. cbn [app] in Hne, Gall.
      rewrite <- app_assoc, (app_assoc A1 Fb) in Hne, Gall.
      apply (frames_from A0 [] (A1 ++ Fb) F3 e0 [] (e2 ++ tb) t3 z D b kb LA0 (LY_nil P _) LM);
        rewrite ?ElM, ?(@lenN_nil byte), ?N.add_0_r; try assumption; try lia.
Qed.

(* entries pxs1 end at or before block b, entries pxs3 start at or after its end, pxsb are
   those in between (the ones with a frame in block b) *)
Theorem header_damage_core pxs1 pxsb pxs3 t1 tb t3 D b :
  encs_any 0 pxs1 t1 -> forallb intact pxs1 = true ->
  encs_any (lenN t1) pxsb tb -> forallb intact pxsb = true ->
  encs_any (lenN t1 + lenN tb) pxs3 t3 -> forallb intact pxs3 = true ->
  lenN D = lenN (mem_stream P (t1 ++ tb ++ t3)) ->
  takeN (b * B) D = takeN (b * B) (mem_stream P (t1 ++ tb ++ t3)) ->
  dropN ((b + 1) * B) D = dropN ((b + 1) * B) (mem_stream P (t1 ++ tb ++ t3)) ->
  (b + 1) * B <= lenN D ->
  lenN t1 <= b * B ->
  (pxs3 = [] \/ (b + 1) * B <= ffp (lenN t1 + lenN tb)) ->
  NoEmbeddedPathX D b (flat_map snd (pxs1 ++ pxsb ++ pxs3)) ->
  exists evs mid tail,
    mem_read_stream P D = asm evs [] false /\
    delivered (mem_read_stream P D) = map fst pxs1 ++ mid ++ tail /\
    sublist mid (map fst pxsb) /\ (tail = map fst pxs3 \/ (tail = [] /\ stopped_in D b)).
Proof.
  intros E1 G1 Eb Gb E3 G3 HlenD Hlo Hhi Hb H1pos H3pos Hne.
  (* mem_stream pads with a spare zero block: the reader from block 0, nothing before it *)
  destruct (mem_stream_shape (t1 ++ tb ++ t3)) as (z & nb & HS & HlenS & Hnb).
  rewrite HS in HlenD, Hlo, Hhi, HlenS.
  destruct (header_damage_from_core [] pxs1 pxsb pxs3 [] t1 tb t3 z D b 0
              (EAS_nil P 0) eq_refl E1 G1 Eb Gb E3 G3)
    as (evs & mid & tail & Hft & Hcnt & Hdel & Hsub & Htail); try assumption.
  - exists (nb + 1). exact HlenS.
  - constructor.
  - rewrite N.mul_0_l. apply N.le_0_l.
  - apply N.le_0_l.
  - right. exact H1pos.
  - cbn [app] in Hcnt.
    assert (Hrd : mem_read_stream P D = asm evs [] false) by (apply read_stream_trace; [lia|exact Hft|lia]).
    exists evs, mid, tail. rewrite Hrd.
    split; [reflexivity|]. split; [exact Hdel|]. split; [exact Hsub|].
    destruct Htail as [[-> _]|[-> Hst]]; [left; reflexivity|right; split; [reflexivity|exact Hst]].
Qed.


Lemma app_inj_len {A} (a a' b b' : list A) :
  lenN a = lenN a' -> a ++ b = a' ++ b' -> a = a' /\ b = b'.
Proof.
  intros L E. apply (app_inv_len _ _ _ _ E). rewrite !lenN_length in L. lia.
Qed.

Lemma fs_bytes_inj x x' (e e' : bytes) :
  lenN (fs_c4 x) = 4 -> lenN (fs_c4 x') = 4 ->
  lenN (fs_pl x) < 65536 -> lenN (fs_pl x') < 65536 ->
  fs_bytes x ++ e = fs_bytes x' ++ e' -> x = x' /\ e = e'.
Proof.
  destruct x as [c4 ty pl], x' as [c4' ty' pl']. unfold fs_bytes, dframe. cbn [fs_c4 fs_ty fs_pl].
  intros H4 H4' Hl Hl' E. rewrite <- !app_assoc in E.
  destruct (app_inj_len _ _ _ _ (eq_trans H4 (eq_sym H4')) E) as [-> E1].
  destruct (app_inj_len _ _ _ _ (eq_trans (length_le_enc 2 _) (eq_sym (length_le_enc 2 _))) E1) as [En E2].
  apply (f_equal le_dec) in En.
  rewrite !le_dec_enc_small in En by (change (256 ^ N.of_nat 2) with 65536; assumption).
  cbn [app] in E2. inversion E2 as [[Et E3]].
  destruct (app_inj_len _ _ _ _ En E3) as [-> ->].
  assert (ty = ty') by (destruct ty, ty'; try reflexivity; discriminate Et).
  subst ty'. split; reflexivity.
Qed.

Lemma layout_unique a xs e : layout a xs e -> forall xs', layout a xs' e -> xs = xs'.
Proof.
  induction 1 as [a | a x xs e Hc4 Hfit Hl IH]; intros xs' L'.
  - inversion L' as [|a0 x' xs0 e0 Hc4' Hfit' Hl' Ea Exs Ee]; [reflexivity|].
    apply (f_equal lenN) in Ee. rewrite !lenN_app, lenN_fs_bytes, (@lenN_nil byte) in Ee by exact Hc4'. lia.
  - inversion L' as [a0 Ea Exs Ee|a0 x' xs0 e0 Hc4' Hfit' Hl' Ea Exs Ee].
    + apply (f_equal lenN) in Ee. rewrite !lenN_app, lenN_fs_bytes, (@lenN_nil byte) in Ee by exact Hc4. lia.
    + apply app_inv_head in Ee.
      destruct (pad_geom a) as (k' & c' & _ & Hc' & Hmw & _).
      destruct (fs_bytes_inj x' x e0 e Hc4' Hc4 ltac:(lia) ltac:(lia) Ee) as [-> ->].
      f_equal. apply IH. exact Hl'.
Qed.

Local Notation encs_rel := (encs_rel P).
Local Notation encs_rel_any := (H3 DamageProofs.encs_rel_any).
Local Notation encs_any_app := (H3 DamageProofs.encs_any_app).
Local Notation mem_write_all_spec := (H3 StreamProofs.mem_write_all_spec).
Local Notation encs_rel_app_inv := (H3 DamageProofs.encs_rel_app_inv).

(* D is the clean stream of t (zero-padded as the reader gets it) except inside block b *)
Definition damaged_in_block (D t : bytes) (b : N) : Prop :=
  lenN D = lenN (mem_stream P t) /\
  takeN (b * B) D = takeN (b * B) (mem_stream P t) /\
  dropN ((b + 1) * B) D = dropN ((b + 1) * B) (mem_stream P t) /\
  (b + 1) * B <= lenN D.

(* THE HYPOTHESIS.  t: the bytes the writer emitted; xs: its frames (type, payload, checksum),
   fpos 0 xs: their start offsets in t.  Wherever in block b of D the byte image of a
   CRC-valid frame (frame_bytes ty p, i.e. valid type, length within the block, matching CRC)
   stands, that place is the start of a frame the writer put there and the image is that frame. *)
Definition NoEmbedded (D : bytes) (b : N) (t : bytes) : Prop :=
  forall xs, layout 0 xs t -> forallb fs_good xs = true -> NoEmbeddedX D b xs.

(* the weakest form: the same, required only at the cursor positions the reader goes through
   in block b (reach); equivalently (accepted_genuine_path) "every frame the reader accepts in
   block b is a frame the writer put at that place" *)
Definition NoEmbeddedPath (D : bytes) (b : N) (t : bytes) : Prop :=
  forall xs, layout 0 xs t -> forallb fs_good xs = true -> NoEmbeddedPathX D b xs.

Lemma NoEmbedded_path D b t : NoEmbedded D b t -> NoEmbeddedPath D b t.
Proof. intros H xs L G. apply NoEmbeddedX_path. exact (H xs L G). Qed.

(* by uniqueness of the frame list, it is enough to check one *)
Lemma NoEmbedded_of_X D b t xs : layout 0 xs t -> NoEmbeddedX D b xs -> NoEmbedded D b t.
Proof. intros L H xs' L' _. rewrite <- (layout_unique _ _ _ L _ L'). exact H. Qed.

Lemma NoEmbeddedPath_of_X D b t xs : layout 0 xs t -> NoEmbeddedPathX D b xs -> NoEmbeddedPath D b t.
Proof. intros L H xs' L' _. rewrite <- (layout_unique _ _ _ L _ L'). exact H. Qed.

(* for entries with their frames, the hypothesis speaks of those frames *)
Lemma NoEmbeddedPath_entries D b pxs t :
  encs_any 0 pxs t -> forallb intact pxs = true -> NoEmbeddedPath D b t ->
  NoEmbeddedPathX D b (flat_map snd pxs).
Proof. intros E G Hne. apply Hne; [exact (encs_any_layout _ _ _ E)|exact (intact_flat _ G)]. Qed.

(* es1: entries ending at or before block b; es3: entries starting at or after its end;
   esb: the entries in between.  What the reader delivers over D: all of es1, then a
   subsequence of esb, then either all of es3 or — only if it met an all-zero header on its
   way through the damaged block (which reads as end of log: stopped_in) — nothing more.
   No fuel exhaustion. *)
Theorem header_damage_local es1 esb es3 t1 tb t3 D b :
  encs_rel 0 es1 t1 -> encs_rel (lenN t1) esb tb -> encs_rel (lenN t1 + lenN tb) es3 t3 ->
  damaged_in_block D (t1 ++ tb ++ t3) b ->
  lenN t1 <= b * B ->
  (es3 = [] \/ (b + 1) * B <= ffp (lenN t1 + lenN tb)) ->
  NoEmbeddedPath D b (t1 ++ tb ++ t3) ->
  let out := mem_read_stream P D in
  ~ In MrFuel out /\
  sublist (delivered out) (es1 ++ esb ++ es3) /\
  exists mid tail,
    delivered out = es1 ++ mid ++ tail /\ sublist mid esb /\
    (tail = es3 \/ (tail = [] /\ stopped_in D b)).
Proof.
  intros R1 Rb R3 (HlenD & Hlo & Hhi & Hb) H1pos H3pos Hne out.
  destruct (encs_rel_any _ _ _ R1) as (pxs1 & E1 & M1 & G1).
  destruct (encs_rel_any _ _ _ Rb) as (pxsb & Eb & Mb & Gb).
  destruct (encs_rel_any _ _ _ R3) as (pxs3 & E3 & M3 & G3).
  assert (H3pos' : pxs3 = [] \/ (b + 1) * B <= ffp (lenN t1 + lenN tb)).
  { destruct H3pos as [E|H]; [left|right; exact H].
    rewrite <- M3 in E. destruct pxs3; [reflexivity|discriminate]. }
  assert (HneX : NoEmbeddedPathX D b (flat_map snd (pxs1 ++ pxsb ++ pxs3))).
  { apply (NoEmbeddedPath_entries D b _ _ (encs_any_app _ _ _ E1 _ _ (encs_any_app _ _ _ Eb _ _ E3)));
      [|exact Hne].
    rewrite !forallb_app, G1, Gb, G3. reflexivity. }
  destruct (header_damage_core pxs1 pxsb pxs3 t1 tb t3 D b E1 G1 Eb Gb E3 G3 HlenD Hlo Hhi Hb
              H1pos H3pos' HneX) as (evs & mid & tail & Hout & Hdel & Hsub & Htail).
  fold out in Hout, Hdel. rewrite M1 in Hdel. rewrite Mb in Hsub. rewrite M3 in Htail.
  split; [rewrite Hout; apply asm_no_fuel|].
  split; [|exists mid, tail; repeat split; assumption].
  rewrite Hdel. apply sublist_app; [apply sublist_refl|].
  apply sublist_app; [exact Hsub|].
  destruct Htail as [->| [-> _]]; [apply sublist_refl|apply DamageFile.sublist_nil_l].
Qed.

(* damage is local: if the reader met no all-zero header on its way through block b (and a
   block follows), every entry lying outside block b is delivered *)
Corollary header_damage_resync es1 esb es3 t1 tb t3 D b :
  encs_rel 0 es1 t1 -> encs_rel (lenN t1) esb tb -> encs_rel (lenN t1 + lenN tb) es3 t3 ->
  damaged_in_block D (t1 ++ tb ++ t3) b ->
  lenN t1 <= b * B ->
  (es3 = [] \/ (b + 1) * B <= ffp (lenN t1 + lenN tb)) ->
  NoEmbeddedPath D b (t1 ++ tb ++ t3) ->
  ~ stopped_in D b ->
  exists mid, delivered (mem_read_stream P D) = es1 ++ mid ++ es3 /\ sublist mid esb.
Proof.
  intros R1 Rb R3 Hd H1 H3' Hne Hns.
  destruct (header_damage_local es1 esb es3 t1 tb t3 D b R1 Rb R3 Hd H1 H3' Hne)
    as (_ & _ & mid & tail & Hdel & Hsub & [->|[_ Hst]]); [|contradiction].
  exists mid. split; assumption.
Qed.

(* the plain statement: nothing that was not written is delivered *)
Theorem header_damage_sublist es t D b :
  encs_rel 0 es t -> damaged_in_block D t b -> NoEmbeddedPath D b t ->
  let out := mem_read_stream P D in
  ~ In MrFuel out /\ sublist (delivered out) es.
Proof.
  intros R Hd Hne out.
  assert (Et : t = [] ++ t ++ []) by (rewrite app_nil_r; reflexivity).
  rewrite Et in Hd, Hne.
  destruct (header_damage_local [] es [] [] t [] D b) as (Hf & Hs & _); try assumption.
  - constructor.
  - constructor.
  - rewrite (@lenN_nil byte). lia.
  - left. reflexivity.
  - rewrite app_nil_r in Hs. split; assumption.
Qed.

(* from the writer *)
Theorem header_damage_written es1 esb es3 w ns D b :
  mem_write_all P (mkVecW 0 []) (es1 ++ esb ++ es3) = (w, ns) ->
  exists t1 tb t3,
    vw_buf w = t1 ++ tb ++ t3 /\
    encs_rel 0 es1 t1 /\ encs_rel (lenN t1) esb tb /\ encs_rel (lenN t1 + lenN tb) es3 t3 /\
    (damaged_in_block D (vw_buf w) b ->
     lenN t1 <= b * B ->
     (es3 = [] \/ (b + 1) * B <= ffp (lenN t1 + lenN tb)) ->
     NoEmbeddedPath D b (vw_buf w) ->
     let out := mem_read_stream P D in
     ~ In MrFuel out /\
     sublist (delivered out) (es1 ++ esb ++ es3) /\
     exists mid tail,
       delivered out = es1 ++ mid ++ tail /\ sublist mid esb /\
       (tail = es3 \/ (tail = [] /\ stopped_in D b))).
Proof.
  intros Hw.
  destruct (mem_write_all_spec (es1 ++ esb ++ es3) (mkVecW 0 [])) as (ns' & t & Hall & Hes & _ & _).
  rewrite Hw in Hall. inversion Hall as [[Ew Ens]]. cbn [vw_cursor vw_buf app] in *.
  destruct (encs_rel_app_inv _ _ _ _ Hes) as (t1 & t' & -> & R1 & R').
  rewrite N.add_0_l in R'.
  destruct (encs_rel_app_inv _ _ _ _ R') as (tb & t3 & -> & Rb & R3).
  exists t1, tb, t3. split; [reflexivity|]. split; [exact R1|]. split; [exact Rb|]. split; [exact R3|].
  intros Hd H1 H3' Hne. exact (header_damage_local es1 esb es3 t1 tb t3 D b R1 Rb R3 Hd H1 H3' Hne).
Qed.

End HD.

Print Assumptions frames_from.
Print Assumptions header_damage_from_core.
Print Assumptions header_damage_core.
Print Assumptions header_damage_local.
Print Assumptions header_damage_sublist.
Print Assumptions header_damage_resync.
Print Assumptions header_damage_written.
Check header_damage_local.
Check header_damage_sublist.
