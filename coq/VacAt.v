(* VacAt.v — vacuity audit of CrashAt.v, and the true corner.
   Instance BS = 32, NB = 2 (FILE = 64): create qa, then the interrupted call
   append qa [10 bytes], which crosses a block AND rolls over to file 1:
     events: Write(file0,19,13 bytes)  Write(file0,32,32 bytes)  Flush SyncData SyncDir
             Create(file1) SetLen(file1,64) Write(file1,0,10 bytes) Flush SyncData SyncDir.
   (a) P_sat 32 2: the premises of jstate_crash_at are satisfiable for this ROLLING call at the
       crash points (0,k) (first write torn), and the theorem is applied.
   (b) real CRC-32, by computation, ALL 64 crash points — including the TRUE CORNER (1,1)..(1,6):
       a torn frame header of fewer than 7 bytes in the last block of the last file, where the
       recovered writer resumes ON non-zero bytes — : recovery gives the state before/after, a
       continuation + restart is the identity, and all 3700 (first crash, crash of the next call)
       pairs are recovered to before/after with continuation + restart identity again.
       No failure of the model in the corner. *)
From Coq Require Import Lia ZArith ZifyN ZifyNat ZifyBool List.
From MRL Require Import Bytes BytesProofs Params Names Frame Record Mem Spec Rolling Log Driver Hist
  WriterProofs SpecRefine RecordProofs StreamProofs ResyncProofs GhostLog ReplaySpec TornProofs
  RestartInv RestartWrite RestartStep OpenReplay RestartFinal CrashTrace CrashAtomic NzcVacuous
  PolicyProofs VacBase VacCrash CrashRecovered CrashRecovered2 CrashHistories JRecover4 CrashAt VacRecovered.
Import ListNotations.
Import CrashAtomic.CrashExample.

Definition Pw : params := P_sat 32 2.
Lemma Pw_BS_lo : 7 < BS Pw. Proof. reflexivity. Qed.
Lemma Pw_BS_hi : BS Pw <= 65542. Proof. intros H; discriminate H. Qed.
Lemma Pw_NB : 1 <= NB Pw. Proof. intros H; discriminate H. Qed.
Lemma Pw_crc : forall t p, crcf Pw t p < 2 ^ 32. Proof. exact crc_sat_lt. Qed.
Lemma Pw_nzc : no_zero_collision Pw. Proof. apply nzc_P_sat. intros H; discriminate H. Qed.

Definition w0s : state :=
  Eval vm_compute in match open Pw [] None (PAlways true) [] with OpenOk s => s | _ => st_dummy end.
Definition w1s : state := Eval vm_compute in fst (step Pw w0s (OCreate qa) false).
Definition o_r : op := OAppend qa None [pay "x"%byte].
Definition w2s : state := Eval vm_compute in fst (step Pw w1s o_r false).
Definition out_r : outcome := Eval vm_compute in snd (step Pw w1s o_r false).
Lemma open_w0 : open Pw [] None (PAlways true) [] = OpenOk w0s. Proof. vm_compute. reflexivity. Qed.
Lemma hrun_w1 : hrun Pw w0s [HCall (OCreate qa) false] = Some (w1s, [OutCreate 19]).
Proof. vm_compute. reflexivity. Qed.
Lemma step_r : step Pw w1s o_r false = (w2s, out_r). Proof. vm_compute. reflexivity. Qed.

Example rolling_shape :
  w_files (s_wr w1s) = [0] /\ w_off (s_wr w1s) = 19 /\ w_files (s_wr w2s) = [0; 1] /\
  w_off (s_wr w2s) = 10 /\ FILE_BYTES Pw = 64.
Proof. vm_compute. repeat split; reflexivity. Qed.

Lemma jstate_w1 : jstate Pw w1s.
Proof.
  assert (Hok : hist_ok Pw w0s [HCall (OCreate qa) false]) by (call_tac; exact I).
  destruct (inv_hrun_fresh Pw Pw_BS_lo Pw_BS_hi Pw_NB Pw_crc eq_refl eq_refl _ _ _ _ _ open_w0 Hok hrun_w1)
    as (G & HI & _).
  exact (jstate_inv Pw Pw_BS_lo Pw_BS_hi Pw_NB Pw_crc w1s G HI).
Qed.

Lemma call_ok0_r : crash_call_ok0 Pw w1s true o_r false w2s out_r.
Proof.
  split; [reflexivity|]. split; [reflexivity|]. split; [unfold o_r; wf_tac|].
  split; [apply (crash_phys_bound_by Pw Pw_BS_lo Pw_BS_hi Pw_NB Pw_crc 64); [vm_compute; reflexivity|le_tac]|].
  split; [apply (crash_phys_bound_by Pw Pw_BS_lo Pw_BS_hi Pw_NB Pw_crc 64); [vm_compute; reflexivity|le_tac]|].
  exact step_r.
Qed.

Definition evs_r : list event := Eval vm_compute in new_events w1s w2s.
Lemma evs_r_eq : c_ev (w_ctx (s_wr w2s)) = rev evs_r ++ c_ev (w_ctx (s_wr w1s)).
Proof. vm_compute. reflexivity. Qed.

(* the crash points (0,k), k = 0..12: the first write (13 bytes at offset 19) torn *)
Lemma point_ok_r k : k <= 12 -> crash_point_ok Pw w1s (crash_events evs_r 0 k).
Proof.
  intros Hk. assert (Hcases : In k (map N.of_nat (List.seq 0%nat 13%nat))).
  { replace k with (N.of_nat (N.to_nat k)) by lia. apply in_map. apply in_seq. lia. }
  cbn [List.seq map In] in Hcases.
  repeat (destruct Hcases as [<-|Hcases];
          [split; [vm_compute; repeat constructor | le_tac]|]).
  contradiction.
Qed.

Theorem jstate_crash_at_inst :
  forall k pol hint, k <= 12 -> exists st_r,
    open Pw (fold_left apply_event (crash_events evs_r 0 k) (c_fs (w_ctx (s_wr w1s)))) None pol hint
      = OpenOk st_r /\ jstate Pw st_r /\
    ((forall q, s_get (abs_qs (s_qs st_r)) q = s_get (abs_qs (s_qs w1s)) q) \/
     (forall q, s_get (abs_qs (s_qs st_r)) q = s_get (abs_qs (s_qs w2s)) q)).
Proof.
  intros k pol hint Hk.
  destruct (jstate_crash_at Pw Pw_BS_lo Pw_BS_hi Pw_NB Pw_crc eq_refl eq_refl eq_refl Pw_nzc
              w1s true o_r false w2s out_r jstate_w1 call_ok0_r) as (_ & evs & Hev & Hall).
  rewrite (new_evs_unique _ _ _ _ evs_r_eq Hev) in Hall.
  destruct (Hall 0 k pol hint (point_ok_r k Hk)) as (st_r & Ho & Hj & _ & _ & Ha).
  exists st_r. auto.
Qed.

Definition Pc : params := mkParams 32 2 Crc.crc32 0 false false false.
Definition c0s : state :=
  Eval vm_compute in match open Pc [] None (PAlways true) [] with OpenOk s => s | _ => st_dummy end.
Definition c1s : state := Eval vm_compute in fst (step Pc c0s (OCreate qa) false).
Definition c2s : state := Eval vm_compute in fst (step Pc c1s o_r false).
Definition evs_c : list event := Eval vm_compute in new_events c1s c2s.

Definition h_cont : list hop :=
  [HCall (OAppend qa None [pay "z"%byte]) false; HCall (OCreate qb) false;
   HCall (OAppend qb None [pay "w"%byte; pay "w"%byte]) false; HCall (OTruncate qa 100 [qb]) false;
   HCall (OAppend qa None [pay "v"%byte]) false].

Definition cont_restart_ok (s : state) : bool :=
  match hrun Pc s h_cont with
  | Some (st2, _) =>
      match restart Pc st2 (PAlways true) [] with
      | OpenOk st3 => smap_ext_eqb (abs_qs (s_qs st3)) (abs_qs (s_qs st2))
      | _ => false
      end
  | None => false
  end.

(* (cut, k, 1 = before / 2 = after / 0 = bad, recovered w_file, recovered w_off,
    continuation + restart identity) *)
Definition corner_verdict (ck : N * N) : N * N * N * N * N * bool :=
  let img := fold_left apply_event (crash_events evs_c (fst ck) (snd ck)) (c_fs (w_ctx (s_wr c1s))) in
  match open Pc img None (PAlways true) [] with
  | OpenOk sr =>
      let v := if smap_ext_eqb (abs_qs (s_qs sr)) (abs_qs (s_qs c1s)) then 1
               else if smap_ext_eqb (abs_qs (s_qs sr)) (abs_qs (s_qs c2s)) then 2 else 0 in
      (fst ck, snd ck, v, w_file (s_wr sr), w_off (s_wr sr), cont_restart_ok sr)
  | _ => (fst ck, snd ck, 0, 0, 0, false)
  end.

(* the true corner: crash after 1..6 bytes of the 32-byte write at offset 32 of file 0 (the last
   block of the only file): the writer resumes at offset 32, on the non-zero torn header *)
Definition corner_tab : list (N * N * N * N * N * bool) :=
  Eval vm_compute in map corner_verdict (crash_points evs_c).
Lemma corner_tab_ok : map corner_verdict (crash_points evs_c) = corner_tab.
Proof. vm_eq. Qed.

Example true_corner :
  map corner_verdict [(1,1); (1,2); (1,3); (1,4); (1,5); (1,6)] =
  [(1,1,1,0,32,true); (1,2,1,0,32,true); (1,3,1,0,32,true);
   (1,4,1,0,32,true); (1,5,1,0,32,true); (1,6,1,0,32,true)] /\
  (* the file really holds non-zero bytes at the writer's position *)
  (let img := fold_left apply_event (crash_events evs_c 1 3) (c_fs (w_ctx (s_wr c1s))) in
   all_zero (dropN 32 (PolicyProofs.fcontent img 0)) = false).
Proof.
  split; [|vm_compute; reflexivity].
  change [(1,1); (1,2); (1,3); (1,4); (1,5); (1,6)] with (firstn 6 (skipn 14 (crash_points evs_c))).
  rewrite <- firstn_map, <- skipn_map, corner_tab_ok. reflexivity.
Qed.

Example all_points_ok :
  lenN (crash_points evs_c) = 64 /\
  forallb (fun ck => match corner_verdict ck with (_, _, v, _, _, ok) => negb (v =? 0) && ok end)
          (crash_points evs_c) = true.
Proof.
  split; [vm_compute; reflexivity|].
  rewrite <- (forallb_map corner_verdict (fun v => match v with (_, _, v, _, _, ok) => negb (v =? 0) && ok end)).
  rewrite corner_tab_ok. reflexivity.
Qed.

(* a second crash, during the next call after the recovery, at every point, for every first
   crash point: number of (first, second) pairs, and the number of failures *)
Definition o_n : op := OAppend qa None [pay "z"%byte].
Definition second_from (ck : N * N) : list bool :=
  let img := fold_left apply_event (crash_events evs_c (fst ck) (snd ck)) (c_fs (w_ctx (s_wr c1s))) in
  match open Pc img None (PAlways true) [] with
  | OpenOk sr =>
      let sr' := fst (step Pc sr o_n false) in
      let evs3 := new_events sr sr' in
      map (fun ck2 =>
        let img2 := fold_left apply_event (crash_events evs3 (fst ck2) (snd ck2)) (c_fs (w_ctx (s_wr sr))) in
        match open Pc img2 None (PAlways true) [] with
        | OpenOk sq =>
            (smap_ext_eqb (abs_qs (s_qs sq)) (abs_qs (s_qs sr)) ||
             smap_ext_eqb (abs_qs (s_qs sq)) (abs_qs (s_qs sr'))) && cont_restart_ok sq
        | _ => false
        end) (crash_points evs3)
  | _ => [false]
  end.

(* The 3700 second-level images are 890 distinct directories, which open to 370 distinct states:
   open runs once per distinct directory and the continuation once per distinct state. *)
Definition reopen (img : fsT) : open_result := open Pc img None (PAlways true) [].
Definition outcome_of (r : open_result) : option (smap * bool) :=
  match r with OpenOk sq => Some (abs_qs (s_qs sq), cont_restart_ok sq) | _ => None end.
Definition judge (c : smap * smap) (v : option (smap * bool)) : bool :=
  match v with Some (m, ok) => (smap_ext_eqb m (fst c) || smap_ext_eqb m (snd c)) && ok | None => false end.
Definition second_imgs (ck : N * N) : option (smap * smap * list fsT) :=
  let img := fold_left apply_event (crash_events evs_c (fst ck) (snd ck)) (c_fs (w_ctx (s_wr c1s))) in
  match open Pc img None (PAlways true) [] with
  | OpenOk sr =>
      let sr' := fst (step Pc sr o_n false) in
      let evs3 := new_events sr sr' in
      Some (abs_qs (s_qs sr), abs_qs (s_qs sr'),
            map (fun ck2 => fold_left apply_event (crash_events evs3 (fst ck2) (snd ck2)) (c_fs (w_ctx (s_wr sr))))
                (crash_points evs3))
  | _ => None
  end.
Lemma second_from_imgs ck :
  second_from ck = judge_all (fun i => outcome_of (reopen i)) judge [false] (second_imgs ck).
Proof.
  unfold second_from, second_imgs, judge_all, reopen.
  destruct (open Pc _ None (PAlways true) []) as [sr| | |]; try reflexivity.
  cbv zeta. rewrite map_map. apply map_ext. intros ck2. cbv beta.
  destruct (open Pc _ None (PAlways true) []); reflexivity.
Qed.

Definition second_list (r : option (smap * smap * list fsT)) : list fsT :=
  match r with Some (_, _, l) => l | None => [] end.
Definition imgs2 : list fsT :=
  Eval vm_compute in distinct fs_key fs_eqb (flat_map (fun ck => second_list (second_imgs ck)) (crash_points evs_c)).
Definition seconds_ix : list (option (smap * smap * list N)) :=
  Eval vm_compute in
    let kreps := keyed fs_key imgs2 in
    map (fun ck => match second_imgs ck with
                   | Some (a, a', l) => Some (a, a', indices fs_key fs_eqb kreps l)
                   | None => None
                   end) (crash_points evs_c).
Lemma second_imgs_ix : map second_imgs (crash_points evs_c) = map (unfold_ix imgs2 []) seconds_ix.
Proof. vm_eq. Qed.

(* states and open results as table entries; a state is compared with its trace, which `open`
   returns although nothing below reads it *)
Definition ev_code (e : event) : N * bytes * N * N * bytes :=
  match e with
  | EvReadDir => (0, [], 0, 0, [])
  | EvCreate n => (1, n, 0, 0, [])
  | EvOpenRw n => (2, n, 0, 0, [])
  | EvSetLen n l => (3, n, l, 0, [])
  | EvWrite n o d => (4, n, o, 0, d)
  | EvRead n o l ok => (5, n, o, l, if ok then [x00] else [])
  | EvFlush n => (6, n, 0,0,[])
  | EvSyncData n => (7,n,0,0,[])
  | EvSyncDir => (8,[],0,0,[])
  | EvUnlink n => (9,n,0,0,[])
  end.
Definition ev_eqb (a b : event) : bool :=
  let '(t, n, x, y, d) := ev_code a in let '(t', n', x', y', d') := ev_code b in
  (t =? t') && bytes_eqb n n' && (x =? x') && (y =? y') && bytes_eqb d d'.
Definition meta_eqb (a b : meta) : bool :=
  (m_off a =? m_off b) && (m_pos a =? m_pos b) &&
  match m_file a, m_file b with Some x, Some y => x =? y | None, None => true | _, _ => false end.
Definition mq_eqb (a b : mq) : bool :=
  bytes_eqb (q_buf a) (q_buf b) && (q_start a =? q_start b) && all2 meta_eqb (q_metas a) (q_metas b).
Definition st_eqb (x y : state) : bool :=
  let c := w_ctx (s_wr x) in let c' := w_ctx (s_wr y) in
  (lenN (c_ev c) =? lenN (c_ev c')) && fs_eqb (c_fs c) (c_fs c') && all2 ev_eqb (c_ev c) (c_ev c') && (c_nreaddir c =? c_nreaddir c') &&
  (c_nopen c =? c_nopen c') && (c_nread c =? c_nread c') &&
  all2 N.eqb (w_files (s_wr x)) (w_files (s_wr y)) && (w_file (s_wr x) =? w_file (s_wr y)) &&
  (w_off (s_wr x) =? w_off (s_wr y)) && bytes_eqb (w_pending (s_wr x)) (w_pending (s_wr y)) &&
  all2 (fun a b => bytes_eqb (fst a) (fst b) && mq_eqb (snd a) (snd b)) (s_qs x) (s_qs y).
Definition opened_key (r : open_result) : N :=
  match r with
  | OpenOk s => fs_key (c_fs (w_ctx (s_wr s))) + lenN (c_ev (w_ctx (s_wr s))) + 1000 * w_off (s_wr s)
  | _ => 0
  end.
Definition opened_eqb (a b : open_result) : bool :=
  match a, b with OpenOk x, OpenOk y => st_eqb x y | _ , _ => false end.

Definition no_state : open_result := OpenFuel (ctx_init [] None).
Definition states2 : list open_result := Eval vm_compute in distinct opened_key opened_eqb (map reopen imgs2).
Definition reopen_ix : list N :=
  Eval vm_compute in indices opened_key opened_eqb (keyed opened_key states2) (map reopen imgs2).
Lemma reopen_imgs2 : map reopen imgs2 = map (pick states2 no_state) reopen_ix.
Proof. vm_eq. Qed.

Definition outcomes2 : list (option (smap * bool)) := Eval vm_compute in map outcome_of states2.
Lemma outcomes2_ok : map outcome_of states2 = outcomes2.
Proof. vm_eq. Qed.

Definition no_outcome : option (smap * bool) := Eval vm_compute in outcome_of (reopen []).
Definition outcomes_img : list (option (smap * bool)) := Eval vm_compute in map (pick outcomes2 None) reopen_ix.
Lemma outcomes_img_ok : map (fun i => outcome_of (reopen i)) imgs2 = outcomes_img.
Proof. rewrite <- (map_map reopen outcome_of), reopen_imgs2, map_pick, outcomes2_ok. reflexivity. Qed.
Lemma no_outcome_ok : outcome_of (reopen []) = no_outcome.
Proof. vm_compute. reflexivity. Qed.

Definition verdicts2 : list bool :=
  Eval vm_compute in flat_map (judge_ix judge [false] outcomes_img no_outcome) seconds_ix.
Lemma verdicts2_ok : flat_map second_from (crash_points evs_c) = verdicts2.
Proof.
  rewrite (flat_map_ext _ _ second_from_imgs).
  rewrite (rows_ix _ judge [false] imgs2 [] outcomes_img no_outcome outcomes_img_ok no_outcome_ok _ _ _ second_imgs_ix).
  vm_eq.
Qed.

Example second_crash_everywhere :
  let vs := flat_map second_from (crash_points evs_c) in
  (lenN vs, lenN (filter negb vs)) = (3700, 0).
Proof. rewrite verdicts2_ok. reflexivity. Qed.

Print Assumptions jstate_crash_at_inst.
