(* JRecoverSelf.v — a crash that cuts the effects of the recovery itself.
   img is a crash image of a (virtual) call issued from a state satisfying the junk-tolerant
   invariant; st_r = open img.  The events that `open` appended to the I/O trace are the reading
   phase (quiet events and possibly the set_len of a short last file) followed by the events of
   the recovery-time GC (position entries, flush, syncs, unlinks).  Every crash image of these
   events, applied to img, is again recovered to the abstract state of st_r. *)
From Coq Require Import Lia ZArith ZifyN ZifyNat ZifyBool List Sorted.
From MRL Require Import Bytes BytesProofs Params Names NamesProofs Frame Record Mem Spec Rolling Log
  Driver Hist NoopProofs SpecRefine RecordProofs StreamProofs PolicyProofs GcProofs GhostLog ReplaySpec
  HandleProofs FileStream ResyncProofs QueueIso RestartInv RestartWrite RestartGc RestartStep
  OpenReplay RestartFinal TornProofs TornFile CrashTrace CrashAtomic
  JInv JGc JStep JunkStream JReopen JRecoverL JRecoverP JRecoverL2
  JCrashShape JRecover2 JRecoverPk JRecover3 JRecoverGc.

Section RecoverSelf.
Variable P : params.
Hypothesis HBS_lo : 7 < BS P.
Hypothesis HBS_hi : BS P <= 65542.
Hypothesis HNB : 1 <= NB P.
Hypothesis Hcrc : forall t p, crcf P t p < 2 ^ 32.
Hypothesis HGC : L_GC P = false.
Hypothesis HIO : L_IO P = false.
Hypothesis HSHORT : L_SHORT P = false.
Hypothesis Hnc : no_zero_collision P.

Local Notation B := (BS P).
Local Notation FB := (FILE_BYTES P).
Local Notation ffp := (first_frame_pos P).
Local Notation encs_of := (encs_of P).
Local Notation cursor_after := (cursor_after P).
Local Notation ser := (map entry_ser).
Local Notation H3 f := (f P HBS_lo HBS_hi Hcrc) (only parsing).
Local Notation H2 f := (f P HBS_lo HBS_hi) (only parsing).
Local Notation HW f := (f P HBS_lo HBS_hi HNB Hcrc) (only parsing).
Local Notation HN f := (f P HBS_lo HBS_hi HNB) (only parsing).

(* room for the position entries of a GC started (again) from the recovered state, or from
   any earlier cursor *)
Definition rec_bound (st_r : state) : Prop :=
  forall c extra, pos_extra (abs_qs (s_qs st_r)) extra ->
    c <= wabs P (s_wr st_r) + B -> cursor_after c (ser extra) <= FB * (U64_MAX + 1).

(* the package established by a recovery *)
Definition recovered (st_r : state) : Prop :=
  exists PRE OLD opos adm cmax rm G_r,
    pre_ok PRE OLD opos /\ pre_cont P PRE (ser OLD) opos adm cmax rm /\ rm <= 7 /\
    (forall m, adm (m * NB P)) /\
    InvJ P PRE OLD opos st_r G_r /\
    lenN PRE + rm <= (w_file (s_wr st_r) + 1 - gh_base G_r) * FB.

(* The room that the recovery of a crash image of a GC run needs (crash_boundJ), from the room at
   the writer it leaves (rec_bound): the GC was run from a state st0 with no entries beyond OLD,
   so the ghost stream after it ends at the cursor of st_r. *)
Lemma gc_crash_bound PRE OLD opos st0 G0 hint st_r k :
  pre_ok PRE OLD opos -> InvJ P PRE OLD opos st0 G0 -> jNEW OLD G0 = [] ->
  stream_boundJ P PRE OLD G0 (map snd (gc_log P st0 hint)) ->
  run_gc_if_necessary P st0 hint = (st_r, Ok k) -> rec_bound st_r ->
  crash_boundJ P PRE OLD G0 (map snd (gc_log P st0 hint)) (abs_qs (s_qs st0)).
Proof.
  clear HIO HSHORT Hnc.
  intros Hpre HI0 EjN0 HsbX Hgc Hrb c extra Hx Hc1 Hc2.
  set (X := map snd (gc_log P st0 hint)) in *.
  destruct (invJ_gc P HBS_lo HBS_hi HNB Hcrc HGC PRE OLD opos Hpre st0 G0 hint st_r k HI0 HsbX Hgc)
    as (G'' & HI'' & Eqs'' & _ & Eb'' & Ed'' & Elog'').
  assert (EALL'' : gh_ALL G'' = gh_ALL G0 ++ X).
  { unfold gh_ALL. rewrite Ed'', Elog'', map_app, app_assoc. reflexivity. }
  pose proof (jALL_split P PRE OLD opos _ G0 (proj1 HI0)) as HA0. rewrite EjN0, app_nil_r in HA0.
  assert (EjN'' : jNEW OLD G'' = X).
  { unfold JInv.jNEW. rewrite EALL'', HA0. apply skipn_app_exact. }
  destruct HI'' as ((Hw'' & _ & _ & Hbase'' & Hc1'' & Hc2'' & _) & _). cbn zeta in *.
  pose proof Hw'' as (Hok'' & _).
  destruct (wr_ok_len P (HN HB0) HNB _ Hok'') as (Hn'' & Hn1'').
  set (cr := (wlo (s_wr st_r) - gh_base G'') * FB + wpos P (s_wr st_r)) in *.
  assert (Eabs : wabs P (s_wr st_r) = gh_base G'' * FB + cr).
  { unfold wabs, cr, wpos.
    replace (w_file (s_wr st_r))
      with (gh_base G'' + ((wlo (s_wr st_r) - gh_base G'') + (lenN (w_files (s_wr st_r)) - 1))) by lia.
    lia. }
  rewrite (jT_len P PRE OLD G'') in Hc1''. unfold JInv.jser in Hc1''. rewrite EjN'' in Hc1''.
  rewrite EjN0 in Hc2. cbn [app] in Hc2.
  assert (Hsh : cursor_after (gh_base G0 * FB + c) (ser extra) = gh_base G0 * FB + cursor_after c (ser extra)).
  { apply (cursor_after_shift P HBS_lo HBS_hi HNB Hcrc). apply (HN mulFB_mod). }
  assert (Hx' : pos_extra (abs_qs (s_qs st_r)) extra) by (rewrite Eqs''; exact Hx).
  pose proof (Hrb (gh_base G0 * FB + c) extra Hx') as Hb. rewrite Hsh, Eabs in Hb.
  rewrite Eb'' in Hb. lia.
Qed.

Theorem recover_self PRE OLD opos adm cmax rm img lo' n base zz qs_log lo_log Glog pol hint st_r :
  pre_ok PRE OLD opos -> pre_cont P PRE (ser OLD) opos adm cmax rm -> rm <= 7 ->
  (forall m, adm (m * NB P)) ->
  rc_hyps P PRE OLD opos adm rm img lo' n base zz qs_log lo_log Glog ->
  open P img None pol hint = OpenOk st_r ->
  (* the recovery-time GC does not roll over and ends before the last block of its file *)
  w_file (s_wr st_r) = lo' + N.of_nat n -> w_off (s_wr st_r) + B <= FB -> rec_bound st_r ->
  (forall q, s_get (abs_qs (s_qs st_r)) q = s_get (abs_qs qs_log) q) /\ recovered st_r /\
  forall pe2, cpre pe2 (rev (c_ev (w_ctx (s_wr st_r)))) -> forall pol3 hint3,
    exists st_r2,
      open P (fold_left apply_event pe2 img) None pol3 hint3 = OpenOk st_r2 /\
      (forall q, s_get (abs_qs (s_qs st_r2)) q = s_get (abs_qs (s_qs st_r)) q) /\
      recovered st_r2 /\ s_pol st_r2 = pol3 /\ w_pending (s_wr st_r2) = [].
Proof.
  intros Hpre Hpc Hrm Hadm Hrc Hopen Hroll Hblk Hrb.
  pose proof (pre_reads_of_cont P HBS_lo HBS_hi Hcrc PRE (ser OLD) opos adm cmax rm Hpc) as Hrd.
  destruct (recover_core_x_pk P HBS_lo HBS_hi HNB Hcrc HGC HIO HSHORT PRE OLD opos adm cmax rm
              img lo' n base zz qs_log lo_log Glog Hpre Hrd Hrc pol hint)
    as (w0 & qs0 & G0 & A & k & st_r' & G_r & HI0 & Eb0 & Hp0 & Hwf0 & Elo0 & EjN0 & Hpf0 & Habs0 &
        HevA & Hfs0 & HfoldA & HtwoA & Hgc & Hopen' & HIr & Habsr & Ebr & Hfr & Hpolr & Hpendr).
  cbv zeta in *. rewrite Hopen in Hopen'. injection Hopen' as <-.
  set (hi := lo' + N.of_nat n) in *.
  set (fsx := fs_ext P img lo' n) in *.
  set (st0 := mkSt w0 qs0 pol) in *.
  pose proof Hrc as (_ & _ & _ & _ & _ & _ & _ & _ & _ & _ & _ & _ & _ & _ & _ & _ & Eblog & _ & Hsb0).
  assert (Hrec_r : recovered st_r).
  { destruct (rc_open P HBS_lo HBS_hi HNB Hcrc HGC HIO HSHORT PRE OLD opos adm cmax rm
                img lo' n base zz qs_log lo_log Glog Hpre Hrd Hrc pol hint)
      as (st_r' & G_r' & Hopen' & HIr' & Hroom' & _).
    rewrite Hopen in Hopen'. injection Hopen' as <-.
    exists PRE, OLD, opos, adm, cmax, rm, G_r'. auto 6. }
  split; [exact Habsr|]. split; [exact Hrec_r|].
  (* the GC as a virtual call from st0 *)
  set (X := map snd (gc_log P st0 hint)) in *.
  assert (HsbX : stream_boundJ P PRE OLD G0 X).
  { unfold JInv.stream_boundJ. rewrite EjN0. cbn [app]. rewrite Eb0, Eblog. apply Hsb0.
    apply (pos_extra_ext (abs_qs qs0)); [intros q; now rewrite Habs0|].
    exact (gc_log_pos_extra P st0 hint (InvJ_nodup P PRE OLD opos st0 G0 HI0)). }
  pose proof (gc_crash_bound PRE OLD opos st0 G0 hint st_r k Hpre HI0 EjN0 HsbX Hgc Hrb) as Hcb0.
  destruct (recover_gc P HBS_lo HBS_hi HNB Hcrc HGC HIO HSHORT Hnc PRE OLD opos adm cmax rm
              Hpre Hpc Hrm Hadm st0 G0 hint st_r k HI0 Hp0 Hgc Hcb0
              ltac:(cbn [st0 s_wr]; rewrite Hwf0; exact Hroll) Hblk)
    as (evsG & HevG & HallG).
  cbn [st0 s_wr] in HevG, HallG. rewrite Hfs0 in HallG.
  assert (Erev : rev (c_ev (w_ctx (s_wr st_r))) = A ++ evsG).
  { rewrite HevG, HevA, rev_app_distr, !rev_involutive. reflexivity. }
  intros pe2 Hcp2 pol3 hint3. rewrite Erev in Hcp2.
  destruct (cpre_app_inv A pe2 evsG Hcp2) as [HcA | (pt & -> & Hcpt)].
  - (* the crash is in the reading phase: the image is img or its zero-extension *)
    assert (Hrc2 : rc_hyps P PRE OLD opos adm rm (fold_left apply_event pe2 img) lo' n base zz
                     qs_log lo_log Glog).
    { destruct (HtwoA pe2 HcA) as [-> | ->]; [exact Hrc|].
      exact (rc_hyps_ext P HBS_lo HBS_hi HNB Hcrc PRE OLD opos adm rm img lo' n base zz _ _ _ Hrc). }
    destruct (rc_open P HBS_lo HBS_hi HNB Hcrc HGC HIO HSHORT PRE OLD opos adm cmax rm _ lo' n
                base zz qs_log lo_log Glog Hpre Hrd Hrc2 pol3 hint3)
      as (st_r2 & G_r2 & Hopen2 & HIr2 & Hroom2 & Habsr2 & _ & Hpolr2 & Hpendr2).
    exists st_r2. split; [exact Hopen2|]. split; [intros q; now rewrite Habsr2, Habsr|].
    split; [|split; [exact Hpolr2|exact Hpendr2]].
    exists PRE, OLD, opos, adm, cmax, rm, G_r2. auto 6.
  - (* the crash is in the GC *)
    rewrite fold_left_app, HfoldA.
    destruct (HallG pt Hcpt pol3 hint3)
      as (PRE2 & OLD2 & opos2 & adm2 & cmax2 & rm2 & st_r2 & G_r2 & Hopen2 & Hpre2 & Hpc2 & Hrm2 & Hadm2 &
          HIr2 & Hroom2 & Hpolr2 & Hpendr2 & Habs2).
    cbn zeta in Hopen2.
    exists st_r2. split; [exact Hopen2|].
    split; [intros q; rewrite Habs2, Habsr; cbn [st0 s_qs]; now rewrite Habs0|].
    split; [|split; [exact Hpolr2|exact Hpendr2]].
    exists PRE2, OLD2, opos2, adm2, cmax2, rm2, G_r2. auto 6.
Qed.

End RecoverSelf.

Print Assumptions recover_self.
