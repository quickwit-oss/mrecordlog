(* EffectsProofs.v — property C17 at the level of effects: every call that reaches the OS names a
   file `wal-<20 digits>` (or is the directory listing / directory sync), the file system changes
   only at names that occur in the event trace, hence entries with a foreign name are left exactly
   as they were; only regular files whose name parses are listed as log data, in strictly
   increasing order of their number. *)
From Coq Require Import Lia ZArith ZifyN ZifyNat ZifyBool Sorted.
From MRL Require Import Bytes BytesProofs Params Names NamesProofs Frame Record Mem Rolling Log Hist
                        WriterProofs GcProofs OpenTerm.

(* the file an event names; None for the directory-level calls *)
Definition ev_name (e : event) : option bytes :=
  match e with
  | EvReadDir | EvSyncDir => None
  | EvCreate s | EvOpenRw s | EvSetLen s _ | EvWrite s _ _ | EvRead s _ _ _
  | EvFlush s | EvSyncData s | EvUnlink s => Some s
  end.

Definition wal_named (e : event) : Prop :=
  match ev_name e with Some s => exists n, s = filename n | None => True end.

(* a name that is not the name of any WAL file *)
Definition foreign (s : bytes) : Prop := forall n, s <> filename n.

Lemma wal_named_intro e n : ev_name e = Some (filename n) -> wal_named e.
Proof. intros H. unfold wal_named. rewrite H. now exists n. Qed.

Lemma wal_named_dir e : ev_name e = None -> wal_named e.
Proof. intros H. unfold wal_named. now rewrite H. Qed.

Lemma fs_get_put_other fs name e s :
  s <> name -> fs_get (fs_put fs name e) s = fs_get fs s.
Proof. intros Hne. apply (assoc_get_put_other fs name e s). congruence. Qed.

Lemma fs_get_remove_other fs name s :
  s <> name -> fs_get (fs_remove fs name) s = fs_get fs s.
Proof. intros Hne. apply (assoc_get_remove_other fs name s). congruence. Qed.

(* fs' differs from fs at most at the names occurring in evs *)
Definition touched_only (evs : list event) (fs fs' : fsT) : Prop :=
  forall s, (forall e, In e evs -> ev_name e <> Some s) -> fs_get fs' s = fs_get fs s.

(* c' is c after some more calls: the trace grew by events that all name WAL files, and the file
   system changed only at names occurring in those new events *)
Definition cext (c c' : ioctx) : Prop :=
  exists evs, c_ev c' = evs ++ c_ev c /\ Forall wal_named evs /\ touched_only evs (c_fs c) (c_fs c').

Lemma cext_refl c : cext c c.
Proof. exists []. split; [reflexivity|]. split; [constructor|]. intros s _. reflexivity. Qed.

Lemma cext_trans c1 c2 c3 : cext c1 c2 -> cext c2 c3 -> cext c1 c3.
Proof.
  intros [ev1 [E1 [F1 T1]]] [ev2 [E2 [F2 T2]]]. exists (ev2 ++ ev1).
  split; [rewrite E2, E1; apply app_assoc|]. split; [apply Forall_app; now split|].
  intros s Hs. rewrite T2, T1; [reflexivity| |]; intros e He; apply Hs, in_or_app; tauto.
Qed.

Lemma cext_same c c' : c_ev c' = c_ev c -> c_fs c' = c_fs c -> cext c c'.
Proof.
  intros He Hf. exists []. split; [exact He|]. split; [constructor|]. intros s _. now rewrite Hf.
Qed.

Lemma cext_ev c e : wal_named e -> cext c (ctx_ev c e).
Proof.
  intros Hw. exists [e]. split; [reflexivity|]. split; [now constructor|]. intros s _. reflexivity.
Qed.

Lemma cext_put c n fe e :
  ev_name e = Some (filename n) ->
  cext c (ctx_ev (ctx_fs c (fs_put (c_fs c) (filename n) fe)) e).
Proof.
  intros Hn. exists [e]. split; [reflexivity|]. split.
  - constructor; [eapply wal_named_intro; eassumption|constructor].
  - intros s Hs. cbn [ctx_ev ctx_fs c_fs]. apply fs_get_put_other.
    intros ->. apply (Hs e); [now left|exact Hn].
Qed.

Lemma cext_rm c n e :
  ev_name e = Some (filename n) ->
  cext c (ctx_ev (ctx_fs c (fs_remove (c_fs c) (filename n))) e).
Proof.
  intros Hn. exists [e]. split; [reflexivity|]. split.
  - constructor; [eapply wal_named_intro; eassumption|constructor].
  - intros s Hs. cbn [ctx_ev ctx_fs c_fs]. apply fs_get_remove_other.
    intros ->. apply (Hs e); [now left|exact Hn].
Qed.

Lemma cext_events c c' : cext c c' -> Forall wal_named (c_ev c) -> Forall wal_named (c_ev c').
Proof. intros [evs [E [F _]]] H. rewrite E. apply Forall_app. now split. Qed.

Lemma cext_foreign c c' s : cext c c' -> foreign s -> fs_get (c_fs c') s = fs_get (c_fs c) s.
Proof.
  intros [evs [_ [F T]]] Hs. apply T. intros e He Hn.
  rewrite Forall_forall in F. specialize (F e He). unfold wal_named in F. rewrite Hn in F.
  destruct F as [n F]. exact (Hs n F).
Qed.

Section Effects.
Variable P : params.

Lemma fault_point_cext c s : cext c (fst (fault_point c s)).
Proof. apply cext_same; [apply fault_point_frame|apply fault_point_frame]. Qed.

Lemma create_file_cext c n : cext c (fst (create_file P c n)).
Proof.
  unfold create_file. destruct (fs_get (c_fs c) (filename n)); cbn [fst]; [apply cext_refl|].
  eapply cext_trans; [|apply cext_put; reflexivity]. apply cext_put; reflexivity.
Qed.

Lemma open_file_cext c n : cext c (fst (open_file c n)).
Proof.
  unfold open_file. pose proof (fault_point_cext c SOpen) as Hf.
  destruct (fault_point c SOpen) as [c1 [e|]]; cbn [fst] in *; [exact Hf|].
  destruct (fs_get (c_fs c1) (filename n)) as [[b| |]|]; cbn [fst]; try exact Hf.
  eapply cext_trans; [exact Hf|]. apply cext_ev. now apply (wal_named_intro _ n).
Qed.

Lemma read_block_cext c n pos : cext c (fst (fst (read_block P c n pos))).
Proof.
  unfold read_block. pose proof (fault_point_cext c SRead) as Hf.
  destruct (fault_point c SRead) as [c1 [e|]]; cbn [fst] in *.
  - eapply cext_trans; [exact Hf|]. apply cext_ev. now apply (wal_named_intro _ n).
  - destruct (pos + BS P <=? lenN (file_content c1 n)); cbn [fst];
      (eapply cext_trans; [exact Hf|]; apply cext_ev; now apply (wal_named_intro _ n)).
Qed.

Lemma next_file_loop_cext cands : forall c rd,
  cext c (rd_ctx (fst (next_file_loop P c cands rd))).
Proof.
  induction cands as [|n rest IH]; intros c rd; cbn [next_file_loop].
  - cbn [fst rd_ctx]. apply cext_refl.
  - pose proof (open_file_cext c n) as Ho.
    destruct (open_file c n) as [c1 [[]|e]]; cbn [fst] in *; [|exact Ho].
    pose proof (read_block_cext c1 n 0) as Hr.
    destruct (read_block P c1 n 0) as [[c2 pos'] [[blk|]|e]]; cbn [fst rd_ctx] in *.
    + eapply cext_trans; eassumption.
    + eapply cext_trans; [eapply cext_trans; eassumption|apply IH].
    + eapply cext_trans; eassumption.
Qed.

Lemma rd_next_cext rd : cext (rd_ctx rd) (rd_ctx (fst (rd_next P rd))).
Proof.
  unfold rd_next. pose proof (read_block_cext (rd_ctx rd) (rd_file rd) (rd_pos rd)) as Hr.
  destruct (read_block P (rd_ctx rd) (rd_file rd) (rd_pos rd)) as [[c1 pos'] [[blk|]|e]];
    cbn [fst rd_ctx] in *; try exact Hr.
  eapply cext_trans; [exact Hr|apply next_file_loop_cext].
Qed.

Lemma ensure_last_full_cext c files : cext c (fst (ensure_last_full P c files)).
Proof.
  unfold ensure_last_full. destruct (last_opt files) as [n|]; [|apply cext_refl].
  destruct (lenN (file_content c n) <? FILE_BYTES P); [|apply cext_refl].
  pose proof (open_file_cext c n) as Ho.
  destruct (open_file c n) as [c1 [[]|e]]; cbn [fst] in *; [|exact Ho].
  eapply cext_trans; [exact Ho|]. apply cext_put. reflexivity.
Qed.

Lemma rd_open_cext c0 :
  cext c0 (fst (rd_open P c0)) /\
  (forall rd, snd (rd_open P c0) = Ok rd -> rd_ctx rd = fst (rd_open P c0)).
Proof.
  unfold rd_open.
  assert (H0 : cext c0 (ctx_ev c0 EvReadDir)) by (apply cext_ev; now apply wal_named_dir).
  pose proof (fault_point_cext (ctx_ev c0 EvReadDir) SReadDir) as Hf.
  destruct (fault_point (ctx_ev c0 EvReadDir) SReadDir) as [c1 [e|]]; cbn [fst snd] in *.
  { split; [eapply cext_trans; eassumption|discriminate]. }
  assert (H1 : cext c0 c1) by (eapply cext_trans; eassumption). clear H0 Hf.
  assert (Tail : forall c2 files, cext c0 c2 ->
    let r := match (if L_SHORT P then (c2, Ok tt) else ensure_last_full P c2 files) with
             | (c2', Err e) => (c2', Err e)
             | (c2, Ok _) =>
               let first := match files with f :: _ => f | [] => 0 end in
               match open_file c2 first with
               | (c3, Err e) => (c3, Err e)
               | (c3, Ok _) =>
                   match read_block P c3 first 0 with
                   | (c4, _, Err e) => (c4, Err e)
                   | (c4, _, Ok None) => (c4, Err IoUnexpectedEof)
                   | (c4, pos', Ok (Some blk)) => (c4, Ok (mkRd c4 files first 0 pos' blk))
                   end
               end
             end in
    cext c0 (fst r) /\ (forall rd, snd r = Ok rd -> rd_ctx rd = fst r)).
  { intros c2 files H2.
    assert (H3 : cext c0 (fst (if L_SHORT P then (c2, Ok tt) else ensure_last_full P c2 files))).
    { destruct (L_SHORT P); [exact H2|]. eapply cext_trans; [exact H2|apply ensure_last_full_cext]. }
    destruct (if L_SHORT P then (c2, Ok tt) else ensure_last_full P c2 files) as [c2' [[]|e]];
      cbn [fst snd] in *; [|split; [exact H3|discriminate]].
    set (first := match files with f :: _ => f | [] => 0 end).
    pose proof (open_file_cext c2' first) as Ho.
    destruct (open_file c2' first) as [c3 [[]|e]]; cbn [fst snd] in *;
      [|split; [eapply cext_trans; eassumption|discriminate]].
    pose proof (read_block_cext c3 first 0) as Hr.
    assert (H4 : cext c0 c3) by (eapply cext_trans; eassumption).
    destruct (read_block P c3 first 0) as [[c4 pos'] [[blk|]|e]]; cbn [fst snd] in *;
      (split; [eapply cext_trans; eassumption|]); try discriminate.
    intros rd Hrd. inversion Hrd; subst. reflexivity. }
  destruct (list_wal_numbers (c_fs c1)) as [|x l].
  - pose proof (create_file_cext c1 0) as Hc.
    destruct (create_file P c1 0) as [c' [[]|e]]; cbn [fst] in *.
    + apply Tail. eapply cext_trans; eassumption.
    + cbn [fst snd]. split; [eapply cext_trans; eassumption|discriminate].
  - apply Tail. exact H1.
Qed.

Lemma os_write_cext c n off data : cext c (os_write c n off data).
Proof. unfold os_write. apply cext_put. reflexivity. Qed.

Lemma flush_buf_cext w : cext (w_ctx w) (w_ctx (flush_buf w)).
Proof.
  unfold flush_buf. destruct (w_pending w) as [|b r]; [apply cext_refl|].
  cbn [w_ctx]. apply os_write_cext.
Qed.

Lemma bw_flush_cext w : cext (w_ctx w) (w_ctx (bw_flush w)).
Proof.
  unfold bw_flush, wr_ctx. cbn [w_ctx]. eapply cext_trans; [apply flush_buf_cext|].
  apply cext_ev. now apply (wal_named_intro _ (w_file (flush_buf w))).
Qed.

Lemma sync_data_cext w : cext (w_ctx w) (w_ctx (sync_data w)).
Proof.
  unfold sync_data, wr_ctx. cbn [w_ctx]. apply cext_ev. now apply (wal_named_intro _ (w_file w)).
Qed.

Lemma sync_dir_cext w : cext (w_ctx w) (w_ctx (sync_dir w)).
Proof. unfold sync_dir, wr_ctx. cbn [w_ctx]. apply cext_ev. now apply wal_named_dir. Qed.

Lemma wr_persist_cext w a : cext (w_ctx w) (w_ctx (wr_persist w a)).
Proof.
  unfold wr_persist. destruct a; [|apply bw_flush_cext].
  eapply cext_trans; [apply bw_flush_cext|]. eapply cext_trans; [apply sync_data_cext|].
  apply sync_dir_cext.
Qed.

Lemma bw_write_all_cext w d : cext (w_ctx w) (w_ctx (bw_write_all P w d)).
Proof.
  unfold bw_write_all, bw_write_all0. cbn [w_ctx].
  destruct (lenN d <? BS P - lenN (w_pending w)); [cbn [w_ctx]; apply cext_refl|].
  set (w1 := if BS P - lenN (w_pending w) <? lenN d then flush_buf w else w).
  assert (Hw1 : cext (w_ctx w) (w_ctx w1)).
  { unfold w1. destruct (_ <? _); [apply flush_buf_cext|apply cext_refl]. }
  destruct (BS P <=? lenN d); cbn [w_ctx]; [|exact Hw1].
  eapply cext_trans; [exact Hw1|apply os_write_cext].
Qed.

Lemma wr_write_cext w d : cext (w_ctx w) (w_ctx (fst (wr_write P w d))).
Proof.
  apply (wr_write_carry P (fun a b => cext (w_ctx a) (w_ctx b))).
  - intros w0. apply cext_refl.
  - intros a b c. apply cext_trans.
  - intros w0. apply wr_persist_cext.
  - intros w0 d0. apply bw_write_all_cext.
  - intros w0 nxt c r _ Eo. pose proof (open_file_cext (w_ctx w0) nxt) as H. rewrite Eo in H.
    destruct r as [[]|e]; exact H.
  - intros w0 c r _ Ec. pose proof (create_file_cext (w_ctx w0) (w_file w0 + 1)) as H.
    rewrite Ec in H. destruct r as [[]|e]; exact H.
Qed.

Lemma gc_loop_cext files : forall c refd, cext c (fst (fst (gc_loop c files refd))).
Proof.
  induction files as [|f rest IH]; intros c refd; cbn [gc_loop]; [apply cext_refl|].
  destruct rest as [|g rest']; [apply cext_refl|].
  destruct (refd f); [apply cext_refl|].
  destruct (fs_get (c_fs c) (filename f)) as [[b| |]|]; cbn [fst]; try apply cext_refl;
    (eapply cext_trans; [|apply IH]; apply cext_rm; reflexivity).
Qed.

End Effects.

(* if every next_block preserves I (whatever its result), so do read_frame and go_next *)
Section GenericReaderInv.
Variable P : params.
Variable R : Type.
Variable rnext : R -> R * res bool.
Variable rblock : R -> bytes.
Variable I : R -> Prop.
Hypothesis rnext_inv : forall r, I r -> I (fst (rnext r)).

Lemma read_frame_inv fr :
  I (fr_rd fr) -> I (fr_rd (fst (read_frame P R rnext rblock fr))).
Proof.
  intros Hr. unfold read_frame.
  set (step1 := if fr_corrupt fr || (BS P - fr_cursor fr <? HEADER_LEN)
                then match rnext (fr_rd fr) with
                     | (r', Err e) => (mkFR r' (fr_cursor fr) (fr_corrupt fr), Some (FIo e))
                     | (r', Ok false) => (mkFR r' (fr_cursor fr) (fr_corrupt fr), Some FNotAvail)
                     | (r', Ok true) => (mkFR r' 0 false, None)
                     end
                else (fr, None)).
  assert (H1 : I (fr_rd (fst step1))).
  { unfold step1. destruct (_ || _); [|exact Hr].
    pose proof (rnext_inv _ Hr) as Hn.
    destruct (rnext (fr_rd fr)) as [r' [[|]|e]]; cbn [fst fr_rd] in *; exact Hn. }
  destruct step1 as [fr1 [e|]]; cbn [fst] in *; [exact H1|].
  destruct (all_zero _); cbn [fst]; [exact H1|].
  destruct (ft_of_code _) as [t|]; cbn [fst fr_rd]; [|exact H1].
  destruct (BS P <? _); cbn [fst fr_rd]; [exact H1|].
  destruct (_ =? _); cbn [fst fr_rd]; exact H1.
Qed.

Lemma go_next_inv fuel : forall rr,
  I (fr_rd (rr_fr rr)) -> I (fr_rd (rr_fr (fst (go_next P R rnext rblock fuel rr)))).
Proof.
  induction fuel as [|fuel IH]; intros rr Hr; cbn [go_next]; [exact Hr|].
  pose proof (read_frame_inv (rr_fr rr) Hr) as Hf.
  destruct (read_frame P R rnext rblock (rr_fr rr)) as [fr' [t payload|e| |]];
    cbn [fst rr_fr] in *; try exact Hf.
  destruct (if is_first_frame t then true else rr_within rr).
  - destruct (is_last_frame t); cbn [fst rr_fr]; [exact Hf|]. apply IH. exact Hf.
  - apply IH. exact Hf.
Qed.
End GenericReaderInv.

Section EffectsLog.
Variable P : params.

(* the context of the writer after extends the one before: an instance of GcProofs.StepCarry *)
Definition wext (w w' : rwriter) : Prop := cext (w_ctx w) (w_ctx w').

Lemma wext_refl w : wext w w.
Proof. apply cext_refl. Qed.

Lemma wext_trans a b c : wext a b -> wext b c -> wext a c.
Proof. apply cext_trans. Qed.

Lemma wr_write_wext w d w' r : wr_write P w d = (w', r) -> wext w w'.
Proof. intros H. pose proof (wr_write_cext P w d) as C. now rewrite H in C. Qed.

Lemma gc_loop_wext w refd c files r :
  gc_loop (w_ctx w) (w_files w) refd = (c, files, r) ->
  wext w (mkWr c files (w_file w) (w_off w) (w_pending w)).
Proof. intros H. pose proof (gc_loop_cext (w_files w) (w_ctx w) refd) as C. now rewrite H in C. Qed.

Lemma run_gc_cext st hint :
  cext (w_ctx (s_wr st)) (w_ctx (s_wr (fst (run_gc_if_necessary P st hint)))).
Proof.
  exact (run_gc_carry P wext wext_refl wext_trans wr_write_wext wr_persist_cext gc_loop_wext st hint).
Qed.

(* every API call extends the context *)
Theorem step_cext st o tick :
  cext (w_ctx (s_wr st)) (w_ctx (s_wr (fst (step P st o tick)))).
Proof.
  exact (step_carry P wext wext_refl wext_trans wr_write_wext wr_persist_cext gc_loop_wext st o tick).
Qed.

Theorem drop_cext st : cext (w_ctx (s_wr st)) (drop_log st).
Proof. unfold drop_log. apply flush_buf_cext. Qed.

Theorem step_events_wal_named : forall st o tick,
  Forall wal_named (c_ev (w_ctx (s_wr st))) ->
  Forall wal_named (c_ev (w_ctx (s_wr (fst (step P st o tick))))).
Proof. intros st o tick. apply cext_events, step_cext. Qed.

Theorem drop_events_wal_named : forall st,
  Forall wal_named (c_ev (w_ctx (s_wr st))) -> Forall wal_named (c_ev (drop_log st)).
Proof. intros st. apply cext_events, drop_cext. Qed.

Theorem step_foreign_untouched : forall st o tick s,
  (forall n, s <> filename n) ->
  fs_get (c_fs (w_ctx (s_wr (fst (step P st o tick))))) s = fs_get (c_fs (w_ctx (s_wr st))) s.
Proof. intros st o tick s Hs. apply cext_foreign; [apply step_cext|exact Hs]. Qed.

Theorem drop_foreign_untouched : forall st s,
  (forall n, s <> filename n) ->
  fs_get (c_fs (drop_log st)) s = fs_get (c_fs (w_ctx (s_wr st))) s.
Proof. intros st s Hs. apply cext_foreign; [apply drop_cext|exact Hs]. Qed.

(* what rd_next keeps of the block reader, the whole replay keeps *)
Lemma replay_loop_rd_inv (I : rreaderS -> Prop) :
  (forall r, I r -> I (fst (rd_next P r))) ->
  forall fuel gofuel rr qs,
    I (fr_rd (rr_fr rr)) -> I (fr_rd (rr_fr (fst (replay_loop P fuel gofuel rr qs)))).
Proof.
  intros Hnext fuel gofuel rr qs Hr.
  destruct (replay_loop P fuel gofuel rr qs) as [rr' r] eqn:H. cbn [fst].
  apply (replay_loop_reader P gofuel (fun rr => I (fr_rd (rr_fr rr)))) with (3 := H); [|exact Hr].
  intros rr0 rr1 x Hj Hgo.
  pose proof (go_next_inv P rreaderS (rd_next P) rd_block I Hnext gofuel rr0 Hj) as Hg.
  now rewrite Hgo in Hg.
Qed.

Lemma replay_loop_cext c0 fuel gofuel rr qs :
  cext c0 (reader_ctx rr) -> cext c0 (reader_ctx (fst (replay_loop P fuel gofuel rr qs))).
Proof.
  apply (replay_loop_rd_inv (fun r => cext c0 (rd_ctx r))).
  intros r Hx. exact (cext_trans _ _ _ Hx (rd_next_cext P r)).
Qed.

Definition open_ctx (r : open_result) : ioctx :=
  match r with
  | OpenOk st => w_ctx (s_wr st)
  | OpenIo _ c | OpenCorruption c | OpenFuel c => c
  end.

Lemma open_with_cext fuel fs plan pol hint :
  cext (ctx_init fs plan) (open_ctx (open_with P fuel fs plan pol hint)).
Proof.
  unfold open_with. destruct (rd_open_cext P (ctx_init fs plan)) as [H1 H2].
  destruct (rd_open P (ctx_init fs plan)) as [c [rd|e]]; cbn [fst snd open_ctx] in *; [|exact H1].
  specialize (H2 rd eq_refl).
  assert (H0 : cext (ctx_init fs plan) (reader_ctx (rr_open rreaderS rd))).
  { unfold reader_ctx, rr_open, fr_open. cbn [rr_fr fr_rd]. rewrite H2. exact H1. }
  pose proof (replay_loop_cext (ctx_init fs plan) fuel fuel (rr_open rreaderS rd) [] H0) as Hr.
  destruct (replay_loop P fuel fuel (rr_open rreaderS rd) []) as [rr [qs| |e|]];
    cbn [fst open_ctx] in *; try exact Hr.
  cbv zeta.
  match goal with |- context [run_gc_if_necessary P ?st0 hint] =>
    pose proof (run_gc_cext st0 hint) as G;
    destruct (run_gc_if_necessary P st0 hint) as [st1 [k|e]] end;
    cbn [fst open_ctx] in *; cbn [s_wr rd_into_writer w_ctx] in G;
    (eapply cext_trans; [exact Hr|exact G]).
Qed.

Theorem open_cext fs plan pol hint :
  cext (ctx_init fs plan) (open_ctx (open P fs plan pol hint)).
Proof. unfold open. apply open_with_cext. Qed.

Theorem open_events_wal_named : forall fs plan pol hint,
  Forall wal_named (c_ev (open_ctx (open P fs plan pol hint))).
Proof.
  intros fs plan pol hint. apply (cext_events _ _ (open_cext fs plan pol hint)). constructor.
Qed.

Theorem open_foreign_untouched : forall fs plan pol hint s,
  (forall n, s <> filename n) ->
  fs_get (c_fs (open_ctx (open P fs plan pol hint))) s = fs_get fs s.
Proof.
  intros fs plan pol hint s Hs.
  apply (cext_foreign _ _ s (open_cext fs plan pol hint) Hs).
Qed.
End EffectsLog.

(* the same, spelled out per result constructor of `open` *)
Corollary open_effects_cases P fs plan pol hint s :
  (forall n, s <> filename n) ->
  match open P fs plan pol hint with
  | OpenOk st => Forall wal_named (c_ev (w_ctx (s_wr st))) /\
                 fs_get (c_fs (w_ctx (s_wr st))) s = fs_get fs s
  | OpenIo _ c | OpenCorruption c | OpenFuel c =>
      Forall wal_named (c_ev c) /\ fs_get (c_fs c) s = fs_get fs s
  end.
Proof.
  intros Hs. pose proof (open_events_wal_named P fs plan pol hint) as H1.
  pose proof (open_foreign_untouched P fs plan pol hint s Hs) as H2.
  destruct (open P fs plan pol hint); cbn [open_ctx] in *; now split.
Qed.

Theorem run_cext P : forall h st,
  cext (w_ctx (s_wr st)) (w_ctx (s_wr (fst (run P st h)))).
Proof.
  exact (run_carry P wext wext_refl wext_trans (wr_write_wext P) wr_persist_cext gc_loop_wext).
Qed.

Corollary run_events_wal_named P h st :
  Forall wal_named (c_ev (w_ctx (s_wr st))) ->
  Forall wal_named (c_ev (w_ctx (s_wr (fst (run P st h))))).
Proof. apply cext_events, run_cext. Qed.

Corollary run_foreign_untouched P h st s :
  (forall n, s <> filename n) ->
  fs_get (c_fs (w_ctx (s_wr (fst (run P st h))))) s = fs_get (c_fs (w_ctx (s_wr st))) s.
Proof. intros Hs. apply cext_foreign; [apply run_cext|exact Hs]. Qed.

Section Listing.

(* every listed number comes from an entry of fs that is a regular file whose name parses to it *)
Theorem list_wal_numbers_sound : forall fs n,
  In n (list_wal_numbers fs) ->
  exists s b, In (s, FFile b) fs /\ filename_to_position s = Some n.
Proof. intros fs n. apply In_list_wal_numbers. Qed.

(* with the parser's exactness: the entry is named exactly filename n, and n is a u64 *)
Corollary list_wal_numbers_sound_exact : forall fs n,
  In n (list_wal_numbers fs) ->
  n <= U64_MAX /\ exists b, In (filename n, FFile b) fs.
Proof.
  intros fs n Hin. destruct (list_wal_numbers_sound fs n Hin) as [s [b [H1 H2]]].
  apply parse_exact in H2. destruct H2 as [-> Hn]. split; [exact Hn|]. now exists b.
Qed.

(* conversely every regular file whose name parses is listed *)
Theorem list_wal_numbers_complete : forall fs s b n,
  In (s, FFile b) fs -> filename_to_position s = Some n -> In n (list_wal_numbers fs).
Proof. intros fs s b n Hin Hp. apply In_list_wal_numbers. now exists s, b. Qed.

(* ordered by the number, strictly (no duplicates), gaps allowed *)
Theorem list_wal_numbers_sorted : forall fs, StronglySorted N.lt (list_wal_numbers fs).
Proof. exact GcProofs.list_wal_numbers_sorted. Qed.

Corollary list_wal_numbers_NoDup : forall fs, NoDup (list_wal_numbers fs).
Proof.
  intros fs. pose proof (list_wal_numbers_sorted fs) as H.
  induction H as [|x l Hs IH Hx]; constructor; [|exact IH].
  intros Hin. rewrite Forall_forall in Hx. specialize (Hx x Hin). lia.
Qed.
End Listing.

Lemma filename_shape n :
  lenN (filename n) = 24 /\ takeN 4 (filename n) = wal_prefix /\
  forallb is_digit (dropN 4 (filename n)) = true.
Proof.
  split; [apply filename_length|]. unfold filename.
  pose proof (takeN_app_exact wal_prefix (dec_digits 20 n)) as Ht.
  pose proof (dropN_app_exact wal_prefix (dec_digits 20 n)) as Hd.
  rewrite lenN_wal_prefix in Ht, Hd. rewrite Ht, Hd. split; [reflexivity|].
  apply forallb_is_digit_dec_digits.
Qed.

(* a name of the wrong length, or without the prefix, or with a non-digit after the prefix, is not
   the name of any WAL file, whatever the number: the *_foreign_untouched theorems apply to it *)
Theorem bad_shape_foreign : forall s,
  lenN s <> 24 \/ takeN 4 s <> wal_prefix \/ forallb is_digit (dropN 4 s) = false ->
  forall n, s <> filename n.
Proof.
  intros s H n ->. destruct (filename_shape n) as [H1 [H2 H3]].
  destruct H as [H|[H|H]]; [now apply H|now apply H|congruence].
Qed.

(* the first premise is implied by the second *)
Corollary unparsed_bad_shape_foreign : forall s,
  filename_to_position s = None ->
  lenN s <> 24 \/ takeN 4 s <> wal_prefix \/ forallb is_digit (dropN 4 s) = false ->
  forall n, s <> filename n.
Proof. intros s _. apply bad_shape_foreign. Qed.

(* a name that does not parse has a bad shape, or is wal-<20 digits> with a value above u64::MAX *)
Theorem parse_none_cases : forall s,
  filename_to_position s = None ->
  (lenN s <> 24 \/ takeN 4 s <> wal_prefix \/ forallb is_digit (dropN 4 s) = false) \/
  (exists v, U64_MAX < v /\ s = filename v).
Proof.
  intros s H. unfold filename_to_position in H.
  destruct (N.eqb_spec (lenN s) 24) as [Hlen|Hlen]; cbn [negb] in H; [|left; now left].
  destruct (bytes_eqb (takeN 4 s) wal_prefix) eqn:Hpre; cbn [negb] in H.
  2:{ left. right. left. now apply bytes_eqb_neq. }
  destruct (forallb is_digit (dropN 4 s)) eqn:Hdig; cbn [negb] in H; [|left; right; now right].
  destruct (N.leb_spec (parse_dec (dropN 4 s) 0) U64_MAX) as [Hle|Hgt]; [discriminate|].
  right. exists (parse_dec (dropN 4 s) 0). split; [exact Hgt|].
  apply bytes_eqb_eq in Hpre. unfold filename.
  assert (Hl : length (dropN 4 s) = 20%nat).
  { pose proof (lenN_dropN 4 s) as Hd. rewrite lenN_length in Hd. lia. }
  rewrite <- Hl, (dec_digits_parse_dec _ Hdig), <- Hpre. symmetry. apply takeN_dropN.
Qed.

(* names that do not parse and the calls of a run whose file numbers are all u64: the entry is
   untouched.  (For the model as written the bound cannot be dropped: file numbers are unbounded
   naturals, `filename (U64_MAX + 1)` is a name that does not parse, and a writer whose current
   file is number u64::MAX would create it where the implementation overflows.) *)
Definition wal_named_u64 (e : event) : Prop :=
  match ev_name e with Some s => exists n, n <= U64_MAX /\ s = filename n | None => True end.

Theorem cext_unparsed_untouched : forall c c' evs s,
  cext c c' -> c_ev c' = evs ++ c_ev c -> Forall wal_named_u64 evs ->
  filename_to_position s = None ->
  fs_get (c_fs c') s = fs_get (c_fs c) s.
Proof.
  intros c c' evs s [evs' [E [_ T]]] E' F Hs.
  assert (evs' = evs) by (eapply app_inv_tail; rewrite <- E, <- E'; reflexivity). subst evs'.
  apply T. intros e He Hn. rewrite Forall_forall in F. specialize (F e He).
  unfold wal_named_u64 in F. rewrite Hn in F. destruct F as [n [Hle F]].
  exact (parse_none_not_filename s Hs n Hle F).
Qed.

Corollary step_unparsed_untouched : forall P st o tick evs s,
  c_ev (w_ctx (s_wr (fst (step P st o tick)))) = evs ++ c_ev (w_ctx (s_wr st)) ->
  Forall wal_named_u64 evs -> filename_to_position s = None ->
  fs_get (c_fs (w_ctx (s_wr (fst (step P st o tick))))) s = fs_get (c_fs (w_ctx (s_wr st))) s.
Proof. intros P st o tick evs s. apply cext_unparsed_untouched, step_cext. Qed.

Corollary open_unparsed_untouched : forall P fs plan pol hint s,
  Forall wal_named_u64 (c_ev (open_ctx (open P fs plan pol hint))) ->
  filename_to_position s = None ->
  fs_get (c_fs (open_ctx (open P fs plan pol hint))) s = fs_get fs s.
Proof.
  intros P fs plan pol hint s F Hs.
  apply (cext_unparsed_untouched (ctx_init fs plan) _
           (c_ev (open_ctx (open P fs plan pol hint))) s (open_cext P fs plan pol hint));
    [cbn [ctx_init c_ev]; symmetry; apply app_nil_r|exact F|exact Hs].
Qed.

(* witness for the remark above (block size 16, two blocks per file, a directory holding the file
   number u64::MAX): four create_queue calls roll over and the model creates
   `wal-18446744073709551616`, a name that does not parse.  So in the *_foreign_untouched theorems
   the premise `forall n, s <> filename n` cannot be replaced by `filename_to_position s = None`
   without a bound on the file numbers in use. *)
Example unparsed_name_can_be_created :
  let P0 := mkParams 16 2 (fun _ _ => 0) 0 false false false in
  let fs0 : fsT := [(filename U64_MAX, FFile (zerosN 32))] in
  let s1 := filename (U64_MAX + 1) in
  filename_to_position s1 = None /\
  match open P0 fs0 None PNothing [] with
  | OpenOk st =>
      let h := map (fun q => (OCreate [q], false)) ["a"; "b"; "c"; "d"]%byte in
      let st' := fst (run P0 st h) in
      fs_get (c_fs (w_ctx (s_wr st))) s1 = None /\
      match fs_get (c_fs (w_ctx (s_wr st'))) s1 with Some (FFile _) => True | _ => False end
  | _ => False
  end.
Proof. vm_compute. repeat split. Qed.

Print Assumptions step_events_wal_named.
Print Assumptions open_events_wal_named.
Print Assumptions drop_events_wal_named.
Print Assumptions step_foreign_untouched.
Print Assumptions drop_foreign_untouched.
Print Assumptions open_foreign_untouched.
Print Assumptions open_effects_cases.
Print Assumptions run_events_wal_named.
Print Assumptions run_foreign_untouched.
Print Assumptions list_wal_numbers_sound.
Print Assumptions list_wal_numbers_sound_exact.
Print Assumptions list_wal_numbers_complete.
Print Assumptions list_wal_numbers_sorted.
Print Assumptions list_wal_numbers_NoDup.
Print Assumptions bad_shape_foreign.
Print Assumptions unparsed_bad_shape_foreign.
Print Assumptions parse_none_cases.
Print Assumptions cext_unparsed_untouched.
Print Assumptions step_unparsed_untouched.
Print Assumptions open_unparsed_untouched.
Print Assumptions unparsed_name_can_be_created.
Print Assumptions step_cext.
Print Assumptions drop_cext.
Print Assumptions open_cext.
Print Assumptions run_cext.
