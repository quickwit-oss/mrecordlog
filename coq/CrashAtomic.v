(* CrashAtomic.v — end-to-end crash atomicity (property C02).
   For every crash image of one API call under a flush-per-operation policy (PAlways), `open`
   succeeds and the recovered abstract state is that of the completed calls, or that plus the
   in-flight call.  The ingredients: the entries of one call are logically atomic (step_log);
   the recovery-time GC on the writer made by `open` from a crash image never fails; the crash
   images (CrashTrace.crash_image_shape) meet TornFile.open_torn. *)
From Coq Require Import Lia ZArith ZifyN ZifyNat ZifyBool List Sorted.
From MRL Require Import Bytes BytesProofs Params Names NamesProofs Frame Record Mem Spec Rolling Log
  Driver SpecRefine RecordProofs StreamProofs PolicyProofs GcProofs GhostLog ReplaySpec
  HandleProofs FileStream ResyncProofs PersistProofs WriterProofs TornProofs RestartInv
  RestartWrite RestartGc RestartStep OpenReplay CrashTrace PersistGc RestartFinal TornFile Crc.

(* lia with the non-arithmetic hypotheses cleared first (zify is slow on large contexts); falls
   back on plain lia *)
Local Ltac ca_arith_hyp T :=
  lazymatch T with
  | @eq ?A _ _ =>
    lazymatch A with
    | N => idtac | nat => idtac | Z => idtac | positive => idtac | bool => idtac
    end
  | N.le _ _ => idtac | N.lt _ _ => idtac | N.ge _ _ => idtac | N.gt _ _ => idtac
  | le _ _ => idtac | lt _ _ => idtac | ge _ _ => idtac | gt _ _ => idtac
  | Z.le _ _ => idtac | Z.lt _ _ => idtac | Z.ge _ _ => idtac | Z.gt _ _ => idtac
  | ~ _ => idtac | _ /\ _ => idtac | _ \/ _ => idtac | _ <-> _ => idtac | False => idtac
  | ?A -> ?C => idtac
  end.
Local Ltac ca_prune :=
  repeat match goal with
  | H : ?T |- _ =>
    lazymatch type of T with Prop => idtac end;
    first [ ca_arith_hyp T; revert H | clear H ]
  end.
Local Ltac ca_lia := first [ solve [ca_prune; lia] | lia ].
(* the same with the hypotheses to keep given explicitly *)
Local Tactic Notation "ca_lia" "using" ne_hyp_list(Hs) :=
  first [ solve [clear - Hs; lia] | ca_lia ].

Lemma app_split_len {A} : forall (a b c d : list A),
  a ++ b = c ++ d -> (length a <= length c)%nat -> exists m, c = a ++ m /\ b = m ++ d.
Proof.
  induction a as [|x a IH]; intros b c d H Hl.
  - exists c. split; [reflexivity|exact H].
  - destruct c as [|y c]; [cbn [length] in Hl; ca_lia|].
    cbn [app] in H. injection H as -> H. cbn [length] in Hl.
    destruct (IH b c d H ltac:(ca_lia)) as (m & -> & ->). exists m. split; reflexivity.
Qed.

Lemma combine_split_len {A B} (tags : list A) (l1 l2 : list B) :
  length tags = (length l1 + length l2)%nat ->
  exists t1 t2, tags = t1 ++ t2 /\ length t1 = length l1 /\ length t2 = length l2 /\
                combine tags (l1 ++ l2) = combine t1 l1 ++ combine t2 l2.
Proof.
  intros H. exists (firstn (length l1) tags), (skipn (length l1) tags).
  assert (H1 : length (firstn (length l1) tags) = length l1) by (rewrite firstn_length; ca_lia).
  assert (H2 : length (skipn (length l1) tags) = length l2) by (rewrite skipn_length; ca_lia).
  split; [now rewrite firstn_skipn|]. split; [exact H1|]. split; [exact H2|].
  rewrite <- (firstn_skipn (length l1) tags) at 1. now apply BytesProofs.combine_app.
Qed.

Lemma combine_map_snd {A B} : forall (l : list (A * B)), combine (map fst l) (map snd l) = l.
Proof. induction l as [|[a b] l IH]; cbn [map combine fst snd]; [reflexivity|now rewrite IH]. Qed.

(* replaying ANY suffix of ALL that contains E gives the live abstract content *)
Theorem linv_suffix_equal qs lo G E_pre E_suf :
  LInv qs lo G -> gh_ALL G = E_pre ++ E_suf -> (length E_pre <= gh_k G)%nat ->
  forall fsuf, map snd fsuf = E_suf ->
  exists qs',
    replay_entries [] fsuf = Some qs' /\ qs_inv qs' /\ nodup_names qs' /\
    forall q, s_get (abs_qs qs') q = s_get (abs_qs qs) q.
Proof.
  intros HL Hsplit Hlen fsuf Hf.
  destruct (LInv_views qs lo G HL) as (F & S & EF & ES & Hp & Hu & _).
  destruct HL as (_ & Hleg & Hrep & F' & EF' & Hcov).
  rewrite EF in EF'. inversion EF'; subst F'. clear EF'.
  (* E is a suffix of E_suf *)
  pose proof (gh_ALL_split G) as Hs2. rewrite Hsplit in Hs2.
  destruct (app_split_len E_pre E_suf (gh_before G) (map snd (gh_E G)) Hs2) as (mid & Hb & Hsuf).
  { now rewrite gh_before_length. }
  set (fpre := map (pair 0) E_pre).
  set (fs0 := map (pair 0) E_suf).
  assert (Epre : map snd fpre = E_pre).
  { unfold fpre. rewrite map_map. cbn [snd]. apply map_id. }
  assert (Esuf : map snd fs0 = E_suf).
  { unfold fs0. rewrite map_map. cbn [snd]. apply map_id. }
  destruct (model_covered_suffix_equal fpre fs0 fsuf F)
    as (qF & qS & _ & EqS & _ & HiS & HaF & Heq).
  - now rewrite Esuf.
  - rewrite Epre, Esuf, <- Hsplit. exact Hleg.
  - rewrite Epre, Esuf, <- Hsplit. exact EF.
  - intros q rf n Eq. rewrite Epre, Esuf. destruct (Hcov q rf n Eq) as (Hc & Hr). split.
    + eapply Forall_impl; [|exact Hr]. intros r (j & f & e & Ej & _). ca_lia.
    + intros _. rewrite Hsuf, existsb_app, Hc. apply orb_true_r.
  - rewrite apply_entries_replay_entries in EqS.
    exists qS. split; [exact EqS|]. split; [exact HiS|].
    split; [exact (replay_from_nil_nodup _ _ EqS)|].
    intros q. rewrite Heq, HaF, <- Hu, !untag_get, Hp. reflexivity.
Qed.

(* position entries for empty queues of the state: identities that keep LInv *)
Lemma pos_extra_cons m e x : pos_extra m (e :: x) ->
  (exists q p, e = EPosition q p /\ s_get m q = Some ([], p)) /\ pos_extra m x.
Proof.
  intros [Hnd Hall]. cbn [map] in Hnd. inversion Hnd; subst. inversion Hall; subst.
  split; [assumption|]. split; assumption.
Qed.

Lemma abs_empty_queue qs q p :
  s_get (abs_qs qs) q = Some ([], p) ->
  exists m, qs_get qs q = Some m /\ mq_is_empty m = true /\ next_position m = p.
Proof.
  rewrite abs_get. destruct (qs_get qs q) as [m|]; [|discriminate].
  unfold abs_q. intros H. injection H as Hr Hn. exists m. split; [reflexivity|].
  split; [|exact Hn]. apply records_of_nil in Hr. unfold mq_is_empty. now rewrite Hr.
Qed.

Lemma linv_pos_extra qs lo G : forall (fx : glog),
  LInv qs lo G -> pos_extra (abs_qs qs) (map snd fx) -> Forall (fun fe => lo <= fst fe) fx ->
  LInv qs lo (gh_app G fx) /\ replay_entries qs fx = Some qs.
Proof.
  intros fx. revert G. induction fx as [|[f e] fx IH]; intros G HL Hx Hlo.
  - rewrite gh_app_nil. split; [exact HL|reflexivity].
  - cbn [map snd] in Hx. destruct (pos_extra_cons _ _ _ Hx) as ((q & p & -> & Hg) & Hx').
    destruct (abs_empty_queue qs q p Hg) as (m & Em & Hem & <-).
    destruct (position_entry_facts qs lo G q m HL Em Hem) as (Hwf & Hleg & Hap).
    inversion Hlo as [|? ? Hf Hlo']; subst. cbn [fst] in Hf.
    pose proof (linv_apply qs lo G f _ qs HL (proj1 HL) Hleg (Hap f) Hf) as HL1.
    destruct (IH _ HL1 Hx' Hlo') as (HL2 & Hr).
    rewrite gh_app_snoc in HL2. split; [exact HL2|].
    cbn [replay_entries]. now rewrite (Hap f).
Qed.

Lemma pos_extra_prefix m x y : pos_extra m (x ++ y) -> pos_extra m x.
Proof.
  intros [Hnd Hall]. rewrite map_app in Hnd. apply Forall_app in Hall. split; [|apply Hall].
  induction (map entry_queue x) as [|a l IH]; [constructor|].
  cbn [app] in Hnd. inversion Hnd; subst. constructor; [|now apply IH].
  intros Hin. apply H1. apply in_or_app. now left.
Qed.

Section Atomic.
Variable P : params.
Hypothesis HBS_lo : 7 < BS P.
Hypothesis HBS_hi : BS P <= 65542.
Hypothesis HNB : 1 <= NB P.
Hypothesis Hcrc : forall t p, crcf P t p < 2 ^ 32.
Hypothesis HGC : L_GC P = false.
Hypothesis HIO : L_IO P = false.
Hypothesis HSHORT : L_SHORT P = false.
Hypothesis Hnc : no_zero_collision P.

Local Notation B := (BS P).
Local Notation FB := (FILE_BYTES P).
Local Notation ffp := (first_frame_pos P).
Local Notation enc_of := (enc_of P).
Local Notation encs_of := (encs_of P).
Local Notation cursor_after := (cursor_after P).
Local Notation starts := (starts P).
Local Notation delivered_from := (delivered_from P).
Local Notation skipped_before := (skipped_before P).
Local Notation ser := (map entry_ser).
Local Notation H3 f := (f P HBS_lo HBS_hi Hcrc) (only parsing).
Local Notation H2 f := (f P HBS_lo HBS_hi) (only parsing).
Local Notation HW f := (f P HBS_lo HBS_hi HNB Hcrc) (only parsing).
Local Notation HN f := (f P HBS_lo HBS_hi HNB) (only parsing).
Local Notation HG f := (f P HBS_lo HBS_hi HNB Hcrc HGC) (only parsing).
Local Notation PInv := (PInv P).
Local Notation Inv := (Inv P).
Local Notation stream_bound := (stream_bound P).

(* the shape of the log of one call: nothing, or the call's own entry followed by position
   entries for queues that are empty after it *)
Lemma step_log_shape st o :
  step_log P st o = [] \/
  exists e rest, step_log P st o = (w_file (s_wr st), e) :: rest /\
    forall qs_m, apply_entry (s_qs st) (w_file (s_wr st)) e = Some qs_m -> nodup_names qs_m ->
      pos_extra (abs_qs qs_m) (map snd rest).
Proof using Type.
  destruct o as [q|q hint|q pos payloads|q p hint|a]; cbn [step_log].
  - unfold create_log. destruct (qs_contains (s_qs st) q); [now left|right].
    eexists _, []. split; [reflexivity|]. intros qs_m _ _. apply pos_extra_nil.
  - unfold delete_log. destruct (qs_get (s_qs st) q) as [m|] eqn:Eq; [right|now left].
    eexists _, _. split; [reflexivity|]. intros qs_m Hap Hnd.
    cbn [apply_entry] in Hap. injection Hap as <-.
    destruct (write_entry P st (EDelete q (next_position m))) as [st1 [k|e0]] eqn:Ew;
      [|apply pos_extra_nil].
    rewrite (write_entry_qs P _ _ _ _ Ew).
    apply (gc_log_pos_extra P (set_qs st1 (qs_remove (s_qs st) q)) hint Hnd).
  - unfold append_log. destruct (qs_get (s_qs st) q) as [m|]; [|now left].
    destruct (append_target m pos) as [position|]; [|now left].
    destruct payloads as [|x r]; [now left|right].
    eexists _, []. split; [reflexivity|]. intros qs_m _ _. apply pos_extra_nil.
  - unfold truncate_log. destruct (qs_get (s_qs st) q) as [m|] eqn:Eq; [right|now left].
    eexists _, _. split; [reflexivity|]. intros qs_m Hap Hnd.
    cbn [apply_entry] in Hap. rewrite Eq in Hap. injection Hap as <-.
    destruct (write_entry P st (ETruncate q p)) as [st1 [k|e0]] eqn:Ew; [|apply pos_extra_nil].
    rewrite (write_entry_qs P _ _ _ _ Ew).
    apply (gc_log_pos_extra P (set_qs st1 (qs_put (s_qs st) q (fst (truncate_head m p)))) hint Hnd).
  - now left.
Qed.

(* Entry-level atomicity.  X = the entries the call logs.  Replaying E followed by any
   prefix Xd of X, with any file tags, gives the abstract state before the call (Xd = []) or
   after it (Xd <> []). *)
Theorem call_entries_atomic st G o tick st' out :
  Inv st G -> op_wf_strict (s_qs st) o ->
  stream_bound G (map snd (step_log P st o)) ->
  step P st o tick = (st', out) -> (forall e, out <> OutIo e) ->
  forall Xd Xr, map snd (step_log P st o) = Xd ++ Xr ->
  forall tags, length tags = (length (gh_E G) + length Xd)%nat ->
  exists qs',
    replay_entries [] (combine tags (map snd (gh_E G) ++ Xd)) = Some qs' /\
    qs_inv qs' /\ nodup_names qs' /\
    (Xd = [] -> forall q, s_get (abs_qs qs') q = s_get (abs_qs (s_qs st)) q) /\
    (Xd <> [] -> forall q, s_get (abs_qs qs') q = s_get (abs_qs (s_qs st')) q).
Proof using HBS_lo HBS_hi HNB Hcrc HGC.
  intros HI Hop Hb Hstep Hno Xd Xr HX tags Hlen.
  pose proof HI as (HP & HL).
  destruct Xd as [|x Xd'].
  { (* nothing of the call: the restart theorem *)
    rewrite app_nil_r in *. cbn [length] in Hlen. rewrite Nat.add_0_r in Hlen.
    destruct (linv_restart_equal _ _ _ HL tags Hlen) as (qs' & H1 & H2' & H3' & H4).
    exists qs'. split; [exact H1|]. split; [exact H2'|]. split; [exact H3'|].
    split; [intros _; exact H4|]. intros H; now destruct H. }
  (* at least the call's own entry *)
  destruct (HG inv_step st G o tick st' out HI Hop Hb Hstep Hno)
    as (G' & (HP' & HL') & Eb & Ed & Elog).
  pose proof (LInv_nodup _ _ _ HL) as Hnd.
  pose proof (step_replay P st o tick Hnd) as Hrep. rewrite Hstep in Hrep. cbn [fst snd] in Hrep.
  specialize (Hrep Hno).
  destruct (step_log_shape st o) as [E0|(e & rest & Elg & Hshape)].
  { rewrite E0 in HX. discriminate. }
  rewrite Elg in *. cbn [map snd app] in HX. injection HX as <- HX.
  set (f := w_file (s_wr st)) in *.
  cbn [replay_entries] in Hrep.
  destruct (apply_entry (s_qs st) f e) as [qs_m|] eqn:Hap; [|discriminate].
  pose proof (apply_entry_nodup _ _ _ _ Hnd Hap) as Hndm.
  specialize (Hshape qs_m eq_refl Hndm).
  (* the position entries are identities: qs_m is the final state *)
  set (lo := wlo (s_wr st)) in *.
  assert (Hlof : lo <= f).
  { destruct HP as (Hw & _). exact (HN winv_wlo_le _ Hw). }
  (* legality of e after ALL *)
  assert (Hleg : forall F, t_replay [] 0 (gh_ALL G) = Some F -> legal F e).
  { intros F EF. destruct HL' as (_ & Hleg' & _).
    assert (EA : gh_ALL G' = gh_ALL G ++ e :: map snd rest).
    { unfold gh_ALL. rewrite Ed, Elog, map_app, app_assoc. reflexivity. }
    rewrite EA in Hleg'. destruct (legal_log_app _ _ _ _ Hleg') as (F0 & EF0 & Hl0).
    rewrite EF in EF0. inversion EF0; subst F0.
    now destruct (legal_log_cons_inv _ _ _ _ Hl0). }
  assert (Hwfm : qs_wf qs_m /\ s_qs st' = qs_m).
  { (* the position entries are identities; well-formedness comes from the final state *)
    assert (Hfin : forall qsx, replay_entries qs_m rest = Some qsx -> qsx = s_qs st')
      by (intros qsx E; rewrite E in Hrep; now injection Hrep).
    assert (Hid' : forall fx, pos_extra (abs_qs qs_m) (map snd fx) ->
              replay_entries qs_m fx = Some qs_m).
    { induction fx as [|[f1 e1] fx IH]; intros Hx; [reflexivity|].
      cbn [map snd] in Hx. destruct (pos_extra_cons _ _ _ Hx) as ((q & p & -> & Hg) & Hx').
      destruct (abs_empty_queue qs_m q p Hg) as (m & Em & Hem & <-).
      cbn [replay_entries apply_entry]. rewrite (ack_position_empty_id qs_m q m Em Hem).
      now apply IH. }
    pose proof (Hfin _ (Hid' rest Hshape)) as E. split; [|now symmetry].
    rewrite E. exact (proj1 HL'). }
  destruct Hwfm as (Hwfm & Eqm).
  pose proof (linv_apply _ _ _ f e qs_m HL Hwfm Hleg Hap Hlof) as HL1.
  (* the delivered prefix of the position entries *)
  assert (Hxp : pos_extra (abs_qs qs_m) Xd').
  { rewrite HX in Hshape. exact (pos_extra_prefix _ _ _ Hshape). }
  set (fx := map (pair lo) Xd').
  assert (Efx : map snd fx = Xd').
  { unfold fx. rewrite map_map. cbn [snd]. apply map_id. }
  destruct (linv_pos_extra qs_m lo (gh_snoc G f e) fx HL1) as (HL2 & _).
  { now rewrite Efx. }
  { unfold fx. apply Forall_forall. intros fe Hin. apply in_map_iff in Hin.
    destruct Hin as (y & <- & _). cbn [fst]. (ca_lia using HBS_lo). }
  assert (EE : map snd (gh_E (gh_app (gh_snoc G f e) fx)) = map snd (gh_E G) ++ e :: Xd').
  { cbn [gh_app gh_snoc gh_E]. rewrite !map_app, Efx. cbn [map snd]. now rewrite <- app_assoc. }
  destruct (linv_restart_equal _ _ _ HL2 tags) as (qs' & H1 & H2' & H3' & H4).
  { apply (f_equal (@length entry)) in EE. rewrite map_length in EE. rewrite EE.
    rewrite app_length, map_length. cbn [length] in *. (ca_lia using Hlen). }
  rewrite EE in H1.
  exists qs'. split; [exact H1|]. split; [exact H2'|]. split; [exact H3'|].
  split; [discriminate|]. intros _ q. rewrite Eqm. apply H4.
Qed.

(* a file of the image-so-far that the data writes do not remove *)
Lemma img_ok_exists fs0 lo f0 off0 img D fc short n :
  img_ok P fs0 f0 off0 img D fc short ->
  (forall x, lo <= x <= f0 -> full_file P fs0 x) -> lo <= f0 -> fc <= U64_MAX ->
  lo <= n <= fc -> exists b, fs_get img (filename n) = Some (FFile b).
Proof using HBS_lo HBS_hi HNB Hcrc.
  intros (Hle & Hout & Hin & _) Hfull Hlo Hmax Hn.
  destruct (N.lt_ge_cases n f0) as [Hlt|Hge].
  - rewrite Hout.
    + destruct (Hfull n ltac:((ca_lia using Hlt Hn))) as (b & Hb & _). now exists b.
    + intros x Hx. apply filename_neq; (ca_lia using Hn Hmax Hx Hlt).
  - destruct (Hin n ltac:((ca_lia using Hge Hn))) as (b & Hb & _). now exists b.
Qed.

Lemma img_ok_below fs0 f0 off0 img D fc short n :
  img_ok P fs0 f0 off0 img D fc short -> fc <= U64_MAX -> n < f0 ->
  fs_get img (filename n) = fs_get fs0 (filename n).
Proof using HBS_lo HBS_hi HNB Hcrc.
  intros (Hle & Hout & _) Hmax Hn. apply Hout. intros x Hx. apply filename_neq; (ca_lia using Hn Hmax Hle Hx).
Qed.

Definition top_file (img : fsT) (fc : N) : Prop :=
  (exists b, fs_get img (filename fc) = Some (FFile b)) /\
  (forall n, fc < n -> n <= U64_MAX -> fs_get img (filename n) = None).

Lemma img_ok_top fs0 f0 off0 img D fc short :
  img_ok P fs0 f0 off0 img D fc short -> good P fs0 f0 U64_MAX -> fc <= U64_MAX ->
  top_file img fc.
Proof using HBS_lo HBS_hi HNB Hcrc.
  intros (Hle & Hout & Hin & _) (_ & Hnone) Hmax. split.
  - destruct (Hin fc ltac:((ca_lia using Hle))) as (b & Hb & _). now exists b.
  - intros n H1 H2'. rewrite Hout; [apply Hnone; (ca_lia using H1 Hle H2')|].
    intros x Hx. apply filename_neq; (ca_lia using H2' Hx Hmax H1).
Qed.

Lemma crash_unlinks lo f0 off0 NEW f1 off1 evs pe fs0 :
  call_trace P lo f0 off0 NEW f1 off1 evs -> cpre pe evs ->
  good P fs0 f0 U64_MAX -> (forall x, lo <= x <= f0 -> full_file P fs0 x) ->
  lo <= f0 -> f1 <= U64_MAX ->
  exists m mu : nat,
    (mu <= m)%nat /\ lo + N.of_nat mu <= f1 /\
    (forall n, lo <= n < lo + N.of_nat m ->
       fs_get (fold_left apply_event evs fs0) (filename n) = None) /\
    (forall n, n < lo ->
       fs_get (fold_left apply_event evs fs0) (filename n) = fs_get fs0 (filename n)) /\
    (exists b, fs_get (fold_left apply_event pe fs0) (filename (lo + N.of_nat mu)) = Some (FFile b)) /\
    exists fc, fc <= f1 /\ top_file (fold_left apply_event pe fs0) fc.
Proof using HBS_lo HBS_hi HNB Hcrc.
  intros Hct Hpe Hgood Hfull Hlo Hmax.
  assert (Hbase : img_ok P fs0 f0 off0 fs0 [] f0 false) by exact (HW img_base fs0 f0 off0 _ Hgood).
  (* a crash inside the data writes: nothing is unlinked *)
  assert (Hpart : forall wevs, wtrace P f0 off0 wevs NEW f1 off1 -> cpre pe wevs ->
            (exists b, fs_get (fold_left apply_event pe fs0) (filename (lo + N.of_nat 0)) = Some (FFile b)) /\
            exists fc, fc <= f1 /\ top_file (fold_left apply_event pe fs0) fc).
  { intros wevs Htr Hc.
    destruct (HW wtrace_img_pre _ _ _ _ _ _ Htr pe fs0 U64_MAX Hc Hgood Hmax (N.le_refl _))
      as (fc & short & Hfc & Hok).
    pose proof Hok as (Hle & _). split.
    - apply (img_ok_exists fs0 lo f0 off0 _ _ fc short _ Hok Hfull Hlo); (ca_lia using Hfc Hmax Hle Hlo).
    - exists fc. split; [exact Hfc|]. apply (img_ok_top _ _ _ _ _ _ _ Hok Hgood). (ca_lia using Hfc Hmax). }
  (* the whole call, with m unlinks after the data writes wevs *)
  assert (Hfull' : forall wevs tl (m : nat), wtrace P f0 off0 wevs NEW f1 off1 ->
            (forall fs, fold_left apply_event tl fs = remove_files fs (iota lo m)) ->
            lo + N.of_nat m <= f1 ->
            (forall n, lo <= n < lo + N.of_nat m ->
               fs_get (fold_left apply_event (wevs ++ tl) fs0) (filename n) = None) /\
            (forall n, n < lo ->
               fs_get (fold_left apply_event (wevs ++ tl) fs0) (filename n) =
               fs_get fs0 (filename n)) /\
            (exists b, fs_get (fold_left apply_event (wevs ++ tl) fs0) (filename (lo + N.of_nat m)) = Some (FFile b)) /\
            exists fc, fc <= f1 /\ top_file (fold_left apply_event (wevs ++ tl) fs0) fc).
  { intros wevs tl m Htr Htl Hm. rewrite fold_left_app, Htl.
    pose proof (HW wtrace_img_full _ _ _ _ _ _ Htr fs0 U64_MAX Hgood Hmax (N.le_refl _)) as Hok.
    destruct (img_ok_top _ _ _ _ _ _ _ Hok Hgood Hmax) as ((b & Hb) & Habove).
    split; [|split; [|split]].
    - intros n Hn. apply fs_get_removed. apply iota_In. (ca_lia using Hn).
    - intros n Hn. rewrite fs_get_remove_files_other.
      + apply (img_ok_below fs0 f0 off0 _ _ f1 false n Hok); (ca_lia using Hmax Hn Hlo).
      + intros y Hy. apply iota_In in Hy. apply filename_neq; (ca_lia using Hy Hm Hmax Hn).
    - rewrite fs_get_remove_files_other.
      + apply (img_ok_exists fs0 lo f0 off0 _ _ f1 false _ Hok Hfull Hlo); (ca_lia using Hmax Hm).
      + intros y Hy. apply iota_In in Hy. apply filename_neq; (ca_lia using Hy Hm Hmax).
    - exists f1. split; [(ca_lia using HBS_lo)|]. split.
      + exists b. rewrite fs_get_remove_files_other; [exact Hb|].
        intros y Hy. apply iota_In in Hy. apply filename_neq; (ca_lia using Hy Hm Hmax).
      + intros n H1 H2'. apply fs_get_remove_files_none. now apply Habove. }
  destruct Hct as [E -> ->|wevs a Htr|wevs m a Htr Hm].
  - inversion Hpe; subst. exists 0%nat, 0%nat. cbn [fold_left]. split; [(ca_lia using HBS_lo)|]. split; [(ca_lia using Hlo)|].
    split; [intros n Hn; (ca_lia using Hn)|]. split; [reflexivity|]. split.
    + apply (img_ok_exists fs0 lo f0 off0 _ _ f0 false _ Hbase Hfull Hlo); (ca_lia using Hmax Hlo).
    + exists f0. split; [(ca_lia using HBS_lo)|]. apply (img_ok_top _ _ _ _ _ _ _ Hbase Hgood). (ca_lia using Hmax).
  - pose proof (HW wtrace_le _ _ _ _ _ _ Htr) as Hle.
    destruct (noop_fold _ (flush_group_noop f1 a)) as [G1 _].
    assert (Hnil : forall fs, fold_left apply_event (flush_group f1 a) fs =
                              remove_files fs (iota lo 0)) by (intros fs; now rewrite G1).
    destruct (Hfull' wevs _ 0%nat Htr Hnil ltac:((ca_lia using Hle Hlo))) as (F1 & F2 & F3).
    exists 0%nat, 0%nat. split; [(ca_lia using HBS_lo)|]. split; [(ca_lia using Hle Hlo)|]. split; [exact F1|]. split; [exact F2|].
    destruct (cpre_app_inv _ _ _ Hpe) as [Hc|(pt & -> & Hc)]; [now apply (Hpart wevs)|].
    destruct (noop_fold _ (noop_cpre _ _ (flush_group_noop f1 a) Hc)) as [K1 _].
    assert (Hnil' : forall fs, fold_left apply_event pt fs = remove_files fs (iota lo 0))
      by (intros fs; now rewrite K1).
    now destruct (Hfull' wevs _ 0%nat Htr Hnil' ltac:((ca_lia using Hle Hlo))) as (_ & _ & K3).
  - assert (Htl : forall fs, fold_left apply_event
                    (flush_group f1 true ++ unlinks lo m ++ flush_group f1 a) fs =
                    remove_files fs (iota lo m)).
    { intros fs. destruct (noop_fold _ (flush_group_noop f1 true)) as [G1 _].
      destruct (noop_fold _ (flush_group_noop f1 a)) as [G2 _].
      rewrite !fold_left_app, G1, G2. unfold unlinks. apply fold_unlinks. }
    destruct (Hfull' wevs _ m Htr Htl Hm) as (F1 & F2 & F3).
    destruct (cpre_app_inv _ _ _ Hpe) as [Hc|(pt & -> & Hc)].
    + pose proof (HW wtrace_le _ _ _ _ _ _ Htr) as Hle.
      exists m, 0%nat. split; [(ca_lia using HBS_lo)|]. split; [(ca_lia using Hm)|]. split; [exact F1|]. split; [exact F2|].
      now apply (Hpart wevs).
    + destruct (HN tail_prefix _ _ _ _ _ _ Hc) as (mu & Hmu & K1 & _).
      exists m, mu. split; [exact Hmu|]. split; [(ca_lia using Hmu Hm)|]. split; [exact F1|]. split; [exact F2|].
      now destruct (Hfull' wevs pt mu Htr K1 ltac:((ca_lia using Hmu Hm))) as (_ & _ & K3).
Qed.

(* The directory of a crash image that lists the files lo' .. hi: hi is its top file, and what
   the prefix has unlinked the whole call unlinks. *)
Lemma image_dir_of_trace lo f0 off0 NEW f1 off1 evs pe fs0 lo' hi :
  call_trace P lo f0 off0 NEW f1 off1 evs -> cpre pe evs ->
  good P fs0 f0 U64_MAX -> (forall x, lo <= x <= f0 -> full_file P fs0 x) ->
  dir_of fs0 (nfiles lo f0) -> lo <= f0 -> f1 <= U64_MAX ->
  let img := fold_left apply_event pe fs0 in
  lo' <= hi -> hi <= f1 -> dir_of img (nfiles lo' hi) ->
  top_file img hi /\
  forall x, x <= U64_MAX ->
    (exists b, fs_get (fold_left apply_event evs fs0) (filename x) = Some (FFile b)) -> lo' <= x.
Proof using HBS_lo HBS_hi HNB Hcrc.
  intros Hct Hc Hgood Hfull Hdir0 Hlo Hu' img Hlohi Hhif1 Hdir.
  destruct (crash_unlinks lo f0 off0 NEW f1 off1 evs pe fs0 Hct Hc Hgood Hfull Hlo Hu')
    as (m & mu & Hmu & Hmuf1 & Hgone & Hbelow & Hex & fc & Hfc & (Htopf & Htopn)).
  fold img in Hex, Htopf, Htopn.
  assert (Hhi : exists b, fs_get img (filename hi) = Some (FFile b)).
  { apply (Hdir hi ltac:(lia)), (HN nfiles_In); lia. }
  split.
  { split; [exact Hhi|].
    assert (E : fc = hi).
    { apply (Hdir fc ltac:(lia)) in Htopf. apply (HN nfiles_In) in Htopf; [|lia].
      destruct (N.lt_ge_cases fc hi) as [Hlt|]; [|lia].
      destruct Hhi as (b & Hb). rewrite (Htopn hi Hlt ltac:(lia)) in Hb. discriminate. }
    subst fc. exact Htopn. }
  intros x Hx (b & Hb).
  assert (Hlo'mu : lo' <= lo + N.of_nat mu).
  { apply (Hdir (lo + N.of_nat mu) ltac:(lia)) in Hex. apply (HN nfiles_In) in Hex; lia. }
  destruct (N.lt_ge_cases x lo) as [Hlt|Hge].
  - rewrite (Hbelow _ Hlt) in Hb.
    assert (Hin0 : In x (nfiles lo f0)) by (apply (Hdir0 x Hx); now exists b).
    apply (HN nfiles_In) in Hin0; lia.
  - destruct (N.lt_ge_cases x (lo + N.of_nat m)) as [Hlt|Hge2]; [|lia].
    rewrite (Hgone x ltac:(lia)) in Hb. discriminate.
Qed.

(* TornFile's fspec places the recovered writer somewhere in the listed files, possibly NOT in
   the last one (files w_file+1 .. then exist and the next roll-over re-opens them through the
   tracker).  Hence an invariant weaker than FileStream.winv: the tracked files are lo .. lo+n,
   they are exactly the WAL files of the directory, nothing exists above them, the writer is
   in one of them, at an offset <= FILE. *)
Definition kinv (w : rwriter) : Prop :=
  wf w /\ w_off w <= FB /\ c_plan (w_ctx w) = None /\
  exists lo n, w_files w = iota lo (S n) /\ lo <= w_file w /\ w_file w <= lo + N.of_nat n /\
    lo + N.of_nat n <= U64_MAX /\
    dir_of (vfs w) (w_files w) /\
    (forall x, lo + N.of_nat n < x -> x <= U64_MAX -> fs_get (vfs w) (filename x) = None).

Lemma kinv_rinvx w : kinv w -> exists lo, rinvx P lo w.
Proof using Type.
  intros (Hwf & Hoff & Hplan & lo & n & Hfiles & Hlo & Hhi & Hmax & Hdir & Hfresh).
  exists lo, n. repeat (split; [assumption|]). split; [|exact Hfresh].
  intros f Hf. apply Hdir; [clear - Hf Hmax; lia|]. rewrite Hfiles. apply iota_In. clear - Hf; lia.
Qed.

(* the recovery-time GC never fails *)
Theorem kinv_gc_ok st hint st' r :
  kinv (s_wr st) ->
  phys_bound P (s_wr st) (map snd (gc_log P st hint)) ->
  run_gc_if_necessary P st hint = (st', r) ->
  (exists n, r = Ok n) /\ s_qs st' = s_qs st /\ s_pol st' = s_pol st.
Proof using HBS_lo HBS_hi HNB Hcrc HGC.
  intros Hk Hb Hgc. destruct (kinv_rinvx _ Hk) as (lo & Hr).
  destruct (HG rinvx_gc_ok lo st hint Hr Hb) as (st1 & k & E & Eqs & Epol).
  rewrite E in Hgc. inversion Hgc; subst. eauto.
Qed.

(* room for the position entries of the recovery-time GC, whatever the resume point of the
   recovered writer between the end of the ghost stream before the call and the block after
   its end after the call *)
Definition crash_bound (G : ghost) (X : list entry) (m : smap) : Prop :=
  forall c extra, pos_extra m extra ->
    lenN (gh_T P G) <= c -> c <= cursor_after 0 (ser (gh_ALL G ++ X)) + B ->
    FB * gh_base G + cursor_after c (ser extra) <= FB * (U64_MAX + 1).

Lemma crash_bound_ext G X m1 m2 :
  (forall q, s_get m2 q = s_get m1 q) -> crash_bound G X m1 -> crash_bound G X m2.
Proof using Type.
  intros He Hb c extra Hx. apply Hb. apply (pos_extra_ext m2); [intros q; now rewrite He|exact Hx].
Qed.

(* the recovery-time GC on the writer open makes from a crash image cannot fail: its position
   entries are pos_extra of the replayed queues, which agree with m *)
Lemma finish_ok img lo' hi G X m w0 tags sts pf qs' pol hint :
  lo' <= hi -> hi <= U64_MAX -> gh_base G <= lo' ->
  dir_of img (nfiles lo' hi) -> top_file img hi ->
  fspec P lo' (N.to_nat (hi - lo')) (gh_base G) (zext P img hi) w0 tags sts pf ->
  nodup_names qs' ->
  crash_bound G X m -> (forall q, s_get (abs_qs qs') q = s_get m q) ->
  lenN (gh_T P G) <= pf -> pf <= cursor_after 0 (ser (gh_ALL G ++ X)) + B ->
  exists st_r, open_finish P w0 qs' pol hint = OpenOk st_r /\
    forall q, s_get (abs_qs (s_qs st_r)) q = s_get m q.
Proof using HBS_lo HBS_hi HNB Hcrc HGC.
  intros Hle Hmax Hbase Hdir (Htop1 & Htop2) Hspec Hnd Hcb Heq Hpf1 Hpf2.
  destruct Hspec as (_ & _ & _ & _ & Hfiles & Hlo & Hhi & Hoff & Hpf & Hpend & Hfs & Hplan).
  set (base := gh_base G) in *.
  set (n := N.to_nat (hi - lo')) in *.
  assert (Ecur : lo' + N.of_nat n = hi) by (unfold n; (ca_lia using Hle)).
  rewrite Ecur in Hhi.
  assert (Hk : kinv w0).
  { split; [now apply wf_nil|]. split; [exact Hoff|]. split; [exact Hplan|].
    exists lo', n. rewrite (vfs_nil _ Hpend), Hfs, Ecur.
    split; [exact Hfiles|]. split; [exact Hlo|]. split; [exact Hhi|]. split; [exact Hmax|].
    rewrite Hfiles. change (iota lo' (S n)) with (nfiles lo' hi).
    split.
    - unfold zext. apply dir_of_put_in; [exact Hdir|exact Hmax|]. apply (HN nfiles_In); (ca_lia using Hle).
    - intros x Hx1 Hx2. unfold zext. rewrite fs_get_put_other; [now apply Htop2|].
      apply filename_neq; (ca_lia using Hmax Hx2 Hx1). }
  set (st0 := mkSt w0 qs' pol).
  assert (Hphys : phys_bound P (s_wr st0) (map snd (gc_log P st0 hint))).
  { unfold phys_bound, wabs. cbn [st0 s_wr].
    replace (w_file w0 * FB + w_off w0) with (base * FB + pf).
    2:{ rewrite <- Hpf. assert (E : w_file w0 = base + (w_file w0 - base)) by (ca_lia using Hlo Hbase).
        rewrite E at 2. rewrite N.mul_add_distr_r. (ca_lia using HBS_lo). }
    rewrite (cursor_after_shift P HBS_lo HBS_hi HNB Hcrc) by apply (HN mulFB_mod).
    pose proof (crash_bound_ext G X m _ Heq Hcb pf _ (gc_log_pos_extra P st0 hint Hnd) Hpf1 Hpf2).
    fold base in H. (ca_lia using H). }
  unfold open_finish. fold st0.
  destruct (run_gc_if_necessary P st0 hint) as [st1 r] eqn:Egc.
  destruct (kinv_gc_ok st0 hint st1 r Hk Hphys Egc) as ((k & ->) & Eqs & _).
  exists st1. split; [reflexivity|]. rewrite Eqs. exact Heq.
Qed.

(* the ghost stream after the call's entries *)
Lemma ghost_stream es xs c0 z :
  let T := encs_of 0 es in
  lenN T <= c0 -> c0 <= ffp (lenN T) ->
  exists zz,
    T ++ zerosN (c0 - lenN T) ++ encs_of c0 xs ++ zerosN z = encs_of 0 (es ++ xs) ++ zerosN zz /\
    lenN (encs_of 0 (es ++ xs)) <= c0 + lenN (encs_of c0 xs) /\
    (xs <> [] -> lenN (encs_of 0 (es ++ xs)) = c0 + lenN (encs_of c0 xs)).
Proof using HBS_lo HBS_hi HNB Hcrc.
  intros T H1 H2'. rewrite (H3 encs_of_app), N.add_0_l. fold T.
  destruct xs as [|x xs'] eqn:Ex.
  - cbn [ResyncProofs.encs_of app]. exists (c0 - lenN T + z).
    rewrite app_nil_r, (@lenN_nil byte), zerosN_app. split; [reflexivity|]. split; [(ca_lia using H1)|].
    intros H; now destruct H.
  - rewrite <- Ex. assert (Hne : xs <> []) by (rewrite Ex; discriminate). clear Ex x xs'.
    pose proof (HW CrashTrace.encs_of_between (lenN T) c0 xs H1 H2' Hne) as E.
    exists z. rewrite <- E, <- !app_assoc. split; [reflexivity|].
    rewrite !lenN_app, lenN_zerosN. split; [(ca_lia using H1)|]. intros _. (ca_lia using H1).
Qed.

Lemma ceil_block a : exists m, a <= m * B /\ m * B < a + B.
Proof using HBS_lo HBS_hi HNB.
  exists ((a + B - 1) / B).
  pose proof (N.div_mod (a + B - 1) B ltac:((ca_lia using HBS_lo))). pose proof (N.mod_lt (a + B - 1) B ltac:((ca_lia using HBS_lo))).
  split; (ca_lia using HBS_lo).
Qed.

Lemma Forall2_right {A C} (R : A -> C -> Prop) (Q : C -> Prop) l1 l2 :
  Forall2 R l1 l2 -> (forall x y, R x y -> Q y) -> Forall Q l2.
Proof using Type. induction 1; intros H'; constructor; eauto. Qed.

(* a stream that ends in zeros, seen from a resume point c between its end and the next first
   frame: nothing is written after c *)
Lemma zeros_resume T zz c K :
  lenN T + zz = K * FB -> lenN T <= c -> c <= ffp (lenN T) ->
  T ++ zerosN zz = T ++ zerosN (c - lenN T) ++ encs_of c (ser []) ++ zerosN (K * FB - c).
Proof using HBS_lo HBS_hi HNB.
  intros Hl H1 H2'.
  assert (Hc : c <= K * FB).
  { pose proof (H2 ffp_le_boundary (lenN T) (K * NB P)) as Hf.
    rewrite (HN FB_eq), N.mul_assoc in *. (ca_lia using Hf Hl H2'). }
  cbn [map ResyncProofs.encs_of app]. rewrite <- FileStream.zerosN_app. do 2 f_equal.
  (ca_lia using Hc Hl H1).
Qed.

(* what a reader skips before b does not reach into entries whose first frames are all >= b *)
Lemma skipped_before_le b Bs : forall A a,
  Forall (fun s => b <= snd s) (starts (cursor_after a A) Bs) ->
  (length (skipped_before b a (A ++ Bs)) <= length A)%nat.
Proof using HBS_lo HBS_hi HNB Hcrc.
  induction A as [|p A IH]; intros a HB; cbn [app].
  - rewrite (H2 cursor_after_nil) in HB. destruct Bs as [|q Bs']; [cbn; (ca_lia using HBS_lo)|].
    cbn [ResyncProofs.starts] in HB. inversion HB as [|? ? Hh _]; subst. cbn [snd] in Hh.
    cbn [ResyncProofs.skipped_before]. destruct (N.leb_spec b (ffp a)); [cbn; (ca_lia using HBS_lo)|(ca_lia using H Hh)].
  - cbn [ResyncProofs.skipped_before]. destruct (N.leb_spec b (ffp a)); [cbn; (ca_lia using HBS_lo)|].
    cbn [length]. apply le_n_S. apply IH. now rewrite (H3 cursor_after_cons) in HB.
Qed.

Lemma fspec_tags_len lo n base fsx w0 tags es pf a0 :
  fspec P lo n base fsx w0 tags (starts a0 (ser es)) pf -> length tags = length es.
Proof using Type. intros (H & _). now rewrite H, (ResyncProofs.starts_length P), map_length. Qed.

Lemma nil_dec {A} (l : list A) : {l = []} + {l <> []}.
Proof using Type. destruct l; [now left|right; discriminate]. Qed.

Theorem C02_crash_atomic st G a o tick st' out :
  Inv st G -> w_pending (s_wr st) = [] -> s_pol st = PAlways a ->
  op_wf_strict (s_qs st) o ->
  stream_bound G (map snd (step_log P st o)) ->
  crash_bound G (map snd (step_log P st o)) (abs_qs (s_qs st)) ->
  crash_bound G (map snd (step_log P st o)) (abs_qs (s_qs st')) ->
  step P st o tick = (st', out) -> (forall e, out <> OutIo e) ->
  exists evs, c_ev (w_ctx (s_wr st')) = rev evs ++ c_ev (w_ctx (s_wr st)) /\
    forall cut k pol hint,
      let img := fold_left apply_event (crash_events evs cut k) (c_fs (w_ctx (s_wr st))) in
      exists st_r, open P img None pol hint = OpenOk st_r /\
        ((forall q, s_get (abs_qs (s_qs st_r)) q = s_get (abs_qs (s_qs st)) q) \/
         (forall q, s_get (abs_qs (s_qs st_r)) q = s_get (abs_qs (s_qs st')) q)).
Proof using HBS_lo HBS_hi HNB Hcrc HGC HIO HSHORT Hnc.
  intros HI Hp0 Hpol Hop Hbound Hcb Hcb' Hstep Hno.
  destruct (HG crash_image_shape st G a o tick st' out HI Hp0 Hpol Hop Hbound Hstep Hno)
    as (evs & Hev & Hfs & Hct & Himg). cbn zeta in *.
  exists evs. split; [exact Hev|]. intros cut k pol hint. cbn zeta.
  destruct (Himg cut k) as (nu & hi & short & z & Hlohi & Hf0hi & Hhif1 & Hhimax & Hndk & Hdir &
                            Hlist & Hlens & Hshort & Hdata & Hj & Hstream & Hlen & Hnuj).
  clear Himg.
  pose proof HI as (HP & HL).
  destruct (HG inv_step st G o tick st' out HI Hop Hbound Hstep Hno)
    as (G' & HI' & Eb & Ed & Elog).
  pose proof HI' as (HP' & HL').
  set (pe := crash_events evs cut k) in *.
  set (img := fold_left apply_event pe (c_fs (w_ctx (s_wr st)))) in *.
  set (j := lenN (ev_data pe)) in *.
  set (w := s_wr st) in *. set (lo := wlo w) in *. set (lo' := lo + N.of_nat nu) in *.
  set (base := gh_base G) in *. set (T := gh_T P G) in *.
  set (c0 := call_cursor P st G) in *. set (X := map snd (step_log P st o)) in *.
  set (NEW := call_bytes P st G o) in *.
  pose proof HP as (Hw & _ & _ & Hbase & Hc1 & Hc2 & _ & HWf & _). cbn zeta in Hc1, Hc2.
  pose proof Hw as (_ & _ & _ & _ & Hu & _).
  destruct (HN pinv_dir w G HP Hp0) as (Hlo & _ & Hfull0 & Hgood & Hdirf & _). cbn zeta in *.
  set (fs0 := c_fs (w_ctx w)) in *. set (f0 := w_file w) in *.
  fold base in Hbase. fold lo in Hbase, Hlo, Hfull0.
  destruct (HG step_call_trace st G a o tick st' out HI Hp0 Hpol Hbound Hstep Hno)
    as (_ & _ & _ & _ & Hp0'). cbn zeta in Hp0'.
  pose proof HP' as (Hw' & (_ & Hdir0') & _ & Hbase' & Hc1' & Hc2' & _ & HWf' & _).
  cbn zeta in Hc1', Hc2'. rewrite Eb in Hbase', Hc1', Hc2'.
  pose proof Hw' as (Hok' & _ & Hoff' & _ & Hu' & Hfull' & _).
  rewrite (vfs_nil _ Hp0') in Hfull'.
  set (w' := s_wr st') in *. set (f1 := w_file w') in *.
  destruct (wr_ok_len P (HN HB0) HNB w' Hok') as (Hn' & Hn1').
  (* the unlinked files of the image are among those unlinked by the call *)
  destruct (image_dir_of_trace lo f0 (w_off w) NEW f1 (w_off w') evs pe fs0 lo' hi Hct
              (crash_events_cpre evs cut k) Hgood Hfull0 Hdirf Hlo Hu' Hlohi Hhif1 Hdir) as (Htop & Hpresent).
  fold img in Htop.
  assert (Hlo'x : lo' <= wlo w').
  { apply Hpresent; [(ca_lia using Hn' Hn1' Hu')|].
    destruct (Hfull' (wlo w')) as (b & Hb & _); [apply (HN RestartGc.wr_ok_In); [exact Hok'|(ca_lia using Hn1' Hn')]|].
    exists b. rewrite <- Hfs. exact Hb. }
  clear Hpresent.
  (* the image in the terms of TornFile *)
  set (n := N.to_nat (hi - lo')).
  assert (Ecur : lo' + N.of_nat n = hi) by (unfold n; (ca_lia using Hlohi)).
  assert (Hlistx : list_wal_numbers img = iota lo' (S n)) by exact Hlist.
  assert (Hfilesx : forall f, In f (iota lo' (S n)) ->
            exists b, fs_get img (filename f) = Some (FFile b) /\ lenN b <= FB /\
                      (f <> lo' + N.of_nat n -> lenN b = FB)).
  { intros f Hf. apply iota_In in Hf. destruct (Hlens f ltac:((ca_lia using Hf Hlohi))) as (b & Hb & Hlb').
    exists b. split; [exact Hb|]. rewrite Ecur.
    destruct (N.eqb_spec f hi) as [->|Hne]; destruct short; cbn [andb] in Hlb'; split; (ca_lia using Hlb'). }
  assert (Eext : fs_ext P img lo' n = zext P img hi).
  { unfold fs_ext. rewrite Ecur. reflexivity. }
  assert (Hbase'' : base <= lo') by (ca_lia using Hbase).
  assert (HwfX : Forall wf_entry X).
  { pose proof (step_log_wf P st o (proj1 HL) (op_wf_strict_wf _ _ Hop)) as Hlw.
    unfold X. apply Forall_map. exact Hlw. }
  assert (EALL' : gh_ALL G' = gh_ALL G ++ X).
  { unfold gh_ALL. rewrite Ed, Elog, map_app, app_assoc. reflexivity. }
  assert (Ec0 : c0 = (lo - base) * FB + wpos P w) by reflexivity.
  assert (ENEW : NEW = encs_of c0 (ser X)) by reflexivity.
  assert (ET : T = encs_of 0 (ser (gh_ALL G))) by reflexivity.
  destruct (ghost_stream (ser (gh_ALL G)) (ser X) c0 z) as (zz & ES' & HlenT'1 & HlenT'2).
  { exact Hc1. } { exact Hc2. }
  assert (Hc1c : lenN T <= c0) by exact Hc1.
  assert (Hc2c : c0 <= ffp (lenN T)) by exact Hc2.
  cbn zeta in ES'. rewrite <- ET in ES'.
  rewrite <- ENEW, <- map_app, <- EALL' in ES', HlenT'1, HlenT'2.
  set (T' := encs_of 0 (ser (gh_ALL G'))) in *.
  assert (HTT' : lenN T <= lenN T').
  { unfold T'. rewrite EALL', map_app, (H3 encs_of_app), lenN_app, <- ET. (ca_lia using HBS_lo). }
  assert (EcurT' : cursor_after 0 (ser (gh_ALL G ++ X)) = lenN T').
  { rewrite <- EALL'. apply (HN cursor_after_0). }
  destruct (ceil_block (lenN T')) as (mb & Hmb1 & Hmb2).
  assert (HlenS : lenN (T ++ zerosN (c0 - lenN T) ++ takeN j NEW ++ zerosN z) =
                  (lo' + N.of_nat n - base + 1) * FB).
  { rewrite !lenN_app, !lenN_zerosN, lenN_takeN, Ecur.
    replace (hi - base + 1) with (hi + 1 - base) by (ca_lia using Hbase Hlohi). (ca_lia using Hc1c Hlen Hj). }
  assert (Hcj : c0 + j <= mb * B).
  { destruct (nil_dec X) as [E0|Hne].
    - assert (j = 0).
      { rewrite ENEW, E0 in Hj. cbn [map ResyncProofs.encs_of] in Hj.
        rewrite (@lenN_nil byte) in Hj. (ca_lia using Hj). }
      assert (lenN T' = lenN T) by (unfold T'; now rewrite EALL', E0, app_nil_r).
      pose proof (H2 ffp_le_boundary (lenN T) mb ltac:((ca_lia using Hmb1 HTT'))). (ca_lia using H1 H Hc2c).
    - assert (Hne' : ser X <> []) by (intros E; apply map_eq_nil in E; contradiction).
      specialize (HlenT'2 Hne'). (ca_lia using Hmb1 HlenT'2 Hj). }
  destruct nu as [|nu'].
  {     assert (Elo' : lo' = lo) by (unfold lo'; cbn; (ca_lia using HBS_lo)).
    assert (Hb : (lo' - base) * FB <= c0) by (rewrite Elo', Ec0; (ca_lia using HBS_lo)).
    rewrite <- Eext in Hstream.
    destruct (open_torn P HBS_lo HBS_hi HNB Hcrc Hnc img lo' n Hlistx Hfilesx base Hbase''
                (gh_ALL G) X T c0 j z pol hint HIO HSHORT HWf HwfX
                (H3 encs_of_rel (ser (gh_ALL G)) 0) Hc1c Hc2c Hb Hj Hstream HlenS)
      as (w0 & tags & E_pre & E_suf & X1 & Xr & Xd & pf & HE & Hpre & Hsuf & HX & Hle1 & Hr &
          HXd & Hspec & Hpf1 & Hpf2 & Hpf3 & Hup & Hres & Hopen).
    (* what is delivered of the old entries is E *)
    destruct (HW PInv_delivered w G HP) as (Edel & _). fold lo base in Edel.
    rewrite Elo' in Hsuf. change (ser (gh_ALL G)) with (gh_ser G) in Hsuf. rewrite Edel in Hsuf.
    assert (HEs : E_suf = map snd (gh_E G)).
    { rewrite gh_ALL_split in HE. symmetry in HE.
      apply app_eq_len in HE; [apply HE|].
      apply (f_equal (@length bytes)) in Hsuf. unfold gh_ser_E in Hsuf.
      repeat rewrite map_length in Hsuf. repeat rewrite map_length. (ca_lia using Hsuf). }
    subst E_suf.
    (* what is delivered of the new ones is a prefix of X *)
    assert (HXpre : exists Xr', X = Xd ++ Xr').
    { destruct HXd as [->|(x & X2 & -> & -> & _)]; [now exists Xr|].
      exists X2. rewrite HX, <- app_assoc. reflexivity. }
    destruct HXpre as (Xr' & HXd').
    pose proof (fspec_tags_len _ _ _ _ _ _ _ _ _ Hspec) as Htl.
    rewrite app_length, map_length in Htl.
    destruct (call_entries_atomic st G o tick st' out HI Hop Hbound Hstep Hno Xd Xr' HXd' tags Htl)
      as (qs' & Hrep & Hqi & Hndq & Hnil & Hcons).
    rewrite Hrep in Hopen.
    (* the resume point is in the range of the bound *)
    assert (Hpfhi : pf <= cursor_after 0 (ser (gh_ALL G ++ X)) + B).
    { rewrite EcurT'. assert (pf <= mb * B); [|(ca_lia using H Hmb2)]. apply Hup; (ca_lia using Hcj Ec0). }
    rewrite Eext in Hspec. rewrite Hopen.
    pose proof (fun m => finish_ok img lo' hi G X m w0 tags _ pf qs' pol hint Hlohi Hhimax Hbase'' Hdir
                           Htop Hspec Hndq) as Hfin.
    destruct Xd as [|x Xd''].
    - destruct (Hfin _ Hcb (Hnil eq_refl) Hpf1 Hpfhi) as (st_r & Ef & Eqr). exists st_r. now split; [|left].
    - destruct (Hfin _ Hcb' (Hcons ltac:(discriminate)) Hpf1 Hpfhi) as (st_r & Ef & Eqr).
      exists st_r. now split; [|right]. }
    assert (Hjfull : j = lenN NEW) by (apply Hnuj; discriminate).
  assert (Htk : takeN j NEW = NEW) by (apply takeN_all; (ca_lia using Hnuj)).
  rewrite Htk, ES' in Hstream, HlenS.
  rewrite lenN_app, lenN_zerosN, Ecur in HlenS.
  change (gh_T P G') with T' in Hc1', Hc2'.
  set (c0' := (wlo w' - base) * FB + wpos P w') in *.
  assert (Hb' : (lo' - base) * FB <= c0').
  { assert ((lo' - base) * FB <= (wlo w' - base) * FB) by (apply N.mul_le_mono_r; (ca_lia using Hlo'x)).
    unfold c0'. (ca_lia using H). }
  replace (hi - base + 1) with (hi + 1 - base) in HlenS by (ca_lia using Hbase Hlohi).
  pose proof (zeros_resume T' zz c0' _ HlenS Hc1' Hc2') as ES2.
  set (z' := (hi + 1 - base) * FB - c0') in *.
  rewrite ES2 in Hstream. rewrite <- Eext in Hstream.
  assert (HlenS2 : lenN (T' ++ zerosN (c0' - lenN T') ++ encs_of c0' (ser []) ++ zerosN z') =
                   (lo' + N.of_nat n - base + 1) * FB).
  { rewrite <- ES2, lenN_app, lenN_zerosN, Ecur. rewrite HlenS. f_equal. (ca_lia using Hbase Hlohi). }
  destruct (open_torn_complete P HBS_lo HBS_hi HNB Hcrc Hnc img lo' n Hlistx Hfilesx base Hbase''
              (gh_ALL G') [] T' c0' z' pol hint HIO HSHORT HWf' (Forall_nil _)
              (H3 encs_of_rel (ser (gh_ALL G')) 0) Hc1' Hc2' Hb' Hstream HlenS2)
    as (w0 & tags & E_pre & E_suf & pf & HE & Hpre & Hsuf & Hspec & Hpf1 & _ & _ & Hup & _ & Hopen).
  rewrite app_nil_r in Hspec, Hopen.
  (* what is skipped lies before E of the state after the call *)
  assert (Hklen : (length E_pre <= gh_k G')%nat).
  { pose proof HP' as (_ & _ & _ & _ & _ & _ & _ & _ & _ & HD2 & _). cbn zeta in HD2.
    rewrite Eb in HD2.
    assert (HallE : Forall (fun s => (lo' - base) * FB <= snd s)
                           (starts (cursor_after 0 (gh_ser_before G')) (gh_ser_E G'))).
    { apply (Forall2_right _ _ _ _ HD2). intros fe s0 (Hs0 & _).
      assert ((lo' - base) * FB <= (wlo w' - base) * FB) by (apply N.mul_le_mono_r; (ca_lia using Hlo'x)). (ca_lia using H Hs0). }
    pose proof (skipped_before_le _ _ _ _ HallE) as Hsk.
    rewrite <- gh_ser_split in Hsk. change (gh_ser G') with (ser (gh_ALL G')) in Hsk.
    rewrite <- Hpre in Hsk. unfold gh_ser_before in Hsk. rewrite !map_length in Hsk.
    now rewrite gh_before_length in Hsk. }
  pose proof (fspec_tags_len _ _ _ _ _ _ _ _ _ Hspec) as Htl.
  destruct (linv_suffix_equal _ _ G' E_pre E_suf HL' HE Hklen (combine tags E_suf)
              (map_snd_combine _ _ Htl)) as (qs' & Hrep & Hqi & Hndq & Heq).
  rewrite Hrep in Hopen.
  assert (Hpfhi : pf <= cursor_after 0 (ser (gh_ALL G ++ X)) + B).
  { rewrite EcurT'. assert (pf <= mb * B); [|(ca_lia using H Hmb2)].
    pose proof (H2 ffp_le_boundary (lenN T') mb Hmb1) as Hfb. apply Hup.
    - cbn [map ResyncProofs.encs_of]. rewrite (@lenN_nil byte), N.add_0_r. (ca_lia using Hfb Hc2').
    - (ca_lia using Hfb Hb' Hc2'). }
  rewrite Eext in Hspec. rewrite Hopen.
  destruct (finish_ok img lo' hi G X _ w0 tags _ pf qs' pol hint Hlohi Hhimax Hbase'' Hdir Htop
              Hspec Hndq Hcb' Heq) as (st_r & Ef & Eqr); [change (lenN T <= pf); (ca_lia using Hpf1 HTT')|exact Hpfhi|].
  exists st_r. now split; [|right].
Qed.

Lemma crash_bound_stream_bound G X m : crash_bound G X m -> stream_bound G X.
Proof using HBS_lo HBS_hi HNB Hcrc.
  intros Hb. unfold RestartWrite.stream_bound.
  pose proof (Hb (cursor_after 0 (ser (gh_ALL G ++ X))) [] (pos_extra_nil m)) as H.
  cbn [map] in H. rewrite (H2 cursor_after_nil) in H. apply H; [|(ca_lia using HBS_lo)].
  rewrite map_app, (H3 cursor_after_app). fold (gh_ser G). rewrite (HN cursor_after_0).
  fold (gh_T P G). apply (H3 cursor_after_ge).
Qed.

Definition crash_phys_bound (w : rwriter) (X : list entry) (m : smap) : Prop :=
  forall c extra, pos_extra m extra ->
    wabs P w <= c + 6 -> c <= cursor_after (wabs P w) (ser X) + B ->
    cursor_after c (ser extra) <= FB * (U64_MAX + 1).

Lemma ffp_lt7 x : ffp x <= x + 6.
Proof using HBS_lo HBS_hi HNB.
  unfold first_frame_pos. rewrite (lenN_pad_of P).
  destruct (N.ltb_spec (B - x mod B) 7); (ca_lia using H).
Qed.

Lemma crash_phys_bound_ghost w G X m : PInv w G -> crash_phys_bound w X m -> crash_bound G X m.
Proof using HBS_lo HBS_hi HNB Hcrc.
  intros (Hw & _ & _ & Hbase & Hc1 & Hc2 & _) Hb c extra Hx Hlo Hhi. cbn zeta in *.
  pose proof Hw as (Hok & _). destruct (wr_ok_len P (HN HB0) HNB w Hok) as (Hn & Hn1).
  set (c0 := (wlo w - gh_base G) * FB + wpos P w) in *.
  assert (Eabs : wabs P w = gh_base G * FB + c0).
  { unfold wabs, c0, wpos.
    replace (w_file w) with (gh_base G + ((wlo w - gh_base G) + (lenN (w_files w) - 1))) by (ca_lia using Hn1 Hn Hbase).
    (ca_lia using HBS_lo). }
  assert (Hsh : forall x es, cursor_after (gh_base G * FB + x) es = gh_base G * FB + cursor_after x es).
  { intros x es. apply (cursor_after_shift P HBS_lo HBS_hi HNB Hcrc). apply (HN mulFB_mod). }
  specialize (Hb (gh_base G * FB + c) extra Hx). rewrite Hsh, Eabs, Hsh in Hb.
  pose proof (ffp_lt7 (lenN (gh_T P G))) as H7.
  assert (HT' : cursor_after 0 (ser (gh_ALL G ++ X)) <= cursor_after c0 (ser X)).
  { rewrite map_app, (H3 cursor_after_app). fold (gh_ser G). rewrite (HN cursor_after_0).
    fold (gh_T P G). apply (cursor_after_between P HBS_lo HBS_hi HNB Hcrc); assumption. }
  (ca_lia using HT' H7 Hhi Hlo Hb Hc2).
Qed.

Lemma step_pol st o tick : s_pol (fst (step P st o tick)) = s_pol st.
Proof using Type.
  assert (Hpop : forall s t, s_pol (persist_on_policy s t) = s_pol s).
  { intros s t. unfold persist_on_policy.
    destruct (s_pol s) as [|f|f] eqn:E; [exact E|destruct t; exact E|exact E]. }
  destruct o as [q|q hint|q pos payloads|q p hint|fs]; cbn [step].
  - unfold create_queue. destruct (qs_contains (s_qs st) q); [reflexivity|].
    destruct (write_entry P st (EPosition q 0)) as [st1 [k|e]] eqn:E;
      apply write_entry_pol in E; cbn [fst set_qs s_pol persist set_wr]; exact E.
  - unfold delete_queue. destruct (qs_get (s_qs st) q) as [m|]; [|reflexivity].
    destruct (write_entry P st _) as [st1 [k|e]] eqn:E; apply write_entry_pol in E; [|exact E].
    destruct (run_gc_if_necessary P _ hint) as [st3 [k2|e]] eqn:Gc; apply run_gc_pol in Gc;
      cbn [fst set_qs s_pol persist set_wr] in *; congruence.
  - unfold append_records. destruct (qs_get (s_qs st) q) as [m|]; [|reflexivity].
    destruct (match pos with Some p => _ | None => None end) as [early|]; [reflexivity|].
    destruct (number_from _ payloads) as [|r0 rs]; [reflexivity|].
    destruct (write_entry P st _) as [st1 [k|e]] eqn:E; apply write_entry_pol in E; [|exact E].
    destruct (append_all m _ _) as [m'|]; cbn [fst set_qs s_pol]; rewrite Hpop; exact E.
  - unfold truncate. destruct (qs_get (s_qs st) q) as [m|]; [|reflexivity].
    destruct (write_entry P st _) as [st1 [k|e]] eqn:E; apply write_entry_pol in E; [|exact E].
    destruct (truncate_head m p) as [m' ev].
    destruct (run_gc_if_necessary P _ hint) as [st3 [k2|e]] eqn:Gc; apply run_gc_pol in Gc;
      cbn [fst set_qs s_pol] in *; [rewrite Hpop|]; congruence.
  - reflexivity.
Qed.

Lemma run_gc_pending st hint st' n :
  w_pending (s_wr st) = [] -> run_gc_if_necessary P st hint = (st', Ok n) ->
  w_pending (s_wr st') = [].
Proof using HGC.
  intros Hp. unfold run_gc_if_necessary. destruct (has_deletable st).
  2:{ intros H; inversion H; subst. exact Hp. }
  unfold record_empty_queues_position.
  destruct (record_positions P st _ 0) as [st1 [k|e]]; [|discriminate].
  rewrite HGC. cbn [andb].
  destruct (gc_loop _ _ _) as [[c files] [[]|e]]; intros H; [|discriminate].
  injection H as <- _. exact (persist_drained st1 true).
Qed.

Lemma open_pending fs pol hint st :
  open P fs None pol hint = OpenOk st -> w_pending (s_wr st) = [].
Proof using HGC.
  unfold open, open_with.
  destruct (rd_open P (ctx_init fs None)) as [c [rd|e]]; [|discriminate].
  destruct (replay_loop P _ _ _ []) as [rr [qs| |e|]]; try discriminate.
  destruct (run_gc_if_necessary P _ hint) as [st1 [k|e]] eqn:Gc; [|discriminate].
  intros H; injection H as <-. apply (run_gc_pending _ _ _ _ (fun x => x) Gc) || (eapply run_gc_pending; [|exact Gc]; reflexivity).
Qed.

Fixpoint always_hist (a : bool) (h : list hop) : Prop :=
  match h with
  | [] => True
  | HCall _ _ :: r => always_hist a r
  | HRestart pol _ :: r => pol = PAlways a /\ always_hist a r
  end.

Lemma hrun_always a h : forall st G st' outs,
  Inv st G -> hist_ok P st h -> always_hist a h ->
  s_pol st = PAlways a -> w_pending (s_wr st) = [] ->
  hrun P st h = Some (st', outs) ->
  s_pol st' = PAlways a /\ w_pending (s_wr st') = [].
Proof using HBS_lo HBS_hi HNB Hcrc HGC HIO.
  induction h as [|[o tick|pol hint] h IH]; intros st G st' outs HI Hok Hal Hpol Hp Hrun.
  - cbn [hrun] in Hrun. injection Hrun as <- _. auto.
  - cbn [hist_ok] in Hok. destruct Hok as (Hop & Hb & Hok). cbn [always_hist] in Hal.
    cbn [hrun] in Hrun.
    pose proof (phys_stream_bound P HBS_lo HBS_hi HNB Hcrc _ _ _ (proj1 HI) Hb) as Hsb.
    pose proof (step_no_io P HBS_lo HBS_hi HNB Hcrc HGC st G o tick HI Hop Hsb) as Hno.
    pose proof (step_pol st o tick) as Hpol1.
    destruct (step P st o tick) as [st1 out] eqn:Es. cbn [fst snd] in *.
    destruct (HG inv_step st G o tick st1 out HI Hop Hsb Es Hno) as (G1 & HI1 & _).
    destruct (HG step_call_trace st G a o tick st1 out HI Hp Hpol Hsb Es Hno)
      as (_ & _ & _ & _ & Hp1). cbn zeta in Hp1.
    destruct (hrun P st1 h) as [[st2 outs2]|] eqn:Er; [|discriminate]. injection Hrun as <- _.
    apply (IH st1 G1 st2 outs2 HI1 Hok Hal); [congruence|exact Hp1|exact Er].
  - cbn [hist_ok] in Hok. destruct Hok as (Hb & Hok). cbn [always_hist] in Hal.
    destruct Hal as (-> & Hal). cbn [hrun] in Hrun. unfold restart in *.
    destruct (inv_reopen P HBS_lo HBS_hi HNB Hcrc HGC HIO st G HI
                (restart_reopen_bound P HBS_lo HBS_hi HNB Hcrc st G HI Hb) (PAlways a) hint)
      as (st1 & G1 & Eo & HI1 & _ & _ & Epol1 & _).
    rewrite Eo in *.
    apply (IH st1 G1 st' outs HI1 Hok Hal Epol1 (open_pending _ _ _ _ Eo) Hrun).
Qed.

(* A crash during the call that follows any history of calls and clean restarts under the
   flush-per-operation policy: recovery succeeds and yields the specification state of the
   history, or that state after the call. *)
Theorem C02_history a st0 h st outs o tick st' out :
  open P [] None (PAlways a) [] = OpenOk st0 ->
  hrun P st0 h = Some (st, outs) -> hist_ok P st0 h -> always_hist a h ->
  op_wf_strict (s_qs st) o ->
  crash_phys_bound (s_wr st) (map snd (step_log P st o)) (abs_qs (s_qs st)) ->
  crash_phys_bound (s_wr st) (map snd (step_log P st o)) (abs_qs (s_qs st')) ->
  step P st o tick = (st', out) ->
  exists m_before souts m_after so evs,
    s_run [] (map sop_of (hcalls h)) = (m_before, souts) /\
    s_step m_before (sop_of o) = (m_after, so) /\ out_logical out = Some so /\
    c_ev (w_ctx (s_wr st')) = rev evs ++ c_ev (w_ctx (s_wr st)) /\
    forall cut k pol hint,
      let img := fold_left apply_event (crash_events evs cut k) (c_fs (w_ctx (s_wr st))) in
      exists st_r, open P img None pol hint = OpenOk st_r /\
        ((forall q, s_get (abs_qs (s_qs st_r)) q = s_get m_before q) \/
         (forall q, s_get (abs_qs (s_qs st_r)) q = s_get m_after q)).
Proof using HBS_lo HBS_hi HNB Hcrc HGC HIO HSHORT Hnc.
  intros Hopen Hrun Hok Hal Hop Hcb Hcb' Hstep.
  pose proof (inv_fresh P HBS_lo HBS_hi HNB (PAlways a) st0 Hopen) as HI0.
  destruct (hrun_inv P HBS_lo HBS_hi HNB Hcrc HGC HIO h st0 gh_fresh HI0 Hok)
    as (st1 & outs1 & G & Er & HI & _ & _ & Hspec).
  rewrite Hrun in Er. injection Er as <- <-.
  destruct (hrun_always a h st0 gh_fresh st outs HI0 Hok Hal
              (open_ok_pol P _ _ _ _ _ Hopen) (open_pending _ _ _ _ Hopen) Hrun) as (Hpol & Hp0).
  destruct (open_fresh P HBS_lo HBS_hi HNB (PAlways a)) as (c & _ & Eo). rewrite Eo in Hopen.
  injection Hopen as <-. cbn [s_qs abs_qs map] in Hspec.
  destruct (Hspec [] (fun q => eq_refl)) as (mb & souts & Erun & Hm & _).
  pose proof (crash_phys_bound_ghost _ G _ _ (proj1 HI) Hcb) as Hgb.
  pose proof (crash_phys_bound_ghost _ G _ _ (proj1 HI) Hcb') as Hgb'.
  pose proof (crash_bound_stream_bound _ _ _ Hgb) as Hsb.
  pose proof (step_no_io P HBS_lo HBS_hi HNB Hcrc HGC st G o tick HI Hop Hsb) as Hno.
  rewrite Hstep in Hno. cbn [snd] in Hno.
  pose proof (step_refines P st o tick (Inv_qs_inv P st G HI)) as Href.
  rewrite Hstep in Href. destruct Href as (_ & Href).
  destruct (no_io_logical out Hno) as (so & Eso). specialize (Href so Eso).
  destruct (s_step_ext mb (abs_qs (s_qs st)) (sop_of o) Hm) as (Hs1 & Hs2).
  rewrite Href in Hs1, Hs2. cbn [fst snd] in Hs1, Hs2.
  destruct (s_step mb (sop_of o)) as [ma so1] eqn:Em. cbn [fst snd] in Hs1, Hs2. subst so1.
  destruct (C02_crash_atomic st G a o tick st' out HI Hp0 Hpol Hop Hsb Hgb Hgb' Hstep Hno)
    as (evs & Hev & Hall).
  exists mb, souts, ma, so, evs. split; [exact Erun|]. split; [exact Em|]. split; [exact Eso|].
  split; [exact Hev|]. intros cut k pol hint. cbn zeta.
  destruct (Hall cut k pol hint) as (st_r & Ho & [Hb|Ha]); exists st_r; (split; [exact Ho|]).
  - left. intros q. now rewrite Hb, Hm.
  - right. intros q. now rewrite Ha, Hs2.
Qed.

End Atomic.

Print Assumptions call_entries_atomic.
Print Assumptions kinv_gc_ok.
Print Assumptions C02_crash_atomic.
Print Assumptions C02_history.

(* BS = 32, two blocks per file (files of 64 bytes), the real CRC-32.  A history with roll-overs
   and a restart under PAlways; then, for several next calls (a truncate whose GC writes two
   position entries and unlinks four files, an append that rolls over, a create, a delete), EVERY
   crash image - every cut between two file-system events of the call and every number of bytes
   of every write - is opened and compared with the abstract state before / after the call. *)
From MRL Require Tables.
Module CrashExample.
Import ListNotations.
Definition Pe : params := mkParams 32 2 Crc.crc32 0 false false false.
Definition qa : bytes := ["a"%byte].
Definition qb : bytes := ["b"%byte].
Definition pay (c : byte) : bytes := [c; c; c; c; c; c; c; c; c; c].

Definition h_ex : list hop :=
  [HCall (OCreate qa) false;
   HCall (OAppend qa None [pay "x"%byte; pay "y"%byte]) false;
   HCall (OAppend qa None [pay "z"%byte]) true;
   HCall (OCreate qb) false;
   HCall (OAppend qa (Some 5) [pay "u"%byte]) false;
   HRestart (PAlways true) [];
   HCall (OAppend qa None [pay "v"%byte]) false].

Definition st_dummy : state := mkSt (mkWr (ctx_init [] None) [] 0 0 []) [] PNothing.
Definition st0 : state :=
  Eval vm_compute in match open Pe [] None (PAlways true) [] with OpenOk s => s | _ => st_dummy end.
Definition st_ex : state :=
  Eval vm_compute in match hrun Pe st0 h_ex with Some (s, _) => s | None => st_dummy end.

Example st_ex_shape :
  hrun Pe st0 h_ex <> None /\
  w_files (s_wr st_ex) = [0; 1; 2; 3; 4] /\ w_off (s_wr st_ex) = 16 /\
  w_pending (s_wr st_ex) = [] /\ s_pol st_ex = PAlways true /\
  abs_qs (s_qs st_ex) =
    [(qa, ([(0, pay "x"%byte); (1, pay "y"%byte); (2, pay "z"%byte); (5, pay "u"%byte);
            (6, pay "v"%byte)], 7));
     (qb, ([], 0))].
Proof. vm_compute. repeat split; try reflexivity. discriminate. Qed.

(* extensional equality of abstract states, as a boolean *)
Definition rec_eqb (r1 r2 : N * bytes) : bool := (fst r1 =? fst r2) && bytes_eqb (snd r1) (snd r2).
Fixpoint list_eqb {A} (eqb : A -> A -> bool) (l1 l2 : list A) : bool :=
  match l1, l2 with
  | [], [] => true
  | x :: r, y :: r' => eqb x y && list_eqb eqb r r'
  | _, _ => false
  end.
Definition squeue_eqb (a b : option squeue) : bool :=
  match a, b with
  | None, None => true
  | Some (r1, n1), Some (r2, n2) => list_eqb rec_eqb r1 r2 && (n1 =? n2)
  | _, _ => false
  end.
Definition smap_ext_eqb (m1 m2 : smap) : bool :=
  forallb (fun kv => squeue_eqb (s_get m1 (fst kv)) (s_get m2 (fst kv))) (m1 ++ m2).

(* the events a call added, in chronological order *)
Definition new_events (st st' : state) : list event :=
  rev (firstn (length (c_ev (w_ctx (s_wr st'))) - length (c_ev (w_ctx (s_wr st))))
              (c_ev (w_ctx (s_wr st')))).

(* all crash points (cut, k): k = 0, or 1 <= k < length of the write at position cut *)
Fixpoint nrange (n : nat) : list N :=
  match n with O => [] | S n' => nrange n' ++ [N.of_nat n'] end.
Definition crash_points (evs : list event) : list (N * N) :=
  flat_map (fun cut =>
              (cut, 0) ::
              match dropN cut evs with
              | EvWrite _ _ d :: _ => map (fun k => (cut, k + 1)) (nrange (length d - 1))
              | _ => []
              end) (nrange (S (length evs))).

(* 0 = recovery failed or wrong state, 1 = state before the call, 2 = state after the call *)
Definition crash_verdict (st st' : state) (evs : list event) (pol : policy) (hint : list bytes)
           (ck : N * N) : N :=
  let img := fold_left apply_event (crash_events evs (fst ck) (snd ck)) (c_fs (w_ctx (s_wr st))) in
  match open Pe img None pol hint with
  | OpenOk st_r =>
      if smap_ext_eqb (abs_qs (s_qs st_r)) (abs_qs (s_qs st)) then 1
      else if smap_ext_eqb (abs_qs (s_qs st_r)) (abs_qs (s_qs st')) then 2 else 0
  | _ => 0
  end.

(* (number of crash images, those recovering the state before, those recovering the state
   after, failures) *)
Definition crash_census (st : state) (o : op) (pol : policy) (hint : list bytes) : N * N * N * N :=
  let '(st', _) := step Pe st o false in
  let evs := new_events st st' in
  let vs := map (crash_verdict st st' evs pol hint) (crash_points evs) in
  (lenN vs, lenN (filter (N.eqb 1) vs), lenN (filter (N.eqb 2) vs), lenN (filter (N.eqb 0) vs)).

Definition unlinked (st : state) (o : op) : list bytes :=
  let '(st', _) := step Pe st o false in
  flat_map (fun e => match e with EvUnlink n => [n] | _ => [] end) (new_events st st').

Definition unlinked_numbers (st : state) (o : op) : list (option N) :=
  map filename_to_position (unlinked st o).

Definition five_w : list bytes :=
  [pay "w"%byte; pay "w"%byte; pay "w"%byte; pay "w"%byte; pay "w"%byte].

(* The crash images of a call are far fewer than its crash points (flushes, syncs and reads leave
   the directory as it is): a census is evaluated from the distinct images `reps`, the index `ix`
   of each crash point's image among them, and what open finds in each distinct image. *)
Definition image_at (st : state) (evs : list event) (ck : N * N) : fsT :=
  fold_left apply_event (crash_events evs (fst ck) (snd ck)) (c_fs (w_ctx (s_wr st))).
Definition images_of (st : state) (o : op) : list fsT :=
  let evs := new_events st (fst (step Pe st o false)) in map (image_at st evs) (crash_points evs).
Definition abs_open (pol : policy) (hint : list bytes) (img : fsT) : option smap :=
  match open Pe img None pol hint with OpenOk s => Some (abs_qs (s_qs s)) | _ => None end.
Definition verdict_of (st st' : state) (r : option smap) : N :=
  match r with
  | Some m => if smap_ext_eqb m (abs_qs (s_qs st)) then 1
              else if smap_ext_eqb m (abs_qs (s_qs st')) then 2 else 0
  | None => 0
  end.
Definition census_of (vs : list N) : N * N * N * N :=
  (lenN vs, lenN (filter (N.eqb 1) vs), lenN (filter (N.eqb 2) vs), lenN (filter (N.eqb 0) vs)).

Lemma crash_census_tab st o pol hint (reps : list fsT) ix looked r :
  reps <> [] ->
  images_of st o = map (Tables.pick reps (@hd fsT [] reps)) ix ->
  map (abs_open pol hint) reps = looked ->
  census_of (map (verdict_of st (fst (step Pe st o false))) (map (Tables.pick looked (hd None looked)) ix)) = r ->
  crash_census st o pol hint = r.
Proof.
  unfold crash_census, images_of. destruct (step Pe st o false) as [st' out]. cbn [fst]. cbv zeta.
  intros Hne Hix Hl <-.
  rewrite (map_ext _ (fun ck => verdict_of st st' (abs_open pol hint (image_at st (new_events st st') ck)))).
  2:{ intros ck. unfold crash_verdict, verdict_of, abs_open, image_at.
      destruct (open Pe _ None pol hint); reflexivity. }
  rewrite <- (map_map (image_at st _) (fun i => verdict_of st st' (abs_open pol hint i))), Hix.
  rewrite <- (map_map (abs_open pol hint) (verdict_of st st')).
  rewrite (Tables.map_pick_tab (abs_open pol hint) (fun x => x) reps [] looked None ix Hne)
    by now rewrite map_id.
  rewrite map_id. reflexivity.
Qed.

(* the censuses under (PAlways true, []): 203 distinct images among 377 crash points *)
Definition reps_ex : list fsT :=
  Eval vm_compute in
    Tables.distinct Tables.fs_key Tables.fs_eqb
      (flat_map (images_of st_ex)
         [OTruncate qa 6 [qb]; OAppend qb None five_w; OCreate ["c"%byte]; ODelete qa [qb]; ODelete qb []]).
Definition ix_ex (o : op) : list N :=
  Tables.indices Tables.fs_key Tables.fs_eqb (Tables.keyed Tables.fs_key reps_ex) (images_of st_ex o).
Definition ix_trunc6 : list N := Eval vm_compute in ix_ex (OTruncate qa 6 [qb]).
Definition ix_append : list N := Eval vm_compute in ix_ex (OAppend qb None five_w).
Definition ix_create : list N := Eval vm_compute in ix_ex (OCreate ["c"%byte]).
Definition ix_delete_a : list N := Eval vm_compute in ix_ex (ODelete qa [qb]).
Definition ix_delete_b : list N := Eval vm_compute in ix_ex (ODelete qb []).
Definition looked_ex : list (option smap) := Eval vm_compute in map (abs_open (PAlways true) []) reps_ex.
Lemma looked_ex_ok : map (abs_open (PAlways true) []) reps_ex = looked_ex.
Proof. Tables.vm_eq. Qed.

(* the two censuses under another policy: their own images *)
Definition reps_trunc6 : list fsT :=
  Eval vm_compute in Tables.distinct Tables.fs_key Tables.fs_eqb (images_of st_ex (OTruncate qa 6 [qb])).
Definition ix_trunc6n : list N :=
  Eval vm_compute in Tables.indices Tables.fs_key Tables.fs_eqb (Tables.keyed Tables.fs_key reps_trunc6)
                       (images_of st_ex (OTruncate qa 6 [qb])).
Definition looked_trunc6n : list (option smap) := Eval vm_compute in map (abs_open PNothing [qb; qa]) reps_trunc6.
Lemma looked_trunc6n_ok : map (abs_open PNothing [qb; qa]) reps_trunc6 = looked_trunc6n.
Proof. Tables.vm_eq. Qed.
Definition reps_trunc2 : list fsT :=
  Eval vm_compute in Tables.distinct Tables.fs_key Tables.fs_eqb (images_of st_ex (OTruncate qa 2 [])).
Definition ix_trunc2 : list N :=
  Eval vm_compute in Tables.indices Tables.fs_key Tables.fs_eqb (Tables.keyed Tables.fs_key reps_trunc2)
                       (images_of st_ex (OTruncate qa 2 [])).
Definition looked_trunc2 : list (option smap) := Eval vm_compute in map (abs_open (PAlways false) []) reps_trunc2.
Lemma looked_trunc2_ok : map (abs_open (PAlways false) []) reps_trunc2 = looked_trunc2.
Proof. Tables.vm_eq. Qed.

(* (images, recovered = before, recovered = after, failures) *)
Example crash_census_ex :
  (* a truncate that empties qa: the GC records the positions of both (now empty) queues, then
     unlinks files 0-3: 83 crash images *)
  crash_census st_ex (OTruncate qa 6 [qb]) (PAlways true) [] = (83, 26, 57, 0) /\
  unlinked_numbers st_ex (OTruncate qa 6 [qb]) = [Some 0; Some 1; Some 2; Some 3] /\
  (* the same images, opened with another policy and GC hint *)
  crash_census st_ex (OTruncate qa 6 [qb]) PNothing [qb; qa] = (83, 26, 57, 0) /\
  (* a truncate that keeps records: files 0-1 are unlinked *)
  crash_census st_ex (OTruncate qa 2 []) (PAlways false) [] = (54, 26, 28, 0) /\
  unlinked_numbers st_ex (OTruncate qa 2 []) = [Some 0; Some 1] /\
  (* an append of 5 records that rolls over twice (files 5 and 6 are created): 178 images,
     only the last 4 (all bytes written) contain the call *)
  crash_census st_ex (OAppend qb None five_w) (PAlways true) [] = (178, 174, 4, 0) /\
  (let '(st', _) := step Pe st_ex (OAppend qb None five_w) false in
   w_files (s_wr st') = [0; 1; 2; 3; 4; 5; 6]) /\
  crash_census st_ex (OCreate ["c"%byte]) (PAlways true) [] = (30, 26, 4, 0) /\
  crash_census st_ex (ODelete qa [qb]) (PAlways true) [] = (56, 26, 30, 0) /\
  unlinked_numbers st_ex (ODelete qa [qb]) = [Some 0; Some 1; Some 2; Some 3] /\
  crash_census st_ex (ODelete qb []) (PAlways true) [] = (30, 26, 4, 0).
Proof.
  assert (Hex : forall o ix r,
             images_of st_ex o = map (Tables.pick reps_ex (@hd fsT [] reps_ex)) ix ->
             census_of (map (verdict_of st_ex (fst (step Pe st_ex o false)))
                            (map (Tables.pick looked_ex (hd None looked_ex)) ix)) = r ->
             crash_census st_ex o (PAlways true) [] = r).
  { intros o ix r Hix. now apply (crash_census_tab _ _ _ _ reps_ex ix looked_ex); [|exact Hix|exact looked_ex_ok]. }
  split; [apply (Hex _ ix_trunc6); [Tables.vm_eq|vm_compute; reflexivity]|].
  split; [vm_compute; reflexivity|].
  split; [apply (crash_census_tab _ _ _ _ reps_trunc6 ix_trunc6n looked_trunc6n);
          [discriminate|Tables.vm_eq|exact looked_trunc6n_ok|vm_compute; reflexivity]|].
  split; [apply (crash_census_tab _ _ _ _ reps_trunc2 ix_trunc2 looked_trunc2);
          [discriminate|Tables.vm_eq|exact looked_trunc2_ok|vm_compute; reflexivity]|].
  split; [vm_compute; reflexivity|].
  split; [apply (Hex _ ix_append); [Tables.vm_eq|vm_compute; reflexivity]|].
  split; [vm_compute; reflexivity|].
  split; [apply (Hex _ ix_create); [Tables.vm_eq|vm_compute; reflexivity]|].
  split; [apply (Hex _ ix_delete_a); [Tables.vm_eq|vm_compute; reflexivity]|].
  split; [vm_compute; reflexivity|].
  apply (Hex _ ix_delete_b); [Tables.vm_eq|vm_compute; reflexivity].
Qed.
End CrashExample.
