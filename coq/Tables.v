(* Tables.v — censuses over many crash images without opening an image twice.
   A list with repetitions is written as indices (`pick`) into the list of its distinct values;
   a function is tabulated on the distinct values by the VM, the table is checked against the
   function once, and every census is read from the table: points with equal images share one
   evaluation.  Nothing is proved about how a table was made; what is proved is that it is right. *)
From Coq Require Import NArith List.
From MRL Require Import Bytes Rolling.
Import ListNotations.

(* A table equality `a = b` has hundreds of directories or states on both sides.  `vm_compute.
   reflexivity.` reads both normal forms back as terms and leaves one in the proof; under the cast
   the VM compares them as values.  The proof term is eq_refl under a checked VM cast either way. *)
Ltac vm_eq := match goal with |- ?a = ?b => exact (eq_refl b <: a = b) end.

Lemma forallb_map {A B} (f : A -> B) (g : B -> bool) l : forallb g (map f l) = forallb (fun x => g (f x)) l.
Proof. induction l as [|x l IH]; [reflexivity|]. cbn [map forallb]. now rewrite IH. Qed.

Lemma fold_right_map {A B C} (f : A -> B) (g : B -> C -> C) z l :
  fold_right (fun x acc => g (f x) acc) z l = fold_right g z (map f l).
Proof. induction l as [|x l IH]; [reflexivity|]. cbn [fold_right map]. now rewrite IH. Qed.

Definition pick {A} (l : list A) (d : A) (i : N) : A := nth (N.to_nat i) l d.

Lemma pick_map {A B} (f : A -> B) l d i : f (pick l d i) = pick (map f l) (f d) i.
Proof. unfold pick. symmetry. apply map_nth. Qed.

Lemma map_pick {A B} (f : A -> B) l d ix : map f (map (pick l d) ix) = map (pick (map f l) (f d)) ix.
Proof. rewrite map_map. apply map_ext. intros i. apply pick_map. Qed.

(* with the head as default no side condition on a default value is needed *)
Lemma map_pick_tab {A B T} (f : A -> B) (g : T -> B) reps d tab dt ix :
  reps <> [] -> map f reps = map g tab ->
  map f (map (pick reps (hd d reps)) ix) = map g (map (pick tab (hd dt tab)) ix).
Proof.
  intros Hne H. rewrite !map_pick. destruct reps as [|r reps]; [easy|]. destruct tab as [|t tab]; [discriminate|].
  cbn [hd map] in *. now injection H as -> ->.
Qed.

(* A census over two levels of crash points.  A row is what a first-level point contributes: a
   context c and the images of its second-level points; a verdict is J of c and of what `look`
   finds in an image.  With the images given as indices into their distinct values `reps`, and
   `look` tabulated on `reps`, no image is looked into twice. *)
Section Rows.
Context {I C O V : Type} (look : I -> O) (J : C -> O -> V) (dflt : list V).
Definition judge_all (r : option (C * list I)) : list V :=
  match r with Some (c, imgs) => map (fun i => J c (look i)) imgs | None => dflt end.

Variables (reps : list I) (d : I) (vals : list O) (dv : O).
Hypothesis Hvals : map look reps = vals.
Hypothesis Hd : look d = dv.
Definition unfold_ix (r : option (C * list N)) : option (C * list I) :=
  match r with Some (c, ix) => Some (c, map (pick reps d) ix) | None => None end.
Definition judge_ix (r : option (C * list N)) : list V :=
  match r with Some (c, ix) => map (fun i => J c (pick vals dv i)) ix | None => dflt end.

Lemma judge_unfold_ix r : judge_all (unfold_ix r) = judge_ix r.
Proof.
  destruct r as [[c ix]|]; [|reflexivity]. cbn [unfold_ix judge_all judge_ix].
  rewrite map_map. apply map_ext. intros i. now rewrite pick_map, Hvals, Hd.
Qed.

Lemma rows_ix {X} (row : X -> option (C * list I)) pts tab :
  map row pts = map unfold_ix tab ->
  flat_map (fun x => judge_all (row x)) pts = flat_map judge_ix tab.
Proof.
  intros H. rewrite flat_map_concat_map, <- (map_map row judge_all), H, map_map, <- flat_map_concat_map.
  apply flat_map_ext, judge_unfold_ix.
Qed.
End Rows.

(* Table building: the distinct elements of a list and the position of an element among them,
   comparing a numeric key before the elements themselves. *)
Section Keyed.
Context {A : Type} (key : A -> N) (eqb : A -> A -> bool).
Definition keqb (x y : N * A) : bool := if fst x =? fst y then eqb (snd x) (snd y) else false.
Fixpoint kindex (x : N * A) (l : list (N * A)) : N :=
  match l with [] => 0 | y :: r => if keqb x y then 0 else N.succ (kindex x r) end.
Definition distinct (l : list A) : list A :=
  map snd (fold_left (fun acc x => let kx := (key x, x) in if existsb (keqb kx) acc then acc else acc ++ [kx]) l []).
Definition keyed (l : list A) : list (N * A) := map (fun x => (key x, x)) l.
Definition indices (kreps : list (N * A)) (l : list A) : list N := map (fun x => kindex (key x, x) kreps) l.
End Keyed.

Fixpoint all2 {A} (eqb : A -> A -> bool) (l1 l2 : list A) : bool :=
  match l1, l2 with
  | [], [] => true
  | x :: r, y :: r' => if eqb x y then all2 eqb r r' else false
  | _, _ => false
  end.
Definition bytes_key (h : N) (b : bytes) : N := fold_left (fun h x => N.land (h * 33 + b2n x) 4294967295) b h.

(* directories as table entries *)
Definition fentry_eqb (a b : fentry) : bool :=
  match a, b with FFile x, FFile y => bytes_eqb x y | FDir, FDir | FOther, FOther => true | _, _ => false end.
Definition fs_eqb : fsT -> fsT -> bool :=
  all2 (fun x y => if bytes_eqb (fst x) (fst y) then fentry_eqb (snd x) (snd y) else false).
Definition fs_key (fs : fsT) : N :=
  fold_left (fun h x => match snd x with FFile b => bytes_key (bytes_key h (fst x)) b | _ => bytes_key h (fst x) end) fs 0.
