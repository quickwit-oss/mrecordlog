(* VacAt3.v — vacuity audit of CrashAt3.v (the gap left by VacAt2.v).  Same instance as VacAt.v / VacAt2.v
   (P_sat 32 2; entry spanning file 0 and file 1).  The premises of jstate_crash_at3 are
   satisfiable at the gap points (2,0)..(5,0): the 45 data bytes written so far fill file 0
   exactly to its end (19 + 45 = 64) and file 1 does not exist yet; the theorem is applied there
   and at all the points of VacAt2.  Together with VacAt.point_ok_r this covers every crash point
   of this call except (1,k), 1 <= k <= 31 (cut strictly inside the last block of file 0).
   Second instance (o_l: append qa [5 bytes], the call ENDS in the last block of file 0, offset
   62 of 64): the theorem is applied at the crash points (2,0)..(5,0) after all the data
   (flush / sync tail), by the all-data disjunct of crash_point_ok3. *)
From Coq Require Import Lia ZArith ZifyN ZifyNat ZifyBool List.
From MRL Require Import Bytes BytesProofs Params Names Frame Record Mem Spec Rolling Log Driver Hist
  WriterProofs SpecRefine RecordProofs StreamProofs ResyncProofs GhostLog ReplaySpec TornProofs
  RestartInv RestartWrite RestartStep OpenReplay RestartFinal CrashTrace CrashAtomic NzcVacuous
  PolicyProofs VacBase VacCrash CrashRecovered CrashRecovered2 CrashHistories JRecover4 CrashAt VacRecovered
  VacAt JRecover5 CrashAt2 VacAt2 CrashAt3.
Import ListNotations.
Import CrashAtomic.CrashExample.

Definition pts3 : list (N * N) := [(2,0); (3,0); (4,0); (5,0)].

Example pts3_shape :
  map (fun ck => let pe := crash_events evs_r (fst ck) (snd ck) in
                 let img := fold_left apply_event pe (c_fs (w_ctx (s_wr w1s))) in
                 (w_off (s_wr w1s) + lenN (ev_data pe), lenN (PolicyProofs.fcontent img 0),
                  fs_get img (filename 1)))
      pts3 = [(64, 64, None); (64, 64, None); (64, 64, None); (64, 64, None)].
Proof. vm_compute. reflexivity. Qed.

Lemma point_ok3_r ck : In ck (pts3 ++ pts2) -> crash_point_ok3 Pw w1s evs_r (crash_events evs_r (fst ck) (snd ck)).
Proof.
  intros Hin. apply in_app_or in Hin. destruct Hin as [Hin|Hin].
  - unfold pts3 in Hin. cbn [In] in Hin.
    repeat (destruct Hin as [<-|Hin];
            [apply (crash_point_ok3_of_file_end Pw Pw_BS_lo Pw_BS_hi Pw_NB w1s evs_r _ 0);
               [le_tac | vm_compute; discriminate | vm_compute; reflexivity]|]).
    contradiction.
  - apply crash_point_ok_23. exact (point_ok2_r ck Hin).
Qed.

Theorem jstate_crash_at3_inst :
  forall ck pol hint, In ck (pts3 ++ pts2) -> exists st_r,
    open Pw (fold_left apply_event (crash_events evs_r (fst ck) (snd ck)) (c_fs (w_ctx (s_wr w1s)))) None pol hint
      = OpenOk st_r /\ jstate Pw st_r /\
    ((forall q, s_get (abs_qs (s_qs st_r)) q = s_get (abs_qs (s_qs w1s)) q) \/
     (forall q, s_get (abs_qs (s_qs st_r)) q = s_get (abs_qs (s_qs w2s)) q)).
Proof.
  intros ck pol hint Hin.
  destruct (jstate_crash_at3 Pw Pw_BS_lo Pw_BS_hi Pw_NB Pw_crc eq_refl eq_refl eq_refl Pw_nzc
              w1s true o_r false w2s out_r jstate_w1 call_ok0_r) as (_ & evs & Hev & Hall).
  rewrite (new_evs_unique _ _ _ _ evs_r_eq Hev) in Hall.
  destruct (Hall (fst ck) (snd ck) pol hint (point_ok3_r ck Hin)) as (st_r & Ho & Hj & _ & _ & Ha).
  exists st_r. auto.
Qed.

(* a call that ends in the last block of its file; crash in its flush/sync tail *)
Definition o_l : op := OAppend qa None [["x"%byte; "x"%byte; "x"%byte; "x"%byte; "x"%byte]].
Definition w2l : state := Eval vm_compute in fst (step Pw w1s o_l false).
Definition out_l : outcome := Eval vm_compute in snd (step Pw w1s o_l false).
Lemma step_l : step Pw w1s o_l false = (w2l, out_l). Proof. vm_compute. reflexivity. Qed.
Definition evs_l : list event := Eval vm_compute in new_events w1s w2l.
Lemma evs_l_eq : c_ev (w_ctx (s_wr w2l)) = rev evs_l ++ c_ev (w_ctx (s_wr w1s)).
Proof. vm_compute. reflexivity. Qed.

Example last_block_shape :
  w_files (s_wr w2l) = [0] /\ w_off (s_wr w2l) = 62 /\ lenN evs_l = 5 /\ lenN (ev_data evs_l) = 43 /\
  map (fun c => lenN (ev_data (crash_events evs_l c 0))) [2; 3; 4; 5] = [43; 43; 43; 43].
Proof. vm_compute. repeat split; reflexivity. Qed.

Lemma call_ok0_l : crash_call_ok0 Pw w1s true o_l false w2l out_l.
Proof.
  split; [reflexivity|]. split; [reflexivity|]. split; [unfold o_l; wf_tac|].
  split; [apply (crash_phys_bound_by Pw Pw_BS_lo Pw_BS_hi Pw_NB Pw_crc 64); [vm_compute; reflexivity|le_tac]|].
  split; [apply (crash_phys_bound_by Pw Pw_BS_lo Pw_BS_hi Pw_NB Pw_crc 64); [vm_compute; reflexivity|le_tac]|].
  exact step_l.
Qed.

Theorem jstate_crash_at3_inst_tail :
  forall c pol hint, In c [2; 3; 4; 5] -> exists st_r,
    open Pw (fold_left apply_event (crash_events evs_l c 0) (c_fs (w_ctx (s_wr w1s)))) None pol hint
      = OpenOk st_r /\ jstate Pw st_r /\
    ((forall q, s_get (abs_qs (s_qs st_r)) q = s_get (abs_qs (s_qs w1s)) q) \/
     (forall q, s_get (abs_qs (s_qs st_r)) q = s_get (abs_qs (s_qs w2l)) q)).
Proof.
  intros c pol hint Hin.
  destruct (jstate_crash_at3 Pw Pw_BS_lo Pw_BS_hi Pw_NB Pw_crc eq_refl eq_refl eq_refl Pw_nzc
              w1s true o_l false w2l out_l jstate_w1 call_ok0_l) as (_ & evs & Hev & Hall).
  rewrite (new_evs_unique _ _ _ _ evs_l_eq Hev) in Hall.
  assert (Hpt : crash_point_ok3 Pw w1s evs_l (crash_events evs_l c 0)).
  { apply crash_point_ok3_all_data. cbn [In] in Hin.
    destruct Hin as [<-|[<-|[<-|[<-|[]]]]]; vm_compute; reflexivity. }
  destruct (Hall c 0 pol hint Hpt) as (st_r & Ho & Hj & _ & _ & Ha).
  exists st_r. auto.
Qed.

Print Assumptions jstate_crash_at3_inst.
Print Assumptions jstate_crash_at3_inst_tail.
