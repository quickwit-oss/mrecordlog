(* DamageAtomic.v — property C09, end to end: "frame damage costs only the entry it hits".

   After a clean drop of a state st that satisfies the restart invariant (any state reached by a
   hist_ok history from a fresh directory), let ONE frame of ONE entry X whose first frame lies
   in the kept files be damaged in place (checksum and / or payload bytes changed so that the
   CRC check fails; length field and type byte intact: DamageProofs.enc_dmg).  Then `open`
   succeeds, and every record retained in st that was not appended by X is retained in the
   recovered state, in the same queue, with the same position and the same payload bytes.

   Ingredients: the replay of a SUFFIX of a legal log with one entry removed, against the replay
   of the full log (ReplaySpec.sim combined with DeletionSim.del); the damaged directory has the
   same names, kinds and lengths (same_shape); the recovery-time GC on the state open builds
   does not fail (a physical invariant of the writer that does not mention the content of the
   written bytes).  The theorem is C09_damage_tagged, its reading without tags
   C09_damage_costs_one_entry, the corollary for histories from a fresh directory
   C09_from_fresh.  The setting is inhabited: for every state under the invariant and every
   kept entry there is such a damaged directory (damaged_dir_exists).  A concrete instance with
   the real CRC-32 is checked exhaustively over every frame of the dropped directory
   (Example.C09_all_frames, Example.C09_losses). *)
From Coq Require Import Lia ZArith ZifyN ZifyNat ZifyBool List Sorted.
From MRL Require Import Bytes BytesProofs Params Names NamesProofs Frame Record Mem Spec Rolling Log
  Driver Hist NoopProofs SpecRefine RecordProofs StreamProofs PolicyProofs GcProofs GhostLog ReplaySpec
  HandleProofs FileStream ResyncProofs QueueIso RestartInv RestartWrite RestartGc RestartStep
  OpenReplay PersistGc RestartFinal DeletionSim DamageProofs DamageFile Crc.
Import ListNotations.

(* two files define a `sublist`; here it is always DeletionSim's *)
Local Notation sublist := DeletionSim.sublist.

(* the records appended by the suffix that starts at index k, except by entry x *)
Definition keep (k x : nat) (r : trec) : bool := from_suffix k r && not_x x r.

Lemma filter_keep k x l : filter (keep k x) l = filter (from_suffix k) (filter (not_x x) l).
Proof.
  induction l as [|r l IH]; cbn [filter]; [reflexivity|]. unfold keep at 1.
  destruct (not_x x r); cbn [filter].
  - rewrite andb_true_r. destruct (from_suffix k r); now rewrite IH.
  - rewrite andb_false_r. exact IH.
Qed.

Lemma keep_tag_with k x i new :
  (k <= i)%nat -> i <> x -> filter (keep k x) (tag_with i new) = tag_with i new.
Proof.
  intros Hk Hx. rewrite filter_keep, (filter_not_x_tag_with x i new Hx).
  now apply filter_from_suffix_tag_with.
Qed.

Lemma sublist_nil_r {A} (l : list A) : sublist l [] -> l = [].
Proof. intros H. inversion H. reflexivity. Qed.

Lemma gdel_q_compose k x f2 f1 s1 :
  gdel_q (not_x x) f2 f1 -> sim_q k f1 s1 -> gdel_q (keep k x) f2 s1.
Proof.
  intros Hd Hs. destruct f2 as [[rf2 n2]|]; [|exact I]. cbn [gdel_q] in *.
  rewrite filter_keep.
  destruct f1 as [[rf1 n1]|].
  - destruct Hd as (Hsub & Hn).
    pose proof (sublist_filter_mono (from_suffix k) _ _ Hsub) as Hsub'.
    destruct s1 as [[rs ns]|]; cbn [sim_q] in Hs.
    + destruct Hs as (rf & E & ->). inversion E; subst rf ns. split; [exact Hsub'|exact Hn].
    + rewrite (Hs rf1 n1 eq_refl) in Hsub'. now apply sublist_nil_r.
  - rewrite Hd. cbn [filter].
    destruct s1 as [[rs ns]|]; cbn [sim_q] in Hs; [|reflexivity].
    destruct Hs as (rf & E & _). discriminate.
Qed.

Lemma legal_log_prefix : forall a b m i, legal_log m i (a ++ b) -> legal_log m i a.
Proof.
  induction a as [|e a IH]; intros b m i H; [apply ll_nil|]. cbn [app] in H.
  destruct (legal_log_cons_inv _ _ _ _ H) as (He & m1 & E1 & Hr).
  apply ll_cons; [exact He|]. intros m' E'. rewrite E1 in E'. inversion E'; subst m'.
  eapply IH. exact Hr.
Qed.

(* the replay of E1s ++ E2 from nothing, with the tags of the full log pre ++ E1s ++ x :: E2 *)
Definition t_replay_dmg (k : nat) (E1s E2 : list entry) : option tmap :=
  match t_replay [] k E1s with
  | Some m => t_replay m (S (k + length E1s)) E2
  | None => None
  end.

Theorem damaged_suffix_replay (pre E1s E2 : list entry) (x : entry) :
  legal_log [] 0 (pre ++ E1s ++ x :: E2) ->
  exists F Dd,
    t_replay [] 0 (pre ++ E1s ++ x :: E2) = Some F /\
    t_replay_dmg (length pre) E1s E2 = Some Dd /\
    gdel (keep (length pre) (length pre + length E1s)) F Dd.
Proof.
  intros Hleg. set (k := length pre). set (ix := (k + length E1s)%nat).
  destruct (legal_log_app _ _ _ _ Hleg) as (F0 & HF0 & Hl0). cbn [Nat.add] in Hl0. fold k in Hl0.
  pose proof (t_replay_wf pre 0 [] F0 (wf_tmap_nil 0) HF0) as Hw0. cbn [Nat.add] in Hw0. fold k in Hw0.
  destruct (sim_lockstep k E1s k F0 [] (sim_init _ _ Hw0) Hw0 (le_n _) (legal_log_prefix _ _ _ _ Hl0))
    as (F1 & S1 & HF1 & HS1 & Hsim).
  destruct (legal_log_app _ _ _ _ Hl0) as (F1' & HF1' & Hl1). rewrite HF1 in HF1'.
  inversion HF1'; subst F1'. clear HF1'. fold ix in Hl1.
  pose proof (t_replay_wf E1s k F0 F1 Hw0 HF1) as Hw1. fold ix in Hw1.
  destruct (legal_log_cons_inv _ _ _ _ Hl1) as (Hlx & F2 & HF2 & Hl2).
  pose proof (del_init ix F1 x F2 Hlx HF2) as Hd.
  assert (Hg : gdel (keep k ix) F2 S1).
  { intros q. exact (gdel_q_compose k ix _ _ _ (Hd q) (Hsim q)). }
  pose proof (t_apply_wf ix F1 x F2 Hw1 HF2) as Hw2.
  destruct (gdel_lockstep (keep k ix) E2 (S ix) F2 S1 Hg Hw2) as (F & Dd & HF & HD & Hgd).
  { intros j new Hj. apply keep_tag_with; unfold ix in *; lia. }
  { exact Hl2. }
  exists F, Dd. split; [|split; [|exact Hgd]].
  - rewrite t_replay_app, HF0. cbn [Nat.add]. fold k. rewrite t_replay_app, HF1. fold ix.
    cbn [t_replay]. rewrite HF2. exact HF.
  - unfold t_replay_dmg. fold k. rewrite HS1. exact HD.
Qed.

Lemma t_replay_named q : forall es i m m',
  t_replay m i es = Some m' -> t_get m' q <> None ->
  t_get m q <> None \/ In q (map entry_queue es).
Proof.
  induction es as [|e es IH]; intros i m m' H Hq; cbn [t_replay map In] in *.
  - inversion H; subst. now left.
  - destruct (t_apply m i e) as [m1|] eqn:E1; [|discriminate].
    destruct (IH _ _ _ H Hq) as [H1|H1]; [|right; now right].
    destruct (t_apply_get _ _ _ _ q E1) as [(Eq & _)|(_ & Eo)]; [right; now left|].
    rewrite Eo in H1. now left.
Qed.

Lemma t_replay_dmg_named k E1s E2 Dd q :
  t_replay_dmg k E1s E2 = Some Dd -> t_get Dd q <> None -> In q (map entry_queue (E1s ++ E2)).
Proof.
  unfold t_replay_dmg. intros H Hq. destruct (t_replay [] k E1s) as [m|] eqn:E1; [|discriminate].
  rewrite map_app. apply in_or_app.
  destruct (t_replay_named q _ _ _ _ H Hq) as [H1|H1]; [|now right].
  destruct (t_replay_named q _ _ _ _ E1 H1) as [H2|H2]; [now elim H2|now left].
Qed.

Lemma replay_dmg_refines k (f1 f2 : list (N * entry)) Dd :
  t_replay_dmg k (map snd f1) (map snd f2) = Some Dd ->
  exists qD, replay_entries [] (f1 ++ f2) = Some qD /\ untag Dd = abs_qs qD /\ qs_inv qD.
Proof.
  unfold t_replay_dmg. intros H.
  destruct (t_replay [] k (map snd f1)) as [M|] eqn:HM; [|discriminate].
  rewrite replay_app, <- apply_entries_replay_entries.
  pose proof (apply_entries_refines f1 [] k [] qs_inv_nil eq_refl) as H1.
  destruct (apply_entries [] f1) as [qA|].
  - destruct H1 as (tm & E & Hu & Hi). rewrite HM in E. inversion E; subst tm.
    cbn [obind]. rewrite <- apply_entries_replay_entries.
    pose proof (apply_entries_refines f2 qA (S (k + length (map snd f1))) M Hi Hu) as H2.
    destruct (apply_entries qA f2) as [qD|].
    + destruct H2 as (tm & E2 & Hu2 & Hi2). rewrite H in E2. inversion E2; subst tm.
      exists qD. split; [reflexivity|]. split; assumption.
    + congruence.
  - congruence.
Qed.

(* The model's replay (open's replay loop) of the kept suffix E1s ++ x :: E2 of a legal log with
   the entry x lost, read from any files: it succeeds; every record of the full result that was
   appended by the suffix, but not by x, is still there. *)
Theorem model_damaged_suffix (pre E1s E2 : list entry) (x : entry) (tags : list N) :
  legal_log [] 0 (pre ++ E1s ++ x :: E2) ->
  length tags = length (E1s ++ E2) ->
  exists F qD,
    t_replay [] 0 (pre ++ E1s ++ x :: E2) = Some F /\
    replay_entries [] (combine tags (E1s ++ E2)) = Some qD /\
    qs_inv qD /\ nodup_names qD /\
    (forall q m, qs_get qD q = Some m -> In q (map entry_queue (E1s ++ E2))) /\
    forall q rf nf, t_get F q = Some (rf, nf) ->
      forall r, In r rf -> (length pre <= fst r)%nat -> fst r <> (length pre + length E1s)%nat ->
        exists mD, qs_get qD q = Some mD /\ In (snd r) (records_of (q_buf mD) (q_metas mD)).
Proof.
  intros Hleg Hlen.
  destruct (damaged_suffix_replay pre E1s E2 x Hleg) as (F & Dd & HF & HD & Hg).
  set (tg1 := firstn (length E1s) tags). set (tg2 := skipn (length E1s) tags).
  rewrite app_length in Hlen.
  assert (Hl1 : length tg1 = length E1s) by (unfold tg1; rewrite firstn_length; lia).
  assert (Hl2 : length tg2 = length E2) by (unfold tg2; rewrite skipn_length; lia).
  assert (Etags : tags = tg1 ++ tg2) by (symmetry; apply firstn_skipn).
  set (f1 := combine tg1 E1s). set (f2 := combine tg2 E2).
  assert (Ef : combine tags (E1s ++ E2) = f1 ++ f2).
  { rewrite Etags. now apply combine_app. }
  assert (E1 : map snd f1 = E1s) by (apply map_snd_combine; exact Hl1).
  assert (E2' : map snd f2 = E2) by (apply map_snd_combine; exact Hl2).
  destruct (replay_dmg_refines (length pre) f1 f2 Dd) as (qD & EqD & HuD & HiD).
  { unfold t_replay_dmg in *. rewrite E1, E2'. exact HD. }
  exists F, qD. split; [exact HF|]. split; [now rewrite Ef|]. split; [exact HiD|].
  split; [exact (replay_from_nil_nodup _ _ EqD)|]. split.
  - intros q m Eq. apply (t_replay_dmg_named _ _ _ _ q HD).
    pose proof (untag_abs_get Dd qD q HuD) as Hq. rewrite Eq in Hq.
    destruct (t_get Dd q); [discriminate|contradiction].
  - intros q rf nf Eq r Hin Hk Hx.
    pose proof (Hg q) as Hq. rewrite Eq in Hq. cbn [gdel_q] in Hq.
    assert (Hr : In r (filter (keep (length pre) (length pre + length E1s)) rf)).
    { apply filter_In. split; [exact Hin|]. unfold keep, from_suffix, not_x.
      apply andb_true_iff. split; [now apply Nat.leb_le|].
      apply Bool.negb_true_iff. now apply Nat.eqb_neq. }
    pose proof (untag_abs_get Dd qD q HuD) as Hu.
    destruct (t_get Dd q) as [[rd nd]|].
    + destruct Hq as (Hsub & _).
      destruct (qs_get qD q) as [mD|]; [|contradiction]. exists mD. split; [reflexivity|].
      unfold untag_q, abs_q in Hu. cbn [fst snd] in Hu. injection Hu as Hr1 _.
      rewrite <- Hr1. apply in_map. eapply sublist_In; eauto.
    + rewrite Hq in Hr. destruct Hr.
Qed.

Lemma q_apply_origin2 v i e rf' n' r :
  q_apply v i e = Some (Some (rf', n')) -> In r rf' ->
  (exists rf n, v = Some (rf, n) /\ In r rf) \/
  (fst r = i /\ exists pos recs, e = EAppend (entry_queue e) pos recs /\ In (snd r) recs).
Proof.
  destruct e as [q pos recs|q p|q p|q p]; cbn [q_apply]; intros H Hin.
  - destruct (match v with Some v0 => v0 | None => ([], pos) end) as [old next] eqn:Ev.
    rewrite t_append_all_eq in H. destruct (chk_pos next recs) as [nn|]; [|discriminate].
    inversion H; subst. apply in_app_or in Hin. destruct Hin as [Hin|Hin].
    + left. destruct v as [[rf n]|]; inversion Ev; subst; [|contradiction]. now exists old, next.
    + right. unfold tag_with in Hin. apply in_map_iff in Hin. destruct Hin as (x & <- & Hx).
      split; [reflexivity|]. exists pos, recs. split; [reflexivity|exact Hx].
  - destruct v as [[recs next]|]; inversion H; subst. left. exists recs, next. split; [reflexivity|].
    apply filter_In in Hin. tauto.
  - destruct v as [[recs next]|].
    + destruct (negb (isnil recs) || negb (next =? p)); inversion H; subst; [contradiction|].
      left. now exists rf', n'.
    + inversion H; subst. contradiction.
  - discriminate.
Qed.

Lemma t_replay_origin q r : forall es i m m' rf' n',
  t_replay m i es = Some m' -> t_get m' q = Some (rf', n') -> In r rf' ->
  (exists rf n, t_get m q = Some (rf, n) /\ In r rf) \/
  (exists j pos recs, fst r = (i + j)%nat /\ nth_error es j = Some (EAppend q pos recs) /\
                      In (snd r) recs).
Proof.
  induction es as [|e es IH]; intros i m m' rf' n' H Eq Hin; cbn [t_replay] in H.
  - inversion H; subst. left. now exists rf', n'.
  - destruct (t_apply m i e) as [m1|] eqn:E1; [|discriminate].
    destruct (IH _ _ _ _ _ H Eq Hin) as [(rf & n & Eq1 & Hin1)|(j & pos & recs & Ej & En & Hr)].
    + destruct (t_apply_get _ _ _ _ q E1) as [(<- & Hq)|(_ & Eo)].
      * rewrite Eq1 in Hq.
        destruct (q_apply_origin2 _ _ _ _ _ _ Hq Hin1) as [Hl|(Hi & pos & recs & Ee & Hr)];
          [now left|right].
        exists 0%nat, pos, recs. split; [lia|]. split; [cbn [nth_error]; now f_equal|exact Hr].
      * rewrite Eo in Eq1. left. now exists rf, n.
    + right. exists (S j), pos, recs. split; [lia|]. split; [exact En|exact Hr].
Qed.

Lemma nth_error_split {A} : forall (l : list A) i x,
  nth_error l i = Some x -> l = firstn i l ++ x :: skipn (S i) l /\ length (firstn i l) = i.
Proof. exact (@BytesProofs.nth_error_split A). Qed.

Print Assumptions model_damaged_suffix.

(* same names, in the same order, naming entries of the same kind; regular files have the same
   length *)
Definition same_entry (x y : bytes * fentry) : Prop :=
  fst x = fst y /\
  match snd x, snd y with
  | FFile a, FFile b => lenN a = lenN b
  | FDir, FDir => True
  | FOther, FOther => True
  | _, _ => False
  end.

Definition same_shape (fs fs' : fsT) : Prop := Forall2 same_entry fs fs'.

Lemma same_shape_keys fs fs' : same_shape fs fs' -> map fst fs' = map fst fs.
Proof. induction 1 as [|x y l l' [Hn _] _ IH]; cbn [map]; [reflexivity|]. now rewrite IH, Hn. Qed.

Lemma same_shape_get fs fs' name : same_shape fs fs' ->
  match fs_get fs name, fs_get fs' name with
  | Some (FFile a), Some (FFile b) => lenN a = lenN b
  | Some FDir, Some FDir => True
  | Some FOther, Some FOther => True
  | None, None => True
  | _, _ => False
  end.
Proof.
  induction 1 as [|[n e] [n' e'] l l' [Hn He] _ IH]; cbn [fs_get]; [exact I|].
  cbn [fst snd] in Hn, He. subst n'. destruct (bytes_eqb n name); [|exact IH].
  destruct e, e'; try contradiction; exact He || exact I.
Qed.

Lemma same_shape_file fs fs' name a : same_shape fs fs' -> fs_get fs name = Some (FFile a) ->
  exists b, fs_get fs' name = Some (FFile b) /\ lenN b = lenN a.
Proof.
  intros H E. pose proof (same_shape_get fs fs' name H) as Hg. rewrite E in Hg.
  destruct (fs_get fs' name) as [[b| |]|]; try contradiction. exists b. split; [reflexivity|]. now symmetry.
Qed.

Lemma same_shape_file_inv fs fs' name b : same_shape fs fs' -> fs_get fs' name = Some (FFile b) ->
  exists a, fs_get fs name = Some (FFile a).
Proof.
  intros H E. pose proof (same_shape_get fs fs' name H) as Hg. rewrite E in Hg.
  destruct (fs_get fs name) as [[a| |]|]; try contradiction. now exists a.
Qed.

Lemma same_shape_none fs fs' name : same_shape fs fs' -> fs_get fs name = None -> fs_get fs' name = None.
Proof.
  intros H E. pose proof (same_shape_get fs fs' name H) as Hg. rewrite E in Hg.
  destruct (fs_get fs' name); [contradiction|reflexivity].
Qed.

Lemma same_shape_listing fs fs' : same_shape fs fs' -> list_wal_numbers fs' = list_wal_numbers fs.
Proof.
  induction 1 as [|[n e] [n' e'] l l' [Hn He] _ IH]; [reflexivity|].
  cbn [fst snd] in Hn, He. subst n'. unfold list_wal_numbers in *. cbn [fold_right]. rewrite IH.
  destruct e, e'; try contradiction; reflexivity.
Qed.

Section Atomic.
Variable P : params.
Hypothesis HBS_lo : 7 < BS P.
Hypothesis HBS_hi : BS P <= 65542.
Hypothesis HNB : 1 <= NB P.
Hypothesis Hcrc : forall t p, crcf P t p < 2 ^ 32.
Hypothesis HGC : L_GC P = false.      (* the current code: the GC persists before unlinking *)
Hypothesis HIO : L_IO P = false.      (* the current code: I/O errors of the replay are reported *)

Local Notation B := (BS P).
Local Notation FB := (FILE_BYTES P).
Local Notation ffp := (first_frame_pos P).
Local Notation enc_of := (enc_of P).
Local Notation encs_of := (encs_of P).
Local Notation cursor_after := (cursor_after P).
Local Notation starts := (starts P).
Local Notation H3 f := (f P HBS_lo HBS_hi Hcrc) (only parsing).
Local Notation H2 f := (f P HBS_lo HBS_hi) (only parsing).
Local Notation HW f := (f P HBS_lo HBS_hi HNB Hcrc) (only parsing).
Local Notation HN f := (f P HBS_lo HBS_hi HNB) (only parsing).
Local Notation HG f := (f P HBS_lo HBS_hi HNB Hcrc HGC) (only parsing).
Local Notation HF f := (f P HBS_lo HBS_hi HNB Hcrc HGC HIO) (only parsing).
Local Notation PInv := (PInv P).
Local Notation Inv := (Inv P).
Local Notation wpos := (wpos P).
Local Notation MAXB := (FB * (U64_MAX + 1)).


(* the writer over full-size files, everything after its position still zero *)
Definition PZ (w : rwriter) : Prop :=
  winv P w /\ wd_ok w /\ nd w /\
  dropN (wpos w) (wstream w) = zerosN (lenN (w_files w) * FB - wpos w).

Lemma winv_wpos_le w : winv P w -> wpos w <= lenN (w_files w) * FB.
Proof.
  intros (Hok & _ & Hoff & _). destruct (wr_ok_len P (HN HB0) HNB w Hok) as (_ & Hn1).
  unfold FileStream.wpos. nia.
Qed.

Lemma PZ_rinvx w : PZ w -> rinvx P (wlo w) w.
Proof.
  intros (Hw & _). destruct (HN winv_files w Hw) as (n & Hfiles & Hfile).
  destruct Hw as (_ & Hwf & Hoff & Hpl & Hu & Hfull & Hfresh).
  exists n. split; [exact Hfiles|]. do 3 (split; [lia|]).
  split; [exact Hpl|]. split; [exact Hwf|]. split; [exact Hoff|]. split.
  - intros f Hf. destruct (Hfull f) as (b & Hb & _); [rewrite Hfiles; apply iota_In; lia|]. now exists b.
  - intros f Hf. apply Hfresh. lia.
Qed.

Lemma wabs_wpos w : wr_ok w -> wabs P w = wlo w * FB + wpos w.
Proof.
  intros Hok. destruct (wr_ok_len P (HN HB0) HNB w Hok) as (Hn & Hn1).
  unfold wabs, FileStream.wpos. replace (w_file w) with (wlo w + (lenN (w_files w) - 1)) by lia. lia.
Qed.

(* the position entries record_positions writes, if no write fails *)
Definition pos_entries (qs : queues) (names : list bytes) : list entry :=
  flat_map (fun n => match qs_get qs n with
                     | Some q => [EPosition n (next_position q)]
                     | None => []
                     end) names.

Lemma rp_log_pos_entries names : forall st,
  exists rest, pos_entries (s_qs st) names = map snd (rp_log P st names) ++ rest.
Proof.
  induction names as [|n names IH]; intros st; cbn [pos_entries flat_map rp_log].
  - now exists [].
  - fold (pos_entries (s_qs st) names). destruct (qs_get (s_qs st) n) as [q|]; [|apply IH].
    cbn [map snd app].
    destruct (write_entry P st (EPosition n (next_position q))) as [st1 [k|e]] eqn:Ew.
    + rewrite <- (GcProofs.write_entry_qs P _ _ _ _ Ew). destruct (IH st1) as (rest & ->). now exists rest.
    + eexists. reflexivity.
Qed.

(* the GC never fails under PZ and the bound *)
Lemma pz_gc_no_err st hint st' r :
  PZ (s_wr st) ->
  FB * wlo (s_wr st) +
    cursor_after (wpos (s_wr st))
      (map entry_ser (pos_entries (s_qs st) (pick_order hint (empty_names (s_qs st))))) <= MAXB ->
  run_gc_if_necessary P st hint = (st', r) -> exists n, r = Ok n.
Proof.
  intros HP Hb Hgc.
  destruct (HG rinvx_gc_ok (wlo (s_wr st)) st hint (PZ_rinvx _ HP)) as (st1 & k & E & _).
  2:{ rewrite E in Hgc. inversion Hgc. now exists k. }
  destruct HP as ((Hok & _) & _).
  assert (Hpre : exists rest, pos_entries (s_qs st) (pick_order hint (empty_names (s_qs st))) =
                              map snd (gc_log P st hint) ++ rest).
  { unfold gc_log. destruct (has_deletable st); [apply rp_log_pos_entries|eexists; reflexivity]. }
  destruct Hpre as (rest & Epre).
  rewrite Epre, map_app, (H3 cursor_after_app) in Hb.
  pose proof (H3 cursor_after_ge (map entry_ser rest)
                (cursor_after (wpos (s_wr st)) (map entry_ser (map snd (gc_log P st hint))))) as Hge.
  change (PersistGc.wabs P (s_wr st)) with (wabs P (s_wr st)).
  rewrite (wabs_wpos _ Hok), (HW cursor_after_shift) by apply (HN mulFB_mod). lia.
Qed.

Lemma pos_entries_in qs names e : In e (pos_entries qs names) ->
  exists n q, In n names /\ qs_get qs n = Some q /\ e = EPosition n (next_position q).
Proof.
  unfold pos_entries. intros H. apply in_flat_map in H. destruct H as (n & Hn & He).
  destruct (qs_get qs n) as [q|] eqn:Eq; [|destruct He].
  destruct He as [<-|[]]. now exists n, q.
Qed.

Lemma pos_entries_nodup qs : forall names, NoDup names -> NoDup (map entry_queue (pos_entries qs names)).
Proof.
  induction names as [|n names IH]; intros Hnd; [constructor|].
  inversion Hnd as [|? ? Hn Hr]; subst. unfold pos_entries. cbn [flat_map].
  fold (pos_entries qs names). destruct (qs_get qs n) as [q|]; cbn [app map]; [|now apply IH].
  cbn [entry_queue]. constructor; [|now apply IH].
  intros Hin. apply in_map_iff in Hin. destruct Hin as (e & Ee & He).
  destruct (pos_entries_in _ _ _ He) as (n' & q' & Hn' & _ & ->). cbn [entry_queue] in Ee. congruence.
Qed.

Lemma dmg_writer w G fs_d w0 tags sts n T' :
  PInv w G -> w_files w = iota (wlo w) (S n) ->
  same_shape (vfs w) fs_d ->
  lenN T' = lenN (gh_T P G) ->
  stream_of fs_d (w_files w) =
    dropN ((wlo w - gh_base G) * FB)
          (T' ++ zerosN ((wlo w - gh_base G + lenN (w_files w)) * FB - lenN (gh_T P G))) ->
  dmg_spec P fs_d (wlo w) n (gh_base G) w0 tags sts
           (N.max ((wlo w - gh_base G) * FB) (lenN (gh_T P G))) ->
  PZ w0 /\ wlo w0 = wlo w /\
  lenN (gh_T P G) <= (wlo w - gh_base G) * FB + wpos w0 /\
  (wlo w - gh_base G) * FB + wpos w0 <= ffp (lenN (gh_T P G)).
Proof.
  intros HP Hfiles Hsh HlenT HSt Hspec.
  destruct HP as (Hw & Hwd & Hnd & Hbase & Hc1 & Hc2 & Hs & _).
  cbn zeta in *.
  destruct Hspec as (_ & _ & _ & _ & Hfl & Hlo & Hcur & Hpos & Hpend & Hfs & Hplan).
  pose proof Hw as (Hok & Hwf & Hoff & Hpl & Hu & Hfull & Hfresh).
  destruct (wr_ok_len P (HN HB0) HNB w Hok) as (Hn & _).
  assert (Hnf : lenN (w_files w) = N.of_nat n + 1) by (rewrite Hfiles, lenN_iota; lia).
  assert (Hnf0 : lenN (w_files w0) = N.of_nat n + 1) by (rewrite Hfl, lenN_iota; lia).
  set (lo := wlo w) in *. set (base := gh_base G) in *. set (dl := lo - base) in *.
  set (T := gh_T P G) in *. set (a := lenN T) in *.
  assert (Hwf_w : w_file w = lo + N.of_nat n) by lia.
  assert (Hwpos : wpos w = N.of_nat n * FB + w_off w).
  { unfold FileStream.wpos. rewrite Hnf. f_equal. f_equal. lia. }
  rewrite Hwpos in Hc1, Hc2.
  set (e := N.max (dl * FB) a) in *.
  assert (He1 : a <= e) by lia.
  assert (He2 : e <= dl * FB + (N.of_nat n * FB + w_off w)) by lia.
  assert (Hffe : ffp e = ffp a) by (apply (HN ffp_between); lia).
  assert (Hf0 : w_file w0 = lo + N.of_nat n).
  { destruct Hpos as [(Hp & Hwo) | (_ & Hwf0 & _)]; [|exact Hwf0].
    destruct (N.eq_dec (w_file w0) (lo + N.of_nat n)) as [E|Hne]; [exact E|exfalso].
    assert ((w_file w0 - base + 1) * FB <= (dl + N.of_nat n) * FB) by (apply N.mul_le_mono_r; lia).
    pose proof (H2 ffp_ge a). lia. }
  replace ((w_file w0 - base) * FB + w_off w0) with (dl * FB + (N.of_nat n * FB + w_off w0)) in Hpos.
  2:{ rewrite Hf0. replace (lo + N.of_nat n - base) with (dl + N.of_nat n) by lia. lia. }
  assert (Hkey : w_off w0 <= FB /\
                 a <= dl * FB + (N.of_nat n * FB + w_off w0) /\
                 dl * FB + (N.of_nat n * FB + w_off w0) <= ffp a).
  { pose proof (H2 ffp_ge a) as Hge.
    destruct Hpos as [(-> & Hwo) | (-> & _ & _ & Hwo)]; [rewrite Hffe|]; lia. }
  destruct Hkey as (Hoff0 & Hk1 & Hk2).
  assert (Hfl' : w_files w0 = w_files w) by congruence.
  assert (Hfile' : w_file w0 = w_file w) by congruence.
  assert (Hv : vfs w0 = fs_d) by (rewrite vfs_nil; assumption).
  assert (Hok0 : wr_ok w0) by (eapply wr_ok_same; eassumption).
  assert (Elo : wlo w0 = lo) by (unfold lo, wlo; now rewrite Hfl', Hfile').
  assert (Hwpos0 : wpos w0 = N.of_nat n * FB + w_off w0).
  { unfold FileStream.wpos. rewrite Hnf0. f_equal. f_equal. lia. }
  assert (Hw0 : winv P w0).
  { split; [exact Hok0|]. split; [apply wf_nil; exact Hpend|]. split; [exact Hoff0|].
    split; [exact Hplan|]. split; [rewrite Hfile'; exact Hu|]. rewrite Hv, Hfl', Hfile'.
    split.
    - intros x Hx. destruct (Hfull x Hx) as (b & Hg & Hb).
      destruct (same_shape_file _ _ _ _ Hsh Hg) as (b' & Hg' & Hb'). exists b'. split; [exact Hg'|lia].
    - intros x Hx1 Hx2. apply (same_shape_none _ _ _ Hsh). now apply Hfresh. }
  rewrite Hwpos0.
  split; [|split; [exact Elo|split; [exact Hk1|exact Hk2]]].
  split; [exact Hw0|]. split.
  { split; [exact Hok0|]. intros _. destruct Hwd as [_ Hdir].
    pose proof (flush_buf_dir w (wr_ok_cur_in w Hok) Hu (Hdir Hu)) as Hd.
    unfold dir_ok, dir_of in *. destruct (flush_buf_tracker w) as [T1 _]. rewrite T1 in Hd.
    rewrite Hfs, Hfl'. intros x Hx. rewrite <- (Hd x Hx). fold (vfs w). split.
    - intros (b & Hb). exact (same_shape_file_inv _ _ _ _ Hsh Hb).
    - intros (b & Hb). destruct (same_shape_file _ _ _ _ Hsh Hb) as (b' & Hb' & _). now exists b'. }
  split.
  { unfold nd, nodup_keys. rewrite Hfs, (same_shape_keys _ _ Hsh). exact (flush_buf_nd w Hnd). }
  unfold wstream. rewrite Hv, Hfl', HSt, dropN_dropN, Hwpos0, Hnf.
  rewrite dropN_app_ge by lia. rewrite dropN_zerosN. f_equal.
  fold a in HlenT. rewrite HlenT.
  assert (Hoff0' : N.of_nat n * FB + w_off w0 <= (N.of_nat n + 1) * FB) by lia.
  rewrite N.mul_add_distr_r. clear - Hk1 Hoff0'. lia.
Qed.

Lemma bound_transfer w w0 a dl es :
  winv P w -> winv P w0 -> wlo w0 = wlo w ->
  a <= dl * FB + wpos w -> dl * FB + wpos w <= ffp a ->
  a <= dl * FB + wpos w0 -> dl * FB + wpos w0 <= ffp a ->
  phys_bound P w es ->
  FB * wlo w0 + cursor_after (wpos w0) (map entry_ser es) <= MAXB.
Proof.
  intros Hw Hw0 Elo Ha1 Ha2 Hb1 Hb2 Hb.
  destruct es as [|x es].
  - cbn [map]. rewrite (H2 cursor_after_nil).
    destruct Hw0 as (Hok0 & _ & Hoff0 & _ & Hu0 & _).
    destruct (wr_ok_len P (HN HB0) HNB w0 Hok0) as (Hn0 & Hn1).
    unfold FileStream.wpos. nia.
  - unfold phys_bound in Hb. cbn [map] in *. set (p := entry_ser x) in *.
    set (ps := map entry_ser es) in *.
    destruct Hw as (Hok & _). destruct (wr_ok_len P (HN HB0) HNB w Hok) as (Hn & Hn1).
    rewrite (wabs_wpos w Hok), (HW cursor_after_shift) in Hb by apply (HN mulFB_mod).
    rewrite (H3 cursor_after_cons) in Hb. rewrite (H3 cursor_after_cons).
    pose proof (HW enc_of_shift (dl * FB) (wpos w) p (HN mulFB_mod dl)) as E1.
    pose proof (HW enc_of_shift (dl * FB) (wpos w0) p (HN mulFB_mod dl)) as E2.
    pose proof (HW enc_of_between_len a (dl * FB + wpos w) p Ha1 Ha2) as L1.
    pose proof (HW enc_of_between_len a (dl * FB + wpos w0) p Hb1 Hb2) as L2.
    rewrite E1 in L1. rewrite E2 in L2.
    replace (wpos w0 + lenN (enc_of (wpos w0) p)) with (wpos w + lenN (enc_of (wpos w) p)) by lia.
    rewrite Elo. lia.
Qed.

(* X is entry number i of the kept log gh_E G.  The ghost stream splits at X:
     gh_T G = t1 ++ ex ++ t2,  t1 = the encoding of everything written before X. *)
Definition dmg_E1 (G : ghost) (i : nat) : list entry := gh_before G ++ map snd (firstn i (gh_E G)).
Definition dmg_E2 (G : ghost) (i : nat) : list entry := map snd (skipn (S i) (gh_E G)).
Definition dmg_t1 (G : ghost) (i : nat) : bytes := encs_of 0 (map entry_ser (dmg_E1 G i)).
Definition dmg_t2 (G : ghost) (i : nat) (ex : bytes) : bytes :=
  encs_of (lenN (dmg_t1 G i) + lenN ex) (map entry_ser (dmg_E2 G i)).

(* fs_d is the directory left by drop_log st (= vfs (s_wr st)) with one frame of X damaged:
   same names, kinds and lengths; the kept files hold the ghost stream with ed in place of the
   encoding ex of X, where ed is ex with one frame damaged in its checksum / payload bytes so
   that the CRC check fails (DamageProofs.enc_dmg; k = the number of frames of X) *)
Definition damaged_dir (st : state) (G : ghost) (i : nat) (X : entry) (ex ed : bytes) (k : nat)
           (fs_d : fsT) : Prop :=
  (exists fX, nth_error (gh_E G) i = Some (fX, X)) /\
  let w := s_wr st in
  let t1 := dmg_t1 G i in
  let t2 := dmg_t2 G i ex in
  let dl := wlo w - gh_base G in
  enc_dmg P (lenN t1) true (entry_ser X) ex ed k /\
  same_shape (vfs w) fs_d /\
  stream_of fs_d (w_files w) =
    dropN (dl * FB)
          ((t1 ++ ed ++ t2) ++ zerosN ((dl + lenN (w_files w)) * FB - lenN (gh_T P G))).

(* the bound the recovery-time GC needs: position entries for distinct queues named in the kept
   log fit below 2^64 files (the damaged replay may resurrect a queue whose EDelete was lost, so
   the queues are those named by the log, not only the live ones) *)
Definition dmg_bound (st : state) (G : ghost) : Prop :=
  forall extra, NoDup (map entry_queue extra) ->
    Forall (fun e => exists q p, e = EPosition q p /\
                                 In q (map entry_queue (map snd (gh_E G)))) extra ->
    phys_bound P (s_wr st) extra.

Section Setting.
Variables (st : state) (G : ghost) (i : nat) (X : entry) (fX : N).
Hypothesis HI : Inv st G.
Hypothesis HX : nth_error (gh_E G) i = Some (fX, X).

Local Notation Ea := (firstn i (gh_E G)).
Local Notation Eb := (skipn (S i) (gh_E G)).

Lemma dmg_ALL : gh_ALL G = dmg_E1 G i ++ X :: dmg_E2 G i.
Proof.
  destruct (nth_error_split _ _ _ HX) as [EE _].
  rewrite gh_ALL_split. unfold dmg_E1, dmg_E2. rewrite <- app_assoc. f_equal.
  change (X :: map snd Eb) with (map snd ((fX, X) :: Eb)). rewrite <- map_app. f_equal. exact EE.
Qed.

Lemma dmg_index : length (dmg_E1 G i) = (gh_k G + i)%nat.
Proof.
  destruct (nth_error_split _ _ _ HX) as [_ Li].
  unfold dmg_E1. now rewrite app_length, gh_before_length, map_length, Li.
Qed.

Lemma dmg_nth : nth_error (gh_ALL G) (gh_k G + i) = Some X.
Proof.
  rewrite dmg_ALL, <- dmg_index, nth_error_app2 by lia. now rewrite Nat.sub_diag.
Qed.

Lemma dmg_T ex ed k : enc_dmg P (lenN (dmg_t1 G i)) true (entry_ser X) ex ed k ->
  gh_T P G = dmg_t1 G i ++ ex ++ dmg_t2 G i ex.
Proof.
  intros Hd. unfold gh_T, gh_ser. rewrite dmg_ALL, map_app, (H3 encs_of_app).
  fold (dmg_t1 G i). f_equal. cbn [map ResyncProofs.encs_of]. rewrite N.add_0_l.
  rewrite (H3 enc_rel_enc_of _ _ _ _ (enc_dmg_orig P _ _ _ _ _ _ Hd)). reflexivity.
Qed.

(* the first frame of X lies in the kept files *)
Lemma dmg_delivered : (wlo (s_wr st) - gh_base G) * FB <= ffp (lenN (dmg_t1 G i)).
Proof.
  destruct HI as ((_ & _ & _ & _ & _ & _ & _ & _ & _ & HD2 & _) & _). cbn zeta in HD2.
  destruct (Forall2_nth_error _ _ _ i _ HD2 HX) as (s & Hs & (Hle & _)).
  destruct (nth_error_split _ _ _ HX) as [EE Li].
  assert (Es : gh_ser_E G = map entry_ser (map snd Ea) ++ entry_ser X :: map entry_ser (map snd Eb)).
  { unfold gh_ser_E. rewrite EE at 1. now rewrite map_app, map_app. }
  rewrite Es, (H3 starts_app) in Hs.
  rewrite nth_error_app2 in Hs by (rewrite (ResyncProofs.starts_length P), !map_length; lia).
  rewrite (ResyncProofs.starts_length P), !map_length, Li, Nat.sub_diag in Hs.
  cbn [ResyncProofs.starts nth_error] in Hs. inversion Hs; subst s. clear Hs. cbn [snd] in Hle.
  assert (Ec : cursor_after (gh_a0 P G) (map entry_ser (map snd Ea)) = lenN (dmg_t1 G i)).
  { unfold gh_a0, gh_ser_before. rewrite <- (H3 cursor_after_app), <- map_app.
    fold (dmg_E1 G i). unfold ResyncProofs.cursor_after, dmg_t1. lia. }
  now rewrite Ec in Hle.
Qed.
End Setting.

(* every retained record was appended by an entry of the kept log *)
Lemma LInv_kept qs lo G F q rf nf r :
  LInv qs lo G -> t_replay [] 0 (gh_ALL G) = Some F -> t_get F q = Some (rf, nf) -> In r rf ->
  (gh_k G <= fst r)%nat.
Proof.
  intros (_ & _ & _ & F' & EF' & Hcov) EF Eq Hin. rewrite EF in EF'. inversion EF'; subst F'.
  destruct (Hcov q rf nf Eq) as (_ & Hr). rewrite Forall_forall in Hr.
  destruct (Hr r Hin) as (j & _ & _ & Ej & _). lia.
Qed.

(* w0 is the writer open makes from a directory of the shape of the dropped one (dmg_writer), qD
   any queues whose names occur in the kept log: the GC cannot fail, so open returns qD *)
Lemma dmg_finish_ok st G fs_d w0 tags sts n T' qD pol hint :
  PInv (s_wr st) G -> w_files (s_wr st) = iota (wlo (s_wr st)) (S n) ->
  same_shape (vfs (s_wr st)) fs_d ->
  lenN T' = lenN (gh_T P G) ->
  stream_of fs_d (w_files (s_wr st)) =
    dropN ((wlo (s_wr st) - gh_base G) * FB)
          (T' ++ zerosN ((wlo (s_wr st) - gh_base G + lenN (w_files (s_wr st))) * FB - lenN (gh_T P G))) ->
  dmg_spec P fs_d (wlo (s_wr st)) n (gh_base G) w0 tags sts
           (N.max ((wlo (s_wr st) - gh_base G) * FB) (lenN (gh_T P G))) ->
  dmg_bound st G -> nodup_names qD ->
  (forall q m, qs_get qD q = Some m -> In q (map entry_queue (map snd (gh_E G)))) ->
  exists st_r, open_finish P w0 qD pol hint = OpenOk st_r /\ s_qs st_r = qD.
Proof.
  intros HP Hfiles Hsh HlenT HSt Hspec Hbound HndD Hnames.
  destruct (dmg_writer _ G fs_d w0 tags sts n T' HP Hfiles Hsh HlenT HSt Hspec)
    as (HPZ & Elo & Hk1 & Hk2).
  pose proof HP as (Hw & _ & _ & _ & Hc1 & Hc2 & _). cbn zeta in Hc1, Hc2.
  set (st0 := mkSt w0 qD pol).
  assert (Hb0 : FB * wlo (s_wr st0) +
                cursor_after (wpos (s_wr st0))
                  (map entry_ser (pos_entries (s_qs st0) (pick_order hint (empty_names (s_qs st0))))) <= MAXB).
  { cbn [st0 s_wr s_qs]. destruct HPZ as (Hw0 & _).
    apply (bound_transfer (s_wr st) w0 _ _ _ Hw Hw0 Elo Hc1 Hc2 Hk1 Hk2).
    apply Hbound.
    - apply pos_entries_nodup, NoDup_pick_order, NoDup_empty_names, HndD.
    - apply Forall_forall. intros e He.
      destruct (pos_entries_in _ _ _ He) as (q & m & _ & Eq & ->). exists q, (next_position m).
      split; [reflexivity|exact (Hnames q m Eq)]. }
  unfold open_finish. fold st0.
  pose proof (run_gc_qs P st0 hint) as Hqs.
  destruct (run_gc_if_necessary P st0 hint) as [st1 r] eqn:Egc. cbn [fst] in Hqs.
  destruct (pz_gc_no_err st0 hint st1 r HPZ Hb0 Egc) as (kk & ->).
  exists st1. split; [reflexivity|exact Hqs].
Qed.

(* open succeeds on the damaged directory; its queues are the replay of the kept log without X
   (read from the files `tags`).  F = the tagged replay of everything ever written (its queues are
   the live queues of st: RestartInv.LInv_tget); a record of F carries the index, in gh_ALL G, of
   the entry that appended it; the index of X is gh_k G + i *)
Lemma C09_damage_replay st G i X ex ed k fs_d :
  Inv st G -> damaged_dir st G i X ex ed k fs_d -> dmg_bound st G ->
  forall pol hint, exists st_r tags F,
    open P fs_d None pol hint = OpenOk st_r /\
    length tags = length (map snd (firstn i (gh_E G)) ++ dmg_E2 G i) /\
    replay_entries [] (combine tags (map snd (firstn i (gh_E G)) ++ dmg_E2 G i)) = Some (s_qs st_r) /\
    t_replay [] 0 (gh_ALL G) = Some F /\
    qs_inv (s_qs st_r) /\
    forall q rf nf, t_get F q = Some (rf, nf) ->
      forall r, In r rf -> fst r <> (gh_k G + i)%nat ->
        exists m, qs_get (s_qs st_r) q = Some m /\
                  In (snd r) (records_of (q_buf m) (q_metas m)).
Proof.
  intros HI ((fX & HX) & Hdmg & Hsh & HSt) Hbound pol hint. cbn zeta in *.
  pose proof HI as (HP & HL).
  set (w := s_wr st) in *.
  pose proof HP as (Hw & Hwd & Hnd & Hbase & Hc1 & _ & _ & HWf & _). cbn zeta in *.
  destruct (HN winv_files w Hw) as (n & Hfiles & _).
  pose proof Hw as (_ & _ & _ & _ & _ & Hfull & _).
  destruct (nth_error_split _ _ _ HX) as [EE Li].
  set (lo := wlo w) in *. set (base := gh_base G) in *. set (dl := lo - base) in *.
  set (T := gh_T P G) in *.
  set (t1 := dmg_t1 G i) in *. set (t2 := dmg_t2 G i ex) in *.
  set (E1 := dmg_E1 G i). set (E2 := dmg_E2 G i).
  set (z := (dl + lenN (w_files w)) * FB - lenN T) in *.
  pose proof (dmg_ALL G i X fX HX) as HALL. fold E1 E2 in HALL.
  pose proof (dmg_T G i X fX HX ex ed k Hdmg) as HT. fold T t1 t2 in HT.
  pose proof (dmg_delivered st G i X fX HI HX) as Hb. fold w lo base dl t1 in Hb.
  assert (HlenT : lenN (t1 ++ ed ++ t2) = lenN T).
  { rewrite HT, !lenN_app, (H3 enc_dmg_len _ _ _ _ _ _ Hdmg). reflexivity. }
  assert (Hfull' : forall f, In f (iota lo (S n)) ->
            exists b, fs_get fs_d (filename f) = Some (FFile b) /\ lenN b = FB).
  { rewrite <- Hfiles. intros f Hf. destruct (Hfull f Hf) as (b & Hg & Hlb).
    destruct (same_shape_file _ _ _ _ Hsh Hg) as (b' & Hg' & Hlb'). exists b'. split; [exact Hg'|lia]. }
  assert (Hlist : list_wal_numbers fs_d = iota lo (S n)).
  { rewrite (same_shape_listing _ _ Hsh), <- Hfiles. exact (listing_after P w Hw Hwd Hnd). }
  assert (HSt' : stream_of fs_d (iota lo (S n)) = dropN (dl * FB) ((t1 ++ ed ++ t2) ++ zerosN z)).
  { rewrite <- Hfiles. exact HSt. }
  assert (HlenS : lenN ((t1 ++ ed ++ t2) ++ zerosN z) = (lo + N.of_nat n - base + 1) * FB).
  { rewrite lenN_app, lenN_zerosN, HlenT. unfold z.
    pose proof (winv_wpos_le w Hw) as Hpos. rewrite Hfiles, lenN_iota in *.
    replace (lo + N.of_nat n - base + 1) with (dl + N.of_nat (S n)) by lia.
    rewrite N.mul_add_distr_r in *. lia. }
  assert (HWf' : Forall wf_entry (E1 ++ X :: E2)) by (rewrite <- HALL; exact HWf).
  destruct (open_one_damaged P HBS_lo HBS_hi HNB Hcrc fs_d lo n Hfull' base E1 X E2 t1 ex ed k t2 z
              pol hint HIO Hbase Hlist HWf' (H3 encs_of_rel _ _) Hdmg (H3 encs_of_rel _ _) HSt' HlenS Hb)
    as (w0 & tags & E1p & E1s & HE1 & Hskip & _ & _ & Hspec & Hres).
  fold dl in Hskip, Hspec.
  (* the entries skipped are those before E *)
  destruct (HW PInv_delivered w G HP) as (_ & Eskip). fold lo base dl in Eskip.
  rewrite <- HALL in Hskip. change (map entry_ser (gh_ALL G)) with (gh_ser G) in Hskip.
  rewrite Eskip in Hskip. unfold gh_ser_before in Hskip.
  assert (Hlp : length (gh_before G) = length E1p).
  { apply (f_equal (@length bytes)) in Hskip. rewrite !map_length in Hskip. lia. }
  unfold E1, dmg_E1 in HE1. destruct (app_inv_len _ _ _ _ HE1 Hlp) as [<- <-]. clear Hlp Hskip.
  set (E1s := map snd (firstn i (gh_E G))) in *.
  rewrite <- HT in Hspec.
  assert (Hlen : length tags = length (E1s ++ E2)).
  { destruct Hspec as (Hl & _). rewrite Hl, !app_length, !(ResyncProofs.starts_length P), !map_length.
    reflexivity. }
  pose proof HL as (_ & Hleg & _).
  assert (HALL' : gh_ALL G = gh_before G ++ E1s ++ X :: E2).
  { rewrite HALL. unfold E1, dmg_E1. now rewrite <- app_assoc. }
  rewrite HALL' in Hleg.
  destruct (model_damaged_suffix (gh_before G) E1s E2 X tags Hleg Hlen)
    as (F & qD & EF & EqD & HiD & HndD & Hnames & Hrec).
  rewrite <- HALL' in EF.
  rewrite EqD in Hres.
  destruct (dmg_finish_ok st G fs_d w0 tags _ n (t1 ++ ed ++ t2) qD pol hint
              HP Hfiles Hsh HlenT HSt Hspec Hbound HndD) as (st1 & Efin & Hqs).
  { intros q m Eq. pose proof (Hnames q m Eq) as Hin.
    rewrite EE, !map_app. cbn [map]. unfold E1s, E2, dmg_E2 in Hin. rewrite map_app in Hin.
    apply in_app_or in Hin. apply in_or_app. destruct Hin as [Hin|Hin]; [now left|right; now right]. }
  rewrite Efin in Hres.
  exists st1, tags, F. rewrite Hqs.
  split; [exact Hres|]. split; [exact Hlen|]. split; [exact EqD|]. split; [exact EF|].
  split; [exact HiD|].
  intros q rf nf Eq r Hin Hne.
  apply (Hrec q rf nf Eq r Hin); rewrite gh_before_length.
  - exact (LInv_kept (s_qs st) lo G F q rf nf r HL EF Eq Hin).
  - unfold E1s. rewrite map_length, Li. exact Hne.
Qed.

Theorem C09_damage_tagged st G i X ex ed k fs_d :
  Inv st G -> damaged_dir st G i X ex ed k fs_d -> dmg_bound st G ->
  forall pol hint, exists st_r F,
    open P fs_d None pol hint = OpenOk st_r /\
    t_replay [] 0 (gh_ALL G) = Some F /\
    qs_inv (s_qs st_r) /\
    forall q rf nf, t_get F q = Some (rf, nf) ->
      forall r, In r rf -> fst r <> (gh_k G + i)%nat ->
        exists m, qs_get (s_qs st_r) q = Some m /\
                  In (snd r) (records_of (q_buf m) (q_metas m)).
Proof.
  intros HI Hdir Hbound pol hint.
  destruct (C09_damage_replay st G i X ex ed k fs_d HI Hdir Hbound pol hint)
    as (st_r & _ & F & Hopen & _ & _ & EF & Hinv & Hrec).
  now exists st_r, F.
Qed.

(* the records X appended to queue q (none unless X is an EAppend on q) *)
Definition appended_by (X : entry) (q : bytes) (rec : N * bytes) : Prop :=
  match X with
  | EAppend q' _ recs => q' = q /\ In rec recs
  | _ => False
  end.

(* a record of the full replay that carries the index of X was appended by X *)
Lemma tag_appended_by G i X fX F q rf nf r :
  nth_error (gh_E G) i = Some (fX, X) ->
  t_replay [] 0 (gh_ALL G) = Some F -> t_get F q = Some (rf, nf) -> In r rf ->
  fst r = (gh_k G + i)%nat -> appended_by X q (snd r).
Proof.
  intros HX EF Eq Hin Hi.
  destruct (t_replay_origin q r _ _ _ _ _ _ EF Eq Hin) as [(rf0 & n0 & E0 & _)|(j & pos & recs & Ej & En & Hr)];
    [discriminate|].
  cbn [Nat.add] in Ej. rewrite <- Ej, Hi, (dmg_nth G i X fX HX) in En. inversion En; subst X.
  cbn [appended_by]. split; [reflexivity|exact Hr].
Qed.

(* THE THEOREM.  st: a state under the restart invariant; fs_d: the directory it leaves when
   dropped, with one frame of the kept entry X damaged (CRC fails).  Then open succeeds, and
   every record (pos, payload) retained in a queue q of st is retained in q after the
   recovery — same position, same payload bytes — unless X is the EAppend that appended it. *)
Theorem C09_damage_costs_one_entry st G i X ex ed k fs_d :
  Inv st G -> damaged_dir st G i X ex ed k fs_d -> dmg_bound st G ->
  forall pol hint, exists st_r,
    open P fs_d None pol hint = OpenOk st_r /\
    qs_inv (s_qs st_r) /\
    forall q m pos payload,
      qs_get (s_qs st) q = Some m ->
      In (pos, payload) (records_of (q_buf m) (q_metas m)) ->
      ~ appended_by X q (pos, payload) ->
      exists m', qs_get (s_qs st_r) q = Some m' /\
                 In (pos, payload) (records_of (q_buf m') (q_metas m')).
Proof.
  intros HI Hdir Hbound pol hint.
  destruct (C09_damage_tagged st G i X ex ed k fs_d HI Hdir Hbound pol hint)
    as (st_r & F & Eo & EF & Hinv & Hrec).
  exists st_r. split; [exact Eo|]. split; [exact Hinv|].
  intros q m pos payload Eq Hin Hnot.
  destruct HI as (_ & HL). destruct Hdir as ((fX & HX) & _).
  pose proof (LInv_tget _ _ _ F HL EF q) as Ht. rewrite Eq in Ht.
  destruct (t_get F q) as [[rf nf]|] eqn:Etq; [|contradiction].
  unfold untag_q, abs_q in Ht. cbn [fst snd] in Ht. injection Ht as Hr _.
  rewrite <- Hr in Hin. apply in_map_iff in Hin. destruct Hin as (r & Er & Hin).
  rewrite <- Er. apply (Hrec q rf nf Etq r Hin).
  intros Hi. apply Hnot. rewrite <- Er.
  exact (tag_appended_by G i X fX F q rf nf r HX EF Etq Hin Hi).
Qed.

(* every history of calls and clean restarts from a fresh directory (RestartFinal.hist_ok) ends
   in a state under the invariant, for a ghost numbered from file 0 *)
Corollary C09_from_fresh pol0 st0 h st outs :
  open P [] None pol0 [] = OpenOk st0 ->
  hrun P st0 h = Some (st, outs) ->
  hist_ok P st0 h ->
  exists G, Inv st G /\ gh_base G = 0 /\
    forall i X ex ed k fs_d,
      damaged_dir st G i X ex ed k fs_d -> dmg_bound st G ->
      forall pol hint, exists st_r,
        open P fs_d None pol hint = OpenOk st_r /\
        qs_inv (s_qs st_r) /\
        forall q m pos payload,
          qs_get (s_qs st) q = Some m ->
          In (pos, payload) (records_of (q_buf m) (q_metas m)) ->
          ~ appended_by X q (pos, payload) ->
          exists m', qs_get (s_qs st_r) q = Some m' /\
                     In (pos, payload) (records_of (q_buf m') (q_metas m')).
Proof.
  intros Hopen Hrun Hok.
  pose proof (inv_fresh P HBS_lo HBS_hi HNB pol0 st0 Hopen) as HI0.
  destruct (HF hrun_inv h st0 gh_fresh HI0 Hok) as (st1 & outs1 & G & Er & HI & Eb & _).
  rewrite Hrun in Er. injection Er as <- <-.
  exists G. split; [exact HI|]. split; [exact Eb|].
  intros i X ex ed k fs_d Hdir Hbound.
  exact (C09_damage_costs_one_entry st G i X ex ed k fs_d HI Hdir Hbound).
Qed.

(* the setting is the restart setting with ed for ex: the undamaged directory holds the same
   stream with ex, and every encoding has a damaged version *)
Lemma damaged_dir_undamaged st G i X ex ed k fs_d :
  Inv st G -> damaged_dir st G i X ex ed k fs_d ->
  let w := s_wr st in
  let dl := wlo w - gh_base G in
  gh_T P G = dmg_t1 G i ++ ex ++ dmg_t2 G i ex /\
  lenN ed = lenN ex /\
  stream_of (vfs w) (w_files w) =
    dropN (dl * FB)
          ((dmg_t1 G i ++ ex ++ dmg_t2 G i ex) ++
           zerosN ((dl + lenN (w_files w)) * FB - lenN (gh_T P G))).
Proof.
  intros HI ((fX & HX) & Hdmg & _). cbn zeta in *.
  pose proof (dmg_T G i X fX HX ex ed k Hdmg) as HT.
  split; [exact HT|]. split; [exact (H3 enc_dmg_len _ _ _ _ _ _ Hdmg)|].
  destruct HI as ((_ & _ & _ & _ & _ & _ & Hs & _) & _). cbn zeta in Hs.
  rewrite <- HT. exact Hs.
Qed.

Lemma damaged_encoding_exists G i X fX :
  nth_error (gh_E G) i = Some (fX, X) ->
  exists ex ed k, enc_dmg P (lenN (dmg_t1 G i)) true (entry_ser X) ex ed k.
Proof.
  intros _. destruct (H3 enc_of_rel (lenN (dmg_t1 G i)) (entry_ser X)) as (k & Hk).
  destruct (H3 enc_dmg_exists _ _ _ _ _ Hk) as (ed & Hd). exists (enc_of (lenN (dmg_t1 G i)) (entry_ser X)), ed, k. exact Hd.
Qed.

End Atomic.

Print Assumptions C09_damage_tagged.
Print Assumptions C09_damage_costs_one_entry.
Print Assumptions C09_from_fresh.

Lemma same_shape_refl fs : same_shape fs fs.
Proof.
  induction fs as [|[n e] fs IH]; constructor; [|exact IH].
  split; [reflexivity|]. cbn [snd]. destruct e; auto.
Qed.

Lemma same_shape_trans a b c : same_shape a b -> same_shape b c -> same_shape a c.
Proof.
  intros H. revert c. induction H as [|x y l l' [Hn He] _ IH]; intros c Hc; inversion Hc as [|? z ? l'' [Hn' He'] Hr];
    subst; constructor; [|now apply IH].
  split; [congruence|]. destruct (snd x), (snd y), (snd z); try contradiction; try exact I. congruence.
Qed.

Lemma same_shape_put fs name b b' :
  fs_get fs name = Some (FFile b) -> lenN b' = lenN b -> same_shape fs (fs_put fs name (FFile b')).
Proof.
  induction fs as [|[n e] fs IH]; cbn [fs_get fs_put]; [discriminate|].
  destruct (bytes_eqb n name); intros H Hl.
  - injection H as ->. constructor; [|apply same_shape_refl]. split; [reflexivity|]. cbn [snd]. now symmetry.
  - constructor; [|now apply IH]. split; [reflexivity|]. cbn [snd]. destruct e; auto.
Qed.

(* overwrite the files `files`, in order, with consecutive chunks of S *)
Fixpoint put_stream (len : N) (fs : fsT) (files : list N) (S : bytes) : fsT :=
  match files with
  | [] => fs
  | f :: r => put_stream len (fs_put fs (filename f) (FFile (takeN len S))) r (dropN len S)
  end.

Lemma put_stream_shape len : forall files fs S,
  (forall f, In f files -> exists b, fs_get fs (filename f) = Some (FFile b) /\ lenN b = len) ->
  lenN S = lenN files * len ->
  same_shape fs (put_stream len fs files S).
Proof.
  induction files as [|f r IH]; intros fs S Hfull HS; cbn [put_stream]; [apply same_shape_refl|].
  rewrite lenN_cons in HS.
  destruct (Hfull f (or_introl eq_refl)) as (b & Hg & Hb).
  assert (Hsh : same_shape fs (fs_put fs (filename f) (FFile (takeN len S)))).
  { apply (same_shape_put _ _ b); [exact Hg|]. rewrite lenN_takeN. lia. }
  apply (same_shape_trans _ _ _ Hsh). apply IH.
  - intros x Hx. destruct (Hfull x (or_intror Hx)) as (bx & Hgx & Hbx).
    destruct (same_shape_file _ _ _ _ Hsh Hgx) as (bx' & Hgx' & Hbx'). exists bx'. split; [exact Hgx'|lia].
  - rewrite lenN_dropN. lia.
Qed.

Lemma put_stream_other len f : forall r fs S,
  (forall x, In x r -> filename x <> filename f) ->
  fcontent (put_stream len fs r S) f = fcontent fs f.
Proof.
  induction r as [|x r IH]; intros fs S Hne; cbn [put_stream]; [reflexivity|].
  rewrite IH by (intros y Hy; apply Hne; now right).
  apply fcontent_put_other. apply Hne. now left.
Qed.

Lemma put_stream_stream len : forall files fs S,
  StronglySorted N.lt files -> (forall f, In f files -> f <= U64_MAX) ->
  lenN S = lenN files * len ->
  stream_of (put_stream len fs files S) files = S.
Proof.
  induction files as [|f r IH]; intros fs S Hs Hu HS.
  - cbn [put_stream stream_of flat_map]. symmetry. apply lenN_0_nil. rewrite HS, (@lenN_nil N). lia.
  - rewrite lenN_cons in HS. inversion Hs as [|? ? Hs' Hf]; subst.
    rewrite stream_of_cons. cbn [put_stream].
    rewrite put_stream_other.
    + rewrite (fcontent_put_same _ _ _ f eq_refl).
      rewrite IH; [apply takeN_dropN|exact Hs'| |rewrite lenN_dropN; lia].
      intros x Hx. apply Hu. now right.
    + intros x Hx. rewrite Forall_forall in Hf. specialize (Hf x Hx). cbn beta in Hf.
      apply filename_neq; [apply Hu; now right|apply Hu; now left|lia].
Qed.

Section Inhabited.
Variable P : params.
Hypothesis HBS_lo : 7 < BS P.
Hypothesis HBS_hi : BS P <= 65542.
Hypothesis HNB : 1 <= NB P.
Hypothesis Hcrc : forall t p, crcf P t p < 2 ^ 32.
Local Notation FB := (FILE_BYTES P).

(* for every state under the invariant and every kept entry X there is a damaged encoding of X
   and a directory that differs from the dropped one exactly by it *)
Theorem damaged_dir_exists st G i X fX :
  Inv P st G -> nth_error (gh_E G) i = Some (fX, X) ->
  exists ex ed k fs_d, damaged_dir P st G i X ex ed k fs_d.
Proof.
  intros HI HX.
  destruct (damaged_encoding_exists P HBS_lo HBS_hi Hcrc G i X fX HX) as (ex & ed & k & Hd).
  set (w := s_wr st). set (dl := wlo w - gh_base G).
  set (T' := dmg_t1 P G i ++ ed ++ dmg_t2 P G i ex).
  set (z := (dl + lenN (w_files w)) * FB - lenN (gh_T P G)).
  set (S' := dropN (dl * FB) (T' ++ zerosN z)).
  exists ex, ed, k, (put_stream FB (vfs w) (w_files w) S').
  pose proof HI as ((Hw & _ & _ & Hbase & Hc1 & _) & _). cbn zeta in Hc1. fold w dl in Hc1.
  pose proof Hw as (Hok & _ & _ & _ & Hu & Hfull & _).
  pose proof (winv_wpos_le P HBS_lo HBS_hi HNB w Hw) as Hpos.
  assert (HlenT : lenN T' = lenN (gh_T P G)).
  { rewrite (dmg_T P HBS_lo HBS_hi Hcrc G i X fX HX ex ed k Hd). unfold T'.
    rewrite !lenN_app, (enc_dmg_len P HBS_lo HBS_hi Hcrc _ _ _ _ _ _ Hd). reflexivity. }
  assert (HlenS : lenN S' = lenN (w_files w) * FB).
  { unfold S'. rewrite lenN_dropN, lenN_app, lenN_zerosN, HlenT. unfold z.
    rewrite N.mul_add_distr_r. lia. }
  split; [now exists fX|]. cbn zeta. fold w dl T' z S'.
  split; [exact Hd|]. split.
  - apply put_stream_shape; [exact Hfull|exact HlenS].
  - apply put_stream_stream; [|intros f Hf; exact (N.le_trans _ _ _ (wr_ok_le w f Hok Hf) Hu)|exact HlenS].
    destruct (wr_ok_files w Hok) as (_ & _ & _ & Hs). exact Hs.
Qed.
End Inhabited.

Print Assumptions damaged_dir_exists.

(* a decidable form of same_shape, for concrete directories *)
Definition same_entry_b (x y : bytes * fentry) : bool :=
  bytes_eqb (fst x) (fst y) &&
  match snd x, snd y with
  | FFile a, FFile b => lenN a =? lenN b
  | FDir, FDir => true
  | FOther, FOther => true
  | _, _ => false
  end.

Fixpoint same_shape_b (fs fs' : fsT) : bool :=
  match fs, fs' with
  | [], [] => true
  | x :: r, y :: r' => same_entry_b x y && same_shape_b r r'
  | _, _ => false
  end.

Lemma same_shape_b_ok : forall fs fs', same_shape_b fs fs' = true -> same_shape fs fs'.
Proof.
  induction fs as [|[n e] fs IH]; intros [|[n' e'] fs'] H; cbn [same_shape_b] in H; try discriminate.
  - constructor.
  - apply andb_true_iff in H as [Hx Hr]. constructor; [|now apply IH].
    unfold same_entry_b in Hx. cbn [fst snd] in Hx. apply andb_true_iff in Hx as [Hn He].
    apply bytes_eqb_eq in Hn. split; [exact Hn|]. cbn [snd].
    destruct e, e'; try discriminate; try exact I. now apply N.eqb_eq.
Qed.

(* BS = 32, two blocks per file (files of 64 bytes), the real CRC-32.  Two queues; the first
   append (two records, 56 bytes of payload) starts in file 0 and rolls over into file 1; the
   truncate evicts its records and the GC deletes file 0 (after re-recording the position of
   the empty queue b), so the kept files 1..6 begin with two continuation frames of an entry
   whose first frame is gone.  Then both queues grow again (an entry of three frames, several
   roll-overs).  In the dropped directory we change, for EVERY frame in turn, one byte of its
   checksum, its first payload byte and its last payload byte (42 damaged directories), and
   check that open succeeds and that every record of the live state is recovered unless the
   entry the frame belongs to is the EAppend that appended it. *)
Module Example.
Definition Pc : params := mkParams 32 2 Crc.crc32 0 false false false.
Definition qa : bytes := ["a"%byte].
Definition qb : bytes := ["b"%byte].
Definition pay (c : byte) : bytes := [c; c; c; c; c; c; c; c; c; c].

Definition h_ex : list hop :=
  [HCall (OCreate qa) false;
   HCall (OCreate qb) false;
   HCall (OAppend qa None [pay "x"%byte; pay "y"%byte]) false;
   HCall (OAppend qa None [pay "u"%byte]) true;
   HCall (OTruncate qa 1 [qb]) false;
   HCall (OAppend qb None [pay "z"%byte]) false;
   HCall (OAppend qa None [pay "v"%byte; pay "t"%byte]) false;
   HCall (OAppend qb None [pay "w"%byte]) false].

Lemma Pc_BS_lo : 7 < BS Pc. Proof. reflexivity. Qed.
Lemma Pc_BS_hi : BS Pc <= 65542. Proof. intros H; discriminate H. Qed.
Lemma Pc_NB : 1 <= NB Pc. Proof. intros H; discriminate H. Qed.
Lemma Pc_crc : forall t p, crcf Pc t p < 2 ^ 32.
Proof. exact Crc.crc32_lt. Qed.

Definition st_dummy : state := mkSt (mkWr (ctx_init [] None) [] 0 0 []) [] PNothing.
Definition st0 : state :=
  Eval vm_compute in match open Pc [] None PNothing [] with OpenOk s => s | _ => st_dummy end.
Lemma open_st0 : open Pc [] None PNothing [] = OpenOk st0.
Proof. vm_compute. reflexivity. Qed.

Definition st_ex : state :=
  Eval vm_compute in match hrun Pc st0 h_ex with Some (s, _) => s | None => st_dummy end.
Definition outs_ex : list outcome :=
  Eval vm_compute in match hrun Pc st0 h_ex with Some (_, o) => o | None => [] end.
Lemma hrun_ex : hrun Pc st0 h_ex = Some (st_ex, outs_ex).
Proof. vm_compute. reflexivity. Qed.

(* the files, the writer's offset and the positions of the retained records along the way *)
Example trace_ex :
  map (fun k => match hrun Pc st0 (firstn k h_ex) with
                | Some (s, _) =>
                    Some (w_files (s_wr s), w_off (s_wr s),
                          map (fun '(q, (r, n)) => (q, map fst r, n)) (abs_qs (s_qs s)))
                | None => None end) [2; 3; 4; 5; 8]%nat =
  [Some ([0], 45, [(qa, [], 0); (qb, [], 0)]);
   Some ([0; 1], 58, [(qa, [0; 1], 2); (qb, [], 0)]);          (* roll-over *)
   Some ([0; 1; 2], 48, [(qa, [0; 1; 2], 3); (qb, [], 0)]);
   Some ([1; 2; 3], 29, [(qa, [2], 3); (qb, [], 0)]);          (* truncate: GC deletes file 0 *)
   Some ([1; 2; 3; 4; 5; 6], 16, [(qa, [2; 3; 4], 5); (qb, [0; 1], 2)])].
Proof. vm_compute. reflexivity. Qed.

(* the hypotheses of C09_from_fresh hold along this history: st_ex is under the invariant *)
Lemma hist_ok_ex : hist_ok Pc st0 h_ex.
Proof.
  unfold h_ex.
  RestartFinal.Example.call_tac. RestartFinal.Example.call_tac.
  RestartFinal.Example.call_tac. RestartFinal.Example.call_tac.
  RestartFinal.Example.call_tac. RestartFinal.Example.call_tac.
  RestartFinal.Example.call_tac. RestartFinal.Example.call_tac.
  exact I.
Qed.

Example C09_ex : exists G, Inv Pc st_ex G /\ gh_base G = 0 /\
  forall i X ex ed k fs_d,
    damaged_dir Pc st_ex G i X ex ed k fs_d -> dmg_bound Pc st_ex G ->
    forall pol hint, exists st_r,
      open Pc fs_d None pol hint = OpenOk st_r /\
      qs_inv (s_qs st_r) /\
      forall q m pos payload,
        qs_get (s_qs st_ex) q = Some m ->
        In (pos, payload) (records_of (q_buf m) (q_metas m)) ->
        ~ appended_by X q (pos, payload) ->
        exists m', qs_get (s_qs st_r) q = Some m' /\
                   In (pos, payload) (records_of (q_buf m') (q_metas m')).
Proof.
  exact (C09_from_fresh Pc Pc_BS_lo Pc_BS_hi Pc_NB Pc_crc eq_refl eq_refl
           PNothing st0 h_ex st_ex outs_ex open_st0 hrun_ex hist_ok_ex).
Qed.

(* the dropped directory and its frames *)
Definition fs_ex : fsT := Eval vm_compute in c_fs (drop_log st_ex).
Definition files_ex : list N := Eval vm_compute in w_files (s_wr st_ex).
Definition lo_ex : N := Eval vm_compute in wlo (s_wr st_ex).
Definition S_ex : bytes := Eval vm_compute in stream_of fs_ex files_ex.

(* the frames of the kept stream: (offset of the payload, payload length, type code) *)
Fixpoint frames (fuel : nat) (S : bytes) (o : N) : list (N * N * N) :=
  match fuel with
  | O => []
  | Datatypes.S f =>
      let c := o mod 32 in
      if 32 - c <? 7 then frames f S (o + (32 - c))
      else
        let hdr := sliceN o (o + 7) S in
        if (lenN hdr <? 7) || all_zero hdr then []
        else
          let len := le_dec (sliceN 4 6 hdr) in
          (o + 7, len, le_dec (dropN 6 hdr)) :: frames f S (o + 7 + len)
  end.

(* the entry each frame belongs to: Some k = the k-th entry that starts in the kept files;
   None = a continuation frame of the entry that straddles the start of the first kept file *)
Fixpoint group (fs : list (N * N * N)) (cur : option nat) (next : nat)
  : list (N * N * N * option nat) :=
  match fs with
  | [] => []
  | (o, l, t) :: r =>
      if (t =? 1) || (t =? 2) then (o, l, t, Some next) :: group r (Some next) (S next)
      else (o, l, t, cur) :: group r cur next
  end.

Definition frames_ex : list (N * N * N * option nat) :=
  Eval vm_compute in group (frames 100 S_ex 0) None 0.

Example frames_ex_eq :
  frames_ex =
  [(7, 25, 3, None); (39, 19, 4, None);                    (* Middle, Last of the lost append *)
   (71, 25, 2, Some 0%nat); (103, 9, 4, Some 0%nat);       (* EAppend a [u] *)
   (119, 9, 2, Some 1%nat); (135, 3, 4, Some 1%nat);       (* ETruncate a 1 *)
   (145, 12, 1, Some 2%nat);                               (* EPosition b 0 (written by the GC) *)
   (167, 25, 2, Some 3%nat); (199, 9, 4, Some 3%nat);      (* EAppend b [z] *)
   (215, 9, 2, Some 4%nat); (231, 25, 3, Some 4%nat); (263, 22, 4, Some 4%nat);
                                                           (* EAppend a [v; t] *)
   (295, 25, 2, Some 5%nat); (327, 9, 4, Some 5%nat)].     (* EAppend b [w] *)
Proof. reflexivity. Qed.

Definition entry_payload (k : nat) : bytes :=
  flat_map (fun '(o, l, _, id) => match id with
                                  | Some k' => if Nat.eqb k k' then sliceN o (o + l) S_ex else []
                                  | None => []
                                  end) frames_ex.
Definition entry_of (id : option nat) : option entry :=
  match id with Some k => entry_deser (entry_payload k) | None => None end.

Example entries_ex :
  map (fun k => entry_of (Some k)) [0; 1; 2; 3; 4; 5]%nat =
  [Some (EAppend qa 2 [(2, pay "u"%byte)]); Some (ETruncate qa 1); Some (EPosition qb 0);
   Some (EAppend qb 0 [(0, pay "z"%byte)]);
   Some (EAppend qa 3 [(3, pay "v"%byte); (4, pay "t"%byte)]);
   Some (EAppend qb 1 [(1, pay "w"%byte)])].
Proof. vm_compute. reflexivity. Qed.

Definition flip (bs : bytes) (i : N) : bytes :=
  takeN i bs ++ match dropN i bs with [] => [] | x :: r => n2b ((b2n x + 1) mod 256) :: r end.

(* the dropped directory with the byte at offset o of the kept stream changed *)
Definition fs_flip (o : N) : fsT :=
  let f := lo_ex + o / 64 in
  fs_put fs_ex (filename f) (FFile (flip (fcontent fs_ex f) (o mod 64))).

Definition recs_of (qs : queues) (q : bytes) : list (N * bytes) :=
  match qs_get qs q with Some m => records_of (q_buf m) (q_metas m) | None => [] end.
Definition rec_eqb (a b : N * bytes) : bool := (fst a =? fst b) && bytes_eqb (snd a) (snd b).

(* appended_by, decided *)
Definition appended_b (X : option entry) (q : bytes) (r : N * bytes) : bool :=
  match X with
  | Some (EAppend q' _ recs) => bytes_eqb q' q && existsb (rec_eqb r) recs
  | _ => false
  end.

(* open succeeds on fs' and recovers every record of st_ex that X did not append *)
Definition check_one (X : option entry) (fs' : fsT) : bool :=
  match open Pc fs' None PNothing [] with
  | OpenOk st' =>
      forallb (fun '(q, m) =>
                 forallb (fun r => appended_b X q r || existsb (rec_eqb r) (recs_of (s_qs st') q))
                         (records_of (q_buf m) (q_metas m))) (s_qs st_ex)
  | _ => false
  end.

(* the bytes changed in a frame: one of the checksum, the first and the last of the payload *)
Definition flips_of (o l : N) : list N := if l =? 0 then [o - 7] else [o - 7; o; o + l - 1].

Definition check_all : bool :=
  forallb (fun '(o, l, _, id) =>
             forallb (fun x => same_shape_b fs_ex (fs_flip x) && check_one (entry_of id) (fs_flip x))
                     (flips_of o l)) frames_ex.

Example C09_all_frames : check_all = true.
Proof. vm_compute. reflexivity. Qed.

(* what is actually lost: (queue, position) of the records of st_ex missing after open *)
Definition lost (fs' : fsT) : option (list (bytes * N)) :=
  match open Pc fs' None PNothing [] with
  | OpenOk st' =>
      Some (flat_map (fun '(q, m) =>
              flat_map (fun r => if existsb (rec_eqb r) (recs_of (s_qs st') q) then []
                                 else [(q, fst r)])
                       (records_of (q_buf m) (q_metas m))) (s_qs st_ex))
  | _ => None
  end.

(* the damage is never harmless for an EAppend: exactly its records are lost (so every changed
   byte is detected by the CRC), and nothing else is; the undamaged directory loses nothing *)
Example C09_losses :
  lost fs_ex = Some [] /\
  map (fun '(o, l, _, id) => (id, map (fun x => lost (fs_flip x)) (flips_of o l))) frames_ex =
  let all3 (l : list (bytes * N)) := [Some l; Some l; Some l] in
  [(None, all3 []); (None, all3 []);
   (Some 0%nat, all3 [(qa, 2)]); (Some 0%nat, all3 [(qa, 2)]);
   (Some 1%nat, all3 []); (Some 1%nat, all3 []);
   (Some 2%nat, all3 []);
   (Some 3%nat, all3 [(qb, 0)]); (Some 3%nat, all3 [(qb, 0)]);
   (Some 4%nat, all3 [(qa, 3); (qa, 4)]); (Some 4%nat, all3 [(qa, 3); (qa, 4)]);
   (Some 4%nat, all3 [(qa, 3); (qa, 4)]);
   (Some 5%nat, all3 [(qb, 1)]); (Some 5%nat, all3 [(qb, 1)])].
Proof. vm_compute. split; reflexivity. Qed.
End Example.

Print Assumptions Example.C09_ex.
Print Assumptions Example.C09_all_frames.
