(* DeletionSim.v — replay tolerates the loss of one entry (entry level of property C09,
   "frame damage costs only the entry it hits").

   Setting: a legal log L = A ++ x :: B; F is the replay of L (tags = indices in L); the damaged
   replay runs over A ++ B but keeps the ORIGINAL indices as tags (t_replay_skip).  The damaged
   replay does not fail; per queue, every record of F whose tag is not [length A] (i.e. not
   appended by x) is a record of the damaged state D, in the same relative order (sub-sequence),
   and D's next position never runs ahead of F's; the same for the model's replay
   (Log.apply_entry / GhostLog.replay_entries), for any file tags.  At the end a concrete
   instance with a delete + re-create, a truncate and a lost EDelete. *)
From Coq Require Import Lia ZArith ZifyN ZifyNat ZifyBool List.
From MRL Require Import Bytes BytesProofs Params Record Mem Spec Log SpecRefine RecordProofs
  GhostLog ReplaySpec.
From MRL Require HandleProofs.
Import ListNotations.

Inductive sublist {A : Type} : list A -> list A -> Prop :=
| sl_nil : sublist [] []
| sl_skip x l1 l2 : sublist l1 l2 -> sublist l1 (x :: l2)
| sl_keep x l1 l2 : sublist l1 l2 -> sublist (x :: l1) (x :: l2).

Lemma sublist_refl {A} (l : list A) : sublist l l.
Proof. induction l as [|x t IH]; constructor; exact IH. Qed.

Lemma sublist_nil_l {A} (l : list A) : sublist [] l.
Proof. induction l as [|x t IH]; constructor; exact IH. Qed.

Lemma sublist_In {A} (l1 l2 : list A) x : sublist l1 l2 -> In x l1 -> In x l2.
Proof.
  induction 1 as [|y l1 l2 H IH|y l1 l2 H IH]; intros Hin.
  - exact Hin.
  - right. now apply IH.
  - destruct Hin as [<-|Hin]; [now left|right; now apply IH].
Qed.

Lemma sublist_filter_l {A} (f : A -> bool) l1 l2 : sublist l1 l2 -> sublist (filter f l1) l2.
Proof.
  induction 1 as [|y l1 l2 H IH|y l1 l2 H IH]; cbn [filter].
  - constructor.
  - now constructor.
  - destruct (f y); now constructor.
Qed.

Lemma sublist_filter {A} (f : A -> bool) l : sublist (filter f l) l.
Proof. apply sublist_filter_l, sublist_refl. Qed.

Lemma sublist_filter_mono {A} (f : A -> bool) l1 l2 :
  sublist l1 l2 -> sublist (filter f l1) (filter f l2).
Proof.
  induction 1 as [|y l1 l2 H IH|y l1 l2 H IH]; cbn [filter].
  - constructor.
  - destruct (f y); [now constructor|exact IH].
  - destruct (f y); [now constructor|exact IH].
Qed.

Lemma sublist_app {A} (a1 a2 b1 b2 : list A) :
  sublist a1 a2 -> sublist b1 b2 -> sublist (a1 ++ b1) (a2 ++ b2).
Proof.
  intros Ha Hb. induction Ha as [|y l1 l2 H IH|y l1 l2 H IH]; cbn [app].
  - exact Hb.
  - now constructor.
  - now constructor.
Qed.

Lemma sublist_map {A B} (g : A -> B) l1 l2 : sublist l1 l2 -> sublist (map g l1) (map g l2).
Proof. induction 1; cbn [map]; now constructor. Qed.

Lemma sublist_length {A} (l1 l2 : list A) : sublist l1 l2 -> (length l1 <= length l2)%nat.
Proof. induction 1; cbn [length]; lia. Qed.

(* replay A with tags 0.., skip index [length A], replay B with tags length A + 1.. *)
Definition t_replay_skip (A B : list entry) : option tmap :=
  match t_replay [] 0 A with
  | Some m => t_replay m (S (length A)) B
  | None => None
  end.

Lemma log_with_lost_entry (A B : list entry) x : A ++ [x] ++ B = A ++ x :: B.
Proof. reflexivity. Qed.

(* records not appended by entry k *)
Definition not_x (k : nat) (r : trec) : bool := negb (fst r =? k)%nat.

(* F's view of a queue against D's view, for the records selected by kp *)
Definition gdel_q (kp : trec -> bool) (fq dq : option tqueue) : Prop :=
  match fq with
  | None => True
  | Some (rf, nf) =>
      match dq with
      | None => filter kp rf = []
      | Some (rd, nd) => sublist (filter kp rf) rd /\ nd <= nf
      end
  end.

Definition gdel (kp : trec -> bool) (F D : tmap) : Prop :=
  forall q, gdel_q kp (t_get F q) (t_get D q).

(* k = index of the lost entry *)
Definition del (k : nat) : tmap -> tmap -> Prop := gdel (not_x k).

Lemma gdel_q_refl kp v : gdel_q kp v v.
Proof.
  destruct v as [[rf nf]|]; cbn [gdel_q]; [|exact I]. split; [apply sublist_filter|lia].
Qed.

Lemma filter_not_x_tag_with k i new : i <> k -> filter (not_x k) (tag_with i new) = tag_with i new.
Proof.
  intros H. apply filter_all_true. intros r Hr. unfold tag_with in Hr.
  apply in_map_iff in Hr. destruct Hr as (a & <- & _). unfold not_x. cbn [fst].
  apply Bool.negb_true_iff. apply Nat.eqb_neq. exact H.
Qed.

Lemma filter_not_x_tag_same k new : filter (not_x k) (tag_with k new) = [].
Proof.
  apply filter_all_false. intros r Hr. unfold tag_with in Hr.
  apply in_map_iff in Hr. destruct Hr as (a & <- & _). unfold not_x. cbn [fst].
  now rewrite Nat.eqb_refl.
Qed.

Lemma gdel_q_step kp i fq dq e fq' :
  gdel_q kp fq dq -> wfq i fq -> legal_q fq e ->
  (forall new, filter kp (tag_with i new) = tag_with i new) ->
  q_apply fq i e = Some fq' ->
  exists dq', q_apply dq i e = Some dq' /\ gdel_q kp fq' dq'.
Proof.
  intros Hs Hw Hl Hk Hf. destruct e as [q pos recs|q p|q p|q p]; cbn [legal_q q_apply] in *.
  - (* EAppend *)
    destruct Hl as (old & next & -> & Hle & Hne & payloads & ->).
    apply number_from_nonnil in Hne.
    rewrite (t_append_all_number_from _ next _ pos payloads Hle Hne) in Hf.
    inversion Hf; subst fq'. clear Hf. cbn [gdel_q] in Hs.
    destruct dq as [[rd nd]|].
    + destruct Hs as (Hsub & Hn).
      rewrite (t_append_all_number_from _ nd _ pos payloads) by (try lia; exact Hne).
      eexists. split; [reflexivity|]. cbn [gdel_q]. split; [|lia].
      rewrite filter_app, Hk.
      apply sublist_app; [exact Hsub|apply sublist_refl].
    + rewrite (t_append_all_number_from _ pos _ pos payloads (N.le_refl _) Hne).
      eexists. split; [reflexivity|]. cbn [gdel_q]. split; [|lia].
      rewrite filter_app, Hk, Hs. apply sublist_refl.
  - (* ETruncate *)
    destruct fq as [[rf n]|]; [|congruence]. inversion Hf; subst fq'. clear Hf Hl.
    cbn [wfq] in Hw. destruct Hw as (_ & _ & Hpos). cbn [gdel_q] in Hs.
    destruct dq as [[rd nd]|].
    + destruct Hs as (Hsub & Hn). eexists. split; [reflexivity|].
      unfold t_truncate. cbn [gdel_q]. split.
      * rewrite filter_comm. now apply sublist_filter_mono.
      * destruct (N.leb_spec n (p + 1)) as [Hnp|Hnp].
        -- rewrite (filter_pos_nil p n rf Hpos Hnp). cbn [isnil andb].
           destruct (isnil _ && (nd <=? p + 1)); lia.
        -- rewrite andb_false_r.
           destruct (isnil (filter (fun r => p <? fst (snd r)) rd) && (nd <=? p + 1)); lia.
    + eexists. split; [reflexivity|]. unfold t_truncate. cbn [gdel_q].
      rewrite filter_comm, Hs. reflexivity.
  - (* EPosition *)
    destruct Hl as [(-> & ->)|(next & -> & ->)].
    + inversion Hf; subst fq'. clear Hf.
      destruct dq as [[rd nd]|].
      * destruct (negb (isnil rd) || negb (nd =? 0)) eqn:Ec.
        -- eexists. split; [reflexivity|]. cbn [gdel_q filter]. split; [constructor|lia].
        -- eexists. split; [reflexivity|]. cbn [gdel_q filter]. split; [apply sublist_nil_l|].
           apply Bool.orb_false_elim in Ec. destruct Ec as (_ & Ec).
           apply Bool.negb_false_iff in Ec. lia.
      * eexists. split; [reflexivity|]. cbn [gdel_q filter]. split; [constructor|lia].
    + cbn [isnil negb orb] in Hf. rewrite N.eqb_refl in Hf. cbn [negb] in Hf.
      inversion Hf; subst fq'. clear Hf. cbn [gdel_q filter] in *.
      destruct dq as [[rd nd]|].
      * destruct (negb (isnil rd) || negb (nd =? next)).
        -- eexists. split; [reflexivity|]. cbn [gdel_q filter]. split; [constructor|lia].
        -- eexists. split; [reflexivity|]. cbn [gdel_q filter]. exact Hs.
      * eexists. split; [reflexivity|]. cbn [gdel_q filter]. split; [constructor|lia].
  - (* EDelete *)
    inversion Hf; subst fq'. eexists. split; [reflexivity|]. exact I.
Qed.

Lemma gdel_step kp i F D e F' :
  gdel kp F D -> wf_tmap i F -> legal F e ->
  (forall new, filter kp (tag_with i new) = tag_with i new) ->
  t_apply F i e = Some F' ->
  exists D', t_apply D i e = Some D' /\ gdel kp F' D'.
Proof.
  intros Hs Hw Hl Hk Hf. apply legal_legal_q in Hl.
  apply (t_apply_rel (gdel_q kp) i e F D F' Hs Hf). intros fq' Hq.
  exact (gdel_q_step kp i _ _ e _ (Hs (entry_queue e)) (Hw (entry_queue e)) Hl Hk Hq).
Qed.

Lemma gdel_lockstep kp : forall suf i F D,
  gdel kp F D -> wf_tmap i F ->
  (forall j new, (i <= j)%nat -> filter kp (tag_with j new) = tag_with j new) ->
  legal_log F i suf ->
  exists F' D', t_replay F i suf = Some F' /\ t_replay D i suf = Some D' /\ gdel kp F' D'.
Proof.
  induction suf as [|e r IH]; intros i F D Hs Hw Hk Hl; cbn [t_replay].
  - exists F, D. repeat split; try reflexivity. exact Hs.
  - destruct (legal_log_cons_inv _ _ _ _ Hl) as (Hle & F1 & HF1 & Hr).
    destruct (gdel_step kp i F D e F1 Hs Hw Hle (fun new => Hk i new (le_n _)) HF1)
      as (D1 & HD1 & Hs1).
    rewrite HF1, HD1. apply IH; [exact Hs1| | |exact Hr].
    + eapply t_apply_wf; eauto.
    + intros j new Hj. apply Hk. lia.
Qed.


Lemma del_q_init k v e v' : legal_q v e -> q_apply v k e = Some v' -> gdel_q (not_x k) v' v.
Proof.
  intros Hl Hf. destruct e as [q pos recs|q p|q p|q p]; cbn [legal_q q_apply] in *.
  - destruct Hl as (old & next & -> & Hle & Hne & payloads & ->).
    apply number_from_nonnil in Hne.
    rewrite (t_append_all_number_from _ next _ pos payloads Hle Hne) in Hf.
    inversion Hf; subst v'. clear Hf. cbn [gdel_q]. split; [|lia].
    rewrite filter_app, filter_not_x_tag_same, app_nil_r. apply sublist_filter.
  - destruct v as [[rf n]|]; [|congruence]. inversion Hf; subst v'. clear Hf.
    unfold t_truncate. cbn [gdel_q]. split.
    + apply sublist_filter_l, sublist_filter.
    + destruct (isnil _ && (n <=? p + 1)) eqn:Ec; [|lia].
      apply andb_prop in Ec. destruct Ec as (_ & Ec). lia.
  - destruct Hl as [(-> & ->)|(next & -> & ->)].
    + inversion Hf; subst v'. reflexivity.
    + cbn [isnil negb orb] in Hf. rewrite N.eqb_refl in Hf. cbn [negb] in Hf.
      inversion Hf; subst v'. apply gdel_q_refl.
  - inversion Hf; subst v'. exact I.
Qed.

Lemma del_init k M e M' : legal M e -> t_apply M k e = Some M' -> del k M' M.
Proof.
  intros Hl Hf q. apply legal_legal_q in Hl.
  destruct (t_apply_get _ _ _ _ q Hf) as [(<- & Hq)|(_ & ->)]; [|apply gdel_q_refl].
  exact (del_q_init k _ e _ Hl Hq).
Qed.

Section Deletion.
Variables (A B : list entry) (x : entry).
Hypothesis Hlegal : legal_log [] 0 (A ++ x :: B).

Lemma deletion_split :
  exists M M1 F, t_replay [] 0 A = Some M /\ legal M x /\ t_apply M (length A) x = Some M1 /\
               wf_tmap (S (length A)) M1 /\ legal_log M1 (S (length A)) B /\
               t_replay M1 (S (length A)) B = Some F /\
               t_replay [] 0 (A ++ x :: B) = Some F.
Proof.
  destruct (legal_log_app _ _ _ _ Hlegal) as (M & HM & Hl). cbn [Nat.add] in Hl.
  destruct (legal_log_cons_inv _ _ _ _ Hl) as (Hlx & M1 & HM1 & HlB).
  destruct (legal_log_replay_some _ _ _ HlB) as (F & HF1).
  exists M, M1, F. split; [exact HM|]. split; [exact Hlx|]. split; [exact HM1|].
  pose proof (t_replay_wf A 0 [] M (wf_tmap_nil 0) HM) as HwM. cbn [Nat.add] in HwM.
  split; [eapply t_apply_wf; eauto|]. split; [exact HlB|]. split; [exact HF1|].
  rewrite t_replay_app, HM. cbn [Nat.add t_replay]. rewrite HM1. exact HF1.
Qed.

Lemma deletion_both :
  exists F D, t_replay [] 0 (A ++ x :: B) = Some F /\ t_replay_skip A B = Some D /\
              del (length A) F D.
Proof.
  destruct deletion_split as (M & M1 & F & HM & Hlx & HM1 & Hw1 & HlB & HF1 & HF).
  pose proof (del_init (length A) M x M1 Hlx HM1) as Hd0.
  destruct (gdel_lockstep (not_x (length A)) B (S (length A)) M1 M Hd0 Hw1) as (F' & D' & HF' & HD' & Hd).
  { intros j new Hj. apply filter_not_x_tag_with. lia. }
  { exact HlB. }
  rewrite HF1 in HF'. inversion HF'; subst F'.
  exists F, D'. split; [exact HF|]. split; [|exact Hd]. unfold t_replay_skip. rewrite HM. exact HD'.
Qed.

Theorem deletion_replay_some : exists D, t_replay_skip A B = Some D.
Proof. destruct deletion_both as (F & D & _ & HD & _). exists D. exact HD. Qed.

Variables F D : tmap.
Hypothesis HF : t_replay [] 0 (A ++ x :: B) = Some F.
Hypothesis HD : t_replay_skip A B = Some D.

Theorem deletion_simulation_strong : del (length A) F D.
Proof.
  destruct deletion_both as (F' & D' & HF' & HD' & Hd). rewrite HD in HD'. rewrite HF in HF'.
  inversion HD'; inversion HF'; subst. exact Hd.
Qed.

(* every record of F not appended by x is in D, same queue, same tag/position/payload,
   same relative order; D's next position never runs ahead of F's *)
Theorem deletion_simulation : forall q rf nf,
  t_get F q = Some (rf, nf) ->
  (forall r, In r rf -> fst r <> length A ->
     exists rd nd, t_get D q = Some (rd, nd) /\ In r rd) /\
  (forall rd nd, t_get D q = Some (rd, nd) ->
     sublist (filter (not_x (length A)) rf) rd /\ nd <= nf).
Proof.
  intros q rf nf EF. pose proof (deletion_simulation_strong q) as H. rewrite EF in H.
  cbn [gdel_q] in H. split.
  - intros r Hin Hne.
    assert (Hr : In r (filter (not_x (length A)) rf)).
    { apply filter_In. split; [exact Hin|]. unfold not_x. apply Bool.negb_true_iff.
      apply Nat.eqb_neq. exact Hne. }
    destruct (t_get D q) as [[rd nd]|].
    + destruct H as (Hsub & _). exists rd, nd. split; [reflexivity|].
      eapply sublist_In; eauto.
    + rewrite H in Hr. destruct Hr.
  - intros rd nd ED. rewrite ED in H. exact H.
Qed.

(* the damaged state holds no record tagged with the lost index, and is well formed *)
Theorem deletion_result_wf : wf_tmap (S (length A) + length B) D.
Proof.
  unfold t_replay_skip in HD. destruct (t_replay [] 0 A) as [M|] eqn:HM; [|discriminate].
  pose proof (t_replay_wf A 0 [] M (wf_tmap_nil 0) HM) as HwM. cbn [Nat.add] in HwM.
  eapply t_replay_wf; [|exact HD]. intros q. eapply wfq_mono; [|apply HwM]. lia.
Qed.
End Deletion.

(* the model's replay of the damaged log, against the tagged one *)
Lemma replay_skip_refines (fA' fB' : list (N * entry)) D :
  t_replay_skip (map snd fA') (map snd fB') = Some D ->
  exists qD, replay_entries [] (fA' ++ fB') = Some qD /\ untag D = abs_qs qD /\ qs_inv qD.
Proof.
  unfold t_replay_skip. intros H.
  destruct (t_replay [] 0 (map snd fA')) as [M|] eqn:HM; [|discriminate].
  rewrite replay_app, <- HandleProofs.apply_entries_replay_entries.
  pose proof (apply_entries_refines fA' [] 0 [] qs_inv_nil eq_refl) as H1.
  destruct (apply_entries [] fA') as [qA|].
  - destruct H1 as (tm & E & Hu & Hi). rewrite HM in E. inversion E; subst tm.
    cbn [obind]. rewrite <- HandleProofs.apply_entries_replay_entries.
    pose proof (apply_entries_refines fB' qA (S (length (map snd fA'))) M Hi Hu) as H2.
    destruct (apply_entries qA fB') as [qD|].
    + destruct H2 as (tm & E2 & Hu2 & Hi2). rewrite H in E2. inversion E2; subst tm.
      exists qD. split; [reflexivity|]. split; assumption.
    + congruence.
  - congruence.
Qed.

(* The model's replay (open's replay loop) of the log with one entry lost, read from any files:
   it succeeds, and every record of the full result that was not appended by the lost entry
   is still there, in the same queue, with the same position and payload, in the same order. *)
Theorem model_deletion (fA fB fA' fB' : list (N * entry)) (fx : N * entry) F :
  let A := map snd fA in
  let B := map snd fB in
  let x := snd fx in
  map snd fA' = A -> map snd fB' = B ->
  legal_log [] 0 (A ++ x :: B) ->
  t_replay [] 0 (A ++ x :: B) = Some F ->
  exists qF qD,
    replay_entries [] (fA ++ fx :: fB) = Some qF /\
    replay_entries [] (fA' ++ fB') = Some qD /\
    qs_inv qF /\ qs_inv qD /\ abs_qs qF = untag F /\
    forall q rf nf, t_get F q = Some (rf, nf) ->
      (exists mF, qs_get qF q = Some mF /\
                  records_of (q_buf mF) (q_metas mF) = map snd rf /\ next_position mF = nf) /\
      (forall r, In r rf -> fst r <> length A ->
         exists mD, qs_get qD q = Some mD /\ In (snd r) (records_of (q_buf mD) (q_metas mD))) /\
      (forall mD, qs_get qD q = Some mD ->
         sublist (map snd (filter (not_x (length A)) rf)) (records_of (q_buf mD) (q_metas mD)) /\
         next_position mD <= nf).
Proof.
  intros A B x HA HB Hl HF.
  destruct (deletion_replay_some A B x Hl) as (D & HD).
  pose proof (apply_entries_refines (fA ++ fx :: fB) [] 0 [] qs_inv_nil eq_refl) as H1.
  rewrite map_app in H1. cbn [map] in H1. fold A B x in H1. rewrite HF in H1.
  rewrite HandleProofs.apply_entries_replay_entries in H1.
  destruct (replay_entries [] (fA ++ fx :: fB)) as [qF|]; [|discriminate].
  destruct H1 as (tmF & EF & HuF & HiF). inversion EF; subst tmF.
  pose proof HD as HD'. rewrite <- HA, <- HB in HD'.
  destruct (replay_skip_refines fA' fB' D HD') as (qD & EqD & HuD & HiD).
  exists qF, qD. split; [reflexivity|]. split; [exact EqD|]. split; [exact HiF|].
  split; [exact HiD|]. split; [now symmetry|].
  intros q rf nf Eq.
  destruct (deletion_simulation A B x Hl F D HF HD q rf nf Eq) as (Hin & Hsub).
  pose proof (untag_abs_get F qF q HuF) as HgF. rewrite Eq in HgF.
  pose proof (untag_abs_get D qD q HuD) as HgD.
  split; [|split].
  - destruct (qs_get qF q) as [mF|]; [|destruct HgF]. exists mF. split; [reflexivity|].
    unfold untag_q, abs_q in HgF. cbn [fst snd] in HgF. injection HgF as Hr1 Hn1. split; congruence.
  - intros r Hr Hne. destruct (Hin r Hr Hne) as (rd & nd & ED & Hrd). rewrite ED in HgD.
    destruct (qs_get qD q) as [mD|]; [|destruct HgD]. exists mD. split; [reflexivity|].
    unfold untag_q, abs_q in HgD. cbn [fst snd] in HgD. injection HgD as Hr1 Hn1.
    rewrite <- Hr1. now apply in_map.
  - intros mD EmD. rewrite EmD in HgD.
    destruct (t_get D q) as [[rd nd]|]; [|destruct HgD].
    destruct (Hsub rd nd eq_refl) as (Hs & Hn).
    unfold untag_q, abs_q in HgD. cbn [fst snd] in HgD. injection HgD as Hr1 Hn1.
    split; [|lia]. rewrite <- Hr1. now apply sublist_map.
Qed.

(* qa: created, filled, deleted, re-created, filled, truncated; qb: created, filled, then the
   LOST entry deletes it; afterwards qa grows, qb is re-created and filled again. *)
Definition tr (i : nat) (p : N) (b : bytes) : trec := (i, (p, b)).

Definition dx_A : list entry :=
  [EPosition qa 0; EAppend qa 0 (number_from 0 [[x01]; [x02]]); EDelete qa 0;
   EPosition qa 0; EAppend qa 0 (number_from 0 [[x03]; [x04]; [x05]]); ETruncate qa 0;
   EPosition qb 0; EAppend qb 0 (number_from 0 [[x09]])].
Definition dx_x : entry := EDelete qb 0.
Definition dx_B1 : list entry := [EAppend qa 5 (number_from 5 [[x06]])].
Definition dx_B2 : list entry := [EPosition qb 0; EAppend qb 0 (number_from 0 [[x07]])].
Definition dx_B : list entry := dx_B1 ++ dx_B2.

Example dx_legal : legal_log [] 0 (dx_A ++ dx_x :: dx_B).
Proof.
  unfold dx_A, dx_x, dx_B, dx_B1, dx_B2. cbn [app]. repeat legal_step. apply ll_nil.
Qed.

(* the full state and the damaged state: here they agree on every record (the old incarnation
   of qb survives the lost EDelete but is reset by the re-creation's EPosition qb 0) *)
Definition dx_F : tmap :=
  [(qa, ([tr 4 1 [x04]; tr 4 2 [x05]; tr 9 5 [x06]], 6)); (qb, ([tr 11 0 [x07]], 1))].

Example dx_full : t_replay [] 0 (dx_A ++ dx_x :: dx_B) = Some dx_F.
Proof. vm_compute. reflexivity. Qed.

Example dx_damaged :
  t_replay_skip dx_A dx_B =
  Some [(qa, ([tr 4 1 [x04]; tr 4 2 [x05]; tr 9 5 [x06]], 6));
        (qb, ([tr 11 0 [x07]], 1))].
Proof. vm_compute. reflexivity. Qed.

(* cut before the re-creation: F has no qb, D keeps the old incarnation (allowed: extra) *)
Example dx_full_1 :
  t_replay [] 0 (dx_A ++ dx_x :: dx_B1) =
  Some [(qa, ([tr 4 1 [x04]; tr 4 2 [x05]; tr 9 5 [x06]], 6))].
Proof. vm_compute. reflexivity. Qed.

Example dx_damaged_1 :
  t_replay_skip dx_A dx_B1 =
  Some [(qa, ([tr 4 1 [x04]; tr 4 2 [x05]; tr 9 5 [x06]], 6));
        (qb, ([tr 7 0 [x09]], 1))].
Proof. vm_compute. reflexivity. Qed.

(* a lost ETruncate: D keeps the truncated record, F's records are a sub-sequence *)
Definition dy_A : list entry :=
  [EPosition qa 0; EAppend qa 0 (number_from 0 [[x01]; [x02]])].
Definition dy_x : entry := ETruncate qa 0.
Definition dy_B : list entry := [EAppend qa 2 (number_from 2 [[x03]])].

Example dy_full :
  t_replay [] 0 (dy_A ++ dy_x :: dy_B) = Some [(qa, ([tr 1 1 [x02]; tr 3 2 [x03]], 3))].
Proof. vm_compute. reflexivity. Qed.
Example dy_damaged :
  t_replay_skip dy_A dy_B =
  Some [(qa, ([tr 1 0 [x01]; tr 1 1 [x02]; tr 3 2 [x03]], 3))].
Proof. vm_compute. reflexivity. Qed.

(* the model theorem instantiated: hypotheses satisfiable, files differ between the two runs *)
Example dx_model :
  exists qF qD,
    replay_entries [] (map (pair 1) dx_A ++ (2, dx_x) :: map (pair 2) dx_B) = Some qF /\
    replay_entries [] (map (pair 1) dx_A ++ map (pair 3) dx_B) = Some qD /\
    (exists mF mD, qs_get qF qa = Some mF /\ qs_get qD qa = Some mD /\
       sublist (records_of (q_buf mF) (q_metas mF)) (records_of (q_buf mD) (q_metas mD))) /\
    (exists mF mD, qs_get qF qb = Some mF /\ qs_get qD qb = Some mD /\
       sublist (records_of (q_buf mF) (q_metas mF)) (records_of (q_buf mD) (q_metas mD))).
Proof.
  assert (Hsnd : forall (f : N) (l : list entry), map snd (map (pair f) l) = l).
  { intros f l. rewrite map_map. cbn [snd]. apply map_id. }
  pose proof (model_deletion (map (pair 1) dx_A) (map (pair 2) dx_B)
                (map (pair 1) dx_A) (map (pair 3) dx_B) (2, dx_x) dx_F) as H.
  cbn zeta in H. cbn [snd] in H. rewrite !Hsnd in H.
  destruct (H eq_refl eq_refl dx_legal dx_full) as (qF & qD & H1 & H2 & _ & _ & _ & H3).
  clear H.
  - exists qF, qD. split; [exact H1|]. split; [exact H2|].
    split.
    + destruct (H3 qa _ _ eq_refl) as ((mF & EF & HrF & _) & Hin & Hsub).
      destruct (Hin (tr 4 1 [x04])) as (mD & ED & _); [now left|cbv; lia|].
      exists mF, mD. split; [exact EF|]. split; [exact ED|].
      rewrite HrF. destruct (Hsub mD ED) as (Hs & _). exact Hs.
    + destruct (H3 qb _ _ eq_refl) as ((mF & EF & HrF & _) & Hin & Hsub).
      destruct (Hin (tr 11 0 [x07])) as (mD & ED & _); [now left|cbv; lia|].
      exists mF, mD. split; [exact EF|]. split; [exact ED|].
      rewrite HrF. destruct (Hsub mD ED) as (Hs & _). exact Hs.
Qed.

Print Assumptions deletion_replay_some.
Print Assumptions deletion_simulation_strong.
Print Assumptions deletion_simulation.
Print Assumptions deletion_result_wf.
Print Assumptions replay_skip_refines.
Print Assumptions model_deletion.
Print Assumptions dx_legal.
Print Assumptions dx_model.
