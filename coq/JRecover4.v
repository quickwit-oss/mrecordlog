(* JRecover4.v — a premise on the prefix pe of the events of a call that a crash leaves: no
   EvCreate in pe (the crash is before any roll-over of the call). *)
From Coq Require Import Lia ZArith List.
From MRL Require Import Bytes BytesProofs Params Names NamesProofs Mem Rolling Log Driver GcProofs RestartGc.

Definition no_create (pe : list event) : Prop :=
  Forall (fun e => match e with EvCreate _ => False | _ => True end) pe.

Lemma no_create_absent pe : no_create pe -> forall fs name,
  fs_get fs name = None -> fs_get (fold_left apply_event pe fs) name = None.
Proof.
  induction 1 as [|e pe He _ IH]; intros fs name Hn; cbn [fold_left]; [exact Hn|].
  apply IH. destruct e; cbn [apply_event]; try exact Hn.
  - contradiction.
  - destruct (fs_get fs name0) as [[b| |]|] eqn:E; try exact Hn.
    rewrite fs_get_put_other; [exact Hn|]. intros ->. congruence.
  - destruct (fs_get fs name0) as [[b| |]|] eqn:E; try exact Hn.
    rewrite fs_get_put_other; [exact Hn|]. intros ->. congruence.
  - now apply fs_get_remove_none.
Qed.

