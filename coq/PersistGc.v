(* PersistGc.v — the garbage collector in recovery and in a crash.
   rgc_ok: the recovery-time GC of `open` never fails when the writer made by the replay
     tracks the files lo .. lo+n of the directory, all of them present, with its current file
     ANYWHERE among them (after a crash the reader may stop before the last file, so FileStream.winv
     does not hold) and the position entries fit below 2^64 files.
   gc_partial: a crash in the middle of the unlinks of a garbage collection leaves the
     directory of a state that satisfies the restart invariant (the GC of a smaller "referenced"
     predicate stops exactly there). *)
From Coq Require Import Lia ZArith ZifyN ZifyNat ZifyBool List Sorted.
From MRL Require Import Bytes BytesProofs Params Names NamesProofs Frame Record Mem Spec Rolling Log
  Driver SpecRefine RecordProofs StreamProofs PolicyProofs GcProofs GhostLog ReplaySpec
  HandleProofs FileStream ResyncProofs PersistProofs WriterProofs RestartInv RestartWrite RestartGc
  RestartStep OpenReplay TornFile CrashTrace PersistTrace.

Lemma tracker_next_iota n : forall lo f,
  lo <= f -> f < lo + N.of_nat n -> tracker_next (iota lo (S n)) f = Some (f + 1).
Proof.
  induction n as [|n IH]; intros lo f H1 H2; [lia|].
  cbn [iota tracker_next]. destruct (N.ltb_spec f lo) as [Hlt|_]; [lia|].
  destruct (N.eq_dec f lo) as [->|Hne].
  - destruct (N.ltb_spec lo (lo + 1)) as [_|H]; [reflexivity|lia].
  - specialize (IH (lo + 1) f ltac:(lia) ltac:(lia)). cbn [iota] in IH. exact IH.
Qed.

Section RecGc.
Variable P : params.
Hypothesis HBS_lo : 7 < BS P.
Hypothesis HBS_hi : BS P <= 65542.
Hypothesis HNB : 1 <= NB P.
Hypothesis Hcrc : forall t p, crcf P t p < 2 ^ 32.
Hypothesis HGC : L_GC P = false.

Local Notation B := (BS P).
Local Notation FB := (FILE_BYTES P).
Local Notation enc_of := (enc_of P).
Local Notation encs_of := (encs_of P).
Local Notation cursor_after := (cursor_after P).
Local Notation sr := (map entry_ser).
Local Notation HW f := (f P HBS_lo HBS_hi HNB Hcrc) (only parsing).
Local Notation HG f := (f P HBS_lo HBS_hi HNB Hcrc HGC) (only parsing).
Local Notation HN f := (f P HBS_lo HBS_hi HNB) (only parsing).
Local Notation H3 f := (f P HBS_lo HBS_hi Hcrc) (only parsing).
Local Notation MAXB := (FB * (U64_MAX + 1)).

(* the writer tracks the files lo .. lo+n, all present; its file is one of them *)
Definition rinv (lo : N) (n : nat) (w : rwriter) : Prop :=
  w_files w = iota lo (S n) /\ lo <= w_file w /\ w_file w <= lo + N.of_nat n /\
  lo + N.of_nat n <= U64_MAX /\ c_plan (w_ctx w) = None /\ wf w /\ w_off w <= FB /\
  (forall f, lo <= f <= lo + N.of_nat n ->
     exists b, fs_get (vfs w) (filename f) = Some (FFile b)) /\
  (forall f, lo + N.of_nat n < f -> f <= U64_MAX -> fs_get (vfs w) (filename f) = None).

Definition rinvx (lo : N) (w : rwriter) : Prop := exists n, rinv lo n w.

Definition wabs (w : rwriter) : N := w_file w * FB + w_off w.

Lemma rinv_wr_ok lo n w : rinv lo n w -> w_file w = lo + N.of_nat n -> wr_ok w.
Proof.
  intros (Hf & _) Hl. split.
  - rewrite Hf. apply contiguous_iota. exists lo, n. reflexivity.
  - rewrite Hf, (HN iota_last), Hl. reflexivity.
Qed.

(* rolling into a file that exists already (only possible after a crash) *)
Lemma wr_write_roll_existing lo n w d :
  rinv lo n w -> d <> [] -> FB < w_off w + lenN d -> w_file w < lo + N.of_nat n ->
  exists w', wr_write P w d = (w', Ok tt) /\
    w_files w' = w_files w /\ w_file w' = w_file w + 1 /\ w_off w' = lenN d /\
    c_plan (w_ctx w') = None /\ vfs w' = fs_write (vfs w) (w_file w + 1) 0 d /\ wf w'.
Proof.
  intros (Hf & Hlo & Hhi & Hu & Hpl & Hwf & Hoff & Hex & Hfresh) Hd Hroll Hlt.
  unfold wr_write. destruct d as [|x d'] eqn:Ed; [congruence|].
  rewrite <- Ed in *. clear Ed x d'.
  destruct (N.ltb_spec FB (w_off w + lenN d)) as [_|H]; [|lia].
  fold (synced w).
  pose proof (synced_pending w) as P1. pose proof (synced_key w) as Q1.
  pose proof (synced_fs w) as V1.
  destruct (synced w) as [c1 fl1 n1 off1 p1]. cbn [w_pending w_ctx] in P1, V1. subst p1.
  symmetry in Q1. apply wkey_fields in Q1. cbn [w_files w_file w_off w_ctx] in Q1.
  destruct Q1 as (E1 & E2 & E3 & Hm). subst fl1 n1 off1. cbn [w_files w_file w_off w_ctx w_pending].
  rewrite Hf, (tracker_next_iota n lo (w_file w) Hlo Hlt).
  destruct (Hex (w_file w + 1) ltac:(lia)) as (b & Hb).
  assert (Hcok : cok (vfs w) c1).
  { split; [exact V1|]. apply cmeta_plan in Hm. congruence. }
  destruct (open_file_none (vfs w) c1 (w_file w + 1) b Hcok Hb) as (c2 & -> & (Hc2 & Hp2)).
  set (w2 := mkWr c2 (iota lo (S n)) (w_file w + 1) 0 []).
  destruct (bw_write_all_wrote P w2 d Hd (wf_nil w2 eq_refl)) as (Hk & Hv & Hw').
  apply wkey_fields in Hk. destruct Hk as (K1 & K2 & K3 & K4).
  eexists. split; [reflexivity|].
  split; [rewrite K1; reflexivity|]. split; [exact K2|].
  split; [rewrite K3; unfold w2; cbn [w_off]; lia|].
  split; [apply cmeta_plan in K4; rewrite K4; exact Hp2|].
  split; [|exact Hw'].
  rewrite Hv. unfold w2. rewrite vfs_mk. cbn [w_file w_off]. now rewrite Hc2.
Qed.

Lemma fs_write_keeps fs f off d f' :
  (exists b, fs_get fs (filename f') = Some (FFile b)) ->
  exists b, fs_get (fs_write fs f off d) (filename f') = Some (FFile b).
Proof.
  intros (b & Hb). destruct (bytes_eqb (filename f) (filename f')) eqn:E.
  - apply bytes_eqb_eq in E. rewrite <- E. eexists. apply fs_get_write_same.
  - apply bytes_eqb_neq in E. exists b. rewrite fs_get_write_other by exact E. exact Hb.
Qed.

Lemma fs_write_fresh fs f off d hi :
  f <= hi -> hi <= U64_MAX ->
  (forall x, hi < x -> x <= U64_MAX -> fs_get fs (filename x) = None) ->
  forall x, hi < x -> x <= U64_MAX -> fs_get (fs_write fs f off d) (filename x) = None.
Proof.
  intros Hf Hu Hfresh x H1 H2. rewrite fs_get_write_other by (apply filename_neq; lia).
  now apply Hfresh.
Qed.

Lemma rinv_pwrite lo n w w' f off d :
  rinv lo n w -> w_files w' = w_files w -> lo <= w_file w' -> w_file w' <= lo + N.of_nat n ->
  w_off w' <= FB -> c_plan (w_ctx w') = None -> wf w' ->
  f <= lo + N.of_nat n -> vfs w' = fs_write (vfs w) f off d -> rinv lo n w'.
Proof.
  intros (Hf & _ & _ & Hu & _ & _ & _ & Hex & Hfresh) Ef Hlo Hhi Hoff Hpl Hwf Hle Ev.
  rewrite <- Ef in Hf. unfold rinv. rewrite Ev. repeat (split; [assumption|]). split.
  - intros x Hx. apply fs_write_keeps. now apply Hex.
  - now apply fs_write_fresh.
Qed.

Lemma rinv_write lo n w d :
  rinv lo n w -> d <> [] -> lenN d <= wr_rem P w ->
  (w_off w = FB -> w_file w + 1 <= U64_MAX) ->
  exists w' n', wr_write P w d = (w', Ok tt) /\ rinv lo n' w' /\
    wabs w' = wabs w + lenN d.
Proof.
  intros Hr Hd Hlen Hub.
  pose proof Hr as (Hf & Hlo & Hhi & Hu & Hpl & Hwf & Hoff & Hex & Hfresh).
  unfold wr_rem in Hlen.
  destruct (N.le_gt_cases (w_off w + lenN d) FB) as [Hfit|Hroll].
  - destruct (wr_write_fit P (HN HB0) HNB w d Hd Hwf Hfit) as (w' & Hw & K1 & K2 & K3 & K4 & K5 & K6).
    exists w', n. split; [exact Hw|]. split.
    + apply (rinv_pwrite lo n w w' (w_file w) (w_off w) d Hr K1);
        [lia|lia|lia|congruence|exact K6|lia|exact K5].
    + unfold wabs. rewrite K2, K3. lia.
  - assert (Hend : w_off w = FB) by (apply (fit_or_end P (HN HB0) HNB _ (lenN d)); assumption).
    assert (HlenFB : lenN d <= FB) by exact (HN rem_le_FB _ _ Hlen).
    specialize (Hub Hend).
    destruct (N.lt_ge_cases (w_file w) (lo + N.of_nat n)) as [Hlt|Hge].
    + destruct (wr_write_roll_existing lo n w d Hr Hd Hroll Hlt)
        as (w' & Hw & K1 & K2 & K3 & K4 & K5 & K6).
      exists w', n. split; [exact Hw|]. split.
      * apply (rinv_pwrite lo n w w' (w_file w + 1) 0 d Hr K1);
          [lia|lia|lia|exact K4|exact K6|lia|exact K5].
      * unfold wabs. rewrite K2, K3, Hend. lia.
    + assert (Hl : w_file w = lo + N.of_nat n) by lia.
      destruct (wr_write_roll P (HN HB0) HNB w d Hd (rinv_wr_ok lo n w Hr Hl) Hroll
                  (Hfresh (w_file w + 1) ltac:(lia) Hub))
        as (w' & Hw & K1 & K2 & K3 & K4 & K5 & K6).
      exists w', (S n). split; [exact Hw|]. split.
      * split.
        { rewrite K1, Hf, Hl. rewrite (TornFile.iota_snoc (S n) lo). do 2 f_equal. lia. }
        rewrite K2, K3. split; [lia|]. split; [lia|]. split; [lia|].
        split; [congruence|]. split; [exact K6|]. split; [exact HlenFB|].
        rewrite K5. split.
        -- intros f Hfr. apply fs_write_keeps.
           destruct (N.eq_dec f (w_file w + 1)) as [->|Hne].
           ++ eexists. apply PolicyProofs.fs_get_put_same.
           ++ rewrite GcProofs.fs_get_put_other by (apply filename_neq; lia). apply Hex. lia.
        -- apply fs_write_fresh; [lia|lia|]. intros x H1 H2.
           rewrite GcProofs.fs_get_put_other by (apply filename_neq; lia). apply Hfresh; lia.
      * unfold wabs. rewrite K2, K3, Hend. lia.
Qed.

(* the simulation by the in-memory writer positioned at the absolute byte position *)
Definition rsim (lo : N) (w : rwriter) (v : vecw) : Prop :=
  rinvx lo w /\ vw_cursor v = wabs w.

Definition Gm (v : vecw) : Prop := vw_cursor v <= MAXB.

Lemma rsim_rem lo w v : rsim lo w v -> wr_rem P w = vw_rem P v.
Proof.
  intros (_ & Hc). unfold wr_rem, vw_rem, wabs in *. now rewrite Hc, (pos_mod P (HN HB0) HNB).
Qed.

Lemma Gm_back v d : Gm (fst (vw_write v d)) -> Gm v.
Proof. unfold Gm, vw_write. cbn [fst vw_cursor]. lia. Qed.

Lemma rsim_write lo w v d : rsim lo w v -> lenN d <= vw_rem P v -> Gm (fst (vw_write v d)) ->
  snd (wr_write P w d) = snd (vw_write v d) /\ rsim lo (fst (wr_write P w d)) (fst (vw_write v d)).
Proof.
  intros Hs Hlen HG. pose proof (rsim_rem lo w v Hs) as Hrem.
  destruct Hs as ((n & Hr) & Hc).
  unfold vw_write. cbn [fst snd vw_cursor vw_buf].
  destruct d as [|x d'] eqn:Ed.
  - cbn [wr_write fst snd]. split; [reflexivity|]. split; [now exists n|].
    cbn [vw_cursor]. rewrite (@lenN_nil byte). lia.
  - rewrite <- Ed in *. assert (Hd : d <> []) by (rewrite Ed; discriminate). clear Ed x d'.
    pose proof (lenN_pos d Hd) as Hpos.
    rewrite <- Hrem in Hlen.
    unfold Gm in HG. cbn [vw_write fst vw_cursor] in HG.
    destruct (rinv_write lo n w d Hr Hd Hlen) as (w' & n' & Hw & Hr' & Hab).
    + intros Hend. apply (HN next_file_u64 _ (lenN d) Hpos).
      rewrite Hc in HG. unfold wabs in HG. rewrite Hend in HG. clear - HG. lia.
    + rewrite Hw. cbn [fst snd]. split; [reflexivity|]. split; [now exists n'|].
      cbn [vw_cursor]. lia.
Qed.

Lemma rsim_write_entry lo st e st1 r :
  rinvx lo (s_wr st) ->
  wabs (s_wr st) + lenN (enc_of (wabs (s_wr st)) (entry_ser e)) <= MAXB ->
  write_entry P st e = (st1, r) ->
  (exists k, r = Ok k) /\ s_qs st1 = s_qs st /\ s_pol st1 = s_pol st /\
  rinvx lo (s_wr st1) /\
  wabs (s_wr st1) = wabs (s_wr st) + lenN (enc_of (wabs (s_wr st)) (entry_ser e)).
Proof.
  intros Hr HM Hw. unfold write_entry in Hw.
  destruct (write_record P rwriter (wr_write P) (wr_rem P) (s_wr st) (entry_ser e)) as [w1 r1] eqn:Ew.
  inversion Hw; subst st1 r. clear Hw.
  set (v := mkVecW (wabs (s_wr st)) []).
  pose proof (write_record_sim P (HN HB7) rwriter vecw (wr_write P) (wr_rem P) vw_write (vw_rem P)
                (rsim lo) Gm (rsim_rem lo) Gm_back (rsim_write lo) (vw_pad_full P (HN HB0) HNB)
                (s_wr st) v (entry_ser e)) as Hsim.
  rewrite (H3 write_record_enc_of) in Hsim. cbn [fst snd vw_cursor vw_buf v] in Hsim.
  destruct Hsim as [Er Hs].
  - split; [exact Hr|reflexivity].
  - unfold Gm. cbn [vw_cursor]. exact HM.
  - rewrite Ew in Er, Hs. cbn [fst snd] in Er, Hs. destruct Hs as [Hr1 Hc1]. cbn [vw_cursor] in Hc1.
    split; [eexists; exact Er|]. split; [reflexivity|]. split; [reflexivity|].
    cbn [set_wr s_wr]. split; [exact Hr1|]. symmetry. exact Hc1.
Qed.

Lemma rsim_record_positions lo names : forall st acc st1 r,
  rinvx lo (s_wr st) ->
  cursor_after (wabs (s_wr st)) (sr (map snd (rp_log P st names))) <= MAXB ->
  record_positions P st names acc = (st1, r) ->
  (exists k, r = Ok k) /\ s_qs st1 = s_qs st /\ s_pol st1 = s_pol st /\ rinvx lo (s_wr st1).
Proof.
  induction names as [|nm names IH]; intros st acc st1 r Hr HM Hrp;
    cbn [record_positions rp_log] in *.
  - inversion Hrp; subst. split; [eexists; reflexivity|]. auto.
  - destruct (qs_get (s_qs st) nm) as [q|] eqn:Eq; [|eapply IH; eassumption].
    destruct (write_entry P st (EPosition nm (next_position q))) as [st2 r2] eqn:Ew.
    set (e := EPosition nm (next_position q)) in *.
    assert (HM1 : wabs (s_wr st) + lenN (enc_of (wabs (s_wr st)) (entry_ser e)) <= MAXB).
    { destruct r2 as [k|err]; cbn [map snd] in HM; rewrite (H3 cursor_after_cons) in HM;
        unfold ResyncProofs.cursor_after in HM; lia. }
    destruct (rsim_write_entry lo st e st2 r2 Hr HM1 Ew) as ((k & ->) & Eqs & Epol & Hr2 & Hab).
    cbn [map snd] in HM. rewrite (H3 cursor_after_cons), <- Hab in HM.
    destruct (IH st2 (acc + k) st1 r Hr2 HM Hrp) as (Hk & Eqs' & Epol' & Hr').
    split; [exact Hk|]. split; [congruence|]. split; [congruence|exact Hr'].
Qed.

(* unlinking files that are all there never fails *)
Lemma gc_loop_present refd : forall files c,
  NoDup files ->
  (forall f, In f files -> f <= U64_MAX /\ exists b, fs_get (c_fs c) (filename f) = Some (FFile b)) ->
  exists c' files', gc_loop c files refd = (c', files', Ok tt).
Proof.
  induction files as [|f rest IH]; intros c Hnd Hall; [cbn; eauto|].
  destruct rest as [|g rest']; [cbn; eauto|].
  cbn [gc_loop]. destruct (refd f); [eauto|].
  destruct (Hall f (or_introl eq_refl)) as (Hfu & b & Hb). rewrite Hb.
  inversion Hnd as [|? ? Hnin Hnd']; subst.
  apply IH; [exact Hnd'|].
  intros f' Hin. destruct (Hall f' (or_intror Hin)) as (Hu' & b' & Hb'). split; [exact Hu'|].
  exists b'. cbn [ctx_ev ctx_fs c_fs].
  rewrite GcProofs.fs_get_remove_other; [exact Hb'|].
  apply filename_neq; try assumption. intros ->. contradiction.
Qed.

Lemma iota_NoDup n : forall lo, NoDup (iota lo n).
Proof.
  induction n as [|n IH]; intros lo; cbn [iota]; constructor; [|apply IH].
  rewrite iota_In. lia.
Qed.

Lemma rinvx_gc_ok lo st hint :
  rinvx lo (s_wr st) ->
  cursor_after (wabs (s_wr st)) (sr (map snd (gc_log P st hint))) <= MAXB ->
  exists st1 k, run_gc_if_necessary P st hint = (st1, Ok k) /\ s_qs st1 = s_qs st /\
                s_pol st1 = s_pol st.
Proof.
  intros Hr HM.
  pose proof (run_gc_qs P st hint) as Hqs.
  unfold run_gc_if_necessary in *. unfold gc_log in HM.
  destruct (has_deletable st); [|exists st, 0; auto].
  unfold record_empty_queues_position in *.
  destruct (record_positions P st (pick_order hint (empty_names (s_qs st))) 0) as [st0 r0] eqn:Erp.
  destruct (rsim_record_positions lo _ st 0 st0 r0 Hr HM Erp) as ((k & ->) & Eqs & Epol & (n & Hr0)).
  rewrite HGC in *. cbn [andb] in *.
  set (st1 := persist st0 true) in *.
  destruct Hr0 as (Hf & Hlo & Hhi & Hu & Hpl & Hwf & Hoff & Hex & Hfresh).
  assert (Hf1 : w_files (s_wr st1) = iota lo (S n)).
  { unfold st1. cbn [persist set_wr s_wr].
    pose proof (wr_persist_key (s_wr st0) true) as Hk. symmetry in Hk.
    apply wkey_fields in Hk. destruct Hk as (K & _). congruence. }
  assert (Hfs1 : c_fs (w_ctx (s_wr st1)) = vfs (s_wr st0)).
  { unfold st1. cbn [persist set_wr s_wr]. rewrite <- (wr_persist_vfs (s_wr st0) true).
    symmetry. apply vfs_nil. apply wr_persist_drained. }
  destruct (gc_loop_present (referenced st1 (w_file (s_wr st))) (w_files (s_wr st1))
              (w_ctx (s_wr st1))) as (c' & files' & Egc).
  - rewrite Hf1. apply iota_NoDup.
  - intros f Hin. rewrite Hf1 in Hin. apply iota_In in Hin. split; [lia|].
    rewrite Hfs1. apply Hex. lia.
  - rewrite Egc in *. cbn [fst] in Hqs. eexists _, k. split; [reflexivity|]. split; [exact Hqs|].
    cbn [set_wr s_pol st1 persist]. exact Epol.
Qed.

Theorem rgc_ok lo st hint :
  rinvx lo (s_wr st) -> w_pending (s_wr st) = [] ->
  cursor_after (wabs (s_wr st)) (sr (map snd (gc_log P st hint))) <= MAXB ->
  exists st1 k, run_gc_if_necessary P st hint = (st1, Ok k) /\ s_qs st1 = s_qs st /\
                s_pol st1 = s_pol st.
Proof. intros Hr _. apply (rinvx_gc_ok lo st hint Hr). Qed.

Lemma gc_loop_step2 c f g r refd :
  gc_loop c (f :: g :: r) refd =
  if refd f then (c, f :: g :: r, Ok tt)
  else match fs_get (c_fs c) (filename f) with
       | Some (FFile _) | Some FOther =>
           gc_loop (ctx_ev (ctx_fs c (fs_remove (c_fs c) (filename f))) (EvUnlink (filename f)))
                   (g :: r) refd
       | Some FDir => (c, g :: r, Err IoIsADirectory)
       | None => (c, g :: r, Err IoNotFound)
       end.
Proof. reflexivity. Qed.

Lemma gc_loop_cut refd : forall m lo files' c c' t,
  gc_loop c (iota lo m ++ files') refd = (c', files', Ok tt) ->
  Forall (fun f => refd f = false) (iota lo m) ->
  gc_tight refd (iota lo m ++ files') files' ->
  lo <= t -> t <= lo + N.of_nat m ->
  exists c_t,
    gc_loop c (iota lo m ++ files') (fun x => refd x || (t <=? x)) =
      (c_t, iota t (N.to_nat (lo + N.of_nat m - t)) ++ files', Ok tt) /\
    c_fs c_t = remove_files (c_fs c) (iota lo (N.to_nat (t - lo))) /\
    c_plan c_t = c_plan c.
Proof.
  induction m as [|m IH]; intros lo files' c c' t Hgc Hun Htight H1 H2.
  - assert (t = lo) by lia. subst t. replace (N.to_nat (lo + N.of_nat 0 - lo)) with 0%nat by lia.
    replace (N.to_nat (lo - lo)) with 0%nat by lia. cbn [iota app] in *.
    exists c. split; [|split; reflexivity].
    destruct files' as [|f [|g r]]; try reflexivity.
    cbn [gc_tight] in Htight. cbn [gc_loop]. rewrite Htight. reflexivity.
  - cbn [iota app] in Hgc, Htight |- *.
    inversion Hun as [|? ? Hlo Hun']; subst.
    destruct (N.eq_dec t lo) as [->|Hne].
    + replace (N.to_nat (lo + N.of_nat (S m) - lo)) with (S m) by lia.
      replace (N.to_nat (lo - lo)) with 0%nat by lia.
      exists c. split; [|split; reflexivity]. cbn [iota app].
      destruct (iota (lo + 1) m ++ files') as [|g r]; [reflexivity|].
      cbn [gc_loop]. destruct (N.leb_spec lo lo) as [_|H]; [|lia]. now rewrite orb_true_r.
    + destruct (iota (lo + 1) m ++ files') as [|g r] eqn:Erest.
      { exfalso. cbn [gc_loop] in Hgc. inversion Hgc; subst files'.
        destruct (iota (lo + 1) m); discriminate. }
      rewrite gc_loop_step2 in Hgc |- *. rewrite Hlo in *.
      destruct (N.leb_spec t lo) as [H|_]; [lia|]. cbn [orb].
      assert (Htight' : gc_tight refd (g :: r) files').
      { destruct files' as [|f [|f' r']]; [discriminate Htight|exact I|exact Htight]. }
      replace (N.to_nat (t - lo)) with (S (N.to_nat (t - (lo + 1)))) by lia.
      cbn [iota]. unfold remove_files. cbn [fold_left]. fold (remove_files).
      replace (lo + N.of_nat (S m) - t) with (lo + 1 + N.of_nat m - t) by lia.
      destruct (fs_get (c_fs c) (filename lo)) as [[b| |]|] eqn:Eg; try discriminate.
      * rewrite <- Erest in Hgc, Htight' |- *.
        destruct (IH (lo + 1) files' _ c' t Hgc Hun' Htight' ltac:(lia) ltac:(lia))
          as (c_t & E1 & E2 & E3).
        exists c_t. split; [exact E1|]. split; [exact E2|exact E3].
      * rewrite <- Erest in Hgc, Htight' |- *.
        destruct (IH (lo + 1) files' _ c' t Hgc Hun' Htight' ltac:(lia) ltac:(lia))
          as (c_t & E1 & E2 & E3).
        exists c_t. split; [exact E1|]. split; [exact E2|exact E3].
Qed.

Local Notation Inv := (Inv P).
Local Notation stream_bound := (stream_bound P).

Theorem gc_partial st2 G2 hint st3 k :
  Inv st2 G2 -> stream_bound G2 (map snd (gc_log P st2 hint)) ->
  has_deletable st2 = true ->
  run_gc_if_necessary P st2 hint = (st3, Ok k) ->
  let st1 := gc_st1 P st2 hint in
  let lo := wlo (s_wr st1) in
  forall m c files',
    gc_loop (w_ctx (s_wr st1)) (w_files (s_wr st1)) (referenced st1 (w_file (s_wr st2))) =
      (c, files', Ok tt) ->
    w_files (s_wr st1) = iota lo m ++ files' ->
    forall mu, (mu <= m)%nat ->
    exists fake Gf,
      Inv fake Gf /\
      c_fs (w_ctx (s_wr fake)) = remove_files (c_fs (w_ctx (s_wr st1))) (iota lo mu) /\
      w_pending (s_wr fake) = [] /\ s_qs fake = s_qs st2 /\
      w_file (s_wr fake) = w_file (s_wr st1) /\ w_off (s_wr fake) = w_off (s_wr st1) /\
      gh_base Gf = gh_base G2.
Proof.
  intros HI Hb Hd Hgc st1 lo m c files' Egc Efiles mu Hmu.
  subst st1 lo. unfold gc_st1, gc_st0, gc_names in *. unfold gc_log in Hb. rewrite Hd in Hb.
  set (names := pick_order hint (empty_names (s_qs st2))) in *.
  destruct (record_positions P st2 names 0) as [st0 r0] eqn:Erp. cbn [fst] in *.
  pose proof HI as (HP & HL).
  assert (Hne : names_empty (s_qs st2) names).
  { apply pick_order_names_empty. exact (LInv_nodup _ _ _ HL). }
  destruct (HW inv_record_positions names st2 G2 0 st0 r0 HI Hne Hb Erp)
    as ((k0 & ->) & Eqs0 & Epol0 & Elo0 & Hm0 & HI0 & Hcov).
  set (st1 := persist st0 true) in *.
  set (guard := w_file (s_wr st2)) in *.
  assert (HI1 : Inv st1 (gh_app G2 (rp_log P st2 names))) by (apply (H3 inv_persist); exact HI0).
  assert (Eqs1 : s_qs st1 = s_qs st2) by exact Eqs0.
  set (lo := wlo (s_wr st1)) in *.
  destruct (gc_loop_ok _ _ _ _ _ Egc) as (dropped & Ef & Hun & Htight & _).
  assert (Edr : dropped = iota lo m).
  { rewrite Efiles in Ef. apply app_inv_tail in Ef. now symmetry. }
  subst dropped. rewrite Efiles in Egc, Htight.
  destruct (gc_loop_cut _ m lo files' _ c (lo + N.of_nat mu) Egc Hun Htight ltac:(lia) ltac:(lia))
    as (c_t & Ecut & Efs & Epl).
  replace (N.to_nat (lo + N.of_nat mu - lo)) with mu in Efs by lia.
  rewrite <- Efiles in Ecut.
  set (refd_t := fun x => referenced st1 guard x || (lo + N.of_nat mu <=? x)) in *.
  destruct (HW inv_gc_drop st1 _ refd_t c_t
              (iota (lo + N.of_nat mu) (N.to_nat (lo + N.of_nat m - (lo + N.of_nat mu))) ++ files')
              guard HI1) as (mm & HI').
  - exact (synced_pending (s_wr st0)).
  - exact Ecut.
  - intros x Hx. unfold refd_t, referenced in Hx. apply orb_false_iff in Hx. destruct Hx as [Hx _].
    apply orb_false_iff in Hx. tauto.
  - unfold refd_t, referenced. now rewrite N.eqb_refl.
  - unfold lo, st1. cbn [persist set_wr s_wr]. rewrite wlo_persist, Elo0.
    destruct HP as (Hw & _). exact (HN winv_wlo_le _ Hw).
  - intros q mq Eq Hem. rewrite Eqs1 in Eq.
    assert (Hin : In q names).
    { unfold names. apply In_pick_order_conv. exact (In_empty_names_conv _ _ _ Eq Hem). }
    destruct (Hcov q mq Hin Eq) as (f & Hf & Hle).
    destruct (In_nth_error _ _ (in_or_app (gh_E G2) _ _ (or_intror Hf))) as (j & Ej).
    exists j, f, (EPosition q (next_position mq)). split; [exact Ej|]. split; [|exact Hle].
    cbn [creates]. apply bytes_eqb_refl.
  - eexists _, _. split; [exact HI'|]. cbn [set_wr s_wr s_qs w_ctx w_pending w_file w_off].
    split; [exact Efs|]. split; [exact (synced_pending (s_wr st0))|]. split; [exact Eqs1|].
    split; [reflexivity|]. split; [reflexivity|]. reflexivity.
Qed.

End RecGc.

Print Assumptions rgc_ok.
Print Assumptions gc_partial.
