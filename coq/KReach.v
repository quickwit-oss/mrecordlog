(* KReach.v — a file that appears during a crash prefix of a call was
   created by a roll-over, and the data written by the prefix reaches the start of that file. *)
From Coq Require Import Lia ZArith ZifyN ZifyNat ZifyBool List.
From MRL Require Import Bytes BytesProofs Params Names NamesProofs Mem Rolling Driver PolicyProofs GcProofs
  RestartGc CrashTrace.

Lemma quiet_absent e fs name :
  match e with EvCreate _ => False | _ => True end ->
  fs_get fs name = None -> fs_get (apply_event fs e) name = None.
Proof.
  intros He Hn. destruct e; cbn [apply_event]; try exact Hn;
    [contradiction | | | now apply fs_get_remove_none].
  (* a write and a truncation put back a file that exists *)
  all: destruct (fs_get fs name0) as [[b| |]|] eqn:E; try exact Hn.
  all: rewrite GcProofs.fs_get_put_other; [exact Hn|]; intros ->; congruence.
Qed.

Lemma created_in pe : forall fs name,
  fs_get fs name = None -> fs_get (fold_left apply_event pe fs) name <> None -> In (EvCreate name) pe.
Proof.
  induction pe as [|e pe IH]; intros fs name Hn Hx; cbn [fold_left] in Hx; [contradiction|].
  destruct (fs_get (apply_event fs e) name) eqn:E.
  - left. destruct e as [|nm|nm|nm len|nm off d|nm off len ok|nm|nm| |nm];
      try (match type of E with fs_get (apply_event _ ?e0) _ = _ =>
             rewrite (quiet_absent e0 fs name I Hn) in E end; discriminate).
    cbn [apply_event] in E.
    destruct (bytes_eqb nm name) eqn:Eb.
    + apply bytes_eqb_eq in Eb. now subst.
    + apply bytes_eqb_neq in Eb. rewrite GcProofs.fs_get_put_other in E by exact Eb. congruence.
  - right. exact (IH _ _ E Hx).
Qed.

Lemma cpre_In_create pe evs : cpre pe evs -> forall nm, In (EvCreate nm) pe -> In (EvCreate nm) evs.
Proof.
  induction 1 as [evs|n off d k evs|e pe evs _ IH]; intros nm Hin.
  - destruct Hin.
  - destruct Hin as [E|[]]. discriminate.
  - destruct Hin as [->|Hin]; [left; reflexivity|right; now apply IH].
Qed.

Section Reach.
Variable P : params.
Local Notation FB := (FILE_BYTES P).

Lemma wtrace_le' f off evs D f' off' : wtrace P f off evs D f' off' -> f <= f'.
Proof. induction 1; lia. Qed.

Lemma wtrace_reach f off evs D f' off' :
  wtrace P f off evs D f' off' ->
  forall pe, cpre pe evs -> forall fs name,
    fs_get fs name = None -> fs_get (fold_left apply_event pe fs) name <> None ->
    exists n, name = filename n /\ f < n /\ n <= f' /\ (n - f) * FB <= off + lenN (ev_data pe).
Proof.
  induction 1 as [f off|f off d evs D f' off' Hfit Htr IH|f evs D f' off' Htr IH];
    intros pe Hpe fs name Hn Hx.
  - inversion Hpe; subst. cbn [fold_left] in Hx. contradiction.
  - inversion Hpe as [evs0|n0 off0 d0 k evs0|e pe' evs0 Hpe']; subst.
    + cbn [fold_left] in Hx. contradiction.
    + cbn [fold_left] in Hx. match type of Hx with fs_get (apply_event _ ?e0) _ <> _ =>
        rewrite (quiet_absent e0 fs name I Hn) in Hx end. contradiction.
    + cbn [fold_left] in Hx.
      destruct (IH pe' Hpe' _ name (quiet_absent (EvWrite (filename f) off d) fs name I Hn) Hx) as (n & E & H1 & H2 & H3).
      exists n. split; [exact E|]. split; [exact H1|]. split; [exact H2|].
      cbn [ev_data]. rewrite lenN_app. lia.
  - pose proof (wtrace_le' _ _ _ _ _ _ Htr) as Hle.
    (* the roll-over creates the next file only, and the file before it is full *)
    assert (Hgrp : forall x, In (EvCreate name) (roll_group P f) ->
              exists n, name = filename n /\ f < n /\ n <= f' /\ (n - f) * FB <= FB + x).
    { intros x Hin. unfold roll_group in Hin. cbn [In] in Hin.
      destruct Hin as [E|[E|[E|[E|[E|[]]]]]]; try discriminate. injection E as <-.
      exists (f + 1). split; [reflexivity|]. split; [lia|]. split; [lia|].
      replace (f + 1 - f) with 1 by lia. lia. }
    destruct (cpre_app_inv _ _ _ Hpe) as [Hl|(pt & -> & Hr)].
    + apply Hgrp. exact (cpre_In_create _ _ Hl _ (created_in pe fs name Hn Hx)).
    + rewrite fold_left_app in Hx. rewrite ev_data_app.
      change (ev_data (roll_group P f)) with (@nil byte). cbn [app].
      destruct (fs_get (fold_left apply_event (roll_group P f) fs) name) eqn:E1.
      * apply Hgrp. apply (created_in _ fs name Hn). rewrite E1. discriminate.
      * destruct (IH pt Hr _ name E1 Hx) as (n & E & H1 & H2 & H3).
        exists n. split; [exact E|]. split; [lia|]. split; [exact H2|].
        replace (n - f) with ((n - (f + 1)) + 1) by lia. lia.
Qed.

Lemma wtrace_tail_reach f off wevs D f' off' rest :
  (forall nm, ~ In (EvCreate nm) rest) ->
  wtrace P f off wevs D f' off' ->
  forall pe, cpre pe (wevs ++ rest) -> forall fs name,
    fs_get fs name = None -> fs_get (fold_left apply_event pe fs) name <> None ->
    exists n, name = filename n /\ f < n /\ n <= f' /\ (n - f) * FB <= off + lenN (ev_data pe).
Proof.
  intros Hrest Htr pe Hpe fs name Hn Hx.
  destruct (cpre_app_inv _ _ _ Hpe) as [Hl|(pt & -> & Hr)].
  - exact (wtrace_reach _ _ _ _ _ _ Htr pe Hl fs name Hn Hx).
  - rewrite fold_left_app in Hx. rewrite ev_data_app, lenN_app.
    destruct (fs_get (fold_left apply_event wevs fs) name) eqn:E1.
    + destruct (wtrace_reach _ _ _ _ _ _ Htr wevs (cpre_refl _) fs name Hn) as (n & E & H1 & H2 & H3).
      { rewrite E1. discriminate. }
      exists n. split; [exact E|]. split; [exact H1|]. split; [exact H2|]. lia.
    + exfalso. apply (Hrest name). apply (cpre_In_create _ _ Hr). exact (created_in pt _ name E1 Hx).
Qed.

Lemma flush_group_quiet f a nm : ~ In (EvCreate nm) (flush_group f a).
Proof.
  unfold flush_group. destruct a; cbn [In]; intros H.
  - destruct H as [E|[E|[E|[]]]]; discriminate.
  - destruct H as [E|[]]; discriminate.
Qed.

Lemma unlinks_quiet lo m nm : ~ In (EvCreate nm) (unlinks lo m).
Proof. unfold unlinks. intros H. apply in_map_iff in H. destruct H as (x & E & _). discriminate. Qed.

Theorem call_trace_reach lo f0 off0 NEW f1 off1 evs :
  call_trace P lo f0 off0 NEW f1 off1 evs ->
  forall pe, cpre pe evs -> forall fs name,
    fs_get fs name = None -> fs_get (fold_left apply_event pe fs) name <> None ->
    exists n, name = filename n /\ f0 < n /\ n <= f1 /\ (n - f0) * FB <= off0 + lenN (ev_data pe).
Proof.
  intros Hct pe Hpe fs name Hn Hx.
  destruct Hct as [_ _ _|wevs a Htr|wevs m a Htr Hm].
  - inversion Hpe; subst. cbn [fold_left] in Hx. contradiction.
  - apply (wtrace_tail_reach _ _ _ _ _ _ _ (flush_group_quiet f1 a) Htr pe Hpe fs name Hn Hx).
  - refine (wtrace_tail_reach _ _ _ _ _ _ _ _ Htr pe Hpe fs name Hn Hx).
    intros nm Hin. apply in_app_or in Hin. destruct Hin as [Hin|Hin]; [exact (flush_group_quiet _ _ _ Hin)|].
    apply in_app_or in Hin. destruct Hin as [Hin|Hin]; [exact (unlinks_quiet _ _ _ Hin)|].
    exact (flush_group_quiet _ _ _ Hin).
Qed.

End Reach.

Print Assumptions call_trace_reach.
