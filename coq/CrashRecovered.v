(* CrashRecovered.v — a log recovered from a crash image is fully usable.
   crash_recovered_usable  : every continuation history (calls and clean restarts) from the
                             recovered state runs without I/O error and refines the
                             specification started from the recovered abstract state, and after
                             any such continuation a clean restart is the identity on the
                             abstract state (crash_recovered_restart: this half alone).
   Restrictions: no_zero_collision P (as in C02_crash_atomic); the interrupted call does not roll
   over to a new file and ends before the last block of its file, which gives the reader of the
   image a block after the torn data and keeps the junk inside one file. *)
From Coq Require Import Lia ZArith ZifyN ZifyNat ZifyBool List Sorted.
From MRL Require Import Bytes BytesProofs Params Names NamesProofs Frame Record Mem Spec Rolling Log
  Driver Hist NoopProofs SpecRefine RecordProofs StreamProofs PolicyProofs GcProofs GhostLog ReplaySpec
  HandleProofs FileStream ResyncProofs QueueIso RestartInv RestartWrite RestartGc RestartStep
  OpenReplay RestartFinal TornProofs TornFile CrashTrace CrashAtomic
  JInv JGc JStep JunkStream JReopen JRecoverL JRecoverP JRecover3.

Section Recovered.
Variable P : params.
Hypothesis HBS_lo : 7 < BS P.
Hypothesis HBS_hi : BS P <= 65542.
Hypothesis HNB : 1 <= NB P.
Hypothesis Hcrc : forall t p, crcf P t p < 2 ^ 32.
Hypothesis HGC : L_GC P = false.
Hypothesis HIO : L_IO P = false.
Hypothesis HSHORT : L_SHORT P = false.
Hypothesis Hnc : no_zero_collision P.

Local Notation B := (BS P).
Local Notation FB := (FILE_BYTES P).

(* the premises on the interrupted call *)
Definition crash_setting (st : state) (G : ghost) (a : bool) (o : op) (tick : bool)
    (st' : state) (out : outcome) : Prop :=
  Inv P st G /\ w_pending (s_wr st) = [] /\ s_pol st = PAlways a /\
  op_wf_strict (s_qs st) o /\
  stream_bound P G (map snd (step_log P st o)) /\
  crash_bound P G (map snd (step_log P st o)) (abs_qs (s_qs st)) /\
  crash_bound P G (map snd (step_log P st o)) (abs_qs (s_qs st')) /\
  step P st o tick = (st', out) /\ (forall e, out <> OutIo e) /\
  (* restrictions *)
  w_file (s_wr st') = w_file (s_wr st) /\
  w_off (s_wr st') + B <= FB.

Theorem crash_recovered_usable st G a o tick st' out :
  crash_setting st G a o tick st' out ->
  exists evs, c_ev (w_ctx (s_wr st')) = rev evs ++ c_ev (w_ctx (s_wr st)) /\
    forall cut k pol hint,
      let img := fold_left apply_event (crash_events evs cut k) (c_fs (w_ctx (s_wr st))) in
      exists st_r, open P img None pol hint = OpenOk st_r /\
        ((forall q, s_get (abs_qs (s_qs st_r)) q = s_get (abs_qs (s_qs st)) q) \/
         (forall q, s_get (abs_qs (s_qs st_r)) q = s_get (abs_qs (s_qs st')) q)) /\
        (* every continuation history runs, without I/O errors, as the specification does *)
        (forall h2, hist_ok P st_r h2 ->
           exists st2 outs2 m2 souts2,
             hrun P st_r h2 = Some (st2, outs2) /\ Forall no_io outs2 /\
             s_run (abs_qs (s_qs st_r)) (map sop_of (hcalls h2)) = (m2, souts2) /\
             (forall q, s_get m2 q = s_get (abs_qs (s_qs st2)) q) /\
             map out_logical outs2 = map Some souts2) /\
        (* and a clean restart after it is the identity on the abstract state *)
        (forall h2 st2 outs2, hrun P st_r h2 = Some (st2, outs2) -> hist_ok P st_r h2 ->
           restart_bound P st2 ->
           forall pol2 hint2, exists st3,
             restart P st2 pol2 hint2 = OpenOk st3 /\
             (forall q, s_get (abs_qs (s_qs st3)) q = s_get (abs_qs (s_qs st2)) q)).
Proof.
  intros (HI & Hp0 & Hpol & Hop & Hb & Hcb & Hcb' & Hstep & Hno & Hroll & Hblk).
  destruct (crash_recover_invJ P HBS_lo HBS_hi HNB Hcrc HGC HIO HSHORT Hnc st G a o tick st' out
              HI Hp0 Hpol Hop Hb Hcb Hcb' Hstep Hno Hroll Hblk) as (evs & Hev & Hall).
  exists evs. split; [exact Hev|]. intros cut k pol hint. cbn zeta.
  destruct (Hall cut k pol hint)
    as (PRE & OLD & opos & adm & cmax & rm & st_r & G_r & Hopen & Hpre & Hpc & _ & Hadm & HIr & Hroom &
        _ & _ & Habs).
  pose proof (pre_reads_of_cont P HBS_lo HBS_hi Hcrc PRE (map entry_ser OLD) opos adm cmax rm Hpc) as Hrd.
  exists st_r. split; [exact Hopen|]. split; [exact Habs|]. split.
  - intros h2 Hok2.
    destruct (hrunJ_inv P HBS_lo HBS_hi HNB Hcrc HGC HIO HSHORT PRE OLD opos adm cmax rm Hpre Hrd Hadm
                h2 st_r G_r HIr Hroom Hok2) as (st2 & outs2 & G2 & Hrun & _ & _ & _ & Hnoio & Hspec).
    destruct (Hspec (abs_qs (s_qs st_r)) (fun q => eq_refl)) as (m2 & souts2 & Hs & Hm & Hl).
    exists st2, outs2, m2, souts2. repeat split; assumption.
  - intros h2 st2 outs2 Hrun Hok2 Hrb pol2 hint2.
    exact (invJ_restart_identity P HBS_lo HBS_hi HNB Hcrc HGC HIO HSHORT PRE OLD opos adm cmax rm
             Hpre Hrd Hadm st_r G_r h2 st2 outs2 HIr Hroom Hrun Hok2 Hrb pol2 hint2).
Qed.

Corollary crash_recovered_restart st G a o tick st' out :
  crash_setting st G a o tick st' out ->
  exists evs, c_ev (w_ctx (s_wr st')) = rev evs ++ c_ev (w_ctx (s_wr st)) /\
    forall cut k pol hint st_r,
      open P (fold_left apply_event (crash_events evs cut k) (c_fs (w_ctx (s_wr st)))) None pol hint
        = OpenOk st_r ->
      forall h2 st2 outs2, hrun P st_r h2 = Some (st2, outs2) -> hist_ok P st_r h2 ->
        restart_bound P st2 ->
        forall pol2 hint2, exists st3,
          restart P st2 pol2 hint2 = OpenOk st3 /\
          (forall q, s_get (abs_qs (s_qs st3)) q = s_get (abs_qs (s_qs st2)) q).
Proof.
  intros Hset. destruct (crash_recovered_usable st G a o tick st' out Hset) as (evs & Hev & Hall).
  exists evs. split; [exact Hev|]. intros cut k pol hint st_r Hopen.
  destruct (Hall cut k pol hint) as (st_r' & Hopen' & _ & _ & Hres). cbn zeta in Hopen'.
  rewrite Hopen in Hopen'. injection Hopen' as <-. exact Hres.
Qed.

End Recovered.

Print Assumptions crash_recovered_usable.
Print Assumptions crash_recovered_restart.
