(* PersistImage.v — the shape of EVERY process-crash image of a history from a persist point,
   under any persist policy: a contiguous file set lo' .. hi (a prefix of the old files possibly
   unlinked, new files created by roll-overs, only the last one possibly still empty), whose
   stream - after zero-extending the last file - is
       dropN ((lo' - base) * FILE) (T0 ++ zeros (c0 - |T0|) ++ takeN j NEWALL ++ zeros)
   with T0 / c0 the ghost stream / cursor of the persist point and NEWALL the bytes the history
   writes; and there is a call number g such that all the bytes written by the calls 1..g are in
   the image (|NEWALL_g| <= j) and no file is missing that the live log still had after call g
   (lo' <= first tracked file after call g): files are unlinked only after everything written
   before is in the OS. *)
From Coq Require Import Lia ZArith ZifyN ZifyNat ZifyBool List Sorted.
From MRL Require Import Bytes BytesProofs Params Names NamesProofs Frame Record Mem Spec Rolling Log
  Driver Hist SpecRefine RecordProofs StreamProofs PolicyProofs GcProofs GhostLog ReplaySpec
  HandleProofs FileStream ResyncProofs TornProofs PersistProofs WriterProofs EffectsProofs
  RestartInv RestartWrite RestartGc RestartStep OpenReplay RestartFinal TornFile CrashTrace
  PersistTrace PersistGc PersistLogic PersistRecover PersistSurvive PersistShape.

Section Image.
Variable P : params.
Hypothesis HBS_lo : 7 < BS P.
Hypothesis HBS_hi : BS P <= 65542.
Hypothesis HNB : 1 <= NB P.
Hypothesis Hcrc : forall t p, crcf P t p < 2 ^ 32.
Hypothesis HGC : L_GC P = false.

Local Notation B := (BS P).
Local Notation FB := (FILE_BYTES P).
Local Notation ffp := (first_frame_pos P).
Local Notation encs_of := (encs_of P).
Local Notation sr := (map entry_ser).
Local Notation wtrace := (wtrace P).
Local Notation HW f := (f P HBS_lo HBS_hi HNB Hcrc) (only parsing).
Local Notation HG f := (f P HBS_lo HBS_hi HNB Hcrc HGC) (only parsing).
Local Notation HN f := (f P HBS_lo HBS_hi HNB) (only parsing).
Local Notation H3 f := (f P HBS_lo HBS_hi Hcrc) (only parsing).
Local Notation wabs := (wabs P).
Local Notation Inv := (Inv P).
Local Notation PInv := (PInv P).
Local Notation stream_bound := (stream_bound P).
Local Notation stN st h m := (fst (run P st (firstn m h))).

(* S0: the stream up to the cursor of the reference point; NEW: the bytes written after it *)
Definition IShape (base : N) (S0 NEW : bytes) (img : fsT) (lo' hi : N) (short : bool) (z j : N)
  : Prop :=
  lo' <= hi /\ hi <= U64_MAX /\ nodup_keys img /\ dir_of img (nfiles lo' hi) /\
  list_wal_numbers img = nfiles lo' hi /\
  (forall n, lo' <= n <= hi ->
     exists b, fs_get img (filename n) = Some (FFile b) /\
               lenN b = if short && (n =? hi) then 0 else FB) /\
  j <= lenN NEW /\
  stream_of (zext P img hi) (nfiles lo' hi) =
    dropN ((lo' - base) * FB) (S0 ++ takeN j NEW ++ zerosN z) /\
  lenN S0 + j + z = (hi + 1 - base) * FB.

(* the reference point moves back: more bytes count as "written after it" *)
Lemma IShape_rebase base S0 N1 N2 N3 img lo' hi short z j :
  IShape base (S0 ++ N1) N2 img lo' hi short z j ->
  IShape base S0 (N1 ++ N2 ++ N3) img lo' hi short z (lenN N1 + j).
Proof.
  intros (H1 & H2 & H3' & H4 & H5 & H6 & H7 & H8 & H9).
  repeat (split; [assumption|]).
  split; [rewrite !lenN_app; lia|].
  split.
  - rewrite H8. f_equal. rewrite <- app_assoc. f_equal.
    rewrite takeN_app_ge by lia. replace (lenN N1 + j - lenN N1) with j by lia.
    rewrite <- app_assoc. f_equal. f_equal. now rewrite takeN_app_le by exact H7.
  - rewrite lenN_app in H9. lia.
Qed.

(* the oldest mu files are unlinked *)
Lemma IShape_remove base S0 NEW img lo hi short z j mu :
  IShape base S0 NEW img lo hi short z j -> base <= lo -> lo + N.of_nat mu <= hi ->
  IShape base S0 NEW (remove_files img (iota lo mu)) (lo + N.of_nat mu) hi short z j.
Proof.
  intros (H1 & H2 & Hnd & Hdir & Hlist & Hfiles & Hj & Hstr & Hlen) Hb Hmu.
  set (lo' := lo + N.of_nat mu) in *. set (img' := remove_files img (iota lo mu)).
  assert (HB : forall n, n <= U64_MAX -> ~ (lo <= n < lo') ->
            fs_get img' (filename n) = fs_get img (filename n)).
  { intros n Hn Hout. unfold img'. apply fs_get_remove_files_other.
    intros y Hy. apply iota_In in Hy. apply filename_neq; lia. }
  assert (HBn : forall n, lo <= n < lo' -> fs_get img' (filename n) = None).
  { intros n Hn. unfold img'. apply fs_get_removed. apply iota_In. lia. }
  assert (Hndi : nodup_keys img').
  { unfold img'. rewrite <- fold_unlinks. apply fold_nodup. exact Hnd. }
  assert (Hdir' : dir_of img' (nfiles lo' hi)).
  { intros n Hn. rewrite (HN nfiles_In) by lia. split.
    - intros (b & Hb'). destruct (N.lt_ge_cases n lo) as [Hlt|Hge0].
      + rewrite HB in Hb' by lia.
        assert (Hin : In n (nfiles lo hi)) by (apply (Hdir n Hn); now exists b).
        apply (HN nfiles_In) in Hin; lia.
      + destruct (N.lt_ge_cases n lo') as [Hlt'|Hge']; [rewrite HBn in Hb' by lia; discriminate|].
        split; [exact Hge'|]. rewrite HB in Hb' by lia.
        assert (Hin : In n (nfiles lo hi)) by (apply (Hdir n Hn); now exists b).
        apply (HN nfiles_In) in Hin; lia.
    - intros Hin. rewrite HB by lia. destruct (Hfiles n ltac:(lia)) as (b & Hb' & _). now exists b. }
  split; [lia|]. split; [exact H2|]. split; [exact Hndi|]. split; [exact Hdir'|].
  split; [apply (dir_listing P HBS_lo HBS_hi HNB); [exact Hndi|exact Hdir'|lia|lia]|].
  split; [intros n Hn; rewrite HB by lia; apply Hfiles; lia|].
  split; [exact Hj|]. split; [|exact Hlen].
  replace ((lo' - base) * FB) with ((lo - base) * FB + N.of_nat mu * FB).
  2:{ unfold lo'. rewrite <- N.mul_add_distr_r. f_equal. lia. }
  rewrite <- dropN_dropN, <- Hstr.
  replace (nfiles lo hi) with (iota lo mu ++ nfiles lo' hi).
  2:{ rewrite (HN nfiles_split lo lo' hi) by lia. do 2 f_equal. lia. }
  rewrite stream_of_app, dropN_app_exact'.
  - apply stream_of_ext. intros n Hn. apply (HN nfiles_In) in Hn; [|lia].
    destruct (N.eq_dec hi n) as [<-|Hne].
    + rewrite !(fcontent_zext_same P). f_equal. apply fcontent_ext. apply HB; lia.
    + rewrite !(fcontent_zext_other P) by lia. apply fcontent_ext. apply HB; lia.
  - rewrite (lenN_stream_of _ FB); [rewrite lenN_iota; lia|].
    intros n Hn. apply iota_In in Hn.
    rewrite (fcontent_zext_other P) by lia.
    destruct (Hfiles n ltac:(lia)) as (b & Hb' & Hl). rewrite (fcontent_get _ _ _ Hb').
    destruct (N.eqb_spec n hi) as [E|_]; [lia|]. now rewrite andb_false_r in Hl.
Qed.

Local Notation ccur w G := ((wlo w - gh_base G) * FB + wpos P w).
Local Notation Sg w G := (gh_T P G ++ zerosN (ccur w G - lenN (gh_T P G))).

Lemma cursor_abs w G : PInv w G -> gh_base G * FB + ccur w G = wabs w.
Proof.
  intros (Hw & _ & _ & Hbase & _). destruct Hw as (Hok & _).
  destruct (wr_ok_len P (HN HB0) HNB w Hok) as (Hn & Hn1).
  unfold PersistGc.wabs, wpos.
  assert (E : w_file w * FB = gh_base G * FB + (wlo w - gh_base G) * FB + (lenN (w_files w) - 1) * FB).
  { rewrite <- !N.mul_add_distr_r. f_equal. lia. }
  lia.
Qed.

Lemma lenN_Sg w G : PInv w G -> lenN (Sg w G) = ccur w G.
Proof.
  intros (_ & _ & _ & _ & Hc1 & _). cbn zeta in Hc1. rewrite lenN_app, lenN_zerosN. lia.
Qed.

(* the stream up to the cursor, from one anchor to the next *)
Lemma ghi_step w_g G_g w' G' Xs D' :
  PInv w_g G_g -> PInv w' G' -> gh_ALL G' = gh_ALL G_g ++ Xs -> gh_base G' = gh_base G_g ->
  D' = encs_of (wpos P w_g) (sr Xs) -> wabs w' = wabs w_g + lenN D' ->
  Sg w' G' = Sg w_g G_g ++ D'.
Proof.
  intros HPg HP' EALL Eb ED Habs.
  pose proof (cursor_abs _ _ HPg) as Ag. pose proof (cursor_abs _ _ HP') as A'.
  rewrite Eb in A'.
  assert (Ec : ccur w' G' = ccur w_g G_g + lenN D') by (rewrite Eb; lia).
  pose proof HPg as (_ & _ & _ & _ & Hc1 & Hc2 & _). cbn zeta in Hc1, Hc2.
  set (T_g := gh_T P G_g) in *. set (c_g := ccur w_g G_g) in *.
  assert (ET : gh_T P G' = T_g ++ encs_of (lenN T_g) (sr Xs)).
  { unfold gh_T, gh_ser. rewrite EALL, map_app, (H3 encs_of_app), N.add_0_l. reflexivity. }
  destruct Xs as [|x Xs'] eqn:EX.
  - cbn [map ResyncProofs.encs_of] in ED, ET. subst D'. rewrite app_nil_r in ET |- *.
    rewrite (@lenN_nil byte), N.add_0_r in Ec. rewrite ET, Ec. reflexivity.
  - rewrite <- EX in *. assert (Hne : sr Xs <> []) by (rewrite EX; discriminate).
    rewrite <- (HW CrashTrace.encs_of_between (lenN T_g) c_g (sr Xs) Hc1 Hc2 Hne) in ET.
    assert (Esh : encs_of c_g (sr Xs) = D').
    { rewrite ED. unfold c_g. apply (HW CrashTrace.encs_of_shift). apply (HN mulFB_mod). }
    rewrite Esh in ET.
    assert (El : lenN (gh_T P G') = ccur w' G').
    { rewrite ET, !lenN_app, lenN_zerosN, Ec. lia. }
    rewrite El, N.sub_diag. change (zerosN 0) with (@nil byte). rewrite app_nil_r, ET.
    now rewrite app_assoc.
Qed.

Lemma cpre_length pe evs : cpre pe evs -> (length pe <= length evs)%nat.
Proof. induction 1; cbn [length]; lia. Qed.

Lemma seg_shape_plain base0 S0 NAg rest st_g G_g D' f1 off1 wevs tail pe :
  Inv st_g G_g -> w_pending (s_wr st_g) = [] -> gh_base G_g = base0 ->
  Sg (s_wr st_g) G_g = S0 ++ NAg ->
  wtrace (w_file (s_wr st_g)) (w_off (s_wr st_g)) wevs D' f1 off1 -> Forall noop_ev tail ->
  f1 <= U64_MAX -> cpre pe (wevs ++ tail) ->
  exists hi short z,
    IShape base0 S0 (NAg ++ D' ++ rest) (fold_left apply_event pe (c_fs (w_ctx (s_wr st_g))))
           (wlo (s_wr st_g)) hi short z (lenN NAg + lenN (ev_data pe)) /\
    (cpre pe wevs \/ (hi = f1 /\ short = false)).
Proof.
  intros (HP & _) Hp0 Eb EGH Htr Htail Hu' Hc.
  destruct (HW anchor_shape_plain (s_wr st_g) G_g D' f1 off1 wevs tail pe HP Hp0 Htr Htail Hu' Hc)
    as (hi & short & z & H1 & H2 & H3' & H4 & H5 & H6 & H7 & H8 & H9 & H10 & H11 & H12 & H13 & H14 & H15).
  cbn zeta in *. exists hi, short, z. split.
  - apply IShape_rebase. rewrite <- EGH, <- Eb.
    split; [exact H1|]. split; [exact H4|]. split; [exact H5|]. split; [exact H6|].
    split; [exact H7|]. split; [exact H8|]. split; [exact H11|].
    split; [rewrite H12, <- app_assoc; reflexivity|].
    rewrite (lenN_Sg _ _ HP). exact H13.
  - destruct H15 as [Hc'|(_ & E1 & E2)]; [now left|right; auto].
Qed.

Section Global.
Variables (st0 : state) (G0 : ghost) (H : list (op * bool)).
Hypothesis HI0 : Inv st0 G0.

Local Notation w0 := (s_wr st0).
Local Notation base0 := (gh_base G0).
Local Notation c0 := (ccur w0 G0).
Local Notation S0 := (Sg w0 G0).

(* the bytes written by a prefix of the history *)
Definition NA (hh : list (op * bool)) : bytes := encs_of c0 (sr (map snd (run_log P st0 hh))).

(* what is known about an anchor: a call boundary with nothing buffered *)
Definition GH (hg : list (op * bool)) (st_g : state) (G_g : ghost) : Prop :=
  fst (run P st0 hg) = st_g /\ Inv st_g G_g /\ w_pending (s_wr st_g) = [] /\
  gh_base G_g = base0 /\ Sg (s_wr st_g) G_g = S0 ++ NA hg /\ wlo w0 <= wlo (s_wr st_g).

Lemma NA_app hg hx st_g G_g :
  GH hg st_g G_g ->
  NA (hg ++ hx) = NA hg ++ encs_of (wpos P (s_wr st_g)) (sr (map snd (run_log P st_g hx))).
Proof.
  intros (Er & (HP & _) & _ & Eb & ES & _). unfold NA.
  rewrite (run_log_app P), Er, !map_app, (H3 encs_of_app). f_equal.
  pose proof (lenN_Sg _ _ HP) as L1. rewrite ES, lenN_app in L1.
  destruct HI0 as (HP0 & _). rewrite (lenN_Sg _ _ HP0) in L1. unfold NA in L1. rewrite L1.
  apply (HW CrashTrace.encs_of_shift). apply (HN mulFB_mod).
Qed.

Definition ShapeJ (img : fsT) (j : N) : Prop :=
  exists lo' hi short z (g : nat),
    IShape base0 S0 (NA H) img lo' hi short z j /\
    (g <= length H)%nat /\ lenN (NA (firstn g H)) <= j /\
    lo' <= wlo (s_wr (stN st0 H g)) /\ wlo w0 <= lo'.

(* an image described relative to the anchor reached after hg: the calls of hg are in it *)
Lemma ShapeJ_at_anchor hg rest st_g G_g img hi short z j :
  H = hg ++ rest -> GH hg st_g G_g ->
  IShape base0 S0 (NA H) img (wlo (s_wr st_g)) hi short z (lenN (NA hg) + j) ->
  ShapeJ img (lenN (NA hg) + j).
Proof.
  intros EH (Erg & _ & _ & _ & _ & Hlog) HS. exists (wlo (s_wr st_g)), hi, short, z, (length hg).
  split; [exact HS|]. split; [rewrite EH, app_length; apply Nat.le_add_r|].
  rewrite EH, firstn_app_exact, Erg. split; [apply N.le_add_r|]. split; [apply N.le_refl|exact Hlog].
Qed.

Lemma seg_image_j : forall h h_pre hg st_g G_g st_i G_i D_i M,
  H = hg ++ h_pre ++ h -> GH hg st_g G_g ->
  fst (run P st_g h_pre) = st_i ->
  hist_wf P st_g (h_pre ++ h) ->
  stream_bound G_g (map snd (run_log P st_g (h_pre ++ h))) ->
  Inv st_i G_i -> stream_bound G_i (map snd (run_log P st_i h)) ->
  gh_ALL G_i = gh_ALL G_g ++ map snd (run_log P st_g h_pre) -> gh_base G_i = gh_base G_g ->
  M = wpos P (s_wr st_g) +
      lenN (encs_of (wpos P (s_wr st_g)) (sr (map snd (run_log P st_g (h_pre ++ h))))) ->
  ATI P st_g M (s_wr st_i) D_i ->
  D_i = encs_of (wpos P (s_wr st_g)) (sr (map snd (run_log P st_g h_pre))) ->
  forall evs, c_ev (w_ctx (s_wr (fst (run P st_i h)))) = rev evs ++ c_ev (w_ctx (s_wr st_i)) ->
  forall pt, cpre pt evs ->
  ShapeJ (fold_left apply_event pt (c_fs (w_ctx (s_wr st_i))))
         (lenN (NA hg) + (lenN D_i - lenN (w_pending (s_wr st_i))) + lenN (ev_data pt)).
Proof.
  induction h as [|[o t] h IH];
    intros h_pre hg st_g G_g st_i G_i D_i M EH HGH Hrun Hwf Hbg HIi Hbi EGi Ebi EM Ht ED evs Hev pt Hc.
  - (* the crash is at st_i *)
    cbn [run fst] in Hev. apply no_new_events in Hev. subst evs.
    apply cpre_nil_inv in Hc. subst pt. cbn [fold_left]. rewrite app_nil_r in *.
    pose proof HGH as (Erg & HIg & Hpg & Ebg & ESg & Hlog).
    destruct (tinv_facts _ _ _ _ _ _ _ _ _ _ _ Ht) as (_ & _ & (E & _ & HevE & _)).
    destruct (HW TI_trace _ _ _ _ _ _ _ _ _ _ _ Ht HevE) as (Dos & Htr & HD & _ & _ & Hfs).
    destruct (HW TI_trace_all _ _ _ _ _ _ _ _ _ _ _ Ht HevE) as (Htr' & Hu & _).
    destruct (seg_shape_plain base0 S0 (NA hg) [] st_g G_g D_i _ _ _ [] E
                HIg Hpg Ebg ESg Htr' (Forall_nil _) Hu) as (hi & short & z & HS & _).
    { rewrite app_nil_r. apply cpre_app_l, cpre_refl. }
    assert (Ej : lenN (NA hg) + (lenN D_i - lenN (w_pending (s_wr st_i))) + lenN (ev_data (@nil event)) =
                 lenN (NA hg) + lenN (ev_data E)).
    { rewrite (wtrace_data P _ _ _ _ _ _ Htr), HD, lenN_app. cbn [ev_data].
      rewrite (@lenN_nil byte). lia. }
    rewrite Ej, Hfs. apply (ShapeJ_at_anchor hg h_pre st_g G_g _ hi short z _ EH HGH).
    rewrite EH, (NA_app hg h_pre st_g G_g HGH), <- ED. rewrite app_nil_r in HS. exact HS.
  - (* one more call *)
    pose proof HGH as (Erg & HIg & Hpg & Ebg & ESg & Hlog).
    pose proof Hwf as Hwf0. apply (hist_wf_app P) in Hwf0. destruct Hwf0 as (Hwf_pre & Hwf_i).
    rewrite Hrun in Hwf_i. cbn [hist_wf] in Hwf_i. destruct Hwf_i as (Hop & Hwf_h).
    destruct (HG step_advance st_i G_i o t h HIi (conj Hop Hwf_h) Hbi)
      as (_ & _ & Hb1 & Hno & G' & HI' & Eb' & Ed' & El' & Hb2).
    destruct (ev_split P st_i o t h evs Hev) as (evs1 & evs2 & Eevs & Hev1 & Hev2).
    destruct (H3 seg_extend st_g h_pre o t h st_i D_i M Hrun ED EM) as (Eapp & Er' & Elog1 & ED' & HM).
    destruct (step P st_i o t) as [st' out] eqn:Es. cbn [fst snd] in *.
    set (hx := h_pre ++ [(o, t)]) in *.
    set (cur0 := wpos P (s_wr st_g)) in *.
    set (NEW1 := encs_of (cur0 + lenN D_i) (sr (map snd (step_log P st_i o)))) in *.
    set (D' := D_i ++ NEW1) in *.
    assert (EG' : gh_ALL G' = gh_ALL G_g ++ map snd (run_log P st_g hx)).
    { unfold gh_ALL at 1. rewrite Ed', El', map_app, app_assoc. fold (gh_ALL G_i).
      rewrite EGi, Elog1, map_app, app_assoc. reflexivity. }
    assert (Ebg' : gh_base G' = gh_base G_g) by congruence.
    destruct (tinv_facts _ _ _ _ _ _ _ _ _ _ _ Ht) as (_ & Hloi & (E_i & _ & HevEi & _)).
    destruct (HW TI_trace _ _ _ _ _ _ _ _ _ _ _ Ht HevEi) as (Dos_i & Htri & HDi & Hosi & Hoffi & Hfsi).
    destruct (call_kinds P HBS_lo HBS_hi HNB Hcrc HGC _ _ _ _ _ _ _ _ st_i D_i o t st' out E_i evs1
                Ht HM Es Hno HevEi Hev1) as (Habs' & Hfs1 & Hk).
    fold NEW1 in Habs', Hk. fold D' in Hk.
    pose proof HI' as (((_ & _ & _ & _ & Hu' & _) & _) & _).
    (* the bytes in the events from the anchor to st_i *)
    assert (EdE : ev_data E_i = Dos_i) by exact (wtrace_data P _ _ _ _ _ _ Htri).
    assert (ElD : lenN D_i - lenN (w_pending (s_wr st_i)) = lenN Dos_i) by (rewrite HDi, lenN_app; lia).
    rewrite ElD.
    (* the bytes of the whole history, split at the anchor and at the end of this call *)
    assert (EHx : H = (hg ++ hx) ++ h) by (rewrite EH, <- app_assoc, Eapp; reflexivity).
    assert (ENA : NA (hg ++ hx) = NA hg ++ D').
    { rewrite (NA_app hg hx st_g G_g HGH). fold cur0. now rewrite <- ED'. }
    assert (ENH : exists rest, NA H = NA hg ++ D' ++ rest).
    { exists (encs_of (c0 + lenN (NA (hg ++ hx))) (sr (map snd (run_log P (fst (run P st0 (hg ++ hx))) h)))).
      rewrite EHx at 1. unfold NA at 1. rewrite (run_log_app P), map_app, map_app, (H3 encs_of_app).
      fold (NA (hg ++ hx)). rewrite ENA, <- app_assoc. reflexivity. }
    destruct ENH as (rest & ENH).
    (* a crash while the data of the segment (up to this call) is written *)
    assert (Hplain : forall wevs tail pe f1 off1,
              wtrace (w_file (s_wr st_g)) (w_off (s_wr st_g)) wevs D' f1 off1 -> Forall noop_ev tail ->
              f1 <= U64_MAX -> cpre pe (wevs ++ tail) ->
              exists hi short z,
                IShape base0 S0 (NA H) (fold_left apply_event pe (c_fs (w_ctx (s_wr st_g))))
                       (wlo (s_wr st_g)) hi short z (lenN (NA hg) + lenN (ev_data pe)) /\
                (cpre pe wevs \/ (hi = f1 /\ short = false))).
    { intros wevs tail pe f1 off1 Hw Htl Hf1 Hpe. rewrite ENH.
      exact (seg_shape_plain base0 S0 (NA hg) rest st_g G_g D' f1 off1 wevs tail pe
               HIg Hpg Ebg ESg Hw Htl Hf1 Hpe). }
    assert (Hpack : forall img hi short z j,
              IShape base0 S0 (NA H) img (wlo (s_wr st_g)) hi short z (lenN (NA hg) + j) ->
              ShapeJ img (lenN (NA hg) + j))
      by (intros img hi short z j; exact (ShapeJ_at_anchor hg _ st_g G_g img hi short z j EH HGH)).
    assert (ContN : ATI P st_g M (s_wr st') D' -> forall pt2, cpre pt2 evs2 ->
              ShapeJ (fold_left apply_event pt2 (c_fs (w_ctx (s_wr st'))))
                     (lenN (NA hg) + (lenN D' - lenN (w_pending (s_wr st'))) + lenN (ev_data pt2))).
    { intros Ht' pt2 Hc2.
      specialize (IH hx hg st_g G_g st' G' D' M).
      rewrite Eapp in IH. exact (IH EH HGH Er' Hwf Hbg HI' Hb2 EG' Ebg' EM Ht' ED' evs2 Hev2 pt2 Hc2). }
    assert (ContA : w_pending (s_wr st') = [] -> wlo (s_wr st_g) <= wlo (s_wr st') ->
              forall pt2, cpre pt2 evs2 ->
              ShapeJ (fold_left apply_event pt2 (c_fs (w_ctx (s_wr st'))))
                     (lenN (NA hg) + lenN D' + lenN (ev_data pt2))).
    { intros Hp' Hlo' pt2 Hc2.
      assert (HGH' : GH (hg ++ hx) st' G').
      { split; [rewrite (run_app_fst P), Erg; exact Er'|]. split; [exact HI'|]. split; [exact Hp'|].
        split; [congruence|]. split; [|exact (N.le_trans _ _ _ Hlog Hlo')].
        pose proof HIg as (HPg & _). pose proof HI' as (HP' & _).
        transitivity (Sg (s_wr st_g) G_g ++ D').
        2:{ rewrite ENA, app_assoc. f_equal. exact ESg. }
        apply (ghi_step (s_wr st_g) G_g (s_wr st') G' _ D' HPg HP' EG' Ebg' ED').
        destruct (HW TI_wabs _ _ _ _ _ _ _ _ _ _ Ht) as (Ha_i & _).
        destruct (HW TI_wabs _ _ _ _ _ _ _ _ _ _
                    (anchor_ATI P HBS_lo HBS_hi HNB Hcrc st_g G_g (h_pre ++ (o, t) :: h)
                       HIg Hpg Hbg)) as (Ha_g & _).
        rewrite (@lenN_nil byte), N.add_0_r in Ha_g.
        rewrite Habs', Ha_i, Ha_g. unfold D', NEW1. rewrite lenN_app. fold cur0. clear. lia. }
      pose proof (IH [] (hg ++ hx) st' G' st' G' [] _ EHx HGH' eq_refl Hwf_h Hb2 HI' Hb2
               ltac:(cbn [run_log map]; now rewrite app_nil_r) eq_refl eq_refl
               (anchor_ATI P HBS_lo HBS_hi HNB Hcrc st' G' h HI' Hp' Hb2) eq_refl evs2 Hev2 pt2 Hc2) as R.
      rewrite ENA, lenN_app, Hp', (@lenN_nil byte), N.sub_0_r, N.add_0_r in R. exact R. }
    rewrite Eevs in Hc.
    destruct Hk as [(HNk & D1 & Hw1 & HD1)|[(Hp' & Hlo' & w1 & a & Eev1 & Hw1)|(Hp' & w1 & mg & tailf & Eev1 & Hw1 & Hmg & Htl & Hlo' & _)]].
    + destruct (cpre_app_inv _ _ _ Hc) as [Hc1|(pt2 & -> & Hc2)].
      2:{ rewrite fold_left_app, <- Hfs1.
          assert (Ej : lenN (NA hg) + lenN Dos_i + lenN (ev_data (evs1 ++ pt2)) =
                       lenN (NA hg) + (lenN D' - lenN (w_pending (s_wr st'))) + lenN (ev_data pt2)).
          { rewrite ev_data_app, lenN_app, (wtrace_data P _ _ _ _ _ _ Hw1).
            unfold D'. rewrite lenN_app, HDi, lenN_app.
            apply (f_equal (@lenN byte)) in HD1. rewrite !lenN_app in HD1.
            unfold NEW1, cur0. clear - HD1. lia. }
          rewrite Ej. now apply ContN. }
      assert (HE' : c_ev (w_ctx (s_wr st')) = rev (E_i ++ evs1) ++ c_ev (w_ctx (s_wr st_g))).
      { rewrite Hev1, HevEi, rev_app_distr, app_assoc. reflexivity. }
      destruct (HW TI_trace_all _ _ _ _ _ _ _ _ _ _ _ HNk HE') as (Htr2 & _ & _).
      destruct (Hplain _ [] (E_i ++ pt) _ _ Htr2 (Forall_nil _) Hu') as (hi & short & z & HS & _).
      { rewrite app_nil_r. apply cpre_app_l. now apply cpre_app_r. }
      rewrite Hfsi, <- fold_left_app.
      rewrite ev_data_app, lenN_app, EdE in HS. rewrite <- N.add_assoc.
      exact (Hpack _ _ _ _ _ HS).
    + subst evs1.
      assert (Edw : ev_data (w1 ++ flush_group (w_file (s_wr st')) a) = w_pending (s_wr st_i) ++ NEW1).
      { rewrite ev_data_app, (wtrace_data P _ _ _ _ _ _ Hw1),
          (proj2 (noop_fold _ (flush_group_noop _ a))). apply app_nil_r. }
      destruct (cpre_app_inv _ _ _ Hc) as [Hc1|(pt2 & -> & Hc2)].
      2:{ rewrite fold_left_app, <- Hfs1.
          assert (Ej : lenN (NA hg) + lenN Dos_i +
                         lenN (ev_data ((w1 ++ flush_group (w_file (s_wr st')) a) ++ pt2)) =
                       lenN (NA hg) + lenN D' + lenN (ev_data pt2)).
          { rewrite ev_data_app, lenN_app, Edw. unfold D'. rewrite HDi, !lenN_app. clear. lia. }
          rewrite Ej. apply ContA; [exact Hp'|rewrite Hlo'; apply N.le_refl|exact Hc2]. }
      pose proof (wtrace_app P _ _ _ _ _ _ _ _ _ _ Htri Hw1) as Htr2.
      assert (EDD : Dos_i ++ w_pending (s_wr st_i) ++ NEW1 = D').
      { unfold D'. rewrite HDi, <- app_assoc. reflexivity. }
      assert (Htr3 : wtrace (w_file (s_wr st_g)) (w_off (s_wr st_g)) (E_i ++ w1) D'
                            (w_file (s_wr st')) (w_off (s_wr st'))) by (rewrite <- EDD; exact Htr2).
      destruct (Hplain _ (flush_group (w_file (s_wr st')) a) (E_i ++ pt) _ _ Htr3
                  (flush_group_noop _ _) Hu') as (hi & short & z & HS & _).
      { rewrite <- app_assoc. now apply cpre_app_r. }
      rewrite Hfsi, <- fold_left_app.
      rewrite ev_data_app, lenN_app, EdE in HS. rewrite <- N.add_assoc.
      exact (Hpack _ _ _ _ _ HS).
    + subst evs1.
      assert (Htlf : Forall noop_ev tailf).
      { destruct Htl as [->|(a & ->)]; [constructor|apply flush_group_noop]. }
      assert (Edw : ev_data (w1 ++ flush_group (w_file (s_wr st')) true ++
                             unlinks (wlo (s_wr st_g)) mg ++ tailf) = w_pending (s_wr st_i) ++ NEW1).
      { rewrite !ev_data_app, (wtrace_data P _ _ _ _ _ _ Hw1),
          (proj2 (noop_fold _ (flush_group_noop _ true))), unlinks_data, (proj2 (noop_fold _ Htlf)).
        apply app_nil_r. }
      destruct (cpre_app_inv _ _ _ Hc) as [Hc1|(pt2 & -> & Hc2)].
      2:{ rewrite fold_left_app, <- Hfs1.
          assert (Ej : lenN (NA hg) + lenN Dos_i +
                         lenN (ev_data ((w1 ++ flush_group (w_file (s_wr st')) true ++
                                          unlinks (wlo (s_wr st_g)) mg ++ tailf) ++ pt2)) =
                       lenN (NA hg) + lenN D' + lenN (ev_data pt2)).
          { rewrite ev_data_app, lenN_app, Edw. unfold D'. rewrite HDi, !lenN_app. clear. lia. }
          rewrite Ej. apply ContA; [exact Hp'|rewrite Hlo'; apply N.le_add_r|exact Hc2]. }
      pose proof (wtrace_app P _ _ _ _ _ _ _ _ _ _ Htri Hw1) as Htr2.
      assert (EDD : Dos_i ++ w_pending (s_wr st_i) ++ NEW1 = D').
      { unfold D'. rewrite HDi, <- app_assoc. reflexivity. }
      assert (Htr3 : wtrace (w_file (s_wr st_g)) (w_off (s_wr st_g)) (E_i ++ w1) D'
                            (w_file (s_wr st')) (w_off (s_wr st'))) by (rewrite <- EDD; exact Htr2).
      clear Htr2. rename Htr3 into Htr2.
      rewrite Hfsi, <- fold_left_app.
      assert (Ej0 : lenN (NA hg) + lenN Dos_i + lenN (ev_data pt) = lenN (NA hg) + lenN (ev_data (E_i ++ pt))).
      { rewrite ev_data_app, lenN_app, EdE. symmetry. apply N.add_assoc. }
      rewrite Ej0.
      assert (Hc1' : cpre (E_i ++ pt) ((E_i ++ w1) ++ flush_group (w_file (s_wr st')) true ++
                                       unlinks (wlo (s_wr st_g)) mg ++ tailf)).
      { rewrite <- app_assoc. now apply cpre_app_r. }
      destruct (cpre_app_inv _ _ _ Hc1') as [Hcw|(ptu & Eptu & Hcu)].
      * destruct (Hplain _ [] (E_i ++ pt) _ _ Htr2 (Forall_nil _) Hu') as (hi & short & z & HS & _).
        { rewrite app_nil_r. exact Hcw. }
        exact (Hpack _ _ _ _ _ HS).
      * assert (Hcu2 : exists a', cpre ptu (flush_group (w_file (s_wr st')) true ++
                                            unlinks (wlo (s_wr st_g)) mg ++
                                            flush_group (w_file (s_wr st')) a')).
        { destruct Htl as [->|(a & ->)]; [|now exists a].
          exists false. rewrite app_nil_r in Hcu. rewrite app_assoc. now apply cpre_app_l. }
        destruct Hcu2 as (a' & Hcu2).
        destruct (HN tail_prefix _ _ _ _ _ _ Hcu2) as (mu & Hmu & Hfoldu & Hdu).
        rewrite Eptu, ev_data_app, Hdu, app_nil_r, fold_left_app, Hfoldu.
        rewrite (wtrace_data P _ _ _ _ _ _ Htr2).
        destruct (Hplain _ [EvSyncDir] ((E_i ++ w1) ++ [EvSyncDir]) _ _ Htr2
                    ltac:(repeat constructor) Hu' (cpre_refl _)) as (hi & short & z & HS & Halt).
        destruct Halt as [Hbad|(-> & ->)].
        { exfalso. apply cpre_length in Hbad. rewrite app_length in Hbad. cbn [length] in Hbad. clear - Hbad. lia. }
        rewrite fold_left_app in HS. cbn [fold_left apply_event] in HS.
        rewrite ev_data_app in HS. cbn [ev_data] in HS. rewrite app_nil_r in HS.
        rewrite (wtrace_data P _ _ _ _ _ _ Htr2) in HS.
        pose proof HIg as ((_ & _ & _ & Hbg0 & _) & _). rewrite Ebg in Hbg0.
        pose proof (IShape_remove _ _ _ _ _ _ _ _ _ mu HS Hbg0 ltac:(clear - Hmu Hmg; lia)) as HS2.
        exists (wlo (s_wr st_g) + N.of_nat mu), (w_file (s_wr st')), false, z, (length (hg ++ hx)).
        split; [exact HS2|].
        split; [rewrite EHx, (app_length (hg ++ hx)); apply Nat.le_add_r|].
        rewrite EHx, firstn_app_exact, ENA, lenN_app.
        split; [apply N.le_refl|].
        rewrite (run_app_fst P), Erg, Er', Hlo'. split; [clear - Hmu; lia|clear - Hlog; lia].
Qed.

End Global.

(* every image of a crash prefix pt of the events; the length of the byte prefix in the image
   description is the number of bytes of the write events (whole or partial) in pt *)
Theorem C03_image_shape_j st0 G0 H evs :
  Inv st0 G0 -> w_pending (s_wr st0) = [] ->
  hist_wf P st0 H -> stream_bound G0 (map snd (run_log P st0 H)) ->
  c_ev (w_ctx (s_wr (fst (run P st0 H)))) = rev evs ++ c_ev (w_ctx (s_wr st0)) ->
  forall pt, cpre pt evs ->
  let w0 := s_wr st0 in
  let img := fold_left apply_event pt (c_fs (w_ctx w0)) in
  let base := gh_base G0 in
  let T0 := gh_T P G0 in
  let c0 := (wlo w0 - base) * FB + wpos P w0 in
  let NEW := fun hh => encs_of c0 (sr (map snd (run_log P st0 hh))) in
  let j := lenN (ev_data pt) in
  exists (lo' hi : N) (short : bool) (z : N) (g : nat),
    wlo w0 <= lo' /\ lo' <= hi /\ hi <= U64_MAX /\
    nodup_keys img /\ dir_of img (nfiles lo' hi) /\ list_wal_numbers img = nfiles lo' hi /\
    (forall n, lo' <= n <= hi ->
       exists b, fs_get img (filename n) = Some (FFile b) /\
                 lenN b = if short && (n =? hi) then 0 else FB) /\
    j <= lenN (NEW H) /\
    stream_of (zext P img hi) (nfiles lo' hi) =
      dropN ((lo' - base) * FB) (T0 ++ zerosN (c0 - lenN T0) ++ takeN j (NEW H) ++ zerosN z) /\
    c0 + j + z = (hi + 1 - base) * FB /\
    (g <= length H)%nat /\ lenN (NEW (firstn g H)) <= j /\
    lo' <= wlo (s_wr (stN st0 H g)).
Proof.
  intros HI0 Hp0 Hwf Hb Hevs pt Hc w0 img base T0 c0 NEW j. subst w0 img base T0 c0 NEW j.
  assert (HGH : GH st0 G0 [] st0 G0).
  { split; [reflexivity|]. split; [exact HI0|]. split; [exact Hp0|]. split; [reflexivity|].
    split; [|lia]. unfold NA. cbn [run_log map ResyncProofs.encs_of]. now rewrite app_nil_r. }
  destruct (seg_image_j st0 G0 H HI0 H [] [] st0 G0 st0 G0 [] _ eq_refl HGH eq_refl Hwf Hb HI0 Hb
              ltac:(cbn [run_log map]; now rewrite app_nil_r) eq_refl eq_refl
              (anchor_ATI P HBS_lo HBS_hi HNB Hcrc st0 G0 H HI0 Hp0 Hb) eq_refl evs Hevs pt Hc)
    as (lo' & hi & short & z & g & HS & Hg & Hj & Hlo & Hlo0).
  assert (E0 : lenN (NA st0 G0 []) + (lenN (@nil byte) - lenN (w_pending (s_wr st0))) +
               lenN (ev_data pt) = lenN (ev_data pt)).
  { unfold NA. cbn [run_log map ResyncProofs.encs_of]. rewrite (@lenN_nil byte). lia. }
  rewrite E0 in *.
  destruct HS as (H1 & H2 & H3' & H4 & H5 & H6 & H7 & H8 & H9).
  destruct HI0 as (HP0 & _). rewrite (lenN_Sg _ _ HP0) in H9.
  exists lo', hi, short, z, g.
  repeat (split; [assumption|]).
  split; [rewrite H8, <- app_assoc; reflexivity|].
  repeat (split; [assumption|]). exact Hlo.
Qed.

(* every process-crash image of a history from a persist point *)
Theorem C03_image_shape st0 G0 H evs :
  Inv st0 G0 -> w_pending (s_wr st0) = [] ->
  hist_wf P st0 H -> stream_bound G0 (map snd (run_log P st0 H)) ->
  c_ev (w_ctx (s_wr (fst (run P st0 H)))) = rev evs ++ c_ev (w_ctx (s_wr st0)) ->
  forall cut k,
  let w0 := s_wr st0 in
  let img := fold_left apply_event (crash_events evs cut k) (c_fs (w_ctx w0)) in
  let base := gh_base G0 in
  let T0 := gh_T P G0 in
  let c0 := (wlo w0 - base) * FB + wpos P w0 in
  let NEW := fun hh => encs_of c0 (sr (map snd (run_log P st0 hh))) in
  exists (lo' hi : N) (short : bool) (z j : N) (g : nat),
    (* the file set: contiguous, only the last file possibly still empty *)
    wlo w0 <= lo' /\ lo' <= hi /\ hi <= U64_MAX /\
    nodup_keys img /\ dir_of img (nfiles lo' hi) /\ list_wal_numbers img = nfiles lo' hi /\
    (forall n, lo' <= n <= hi ->
       exists b, fs_get img (filename n) = Some (FFile b) /\
                 lenN b = if short && (n =? hi) then 0 else FB) /\
    (* the stream: the old stream + a byte prefix of what the history writes + zeros *)
    j <= lenN (NEW H) /\
    stream_of (zext P img hi) (nfiles lo' hi) =
      dropN ((lo' - base) * FB) (T0 ++ zerosN (c0 - lenN T0) ++ takeN j (NEW H) ++ zerosN z) /\
    c0 + j + z = (hi + 1 - base) * FB /\
    (* unlinks come after the flush: all the bytes of the calls 1..g are in the image, and no
       file is missing that the live log still had after call g *)
    (g <= length H)%nat /\ lenN (NEW (firstn g H)) <= j /\
    lo' <= wlo (s_wr (stN st0 H g)).
Proof.
  intros HI0 Hp0 Hwf Hb Hevs cut k.
  destruct (C03_image_shape_j st0 G0 H evs HI0 Hp0 Hwf Hb Hevs _ (crash_events_cpre evs cut k))
    as (lo' & hi & short & z & g & HS).
  exists lo', hi, short, z, (lenN (ev_data (crash_events evs cut k))), g. exact HS.
Qed.

(* the bytes, with the absolute cursor of the persist point (as in C03_trace_shape) *)
Lemma NEW_wabs st0 G0 X :
  Inv st0 G0 ->
  encs_of ((wlo (s_wr st0) - gh_base G0) * FB + wpos P (s_wr st0)) X = encs_of (wabs (s_wr st0)) X.
Proof.
  intros (HP0 & _). rewrite <- (cursor_abs _ _ HP0). symmetry.
  apply (HW CrashTrace.encs_of_shift). apply (HN mulFB_mod).
Qed.

End Image.

Print Assumptions C03_image_shape.
