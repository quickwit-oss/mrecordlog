(* GhostLog.v — the live queues are the replay of what was logged.
   A ghost-instrumented copy of the API threads a log of (file number at write start, entry);
   (1) the instrumentation does not change behaviour, (2) replaying the entries logged by a call
   over the queues before the call gives EXACTLY the queues after the call (under NoDup of the
   queue names, which is an invariant), (3) every logged entry is well-formed for the codec,
   (4) the file tags of the log never decrease. *)
From Coq Require Import Lia ZArith ZifyN ZifyNat ZifyBool Sorted.
From MRL Require Import Bytes BytesProofs Params Names Frame Record Mem Rolling Log Hist
                        NoopProofs SpecRefine RecordProofs GcProofs.

Definition glog : Type := list (N * entry).
Definition gstate : Type := (state * glog)%type.

(* apply a log-free state transformer to an instrumented state *)
Definition glift (f : state -> state) (g : gstate) : gstate := (f (fst g), snd g).

Section WithParams.
Variable P : params.

Definition gwrite_entry (g : gstate) (e : entry) : gstate * res N :=
  let '(st, L) := g in
  let '(st', r) := write_entry P st e in ((st', L ++ [(w_file (s_wr st), e)]), r).

Fixpoint grecord_positions (g : gstate) (names : list bytes) (acc : N) : gstate * res N :=
  match names with
  | [] => (g, Ok acc)
  | n :: r =>
      match qs_get (s_qs (fst g)) n with
      | None => grecord_positions g r acc
      | Some q =>
          match gwrite_entry g (EPosition n (next_position q)) with
          | (g1, Err e) => (g1, Err e)
          | (g1, Ok k) => grecord_positions g1 r (acc + k)
          end
      end
  end.

Definition grecord_empty_queues_position (g : gstate) (hint : list bytes) : gstate * res N :=
  match grecord_positions g (pick_order hint (empty_names (s_qs (fst g)))) 0 with
  | (g1, Err e) => (g1, Err e)
  | (g1, Ok n) =>
      if L_GC P && (n =? 0) then (g1, Ok n) else (glift (fun st1 => persist st1 true) g1, Ok n)
  end.

Definition grun_gc_if_necessary (g : gstate) (hint : list bytes) : gstate * res N :=
  if has_deletable (fst g) then
    let guard := w_file (s_wr (fst g)) in
    match grecord_empty_queues_position g hint with
    | (g1, Err e) => (g1, Err e)
    | (g1, Ok n) =>
        let w := s_wr (fst g1) in
        match gc_loop (w_ctx w) (w_files w) (referenced (fst g1) guard) with
        | (c, files, Err e) =>
            (glift (fun st1 => set_wr st1 (mkWr c files (w_file w) (w_off w) (w_pending w))) g1,
             Err e)
        | (c, files, Ok _) =>
            (glift (fun st1 => set_wr st1 (mkWr c files (w_file w) (w_off w) (w_pending w))) g1,
             Ok n)
        end
    end
  else (g, Ok 0).

Definition gcreate_queue (g : gstate) (q : bytes) : gstate * outcome :=
  if qs_contains (s_qs (fst g)) q then (g, OutAlreadyExists)
  else match gwrite_entry g (EPosition q 0) with
       | (g1, Err e) => (g1, OutIo e)
       | (g1, Ok n) =>
           (glift (fun st1 => let st2 := persist st1 true in
                              set_qs st2 (qs_put (s_qs st2) q mq_default)) g1, OutCreate n)
       end.

Definition gdelete_queue (g : gstate) (q : bytes) (hint : list bytes) : gstate * outcome :=
  match qs_get (s_qs (fst g)) q with
  | None => (g, OutMissing)
  | Some mqv =>
      match gwrite_entry g (EDelete q (next_position mqv)) with
      | (g1, Err e) => (g1, OutIo e)
      | (g1, Ok n) =>
          let g2 := glift (fun st1 => set_qs st1 (qs_remove (s_qs st1) q)) g1 in
          match grun_gc_if_necessary g2 hint with
          | (g3, Err e) => (g3, OutIo e)
          | (g3, Ok k) => (glift (fun st3 => persist st3 true) g3, OutDelete (n + k))
          end
      end
  end.

Definition gappend_records (g : gstate) (q : bytes) (pos_opt : option N) (payloads : list bytes)
           (tick : bool) : gstate * outcome :=
  match qs_get (s_qs (fst g)) q with
  | None => (g, OutMissing)
  | Some mqv =>
      let next := next_position mqv in
      let early :=
        match pos_opt with
        | Some p => if p + 1 =? next then Some (OutAppend None 0)
                    else if p <? next then Some OutPast else None
        | None => None
        end in
      match early with
      | Some o => (g, o)
      | None =>
          let position := match pos_opt with Some p => p | None => next end in
          let file := w_file (s_wr (fst g)) in
          let recs := number_from position payloads in
          match recs with
          | [] => (g, OutAppend None 0)
          | _ =>
              match gwrite_entry g (EAppend q position recs) with
              | (g1, Err e) => (g1, OutIo e)
              | (g1, Ok n) =>
                  let g2 := glift (fun st1 => persist_on_policy st1 tick) g1 in
                  match append_all mqv file recs with
                  | Some mq' =>
                      (glift (fun st2 => set_qs st2 (qs_put (s_qs st2) q mq')) g2,
                       OutAppend (Some (last_pos_of position recs)) n)
                  | None => (g2, OutPast)
                  end
              end
          end
      end
  end.

Definition gtruncate (g : gstate) (q : bytes) (p : N) (hint : list bytes) (tick : bool)
  : gstate * outcome :=
  match qs_get (s_qs (fst g)) q with
  | None => (g, OutMissing)
  | Some mqv =>
      match gwrite_entry g (ETruncate q p) with
      | (g1, Err e) => (g1, OutIo e)
      | (g1, Ok n) =>
          let '(mq', evicted) := truncate_head mqv p in
          let g2 := glift (fun st1 => set_qs st1 (qs_put (s_qs st1) q mq')) g1 in
          match grun_gc_if_necessary g2 hint with
          | (g3, Err e) => (g3, OutIo e)
          | (g3, Ok k) =>
              (glift (fun st3 => persist_on_policy st3 tick) g3, OutTruncate evicted (n + k))
          end
      end
  end.

Definition gstep (g : gstate) (o : op) (tick : bool) : gstate * outcome :=
  match o with
  | OCreate q => gcreate_queue g q
  | ODelete q hint => gdelete_queue g q hint
  | OAppend q pos payloads => gappend_records g q pos payloads tick
  | OTruncate q p hint => gtruncate g q p hint tick
  | OPersist fsync => (glift (fun st => persist st fsync) g, OutPersist)
  end.

Fixpoint grun (g : gstate) (h : list (op * bool)) : gstate * list outcome :=
  match h with
  | [] => (g, [])
  | (o, tick) :: r =>
      let '(g1, out) := gstep g o tick in
      let '(g2, outs) := grun g1 r in (g2, out :: outs)
  end.

(* what each call logs, as a function of the un-instrumented state *)

Fixpoint rp_log (st : state) (names : list bytes) : glog :=
  match names with
  | [] => []
  | n :: r =>
      match qs_get (s_qs st) n with
      | None => rp_log st r
      | Some q =>
          (w_file (s_wr st), EPosition n (next_position q)) ::
          match write_entry P st (EPosition n (next_position q)) with
          | (_, Err _) => []
          | (st1, Ok _) => rp_log st1 r
          end
      end
  end.

Definition gc_log (st : state) (hint : list bytes) : glog :=
  if has_deletable st then rp_log st (pick_order hint (empty_names (s_qs st))) else [].

Definition create_log (st : state) (q : bytes) : glog :=
  if qs_contains (s_qs st) q then [] else [(w_file (s_wr st), EPosition q 0)].

Definition delete_log (st : state) (q : bytes) (hint : list bytes) : glog :=
  match qs_get (s_qs st) q with
  | None => []
  | Some mqv =>
      (w_file (s_wr st), EDelete q (next_position mqv)) ::
      match write_entry P st (EDelete q (next_position mqv)) with
      | (_, Err _) => []
      | (st1, Ok _) => gc_log (set_qs st1 (qs_remove (s_qs st1) q)) hint
      end
  end.

Definition append_target (mqv : mq) (pos_opt : option N) : option N :=
  match pos_opt with
  | Some p => if p + 1 =? next_position mqv then None
              else if p <? next_position mqv then None else Some p
  | None => Some (next_position mqv)
  end.

Definition append_log (st : state) (q : bytes) (pos_opt : option N) (payloads : list bytes) : glog :=
  match qs_get (s_qs st) q with
  | None => []
  | Some mqv =>
      match append_target mqv pos_opt with
      | None => []
      | Some position =>
          match payloads with
          | [] => []
          | _ => [(w_file (s_wr st), EAppend q position (number_from position payloads))]
          end
      end
  end.

Definition truncate_log (st : state) (q : bytes) (p : N) (hint : list bytes) : glog :=
  match qs_get (s_qs st) q with
  | None => []
  | Some mqv =>
      (w_file (s_wr st), ETruncate q p) ::
      match write_entry P st (ETruncate q p) with
      | (_, Err _) => []
      | (st1, Ok _) =>
          gc_log (set_qs st1 (qs_put (s_qs st1) q (fst (truncate_head mqv p)))) hint
      end
  end.

Definition step_log (st : state) (o : op) : glog :=
  match o with
  | OCreate q => create_log st q
  | ODelete q hint => delete_log st q hint
  | OAppend q pos payloads => append_log st q pos payloads
  | OTruncate q p hint => truncate_log st q p hint
  | OPersist _ => []
  end.

Fixpoint run_log (st : state) (h : list (op * bool)) : glog :=
  match h with
  | [] => []
  | (o, tick) :: r => step_log st o ++ run_log (fst (step P st o tick)) r
  end.

(* the instrumented call = (the call, the log extended by what it logs) *)

Lemma gwrite_entry_eq st L e :
  gwrite_entry (st, L) e =
  ((fst (write_entry P st e), L ++ [(w_file (s_wr st), e)]), snd (write_entry P st e)).
Proof. unfold gwrite_entry. destruct (write_entry P st e) as [st' r]. reflexivity. Qed.

Lemma grecord_positions_eq names : forall st L acc,
  grecord_positions (st, L) names acc =
  ((fst (record_positions P st names acc), L ++ rp_log st names),
   snd (record_positions P st names acc)).
Proof.
  induction names as [|n r IH]; intros st L acc;
    cbn [grecord_positions record_positions rp_log fst snd].
  - now rewrite app_nil_r.
  - destruct (qs_get (s_qs st) n) as [q|]; [|apply IH].
    rewrite gwrite_entry_eq.
    destruct (write_entry P st (EPosition n (next_position q))) as [st1 [k|e]]; cbn [fst snd].
    + rewrite IH, <- app_assoc. reflexivity.
    + reflexivity.
Qed.

Lemma grecord_empty_eq st L hint :
  grecord_empty_queues_position (st, L) hint =
  ((fst (record_empty_queues_position P st hint),
    L ++ rp_log st (pick_order hint (empty_names (s_qs st)))),
   snd (record_empty_queues_position P st hint)).
Proof.
  unfold grecord_empty_queues_position, record_empty_queues_position. cbn [fst].
  rewrite grecord_positions_eq.
  destruct (record_positions P st (pick_order hint (empty_names (s_qs st))) 0) as [st1 [n|e]];
    cbn [fst snd]; [|reflexivity].
  destruct (L_GC P && (n =? 0)); reflexivity.
Qed.

Lemma grun_gc_eq st L hint :
  grun_gc_if_necessary (st, L) hint =
  ((fst (run_gc_if_necessary P st hint), L ++ gc_log st hint),
   snd (run_gc_if_necessary P st hint)).
Proof.
  unfold grun_gc_if_necessary, run_gc_if_necessary, gc_log. cbn [fst].
  destruct (has_deletable st); [|now rewrite app_nil_r].
  rewrite grecord_empty_eq.
  destruct (record_empty_queues_position P st hint) as [st1 [n|e]]; cbn [fst snd]; [|reflexivity].
  destruct (gc_loop (w_ctx (s_wr st1)) (w_files (s_wr st1)) (referenced st1 (w_file (s_wr st))))
    as [[c files] [u|e]]; reflexivity.
Qed.

Lemma gcreate_eq st L q :
  gcreate_queue (st, L) q =
  ((fst (create_queue P st q), L ++ create_log st q), snd (create_queue P st q)).
Proof.
  unfold gcreate_queue, create_queue, create_log. cbn [fst].
  destruct (qs_contains (s_qs st) q); [now rewrite app_nil_r|].
  rewrite gwrite_entry_eq.
  destruct (write_entry P st (EPosition q 0)) as [st1 [n|e]]; reflexivity.
Qed.

Lemma gdelete_eq st L q hint :
  gdelete_queue (st, L) q hint =
  ((fst (delete_queue P st q hint), L ++ delete_log st q hint), snd (delete_queue P st q hint)).
Proof.
  unfold gdelete_queue, delete_queue, delete_log. cbn [fst].
  destruct (qs_get (s_qs st) q) as [mqv|]; [|now rewrite app_nil_r].
  rewrite gwrite_entry_eq.
  destruct (write_entry P st (EDelete q (next_position mqv))) as [st1 [n|e]]; cbn [fst snd];
    [|reflexivity].
  unfold glift at 1. cbn [fst snd]. rewrite grun_gc_eq, <- app_assoc. cbn [app].
  destruct (run_gc_if_necessary P (set_qs st1 (qs_remove (s_qs st1) q)) hint) as [st3 [k|e]];
    reflexivity.
Qed.

(* the early exits of append_records are the cases where append_target is None *)
Lemma append_early_cases mqv pos_opt :
  let early := match pos_opt with
               | Some p => if p + 1 =? next_position mqv then Some (OutAppend None 0)
                           else if p <? next_position mqv then Some OutPast else None
               | None => None
               end in
  (early = None /\
   append_target mqv pos_opt =
   Some (match pos_opt with Some p => p | None => next_position mqv end)) \/
  (exists o, early = Some o /\ append_target mqv pos_opt = None).
Proof.
  unfold append_target. destruct pos_opt as [p|]; [|now left].
  destruct (p + 1 =? next_position mqv); [right; eexists; split; reflexivity|].
  destruct (p <? next_position mqv); [right; eexists; split; reflexivity|now left].
Qed.

Lemma append_early_target mqv pos_opt :
  match pos_opt with
  | Some p => if p + 1 =? next_position mqv then Some (OutAppend None 0)
              else if p <? next_position mqv then Some OutPast else None
  | None => None
  end = None ->
  append_target mqv pos_opt =
  Some (match pos_opt with Some p => p | None => next_position mqv end).
Proof.
  intros H. destruct (append_early_cases mqv pos_opt) as [[_ Et]|(o & Ee & _)]; [exact Et|].
  rewrite H in Ee. discriminate.
Qed.

Lemma append_early_target_none mqv pos_opt o :
  match pos_opt with
  | Some p => if p + 1 =? next_position mqv then Some (OutAppend None 0)
              else if p <? next_position mqv then Some OutPast else None
  | None => None
  end = Some o ->
  append_target mqv pos_opt = None.
Proof.
  intros H. destruct (append_early_cases mqv pos_opt) as [[Ee _]|(_ & _ & Et)]; [|exact Et].
  rewrite H in Ee. discriminate.
Qed.

Lemma gappend_eq st L q pos payloads tick :
  gappend_records (st, L) q pos payloads tick =
  ((fst (append_records P st q pos payloads tick), L ++ append_log st q pos payloads),
   snd (append_records P st q pos payloads tick)).
Proof.
  unfold gappend_records, append_records, append_log. cbn [fst].
  destruct (qs_get (s_qs st) q) as [mqv|]; [|now rewrite app_nil_r].
  destruct (append_early_cases mqv pos) as [[Ee Et]|(o & Ee & Et)]; rewrite Ee, Et;
    [|now rewrite app_nil_r].
  set (position := match pos with Some p => p | None => next_position mqv end).
  destruct payloads as [|x r]; cbn [number_from]; [now rewrite app_nil_r|].
  rewrite gwrite_entry_eq.
  destruct (write_entry P st (EAppend q position ((position, x) :: number_from (position + 1) r)))
    as [st1 [n|e]]; cbn [fst snd]; [|reflexivity].
  destruct (append_all mqv (w_file (s_wr st)) ((position, x) :: number_from (position + 1) r));
    reflexivity.
Qed.

Lemma gtruncate_eq st L q p hint tick :
  gtruncate (st, L) q p hint tick =
  ((fst (truncate P st q p hint tick), L ++ truncate_log st q p hint),
   snd (truncate P st q p hint tick)).
Proof.
  unfold gtruncate, truncate, truncate_log. cbn [fst].
  destruct (qs_get (s_qs st) q) as [mqv|]; [|now rewrite app_nil_r].
  rewrite gwrite_entry_eq.
  destruct (write_entry P st (ETruncate q p)) as [st1 [n|e]]; cbn [fst snd]; [|reflexivity].
  destruct (truncate_head mqv p) as [mq' evicted]. cbn [fst].
  unfold glift at 1. cbn [fst snd]. rewrite grun_gc_eq, <- app_assoc. cbn [app].
  destruct (run_gc_if_necessary P (set_qs st1 (qs_put (s_qs st1) q mq')) hint) as [st3 [k|e]];
    reflexivity.
Qed.

Theorem gstep_eq st L o tick :
  gstep (st, L) o tick = ((fst (step P st o tick), L ++ step_log st o), snd (step P st o tick)).
Proof.
  destruct o as [q|q hint|q pos payloads|q p hint|a]; cbn [gstep step step_log].
  - apply gcreate_eq.
  - apply gdelete_eq.
  - apply gappend_eq.
  - apply gtruncate_eq.
  - unfold glift. cbn [fst snd]. now rewrite app_nil_r.
Qed.

Theorem grun_eq h : forall st L,
  grun (st, L) h = ((fst (run P st h), L ++ run_log st h), snd (run P st h)).
Proof.
  induction h as [|[o tick] r IH]; intros st L; cbn [grun run run_log].
  - now rewrite app_nil_r.
  - rewrite gstep_eq. destruct (step P st o tick) as [st1 out]. cbn [fst snd].
    rewrite IH, <- app_assoc. destruct (run P st1 r) as [st2 outs]. reflexivity.
Qed.

Lemma gstep_inv st L o tick st' L' out :
  gstep (st, L) o tick = ((st', L'), out) ->
  st' = fst (step P st o tick) /\ L' = L ++ step_log st o /\ out = snd (step P st o tick).
Proof. rewrite gstep_eq. intros H. inversion H. repeat split. Qed.

Lemma grun_inv st L h st' L' outs :
  grun (st, L) h = ((st', L'), outs) ->
  st' = fst (run P st h) /\ L' = L ++ run_log st h /\ outs = snd (run P st h).
Proof. rewrite grun_eq. intros H. inversion H. repeat split. Qed.

(* (1) the instrumentation does not change behaviour, and only extends the log *)
Theorem gstep_erase st L o tick :
  fst (fst (gstep (st, L) o tick)) = fst (step P st o tick) /\
  snd (gstep (st, L) o tick) = snd (step P st o tick).
Proof. rewrite gstep_eq. split; reflexivity. Qed.

Theorem gstep_log_extends st L o tick :
  exists es, snd (fst (gstep (st, L) o tick)) = L ++ es.
Proof. rewrite gstep_eq. eexists; reflexivity. Qed.

Theorem grun_erase st L h :
  fst (fst (grun (st, L) h)) = fst (run P st h) /\ snd (grun (st, L) h) = snd (run P st h).
Proof. rewrite grun_eq. split; reflexivity. Qed.

Theorem grun_log_extends st L h :
  exists es, snd (fst (grun (st, L) h)) = L ++ es.
Proof. rewrite grun_eq. eexists; reflexivity. Qed.

End WithParams.

Fixpoint replay_entries (qs : queues) (es : glog) : option queues :=
  match es with
  | [] => Some qs
  | (f, e) :: r =>
      match apply_entry qs f e with
      | Some qs' => replay_entries qs' r
      | None => None
      end
  end.

(* the same thing as a fold with option bind *)
Definition obind {A B} (o : option A) (f : A -> option B) : option B :=
  match o with Some a => f a | None => None end.

Lemma replay_entries_fold es : forall qs,
  replay_entries qs es =
  fold_left (fun acc '(f, e) => obind acc (fun qs => apply_entry qs f e)) es (Some qs).
Proof.
  induction es as [|[f e] r IH]; intros qs; cbn [replay_entries fold_left]; [reflexivity|].
  unfold obind at 2. destruct (apply_entry qs f e) as [qs'|]; [apply IH|].
  clear. induction r as [|[f' e'] r IH]; cbn [fold_left obind]; [reflexivity|exact IH].
Qed.

Lemma replay_app a : forall qs b,
  replay_entries qs (a ++ b) = obind (replay_entries qs a) (fun qs' => replay_entries qs' b).
Proof.
  induction a as [|[f e] r IH]; intros qs b; cbn [app replay_entries obind]; [reflexivity|].
  destruct (apply_entry qs f e) as [qs'|]; [apply IH|reflexivity].
Qed.

(* the invariant: queue names are pairwise distinct *)
Definition nodup_names (qs : queues) : Prop := NoDup (map fst qs).

Lemma qs_get_In_eq qs n q : qs_get qs n = Some q -> In (n, q) qs.
Proof.
  induction qs as [|[n0 q0] r IH]; cbn [qs_get]; [discriminate|].
  destruct (bytes_eqb n0 n) eqn:E.
  - apply bytes_eqb_eq in E. intros H; inversion H; subst. now left.
  - intros H. right. now apply IH.
Qed.

Lemma qs_get_nodup qs n q : nodup_names qs -> In (n, q) qs -> qs_get qs n = Some q.
Proof.
  unfold nodup_names. induction qs as [|[n0 q0] r IH]; cbn [map fst qs_get In]; [contradiction|].
  intros Hnd [H|H].
  - inversion H; subst. now rewrite bytes_eqb_refl.
  - inversion Hnd as [|? ? Hni Hnd']; subst.
    destruct (bytes_eqb n0 n) eqn:E.
    + apply bytes_eqb_eq in E. subst n0. exfalso. apply Hni.
      change n with (fst (n, q)). now apply in_map.
    + now apply IH.
Qed.

Lemma In_keys_qs_put qs n q k : In k (map fst (qs_put qs n q)) <-> k = n \/ In k (map fst qs).
Proof.
  induction qs as [|[n0 q0] r IH]; cbn [qs_put map fst In].
  - intuition congruence.
  - destruct (bytes_eqb n0 n) eqn:E; cbn [map fst In].
    + apply bytes_eqb_eq in E. subst n0. intuition congruence.
    + rewrite IH. intuition congruence.
Qed.

Lemma In_qs_remove qs n x : In x (qs_remove qs n) -> In x qs.
Proof.
  induction qs as [|[n0 q0] r IH]; cbn [qs_remove]; [exact (fun H => H)|].
  destruct (bytes_eqb n0 n); cbn [In]; intuition.
Qed.

Lemma nodup_put qs n q : nodup_names qs -> nodup_names (qs_put qs n q).
Proof.
  unfold nodup_names. induction qs as [|[n0 q0] r IH]; cbn [qs_put map fst]; intros Hnd.
  - constructor; [exact (fun H => H)|constructor].
  - inversion Hnd as [|? ? Hni Hnd']; subst.
    destruct (bytes_eqb n0 n) eqn:E; cbn [map fst].
    + constructor; assumption.
    + constructor; [|now apply IH]. rewrite In_keys_qs_put. intros [H|H]; [|contradiction].
      subst n0. now rewrite bytes_eqb_refl in E.
Qed.

Lemma nodup_remove qs n : nodup_names qs -> nodup_names (qs_remove qs n).
Proof.
  unfold nodup_names. induction qs as [|[n0 q0] r IH]; cbn [qs_remove map fst]; intros Hnd;
    [constructor|].
  inversion Hnd as [|? ? Hni Hnd']; subst.
  destruct (bytes_eqb n0 n); cbn [map fst]; [now apply IH|].
  constructor; [|now apply IH]. intros H. apply Hni.
  apply in_map_iff in H. destruct H as [[k m] [Hk Hin]]. cbn [fst] in Hk. subst k.
  apply In_qs_remove in Hin. change n0 with (fst (n0, m)). now apply in_map.
Qed.

Lemma nodup_ack qs n next : nodup_names qs -> nodup_names (ack_position qs n next).
Proof.
  intros H. unfold ack_position. destruct (qs_get qs n) as [q|]; [|now apply nodup_put].
  destruct (negb (mq_is_empty q) || negb (next_position q =? next)); [now apply nodup_put|exact H].
Qed.

Lemma nodup_nil : nodup_names [].
Proof. constructor. Qed.

Theorem apply_entry_nodup qs f e qs' :
  nodup_names qs -> apply_entry qs f e = Some qs' -> nodup_names qs'.
Proof.
  intros Hnd. destruct e as [q pos recs|q p|q p|q p]; cbn [apply_entry].
  - set (qs1 := if qs_contains qs q then qs else ack_position qs q pos).
    assert (H1 : nodup_names qs1)
      by (unfold qs1; destruct (qs_contains qs q); [exact Hnd|now apply nodup_ack]).
    destruct (qs_get qs1 q) as [m|]; [|discriminate].
    destruct (append_all m f recs) as [m'|]; [|discriminate].
    intros H; inversion H; subst. now apply nodup_put.
  - destruct (qs_get qs q) as [m|]; intros H; inversion H; subst; [now apply nodup_put|exact Hnd].
  - intros H; inversion H; subst. now apply nodup_ack.
  - intros H; inversion H; subst. now apply nodup_remove.
Qed.

Theorem replay_nodup es : forall qs qs',
  nodup_names qs -> replay_entries qs es = Some qs' -> nodup_names qs'.
Proof.
  induction es as [|[f e] r IH]; intros qs qs' Hnd; cbn [replay_entries].
  - intros H; inversion H; subst. exact Hnd.
  - destruct (apply_entry qs f e) as [qs1|] eqn:E; [|discriminate].
    apply IH. eapply apply_entry_nodup; eassumption.
Qed.

(* what open rebuilds has the invariant *)
Corollary replay_from_nil_nodup es qs' : replay_entries [] es = Some qs' -> nodup_names qs'.
Proof. apply replay_nodup, nodup_nil. Qed.

Lemma name_mem_In n l : name_mem n l = true -> In n l.
Proof.
  induction l as [|x r IH]; cbn [name_mem]; [discriminate|].
  destruct (bytes_eqb x n) eqn:E; cbn [orb].
  - apply bytes_eqb_eq in E. intros _. now left.
  - intros H. right. now apply IH.
Qed.

Lemma In_name_remove n l x : In x (name_remove n l) -> In x l.
Proof.
  induction l as [|y r IH]; cbn [name_remove]; [exact (fun H => H)|].
  destruct (bytes_eqb y n); cbn [In]; intuition.
Qed.

Lemma In_pick_order hint : forall remaining x,
  In x (pick_order hint remaining) -> In x remaining.
Proof.
  induction hint as [|h r IH]; intros remaining x; cbn [pick_order]; [exact (fun H => H)|].
  destruct (name_mem h remaining) eqn:E.
  - cbn [In]. intros [H|H].
    + subst x. now apply name_mem_In.
    + apply IH in H. eapply In_name_remove; eassumption.
  - apply IH.
Qed.

Lemma In_empty_names qs n : In n (empty_names qs) -> exists q, In (n, q) qs /\ mq_is_empty q = true.
Proof.
  unfold empty_names. intros H. apply in_map_iff in H. destruct H as [[k q] [Hk Hin]].
  cbn [fst] in Hk. subst k. apply filter_In in Hin. destruct Hin as [Hin He]. now exists q.
Qed.

(* every listed name denotes an empty queue *)
Definition names_empty (qs : queues) (names : list bytes) : Prop :=
  forall n q, In n names -> qs_get qs n = Some q -> mq_is_empty q = true.

Lemma pick_order_names_empty qs hint :
  nodup_names qs -> names_empty qs (pick_order hint (empty_names qs)).
Proof.
  intros Hnd n q Hin Hg. apply In_pick_order in Hin. apply In_empty_names in Hin.
  destruct Hin as [q' [Hin He]]. rewrite (qs_get_nodup _ _ _ Hnd Hin) in Hg.
  inversion Hg; subst. exact He.
Qed.

Lemma ack_position_empty_id qs n q :
  qs_get qs n = Some q -> mq_is_empty q = true -> ack_position qs n (next_position q) = qs.
Proof.
  intros Hg He. unfold ack_position. rewrite Hg, He, N.eqb_refl. reflexivity.
Qed.

Section WithParams.
Variable P : params.

Lemma rp_log_replay names : forall st,
  names_empty (s_qs st) names -> replay_entries (s_qs st) (rp_log P st names) = Some (s_qs st).
Proof.
  induction names as [|n r IH]; intros st Hne; cbn [rp_log]; [reflexivity|].
  assert (Hr : names_empty (s_qs st) r)
    by (intros n' q' Hin; apply Hne; now right).
  destruct (qs_get (s_qs st) n) as [q|] eqn:Hg; [|now apply IH].
  cbn [replay_entries apply_entry].
  rewrite (ack_position_empty_id _ _ _ Hg) by (eapply Hne; [now left|exact Hg]).
  destruct (write_entry P st (EPosition n (next_position q))) as [st1 [k|e]] eqn:E;
    [|reflexivity].
  apply GcProofs.write_entry_qs in E. rewrite <- E. apply IH. now rewrite E.
Qed.

Lemma gc_log_replay st hint :
  nodup_names (s_qs st) -> replay_entries (s_qs st) (gc_log P st hint) = Some (s_qs st).
Proof.
  intros Hnd. unfold gc_log. destruct (has_deletable st); [|reflexivity].
  apply rp_log_replay. now apply pick_order_names_empty.
Qed.

Lemma append_target_ge mqv pos position :
  append_target mqv pos = Some position -> next_position mqv <= position.
Proof.
  unfold append_target. destruct pos as [p|].
  - destruct (N.eqb_spec (p + 1) (next_position mqv)) as [_|Hne]; [discriminate|].
    destruct (N.ltb_spec p (next_position mqv)) as [_|Hge]; [discriminate|].
    intros H; inversion H; subst. exact Hge.
  - intros H; inversion H; subst. lia.
Qed.

Lemma append_target_eq mqv pos position :
  append_target mqv pos = Some position ->
  position = match pos with Some p => p | None => next_position mqv end.
Proof.
  intros Et. destruct (append_early_cases mqv pos) as [[_ Et']|(_ & _ & Et')];
    rewrite Et' in Et; [now injection Et|discriminate].
Qed.

Lemma append_log_target st q pos payloads :
  append_log st q pos payloads =
  match qs_get (s_qs st) q with
  | None => []
  | Some mqv =>
      match append_target mqv pos with
      | None => []
      | Some position =>
          match payloads with
          | [] => []
          | _ => [(w_file (s_wr st), EAppend q position (number_from position payloads))]
          end
      end
  end.
Proof. reflexivity. Qed.

Definition no_io (out : outcome) : Prop := forall e, out <> OutIo e.

Definition entry_written (st : state) (e : entry) : bool :=
  match snd (write_entry P st e) with Ok _ => true | Err _ => false end.

(* The queues after a call: its own entry takes effect iff it was written; the GC's position
   entries and persisting leave the queues as they are. *)
Lemma step_qs st o tick :
  s_qs (fst (step P st o tick)) =
  match o with
  | OCreate q =>
      if qs_contains (s_qs st) q then s_qs st
      else if entry_written st (EPosition q 0) then qs_put (s_qs st) q mq_default else s_qs st
  | ODelete q _ =>
      match qs_get (s_qs st) q with
      | Some m =>
          if entry_written st (EDelete q (next_position m)) then qs_remove (s_qs st) q
          else s_qs st
      | None => s_qs st
      end
  | OAppend q pos payloads =>
      match qs_get (s_qs st) q with
      | Some m =>
          match append_target m pos with
          | Some position =>
              match payloads with
              | [] => s_qs st
              | _ :: _ =>
                  match append_all m (w_file (s_wr st)) (number_from position payloads) with
                  | Some m' =>
                      if entry_written st (EAppend q position (number_from position payloads))
                      then qs_put (s_qs st) q m' else s_qs st
                  | None => s_qs st
                  end
              end
          | None => s_qs st
          end
      | None => s_qs st
      end
  | OTruncate q p _ =>
      match qs_get (s_qs st) q with
      | Some m =>
          if entry_written st (ETruncate q p) then qs_put (s_qs st) q (fst (truncate_head m p))
          else s_qs st
      | None => s_qs st
      end
  | OPersist _ => s_qs st
  end.
Proof.
  unfold entry_written. destruct o as [q|q hint|q pos payloads|q p hint|a]; cbn [step].
  - unfold create_queue. destruct (qs_contains (s_qs st) q); [reflexivity|].
    destruct (write_entry P st (EPosition q 0)) as [st1 [n|e]] eqn:E;
      apply GcProofs.write_entry_qs in E; cbn [fst snd]; [|exact E].
    cbn [set_qs s_qs persist set_wr]. now rewrite E.
  - unfold delete_queue. destruct (qs_get (s_qs st) q) as [m|]; [|reflexivity].
    destruct (write_entry P st (EDelete q (next_position m))) as [st1 [n|e]] eqn:E;
      apply GcProofs.write_entry_qs in E; cbn [fst snd]; [|exact E].
    pose proof (SpecRefine.run_gc_qs P (set_qs st1 (qs_remove (s_qs st1) q)) hint) as Hgc.
    destruct (run_gc_if_necessary P _ hint) as [st3 [k|e]]; cbn [fst] in *;
      rewrite ?persist_qs, Hgc; cbn [set_qs s_qs]; now rewrite E.
  - unfold append_records. destruct (qs_get (s_qs st) q) as [m|]; [|reflexivity].
    destruct (append_early_cases m pos) as [[Ee Et]|(o & Ee & Et)]; rewrite Ee, Et; [|reflexivity].
    set (position := match pos with Some p => p | None => next_position m end).
    destruct payloads as [|x r]; [reflexivity|]. cbn [number_from].
    destruct (write_entry P st _) as [st1 [n|e]] eqn:E;
      apply GcProofs.write_entry_qs in E; cbn [fst snd].
    + destruct (append_all m _ _) as [m'|]; cbn [fst set_qs s_qs];
        now rewrite persist_on_policy_qs, E.
    + rewrite E. now destruct (append_all m _ _).
  - unfold truncate. destruct (qs_get (s_qs st) q) as [m|]; [|reflexivity].
    destruct (write_entry P st (ETruncate q p)) as [st1 [n|e]] eqn:E;
      apply GcProofs.write_entry_qs in E; cbn [fst snd]; [|exact E].
    destruct (truncate_head m p) as [m' ev]. cbn [fst].
    pose proof (SpecRefine.run_gc_qs P (set_qs st1 (qs_put (s_qs st1) q m')) hint) as Hgc.
    destruct (run_gc_if_necessary P _ hint) as [st3 [k|e]]; cbn [fst] in *;
      rewrite ?persist_on_policy_qs, Hgc; cbn [set_qs s_qs]; now rewrite E.
  - reflexivity.
Qed.

(* the first entry a call logs is its own; if writing it fails, so does the call *)
Lemma step_written st o tick f e l :
  no_io (snd (step P st o tick)) -> step_log P st o = (f, e) :: l -> entry_written st e = true.
Proof.
  unfold entry_written. intros Hio Hl.
  destruct (write_entry P st e) as [st1 [n|x]] eqn:E; [reflexivity|].
  exfalso. apply (Hio x). clear Hio.
  destruct o as [q|q hint|q pos payloads|q p hint|a]; cbn [step step_log] in *.
  - unfold create_log, create_queue in *. destruct (qs_contains (s_qs st) q); [discriminate|].
    injection Hl as _ <-. now rewrite E.
  - unfold delete_log, delete_queue in *. destruct (qs_get (s_qs st) q) as [m|]; [|discriminate].
    injection Hl as _ <- _. now rewrite E.
  - rewrite append_log_target in Hl. unfold append_records.
    destruct (qs_get (s_qs st) q) as [m|]; [|discriminate].
    destruct (append_early_cases m pos) as [[Ee Et]|(o & Ee & Et)]; rewrite Et in Hl;
      [|discriminate].
    rewrite Ee. destruct payloads as [|y r]; [discriminate|].
    injection Hl as _ <-. cbn [number_from] in *. now rewrite E.
  - unfold truncate_log, truncate in *. destruct (qs_get (s_qs st) q) as [m|]; [|discriminate].
    injection Hl as _ <- _. now rewrite E.
  - discriminate.
Qed.

(* what delete and truncate log after their own entry: nothing if that write failed, else the
   GC's entries over the updated queues *)
Lemma gc_tail_replay st e hint (upd : queues -> queues) :
  nodup_names (upd (s_qs st)) ->
  replay_entries (upd (s_qs st))
    match write_entry P st e with
    | (_, Err _) => []
    | (st1, Ok _) => gc_log P (set_qs st1 (upd (s_qs st1))) hint
    end = Some (upd (s_qs st)).
Proof.
  intros Hnd. destruct (write_entry P st e) as [st1 [n|x]] eqn:E; [|reflexivity].
  apply GcProofs.write_entry_qs in E. rewrite <- E in *.
  now apply (gc_log_replay (set_qs st1 (upd (s_qs st1))) hint).
Qed.

(* only the calls that run the GC need distinct queue names *)
Lemma step_replay_gen st o tick :
  match o with ODelete _ _ | OTruncate _ _ _ => nodup_names (s_qs st) | _ => True end ->
  no_io (snd (step P st o tick)) ->
  replay_entries (s_qs st) (step_log P st o) = Some (s_qs (fst (step P st o tick))).
Proof.
  intros Hnd Hio. rewrite step_qs. pose proof (step_written st o tick) as Hw.
  destruct o as [q|q hint|q pos payloads|q p hint|a]; cbn [step_log] in *.
  - unfold create_log in *. rewrite qs_contains_get in *.
    destruct (qs_get (s_qs st) q) as [m|] eqn:Hg; [reflexivity|].
    rewrite (Hw _ _ _ Hio eq_refl). cbn [replay_entries apply_entry]. unfold ack_position.
    now rewrite Hg.
  - unfold delete_log in *. destruct (qs_get (s_qs st) q) as [m|] eqn:Hg; [|reflexivity].
    rewrite (Hw _ _ _ Hio eq_refl). cbn [replay_entries apply_entry].
    apply (gc_tail_replay st _ hint (fun qs => qs_remove qs q)). now apply nodup_remove.
  - rewrite append_log_target in *. destruct (qs_get (s_qs st) q) as [m|] eqn:Hg; [|reflexivity].
    destruct (append_target m pos) as [position|] eqn:Et; [|reflexivity].
    destruct payloads as [|x r]; [reflexivity|].
    destruct (append_all_some (x :: r) m (w_file (s_wr st)) position (append_target_ge _ _ _ Et))
      as (m' & Em).
    rewrite Em, (Hw _ _ _ Hio eq_refl). cbn [replay_entries apply_entry].
    now rewrite qs_contains_get, Hg, Hg, Em.
  - unfold truncate_log in *. destruct (qs_get (s_qs st) q) as [m|] eqn:Hg; [|reflexivity].
    rewrite (Hw _ _ _ Hio eq_refl). cbn [replay_entries apply_entry]. rewrite Hg.
    apply (gc_tail_replay st _ hint (fun qs => qs_put qs q (fst (truncate_head m p)))).
    now apply nodup_put.
  - reflexivity.
Qed.

Theorem step_replay st o tick :
  nodup_names (s_qs st) -> no_io (snd (step P st o tick)) ->
  replay_entries (s_qs st) (step_log P st o) = Some (s_qs (fst (step P st o tick))).
Proof. intros Hnd. apply step_replay_gen. now destruct o. Qed.

(* (2) the live queues are the replay of what the call logged *)
Theorem live_is_replay : forall st L o tick st' L' out,
  nodup_names (s_qs st) ->
  gstep P (st, L) o tick = ((st', L'), out) -> (forall e, out <> OutIo e) ->
  exists es, L' = L ++ es /\ replay_entries (s_qs st) es = Some (s_qs st').
Proof.
  intros st L o tick st' L' out Hnd H Hio. apply gstep_inv in H. destruct H as (-> & -> & ->).
  exists (step_log P st o). split; [reflexivity|]. now apply step_replay.
Qed.

(* calls that never run the GC (create, append, persist) need no invariant at all *)
Theorem live_is_replay_no_gc : forall st L o tick st' L' out,
  match o with ODelete _ _ | OTruncate _ _ _ => False | _ => True end ->
  gstep P (st, L) o tick = ((st', L'), out) -> (forall e, out <> OutIo e) ->
  exists es, L' = L ++ es /\ replay_entries (s_qs st) es = Some (s_qs st').
Proof.
  intros st L o tick st' L' out Ho H Hio. apply gstep_inv in H. destruct H as (-> & -> & ->).
  exists (step_log P st o). split; [reflexivity|].
  apply step_replay_gen; [|exact Hio]. now destruct o.
Qed.

End WithParams.

(* the invariant is kept by every call, whatever its outcome *)
Section Invariant.
Variable P : params.

Theorem step_nodup st o tick :
  nodup_names (s_qs st) -> nodup_names (s_qs (fst (step P st o tick))).
Proof.
  intros Hnd. rewrite step_qs. destruct o as [q|q hint|q pos payloads|q p hint|a].
  - destruct (qs_contains (s_qs st) q); [exact Hnd|].
    destruct (entry_written P st _); [now apply nodup_put|exact Hnd].
  - destruct (qs_get (s_qs st) q) as [m|]; [|exact Hnd].
    destruct (entry_written P st _); [now apply nodup_remove|exact Hnd].
  - destruct (qs_get (s_qs st) q) as [m|]; [|exact Hnd].
    destruct (append_target m pos) as [position|]; [|exact Hnd].
    destruct payloads as [|x r]; [exact Hnd|].
    destruct (append_all m _ _) as [m'|]; [|exact Hnd].
    destruct (entry_written P st _); [now apply nodup_put|exact Hnd].
  - destruct (qs_get (s_qs st) q) as [m|]; [|exact Hnd].
    destruct (entry_written P st _); [now apply nodup_put|exact Hnd].
  - exact Hnd.
Qed.

Theorem run_nodup h : forall st,
  nodup_names (s_qs st) -> nodup_names (s_qs (fst (run P st h))).
Proof.
  induction h as [|[o tick] r IH]; intros st Hnd; cbn [run]; [exact Hnd|].
  pose proof (step_nodup st o tick Hnd) as H1.
  destruct (step P st o tick) as [st1 out]. cbn [fst] in H1.
  specialize (IH st1 H1). destruct (run P st1 r) as [st2 outs]. exact IH.
Qed.

Theorem run_replay h : forall st,
  nodup_names (s_qs st) -> Forall no_io (snd (run P st h)) ->
  replay_entries (s_qs st) (run_log P st h) = Some (s_qs (fst (run P st h))).
Proof.
  induction h as [|[o tick] r IH]; intros st Hnd; cbn [run run_log]; [reflexivity|].
  pose proof (step_nodup st o tick Hnd) as H1.
  pose proof (step_replay P st o tick Hnd) as H2.
  destruct (step P st o tick) as [st1 out]. cbn [fst snd] in *.
  specialize (IH st1 H1). destruct (run P st1 r) as [st2 outs]. cbn [fst snd] in *.
  intros Hf. inversion Hf as [|? ? Ho Hr]; subst.
  rewrite replay_app, (H2 Ho). cbn [obind]. now apply IH.
Qed.

(* the part of the log added by a history is what is replayed *)
Corollary history_is_replay_from : forall st L h st' L' outs,
  nodup_names (s_qs st) ->
  grun P (st, L) h = ((st', L'), outs) -> (forall out e, In out outs -> out <> OutIo e) ->
  exists es, L' = L ++ es /\ replay_entries (s_qs st) es = Some (s_qs st').
Proof.
  intros st L h st' L' outs Hnd H Hio. apply grun_inv in H. destruct H as (-> & -> & ->).
  eexists; split; [reflexivity|].
  apply run_replay; [exact Hnd|]. apply Forall_forall. intros out Hin e. now apply Hio.
Qed.

Corollary history_is_replay : forall st h st' L' outs,
  nodup_names (s_qs st) ->
  grun P (st, []) h = ((st', L'), outs) -> (forall out e, In out outs -> out <> OutIo e) ->
  replay_entries (s_qs st) L' = Some (s_qs st').
Proof.
  intros st h st' L' outs Hnd H Hio.
  destruct (history_is_replay_from st [] h st' L' outs Hnd H Hio) as (es & -> & Hr). exact Hr.
Qed.

(* a log that starts from no queues at all: the live state is the replay of the whole log *)
Corollary history_from_empty_is_replay : forall w pol h st' L' outs,
  grun P (mkSt w [] pol, []) h = ((st', L'), outs) ->
  (forall out e, In out outs -> out <> OutIo e) ->
  replay_entries [] L' = Some (s_qs st').
Proof.
  intros w pol h st' L' outs H Hio.
  apply (history_is_replay (mkSt w [] pol) h st' L' outs nodup_nil H Hio).
Qed.

End Invariant.

Definition name_ok (n : bytes) : Prop := utf8_valid n = true /\ lenN n < 2 ^ 16.

(* the state: names are Rust Strings shorter than 2^16 bytes, next positions fit in a u64 *)
Definition qs_wf (qs : queues) : Prop :=
  forall n q, In (n, q) qs -> name_ok n /\ next_position q < 2 ^ 64.

(* the call's arguments *)
Definition op_wf (qs : queues) (o : op) : Prop :=
  match o with
  | OCreate q => name_ok q
  | ODelete _ _ => True
  | OAppend q pos payloads =>
      Forall (fun x => lenN x < 2 ^ 32) payloads /\
      match pos with
      | Some p => p + lenN payloads <= 2 ^ 64
      | None => forall m, qs_get qs q = Some m -> next_position m + lenN payloads <= 2 ^ 64
      end
  | OTruncate _ p _ => p + 1 < 2 ^ 64
  | OPersist _ => True
  end.

Definition log_wf (es : glog) : Prop := Forall (fun fe => wf_entry (snd fe)) es.

Lemma wf_entry_simple (mk : bytes -> N -> entry) n p :
  (mk = ETruncate \/ mk = EPosition \/ mk = EDelete) ->
  name_ok n -> p < 2 ^ 64 -> wf_entry (mk n p).
Proof.
  intros Hmk [Hu Hl] Hp. unfold wf_entry.
  destruct Hmk as [->|[->| ->]]; cbn [entry_queue entry_pos]; repeat split; assumption.
Qed.

Lemma In_qs_put qs n q x : In x (qs_put qs n q) -> x = (n, q) \/ In x qs.
Proof.
  induction qs as [|[n0 q0] r IH]; cbn [qs_put In].
  - intuition.
  - destruct (bytes_eqb n0 n) eqn:E; cbn [In].
    + apply bytes_eqb_eq in E. subst n0. intuition.
    + intuition.
Qed.

Lemma qs_wf_put qs n q : qs_wf qs -> name_ok n -> next_position q < 2 ^ 64 -> qs_wf (qs_put qs n q).
Proof.
  intros Hw Hn Hq n' q' Hin. apply In_qs_put in Hin. destruct Hin as [H|H].
  - inversion H; subst. split; assumption.
  - now apply Hw.
Qed.

Lemma qs_wf_remove qs n : qs_wf qs -> qs_wf (qs_remove qs n).
Proof. intros Hw n' q' Hin. apply In_qs_remove in Hin. now apply Hw. Qed.

Lemma qs_wf_get qs n q : qs_wf qs -> qs_get qs n = Some q -> name_ok n /\ next_position q < 2 ^ 64.
Proof. intros Hw Hg. apply Hw. now apply qs_get_In_eq. Qed.

Lemma last_opt_map {A B} (f : A -> B) l : last_opt (map f l) = option_map f (last_opt l).
Proof.
  induction l as [|x r IH]; [reflexivity|]. cbn [map]. destruct r as [|y r']; [reflexivity|].
  cbn [map] in *. cbn [last_opt] in *. exact IH.
Qed.

Lemma last_opt_dropN {A} (l : list A) : forall k,
  dropN k l = [] \/ last_opt (dropN k l) = last_opt l.
Proof.
  induction l as [|x r IH]; intros k; cbn [dropN]; [now left|].
  destruct (k =? 0); [now right|].
  destruct r as [|y r']; [now left|].
  destruct (IH (N.pred k)) as [H|H]; [now left|right].
  rewrite H. reflexivity.
Qed.

Lemma truncate_head_next m p :
  next_position (fst (truncate_head m p)) = next_position m \/
  next_position (fst (truncate_head m p)) = p + 1.
Proof.
  unfold truncate_head. destruct (p <? q_start m); [now left|].
  destruct (next_position m <=? p + 1); [now right|]. cbn [fst].
  set (kept := dropN (idx_ge (p + 1) (q_metas m)) (q_metas m)).
  set (off := match kept with m0 :: _ => m_off m0 | [] => 0 end).
  unfold next_position. cbn [q_metas q_start]. rewrite last_opt_map.
  destruct (last_opt_dropN (q_metas m) (idx_ge (p + 1) (q_metas m))) as [H|H]; fold kept in H.
  - rewrite H. now right.
  - rewrite H. destruct (last_opt (q_metas m)) as [ml|]; cbn [option_map rebase m_pos];
      [now left|now right].
Qed.

Section Wf.
Variable P : params.

Lemma rp_log_wf names : forall st, qs_wf (s_qs st) -> log_wf (rp_log P st names).
Proof.
  induction names as [|n r IH]; intros st Hw; cbn [rp_log]; [constructor|].
  destruct (qs_get (s_qs st) n) as [q|] eqn:Hg; [|now apply IH].
  destruct (qs_wf_get _ _ _ Hw Hg) as [Hn Hq].
  constructor; [cbn [snd]; apply wf_entry_simple; auto|].
  destruct (write_entry P st (EPosition n (next_position q))) as [st1 [k|e]] eqn:E; [|constructor].
  apply GcProofs.write_entry_qs in E. apply IH. now rewrite E.
Qed.

Lemma gc_log_wf st hint : qs_wf (s_qs st) -> log_wf (gc_log P st hint).
Proof.
  intros Hw. unfold gc_log. destruct (has_deletable st); [now apply rp_log_wf|constructor].
Qed.

Theorem step_log_wf st o :
  qs_wf (s_qs st) -> op_wf (s_qs st) o -> log_wf (step_log P st o).
Proof.
  intros Hw Ho. destruct o as [q|q hint|q pos payloads|q p hint|a]; cbn [step_log op_wf] in *.
  - unfold create_log. destruct (qs_contains (s_qs st) q); [constructor|].
    constructor; [|constructor]. cbn [snd]. apply wf_entry_simple; auto.
    change (0 < 2 ^ 64). reflexivity.
  - unfold delete_log. destruct (qs_get (s_qs st) q) as [m|] eqn:Hg; [|constructor].
    destruct (qs_wf_get _ _ _ Hw Hg) as [Hn Hq].
    constructor; [cbn [snd]; apply wf_entry_simple; auto|].
    destruct (write_entry P st (EDelete q (next_position m))) as [st1 [k|e]] eqn:E; [|constructor].
    apply GcProofs.write_entry_qs in E. apply gc_log_wf. cbn [set_qs s_qs]. rewrite E.
    now apply qs_wf_remove.
  - rewrite append_log_target. destruct (qs_get (s_qs st) q) as [m|] eqn:Hg; [|constructor].
    destruct (qs_wf_get _ _ _ Hw Hg) as [[Hu Hl] Hq].
    destruct (append_target m pos) as [position|] eqn:Et; [|constructor].
    destruct payloads as [|x r] eqn:Ep; [constructor|]. rewrite <- Ep in *.
    assert (Hlen : 1 <= lenN payloads) by (rewrite Ep, lenN_cons; lia).
    destruct Ho as [Hpl Hpos].
    assert (Hb : position + lenN payloads <= 2 ^ 64).
    { rewrite (append_target_eq _ _ _ Et). destruct pos as [p0|]; [exact Hpos|now apply Hpos]. }
    constructor; [|constructor]. cbn [snd]. apply wf_entry_append; try assumption. lia.
  - unfold truncate_log. destruct (qs_get (s_qs st) q) as [m|] eqn:Hg; [|constructor].
    destruct (qs_wf_get _ _ _ Hw Hg) as [Hn Hq].
    constructor; [cbn [snd]; apply wf_entry_simple; auto; lia|].
    destruct (write_entry P st (ETruncate q p)) as [st1 [k|e]] eqn:E; [|constructor].
    apply GcProofs.write_entry_qs in E. apply gc_log_wf. cbn [set_qs s_qs]. rewrite E.
    apply qs_wf_put; [exact Hw|exact Hn|].
    destruct (truncate_head_next m p) as [H|H]; rewrite H; lia.
  - constructor.
Qed.

Theorem gstep_entries_wf : forall st L o tick st' L' out,
  qs_wf (s_qs st) -> op_wf (s_qs st) o ->
  gstep P (st, L) o tick = ((st', L'), out) ->
  exists es, L' = L ++ es /\ Forall (fun fe => wf_entry (snd fe)) es.
Proof.
  intros st L o tick st' L' out Hw Ho H. apply gstep_inv in H. destruct H as (_ & -> & _).
  eexists; split; [reflexivity|]. now apply step_log_wf.
Qed.

(* so each logged entry is decoded back to itself *)
Corollary gstep_entries_roundtrip : forall st L o tick st' L' out,
  qs_wf (s_qs st) -> op_wf (s_qs st) o ->
  gstep P (st, L) o tick = ((st', L'), out) ->
  exists es, L' = L ++ es /\
             Forall (fun fe => entry_deser (entry_ser (snd fe)) = Some (snd fe)) es.
Proof.
  intros st L o tick st' L' out Hw Ho H.
  destruct (gstep_entries_wf _ _ _ _ _ _ _ Hw Ho H) as (es & -> & Hf).
  exists es. split; [reflexivity|]. eapply Forall_impl; [|exact Hf].
  intros fe. apply entry_roundtrip.
Qed.

End Wf.

(* lo <= f1 <= f2 <= ... <= fn <= hi *)
Fixpoint tags_mono (lo : N) (es : glog) (hi : N) : Prop :=
  match es with
  | [] => lo <= hi
  | (f, _) :: r => lo <= f /\ tags_mono f r hi
  end.

Lemma tags_mono_le es : forall lo hi, tags_mono lo es hi -> lo <= hi.
Proof.
  induction es as [|[f e] r IH]; intros lo hi; cbn [tags_mono]; [exact (fun H => H)|].
  intros [H1 H2]. apply IH in H2. lia.
Qed.

Lemma tags_mono_lo es lo lo' hi : lo' <= lo -> tags_mono lo es hi -> tags_mono lo' es hi.
Proof.
  destruct es as [|[f e] r]; cbn [tags_mono]; [lia|]. intros H [H1 H2]. split; [lia|exact H2].
Qed.

Lemma tags_mono_hi es : forall lo hi hi', hi <= hi' -> tags_mono lo es hi -> tags_mono lo es hi'.
Proof.
  induction es as [|[f e] r IH]; intros lo hi hi' H; cbn [tags_mono]; [lia|].
  intros [H1 H2]. split; [exact H1|]. eapply IH; eassumption.
Qed.

Lemma tags_mono_app a : forall lo mid b hi,
  tags_mono lo a mid -> tags_mono mid b hi -> tags_mono lo (a ++ b) hi.
Proof.
  induction a as [|[f e] r IH]; intros lo mid b hi; cbn [tags_mono app].
  - intros H. now apply tags_mono_lo.
  - intros [H1 H2] Hb. split; [exact H1|]. eapply IH; eassumption.
Qed.

Lemma tags_mono_cons lo e es hi : tags_mono lo es hi -> tags_mono lo ((lo, e) :: es) hi.
Proof. intros H. cbn [tags_mono]. split; [lia|exact H]. Qed.

Lemma tags_mono_consecutive a : forall lo hi f1 e1 f2 e2 b,
  tags_mono lo (a ++ (f1, e1) :: (f2, e2) :: b) hi -> f1 <= f2.
Proof.
  induction a as [|[f e] r IH]; intros lo hi f1 e1 f2 e2 b; cbn [app tags_mono].
  - intros [_ [H _]]. exact H.
  - intros [_ H]. eapply IH; exact H.
Qed.

Lemma tags_mono_bounds es : forall lo hi,
  tags_mono lo es hi -> Forall (fun f => lo <= f <= hi) (map fst es).
Proof.
  induction es as [|[f e] r IH]; intros lo hi; cbn [tags_mono map fst]; [constructor|].
  intros [H1 H2]. pose proof (tags_mono_le _ _ _ H2) as H3. constructor; [lia|].
  eapply Forall_impl; [|apply IH; exact H2]. cbn beta. intros x; lia.
Qed.

Lemma tags_mono_sorted es : forall lo hi,
  tags_mono lo es hi -> StronglySorted N.le (map fst es).
Proof.
  induction es as [|[f e] r IH]; intros lo hi; cbn [tags_mono map fst]; [constructor|].
  intros [H1 H2]. constructor; [eapply IH; exact H2|].
  eapply Forall_impl; [|apply tags_mono_bounds; exact H2]. cbn beta. intros x; lia.
Qed.

Section Tags.
Variable P : params.

Notation fileof st := (w_file (s_wr st)).

Lemma rp_log_tags names : forall st acc,
  wr_ok (s_wr st) ->
  tags_mono (fileof st) (rp_log P st names) (fileof (fst (record_positions P st names acc))) /\
  wr_ok (s_wr (fst (record_positions P st names acc))).
Proof.
  induction names as [|n r IH]; intros st acc Hok; cbn [rp_log record_positions].
  - cbn [fst tags_mono]. split; [lia|exact Hok].
  - destruct (qs_get (s_qs st) n) as [q|]; [|now apply IH].
    destruct (write_entry P st (EPosition n (next_position q))) as [st1 [k|e]] eqn:E;
      apply write_entry_step in E; destruct (E Hok) as [Hok1 Hle].
    + destruct (IH st1 (acc + k) Hok1) as [H1 H2]. split; [|exact H2].
      apply tags_mono_cons. eapply tags_mono_lo; eassumption.
    + cbn [fst tags_mono]. split; [lia|exact Hok1].
Qed.

Lemma gc_log_tags st hint :
  wr_ok (s_wr st) ->
  tags_mono (fileof st) (gc_log P st hint) (fileof (fst (run_gc_if_necessary P st hint))) /\
  wr_ok (s_wr (fst (run_gc_if_necessary P st hint))).
Proof.
  intros Hok.
  assert (Hok' : wr_ok (s_wr (fst (run_gc_if_necessary P st hint)))).
  { destruct (run_gc_if_necessary P st hint) as [st' r] eqn:G.
    now destruct (run_gc_step P _ _ _ _ G Hok). }
  split; [|exact Hok']. clear Hok'.
  unfold gc_log, run_gc_if_necessary. destruct (has_deletable st); [|cbn [fst tags_mono]; lia].
  unfold record_empty_queues_position.
  destruct (rp_log_tags (pick_order hint (empty_names (s_qs st))) st 0 Hok) as [H1 Hok1].
  destruct (record_positions P st (pick_order hint (empty_names (s_qs st))) 0) as [st1 [n|e]];
    cbn [fst] in *; [|exact H1].
  destruct (L_GC P && (n =? 0)).
  - destruct (gc_loop _ _ _) as [[c files] [u|e]]; cbn [fst set_wr s_wr w_file]; exact H1.
  - destruct (gc_loop _ _ _) as [[c files] [u|e]]; cbn [fst set_wr s_wr w_file];
      (eapply tags_mono_hi; [|exact H1]);
      now destruct (persist_step st1 true Hok1).
Qed.

Theorem step_log_tags st o tick :
  wr_ok (s_wr st) ->
  tags_mono (fileof st) (step_log P st o) (fileof (fst (step P st o tick))).
Proof.
  intros Hok. pose proof (step_file_mono P st o tick Hok) as Hmono.
  destruct o as [q|q hint|q pos payloads|q p hint|a]; cbn [step step_log] in *.
  - unfold create_log. destruct (qs_contains (s_qs st) q); [exact Hmono|].
    apply tags_mono_cons. exact Hmono.
  - unfold delete_log, delete_queue in *. destruct (qs_get (s_qs st) q) as [m|]; [|exact Hmono].
    apply tags_mono_cons.
    destruct (write_entry P st (EDelete q (next_position m))) as [st1 [k|e]] eqn:E;
      [|exact Hmono].
    apply write_entry_step in E. destruct (E Hok) as [Hok1 Hle].
    set (st2 := set_qs st1 (qs_remove (s_qs st1) q)) in *.
    destruct (gc_log_tags st2 hint Hok1) as [H1 Hok3].
    destruct (run_gc_if_necessary P st2 hint) as [st3 [k2|e]]; cbn [fst] in *.
    + eapply tags_mono_lo; [exact Hle|]. eapply tags_mono_hi; [|exact H1].
      now destruct (persist_step st3 true Hok3).
    + eapply tags_mono_lo; [exact Hle|exact H1].
  - rewrite append_log_target. destruct (qs_get (s_qs st) q) as [m|]; [|exact Hmono].
    destruct (append_target m pos) as [position|]; [|exact Hmono].
    destruct payloads as [|x r]; [exact Hmono|]. apply tags_mono_cons. exact Hmono.
  - unfold truncate_log, truncate in *. destruct (qs_get (s_qs st) q) as [m|]; [|exact Hmono].
    apply tags_mono_cons.
    destruct (write_entry P st (ETruncate q p)) as [st1 [k|e]] eqn:E; [|exact Hmono].
    apply write_entry_step in E. destruct (E Hok) as [Hok1 Hle].
    destruct (truncate_head m p) as [m' ev]. cbn [fst] in *.
    set (st2 := set_qs st1 (qs_put (s_qs st1) q m')) in *.
    destruct (gc_log_tags st2 hint Hok1) as [H1 Hok3].
    destruct (run_gc_if_necessary P st2 hint) as [st3 [k2|e]]; cbn [fst] in *.
    + eapply tags_mono_lo; [exact Hle|]. eapply tags_mono_hi; [|exact H1].
      now destruct (persist_on_policy_step st3 tick Hok3).
    + eapply tags_mono_lo; [exact Hle|exact H1].
  - exact Hmono.
Qed.

Theorem run_log_tags h : forall st,
  wr_ok (s_wr st) ->
  tags_mono (fileof st) (run_log P st h) (fileof (fst (run P st h))) /\
  wr_ok (s_wr (fst (run P st h))).
Proof.
  induction h as [|[o tick] r IH]; intros st Hok; cbn [run run_log].
  - cbn [fst tags_mono]. split; [lia|exact Hok].
  - pose proof (step_log_tags st o tick Hok) as H1.
    pose proof (step_wr_ok P st o tick Hok) as Hok1.
    destruct (step P st o tick) as [st1 out]. cbn [fst] in *.
    destruct (IH st1 Hok1) as [H2 Hok2].
    destruct (run P st1 r) as [st2 outs]. cbn [fst] in *.
    split; [|exact Hok2]. eapply tags_mono_app; eassumption.
Qed.

(* (4) each logged entry is tagged with a file number between the writer's file before and
   after the call, and the tags never decrease *)
Theorem gstep_tags_mono : forall st L o tick st' L' out,
  wr_ok (s_wr st) -> gstep P (st, L) o tick = ((st', L'), out) ->
  exists es, L' = L ++ es /\ tags_mono (fileof st) es (fileof st').
Proof.
  intros st L o tick st' L' out Hok H. apply gstep_inv in H. destruct H as (-> & -> & _).
  eexists; split; [reflexivity|]. now apply step_log_tags.
Qed.

Theorem grun_tags_mono : forall st L h st' L' outs,
  wr_ok (s_wr st) -> grun P (st, L) h = ((st', L'), outs) ->
  exists es, L' = L ++ es /\ tags_mono (fileof st) es (fileof st').
Proof.
  intros st L h st' L' outs Hok H. apply grun_inv in H. destruct H as (-> & -> & _).
  eexists; split; [reflexivity|]. now apply run_log_tags.
Qed.

Corollary grun_tags_sorted : forall st h st' L' outs,
  wr_ok (s_wr st) -> grun P (st, []) h = ((st', L'), outs) ->
  StronglySorted N.le (map fst L') /\
  Forall (fun f => fileof st <= f <= fileof st') (map fst L').
Proof.
  intros st h st' L' outs Hok H.
  destruct (grun_tags_mono _ _ _ _ _ _ Hok H) as (es & -> & Ht). cbn [app].
  split; [eapply tags_mono_sorted; exact Ht|apply tags_mono_bounds; exact Ht].
Qed.

Corollary grun_tags_consecutive : forall st h st' outs a f1 e1 f2 e2 b,
  wr_ok (s_wr st) -> grun P (st, []) h = ((st', a ++ (f1, e1) :: (f2, e2) :: b), outs) ->
  f1 <= f2.
Proof.
  intros st h st' outs a f1 e1 f2 e2 b Hok H.
  destruct (grun_tags_mono _ _ _ _ _ _ Hok H) as (es & He & Ht). cbn [app] in He. subst es.
  eapply tags_mono_consecutive; exact Ht.
Qed.

End Tags.

(* the well-formedness hypothesis on the state is itself an invariant (when batches stay strictly
   below 2^64), hence whole histories *)

Definition op_wf_strict (qs : queues) (o : op) : Prop :=
  match o with
  | OCreate q => name_ok q
  | ODelete _ _ => True
  | OAppend q pos payloads =>
      Forall (fun x => lenN x < 2 ^ 32) payloads /\
      match pos with
      | Some p => p + lenN payloads < 2 ^ 64
      | None => forall m, qs_get qs q = Some m -> next_position m + lenN payloads < 2 ^ 64
      end
  | OTruncate _ p _ => p + 1 < 2 ^ 64
  | OPersist _ => True
  end.

Lemma op_wf_strict_wf qs o : op_wf_strict qs o -> op_wf qs o.
Proof.
  destruct o as [q|q hint|q pos payloads|q p hint|a]; cbn [op_wf_strict op_wf]; auto.
  intros [H1 H2]. split; [exact H1|]. destruct pos as [p|]; [lia|].
  intros m Hm. specialize (H2 m Hm). lia.
Qed.

Lemma append_all_next : forall r m f p m',
  next_position m <= p -> append_all m f (number_from p r) = Some m' ->
  next_position m' = match r with [] => next_position m | _ => p + lenN r end.
Proof.
  induction r as [|x r IH]; intros m f p m' Hle; cbn [number_from append_all].
  - intros H; inversion H; subst. reflexivity.
  - destruct (append_record_next m f p x Hle) as (m1 & E1 & Hn). rewrite E1. intros H.
    apply IH in H; [|lia]. rewrite H. destruct r as [|y r'].
    + rewrite lenN_cons, lenN_nil. lia.
    + rewrite (lenN_cons x). lia.
Qed.

Section WfInv.
Variable P : params.

Theorem step_qs_wf st o tick :
  qs_wf (s_qs st) -> op_wf_strict (s_qs st) o -> qs_wf (s_qs (fst (step P st o tick))).
Proof.
  intros Hw Ho. rewrite step_qs.
  destruct o as [q|q hint|q pos payloads|q p hint|a]; cbn [op_wf_strict] in Ho.
  - destruct (qs_contains (s_qs st) q); [exact Hw|].
    destruct (entry_written P st _); [|exact Hw].
    apply qs_wf_put; [exact Hw|exact Ho|]. change (0 < 2 ^ 64). reflexivity.
  - destruct (qs_get (s_qs st) q) as [m|]; [|exact Hw].
    destruct (entry_written P st _); [now apply qs_wf_remove|exact Hw].
  - destruct (qs_get (s_qs st) q) as [m|] eqn:Hg; [|exact Hw].
    destruct (append_target m pos) as [position|] eqn:Et; [|exact Hw].
    destruct Ho as [_ Hpos].
    assert (Hb : position + lenN payloads < 2 ^ 64).
    { rewrite (append_target_eq _ _ _ Et). destruct pos as [p0|]; [exact Hpos|now apply Hpos]. }
    destruct payloads as [|x r]; [exact Hw|].
    destruct (append_all m _ _) as [m'|] eqn:Em; [|exact Hw].
    destruct (entry_written P st _); [|exact Hw].
    destruct (qs_wf_get _ _ _ Hw Hg) as [Hn _]. apply qs_wf_put; [exact Hw|exact Hn|].
    rewrite (append_all_next _ _ _ _ _ (append_target_ge _ _ _ Et) Em). exact Hb.
  - destruct (qs_get (s_qs st) q) as [m|] eqn:Hg; [|exact Hw].
    destruct (entry_written P st _); [|exact Hw].
    destruct (qs_wf_get _ _ _ Hw Hg) as [Hn Hq]. apply qs_wf_put; [exact Hw|exact Hn|].
    destruct (truncate_head_next m p) as [H|H]; rewrite H; lia.
  - exact Hw.
Qed.

(* the arguments of every call of a history are within the Rust type bounds *)
Fixpoint hist_wf (st : state) (h : list (op * bool)) : Prop :=
  match h with
  | [] => True
  | (o, tick) :: r => op_wf_strict (s_qs st) o /\ hist_wf (fst (step P st o tick)) r
  end.

Theorem run_log_wf h : forall st,
  qs_wf (s_qs st) -> hist_wf st h ->
  log_wf (run_log P st h) /\ qs_wf (s_qs (fst (run P st h))).
Proof.
  induction h as [|[o tick] r IH]; intros st Hw; cbn [hist_wf run run_log].
  - intros _. split; [constructor|exact Hw].
  - intros [Ho Hr].
    pose proof (step_log_wf P st o Hw (op_wf_strict_wf _ _ Ho)) as H1.
    pose proof (step_qs_wf st o tick Hw Ho) as Hw1.
    destruct (step P st o tick) as [st1 out]. cbn [fst] in *.
    destruct (IH st1 Hw1 Hr) as [H2 Hw2].
    destruct (run P st1 r) as [st2 outs]. cbn [fst] in *.
    split; [|exact Hw2]. apply Forall_app. split; assumption.
Qed.

Corollary grun_entries_wf : forall st L h st' L' outs,
  qs_wf (s_qs st) -> hist_wf st h ->
  grun P (st, L) h = ((st', L'), outs) ->
  exists es, L' = L ++ es /\ Forall (fun fe => wf_entry (snd fe)) es.
Proof.
  intros st L h st' L' outs Hw Hh H. apply grun_inv in H. destruct H as (_ & -> & _).
  eexists; split; [reflexivity|]. now apply run_log_wf.
Qed.

End WfInv.

(* the two corners, on concrete data *)

Definition PG : params := mkParams 64 2 (fun _ _ => 0) 24 false false false.
Definition fsG : fsT := [(filename 0, FFile (zerosN 128)); (filename 1, FFile (zerosN 128))].

(* (a) live_is_replay needs distinct queue names: with a duplicated key the GC records the
   position of the FIRST "a" (not empty) because the SECOND "a" is listed as empty; replaying
   that EPosition resets the first "a", the live state does not. *)
Definition st_dup : state :=
  mkSt (mkWr (ctx_init fsG None) [0; 1] 1 0 [])
       [(["a"%byte], mkMq ["x"%byte] 0 [mkMeta 0 (Some 1) 0]); (["a"%byte], mq_default);
        (["b"%byte], mq_default)] PNothing.

Example dup_names_break_replay :
  let '((st', L'), out) := gstep PG (st_dup, []) (ODelete ["b"%byte] []) false in
  out = OutDelete 38 /\
  L' = [(1, EDelete ["b"%byte] 0); (1, EPosition ["a"%byte] 1)] /\
  s_qs st' = [(["a"%byte], mkMq ["x"%byte] 0 [mkMeta 0 (Some 1) 0]); (["a"%byte], mq_default)] /\
  replay_entries (s_qs st_dup) L' =
    Some [(["a"%byte], mkMq [] 1 []); (["a"%byte], mq_default)].
Proof. vm_compute. repeat split. Qed.

(* (b) truncate at u64::MAX: the emptied queue has next position 2^64, the GC logs it, and the
   codec wraps it to 0 — hence `p + 1 < 2^64` in op_wf *)
Definition st_max : state :=
  mkSt (mkWr (ctx_init fsG None) [0; 1] 1 0 []) [(["a"%byte], mq_default)] PNothing.

Example truncate_max_not_wf :
  let '((st', L'), out) := gstep PG (st_max, []) (OTruncate ["a"%byte] (2 ^ 64 - 1) []) false in
  L' = [(1, ETruncate ["a"%byte] (2 ^ 64 - 1)); (1, EPosition ["a"%byte] (2 ^ 64))] /\
  entry_deser (entry_ser (EPosition ["a"%byte] (2 ^ 64))) = Some (EPosition ["a"%byte] 0).
Proof. vm_compute. repeat split. Qed.

Print Assumptions gstep_erase.
Print Assumptions grun_erase.
Print Assumptions gstep_log_extends.
Print Assumptions live_is_replay.
Print Assumptions live_is_replay_no_gc.
Print Assumptions history_is_replay.
Print Assumptions history_from_empty_is_replay.
Print Assumptions step_nodup.
Print Assumptions replay_from_nil_nodup.
Print Assumptions gstep_entries_wf.
Print Assumptions grun_entries_wf.
Print Assumptions gstep_tags_mono.
Print Assumptions grun_tags_sorted.
Print Assumptions grun_tags_consecutive.
Print Assumptions dup_names_break_replay.
Print Assumptions truncate_max_not_wf.
