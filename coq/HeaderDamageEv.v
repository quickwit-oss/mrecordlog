(* HeaderDamageEv.v — event-level machinery for HeaderDamage.v.
   (A) the record reader as a function of the sequence of frame-level results (asm), and the
       relation `thin` between the frames that were written and the frame-level results seen
       by a reader that lost its way inside a block: pure list reasoning, no stream involved;
   (B) the concrete reader (go_next / mem_read_all over vecr) follows asm along any frame trace. *)
From Coq Require Import Lia ZArith ZifyN ZifyNat ZifyBool.
From MRL Require Import Bytes BytesProofs Params Frame Driver StreamProofs DamageProofs.

(* what one read_frame call can tell the record reader, apart from "end" *)
Inductive fev := EvOk (t : ftype) (p : bytes) | EvBad.

(* one go_next call on a list of frame events: remaining events, buffer, within, result *)
Fixpoint ago1 (evs : list fev) (buf : bytes) (w : bool) : list fev * bytes * bool * rresult :=
  match evs with
  | [] => ([], buf, w, REnd)
  | EvOk t p :: r =>
      let w1 := if is_first_frame t then true else w in
      let b0 := if is_first_frame t then [] else buf in
      if w1 then
        if is_last_frame t then (r, b0 ++ p, false, RRecord)
        else ago1 r (b0 ++ p) true
      else ago1 r b0 w1
  | EvBad :: r => (r, buf, false, RCorrupt)
  end.

(* the whole reading loop on a list of frame events *)
Fixpoint asm (evs : list fev) (buf : bytes) (w : bool) : list mem_read :=
  match evs with
  | [] => [MrEnd]
  | EvOk t p :: r =>
      let w1 := if is_first_frame t then true else w in
      let b0 := if is_first_frame t then [] else buf in
      if w1 then
        if is_last_frame t then MrEntry (b0 ++ p) :: asm r (b0 ++ p) false
        else asm r (b0 ++ p) true
      else asm r b0 w1
  | EvBad :: r => MrCorrupt :: asm r buf false
  end.

Lemma ago1_shape evs : forall buf w evs' b' w' r,
  ago1 evs buf w = (evs', b', w', r) ->
  (r = REnd \/ ((r = RRecord \/ r = RCorrupt) /\ (length evs' < length evs)%nat)).
Proof.
  induction evs as [|[t p|] evs IH]; intros buf w evs' b' w' r H; cbn [ago1] in H.
  - inversion H; subst. left; reflexivity.
  - destruct (if is_first_frame t then true else w).
    + destruct (is_last_frame t).
      * inversion H; subst. right. cbn [length]. split; [left; reflexivity|lia].
      * apply IH in H. cbn [length].
        destruct H as [H|[H1 H2]]; [left; exact H|right; split; [exact H1|lia]].
    + apply IH in H. cbn [length].
      destruct H as [H|[H1 H2]]; [left; exact H|right; split; [exact H1|lia]].
  - inversion H; subst. right. cbn [length]. split; [right; reflexivity|lia].
Qed.

Lemma asm_ago1 evs : forall buf w,
  asm evs buf w =
  match ago1 evs buf w with
  | (evs', b', w', RRecord) => MrEntry b' :: asm evs' b' w'
  | (evs', b', w', RCorrupt) => MrCorrupt :: asm evs' b' w'
  | _ => [MrEnd]
  end.
Proof.
  induction evs as [|[t p|] evs IH]; intros buf w; cbn [ago1 asm].
  - reflexivity.
  - destruct (if is_first_frame t then true else w).
    + destruct (is_last_frame t); [reflexivity|apply IH].
    + apply IH.
  - reflexivity.
Qed.

Lemma asm_no_fuel evs : forall buf w, ~ In MrFuel (asm evs buf w).
Proof.
  induction evs as [|[t p|] evs IH]; intros buf w; cbn [asm].
  - intros [H|[]]; discriminate.
  - destruct (if is_first_frame t then true else w).
    + destruct (is_last_frame t); [|apply IH].
      intros [H|H]; [discriminate|exact (IH _ _ H)].
    + apply IH.
  - intros [H|H]; [discriminate|exact (IH _ _ H)].
Qed.

Lemma asm_buf_false evs : forall b1 b2, asm evs b1 false = asm evs b2 false.
Proof.
  induction evs as [|[t p|] evs IH]; intros b1 b2; cbn [asm]; [reflexivity| |].
  - destruct (is_first_frame t); [reflexivity|]. apply IH.
  - f_equal. apply IH.
Qed.

Lemma asm_bads n : forall rest buf w,
  exists w', asm (repeat EvBad n ++ rest) buf w = repeat MrCorrupt n ++ asm rest buf w' /\
             (w = false -> w' = false).
Proof.
  induction n as [|n IH]; intros rest buf w.
  - exists w. split; [reflexivity|auto].
  - cbn [repeat app asm]. destruct (IH rest buf false) as (w' & E & Hw).
    exists w'. rewrite E. split; [reflexivity|]. intros _. apply Hw. reflexivity.
Qed.

Lemma asm_bads_false n rest buf :
  asm (repeat EvBad n ++ rest) buf false = repeat MrCorrupt n ++ asm rest buf false.
Proof.
  destruct (asm_bads n rest buf false) as (w' & E & Hw). rewrite (Hw eq_refl) in E. exact E.
Qed.

Lemma asm_snoc_bad evs : forall buf w,
  delivered (asm (evs ++ [EvBad]) buf w) = delivered (asm evs buf w).
Proof.
  induction evs as [|[t p|] evs IH]; intros buf w; cbn [app asm].
  - reflexivity.
  - destruct (if is_first_frame t then true else w).
    + destruct (is_last_frame t); [|apply IH].
      change (MrEntry ?x :: ?l) with ([MrEntry x] ++ l). rewrite !delivered_app, IH. reflexivity.
    + apply IH.
  - change (MrCorrupt :: ?l) with ([MrCorrupt] ++ l). rewrite !delivered_app, IH. reflexivity.
Qed.

Section Pure.
Variable P : params.
Local Notation enc_any := (enc_any P).
Local Notation encs_any := (encs_any P).
Local Notation fs_good := (fs_good P).
Local Notation intact := (intact P).
Local Notation chunk_of := (chunk_of P).

Definition ev_of (x : fspec) : fev := EvOk (fs_ty x) (fs_pl x).

(* thin c xs evs c': xs are the frames written (in order); evs is what a reader reports that
   accepts some of them and loses the others, where frames are lost ONLY after a Corruption
   event and before the next accepted frame.  c / c' : "no Corruption since the last accepted
   frame" at the start / at the end. *)
Inductive thin : bool -> list fspec -> list fev -> bool -> Prop :=
| T_nil c : thin c [] [] c
| T_ok c x xs evs c' : thin true xs evs c' -> thin c (x :: xs) (ev_of x :: evs) c'
| T_skip x xs evs c' : thin false xs evs c' -> thin false (x :: xs) evs c'
| T_bad c xs evs c' : thin false xs evs c' -> thin c xs (EvBad :: evs) c'.

Lemma thin_nil_inv c evs c' : thin c [] evs c' -> exists n, evs = repeat EvBad n.
Proof.
  intros H. remember [] as xs eqn:E. induction H as [c | c x xs evs c' H IH | x xs evs c' H IH | c xs evs c' H IH].
  - exists 0%nat. reflexivity.
  - discriminate.
  - discriminate.
  - destruct (IH E) as [n ->]. exists (S n). reflexivity.
Qed.

Lemma thin_split c xs1 xs2 evs c' :
  thin c (xs1 ++ xs2) evs c' ->
  exists evs1 evs2 cm, evs = evs1 ++ evs2 /\ thin c xs1 evs1 cm /\ thin cm xs2 evs2 c'.
Proof.
  intros H. remember (xs1 ++ xs2) as xs eqn:E. revert xs1 E.
  induction H as [c | c x xs evs c' H IH | x xs evs c' H IH | c xs evs c' H IH]; intros xs1 E.
  - destruct xs1; [|discriminate]. cbn [app] in E. subst xs2.
    exists [], [], c. repeat split; constructor.
  - destruct xs1 as [|y xs1].
    + cbn [app] in E. subst xs2. exists [], (ev_of x :: evs), c.
      split; [reflexivity|]. split; [constructor|]. apply T_ok. exact H.
    + cbn [app] in E. inversion E; subst y xs.
      destruct (IH xs1 eq_refl) as (evs1 & evs2 & cm & -> & H1 & H2).
      exists (ev_of x :: evs1), evs2, cm. split; [reflexivity|]. split; [apply T_ok; exact H1|exact H2].
  - destruct xs1 as [|y xs1].
    + cbn [app] in E. subst xs2. exists [], evs, false.
      split; [reflexivity|]. split; [constructor|]. apply T_skip. exact H.
    + cbn [app] in E. inversion E; subst y xs.
      destruct (IH xs1 eq_refl) as (evs1 & evs2 & cm & -> & H1 & H2).
      exists evs1, evs2, cm. split; [reflexivity|]. split; [apply T_skip; exact H1|exact H2].
  - destruct (IH xs1 E) as (evs1 & evs2 & cm & -> & H1 & H2).
    exists (EvBad :: evs1), evs2, cm. split; [reflexivity|]. split; [apply T_bad; exact H1|exact H2].
Qed.

Lemma thin_app c xs1 evs1 cm : thin c xs1 evs1 cm ->
  forall xs2 evs2 c', thin cm xs2 evs2 c' -> thin c (xs1 ++ xs2) (evs1 ++ evs2) c'.
Proof.
  induction 1 as [c | c x xs evs c' H IH | x xs evs c' H IH | c xs evs c' H IH]; intros xs2 evs2 c2 H2.
  - exact H2.
  - cbn [app]. apply T_ok. apply IH. exact H2.
  - cbn [app]. apply T_skip. apply IH. exact H2.
  - cbn [app]. apply T_bad. apply IH. exact H2.
Qed.

Lemma thin_oks xs : forall c, exists c', thin c xs (map ev_of xs) c'.
Proof.
  induction xs as [|x xs IH]; intros c.
  - exists c. constructor.
  - destruct (IH true) as (c' & H). exists c'. cbn [map]. apply T_ok. exact H.
Qed.

Lemma thin_skips xs1 : forall xs2 evs c', thin false xs2 evs c' -> thin false (xs1 ++ xs2) evs c'.
Proof.
  induction xs1 as [|x xs1 IH]; intros xs2 evs c' H; [exact H|].
  cbn [app]. apply T_skip. apply IH. exact H.
Qed.

(* a reader that stops early has, as far as delivery is concerned, lost everything after *)
Lemma thin_stop c xs1 evs c' xs2 :
  thin c xs1 evs c' -> thin c (xs1 ++ xs2) (evs ++ [EvBad]) false.
Proof.
  intros H. apply (thin_app _ _ _ _ H). apply T_bad.
  rewrite <- (app_nil_r xs2). apply thin_skips. constructor.
Qed.

Lemma thin_entry c xs evs c' :
  thin c xs evs c' ->
  forall a f p e, enc_any a f p xs e -> forallb fs_good xs = true ->
  forall rest buf w, (c = false -> w = false) ->
  exists out buf',
    asm (evs ++ rest) buf w = out ++ asm rest buf' false /\
    (delivered out = [] \/
     (delivered out = [(if f then [] else buf) ++ p] /\ (f = true \/ w = true))).
Proof.
  induction 1 as [c | c x xs evs c' H IH | x xs evs c' H IH | c xs evs c' H IH];
    intros a f p e Henc Hall rest buf w Hcw.
  - inversion Henc.
  - cbn [forallb] in Hall. apply andb_true_iff in Hall as [Hgx Hall].
    cbn [app asm ev_of].
    inversion Henc as [a0 f0 p0 x0 Hd (Ht & Hc4 & Hl & Hg) | a0 f0 p0 x0 xs0 e0 Hd (Ht & Hc4 & Hl & Hg) Hr];
      subst.
    + (* last frame of the entry *)
      destruct (thin_nil_inv _ _ _ H) as [n ->].
      rewrite Ht, is_first_frame_type, is_last_frame_type, (Hg Hgx).
      pose proof (takeN_dropN (chunk_of a p) p) as Htd. rewrite Hd, app_nil_r in Htd. rewrite Htd.
      destruct (if f then true else w) eqn:Ew.
      * rewrite asm_bads_false.
        exists (MrEntry ((if f then [] else buf) ++ p) :: repeat MrCorrupt n), ((if f then [] else buf) ++ p).
        split; [reflexivity|]. right.
        split.
        -- change (MrEntry ?y :: ?l) with ([MrEntry y] ++ l).
           rewrite delivered_app, delivered_repeat. reflexivity.
        -- destruct f; [left; reflexivity|right; exact Ew].
      * rewrite asm_bads_false.
        exists (repeat MrCorrupt n), (if f then [] else buf).
        split; [reflexivity|]. left. apply delivered_repeat.
    + (* more frames follow *)
      rewrite Ht, is_first_frame_type, is_last_frame_type, (Hg Hgx).
      destruct (if f then true else w) eqn:Ew.
      * destruct (IH _ _ _ _ Hr Hall rest ((if f then [] else buf) ++ takeN (chunk_of a p) p) true)
          as (out & buf' & E & Hdel); [discriminate|].
        exists out, buf'. split; [exact E|].
        destruct Hdel as [Hd0 | [Hd1 _]]; [left; exact Hd0|right].
        split.
        -- rewrite Hd1. cbn match. rewrite <- app_assoc, takeN_dropN. reflexivity.
        -- destruct f; [left; reflexivity|right; exact Ew].
      * destruct (IH _ _ _ _ Hr Hall rest (if f then [] else buf) false)
          as (out & buf' & E & Hdel); [discriminate|].
        exists out, buf'. split; [exact E|].
        destruct Hdel as [Hd0 | [_ [Hf|Hf]]]; [left; exact Hd0|discriminate|discriminate].
  - cbn [forallb] in Hall. apply andb_true_iff in Hall as [Hgx Hall].
    rewrite (Hcw eq_refl).
    inversion Henc as [a0 f0 p0 x0 Hd Hff | a0 f0 p0 x0 xs0 e0 Hd Hff Hr]; subst.
    + destruct (thin_nil_inv _ _ _ H) as [n ->]. rewrite asm_bads_false.
      exists (repeat MrCorrupt n), buf. split; [reflexivity|]. left. apply delivered_repeat.
    + destruct (IH _ _ _ _ Hr Hall rest buf false) as (out & buf' & E & Hdel); [reflexivity|].
      exists out, buf'. split; [exact E|].
      destruct Hdel as [Hd0 | [_ [Hf|Hf]]]; [left; exact Hd0|discriminate|discriminate].
  - cbn [app asm].
    destruct (IH _ _ _ _ Henc Hall rest buf false) as (out & buf' & E & Hdel); [reflexivity|].
    exists (MrCorrupt :: out), buf'. rewrite E. split; [reflexivity|].
    change (MrCorrupt :: out) with ([MrCorrupt] ++ out). rewrite delivered_app. cbn [delivered flat_map app].
    destruct Hdel as [Hd0 | [Hd1 [Hf|Hf]]]; [left; exact Hd0| |discriminate].
    right. split; [exact Hd1|left; exact Hf].
Qed.

Lemma thin_entries a pxs t :
  encs_any a pxs t -> forallb intact pxs = true ->
  forall c evs c', thin c (flat_map snd pxs) evs c' ->
  forall rest buf, exists out buf',
    asm (evs ++ rest) buf false = out ++ asm rest buf' false /\
    sublist (delivered out) (map fst pxs).
Proof.
  induction 1 as [a | a p xs e pxs t He Hes IH]; intros Hall c evs c' Hth rest buf.
  - cbn [flat_map] in Hth. destruct (thin_nil_inv _ _ _ Hth) as [n ->].
    rewrite asm_bads_false. exists (repeat MrCorrupt n), buf. split; [reflexivity|].
    rewrite delivered_repeat. constructor.
  - cbn [flat_map snd] in Hth. cbn [forallb] in Hall. apply andb_true_iff in Hall as [Hx Hall].
    unfold DamageProofs.intact in Hx. cbn [snd] in Hx.
    destruct (thin_split _ _ _ _ _ Hth) as (evs1 & evs2 & cm & -> & H1 & H2).
    rewrite <- app_assoc.
    destruct (thin_entry _ _ _ _ H1 _ _ _ _ He Hx (evs2 ++ rest) buf false (fun _ => eq_refl))
      as (out1 & buf1 & E1 & Hdel1).
    destruct (IH Hall _ _ _ H2 rest buf1) as (out2 & buf2 & E2 & Hsub).
    exists (out1 ++ out2), buf2. rewrite E1, E2, <- app_assoc. split; [reflexivity|].
    rewrite delivered_app. cbn [map fst].
    destruct Hdel1 as [-> | [-> _]]; cbn [app].
    + apply SL_skip. exact Hsub.
    + apply SL_keep. exact Hsub.
Qed.

(* frames all accepted: the entries are delivered *)
Lemma asm_entry_good a f p xs e :
  enc_any a f p xs e -> forallb fs_good xs = true ->
  forall rest buf w, f = true \/ w = true ->
    asm (map ev_of xs ++ rest) buf w =
    MrEntry ((if f then [] else buf) ++ p) :: asm rest ((if f then [] else buf) ++ p) false.
Proof.
  induction 1 as [a f p x Hd (Ht & Hc4 & Hl & Hg) | a f p x xs e Hd (Ht & Hc4 & Hl & Hg) Hr IH];
    intros Hall rest buf w Hfw; cbn [forallb] in Hall; apply andb_true_iff in Hall as [Hgx Hall];
    assert (Hw : (if f then true else w) = true)
      by (destruct f; [reflexivity | destruct Hfw as [Hf|Hw]; [discriminate|exact Hw]]);
    cbn [map app asm ev_of]; rewrite Ht, is_first_frame_type, is_last_frame_type, Hw, (Hg Hgx).
  - pose proof (takeN_dropN (chunk_of a p) p) as Htd. rewrite Hd, app_nil_r in Htd.
    rewrite Htd. reflexivity.
  - rewrite (IH Hall rest _ true) by (right; reflexivity).
    cbn match. rewrite <- app_assoc, takeN_dropN. reflexivity.
Qed.

Lemma asm_entries_good a pxs t :
  encs_any a pxs t -> forallb intact pxs = true ->
  forall rest buf, exists buf',
    asm (map ev_of (flat_map snd pxs) ++ rest) buf false =
    map MrEntry (map fst pxs) ++ asm rest buf' false.
Proof.
  induction 1 as [a | a p xs e pxs t He Hes IH]; intros Hall rest buf.
  - exists buf. reflexivity.
  - cbn [forallb] in Hall. apply andb_true_iff in Hall as [Hx Hall].
    unfold DamageProofs.intact in Hx. cbn [snd] in Hx.
    cbn [flat_map snd map fst]. rewrite map_app, <- app_assoc.
    rewrite (asm_entry_good _ _ _ _ _ He Hx) by (left; reflexivity).
    destruct (IH Hall rest ([] ++ p)) as (buf' & E). exists buf'. rewrite E. reflexivity.
Qed.

Lemma delivered_entries l : delivered (map MrEntry l) = l.
Proof. induction l as [|x l IH]; [reflexivity|]. cbn [map]. change (MrEntry x :: ?r) with ([MrEntry x] ++ r). rewrite delivered_app, IH. reflexivity. Qed.

(* the frames A1 of the tail of an entry that began before the reader's starting point: whatever
   the reader makes of them (thin), it delivers nothing and is left outside an entry *)
Lemma asm_tail_nothing q p2 A1 e2 c evA cA :
  A1 = [] \/ enc_any q false p2 A1 e2 -> forallb fs_good A1 = true ->
  thin c A1 evA cA ->
  forall rest buf, exists out buf',
    asm (evA ++ rest) buf false = out ++ asm rest buf' false /\ delivered out = [].
Proof.
  intros [->|He] Hg Hth rest buf.
  - destruct (thin_nil_inv _ _ _ Hth) as [n ->]. rewrite asm_bads_false.
    exists (repeat MrCorrupt n), buf. split; [reflexivity|apply delivered_repeat].
  - destruct (thin_entry _ _ _ _ Hth _ _ _ _ He Hg rest buf false (fun _ => eq_refl))
      as (out & buf' & E & [Hd|[_ [Hf|Hf]]]); try discriminate.
    exists out, buf'. split; assumption.
Qed.

(* four segments: the tail of a straddling entry, untouched entries, entries that may lose
   frames, untouched entries *)
Theorem asm_four q p2 A1 e2 a1 pxs1 t1 ab pxsb tb a3 pxs3 t3 cA0 evA cA cB0 evB cB :
  A1 = [] \/ enc_any q false p2 A1 e2 -> forallb fs_good A1 = true ->
  encs_any a1 pxs1 t1 -> forallb intact pxs1 = true ->
  encs_any ab pxsb tb -> forallb intact pxsb = true ->
  encs_any a3 pxs3 t3 -> forallb intact pxs3 = true ->
  thin cA0 A1 evA cA -> thin cB0 (flat_map snd pxsb) evB cB ->
  exists mid,
    delivered (asm (evA ++ map ev_of (flat_map snd pxs1) ++ evB ++ map ev_of (flat_map snd pxs3))
                   [] false)
      = map fst pxs1 ++ mid ++ map fst pxs3 /\
    sublist mid (map fst pxsb).
Proof.
  intros HA GA H1 G1 Hb Gb H3 G3 ThA ThB.
  destruct (asm_tail_nothing _ _ _ _ _ _ _ HA GA ThA
              (map ev_of (flat_map snd pxs1) ++ evB ++ map ev_of (flat_map snd pxs3)) [])
    as (out0 & b0 & E0 & D0).
  destruct (asm_entries_good _ _ _ H1 G1 (evB ++ map ev_of (flat_map snd pxs3)) b0) as (b1 & E1).
  destruct (thin_entries _ _ _ Hb Gb _ _ _ ThB (map ev_of (flat_map snd pxs3)) b1)
    as (out & b2 & E2 & Hsub).
  destruct (asm_entries_good _ _ _ H3 G3 [] b2) as (b3 & E3). rewrite app_nil_r in E3.
  exists (delivered out). split; [|exact Hsub].
  rewrite E0, E1, E2, E3, !delivered_app, D0, !delivered_entries. cbn [asm delivered flat_map app].
  rewrite app_nil_r. reflexivity.
Qed.

(* the two ways the frames met by a reader started inside an entry are grouped (see
   HeaderDamage.frames_from): the tail A1 of that entry is clean and so are the entries pxs1, or
   the tail itself reaches the damaged block (and then there is no pxs1) *)
Lemma finish_core q p2 A1 e2 a1 pxs1 t1 ab pxsb tb a3 pxs3 t3 C M evM c' :
  A1 = [] \/ enc_any q false p2 A1 e2 -> forallb fs_good A1 = true ->
  encs_any a1 pxs1 t1 -> forallb intact pxs1 = true ->
  encs_any ab pxsb tb -> forallb intact pxsb = true ->
  encs_any a3 pxs3 t3 -> forallb intact pxs3 = true ->
  (C = A1 ++ flat_map snd pxs1 /\ M = flat_map snd pxsb) \/
  (C = [] /\ pxs1 = [] /\ M = A1 ++ flat_map snd pxsb) ->
  thin true M evM c' ->
  exists mid,
    delivered (asm (map ev_of C ++ evM ++ map ev_of (flat_map snd pxs3)) [] false)
      = map fst pxs1 ++ mid ++ map fst pxs3 /\
    sublist mid (map fst pxsb).
Proof.
  intros HA GA H1 G1 Hb Gb H3 G3 [[-> ->]|(-> & -> & ->)] Hth.
  - destruct (thin_oks A1 true) as (cA & ThA).
    rewrite map_app, <- app_assoc.
    exact (asm_four _ _ _ _ _ _ _ _ _ _ _ _ _ _ _ _ _ _ _ HA GA H1 G1 Hb Gb H3 G3 ThA Hth).
  - destruct (thin_split _ _ _ _ _ Hth) as (evA & evB & cm & -> & ThA & ThB).
    cbn [map app]. rewrite <- app_assoc.
    exact (asm_four _ _ _ _ _ _ _ _ _ _ _ _ _ _ _ _ _ _ _ HA GA H1 G1 Hb Gb H3 G3 ThA ThB).
Qed.

(* the reader stopped after the events evM, having got through a prefix Mp of the frames M:
   as far as delivery goes, a Corruption event follows and the frames Ms are lost *)
Lemma finish_stop q p2 A1 e2 a1 pxs1 t1 ab pxsb tb C M Mp Ms evM c' :
  A1 = [] \/ enc_any q false p2 A1 e2 -> forallb fs_good A1 = true ->
  encs_any a1 pxs1 t1 -> forallb intact pxs1 = true ->
  encs_any ab pxsb tb -> forallb intact pxsb = true ->
  (C = A1 ++ flat_map snd pxs1 /\ M = flat_map snd pxsb) \/
  (C = [] /\ pxs1 = [] /\ M = A1 ++ flat_map snd pxsb) ->
  M = Mp ++ Ms -> thin true Mp evM c' ->
  exists mid,
    delivered (asm (map ev_of C ++ evM) [] false) = map fst pxs1 ++ mid /\
    sublist mid (map fst pxsb).
Proof.
  intros HA GA H1 G1 Hb Gb Hshape EM Hth.
  pose proof (thin_stop _ _ _ _ Ms Hth) as Hth'. rewrite <- EM in Hth'.
  destruct (finish_core q p2 A1 e2 _ _ _ _ _ _ 0 [] [] C M (evM ++ [EvBad]) false HA GA H1 G1 Hb Gb
              (EAS_nil P 0) eq_refl Hshape Hth') as (mid & Hdel & Hsub).
  exists mid. split; [|exact Hsub].
  cbn [flat_map map] in Hdel. rewrite !app_nil_r in Hdel. rewrite <- Hdel.
  rewrite (app_assoc (map ev_of C) evM [EvBad]). symmetry. apply asm_snoc_bad.
Qed.

(* three segments: untouched entries, entries that may lose frames, untouched *)
Theorem asm_three a1 pxs1 t1 ab pxsb tb a3 pxs3 t3 ev2 c' :
  encs_any a1 pxs1 t1 -> forallb intact pxs1 = true ->
  encs_any ab pxsb tb -> forallb intact pxsb = true ->
  encs_any a3 pxs3 t3 -> forallb intact pxs3 = true ->
  thin true (flat_map snd pxsb) ev2 c' ->
  exists mid,
    delivered (asm (map ev_of (flat_map snd pxs1) ++ ev2 ++ map ev_of (flat_map snd pxs3)) [] false)
      = map fst pxs1 ++ mid ++ map fst pxs3 /\
    sublist mid (map fst pxsb).
Proof.
  intros H1 G1 Hb Gb H3 G3 Hth.
  exact (asm_four 0 [] [] [] _ _ _ _ _ _ _ _ _ true [] true _ _ _ (or_introl eq_refl) eq_refl
           H1 G1 Hb Gb H3 G3 (T_nil true) Hth).
Qed.

(* the reader stopped after the events ev2, having got through a prefix xsp of the frames *)
Theorem asm_two_stop a1 pxs1 t1 ab pxsb tb ev2 c' xsp xss :
  encs_any a1 pxs1 t1 -> forallb intact pxs1 = true ->
  encs_any ab pxsb tb -> forallb intact pxsb = true ->
  flat_map snd pxsb = xsp ++ xss -> thin true xsp ev2 c' ->
  exists mid,
    delivered (asm (map ev_of (flat_map snd pxs1) ++ ev2) [] false) = map fst pxs1 ++ mid /\
    sublist mid (map fst pxsb).
Proof.
  intros H1 G1 Hb Gb Hsp Hth.
  exact (finish_stop 0 [] [] [] _ _ _ _ _ _ _ _ xsp xss ev2 c' (or_introl eq_refl) eq_refl
           H1 G1 Hb Gb (or_introl (conj eq_refl eq_refl)) Hsp Hth).
Qed.

End Pure.

Section Trace.
Variable P : params.
Local Notation rframe := (read_frame P vecr (vr_next P) vr_block).
Local Notation gonext := (go_next P vecr (vr_next P) vr_block).

(* the successive read_frame results from reader state fr up to the first FNotAvail, and the
   reader which that last call leaves *)
Inductive ftraceF : freader vecr -> list fev -> freader vecr -> Prop :=
| FF_end fr fr' : rframe fr = (fr', FNotAvail) -> ftraceF fr [] fr'
| FF_ok fr fr' t p evs frE :
    rframe fr = (fr', FOk t p) -> ftraceF fr' evs frE -> ftraceF fr (EvOk t p :: evs) frE
| FF_bad fr fr' evs frE :
    rframe fr = (fr', FCorrupt) -> ftraceF fr' evs frE -> ftraceF fr (EvBad :: evs) frE.

Definition ftrace (fr : freader vecr) (evs : list fev) : Prop := exists frE, ftraceF fr evs frE.

Lemma ftrace_ok fr fr' t p evs :
  rframe fr = (fr', FOk t p) -> ftrace fr' evs -> ftrace fr (EvOk t p :: evs).
Proof. intros E [frE H]. exists frE. exact (FF_ok _ _ _ _ _ _ E H). Qed.

Lemma ftrace_bad fr fr' evs : rframe fr = (fr', FCorrupt) -> ftrace fr' evs -> ftrace fr (EvBad :: evs).
Proof. intros E [frE H]. exists frE. exact (FF_bad _ _ _ _ E H). Qed.

Lemma ftraceF_cong fr1 fr2 evs frE : rframe fr1 = rframe fr2 -> ftraceF fr2 evs frE -> ftraceF fr1 evs frE.
Proof.
  intros E H. destruct H as [fr fr' H | fr fr' t p evs frE H Hn | fr fr' evs frE H Hn]; rewrite <- E in H.
  - exact (FF_end _ _ H).
  - exact (FF_ok _ _ _ _ _ _ H Hn).
  - exact (FF_bad _ _ _ _ H Hn).
Qed.

Lemma go_next_traceF fr evs frE :
  ftraceF fr evs frE ->
  forall buf w g evs' b' w' r,
    (length evs + 1 <= g)%nat -> ago1 evs buf w = (evs', b', w', r) ->
    exists fr', gonext g (mkRR fr buf w) = (mkRR fr' b' w', r) /\
                (r <> REnd -> ftraceF fr' evs' frE) /\ (r = REnd -> fr' = frE).
Proof.
  induction 1 as [fr fr' H | fr fr' t p evs frE H Hn IH | fr fr' evs frE H Hn IH];
    intros buf w g evs' b' w' r Hg Hago; (destruct g as [|g]; [cbn [length] in Hg; lia|]);
    cbn [length] in Hg; cbn [ago1] in Hago; cbn [go_next rr_fr rr_buf rr_within]; rewrite H.
  - inversion Hago; subst. exists fr'. split; [reflexivity|]. split; [congruence|reflexivity].
  - destruct (if is_first_frame t then true else w).
    + destruct (is_last_frame t).
      * inversion Hago; subst. exists fr'. split; [reflexivity|].
        split; [intros _; exact Hn|discriminate].
      * apply IH; [lia|exact Hago].
    + apply IH; [lia|exact Hago].
  - inversion Hago; subst. exists fr'. split; [reflexivity|].
    split; [intros _; exact Hn|discriminate].
Qed.

Lemma mem_read_all_trace fuel : forall fr evs buf w g,
  ftrace fr evs -> (length evs + 1 <= fuel)%nat -> (length evs + 1 <= g)%nat ->
  mem_read_all P fuel g (mkRR fr buf w) = asm evs buf w.
Proof.
  induction fuel as [|fuel IH]; intros fr evs buf w g [frE Htr] Hfuel Hg; [lia|].
  destruct (ago1 evs buf w) as [[[evs' b'] w'] r] eqn:Hago.
  destruct (go_next_traceF _ _ _ Htr buf w g evs' b' w' r Hg Hago) as (fr' & Hgo & Hn & _).
  cbn [mem_read_all]. rewrite Hgo, asm_ago1, Hago.
  destruct (ago1_shape _ _ _ _ _ _ _ Hago) as [->|[[->| ->] Hlt]].
  - reflexivity.
  - cbn [rr_buf]. f_equal. apply IH; [exists frE; apply Hn; discriminate|lia|lia].
  - f_equal. apply IH; [exists frE; apply Hn; discriminate|lia|lia].
Qed.

End Trace.

Print Assumptions asm_three.
Print Assumptions asm_two_stop.
Print Assumptions mem_read_all_trace.
