(* BatchHeaderDamage.v — batch atomicity under header-field damage, end to end (property C12).

   C08_header_damage (HeaderDamageFile.v): with arbitrary bytes in ONE block of the kept files
   (frame headers included, under NoEmbeddedPath), open reports Corruption or returns the replay
   of a SUB-LIST Es' of the kept ghost entries.  Here: what such a replay can do to a batch (an
   AppendRecords entry).

   Pure (any entry list, legal or not): after replaying ANY list es from the empty
   state, the records of a queue q are a SUFFIX of the concatenation, in log order, of the
   batches of all AppendRecords entries of es for q (replay_suffix_of_appended); with the tags of
   the spec-level replay: the records tagged t are a suffix of batch t (replay_batch_suffix_tagged)
   and once a record tagged t is there, all later batches are there in full (replay_no_missing_tail).
   The position form (pure): if every AppendRecords entry for q in es is the batch
   EAppend q b (number_from b pl) or has no record at a position of the batch, the records of q
   with a position in [b, b + |pl|) are skipn j of the batch (replay_span_suffix).
   End to end from Inv and header_damaged_dir:
     C12_header_damage_suffix   (no side condition; the sub-list form)
     C12_header_damage          (the position form, under "no other entry of the kept log
                                 appended to q at a position of the batch")
     C12_header_damage_never_deleted (that side condition follows from: the kept log holds no
                                 DeleteQueue entry for q)
   The side condition is needed: see BatchHeaderDamageEx.Counter (the recovered queue holds, at the batch's
   positions, the records of an EARLIER incarnation of the queue, because the DeleteQueue, the
   re-creation and the batch were lost together). *)
From Coq Require Import Lia ZArith ZifyN ZifyNat ZifyBool List.
From MRL Require Import Bytes BytesProofs Params Record Mem Spec Log SpecRefine RecordProofs ReplaySpec.
From MRL Require QueueIso DamageAtomic.
Import ListNotations.

Lemma In_skipn {A} (x : A) k l : In x (skipn k l) -> In x l.
Proof. intros H. rewrite <- (firstn_skipn k l). apply in_or_app. now right. Qed.

Lemma filter_skipn_mid {A} (f : A -> bool) (X C Y : list A) k :
  (forall x, In x X -> f x = false) -> (forall x, In x Y -> f x = false) ->
  (forall x, In x C -> f x = true) ->
  filter f (skipn k (X ++ C ++ Y)) = skipn (k - length X) C.
Proof.
  intros HX HY HC. rewrite !skipn_app, !filter_app.
  rewrite (filter_all_false f (skipn k X)) by (intros x Hx; apply HX; eapply In_skipn; exact Hx).
  rewrite (filter_all_false f (skipn _ Y)) by (intros x Hx; apply HY; eapply In_skipn; exact Hx).
  rewrite (filter_all_true f (skipn _ C)) by (intros x Hx; apply HC; eapply In_skipn; exact Hx).
  cbn [app]. apply app_nil_r.
Qed.

Definition tpos (r : trec) : N := fst (snd r).

(* positions strictly increasing, from lo on *)
Fixpoint pos_inc (lo : N) (l : list trec) : Prop :=
  match l with
  | [] => True
  | r :: t => lo <= tpos r /\ pos_inc (tpos r + 1) t
  end.

Lemma pos_inc_weaken lo lo' l : pos_inc lo l -> lo' <= lo -> pos_inc lo' l.
Proof. destruct l as [|r t]; cbn [pos_inc]; [trivial|]. intros (H1 & H2) H. split; [lia|exact H2]. Qed.

Lemma pos_inc_ge : forall l lo x, pos_inc lo l -> In x l -> lo <= tpos x.
Proof.
  induction l as [|r t IH]; intros lo x H Hin; [destruct Hin|].
  cbn [pos_inc] in H. destruct H as (H1 & H2). destruct Hin as [<-|Hin]; [exact H1|].
  specialize (IH _ _ H2 Hin). lia.
Qed.

Lemma pos_inc_app : forall a lo n b,
  lo <= n -> pos_inc lo a -> Forall (fun r => tpos r < n) a -> pos_inc n b -> pos_inc lo (a ++ b).
Proof.
  induction a as [|r t IH]; intros lo n b Hle Ha Hf Hb; cbn [app].
  - eapply pos_inc_weaken; [exact Hb|exact Hle].
  - cbn [pos_inc] in *. destruct Ha as (H1 & H2). inversion Hf as [|? ? Hr Ht]; subst.
    split; [exact H1|]. apply (IH _ n); [lia|exact H2|exact Ht|exact Hb].
Qed.

Lemma pos_inc_app_r : forall a lo b, pos_inc lo (a ++ b) -> pos_inc lo b.
Proof.
  induction a as [|r t IH]; intros lo b H; cbn [app] in H; [exact H|].
  cbn [pos_inc] in H. destruct H as (H1 & H2). apply IH in H2.
  eapply pos_inc_weaken; [exact H2|lia].
Qed.

Lemma pos_inc_skipn k : forall l lo, pos_inc lo l -> pos_inc lo (skipn k l).
Proof.
  intros l lo H. rewrite <- (firstn_skipn k l) in H. eapply pos_inc_app_r; exact H.
Qed.

Lemma pos_inc_filter f : forall l lo, pos_inc lo l -> pos_inc lo (filter f l).
Proof.
  induction l as [|r t IH]; intros lo H; [exact I|].
  cbn [pos_inc filter] in *. destruct H as (H1 & H2). specialize (IH _ H2).
  destruct (f r).
  - cbn [pos_inc]. split; assumption.
  - eapply pos_inc_weaken; [exact IH|lia].
Qed.

(* removing the records at or below p removes a PREFIX *)
Lemma filter_gt_skipn p : forall l lo, pos_inc lo l ->
  exists k, (k <= length l)%nat /\ filter (fun r => p <? fst (snd r)) l = skipn k l.
Proof.
  induction l as [|r t IH]; intros lo H.
  - exists 0%nat. split; [cbn [length]; lia|reflexivity].
  - cbn [pos_inc] in H. destruct H as (H1 & H2).
    destruct (N.ltb_spec p (fst (snd r))) as [Hlt|Hge].
    + exists 0%nat. split; [lia|]. cbn [skipn]. apply filter_all_true.
      intros x [<-|Hx]; [apply N.ltb_lt; exact Hlt|].
      pose proof (pos_inc_ge _ _ _ H2 Hx) as Hg. unfold tpos in Hg. apply N.ltb_lt. lia.
    + destruct (IH _ H2) as (k & Hk & E). exists (S k). split; [cbn [length]; lia|].
      cbn [filter skipn]. destruct (N.ltb_spec p (fst (snd r))) as [Hc|_]; [lia|exact E].
Qed.

Lemma pos_inc_tag_with i : forall new next n,
  chk_pos next new = Some n -> pos_inc next (tag_with i new).
Proof.
  induction new as [|[p x] r IH]; intros next n H; cbn [chk_pos] in H; [exact I|].
  destruct (N.ltb_spec p next) as [_|Hge]; [discriminate|].
  cbn [tag_with map pos_inc]. split; [unfold tpos; cbn [fst snd]; exact Hge|].
  unfold tpos at 1. cbn [fst snd]. eapply IH; exact H.
Qed.

(* what entry number i contributes to queue q, and the contributions of a list from index i on *)
Definition contrib (q : bytes) (i : nat) (e : entry) : list trec :=
  match e with
  | EAppend q' _ recs => if bytes_eqb q' q then tag_with i recs else []
  | _ => []
  end.

Fixpoint flat (q : bytes) (i : nat) (es : list entry) : list trec :=
  match es with
  | [] => []
  | e :: r => contrib q i e ++ flat q (S i) r
  end.

Lemma contrib_other q i e : entry_queue e <> q -> contrib q i e = [].
Proof.
  destruct e as [q' pos recs|q' p|q' p|q' p]; cbn [contrib entry_queue]; try reflexivity.
  intros H. apply bytes_eqb_neq in H. now rewrite H.
Qed.

(* the view of one queue: positions strictly increasing and below next; the records are a suffix
   of F (the contributions so far) *)
Definition sfx (F : list trec) (v : option tqueue) : Prop :=
  match v with
  | None => True
  | Some (rf, n) =>
      pos_inc 0 rf /\ Forall (fun r => tpos r < n) rf /\
      exists k, (k <= length F)%nat /\ rf = skipn k F
  end.

Lemma q_apply_sfx q F v i e v' :
  entry_queue e = q -> sfx F v -> q_apply v i e = Some v' -> sfx (F ++ contrib q i e) v'.
Proof.
  intros Hq Hs H. destruct e as [q' pos recs|q' p|q' p|q' p]; cbn [entry_queue] in Hq; subst q';
    cbn [q_apply contrib] in *; rewrite ?bytes_eqb_refl, ?app_nil_r.
  - (* EAppend *)
    assert (H0 : exists old next, match v with Some v0 => v0 | None => ([], pos) end = (old, next) /\
              pos_inc 0 old /\ Forall (fun r => tpos r < next) old /\
              exists k, (k <= length F)%nat /\ old = skipn k F).
    { destruct v as [[rf n]|].
      - exists rf, n. split; [reflexivity|exact Hs].
      - exists [], pos. split; [reflexivity|]. split; [exact I|]. split; [constructor|].
        exists (length F). split; [lia|]. symmetry. apply skipn_all. }
    destruct H0 as (old & next & Ev & H1 & H2 & k & Hk & Ek). rewrite Ev in H.
    rewrite t_append_all_eq in H. destruct (chk_pos next recs) as [n|] eqn:Ec; [|discriminate].
    inversion H; subst v'. cbn [sfx].
    destruct (chk_pos_bound _ _ _ Ec) as (Hn & Hb). split; [|split].
    + apply (pos_inc_app old 0 next); [lia|exact H1|exact H2|]. eapply pos_inc_tag_with; exact Ec.
    + apply Forall_app. split.
      * eapply Forall_impl; [|exact H2]. cbn beta. intros a Ha. lia.
      * unfold tag_with. apply Forall_map. eapply Forall_impl; [|exact Hb].
        cbn beta. intros a Ha. unfold tpos. cbn [snd]. lia.
    + exists k. split; [rewrite app_length; lia|].
      rewrite skipn_app, <- Ek. replace (k - length F)%nat with 0%nat by lia. reflexivity.
  - (* ETruncate *)
    destruct v as [[rf n]|]; inversion H; subst v'; [|exact I].
    cbn [sfx] in Hs. destruct Hs as (H1 & H2 & k & Hk & Ek). unfold t_truncate. cbn [sfx].
    split; [now apply pos_inc_filter|]. split.
    + apply Forall_filter. eapply Forall_impl; [|exact H2]. cbn beta. intros a Ha.
      destruct (isnil _ && (n <=? p + 1)) eqn:Eb; lia.
    + destruct (filter_gt_skipn p rf 0 H1) as (k' & Hk' & E'). exists (k + k')%nat. split.
      * rewrite Ek, skipn_length in Hk'. lia.
      * rewrite E', Ek, skipn_skipn', Nat.add_comm. reflexivity.
  - (* EPosition *)
    assert (Hnil : sfx F (Some ([], p))).
    { cbn [sfx pos_inc]. split; [exact I|]. split; [constructor|].
      exists (length F). split; [lia|]. symmetry. apply skipn_all. }
    destruct v as [[rf n]|]; [|inversion H; subst; exact Hnil].
    destruct (negb (isnil rf) || negb (n =? p)); inversion H; subst; [exact Hnil|exact Hs].
  - inversion H; subst. exact I.
Qed.

Lemma t_replay_sfx q : forall es i m m' F,
  sfx F (t_get m q) -> t_replay m i es = Some m' -> sfx (F ++ flat q i es) (t_get m' q).
Proof.
  induction es as [|e r IH]; intros i m m' F Hs H; cbn [t_replay flat] in *.
  - inversion H; subst. now rewrite app_nil_r.
  - destruct (t_apply m i e) as [m1|] eqn:E1; [|discriminate].
    destruct (t_apply_some _ _ _ _ E1) as (Hq & Ho).
    rewrite app_assoc. apply (IH (S i) m1 m'); [|exact H].
    destruct (bytes_eqb (entry_queue e) q) eqn:Eb.
    + apply bytes_eqb_eq in Eb. eapply q_apply_sfx; [exact Eb| |rewrite <- Eb; exact Hq].
      rewrite Eb. exact Hs.
    + apply bytes_eqb_neq in Eb. rewrite (Ho q Eb), (contrib_other q i e Eb), app_nil_r. exact Hs.
Qed.

Theorem t_replay_closed_form es S q rf n :
  t_replay [] 0 es = Some S -> t_get S q = Some (rf, n) ->
  pos_inc 0 rf /\ Forall (fun r => tpos r < n) rf /\
  exists k, (k <= length (flat q 0 es))%nat /\ rf = skipn k (flat q 0 es).
Proof.
  intros H Eq. pose proof (t_replay_sfx q es 0%nat [] S [] I H) as Hs.
  rewrite Eq in Hs. exact Hs.
Qed.

Lemma flat_app q : forall a i b, flat q i (a ++ b) = flat q i a ++ flat q (i + length a) b.
Proof.
  induction a as [|e r IH]; intros i b; cbn [app flat length].
  - now rewrite Nat.add_0_r.
  - rewrite IH, <- app_assoc. do 3 f_equal. lia.
Qed.

Lemma flat_tags q : forall es i, Forall (fun r => (i <= fst r < i + length es)%nat) (flat q i es).
Proof.
  induction es as [|e r IH]; intros i; cbn [flat length]; [constructor|].
  apply Forall_app. split.
  - destruct e as [q' pos recs|q' p|q' p|q' p]; cbn [contrib]; try constructor.
    destruct (bytes_eqb q' q); [|constructor]. unfold tag_with. apply Forall_map.
    apply Forall_forall. intros a _. cbn [fst]. lia.
  - eapply Forall_impl; [|apply IH]. cbn beta. intros a Ha. lia.
Qed.

Lemma flat_cut q es t e :
  nth_error es t = Some e ->
  flat q 0 es = flat q 0 (firstn t es) ++ contrib q t e ++ flat q (S t) (skipn (S t) es) /\
  Forall (fun r => (fst r < t)%nat) (flat q 0 (firstn t es)) /\
  Forall (fun r => (t < fst r)%nat) (flat q (S t) (skipn (S t) es)).
Proof.
  intros H. destruct (DamageAtomic.nth_error_split _ _ _ H) as (E & L). split; [|split].
  - rewrite E at 1. rewrite flat_app, L. cbn [flat Nat.add]. reflexivity.
  - eapply Forall_impl; [|apply flat_tags]. cbn beta. intros a Ha. lia.
  - eapply Forall_impl; [|apply flat_tags]. cbn beta. intros a Ha. lia.
Qed.

Lemma contrib_tags q t e : Forall (fun r => fst r = t) (contrib q t e).
Proof.
  destruct e as [q' pos recs|q' p|q' p|q' p]; cbn [contrib]; try constructor.
  destruct (bytes_eqb q' q); [|constructor]. unfold tag_with. apply Forall_map.
  apply Forall_forall. intros a _. reflexivity.
Qed.

(* (tagged form) the records of q tagged t, t the index of an AppendRecords entry for q, are a
   suffix of that batch: all of it, or all above a truncation, or none *)
Theorem replay_batch_suffix_tagged es S q rf n t pos recs :
  t_replay [] 0 es = Some S -> t_get S q = Some (rf, n) ->
  nth_error es t = Some (EAppend q pos recs) ->
  exists j, filter (fun r => (fst r =? t)%nat) rf = tag_with t (skipn j recs).
Proof.
  intros H Eq Hn. destruct (t_replay_closed_form es S q rf n H Eq) as (_ & _ & k & _ & ->).
  destruct (flat_cut q es t _ Hn) as (E & HA & HB). rewrite E.
  cbn [contrib]. rewrite bytes_eqb_refl.
  exists (k - length (flat q 0 (firstn t es)))%nat.
  rewrite filter_skipn_mid.
  - unfold tag_with. apply skipn_map.
  - intros x Hx. rewrite Forall_forall in HA. specialize (HA x Hx). cbn beta in HA.
    apply Nat.eqb_neq. lia.
  - intros x Hx. rewrite Forall_forall in HB. specialize (HB x Hx). cbn beta in HB.
    apply Nat.eqb_neq. lia.
  - intros x Hx. unfold tag_with in Hx. apply in_map_iff in Hx. destruct Hx as (a & <- & _).
    cbn [fst]. apply Nat.eqb_refl.
Qed.

(* (no missing tail) once a record tagged t is retained, every later batch for q is retained in
   full *)
Theorem replay_no_missing_tail es S q rf n r t' pos' recs' :
  t_replay [] 0 es = Some S -> t_get S q = Some (rf, n) ->
  In r rf -> (fst r < t')%nat -> nth_error es t' = Some (EAppend q pos' recs') ->
  forall x, In x recs' -> In (t', x) rf.
Proof.
  intros H Eq Hr Hlt Hn x Hx.
  destruct (t_replay_closed_form es S q rf n H Eq) as (_ & _ & k & _ & ->).
  destruct (flat_cut q es t' _ Hn) as (E & HA & HB). rewrite E in *.
  cbn [contrib] in *. rewrite bytes_eqb_refl in *.
  rewrite skipn_app in Hr |- *. apply in_app_or in Hr. destruct Hr as [Hr|Hr].
  - (* r is in the part before: k is inside it, so what follows is entire *)
    assert (Hk : (k < length (flat q 0 (firstn t' es)))%nat).
    { destruct (Nat.lt_ge_cases k (length (flat q 0 (firstn t' es)))) as [Hk|Hk]; [exact Hk|].
      rewrite skipn_all2 in Hr by exact Hk. destruct Hr. }
    apply in_or_app. right. replace (k - length (flat q 0 (firstn t' es)))%nat with 0%nat by lia.
    cbn [skipn]. apply in_or_app. left. unfold tag_with. apply in_map. exact Hx.
  - exfalso. apply In_skipn in Hr. apply in_app_or in Hr. destruct Hr as [Hr|Hr].
    + unfold tag_with in Hr. apply in_map_iff in Hr. destruct Hr as (a & <- & _). cbn [fst] in Hlt. lia.
    + rewrite Forall_forall in HB. specialize (HB r Hr). cbn beta in HB. lia.
Qed.

(* the batches appended to q by the entries of es, concatenated in log order *)
Definition appended (q : bytes) (es : list entry) : list (N * bytes) :=
  flat_map (fun e => match e with
                     | EAppend q' _ recs => if bytes_eqb q' q then recs else []
                     | _ => []
                     end) es.

Lemma map_snd_tag_with i l : map snd (tag_with i l) = l.
Proof. unfold tag_with. rewrite map_map. cbn [snd]. apply map_id. Qed.

Lemma map_snd_flat q : forall es i, map snd (flat q i es) = appended q es.
Proof.
  induction es as [|e r IH]; intros i; cbn [flat appended flat_map]; [reflexivity|].
  rewrite map_app, IH. f_equal.
  destruct e as [q' pos recs|q' p|q' p|q' p]; cbn [contrib]; try reflexivity.
  destruct (bytes_eqb q' q); [apply map_snd_tag_with|reflexivity].
Qed.

Theorem t_replay_suffix_of_appended es S q rf n :
  t_replay [] 0 es = Some S -> t_get S q = Some (rf, n) ->
  exists k, map snd rf = skipn k (appended q es).
Proof.
  intros H Eq. destruct (t_replay_closed_form es S q rf n H Eq) as (_ & _ & k & _ & ->).
  exists k. rewrite <- (map_snd_flat q es 0), skipn_map. reflexivity.
Qed.

(* the positions b <= . < e (CrashCorollaries.in_span) *)
Definition in_span (b e : N) (r : N * bytes) : bool := (b <=? fst r) && (fst r <? e).

Lemma skipn_number_from : forall k pl b,
  skipn k (number_from b pl) = number_from (b + N.of_nat k) (skipn k pl).
Proof.
  induction k as [|k IH]; intros pl b.
  - cbn [skipn]. f_equal. lia.
  - destruct pl as [|x pl]; cbn [number_from skipn]; [reflexivity|]. rewrite IH. f_equal. lia.
Qed.

Lemma lenN_skipn {A} k (l : list A) : (k <= length l)%nat -> N.of_nat k + lenN (skipn k l) = lenN l.
Proof. intros H. rewrite !lenN_length, skipn_length. lia. Qed.

(* what follows a non-empty run of consecutively numbered records lies above the run *)
Lemma pos_inc_number_from_tail i : forall pl p lo R,
  pos_inc lo (tag_with i (number_from p pl) ++ R) -> pl <> [] ->
  Forall (fun y => p + lenN pl <= tpos y) R.
Proof.
  induction pl as [|x pl IH]; intros p lo R H Hne; [congruence|].
  cbn [number_from tag_with map app pos_inc] in H. destruct H as (_ & H).
  unfold tpos at 1 in H. cbn [fst snd] in H. rewrite lenN_cons.
  destruct pl as [|y pl].
  - cbn [number_from map app] in H. rewrite lenN_nil. apply Forall_forall. intros z Hz.
    pose proof (pos_inc_ge _ _ _ H Hz). lia.
  - fold (tag_with i (number_from (p + 1) (y :: pl))) in H.
    eapply Forall_impl; [|apply (IH (p + 1) _ R H); discriminate]. cbn beta. intros a Ha. lia.
Qed.

Lemma number_from_in_span pl b x : In x (number_from b pl) -> b <= fst x < b + lenN pl.
Proof. rewrite number_from_s_number. apply QueueIso.s_number_pos. Qed.

Section Span.
Variable q : bytes.
Variable b : N.
Variable pl : list bytes.
Let e0 : entry := EAppend q b (number_from b pl).
Let span (r : trec) : bool := in_span b (b + lenN pl) (snd r).

(* every entry is the batch itself, or contributes nothing at a position of the batch *)
Definition span_ok (es : list entry) : Prop :=
  forall e, In e es -> e = e0 \/ forall i x, In x (contrib q i e) -> span x = false.

Lemma span_flat : forall es i k lo,
  span_ok es -> pos_inc lo (skipn k (flat q i es)) ->
  exists j, map snd (filter span (skipn k (flat q i es))) = skipn j (number_from b pl).
Proof.
  induction es as [|e r IH]; intros i k lo Hok Hinc; cbn [flat] in *.
  - rewrite skipn_nil. exists (length (number_from b pl)). cbn [filter map]. symmetry. apply skipn_all.
  - assert (Hok' : span_ok r) by (intros e' He'; apply Hok; now right).
    rewrite skipn_app in Hinc |- *. rewrite filter_app, map_app.
    destruct (Hok e (or_introl eq_refl)) as [->|Hno].
    + (* the batch *)
      unfold e0 in Hinc |- *. cbn [contrib] in Hinc |- *. rewrite bytes_eqb_refl in Hinc |- *.
      destruct (Nat.lt_ge_cases k (length (tag_with i (number_from b pl)))) as [Hk|Hk].
      * (* the cut is inside the batch: nothing of the span follows *)
        replace (k - length (tag_with i (number_from b pl)))%nat with 0%nat in * by lia.
        cbn [skipn] in *. unfold tag_with in Hk. rewrite map_length, length_number_from in Hk.
        unfold tag_with in Hinc |- *. rewrite skipn_map, skipn_number_from in Hinc |- *.
        fold (tag_with i (number_from (b + N.of_nat k) (skipn k pl))) in Hinc |- *.
        assert (Hne : skipn k pl <> []).
        { intros E. apply (f_equal (@length bytes)) in E. rewrite skipn_length in E. cbn [length] in E. lia. }
        pose proof (pos_inc_number_from_tail i _ _ _ _ Hinc Hne) as Htail.
        rewrite <- N.add_assoc, (lenN_skipn k pl) in Htail by lia.
        rewrite (filter_all_false span (flat q (S i) r)).
        2:{ intros y Hy. rewrite Forall_forall in Htail. specialize (Htail y Hy). cbn beta in Htail.
            unfold span, in_span, tpos in *. apply andb_false_iff. right. lia. }
        rewrite (filter_all_true span).
        2:{ intros y Hy. unfold tag_with in Hy. apply in_map_iff in Hy. destruct Hy as (a & <- & Ha).
            apply number_from_in_span in Ha. rewrite (lenN_length (skipn k pl)), skipn_length in Ha.
            unfold span, in_span. cbn [snd]. rewrite lenN_length. apply andb_true_iff. split; lia. }
        exists k. cbn [map]. rewrite app_nil_r, map_snd_tag_with. symmetry. apply skipn_number_from.
      * rewrite skipn_all2 in Hinc |- * by exact Hk. cbn [filter map app] in *.
        apply (IH (S i) _ lo Hok' Hinc).
    + rewrite (filter_all_false span (skipn k (contrib q i e)))
        by (intros y Hy; apply (Hno i); eapply In_skipn; exact Hy).
      cbn [map app]. apply (IH (S i) _ lo Hok'). eapply pos_inc_app_r; exact Hinc.
Qed.

(* (position form) the records of q with a position of the batch are a suffix of the batch *)
Theorem t_replay_span_suffix es S rf n :
  t_replay [] 0 es = Some S -> t_get S q = Some (rf, n) -> span_ok es ->
  exists j, filter (in_span b (b + lenN pl)) (map snd rf) = skipn j (number_from b pl).
Proof.
  intros H Eq Hok. destruct (t_replay_closed_form es S q rf n H Eq) as (Hinc & _ & k & _ & E).
  rewrite E in Hinc. destruct (span_flat es 0%nat k 0 Hok Hinc) as (j & Hj).
  exists j. rewrite <- Hj, <- E. symmetry. apply (map_snd_filter (in_span b (b + lenN pl))).
Qed.

End Span.

Print Assumptions t_replay_closed_form.
Print Assumptions replay_batch_suffix_tagged.
Print Assumptions replay_no_missing_tail.
Print Assumptions t_replay_suffix_of_appended.
Print Assumptions t_replay_span_suffix.

(* every AppendRecords entry of a legal log is a non-empty run of consecutive positions *)
Lemma legal_log_append_shape q pos recs : forall es m i,
  legal_log m i es -> In (EAppend q pos recs) es ->
  recs <> [] /\ exists pl, recs = number_from pos pl.
Proof.
  induction es as [|e r IH]; intros m i Hl Hin; [destruct Hin|].
  destruct (legal_log_cons_inv _ _ _ _ Hl) as (Hle & m1 & _ & Hr).
  destruct Hin as [->|Hin]; [|exact (IH _ _ Hr Hin)].
  cbn [legal] in Hle. destruct Hle as (old & next & _ & _ & Hne & Hpl). split; assumption.
Qed.

Definition nodel (q : bytes) (es : list entry) : Prop := forall p, ~ In (EDelete q p) es.

Lemma nodel_tail q e es : nodel q (e :: es) -> nodel q es.
Proof. intros H p Hin. apply (H p). now right. Qed.

(* one legal step that is not a DeleteQueue of q: q stays, its next position does not decrease *)
Lemma legal_step_next q m i e m' old n :
  legal m e -> t_apply m i e = Some m' -> (forall p, e <> EDelete q p) ->
  t_get m q = Some (old, n) ->
  exists old' n', t_get m' q = Some (old', n') /\ n <= n'.
Proof.
  intros Hle Ha Hnd Eq. destruct (t_apply_some _ _ _ _ Ha) as (Hq & Ho).
  destruct (bytes_eqb (entry_queue e) q) eqn:Eb.
  2:{ apply bytes_eqb_neq in Eb. rewrite (Ho q Eb), Eq. exists old, n. split; [reflexivity|lia]. }
  apply bytes_eqb_eq in Eb. rewrite Eb, Eq in Hq.
  destruct e as [q' pos recs|q' p|q' p|q' p]; cbn [entry_queue] in Eb; subst q';
    cbn [q_apply legal] in Hq, Hle.
  - rewrite t_append_all_eq in Hq. destruct (chk_pos n recs) as [n'|] eqn:Ec; [|discriminate].
    injection Hq as Hv. destruct (chk_pos_bound _ _ _ Ec) as (Hn & _).
    eexists _, n'. split; [symmetry; exact Hv|exact Hn].
  - injection Hq as Hv. unfold t_truncate in Hv. eexists _, _. split; [symmetry; exact Hv|].
    destruct (isnil _ && (n <=? p + 1)) eqn:C; [|lia].
    apply andb_true_iff in C as (_ & C). lia.
  - destruct Hle as [(Hn & _)|(next & Hn & Hp)]; [congruence|].
    rewrite Eq in Hn. inversion Hn; subst old next. subst p. cbn [isnil negb orb] in Hq.
    rewrite N.eqb_refl in Hq. cbn [negb] in Hq. injection Hq as Hv.
    exists [], n. split; [symmetry; exact Hv|lia].
  - exfalso. exact (Hnd p eq_refl).
Qed.

(* right after a legal AppendRecords entry the next position of q is just past the batch *)
Lemma legal_append_next q m i pos recs m' :
  legal m (EAppend q pos recs) -> t_apply m i (EAppend q pos recs) = Some m' ->
  exists old', t_get m' q = Some (old', pos + lenN recs).
Proof.
  intros Hle Ha. destruct (t_apply_some _ _ _ _ Ha) as (Hq & _). cbn [entry_queue] in Hq.
  cbn [legal] in Hle. destruct Hle as (old & next & Eq & Hn & Hne & pl & ->).
  rewrite Eq in Hq. cbn [q_apply] in Hq. rewrite t_append_all_eq in Hq.
  rewrite (chk_pos_number_from pl pos next Hn) in Hq by (eapply number_from_nonnil; exact Hne).
  injection Hq as Hv. eexists. rewrite <- Hv. do 2 f_equal.
  rewrite !lenN_length, length_number_from. reflexivity.
Qed.

(* while q is not deleted, every later batch lies at or above the current next position *)
Lemma legal_log_appends_ge q : forall es m i old n,
  legal_log m i es -> nodel q es -> t_get m q = Some (old, n) ->
  forall a p recs x, nth_error es a = Some (EAppend q p recs) -> In x recs -> n <= fst x.
Proof.
  induction es as [|e r IH]; intros m i old n Hl Hnd Eq a p recs x Ha Hx; [destruct a; discriminate|].
  destruct (legal_log_cons_inv _ _ _ _ Hl) as (Hle & m1 & Hm1 & Hr).
  destruct a as [|a]; cbn [nth_error] in Ha.
  - inversion Ha; subst e. cbn [legal] in Hle.
    destruct Hle as (old' & next & Eq' & Hn & _ & pl & ->). rewrite Eq in Eq'. inversion Eq'; subst.
    apply number_from_in_span in Hx. lia.
  - destruct (legal_step_next q m i e m1 old n Hle Hm1) as (old' & n' & Eq1 & Hn); [|exact Eq|].
    { intros p0 ->. apply (Hnd p0). now left. }
    pose proof (IH m1 (S i) old' n' Hr (nodel_tail _ _ _ Hnd) Eq1 a p recs x Ha Hx). lia.
Qed.

(* two batches of the same incarnation: the later one lies entirely above the earlier one *)
Lemma legal_log_batches_ordered q : forall es m i,
  legal_log m i es -> nodel q es ->
  forall a c p recs p' recs', (a < c)%nat ->
    nth_error es a = Some (EAppend q p recs) -> nth_error es c = Some (EAppend q p' recs') ->
    forall x, In x recs' -> p + lenN recs <= fst x.
Proof.
  induction es as [|e r IH]; intros m i Hl Hnd a c p recs p' recs' Hac Ha Hc x Hx;
    [destruct a; discriminate|].
  destruct (legal_log_cons_inv _ _ _ _ Hl) as (Hle & m1 & Hm1 & Hr).
  destruct c as [|c]; [lia|]. cbn [nth_error] in Hc.
  destruct a as [|a]; cbn [nth_error] in Ha.
  - inversion Ha; subst e.
    destruct (legal_append_next q m i p recs m1 Hle Hm1) as (old' & Eq1).
    exact (legal_log_appends_ge q r m1 (S i) old' _ Hr (nodel_tail _ _ _ Hnd) Eq1 c p' recs' x Hc Hx).
  - exact (IH m1 (S i) Hr (nodel_tail _ _ _ Hnd) a c p recs p' recs' ltac:(lia) Ha Hc x Hx).
Qed.

Print Assumptions legal_log_batches_ordered.

From MRL Require Import Names NamesProofs Frame Rolling Driver StreamProofs DamageProofs TornProofs
  PolicyProofs GcProofs FileStream ResyncProofs GhostLog OpenTerm OpenReplay TornFile DamageFile
  HeaderDamageEv HeaderDamage HandleProofs RestartInv RestartFinal DamageAtomic HeaderDamageFile.

Local Notation sublistD := DamageProofs.sublist.

(* the model's replay of a tagged entry list, seen through the spec-level replay *)
Lemma replay_sub_views (tags : list N) (Es' : list entry) qD :
  length tags = length Es' -> replay_entries [] (combine tags Es') = Some qD ->
  exists S, t_replay [] 0 Es' = Some S /\
    forall q m, qs_get qD q = Some m ->
      exists rf n, t_get S q = Some (rf, n) /\ map snd rf = records_of (q_buf m) (q_metas m).
Proof.
  intros Hlt Hrep.
  destruct (replay_any_views _ _ Hrep) as (S & ES & Hv). rewrite map_snd_combine' in ES by exact Hlt.
  exists S. split; [exact ES|exact Hv].
Qed.

Lemma lenN_number_from p pl : lenN (number_from p pl) = lenN pl.
Proof. rewrite !lenN_length, length_number_from. reflexivity. Qed.

Section E2E.
Variable P : params.
Hypothesis HBS_lo : 7 < BS P.
Hypothesis HBS_hi : BS P <= 65542.
Hypothesis HNB : 1 <= NB P.
Hypothesis Hcrc : forall t p, crcf P t p < 2 ^ 32.
Hypothesis HIO : L_IO P = false.

(* what open returns from a header-damaged directory, when it returns a state: the replay of a
   sub-list of the kept log, seen through the spec-level replay *)
Lemma header_damage_views st G blk D fs_d :
  Inv P st G -> header_damaged_dir P st G blk D fs_d ->
  forall pol hint st_r, open P fs_d None pol hint = OpenOk st_r ->
  exists Es' S, sublistD Es' (map snd (gh_E G)) /\ t_replay [] 0 Es' = Some S /\
    forall q m, qs_get (s_qs st_r) q = Some m ->
      exists rf n, t_get S q = Some (rf, n) /\ map snd rf = records_of (q_buf m) (q_metas m).
Proof.
  intros HI Hd pol hint st_r Ho.
  destruct (C08_header_damage P HBS_lo HBS_hi HNB Hcrc HIO st G blk D fs_d HI Hd pol hint)
    as (w0 & tags & Es' & Hsub & Hlt & Hm).
  destruct (replay_entries [] (combine tags Es')) as [qD|] eqn:Erep.
  2:{ destruct Hm as (c & Hc). rewrite Hc in Ho. discriminate Ho. }
  destruct Hm as (_ & Hqs & _). rewrite (Hqs st_r Ho).
  destruct (replay_sub_views tags Es' qD Hlt Erep) as (S & ES & HS).
  exists Es', S. split; [exact Hsub|]. split; [exact ES|exact HS].
Qed.

(* (C12, sub-list form, no side condition)  Whatever open recovers from the damaged directory,
   the records of every queue q are a SUFFIX of the concatenation, in log order, of the batches
   appended to q by the entries of a sub-list Es' of the kept log: each surviving batch is there
   in full, except that a leading part of the concatenation may be gone (truncation, or a
   queue reset) — never a hole inside a batch, never a batch without its tail, never a payload
   that was not appended at that place. *)
Theorem C12_header_damage_suffix st G blk D fs_d :
  Inv P st G -> header_damaged_dir P st G blk D fs_d ->
  forall pol hint st_r, open P fs_d None pol hint = OpenOk st_r ->
  exists Es', sublistD Es' (map snd (gh_E G)) /\
    forall q m, qs_get (s_qs st_r) q = Some m ->
      exists k, records_of (q_buf m) (q_metas m) = skipn k (appended q Es').
Proof.
  intros HI Hd pol hint st_r Ho.
  destruct (header_damage_views st G blk D fs_d HI Hd pol hint st_r Ho) as (Es' & S & Hsub & ES & HS).
  exists Es'. split; [exact Hsub|]. intros q m Eq.
  destruct (HS q m Eq) as (rf & n & Et & Hr).
  destruct (t_replay_suffix_of_appended Es' S q rf n ES Et) as (k & Hk).
  exists k. rewrite <- Hr. exact Hk.
Qed.

(* the batch: entry number j of the kept log, EAppend q pos recs.  fresh = no OTHER entry of the
   kept log appended to q at a position of the batch *)
Definition batch_fresh (G : ghost) (j : nat) (q : bytes) (pos : N) (recs : list (N * bytes)) : Prop :=
  forall j' f' pos' recs', j' <> j ->
    nth_error (gh_E G) j' = Some (f', EAppend q pos' recs') ->
    forall r, In r recs' -> in_span pos (pos + lenN recs) r = false.

(* (C12, position form)  For a batch whose positions no other entry of the kept log used for q:
   the records of the recovered q with a position of the batch are NONE of the batch, or ALL of
   it, or all of it above a truncation: skipn k of the batch — never a hole, never a missing
   tail, never another payload. *)
Theorem C12_header_damage st G blk D fs_d :
  Inv P st G -> header_damaged_dir P st G blk D fs_d ->
  forall pol hint st_r, open P fs_d None pol hint = OpenOk st_r ->
  forall j fB q pos recs, nth_error (gh_E G) j = Some (fB, EAppend q pos recs) ->
    batch_fresh G j q pos recs ->
    forall m, qs_get (s_qs st_r) q = Some m ->
      exists k, filter (in_span pos (pos + lenN recs)) (records_of (q_buf m) (q_metas m)) =
                skipn k recs.
Proof.
  intros HI Hd pol hint st_r Ho j fB q pos recs Hj Hfresh m Eq.
  destruct (header_damage_views st G blk D fs_d HI Hd pol hint st_r Ho) as (Es' & S & Hsub & ES & HS).
  destruct (HS q m Eq) as (rf & n & Et & Hr).
  (* the batch is a run of consecutive positions *)
  assert (Hshape : recs <> [] /\ exists pl, recs = number_from pos pl).
  { destruct HI as (_ & (_ & Hleg & _)).
    apply (legal_log_append_shape q pos recs (gh_ALL G) [] 0%nat Hleg).
    rewrite gh_ALL_split. apply in_or_app. right.
    apply in_map_iff. exists (fB, EAppend q pos recs). split; [reflexivity|].
    eapply nth_error_In; exact Hj. }
  destruct Hshape as (_ & pl & ->). rewrite lenN_number_from in *.
  rewrite <- Hr. apply (t_replay_span_suffix q pos pl Es' S rf n ES Et).
  intros e He.
  pose proof (sublist_In _ _ _ Hsub He) as Hin. apply in_map_iff in Hin.
  destruct Hin as ([f' e'] & Ee & Hin). cbn [snd] in Ee. subst e'.
  destruct (In_nth_error _ _ Hin) as (j' & Hj').
  destruct e as [q' pos' recs'|q' p|q' p|q' p]; try (right; intros i x []).
  destruct (bytes_eqb q' q) eqn:Eb.
  2:{ right. intros i x Hx. cbn [contrib] in Hx. rewrite Eb in Hx. destruct Hx. }
  apply bytes_eqb_eq in Eb. subst q'.
  destruct (Nat.eq_dec j' j) as [->|Hne].
  - left. rewrite Hj in Hj'. injection Hj' as _ <- <-. reflexivity.
  - right. intros i x Hx. cbn [contrib] in Hx. rewrite bytes_eqb_refl in Hx.
    unfold tag_with in Hx. apply in_map_iff in Hx. destruct Hx as (a & <- & Ha). cbn [snd].
    rewrite <- (lenN_number_from pos pl). exact (Hfresh j' f' pos' recs' Hne Hj' a Ha).
Qed.

(* the side condition holds when the kept log has no DeleteQueue entry for q: within one
   incarnation of a queue, positions are never reused *)
Theorem never_deleted_batch_fresh st G j fB q pos recs :
  Inv P st G -> nth_error (gh_E G) j = Some (fB, EAppend q pos recs) ->
  (forall f p, ~ In (f, EDelete q p) (gh_E G)) ->
  batch_fresh G j q pos recs.
Proof.
  intros HI Hj Hnd j' f' pos' recs' Hne Hj' r Hr.
  destruct HI as (_ & (_ & Hleg & _)). rewrite gh_ALL_split in Hleg.
  destruct (legal_log_app _ _ _ _ Hleg) as (M & _ & HlE). cbn [Nat.add] in HlE.
  set (es := map snd (gh_E G)) in *.
  assert (Hnd' : nodel q es).
  { intros p Hin. apply in_map_iff in Hin. destruct Hin as ([f e] & Ee & Hin). cbn [snd] in Ee.
    subst e. exact (Hnd f p Hin). }
  assert (Ej : nth_error es j = Some (EAppend q pos recs))
    by (unfold es; rewrite (map_nth_error snd _ _ Hj); reflexivity).
  assert (Ej' : nth_error es j' = Some (EAppend q pos' recs'))
    by (unfold es; rewrite (map_nth_error snd _ _ Hj'); reflexivity).
  destruct (legal_log_append_shape q pos recs es M _ HlE (nth_error_In _ _ Ej)) as (Hn1 & pl & E1).
  destruct (legal_log_append_shape q pos' recs' es M _ HlE (nth_error_In _ _ Ej')) as (Hn2 & pl' & E2).
  unfold in_span.
  destruct (Nat.lt_ge_cases j j') as [Hlt|Hge].
  - (* the other batch is later: it lies above *)
    pose proof (legal_log_batches_ordered q es M _ HlE Hnd' j j' pos recs pos' recs' Hlt Ej Ej' r Hr).
    apply andb_false_iff. right. lia.
  - (* the other batch is earlier: it lies below *)
    assert (Hlt : (j' < j)%nat) by lia.
    assert (H0 : In (pos, hd [] pl) recs).
    { rewrite E1. destruct pl as [|x pl]; [now contradiction Hn1; rewrite E1|].
      cbn [number_from hd]. now left. }
    pose proof (legal_log_batches_ordered q es M _ HlE Hnd' j' j pos' recs' pos recs Hlt Ej' Ej _ H0) as Hle.
    cbn [fst] in Hle. rewrite E2 in Hr, Hle. apply number_from_in_span in Hr.
    rewrite lenN_number_from in Hle. apply andb_false_iff. left. lia.
Qed.

Corollary C12_header_damage_never_deleted st G blk D fs_d :
  Inv P st G -> header_damaged_dir P st G blk D fs_d ->
  forall pol hint st_r, open P fs_d None pol hint = OpenOk st_r ->
  forall j fB q pos recs, nth_error (gh_E G) j = Some (fB, EAppend q pos recs) ->
    (forall f p, ~ In (f, EDelete q p) (gh_E G)) ->
    forall m, qs_get (s_qs st_r) q = Some m ->
      exists k, filter (in_span pos (pos + lenN recs)) (records_of (q_buf m) (q_metas m)) =
                skipn k recs.
Proof.
  intros HI Hd pol hint st_r Ho j fB q pos recs Hj Hnd.
  apply (C12_header_damage st G blk D fs_d HI Hd pol hint st_r Ho j fB q pos recs Hj).
  exact (never_deleted_batch_fresh st G j fB q pos recs HI Hj Hnd).
Qed.

End E2E.

Print Assumptions C12_header_damage_suffix.
Print Assumptions C12_header_damage.
Print Assumptions never_deleted_batch_fresh.
Print Assumptions C12_header_damage_never_deleted.
