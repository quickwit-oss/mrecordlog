(* PolicyProofs.v — property C14: the persist policy never changes logical behaviour.
   The policy (s_pol, and the `tick` given to step) only decides WHEN the bytes buffered in the
   BufWriter reach the file-system model; the results of the calls, the queues and the logical
   directory (the directory as it will be once the buffer is flushed) do not depend on it,
   neither live nor after a clean restart. *)
From Coq Require Import Lia ZArith ZifyN ZifyNat ZifyBool.
From MRL Require Import Bytes BytesProofs Params Names Frame Record Mem Rolling Log Hist WriterProofs.

Lemma fs_get_put_same fs k e : fs_get (fs_put fs k e) k = Some e.
Proof. exact (assoc_get_put_same fs k e). Qed.

Lemma fs_put_put fs k e e' : fs_put (fs_put fs k e) k e' = fs_put fs k e'.
Proof.
  induction fs as [|[n e0] r IH]; cbn [fs_put].
  - now rewrite bytes_eqb_refl.
  - destruct (bytes_eqb n k) eqn:E; cbn [fs_put]; rewrite E; [reflexivity|now rewrite IH].
Qed.

Lemma write_at_app c off d1 d2 :
  write_at (write_at c off d1) (off + lenN d1) d2 = write_at c off (d1 ++ d2).
Proof.
  unfold write_at.
  set (head := if off <=? lenN c then takeN off c else c ++ zerosN (off - lenN c)).
  assert (Hh : lenN head = off).
  { unfold head. destruct (N.leb_spec off (lenN c)) as [H|H].
    - rewrite lenN_takeN. lia.
    - rewrite lenN_app, lenN_zerosN. lia. }
  set (tl := dropN (off + lenN d1) c).
  assert (Hhd : lenN (head ++ d1) = off + lenN d1) by (rewrite lenN_app; lia).
  replace (head ++ d1 ++ tl) with ((head ++ d1) ++ tl) by now rewrite app_assoc.
  destruct (N.leb_spec (off + lenN d1) (lenN ((head ++ d1) ++ tl))) as [H|H];
    [|rewrite lenN_app in H; lia].
  rewrite <- Hhd at 1. rewrite takeN_app_exact.
  clearbody head.
  rewrite dropN_app_ge by lia.
  replace (off + lenN d1 + lenN d2 - lenN (head ++ d1)) with (lenN d2) by lia.
  unfold tl. rewrite dropN_dropN. rewrite lenN_app, <- !app_assoc.
  do 4 f_equal. lia.
Qed.

Definition fcontent (fs : fsT) (n : N) : bytes :=
  match fs_get fs (filename n) with Some (FFile b) => b | _ => [] end.

(* what a pwrite does to the directory *)
Definition fs_write (fs : fsT) (n off : N) (d : bytes) : fsT :=
  fs_put fs (filename n) (FFile (write_at (fcontent fs n) off d)).

Lemma os_write_fs c n off d : c_fs (os_write c n off d) = fs_write (c_fs c) n off d.
Proof. reflexivity. Qed.

Lemma fs_write_write fs n off d1 d2 :
  fs_write (fs_write fs n off d1) n (off + lenN d1) d2 = fs_write fs n off (d1 ++ d2).
Proof.
  unfold fs_write, fcontent. now rewrite fs_get_put_same, fs_put_put, write_at_app.
Qed.

(* the directory as it will be once the buffer is flushed *)
Definition vfs (w : rwriter) : fsT := c_fs (w_ctx (flush_buf w)).

Definition weq (w1 w2 : rwriter) : Prop :=
  w_files w1 = w_files w2 /\ w_file w1 = w_file w2 /\ w_off w1 = w_off w2 /\ vfs w1 = vfs w2
  /\ c_plan (w_ctx w1) = c_plan (w_ctx w2) /\ c_nopen (w_ctx w1) = c_nopen (w_ctx w2)
  /\ c_nreaddir (w_ctx w1) = c_nreaddir (w_ctx w2) /\ c_nread (w_ctx w1) = c_nread (w_ctx w2).

(* policies may differ *)
Definition seq (s1 s2 : state) : Prop := weq (s_wr s1) (s_wr s2) /\ s_qs s1 = s_qs s2.

(* the buffered bytes are the last bytes of the stream: os_pos does not underflow *)
Definition wf (w : rwriter) : Prop := lenN (w_pending w) <= w_off w.

(* seq between well-formed states *)
Definition seqw (s1 s2 : state) : Prop := seq s1 s2 /\ wf (s_wr s1) /\ wf (s_wr s2).

(* everything of a context but the directory and the event trace *)
Definition cmeta (c : ioctx) := (c_plan c, c_nopen c, c_nreaddir c, c_nread c).
(* everything of a writer the policy cannot influence, but the directory *)
Definition wkey (w : rwriter) := (w_files w, w_file w, w_off w, cmeta (w_ctx w)).

Lemma weq_iff w1 w2 : weq w1 w2 <-> wkey w1 = wkey w2 /\ vfs w1 = vfs w2.
Proof.
  unfold weq, wkey, cmeta. split.
  - intros (H1 & H2 & H3 & H4 & H5 & H6 & H7 & H8). split; [congruence|exact H4].
  - intros [H H4]. injection H as E1 E2 E3 E5 E6 E7 E8. repeat split; assumption.
Qed.

Lemma weq_refl w : weq w w.
Proof. apply weq_iff. split; reflexivity. Qed.

Lemma weq_sym w1 w2 : weq w1 w2 -> weq w2 w1.
Proof. rewrite !weq_iff. intros [H1 H2]. split; congruence. Qed.

Lemma weq_trans w1 w2 w3 : weq w1 w2 -> weq w2 w3 -> weq w1 w3.
Proof. rewrite !weq_iff. intros [H1 H2] [H3 H4]. split; congruence. Qed.

(* the relation used in the proofs: weq between well-formed writers (a PER) *)
Definition wrel (w1 w2 : rwriter) : Prop := weq w1 w2 /\ wf w1 /\ wf w2.

Lemma wrel_sym w1 w2 : wrel w1 w2 -> wrel w2 w1.
Proof. intros (H & H1 & H2). split; [now apply weq_sym|split; assumption]. Qed.

Lemma wrel_trans w1 w2 w3 : wrel w1 w2 -> wrel w2 w3 -> wrel w1 w3.
Proof.
  intros (H & H1 & H2) (H' & H2' & H3). split; [eapply weq_trans; eassumption|split; assumption].
Qed.

Lemma wrel_refl w : wf w -> wrel w w.
Proof. intros H. split; [apply weq_refl|split; assumption]. Qed.

Lemma wrel_self w w' : wf w -> wf w' -> wkey w' = wkey w -> vfs w' = vfs w -> wrel w' w.
Proof. intros H1 H2 H3 H4. split; [apply weq_iff; split; assumption|split; assumption]. Qed.

Lemma vfs_mk c fl n off p :
  vfs (mkWr c fl n off p) =
  match p with [] => c_fs c | _ => fs_write (c_fs c) n (off - lenN p) p end.
Proof. unfold vfs, flush_buf. cbn [w_pending]. destruct p; reflexivity. Qed.

Lemma vfs_nil w : w_pending w = [] -> vfs w = c_fs (w_ctx w).
Proof. destruct w as [c fl n off p]. cbn [w_pending w_ctx]. intros ->. apply vfs_mk. Qed.

(* appending to the buffer = a pwrite at the logical offset, on the logical directory *)
Lemma vfs_push c fl n off p d :
  d <> [] -> lenN p <= off ->
  vfs (mkWr c fl n (off + lenN d) (p ++ d)) = fs_write (vfs (mkWr c fl n off p)) n off d.
Proof.
  intros Hd Hp. rewrite !vfs_mk. destruct p as [|b p'].
  - cbn [app]. destruct d as [|x d']; [congruence|]. f_equal. lia.
  - change ((b :: p') ++ d) with (b :: (p' ++ d)).
    change (b :: (p' ++ d)) with ((b :: p') ++ d) at 2 3.
    set (p := b :: p') in *.
    cbv beta iota. clearbody p.
    replace (off + lenN d - lenN (p ++ d)) with (off - lenN p) by (rewrite lenN_app; lia).
    rewrite <- (fs_write_write (c_fs c) n (off - lenN p) p d).
    f_equal. lia.
Qed.

Section Writer.
Variable P : params.

Lemma flush_buf_pending w : w_pending (flush_buf w) = [].
Proof. unfold flush_buf. destruct (w_pending w) eqn:E; [exact E|reflexivity]. Qed.

Lemma flush_buf_key w : wkey (flush_buf w) = wkey w.
Proof. unfold flush_buf. destruct (w_pending w); reflexivity. Qed.

Lemma flush_buf_vfs w : vfs (flush_buf w) = vfs w.
Proof. rewrite vfs_nil by apply flush_buf_pending. reflexivity. Qed.

Lemma flush_buf_fs w : c_fs (w_ctx (flush_buf w)) = vfs w.
Proof. reflexivity. Qed.

Lemma wf_nil w : w_pending w = [] -> wf w.
Proof. unfold wf. intros ->. rewrite lenN_nil. lia. Qed.

Lemma bw_flush_pending w : w_pending (bw_flush w) = [].
Proof. unfold bw_flush, wr_ctx. cbn [w_pending]. apply flush_buf_pending. Qed.

Lemma bw_flush_key w : wkey (bw_flush w) = wkey w.
Proof. rewrite <- (flush_buf_key w). reflexivity. Qed.

Lemma bw_flush_fs w : c_fs (w_ctx (bw_flush w)) = vfs w.
Proof. reflexivity. Qed.

(* the writer just before a roll-over, and after a persist with fsync *)
Definition synced (w : rwriter) : rwriter := sync_dir (sync_data (bw_flush w)).

Lemma synced_pending w : w_pending (synced w) = [].
Proof. unfold synced, sync_dir, sync_data, wr_ctx. cbn [w_pending]. apply bw_flush_pending. Qed.

Lemma synced_key w : wkey (synced w) = wkey w.
Proof. rewrite <- (bw_flush_key w). reflexivity. Qed.

Lemma synced_fs w : c_fs (w_ctx (synced w)) = vfs w.
Proof. reflexivity. Qed.

Lemma wr_persist_key w a : wkey (wr_persist w a) = wkey w.
Proof. unfold wr_persist. destruct a; [apply synced_key|apply bw_flush_key]. Qed.

Lemma wr_persist_fs w a : c_fs (w_ctx (wr_persist w a)) = vfs w.
Proof. unfold wr_persist. destruct a; reflexivity. Qed.

Lemma wr_persist_vfs w a : vfs (wr_persist w a) = vfs w.
Proof. rewrite vfs_nil by apply wr_persist_drained. apply wr_persist_fs. Qed.

Lemma wr_persist_rel w a : wf w -> wrel (wr_persist w a) w.
Proof.
  intros H. apply wrel_self; [exact H|apply wf_nil, wr_persist_drained|apply wr_persist_key|
                             apply wr_persist_vfs].
Qed.

Definition ceq (c1 c2 : ioctx) : Prop := c_fs c1 = c_fs c2 /\ cmeta c1 = cmeta c2.

Lemma ceq_refl c : ceq c c.
Proof. split; reflexivity. Qed.

Lemma ceq_inv c1 c2 : ceq c1 c2 ->
  exists fs ev1 ev2 pl a b c, c1 = mkCtx fs ev1 pl a b c /\ c2 = mkCtx fs ev2 pl a b c.
Proof.
  destruct c1 as [fs1 ev1 pl1 a1 b1 n1], c2 as [fs2 ev2 pl2 a2 b2 n2]. unfold ceq, cmeta.
  cbn [c_fs c_plan c_nopen c_nreaddir c_nread]. intros [H1 H2].
  injection H2 as E1 E2 E3 E4. subst. now exists fs2, ev1, ev2, pl2, a2, b2, n2.
Qed.

Lemma open_file_ceq c1 c2 n : ceq c1 c2 ->
  snd (open_file c1 n) = snd (open_file c2 n) /\ ceq (fst (open_file c1 n)) (fst (open_file c2 n)).
Proof.
  intros H. apply ceq_inv in H. destruct H as (fs & ev1 & ev2 & pl & a & b & c & -> & ->).
  unfold open_file, fault_point. cbn [c_plan c_nopen c_fs c_ev c_nreaddir c_nread].
  destruct pl as [p|].
  - destruct (site_eqb (fp_site p) SOpen && ((b =? fp_nth p) || fp_persistent p && (fp_nth p <? b))).
    + split; [reflexivity|split; reflexivity].
    + cbn [c_fs]. destruct (fs_get fs (filename n)) as [[x| |]|]; split; try reflexivity; split; reflexivity.
  - cbn [c_fs]. destruct (fs_get fs (filename n)) as [[x| |]|]; split; try reflexivity; split; reflexivity.
Qed.

Lemma create_file_ceq c1 c2 n : ceq c1 c2 ->
  snd (create_file P c1 n) = snd (create_file P c2 n) /\
  ceq (fst (create_file P c1 n)) (fst (create_file P c2 n)).
Proof.
  intros H. apply ceq_inv in H. destruct H as (fs & ev1 & ev2 & pl & a & b & c & -> & ->).
  unfold create_file. cbn [c_fs].
  destruct (fs_get fs (filename n)); split; try reflexivity; split; reflexivity.
Qed.

Lemma gc_loop_ceq files : forall c1 c2 r1 r2,
  ceq c1 c2 -> (forall f, r1 f = r2 f) ->
  snd (gc_loop c1 files r1) = snd (gc_loop c2 files r2) /\
  snd (fst (gc_loop c1 files r1)) = snd (fst (gc_loop c2 files r2)) /\
  ceq (fst (fst (gc_loop c1 files r1))) (fst (fst (gc_loop c2 files r2))).
Proof.
  induction files as [|f rest IH]; intros c1 c2 r1 r2 Hc Hr; cbn [gc_loop].
  - cbn [fst snd]. repeat split; apply Hc.
  - destruct rest as [|g rest'].
    + cbn [fst snd]. repeat split; apply Hc.
    + rewrite <- (Hr f). destruct (r1 f).
      * cbn [fst snd]. repeat split; apply Hc.
      * pose proof Hc as Hc'. apply ceq_inv in Hc'.
        destruct Hc' as (fs & ev1 & ev2 & pl & a & b & c & -> & ->). cbn [c_fs].
        destruct (fs_get fs (filename f)) as [[x| |]|].
        -- apply IH; [split; reflexivity|exact Hr].
        -- cbn [fst snd]. repeat split; reflexivity.
        -- apply IH; [split; reflexivity|exact Hr].
        -- cbn [fst snd]. repeat split; reflexivity.
Qed.

Lemma wrel_mk_nil c1 c2 fl n off : ceq c1 c2 -> wrel (mkWr c1 fl n off []) (mkWr c2 fl n off []).
Proof.
  intros [H1 H2]. split; [|split; apply wf_nil; reflexivity].
  apply weq_iff. split.
  - unfold wkey. cbn [w_files w_file w_off w_ctx]. now rewrite H2.
  - rewrite !vfs_mk. exact H1.
Qed.

Lemma wkey_inv w1 w2 : wkey w1 = wkey w2 ->
  w_files w1 = w_files w2 /\ w_file w1 = w_file w2 /\ w_off w1 = w_off w2 /\
  cmeta (w_ctx w1) = cmeta (w_ctx w2).
Proof.
  unfold wkey. intros H.
  pose proof (f_equal (fun k => fst (fst (fst k))) H) as E1.
  pose proof (f_equal (fun k => snd (fst (fst k))) H) as E2.
  pose proof (f_equal (fun k => snd (fst k)) H) as E3.
  pose proof (f_equal snd H) as E4. cbn [fst snd] in *.
  split; [exact E1|split; [exact E2|split; [exact E3|exact E4]]].
Qed.

Definition wrote (w w' : rwriter) (d : bytes) : Prop :=
  wkey w' = (w_files w, w_file w, w_off w + lenN d, cmeta (w_ctx w)) /\
  vfs w' = fs_write (vfs w) (w_file w) (w_off w) d /\ wf w'.

Lemma wrote_transfer w0 w w' d : wkey w0 = wkey w -> vfs w0 = vfs w -> wrote w0 w' d -> wrote w w' d.
Proof.
  intros Hk Hv (H1 & H2 & H3). apply wkey_inv in Hk. destruct Hk as (E1 & E2 & E3 & E4).
  unfold wrote. rewrite <- E1, <- E2, <- E3, <- E4, <- Hv. repeat split; assumption.
Qed.

Lemma wrote_rel wa wb wa' wb' d :
  wkey wa = wkey wb -> vfs wa = vfs wb -> wrote wa wa' d -> wrote wb wb' d -> wrel wa' wb'.
Proof.
  intros Hk Hv Ha Hb. apply (wrote_transfer _ _ _ _ Hk Hv) in Ha.
  destruct Ha as (A1 & A2 & A3), Hb as (B1 & B2 & B3).
  split; [|split; assumption]. apply weq_iff. split; congruence.
Qed.

Lemma push_wrote w d : d <> [] -> wf w ->
  wrote w (mkWr (w_ctx w) (w_files w) (w_file w) (w_off w + lenN d) (w_pending w ++ d)) d.
Proof.
  destruct w as [c fl n off p]. unfold wf, wrote. cbn [w_ctx w_files w_file w_off w_pending].
  intros Hd Hp. split; [reflexivity|split].
  - now apply vfs_push.
  - unfold wf. cbn [w_off w_pending]. rewrite lenN_app. lia.
Qed.

Lemma direct_wrote w d : w_pending w = [] ->
  wrote w (mkWr (os_write (w_ctx w) (w_file w) (os_pos w) d)
                (w_files w) (w_file w) (w_off w + lenN d) (w_pending w)) d.
Proof.
  destruct w as [c fl n off p]. unfold wrote, os_pos. cbn [w_ctx w_files w_file w_off w_pending].
  intros ->. split; [reflexivity|split].
  - rewrite !vfs_mk, os_write_fs, lenN_nil. f_equal. lia.
  - apply wf_nil. reflexivity.
Qed.

Lemma lenN_pos {A} (l : list A) : l <> [] -> 0 < lenN l.
Proof. destruct l; [congruence|]. rewrite lenN_cons. lia. Qed.

Lemma bw_write_all_wrote w d : d <> [] -> wf w -> wrote w (bw_write_all P w d) d.
Proof.
  intros Hd Hw. pose proof (lenN_pos d Hd) as Hlen.
  unfold bw_write_all, bw_write_all0.
  destruct (N.ltb_spec (lenN d) (BS P - lenN (w_pending w))) as [H1|H1].
  - cbn [w_ctx w_files w_file w_off w_pending]. now apply push_wrote.
  - set (w1 := if BS P - lenN (w_pending w) <? lenN d then flush_buf w else w).
    assert (Hk : wkey w1 = wkey w).
    { unfold w1. destruct (_ <? _); [apply flush_buf_key|reflexivity]. }
    assert (Hv : vfs w1 = vfs w).
    { unfold w1. destruct (_ <? _); [apply flush_buf_vfs|reflexivity]. }
    assert (Hw1 : wf w1).
    { unfold w1. destruct (_ <? _); [apply wf_nil, flush_buf_pending|exact Hw]. }
    assert (Hp : BS P <= lenN d -> w_pending w1 = []).
    { intros H2. unfold w1. destruct (N.ltb_spec (BS P - lenN (w_pending w)) (lenN d)) as [H3|H3].
      - apply flush_buf_pending.
      - apply lenN_0_nil. lia. }
    apply (wrote_transfer w1 w _ d Hk Hv).
    destruct (N.leb_spec (BS P) (lenN d)) as [H2|H2].
    + cbn [w_ctx w_files w_file w_off w_pending]. apply direct_wrote. now apply Hp.
    + cbn [w_ctx w_files w_file w_off w_pending]. now apply push_wrote.
Qed.

Lemma wr_rem_rel w1 w2 : wrel w1 w2 -> wr_rem P w1 = wr_rem P w2.
Proof. intros [(_ & _ & H & _) _]. unfold wr_rem. now rewrite H. Qed.

Lemma fresh_file_rel c1 c2 fl n d : d <> [] -> ceq c1 c2 ->
  wrel (bw_write_all P (mkWr c1 fl n 0 []) d) (bw_write_all P (mkWr c2 fl n 0 []) d).
Proof.
  intros Hd [G1 G2].
  eapply wrote_rel;
    [| |apply bw_write_all_wrote; [exact Hd|apply wf_nil; reflexivity]
       |apply bw_write_all_wrote; [exact Hd|apply wf_nil; reflexivity]].
  - unfold wkey. cbn [w_files w_file w_off w_ctx]. now rewrite G2.
  - rewrite !vfs_mk. exact G1.
Qed.

(* BlockWrite::write: same result, same logical writer *)
Lemma wr_write_rel w1 w2 d : wrel w1 w2 ->
  snd (wr_write P w1 d) = snd (wr_write P w2 d) /\
  wrel (fst (wr_write P w1 d)) (fst (wr_write P w2 d)).
Proof.
  intros R. unfold wr_write. destruct d as [|b0 d0] eqn:Ed; [split; [reflexivity|exact R]|].
  rewrite <- Ed. assert (Hd : d <> []) by (rewrite Ed; discriminate). clear Ed b0 d0.
  destruct R as (We & F1 & F2). apply weq_iff in We. destruct We as [Hk Hv].
  pose proof (wkey_inv _ _ Hk) as (K1 & K2 & K3 & K4).
  rewrite <- K3.
  destruct (N.ltb_spec (FILE_BYTES P) (w_off w1 + lenN d)) as [Hroll|Hfit].
  - fold (synced w1) (synced w2).
    pose proof (synced_pending w1) as P1. pose proof (synced_pending w2) as P2.
    pose proof (synced_key w1) as Q1. pose proof (synced_key w2) as Q2.
    pose proof (synced_fs w1) as V1. pose proof (synced_fs w2) as V2.
    destruct (synced w1) as [c1 fl1 n1 off1 p1]. destruct (synced w2) as [c2 fl2 n2 off2 p2].
    cbn [w_pending w_ctx] in P1, P2, V1, V2. subst p1 p2.
    rewrite <- Q1 in Hk. rewrite <- Q2 in Hk. apply wkey_inv in Hk.
    cbn [w_files w_file w_off w_ctx] in Hk. destruct Hk as (-> & -> & -> & Hm).
    assert (Hc : ceq c1 c2) by (split; [congruence|exact Hm]).
    cbn [w_files w_file w_off w_ctx w_pending].
    destruct (tracker_next fl2 n2) as [nxt|].
    + pose proof (open_file_ceq c1 c2 nxt Hc) as [Hs Hc'].
      destruct (open_file c1 nxt) as [c1' [[]|e1]]; destruct (open_file c2 nxt) as [c2' [[]|e2]];
        cbn [fst snd] in Hs, Hc'; try discriminate.
      * cbn [fst snd]. split; [reflexivity|]. now apply fresh_file_rel.
      * cbn [fst snd]. split; [exact Hs|]. unfold wr_ctx. cbn [w_files w_file w_off w_pending].
        now apply wrel_mk_nil.
    + pose proof (create_file_ceq c1 c2 (n2 + 1) Hc) as [Hs Hc'].
      destruct (create_file P c1 (n2 + 1)) as [c1' [[]|e1]];
        destruct (create_file P c2 (n2 + 1)) as [c2' [[]|e2]];
        cbn [fst snd] in Hs, Hc'; try discriminate.
      * cbn [fst snd]. split; [reflexivity|]. now apply fresh_file_rel.
      * cbn [fst snd]. split; [exact Hs|]. now apply wrel_mk_nil.
  - cbn [fst snd]. split; [reflexivity|].
    eapply wrote_rel; [exact Hk|exact Hv|now apply bw_write_all_wrote|now apply bw_write_all_wrote].
Qed.

End Writer.

Section GenericRel.
Variable P : params.
Variable W : Type.
Variable wwrite : W -> bytes -> W * res unit.
Variable wrem : W -> N.
Variable R : W -> W -> Prop.
Hypothesis Hrem : forall a b, R a b -> wrem a = wrem b.
Hypothesis Hwr : forall a b d, R a b ->
  snd (wwrite a d) = snd (wwrite b d) /\ R (fst (wwrite a d)) (fst (wwrite b d)).

Lemma write_frame_rel a b t p : R a b ->
  snd (write_frame P W wwrite wrem a t p) = snd (write_frame P W wwrite wrem b t p) /\
  R (fst (write_frame P W wwrite wrem a t p)) (fst (write_frame P W wwrite wrem b t p)).
Proof.
  intros H. unfold write_frame. rewrite <- (Hrem a b H).
  destruct (N.ltb_spec (wrem a) HEADER_LEN) as [Hlt|Hge].
  - pose proof (Hwr a b (zerosN (wrem a)) H) as [S1 R1].
    destruct (wwrite a (zerosN (wrem a))) as [a1 [[]|e1]];
      destruct (wwrite b (zerosN (wrem a))) as [b1 [[]|e2]]; cbn [fst snd] in S1, R1; try discriminate.
    + pose proof (Hwr a1 b1 (frame_bytes P t p) R1) as [S2 R2].
      destruct (wwrite a1 (frame_bytes P t p)) as [a2 [[]|e1]];
        destruct (wwrite b1 (frame_bytes P t p)) as [b2 [[]|e2]]; cbn [fst snd] in S2, R2 |- *;
        try discriminate; (split; [congruence|exact R2]).
    + cbn [fst snd]. split; [congruence|exact R1].
  - pose proof (Hwr a b (frame_bytes P t p) H) as [S2 R2].
    destruct (wwrite a (frame_bytes P t p)) as [a2 [[]|e1]];
      destruct (wwrite b (frame_bytes P t p)) as [b2 [[]|e2]]; cbn [fst snd] in S2, R2 |- *;
      try discriminate; (split; [congruence|exact R2]).
Qed.

Lemma write_record_loop_rel fuel : forall a b isf payload acc, R a b ->
  snd (write_record_loop P W wwrite wrem fuel a isf payload acc) =
  snd (write_record_loop P W wwrite wrem fuel b isf payload acc) /\
  R (fst (write_record_loop P W wwrite wrem fuel a isf payload acc))
    (fst (write_record_loop P W wwrite wrem fuel b isf payload acc)).
Proof.
  induction fuel as [|fuel IH]; intros a b isf payload acc H; cbn [write_record_loop].
  - cbn [fst snd]. split; [reflexivity|exact H].
  - rewrite <- (Hrem a b H).
    set (n := N.min (max_writable P (wrem a)) (lenN payload)).
    pose proof (write_frame_rel a b (frame_type isf (isnil (dropN n payload))) (takeN n payload) H)
      as [S1 R1].
    destruct (write_frame P W wwrite wrem a _ _) as [a1 [k1|e1]];
      destruct (write_frame P W wwrite wrem b _ _) as [b1 [k2|e2]]; cbn [fst snd] in S1, R1;
      try discriminate.
    + injection S1 as <-. destruct (isnil (dropN n payload)).
      * cbn [fst snd]. split; [reflexivity|exact R1].
      * now apply IH.
    + cbn [fst snd]. split; [exact S1|exact R1].
Qed.

Lemma write_record_rel a b payload : R a b ->
  snd (write_record P W wwrite wrem a payload) = snd (write_record P W wwrite wrem b payload) /\
  R (fst (write_record P W wwrite wrem a payload)) (fst (write_record P W wwrite wrem b payload)).
Proof. unfold write_record. apply write_record_loop_rel. Qed.
End GenericRel.

Section Api.
Variable P : params.
Hypothesis HGC : L_GC P = false.       (* the current code: GC always persists before unlinking *)

(* seq between well-formed states, arranged for the proofs *)
Definition srel (s1 s2 : state) : Prop := wrel (s_wr s1) (s_wr s2) /\ s_qs s1 = s_qs s2.

Lemma seqw_srel s1 s2 : seqw s1 s2 <-> srel s1 s2.
Proof. unfold seqw, seq, srel, wrel. tauto. Qed.

Lemma srel_sym a b : srel a b -> srel b a.
Proof. intros [H1 H2]. split; [now apply wrel_sym|now symmetry]. Qed.

Lemma srel_trans a b c : srel a b -> srel b c -> srel a c.
Proof. intros [H1 H2] [H3 H4]. split; [eapply wrel_trans; eassumption|congruence]. Qed.

Lemma set_qs_rel a b qs : srel a b -> srel (set_qs a qs) (set_qs b qs).
Proof. intros [H1 H2]. split; [exact H1|reflexivity]. Qed.

Lemma write_entry_rel a b e : srel a b ->
  snd (write_entry P a e) = snd (write_entry P b e) /\
  srel (fst (write_entry P a e)) (fst (write_entry P b e)).
Proof.
  intros [H1 H2]. unfold write_entry.
  pose proof (write_record_rel P rwriter (wr_write P) (wr_rem P) wrel (wr_rem_rel P) (wr_write_rel P)
                               (s_wr a) (s_wr b) (entry_ser e) H1) as [S1 R1].
  destruct (write_record P rwriter (wr_write P) (wr_rem P) (s_wr a) (entry_ser e)) as [wa ra].
  destruct (write_record P rwriter (wr_write P) (wr_rem P) (s_wr b) (entry_ser e)) as [wb rb].
  cbn [fst snd] in *. split; [exact S1|]. split; [exact R1|exact H2].
Qed.

Lemma persist_self st f : wf (s_wr st) -> srel (persist st f) st.
Proof. intros H. split; [apply wr_persist_rel, H|reflexivity]. Qed.

Lemma persist_rel a b f1 f2 : srel a b -> srel (persist a f1) (persist b f2).
Proof.
  intros H. pose proof H as [(_ & Fa & Fb) _].
  eapply srel_trans; [apply persist_self, Fa|].
  eapply srel_trans; [exact H|]. apply srel_sym, persist_self, Fb.
Qed.

Lemma persist_on_policy_self st tick : wf (s_wr st) -> srel (persist_on_policy st tick) st.
Proof.
  intros H. unfold persist_on_policy.
  destruct (s_pol st) as [|f|f]; [|destruct tick|]; try (now apply persist_self);
    (split; [now apply wrel_refl|reflexivity]).
Qed.

Lemma persist_on_policy_rel a b t1 t2 :
  srel a b -> srel (persist_on_policy a t1) (persist_on_policy b t2).
Proof.
  intros H. pose proof H as [(_ & Fa & Fb) _].
  eapply srel_trans; [apply persist_on_policy_self, Fa|].
  eapply srel_trans; [exact H|]. apply srel_sym, persist_on_policy_self, Fb.
Qed.

Lemma record_positions_rel names : forall a b acc, srel a b ->
  snd (record_positions P a names acc) = snd (record_positions P b names acc) /\
  srel (fst (record_positions P a names acc)) (fst (record_positions P b names acc)).
Proof.
  induction names as [|nm r IH]; intros a b acc H; cbn [record_positions].
  - cbn [fst snd]. split; [reflexivity|exact H].
  - pose proof H as [_ Hq]. rewrite <- Hq.
    destruct (qs_get (s_qs a) nm) as [q|]; [|now apply IH].
    pose proof (write_entry_rel a b (EPosition nm (next_position q)) H) as [S1 R1].
    destruct (write_entry P a _) as [a1 [k1|e1]]; destruct (write_entry P b _) as [b1 [k2|e2]];
      cbn [fst snd] in S1, R1; try discriminate.
    + injection S1 as <-. now apply IH.
    + cbn [fst snd]. split; [exact S1|exact R1].
Qed.

Lemma reqp_rel a b hint : srel a b ->
  snd (record_empty_queues_position P a hint) = snd (record_empty_queues_position P b hint) /\
  srel (fst (record_empty_queues_position P a hint)) (fst (record_empty_queues_position P b hint)).
Proof.
  intros H. unfold record_empty_queues_position. pose proof H as [_ Hq]. rewrite <- Hq.
  pose proof (record_positions_rel (pick_order hint (empty_names (s_qs a))) a b 0 H) as [S1 R1].
  destruct (record_positions P a _ 0) as [a1 [k1|e1]]; destruct (record_positions P b _ 0) as [b1 [k2|e2]];
    cbn [fst snd] in S1, R1; try discriminate.
  - injection S1 as <-. rewrite HGC. cbn [andb fst snd]. split; [reflexivity|now apply persist_rel].
  - cbn [fst snd]. split; [exact S1|exact R1].
Qed.

Lemma reqp_drained st hint n :
  snd (record_empty_queues_position P st hint) = Ok n ->
  w_pending (s_wr (fst (record_empty_queues_position P st hint))) = [].
Proof.
  unfold record_empty_queues_position.
  destruct (record_positions P st _ 0) as [st1 [k|e]]; [|discriminate].
  rewrite HGC. cbn [andb fst snd]. intros _. apply persist_drained.
Qed.

Lemma wrel_nil_inv w1 w2 : wrel w1 w2 -> w_pending w1 = [] -> w_pending w2 = [] ->
  w_files w1 = w_files w2 /\ w_file w1 = w_file w2 /\ w_off w1 = w_off w2 /\
  ceq (w_ctx w1) (w_ctx w2).
Proof.
  intros (We & _ & _) P1 P2. apply weq_iff in We. destruct We as [Hk Hv].
  apply wkey_inv in Hk. destruct Hk as (K1 & K2 & K3 & K4).
  rewrite !vfs_nil in Hv by assumption. repeat split; assumption.
Qed.

Lemma has_deletable_rel a b : srel a b -> has_deletable a = has_deletable b.
Proof.
  intros [((H1 & H2 & _) & _) Hq]. unfold has_deletable, referenced. now rewrite H1, H2, Hq.
Qed.

Lemma run_gc_rel a b hint : srel a b ->
  snd (run_gc_if_necessary P a hint) = snd (run_gc_if_necessary P b hint) /\
  srel (fst (run_gc_if_necessary P a hint)) (fst (run_gc_if_necessary P b hint)).
Proof.
  intros H. unfold run_gc_if_necessary. rewrite <- (has_deletable_rel a b H).
  destruct (has_deletable a); [|cbn [fst snd]; split; [reflexivity|exact H]].
  assert (Hg : w_file (s_wr a) = w_file (s_wr b)) by (destruct H as [((_ & H2 & _) & _) _]; exact H2).
  rewrite <- Hg. set (guard := w_file (s_wr a)). clearbody guard.
  pose proof (reqp_rel a b hint H) as [S1 R1].
  pose proof (reqp_drained a hint) as D1. pose proof (reqp_drained b hint) as D2.
  destruct (record_empty_queues_position P a hint) as [a1 [k1|e1]];
    destruct (record_empty_queues_position P b hint) as [b1 [k2|e2]];
    cbn [fst snd] in S1, R1, D1, D2; try discriminate.
  - injection S1 as <-. specialize (D1 _ eq_refl). specialize (D2 _ eq_refl).
    destruct R1 as [Rw Rq].
    pose proof (wrel_nil_inv _ _ Rw D1 D2) as (K1 & K2 & K3 & Hc).
    assert (Hr : forall f, referenced a1 guard f = referenced b1 guard f).
    { intros f. unfold referenced. now rewrite K2, Rq. }
    pose proof (gc_loop_ceq (w_files (s_wr a1)) _ _ _ _ Hc Hr) as (G1 & G2 & G3).
    rewrite <- K1, <- K2, <- K3, D1, D2.
    destruct (gc_loop (w_ctx (s_wr a1)) (w_files (s_wr a1)) (referenced a1 guard)) as [[c1 f1] r1].
    destruct (gc_loop (w_ctx (s_wr b1)) (w_files (s_wr a1)) (referenced b1 guard)) as [[c2 f2] r2].
    cbn [fst snd] in G1, G2, G3. subst r2 f2.
    destruct r1 as [[]|e]; cbn [fst snd]; (split; [reflexivity|]);
      (split; [cbn [set_wr s_wr]; now apply wrel_mk_nil|exact Rq]).
  - cbn [fst snd]. split; [exact S1|exact R1].
Qed.

Lemma persist_on_policy_qs' st tick : s_qs (persist_on_policy st tick) = s_qs st.
Proof. apply persist_on_policy_qs. Qed.

(* every operation has the shape "run a fallible part; on Err report it; on Ok continue":
   related parts and related continuations give related wholes *)
Lemma bind_rel {X} (x y : state * res X) (fa fb : state -> X -> state * outcome) :
  snd x = snd y /\ srel (fst x) (fst y) ->
  (forall a1 b1 k, srel a1 b1 ->
     snd (fa a1 k) = snd (fb b1 k) /\ srel (fst (fa a1 k)) (fst (fb b1 k))) ->
  snd (match x with (s, Err e) => (s, OutIo e) | (s, Ok k) => fa s k end) =
  snd (match y with (s, Err e) => (s, OutIo e) | (s, Ok k) => fb s k end) /\
  srel (fst (match x with (s, Err e) => (s, OutIo e) | (s, Ok k) => fa s k end))
       (fst (match y with (s, Err e) => (s, OutIo e) | (s, Ok k) => fb s k end)).
Proof.
  destruct x as [a1 [k1|e1]], y as [b1 [k2|e2]]; cbn [fst snd]; intros [S R] Hk; try discriminate.
  - injection S as <-. now apply Hk.
  - split; [congruence|exact R].
Qed.

Lemma step_rel a b o t1 t2 : srel a b ->
  snd (step P a o t1) = snd (step P b o t2) /\ srel (fst (step P a o t1)) (fst (step P b o t2)).
Proof.
  intros H. pose proof H as [Hw Hq].
  destruct o as [q|q hint|q pos payloads|q p hint|f]; cbn [step].
  -
    unfold create_queue. rewrite <- Hq.
    destruct (qs_contains (s_qs a) q); [cbn [fst snd]; split; [reflexivity|exact H]|].
    apply bind_rel; [now apply write_entry_rel|]. intros a1 b1 k R1. cbn [fst snd].
    split; [reflexivity|].
    pose proof (persist_rel a1 b1 true true R1) as R2. pose proof R2 as [_ Hq2].
    rewrite <- Hq2. now apply set_qs_rel.
  -
    unfold delete_queue. rewrite <- Hq.
    destruct (qs_get (s_qs a) q) as [m|]; [|cbn [fst snd]; split; [reflexivity|exact H]].
    apply bind_rel; [now apply write_entry_rel|]. intros a1 b1 n R1.
    pose proof R1 as [_ Hq1]. rewrite <- Hq1.
    apply bind_rel; [now apply run_gc_rel, set_qs_rel|]. intros a3 b3 k R3. cbn [fst snd].
    split; [reflexivity|now apply persist_rel].
  -
    unfold append_records. rewrite <- Hq.
    destruct (qs_get (s_qs a) q) as [m|]; [|cbn [fst snd]; split; [reflexivity|exact H]].
    destruct (match pos with Some p => _ | None => None end) as [early|];
      [cbn [fst snd]; split; [reflexivity|exact H]|].
    assert (Hf : w_file (s_wr a) = w_file (s_wr b)) by (destruct Hw as ((_ & H2 & _) & _); exact H2).
    rewrite <- Hf.
    set (position := match pos with Some p => p | None => next_position m end).
    destruct (number_from position payloads) as [|r0 rs] eqn:En;
      [cbn [fst snd]; split; [reflexivity|exact H]|].
    rewrite <- En. clear En r0 rs.
    apply bind_rel; [now apply write_entry_rel|]. intros a1 b1 n R1.
    pose proof (persist_on_policy_rel a1 b1 t1 t2 R1) as R2.
    destruct (append_all m (w_file (s_wr a)) (number_from position payloads)) as [m'|];
      cbn [fst snd].
    + split; [reflexivity|]. pose proof R2 as [_ Hq2]. rewrite <- Hq2. now apply set_qs_rel.
    + split; [reflexivity|exact R2].
  -
    unfold truncate. rewrite <- Hq.
    destruct (qs_get (s_qs a) q) as [m|]; [|cbn [fst snd]; split; [reflexivity|exact H]].
    destruct (truncate_head m p) as [m' ev].
    apply bind_rel; [now apply write_entry_rel|]. intros a1 b1 n R1.
    pose proof R1 as [_ Hq1]. rewrite <- Hq1.
    apply bind_rel; [now apply run_gc_rel, set_qs_rel|]. intros a3 b3 k R3. cbn [fst snd].
    split; [reflexivity|now apply persist_on_policy_rel].
  -
    cbn [fst snd]. split; [reflexivity|now apply persist_rel].
Qed.

End Api.

(* one call: same outcome (positions, eviction counts, errors, reported byte counts), same
   queues, same logical files, whatever the two policies and the two tick values *)
Theorem step_policy_independent : forall P s1 s2 o t1 t2,
  L_GC P = false -> seqw s1 s2 ->
  let '(s1', o1) := step P s1 o t1 in
  let '(s2', o2) := step P s2 o t2 in
  o1 = o2 /\ seqw s1' s2'.
Proof.
  intros P s1 s2 o t1 t2 HGC H. apply seqw_srel in H.
  pose proof (step_rel P HGC s1 s2 o t1 t2 H) as [S R].
  destruct (step P s1 o t1) as [s1' o1]. destruct (step P s2 o t2) as [s2' o2].
  cbn [fst snd] in S, R. split; [exact S|now apply seqw_srel].
Qed.

(* the same with the well-formedness condition spelled out *)
Corollary step_policy_independent' : forall P s1 s2 o t1 t2,
  L_GC P = false -> seq s1 s2 -> wf (s_wr s1) -> wf (s_wr s2) ->
  let '(s1', o1) := step P s1 o t1 in
  let '(s2', o2) := step P s2 o t2 in
  o1 = o2 /\ seq s1' s2' /\ wf (s_wr s1') /\ wf (s_wr s2').
Proof.
  intros P s1 s2 o t1 t2 HGC H F1 F2.
  exact (step_policy_independent P s1 s2 o t1 t2 HGC (conj H (conj F1 F2))).
Qed.

(* histories: same calls, arbitrary ticks *)
Theorem run_policy_independent : forall P h1 h2 s1 s2,
  L_GC P = false -> map fst h1 = map fst h2 -> seqw s1 s2 ->
  let '(s1', o1) := run P s1 h1 in
  let '(s2', o2) := run P s2 h2 in
  o1 = o2 /\ seqw s1' s2'.
Proof.
  intros P h1. induction h1 as [|[o t1] h1 IH]; intros h2 s1 s2 HGC Hm H.
  - destruct h2 as [|x h2]; [|discriminate]. cbn [run]. split; [reflexivity|exact H].
  - destruct h2 as [|[o' t2] h2]; [discriminate|]. cbn [map fst] in Hm.
    injection Hm as <- Hm. cbn [run].
    pose proof (step_policy_independent P s1 s2 o t1 t2 HGC H) as Hs.
    destruct (step P s1 o t1) as [s1a o1]. destruct (step P s2 o t2) as [s2a o2].
    destruct Hs as [-> Hs].
    specialize (IH h2 s1a s2a HGC Hm Hs).
    destruct (run P s1a h1) as [s1' outs1]. destruct (run P s2a h2) as [s2' outs2].
    destruct IH as [-> IH]. split; [reflexivity|exact IH].
Qed.

(* the directory left by a clean drop *)
Theorem drop_policy_independent : forall s1 s2,
  seq s1 s2 -> c_fs (drop_log s1) = c_fs (drop_log s2).
Proof. intros s1 s2 [(_ & _ & _ & H & _) _]. exact H. Qed.

(* open: the policy is only stored *)
Definition with_pol (st : state) (pol : policy) : state := mkSt (s_wr st) (s_qs st) pol.

Definition open_with_pol (r : open_result) (pol : policy) : open_result :=
  match r with OpenOk st => OpenOk (with_pol st pol) | _ => r end.

(* same constructor, same context / error, same writer and queues; the policies may differ *)
Definition open_rel (r1 r2 : open_result) : Prop :=
  match r1, r2 with
  | OpenOk a, OpenOk b => s_wr a = s_wr b /\ s_qs a = s_qs b
  | OpenIo e1 c1, OpenIo e2 c2 => e1 = e2 /\ c1 = c2
  | OpenCorruption c1, OpenCorruption c2 => c1 = c2
  | OpenFuel c1, OpenFuel c2 => c1 = c2
  | _, _ => False
  end.

Section Open.
Variable P : params.

Lemma write_entry_with_pol st e pol :
  write_entry P (with_pol st pol) e =
  (with_pol (fst (write_entry P st e)) pol, snd (write_entry P st e)).
Proof.
  unfold write_entry. cbn [with_pol s_wr].
  destruct (write_record P rwriter (wr_write P) (wr_rem P) (s_wr st) (entry_ser e)) as [w r].
  reflexivity.
Qed.

Lemma record_positions_with_pol pol names : forall st acc,
  record_positions P (with_pol st pol) names acc =
  (with_pol (fst (record_positions P st names acc)) pol, snd (record_positions P st names acc)).
Proof.
  induction names as [|nm r IH]; intros st acc; cbn [record_positions]; [reflexivity|].
  change (s_qs (with_pol st pol)) with (s_qs st).
  destruct (qs_get (s_qs st) nm) as [q|]; [|apply IH].
  rewrite write_entry_with_pol.
  destruct (write_entry P st (EPosition nm (next_position q))) as [st1 [k|e]]; cbn [fst snd];
    [apply IH|reflexivity].
Qed.

Lemma reqp_with_pol st hint pol :
  record_empty_queues_position P (with_pol st pol) hint =
  (with_pol (fst (record_empty_queues_position P st hint)) pol,
   snd (record_empty_queues_position P st hint)).
Proof.
  unfold record_empty_queues_position. change (s_qs (with_pol st pol)) with (s_qs st).
  rewrite record_positions_with_pol.
  destruct (record_positions P st _ 0) as [st1 [k|e]]; cbn [fst snd]; [|reflexivity].
  destruct (L_GC P && (k =? 0)); reflexivity.
Qed.

Lemma run_gc_with_pol st hint pol :
  run_gc_if_necessary P (with_pol st pol) hint =
  (with_pol (fst (run_gc_if_necessary P st hint)) pol, snd (run_gc_if_necessary P st hint)).
Proof.
  unfold run_gc_if_necessary.
  change (has_deletable (with_pol st pol)) with (has_deletable st).
  destruct (has_deletable st); [|reflexivity].
  rewrite reqp_with_pol. change (s_wr (with_pol st pol)) with (s_wr st).
  destruct (record_empty_queues_position P st hint) as [st1 [k|e]]; cbn [fst snd]; [|reflexivity].
  change (s_wr (with_pol st1 pol)) with (s_wr st1).
  change (referenced (with_pol st1 pol) (w_file (s_wr st))) with (referenced st1 (w_file (s_wr st))).
  destruct (gc_loop (w_ctx (s_wr st1)) (w_files (s_wr st1)) (referenced st1 (w_file (s_wr st))))
    as [[c files] [[]|e]]; reflexivity.
Qed.

Theorem open_with_policy_eq fuel fs plan pol1 pol2 hint :
  open_with P fuel fs plan pol2 hint = open_with_pol (open_with P fuel fs plan pol1 hint) pol2.
Proof.
  unfold open_with.
  destruct (rd_open P (ctx_init fs plan)) as [c [rd|e]]; [|reflexivity].
  destruct (replay_loop P fuel fuel (rr_open rreaderS rd) []) as [rr [qs| |e|]]; try reflexivity.
  set (w := rd_into_writer P (fr_rd (rr_fr rr)) (fr_cursor (rr_fr rr))).
  change (mkSt w qs pol2) with (with_pol (mkSt w qs pol1) pol2).
  rewrite run_gc_with_pol.
  destruct (run_gc_if_necessary P (mkSt w qs pol1) hint) as [st1 [k|e]]; reflexivity.
Qed.

(* the result for pol2 is the result for pol1 with the stored policy replaced *)
Theorem open_policy_eq fs plan pol1 pol2 hint :
  open P fs plan pol2 hint = open_with_pol (open P fs plan pol1 hint) pol2.
Proof. apply open_with_policy_eq. Qed.

Theorem open_policy_independent : forall fs plan pol1 pol2 hint,
  open_rel (open P fs plan pol1 hint) (open P fs plan pol2 hint).
Proof.
  intros fs plan pol1 pol2 hint. rewrite (open_policy_eq fs plan pol1 pol2 hint).
  destruct (open P fs plan pol1 hint) as [st|e c|c|c]; cbn [open_with_pol open_rel with_pol s_wr s_qs];
    try split; reflexivity.
Qed.

Lemma open_ok_pol fs plan pol hint st : open P fs plan pol hint = OpenOk st -> s_pol st = pol.
Proof.
  unfold open, open_with.
  destruct (rd_open P (ctx_init fs plan)) as [c [rd|e]]; [|discriminate].
  destruct (replay_loop P _ _ (rr_open rreaderS rd) []) as [rr [qs| |e|]]; try discriminate.
  destruct (run_gc_if_necessary P _ hint) as [st1 [k|e]] eqn:G; [|discriminate].
  intros H; injection H as <-. apply run_gc_pol in G. exact G.
Qed.

(* the states produced by open under two policies are related: the theorems above apply to them *)
Theorem open_ok_seqw fs plan pol1 pol2 hint st1 st2 :
  L_GC P = false ->
  open P fs plan pol1 hint = OpenOk st1 -> open P fs plan pol2 hint = OpenOk st2 -> seqw st1 st2.
Proof.
  intros HGC H1 H2. rewrite (open_policy_eq fs plan pol1 pol2 hint), H1 in H2.
  cbn [open_with_pol] in H2. injection H2 as <-.
  assert (F : wf (s_wr st1)).
  { revert H1. unfold open, open_with.
    destruct (rd_open P (ctx_init fs plan)) as [c [rd|e]]; [|discriminate].
    destruct (replay_loop P _ _ (rr_open rreaderS rd) []) as [rr [qs| |e|]]; try discriminate.
    set (st0 := mkSt (rd_into_writer P (fr_rd (rr_fr rr)) (fr_cursor (rr_fr rr))) qs pol1).
    assert (R0 : srel st0 st0).
    { split; [|reflexivity]. apply wrel_refl. apply wf_nil. reflexivity. }
    pose proof (run_gc_rel P HGC st0 st0 hint R0) as [_ [(_ & F & _) _]].
    destruct (run_gc_if_necessary P st0 hint) as [st' [k|e]]; [|discriminate].
    intros H; injection H as <-. exact F. }
  split; [split; [apply weq_refl|reflexivity]|split; exact F].
Qed.

(* after the same calls under any two policies / tick sequences and a clean drop,
   reopening (under any policies again) gives the same result *)
Theorem restart_policy_independent : forall h1 h2 s1 s2 plan pol1 pol2 hint,
  L_GC P = false -> map fst h1 = map fst h2 -> seqw s1 s2 ->
  snd (run P s1 h1) = snd (run P s2 h2) /\
  open_rel (open P (c_fs (drop_log (fst (run P s1 h1)))) plan pol1 hint)
           (open P (c_fs (drop_log (fst (run P s2 h2)))) plan pol2 hint).
Proof.
  intros h1 h2 s1 s2 plan pol1 pol2 hint HGC Hm H.
  pose proof (run_policy_independent P h1 h2 s1 s2 HGC Hm H) as Hr.
  destruct (run P s1 h1) as [s1' o1]. destruct (run P s2 h2) as [s2' o2]. cbn [fst snd].
  destruct Hr as [-> [Hs _]]. split; [reflexivity|].
  rewrite (drop_policy_independent s1' s2' Hs). apply open_policy_independent.
Qed.
End Open.

Print Assumptions step_policy_independent.
Print Assumptions step_policy_independent'.
Print Assumptions run_policy_independent.
Print Assumptions drop_policy_independent.
Print Assumptions open_policy_eq.
Print Assumptions open_policy_independent.
Print Assumptions open_ok_seqw.
Print Assumptions restart_policy_independent.
