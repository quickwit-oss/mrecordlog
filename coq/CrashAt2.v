(* CrashAt2.v — crash recovery PER CRASH POINT, crash points at or after the
   roll-over of the interrupted call included.  The only premise on the crash point (cut, k),
   pe := crash_events evs cut k, img := the crash image, is
     crash_point_ok2 st pe :  for the top WAL file hi of img,
        w_file st * FILE_BYTES + w_off st + lenN (ev_data pe) + BS <= (hi + 1) * FILE_BYTES
   (the torn data leave a whole block before the end of the top file of the image).
   Excluded: the cut ends in the last block of a file, and the cut ends exactly at the end of a
   file whose successor has not been created yet.
   jstate_crash_at2, jstate_crash_self_at2, crash_histories_at2; crash_point_ok_2 shows that the
   premise of CrashAt.v is a special case. *)
From Coq Require Import Lia ZArith ZifyN ZifyNat ZifyBool List Sorted.
From MRL Require Import Bytes BytesProofs Params Names NamesProofs Frame Record Mem Spec Rolling Log
  Driver Hist NoopProofs SpecRefine RecordProofs StreamProofs PolicyProofs GcProofs GhostLog ReplaySpec
  HandleProofs FileStream ResyncProofs QueueIso RestartInv RestartWrite RestartGc RestartStep
  OpenReplay RestartFinal TornProofs TornFile CrashTrace CrashAtomic
  JInv JGc JStep JunkStream JReopen JRecoverL JRecoverP JRecoverL2
  JCrashShape JRecover2 JRecoverPk JRecover3 JRecoverGc JRecoverSelf
  CrashRecovered CrashRecovered2 CrashRecovered3 CrashHistories JRecover4 CrashAt JRecover5.

Section At2.
Variable P : params.
Hypothesis HBS_lo : 7 < BS P.
Hypothesis HBS_hi : BS P <= 65542.
Hypothesis HNB : 1 <= NB P.
Hypothesis Hcrc : forall t p, crcf P t p < 2 ^ 32.
Hypothesis HGC : L_GC P = false.
Hypothesis HIO : L_IO P = false.
Hypothesis HSHORT : L_SHORT P = false.
Hypothesis Hnc : no_zero_collision P.

Local Notation B := (BS P).
Local Notation FB := (FILE_BYTES P).
Local Notation ser := (map entry_ser).

Local Notation crash_call_ok0 := (crash_call_ok0 P).

(* the premise on the crash point *)
Definition crash_point_ok2 (st : state) (pe : list event) : Prop :=
  forall hi, is_top (fold_left apply_event pe (c_fs (w_ctx (s_wr st)))) hi -> w_file (s_wr st) <= hi ->
    w_file (s_wr st) * FB + w_off (s_wr st) + lenN (ev_data pe) + B <= (hi + 1) * FB.

(* a sufficient condition that is checkable by computation: SOME file n of the image leaves the room *)
Lemma crash_point_ok2_of_file st pe n :
  n <= U64_MAX ->
  fs_get (fold_left apply_event pe (c_fs (w_ctx (s_wr st)))) (filename n) <> None ->
  w_file (s_wr st) * FB + w_off (s_wr st) + lenN (ev_data pe) + B <= (n + 1) * FB ->
  crash_point_ok2 st pe.
Proof.
  clear HBS_lo HBS_hi HNB Hcrc HGC HIO HSHORT Hnc.
  intros Hn Hex Hfit hi (Hmax & _ & Htop) _.
  destruct (N.lt_ge_cases hi n) as [Hlt|Hge]; [exfalso; apply Hex; exact (Htop n Hlt Hn)|].
  assert ((n + 1) * FB <= (hi + 1) * FB) by (apply N.mul_le_mono_r; lia). lia.
Qed.

(* the premise of CrashAt.v is a special case *)
Lemma crash_point_ok_2 st pe :
  jstate P st -> w_pending (s_wr st) = [] -> crash_point_ok P st pe -> crash_point_ok2 st pe.
Proof using HBS_lo HBS_hi HNB Hcrc.
  intros Hj Hp0 (Hnc1 & Hfit) hi Ht Hle.
  rewrite (no_create_top P HBS_lo HBS_hi HNB Hcrc st pe hi Hj Hp0 Hnc1 Ht Hle), N.mul_add_distr_r. lia.
Qed.

Lemma crash_point_ok2_fits st evs pe : crash_point_ok2 st pe -> crash_point_fits P st evs pe.
Proof. intros H. right. intros hi Ht Hle. left. exact (H hi Ht Hle). Qed.

Theorem jstate_crash_at2 st a o tick st' out :
  jstate P st -> crash_call_ok0 st a o tick st' out ->
  (forall e, out <> OutIo e) /\
  exists evs, c_ev (w_ctx (s_wr st')) = rev evs ++ c_ev (w_ctx (s_wr st)) /\
    forall cut k pol hint, crash_point_ok2 st (crash_events evs cut k) ->
      let img := fold_left apply_event (crash_events evs cut k) (c_fs (w_ctx (s_wr st))) in
      exists st_r, open P img None pol hint = OpenOk st_r /\ jstate P st_r /\
        s_pol st_r = pol /\ w_pending (s_wr st_r) = [] /\
        ((forall q, s_get (abs_qs (s_qs st_r)) q = s_get (abs_qs (s_qs st)) q) \/
         (forall q, s_get (abs_qs (s_qs st_r)) q = s_get (abs_qs (s_qs st')) q)).
Proof.
  intros Hj Hcc.
  destruct (jstate_crash_fits P HBS_lo HBS_hi HNB Hcrc HGC HIO HSHORT Hnc st a o tick st' out Hj Hcc)
    as (Hno & evs & Hev & Hall).
  split; [exact Hno|]. exists evs. split; [exact Hev|]. intros cut k pol hint Hpt.
  exact (Hall cut k pol hint (crash_point_ok2_fits st evs _ Hpt)).
Qed.

(* a crash during the recovery of such an image *)
Theorem jstate_crash_self_at2 st a o tick st' out :
  jstate P st -> crash_call_ok0 st a o tick st' out ->
  exists evs, c_ev (w_ctx (s_wr st')) = rev evs ++ c_ev (w_ctx (s_wr st)) /\
    forall cut k pol hint st_r, crash_point_ok2 st (crash_events evs cut k) ->
      let img := fold_left apply_event (crash_events evs cut k) (c_fs (w_ctx (s_wr st))) in
      open P img None pol hint = OpenOk st_r ->
      is_top img (w_file (s_wr st_r)) -> w_off (s_wr st_r) + B <= FB -> rec_bound P st_r ->
      forall cut2 k2 pol3 hint3,
        exists st_r2,
          open P (fold_left apply_event (crash_events (rev (c_ev (w_ctx (s_wr st_r)))) cut2 k2) img)
               None pol3 hint3 = OpenOk st_r2 /\
          (forall q, s_get (abs_qs (s_qs st_r2)) q = s_get (abs_qs (s_qs st_r)) q) /\
          jstate P st_r2 /\ s_pol st_r2 = pol3 /\ w_pending (s_wr st_r2) = [].
Proof.
  intros Hj Hcc.
  destruct (jstate_crash_self_fits P HBS_lo HBS_hi HNB Hcrc HGC HIO HSHORT Hnc st a o tick st' out Hj Hcc)
    as (evs & Hev & Hall).
  exists evs. split; [exact Hev|]. intros cut k pol hint st_r Hpt img Hopen Htopr.
  apply (Hall cut k pol hint st_r (crash_point_ok2_fits st evs _ Hpt) Hopen).
  intros hi Ht _. exact (is_top_unique _ _ _ Htopr Ht).
Qed.

Fixpoint chist_ok_at2 (st : state) (h : list (chop)) : Prop :=
  match h with
  | [] => True
  | CCall o tick :: r =>
      op_wf_strict (s_qs st) o /\
      phys_bound P (s_wr st) (map snd (step_log P st o)) /\
      chist_ok_at2 (fst (step P st o tick)) r
  | CRestart pol hint :: r =>
      restart_bound P st /\
      match restart P st pol hint with OpenOk st' => chist_ok_at2 st' r | _ => True end
  | CCrash o tick cut k pol hint :: r =>
      (exists a, crash_call_ok0 st a o tick (fst (step P st o tick)) (snd (step P st o tick))) /\
      crash_point_ok2 st (crash_events (new_evs st (fst (step P st o tick))) cut k) /\
      match open P (crash_img P st o tick cut k) None pol hint with
      | OpenOk st' => chist_ok_at2 st' r
      | _ => True
      end
  end.

Theorem crash_histories_at2 h : forall st,
  jstate P st -> chist_ok_at2 st h ->
  exists st' m',
    crun P st h = Some st' /\ jstate P st' /\
    chist_spec (abs_qs (s_qs st)) h m' /\
    forall q, s_get m' q = s_get (abs_qs (s_qs st')) q.
Proof.
  apply (crash_histories_gen P HBS_lo HBS_hi HNB Hcrc HGC HIO HSHORT chist_ok_at2);
    [intros st o tick r H; exact H|intros st pol hint r H; exact H|].
  intros st o tick cut k pol hint r Hj ((a & Hcc) & Hpt & Hok).
  destruct (crash_step P st o tick cut k pol hint Hj) as (st_r & Ho & Hjr & Habs).
  { intros s1 out Es. rewrite Es in Hcc, Hpt. cbn [fst snd] in Hcc, Hpt.
    destruct (jstate_crash_at2 st a o tick s1 out Hj Hcc) as (Hno & evs & Hev & Hall).
    split; [exact Hno|]. exists evs. split; [exact Hev|].
    rewrite (new_evs_spec st s1 evs Hev) in Hpt.
    destruct (Hall cut k pol hint Hpt) as (st_r & Ho & Hjr & _ & _ & Habs). exists st_r. auto. }
  rewrite Ho in Hok. exists st_r. auto.
Qed.

End At2.

Print Assumptions jstate_crash_at2.
Print Assumptions jstate_crash_self_at2.
Print Assumptions crash_histories_at2.
