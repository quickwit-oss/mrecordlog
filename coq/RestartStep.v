(* RestartStep.v — the restart invariant Inv is the junk-tolerant invariant InvJ with the empty
   prefix (JInv.Inv_InvJ): what JInv.v, JGc.v and JStep.v prove of InvJ, read for Inv.  Every
   API call preserves Inv, reports no I/O error under the stream bound, and extends the ghost
   log by exactly the entries it logged (GhostLog.step_log); whole histories. *)
From Coq Require Import Lia ZArith ZifyN ZifyNat ZifyBool List Sorted.
From MRL Require Import Bytes BytesProofs Params Names NamesProofs Frame Record Mem Spec Rolling Log
  Driver NoopProofs SpecRefine RecordProofs StreamProofs PolicyProofs GcProofs GhostLog ReplaySpec
  HandleProofs FileStream ResyncProofs RestartInv RestartWrite RestartGc JInv JGc JStep.

Lemma app_cons_assoc {A} (l : list A) x r : l ++ x :: r = (l ++ [x]) ++ r.
Proof. now rewrite <- app_assoc. Qed.

Section RestartStep.
Variable P : params.
Hypothesis HBS_lo : 7 < BS P.
Hypothesis HBS_hi : BS P <= 65542.
Hypothesis HNB : 1 <= NB P.
Hypothesis Hcrc : forall t p, crcf P t p < 2 ^ 32.
Hypothesis HGC : L_GC P = false.

Local Notation FB := (FILE_BYTES P).
Local Notation Inv := (Inv P).
Local Notation stream_bound := (stream_bound P).
Local Notation HW f := (f P HBS_lo HBS_hi HNB Hcrc) (only parsing).
Local Notation HG f := (f P HBS_lo HBS_hi HNB Hcrc HGC) (only parsing).
(* a lemma about InvJ, at the empty prefix; stream_boundJ P [] [] is stream_bound P by
   computation *)
Local Notation J0 f := (f [] [] [] pre_ok_nil) (only parsing).

Lemma Inv_J st G : Inv st G -> InvJ P [] [] [] st G.
Proof using HBS_lo HBS_hi Hcrc. apply Inv_InvJ; assumption. Qed.

Lemma J_Inv st G : InvJ P [] [] [] st G -> Inv st G.
Proof using HBS_lo HBS_hi Hcrc. apply Inv_InvJ; assumption. Qed.

Lemma inv_persist st a G : Inv st G -> Inv (persist st a) G.
Proof using HBS_lo HBS_hi Hcrc.
  intros HI. exact (J_Inv _ _ (invJ_persist P [] [] [] st a G (Inv_J _ _ HI))).
Qed.

(* one write followed by the in-memory update, with the bound carried to the rest of the log *)
Lemma inv_write_then st G e rest st1 r1 qs' :
  Inv st G -> wf_entry e -> stream_bound G (e :: rest) ->
  (forall F, t_replay [] 0 (gh_ALL G) = Some F -> legal F e) ->
  write_entry P st e = (st1, r1) ->
  apply_entry (s_qs st) (w_file (s_wr st)) e = Some qs' -> qs_wf qs' ->
  (exists n, r1 = Ok n) /\ s_qs st1 = s_qs st /\ s_pol st1 = s_pol st /\
  Inv (set_qs st1 qs') (gh_snoc G (w_file (s_wr st)) e) /\
  stream_bound (gh_snoc G (w_file (s_wr st)) e) rest.
Proof using HBS_lo HBS_hi HNB Hcrc.
  intros HI Hwf Hb Hleg Ew Hap Hwf'.
  destruct (J0 (HW invJ_write_then) st G e rest st1 r1 qs' (Inv_J _ _ HI) Hwf Hb Hleg Ew Hap Hwf')
    as (Hr & Eqs & Epol & HI' & Hb').
  repeat (split; [assumption|]). split; [exact (J_Inv _ _ HI')|exact Hb'].
Qed.

Lemma inv_record_positions names : forall st G acc st' r,
  Inv st G -> names_empty (s_qs st) names ->
  stream_bound G (map snd (rp_log P st names)) ->
  record_positions P st names acc = (st', r) ->
  (exists n, r = Ok n) /\ s_qs st' = s_qs st /\ s_pol st' = s_pol st /\
  wlo (s_wr st') = wlo (s_wr st) /\ w_file (s_wr st) <= w_file (s_wr st') /\
  Inv st' (gh_app G (rp_log P st names)) /\
  (forall n q, In n names -> qs_get (s_qs st) n = Some q ->
     exists f, In (f, EPosition n (next_position q)) (rp_log P st names) /\ w_file (s_wr st) <= f).
Proof using HBS_lo HBS_hi HNB Hcrc.
  intros st G acc st' r HI Hne Hb Hrp.
  destruct (J0 (HW invJ_record_positions) names st G acc st' r (Inv_J _ _ HI) Hne Hb Hrp)
    as (Hr & Eqs & Epol & Elo & Hm & HI' & Hcov).
  repeat (split; [assumption|]). split; [exact (J_Inv _ _ HI')|exact Hcov].
Qed.

Lemma inv_gc_drop st G refd c files' g :
  Inv st G -> w_pending (s_wr st) = [] ->
  gc_loop (w_ctx (s_wr st)) (w_files (s_wr st)) refd = (c, files', Ok tt) ->
  (forall x, refd x = false -> qs_ref x (s_qs st) = false) ->
  refd g = true -> wlo (s_wr st) <= g ->
  (forall q m, qs_get (s_qs st) q = Some m -> mq_is_empty m = true ->
     exists j f e, nth_error (gh_E G) j = Some (f, e) /\ creates e q = true /\ g <= f) ->
  exists m,
    Inv (set_wr st (mkWr c files' (w_file (s_wr st)) (w_off (s_wr st)) (w_pending (s_wr st))))
        (gh_move G m).
Proof using HBS_lo HBS_hi HNB Hcrc.
  intros HI Hpend Hgc Hrefq Hg Hglo Hempty.
  destruct (J0 (HW invJ_gc_drop) st G refd c files' g (Inv_J _ _ HI) Hpend Hgc Hrefq Hg Hglo Hempty)
    as (m & HI').
  exists m. exact (J_Inv _ _ HI').
Qed.

Theorem inv_gc_total st G hint st' r :
  Inv st G -> stream_bound G (map snd (gc_log P st hint)) ->
  run_gc_if_necessary P st hint = (st', r) ->
  exists n G', r = Ok n /\ Inv st' G' /\ s_qs st' = s_qs st /\ s_pol st' = s_pol st /\
    gh_base G' = gh_base G /\ gh_dropped G' = gh_dropped G /\
    gh_log G' = gh_log G ++ gc_log P st hint.
Proof using HBS_lo HBS_hi HNB Hcrc HGC.
  intros HI Hb Hgc.
  destruct (J0 (HG invJ_gc_total) st G hint st' r (Inv_J _ _ HI) Hb Hgc) as (n & G' & E & HI' & H).
  exists n, G'. split; [exact E|]. split; [exact (J_Inv _ _ HI')|exact H].
Qed.

Theorem inv_step_total st G o tick st' out :
  Inv st G -> op_wf_strict (s_qs st) o ->
  stream_bound G (map snd (step_log P st o)) ->
  step P st o tick = (st', out) ->
  no_io out /\
  exists G', Inv st' G' /\ gh_base G' = gh_base G /\ gh_dropped G' = gh_dropped G /\
             gh_log G' = gh_log G ++ step_log P st o.
Proof using HBS_lo HBS_hi HNB Hcrc HGC.
  intros HI Hop Hb Hstep.
  destruct (J0 (HG invJ_step_total) st G o tick st' out (Inv_J _ _ HI) Hop Hb Hstep)
    as (Hno & G' & HI' & H).
  split; [exact Hno|]. exists G'. split; [exact (J_Inv _ _ HI')|exact H].
Qed.

Theorem inv_step st G o tick st' out :
  Inv st G -> op_wf_strict (s_qs st) o ->
  stream_bound G (map snd (step_log P st o)) ->
  step P st o tick = (st', out) -> (forall e, out <> OutIo e) ->
  exists G', Inv st' G' /\ gh_base G' = gh_base G /\ gh_dropped G' = gh_dropped G /\
             gh_log G' = gh_log G ++ step_log P st o.
Proof using HBS_lo HBS_hi HNB Hcrc HGC.
  intros HI Hop Hb Hstep _. exact (proj2 (inv_step_total st G o tick st' out HI Hop Hb Hstep)).
Qed.

Theorem inv_run h : forall st G st' outs,
  Inv st G -> hist_wf P st h ->
  stream_bound G (map snd (run_log P st h)) ->
  run P st h = (st', outs) -> Forall no_io outs ->
  exists G', Inv st' G' /\ gh_base G' = gh_base G /\ gh_dropped G' = gh_dropped G /\
             gh_log G' = gh_log G ++ run_log P st h.
Proof.
  induction h as [|[o tick] h IH]; intros st G st' outs HI Hwf Hb Hrun Hno.
  - cbn [run] in Hrun. inversion Hrun; subst. exists G. cbn [run_log]. rewrite app_nil_r. auto.
  - cbn [run run_log hist_wf] in *. destruct Hwf as (Hop & Hwf).
    destruct (step P st o tick) as [st1 out] eqn:Es. cbn [fst] in *.
    destruct (run P st1 h) as [st2 outs2] eqn:Er. inversion Hrun; subst st' outs. clear Hrun.
    inversion Hno as [|? ? Hno1 Hno2]; subst.
    rewrite map_app in Hb.
    assert (Hb1 : stream_bound G (map snd (step_log P st o))).
    { eapply stream_bound_prefix; eassumption. }
    destruct (inv_step st G o tick st1 out HI Hop Hb1 Es Hno1) as (G1 & HI1 & Eb1 & Ed1 & El1).
    assert (Hb2 : stream_bound G1 (map snd (run_log P st1 h))).
    { unfold RestartWrite.stream_bound in *. rewrite Eb1.
      unfold gh_ALL in *. rewrite Ed1, El1.
      replace ((gh_dropped G ++ map snd (gh_log G ++ step_log P st o)) ++ map snd (run_log P st1 h))
        with ((gh_dropped G ++ map snd (gh_log G)) ++
              map snd (step_log P st o) ++ map snd (run_log P st1 h)); [exact Hb|].
      rewrite map_app, !app_assoc. reflexivity. }
    destruct (IH st1 G1 st2 outs2 HI1 Hwf Hb2 Er Hno2) as (G2 & HI2 & Eb2 & Ed2 & El2).
    exists G2. split; [exact HI2|]. split; [congruence|]. split; [congruence|].
    rewrite El2, El1. now rewrite <- app_assoc.
Qed.

End RestartStep.

Print Assumptions inv_record_positions.
Print Assumptions inv_gc_drop.
Print Assumptions inv_step.
Print Assumptions inv_run.
