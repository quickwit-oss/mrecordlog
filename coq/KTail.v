(* KTail.v — if the missing bytes of a torn encoding are all zero, at most
   BS - 7 bytes (the tail of the payload of its last frame) are missing. *)
From Coq Require Import Lia ZArith ZifyN ZifyNat ZifyBool List.
From MRL Require Import Bytes BytesProofs Params Frame Driver StreamProofs DamageProofs TornProofs ResyncProofs.

Section Tail.
Variable P : params.
Hypothesis HBS_lo : 7 < BS P.
Hypothesis HBS_hi : BS P <= 65542.
Hypothesis Hcrc : forall t p, crcf P t p < 2 ^ 32.
Local Notation B := (BS P).
Local Notation H3 f := (f P HBS_lo HBS_hi Hcrc) (only parsing).

(* every suffix of a frame that contains the type byte is not all zero *)
Lemma frame_suffix_nonzero t fp (rest : bytes) i :
  i < 7 -> all_zero (dropN i (frame_bytes P t fp ++ rest)) = false.
Proof.
  intros Hi. unfold frame_bytes, header_bytes.
  set (h6 := le_enc 4 (crcf P (n2b (ft_code t)) fp) ++ le_enc 2 (lenN fp)).
  assert (Hl : lenN h6 = 6) by (unfold h6; rewrite lenN_app, !length_le_enc; reflexivity).
  replace (((le_enc 4 (crcf P (n2b (ft_code t)) fp) ++ le_enc 2 (lenN fp) ++ [n2b (ft_code t)]) ++ fp) ++ rest)
    with (h6 ++ (n2b (ft_code t) :: fp ++ rest))
    by (unfold h6; rewrite <- !app_assoc; reflexivity).
  rewrite dropN_app_le by lia. rewrite all_zero_app.
  replace (all_zero (n2b (ft_code t) :: fp ++ rest)) with false; [apply andb_false_r|].
  destruct t; reflexivity.
Qed.

(* so is every suffix of pad ++ frame ++ rest that contains the type byte of the frame *)
Lemma frame_cut_nonzero (pad : bytes) t fp rest j :
  j < lenN pad + 7 -> all_zero (dropN j (pad ++ frame_bytes P t fp ++ rest)) = false.
Proof.
  intros Hj. destruct (N.le_gt_cases (lenN pad) j) as [Hle|Hgt].
  - rewrite dropN_app_ge by exact Hle. apply frame_suffix_nonzero. lia.
  - rewrite dropN_app_le by lia. rewrite all_zero_app.
    pose proof (frame_suffix_nonzero t fp rest 0 ltac:(lia)) as Hn. rewrite dropN_0 in Hn.
    rewrite Hn. apply andb_false_r.
Qed.

Lemma enc_rel_nonzero a f p e k : enc_rel P a f p e k -> all_zero e = false.
Proof.
  intros H. rewrite <- (dropN_0 e).
  destruct H as [a f p Hd | a f p e k Hd Hr]; [rewrite <- (app_nil_r (frame_bytes P _ _))|];
    apply frame_cut_nonzero; lia.
Qed.

Theorem zero_tail_short a f p e k :
  enc_rel P a f p e k -> forall j, j <= lenN e -> all_zero (dropN j e) = true -> lenN e <= j + (B - 7).
Proof.
  induction 1 as [a f p Hd | a f p e k Hd Hr IH]; intros j Hj Hz.
  - set (fp := takeN (chunk_of P a p) p) in *.
    set (pad := pad_of P a) in *.
    assert (Hlfp : lenN fp <= B - 7).
    { unfold fp.
      pose proof (H3 StreamProofs.chunk_le_maxw a p) as Hc. unfold max_writable in Hc.
      destruct (N.leb_spec HEADER_LEN (B - a mod B)); unfold HEADER_LEN in *; lia. }
    rewrite lenN_app, (StreamProofs.lenN_frame_bytes P) in *.
    destruct (N.lt_ge_cases j (lenN pad + 7)) as [Hlt|Hge]; [exfalso|lia].
    rewrite <- (app_nil_r (frame_bytes P _ fp)), (frame_cut_nonzero pad _ fp [] j Hlt) in Hz. discriminate.
  - set (fp := takeN (chunk_of P a p) p) in *.
    set (pad := pad_of P a) in *.
    set (fb := frame_bytes P (frame_type f false) fp) in *.
    rewrite app_assoc in *. rewrite lenN_app in *.
    set (l1 := lenN (pad ++ fb)) in *.
    destruct (N.lt_ge_cases j l1) as [Hlt|Hge].
    + exfalso. rewrite dropN_app_le in Hz by lia. rewrite all_zero_app in Hz.
      apply andb_prop in Hz as [_ Hz2]. rewrite (enc_rel_nonzero _ _ _ _ _ Hr) in Hz2. discriminate.
    + rewrite dropN_app_ge in Hz by exact Hge. fold l1 in Hz.
      specialize (IH (j - l1) ltac:(lia) Hz). lia.
Qed.

End Tail.

Print Assumptions zero_tail_short.
