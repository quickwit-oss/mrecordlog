(* KGap.v — a run of complete frames of an unfinished record that ends
   exactly at a block boundary (pjunk_at) can be appended to a prefix with pre_cont; it needs NO
   room after it (rm = 0), adds no corruption, keeps the admissible boundaries. *)
From Coq Require Import Lia ZArith ZifyN ZifyNat ZifyBool List Sorted.
From MRL Require Import Bytes BytesProofs Params Frame Driver StreamProofs DamageProofs TornProofs
  ResyncProofs OpenTerm OpenReplay TornFile JunkStream KAlign.

Section KGap.
Variable P : params.
Hypothesis HBS_lo : 7 < BS P.
Hypothesis HBS_hi : BS P <= 65542.
Hypothesis Hcrc : forall t p, crcf P t p < 2 ^ 32.

Local Notation B := (BS P).
Local Notation encrel := (enc_rel P).
Local Notation rdat := (rd_at P).
Local Notation atpos := (at_pos P).
Local Notation sok := (stream_ok P).
Local Notation ffp := (first_frame_pos P).
Local Notation H3 f := (f P HBS_lo HBS_hi Hcrc) (only parsing).

Definition pjunk_at (a r : N) (W : bytes) : Prop :=
  a + 7 <= r /\ lenN W = r - a /\
  forall S pre post,
    sok S -> S = pre ++ W ++ post -> lenN pre = a -> r <= lenN S ->
    (forall fr rbuf within, atpos S fr a ->
       exists w1, q_walk P S (r - a) r (mkRR fr rbuf within) w1) /\
    (forall kb rbuf, ffp a < kb * B -> kb * B < r ->
       exists w1, q_walk P S (r - kb * B) r (mkRR (rdat S kb 0) rbuf false) w1).

Theorem pjunk_of_aligned a x e k j m :
  encrel a true x e k -> j < lenN e -> a + j = m * B -> ffp a < m * B ->
  pjunk_at a (m * B) (takeN j e).
Proof.
  intros He Hj Haj Hffp.
  destruct (H3 aligned_walk a true x e k He j m Hj Haj Hffp) as (H7 & Hw).
  split; [exact H7|]. split; [rewrite lenN_takeN; lia|].
  intros S pre post Hok HS Hpre Hlen.
  destruct (Hw S pre post Hok HS Hpre Hlen) as (HA & _ & HD).
  replace (m * B - a) with j by lia.
  split.
  - intros fr rbuf within Hat. exists true. exact (HA fr rbuf within Hat (or_introl eq_refl)).
  - intros kb rbuf H1 H2'. exists false. exact (HD kb rbuf H1 H2').
Qed.

(* a reader that has arrived at a walks over complete frames from there *)
Lemma arrive_q_walk S gofuel a r rr rr1 g w1 :
  arrive P S gofuel a rr rr1 g -> a <= r -> r + 14 <= 7 * N.of_nat gofuel ->
  q_walk P S (r - a) r rr1 w1 -> walk_to P S gofuel r 0 rr.
Proof.
  intros Harr Har Hgf (n & rr2 & Hn & Hat2 & _ & Hgo2).
  apply (H3 arrive_silent S gofuel a r rr rr1 g n rr2 0%nat Harr Har Hgf Hn Hat2). intros f. apply Hgo2.
Qed.

Theorem pre_cont_pjunk PRE ops opos adm cmax rm r W :
  pre_cont P PRE ops opos adm cmax rm -> pjunk_at (lenN PRE) r W -> rm <= 7 ->
  pre_cont P (PRE ++ W) ops opos adm cmax 0.
Proof.
  intros Hpc (Har & HlW & Hwalk) Hrm.
  apply (H3 pre_cont_walk PRE ops opos adm cmax rm r W 0%nat 0 Hpc ltac:(lia) HlW ltac:(lia)).
  intros S post gofuel Hok HS Hroom Hgf.
  destruct (Hwalk S PRE post Hok HS eq_refl ltac:(lia)) as (HwA & HwD). split.
  - intros rr [fr1 rbuf1 within1] g Harr. pose proof Harr as (_ & Hat & _).
    destruct (HwA fr1 rbuf1 within1 Hat) as (w1 & Hq).
    exact (arrive_q_walk S gofuel (lenN PRE) r rr _ g w1 Harr ltac:(lia) Hgf Hq).
  - intros kb buf0 _ Hblk H1 H2'. destruct (HwD kb buf0 H1 H2') as (w1 & Hq).
    exact (arrive_q_walk S gofuel (kb * B) r _ _ gofuel w1 (H3 arrive_boundary S kb buf0 gofuel Hblk)
             ltac:(lia) Hgf Hq).
Qed.

End KGap.

Print Assumptions pjunk_of_aligned.
Print Assumptions pre_cont_pjunk.
