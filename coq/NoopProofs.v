(* NoopProofs.v — property C13: rejected and no-op calls leave no trace. *)
From Coq Require Import Lia ZArith ZifyN ZifyNat ZifyBool.
From MRL Require Import Bytes BytesProofs Params Names Frame Record Mem Rolling Log Driver.
From MRL Require Export Hist.

Section WithParams.
Variable P : params.

(* the seven shapes of a rejected or acknowledged-no-op call, with the outcome the API reports *)
Inductive noop_call (st : state) : op -> outcome -> Prop :=
| NoopCreateExisting q :
    qs_contains (s_qs st) q = true -> noop_call st (OCreate q) OutAlreadyExists
| NoopDeleteMissing q hint :
    qs_get (s_qs st) q = None -> noop_call st (ODelete q hint) OutMissing
| NoopAppendMissing q pos payloads :
    qs_get (s_qs st) q = None -> noop_call st (OAppend q pos payloads) OutMissing
| NoopTruncateMissing q p hint :
    qs_get (s_qs st) q = None -> noop_call st (OTruncate q p hint) OutMissing
| NoopRetry q m p payloads :
    qs_get (s_qs st) q = Some m -> p + 1 = next_position m ->
    noop_call st (OAppend q (Some p) payloads) (OutAppend None 0)
| NoopPast q m p payloads :
    qs_get (s_qs st) q = Some m -> p + 1 < next_position m ->
    noop_call st (OAppend q (Some p) payloads) OutPast
| NoopEmptyBatch q m pos :
    qs_get (s_qs st) q = Some m ->
    (match pos with Some p => next_position m <= p | None => True end) ->
    noop_call st (OAppend q pos []) (OutAppend None 0).

(* the call returns the very same state: file contents, buffered bytes, trace, cursor, queues *)
Theorem noop_same_state : forall st o out tick,
  noop_call st o out -> step P st o tick = (st, out).
Proof.
  intros st o out tick H. destruct H as
    [q Hq | q hint Hq | q pos payloads Hq | q p hint Hq | q m p payloads Hq Hp
     | q m p payloads Hq Hp | q m pos Hq Hp]; cbn [step].
  - unfold create_queue. now rewrite Hq.
  - unfold delete_queue. now rewrite Hq.
  - unfold append_records. now rewrite Hq.
  - unfold truncate. now rewrite Hq.
  - unfold append_records. rewrite Hq.
    destruct (N.eqb_spec (p + 1) (next_position m)) as [_|Hne]; [reflexivity|contradiction].
  - unfold append_records. rewrite Hq.
    destruct (N.eqb_spec (p + 1) (next_position m)) as [He|_]; [lia|].
    destruct (N.ltb_spec p (next_position m)) as [_|Hge]; [reflexivity|lia].
  - unfold append_records. rewrite Hq. destruct pos as [p|]; [|reflexivity].
    destruct (N.eqb_spec (p + 1) (next_position m)) as [He|_]; [lia|].
    destruct (N.ltb_spec p (next_position m)) as [Hlt|_]; [lia|reflexivity].
Qed.

Theorem noop_zero_bytes : forall st o out,
  noop_call st o out -> outcome_bytes out = Some 0 \/ outcome_bytes out = None.
Proof. intros st o out H; destruct H; cbn; auto. Qed.

Lemma append_record_next m f p x :
  next_position m <= p ->
  exists m', append_record m f p x = Some m' /\ next_position m' = p + 1.
Proof.
  intros H. unfold append_record. destruct (N.ltb_spec p (next_position m)) as [Hlt|_]; [lia|].
  eexists; split; [reflexivity|]. unfold next_position. cbn [q_metas]. now rewrite last_opt_app.
Qed.

Lemma append_all_some : forall r m f p,
  next_position m <= p -> exists m', append_all m f (number_from p r) = Some m'.
Proof.
  induction r as [|x r IH]; intros m f p H; cbn [number_from append_all].
  - eexists; reflexivity.
  - destruct (append_record_next m f p x H) as (m1 & -> & Hn). apply IH. lia.
Qed.

(* append_records either is one of the no-op shapes and returns the state as it was, or the queue
   exists, the position passes the guard, the batch is non-empty, the queue accepts it, and the
   call is write_entry followed by persist_on_policy and the update of the queue *)
Lemma append_records_cases st q pos payloads tick :
  (exists out, noop_call st (OAppend q pos payloads) out /\
               append_records P st q pos payloads tick = (st, out)) \/
  (exists m position m',
     qs_get (s_qs st) q = Some m /\
     position = match pos with Some p => p | None => next_position m end /\
     next_position m <= position /\ payloads <> [] /\
     append_all m (w_file (s_wr st)) (number_from position payloads) = Some m' /\
     append_records P st q pos payloads tick =
       match write_entry P st (EAppend q position (number_from position payloads)) with
       | (st1, Err e) => (st1, OutIo e)
       | (st1, Ok n) =>
           (set_qs (persist_on_policy st1 tick) (qs_put (s_qs (persist_on_policy st1 tick)) q m'),
            OutAppend (Some (last_pos_of position (number_from position payloads))) n)
       end).
Proof.
  unfold append_records. destruct (qs_get (s_qs st) q) as [m|] eqn:E.
  2:{ left. eexists. split; [now apply NoopAppendMissing|reflexivity]. }
  destruct pos as [p|].
  - destruct (N.eqb_spec (p + 1) (next_position m)) as [He|Hne].
    { left. eexists. split; [eapply NoopRetry; eauto|reflexivity]. }
    destruct (N.ltb_spec p (next_position m)) as [Hlt|Hge].
    { left. eexists. split; [eapply NoopPast; eauto; lia|reflexivity]. }
    destruct payloads as [|x r].
    { left. eexists. split; [eapply NoopEmptyBatch; eauto|reflexivity]. }
    right. destruct (append_all_some (x :: r) m (w_file (s_wr st)) p Hge) as [m' Em].
    exists m, p, m'. cbn [number_from] in *. rewrite Em.
    repeat split; (assumption || discriminate).
  - destruct payloads as [|x r].
    { left. eexists. split; [eapply NoopEmptyBatch; eauto|reflexivity]. }
    right.
    destruct (append_all_some (x :: r) m (w_file (s_wr st)) (next_position m) (N.le_refl _)) as [m' Em].
    exists m, (next_position m), m'. cbn [number_from] in *. rewrite Em.
    repeat split; (apply N.le_refl || discriminate).
Qed.

(* conversely: a call that the API rejects or acknowledges as a no-op is one of the shapes
   — so the seven shapes are all the rejected / no-op calls there are *)
Definition rejected_or_noop (o : outcome) : Prop :=
  match o with
  | OutAlreadyExists | OutMissing | OutPast | OutAppend None _ => True
  | _ => False
  end.

Theorem rejected_is_noop_call : forall st o tick,
  rejected_or_noop (snd (step P st o tick)) -> exists out, noop_call st o out.
Proof.
  intros st o tick H. destruct o as [q | q hint | q pos payloads | q p hint | fs]; cbn [step] in H.
  - unfold create_queue in H. destruct (qs_contains (s_qs st) q) eqn:E.
    + eexists; now apply NoopCreateExisting.
    + destruct (write_entry P st (EPosition q 0)) as [st1 [n|e]]; cbn in H; contradiction.
  - unfold delete_queue in H. destruct (qs_get (s_qs st) q) as [m|] eqn:E.
    + destruct (write_entry P st _) as [st1 [n|e]]; cbn in H; [|contradiction].
      destruct (run_gc_if_necessary P _ hint) as [st3 [k|e]]; cbn in H; contradiction.
    + eexists; now apply NoopDeleteMissing.
  - destruct (append_records_cases st q pos payloads tick)
      as [[out [Hn _]]|(m & position & m' & _ & _ & _ & _ & _ & Eq)]; [now exists out|].
    rewrite Eq in H. destruct (write_entry P st _) as [st1 [n|e]]; cbn in H; contradiction.
  - unfold truncate in H. destruct (qs_get (s_qs st) q) as [m|] eqn:E.
    + destruct (write_entry P st _) as [st1 [n|e]]; cbn in H; [|contradiction].
      destruct (truncate_head m p) as [m' ev].
      destruct (run_gc_if_necessary P _ hint) as [st3 [k|e]]; cbn in H; contradiction.
    + eexists; now apply NoopTruncateMissing.
  - cbn in H. contradiction.
Qed.

Theorem noop_erasable : forall st h1 o tick h2 out,
  noop_call (fst (run P st h1)) o out ->
  fst (run P st (h1 ++ (o, tick) :: h2)) = fst (run P st (h1 ++ h2)).
Proof.
  intros st h1 o tick h2 out H. rewrite !run_app.
  destruct (run P st h1) as [st1 o1]. cbn [fst] in H. cbn [run].
  rewrite (noop_same_state _ _ _ tick H).
  destruct (run P st1 h2) as [st2 o2]. reflexivity.
Qed.

(* the world of the drivers: nothing is added to the trace, the directory is unchanged *)
Definition drained (st : state) : Prop :=
  c_ev (w_ctx (s_wr st)) = [] /\ c_plan (w_ctx (s_wr st)) = None.

Lemma drain_drained st : drained st -> drain_state st = (st, []).
Proof.
  intros [He Hp]. unfold drain_state, drain_ctx. destruct st as [w qs pol]. cbn in *.
  destruct w as [c files f off pend]. cbn in *. destruct c as [fs ev plan a b d]. cbn in *.
  subst. reflexivity.
Qed.

Theorem noop_world_unchanged : forall w st o out,
  wd_log w = Some st -> drained st -> wd_fs w = c_fs (w_ctx (s_wr st)) ->
  noop_call st o out ->
  world_step P w (COp o) = (w, WOp out).
Proof.
  intros w st o out Hl Hd Hfs H. unfold world_step. rewrite Hl.
  rewrite (noop_same_state _ _ _ (wd_tick w) H). rewrite (drain_drained _ Hd).
  rewrite app_nil_r. destruct w; cbn in *. subst. reflexivity.
Qed.
End WithParams.
