(* QueueIso.v — queue isolation (C18) and position monotonicity (C04), first for the sequential
   specification (Spec.v), then transferred to the model of the log through SpecRefine.run_refines.
   Isolation: a call addressed to one queue never changes what another queue holds or returns;
   erasing from a history every call addressed to other queues leaves the content of a queue and
   the outcomes of its own calls unchanged.
   Positions: within one incarnation of a queue (no successful delete) the next position never
   decreases, newly assigned positions are fresh (>= the old next position), and the positions
   returned by successful appends are strictly increasing. *)
From Coq Require Import Lia ZArith ZifyN ZifyNat ZifyBool Sorted.
From MRL Require Import Bytes BytesProofs Params Names Frame Record Mem Spec Rolling Log Hist
                        NoopProofs WriterProofs SpecRefine.

Lemma s_get_put_same m q v : s_get (s_put m q v) q = Some v.
Proof. exact (assoc_get_put_same m q v). Qed.

Lemma s_get_put_other m q q' v : q' <> q -> s_get (s_put m q' v) q = s_get m q.
Proof. exact (assoc_get_put_other m q' v q). Qed.

Lemma s_get_remove_same m q : s_get (s_remove m q) q = None.
Proof. exact (assoc_get_remove_same m q). Qed.

Lemma s_get_remove_other m q q' : q' <> q -> s_get (s_remove m q') q = s_get m q.
Proof. exact (assoc_get_remove_other m q' q). Qed.

Definition sop_queue (o : sop) : option bytes :=
  match o with
  | SCreate q | SDelete q | SAppend q _ _ | STruncate q _ => Some q
  | SPersist => None
  end.

Definition addressed (q : bytes) (o : sop) : bool :=
  match sop_queue o with Some q' => bytes_eqb q' q | None => false end.

Lemma addressed_true q o : addressed q o = true <-> sop_queue o = Some q.
Proof.
  unfold addressed. destruct (sop_queue o) as [q'|]; split; intros H; try discriminate.
  - apply bytes_eqb_eq in H. now subst.
  - inversion H. apply bytes_eqb_refl.
Qed.

Lemma addressed_false q o : addressed q o = false <-> sop_queue o <> Some q.
Proof.
  split.
  - intros H E. apply addressed_true in E. congruence.
  - intros H. destruct (addressed q o) eqn:E; [|reflexivity]. apply addressed_true in E. contradiction.
Qed.

Lemma s_step_other m o q : sop_queue o <> Some q -> s_get (fst (s_step m o)) q = s_get m q.
Proof.
  intros Hne.
  destruct o as [q'|q'|q' pos pl|q' p|]; cbn [sop_queue] in Hne; cbn [s_step];
    try (assert (Hq : q' <> q) by congruence).
  - destruct (s_get m q'); cbn [fst]; [reflexivity|]. now apply s_get_put_other.
  - destruct (s_get m q'); cbn [fst]; [|reflexivity]. now apply s_get_remove_other.
  - destruct (s_get m q') as [[recs next]|]; [|reflexivity].
    destruct pos as [p|].
    + destruct (p + 1 =? next); [reflexivity|]. destruct (p <? next); [reflexivity|].
      destruct pl; cbn [fst]; [reflexivity|]. now apply s_get_put_other.
    + destruct pl; cbn [fst]; [reflexivity|]. now apply s_get_put_other.
  - destruct (s_get m q') as [[recs next]|]; cbn [fst]; [|reflexivity]. now apply s_get_put_other.
  - reflexivity.
Qed.

(* The step seen from one queue: what the call does to the content of the queue it addresses,
   as a function of that content alone. *)
Definition q_step (v : option squeue) (o : sop) : option squeue * sout :=
  match o with
  | SCreate _ =>
      match v with Some _ => (v, SAlreadyExists) | None => (Some ([], 0), SOk) end
  | SDelete _ =>
      match v with None => (None, SMissing) | Some _ => (None, SOk) end
  | SAppend _ pos payloads =>
      match v with
      | None => (None, SMissing)
      | Some (recs, next) =>
          match pos with
          | Some p =>
              if p + 1 =? next then (v, SAppended None)
              else if p <? next then (v, SPast)
              else match payloads with
                   | [] => (v, SAppended None)
                   | _ => (Some (recs ++ s_number p payloads, p + lenN payloads),
                           SAppended (Some (p + lenN payloads - 1)))
                   end
          | None =>
              match payloads with
              | [] => (v, SAppended None)
              | _ => (Some (recs ++ s_number next payloads, next + lenN payloads),
                      SAppended (Some (next + lenN payloads - 1)))
              end
          end
      end
  | STruncate _ p =>
      match v with
      | None => (None, SMissing)
      | Some (recs, next) =>
          let kept := filter (fun r => p <? fst r) recs in
          let next' := if isnil kept && (next <=? p + 1) then p + 1 else next in
          (Some (kept, next'), STruncated (lenN recs - lenN kept))
      end
  | SPersist => (v, SOk)
  end.

Lemma s_step_q_step m o q :
  sop_queue o = Some q ->
  s_get (fst (s_step m o)) q = fst (q_step (s_get m q) o) /\
  snd (s_step m o) = snd (q_step (s_get m q) o).
Proof.
  intros Hq.
  destruct o as [q'|q'|q' pos pl|q' p|]; cbn [sop_queue] in Hq; inversion Hq; subst q';
    cbn [s_step q_step].
  - destruct (s_get m q) eqn:E; cbn [fst snd]; [now rewrite E|]. now rewrite s_get_put_same.
  - destruct (s_get m q) eqn:E; cbn [fst snd]; [|now rewrite E]. now rewrite s_get_remove_same.
  - destruct (s_get m q) as [[recs next]|] eqn:E; cbn [fst snd]; [|now rewrite E].
    destruct pos as [p|].
    + destruct (p + 1 =? next); cbn [fst snd]; [now rewrite E|].
      destruct (p <? next); cbn [fst snd]; [now rewrite E|].
      destruct pl; cbn [fst snd]; [now rewrite E|]. now rewrite s_get_put_same.
    + destruct pl; cbn [fst snd]; [now rewrite E|]. now rewrite s_get_put_same.
  - destruct (s_get m q) as [[recs next]|] eqn:E; cbn [fst snd]; [|now rewrite E].
    now rewrite s_get_put_same.
Qed.

Lemma s_step_local m1 m2 o q :
  s_get m1 q = s_get m2 q -> sop_queue o = Some q ->
  snd (s_step m1 o) = snd (s_step m2 o) /\
  s_get (fst (s_step m1 o)) q = s_get (fst (s_step m2 o)) q.
Proof.
  intros Hg Hq.
  destruct (s_step_q_step m1 o q Hq) as (A1 & B1). destruct (s_step_q_step m2 o q Hq) as (A2 & B2).
  rewrite A1, A2, B1, B2, Hg. split; reflexivity.
Qed.

(* the elements of outs at the positions of h selected by f *)
Definition keep_outs {A B} (f : A -> bool) (h : list A) (outs : list B) : list B :=
  map snd (filter (fun x => f (fst x)) (combine h outs)).

Lemma keep_outs_cons {A B} (f : A -> bool) a h (b : B) outs :
  keep_outs f (a :: h) (b :: outs) = if f a then b :: keep_outs f h outs else keep_outs f h outs.
Proof. unfold keep_outs. cbn [combine filter fst]. destruct (f a); reflexivity. Qed.

Lemma keep_outs_map_out {A B C} (f : A -> bool) (g : B -> C) h outs :
  map g (keep_outs f h outs) = keep_outs f h (map g outs).
Proof.
  revert outs; induction h as [|a h IH]; intros [|b outs]; try reflexivity.
  cbn [map]. rewrite !keep_outs_cons. destruct (f a); cbn [map]; now rewrite IH.
Qed.

Lemma keep_outs_map_in {A A' B} (f : A' -> bool) (k : A -> A') h (outs : list B) :
  keep_outs f (map k h) outs = keep_outs (fun a => f (k a)) h outs.
Proof.
  revert outs; induction h as [|a h IH]; intros [|b outs]; try reflexivity.
  cbn [map]. rewrite !keep_outs_cons. destruct (f (k a)); now rewrite IH.
Qed.

Lemma filter_map_comm {A A'} (f : A' -> bool) (k : A -> A') h :
  filter f (map k h) = map k (filter (fun a => f (k a)) h).
Proof.
  induction h as [|a h IH]; [reflexivity|]. cbn [map filter].
  destruct (f (k a)); cbn [map]; now rewrite IH.
Qed.

Lemma s_run_cons m o h :
  s_run m (o :: h) =
  (fst (s_run (fst (s_step m o)) h), snd (s_step m o) :: snd (s_run (fst (s_step m o)) h)).
Proof.
  cbn [s_run]. destruct (s_step m o) as [m1 out]. cbn [fst snd].
  destruct (s_run m1 h) as [m2 outs]. reflexivity.
Qed.

Lemma s_run_length h : forall m, length (snd (s_run m h)) = length h.
Proof.
  induction h as [|o h IH]; intros m; [reflexivity|].
  rewrite s_run_cons. cbn [snd length]. now rewrite IH.
Qed.

(* C18 for the specification: the content of q after a history, and the outcomes of the calls
   addressed to q, are those of the history from which every other call has been erased
   (started from any map that agrees on q). *)
Theorem s_run_projection : forall h m1 m2 q,
  s_get m1 q = s_get m2 q ->
  s_get (fst (s_run m1 h)) q = s_get (fst (s_run m2 (filter (addressed q) h))) q /\
  keep_outs (addressed q) h (snd (s_run m1 h)) = snd (s_run m2 (filter (addressed q) h)).
Proof.
  induction h as [|o h IH]; intros m1 m2 q Hg.
  - cbn [filter s_run fst snd]. split; [exact Hg|reflexivity].
  - rewrite s_run_cons. cbn [fst snd filter]. rewrite keep_outs_cons.
    destruct (addressed q o) eqn:Ea.
    + apply addressed_true in Ea. rewrite s_run_cons. cbn [fst snd].
      destruct (s_step_local m1 m2 o q Hg Ea) as (Ho & Hg').
      destruct (IH _ _ q Hg') as (I1 & I2). split; [exact I1|]. now rewrite Ho, I2.
    + apply addressed_false in Ea.
      apply IH. rewrite s_step_other by exact Ea. exact Hg.
Qed.

(* special case: calls addressed elsewhere never change what q holds *)
Corollary s_run_others_invisible h m q :
  (forall o, In o h -> sop_queue o <> Some q) -> s_get (fst (s_run m h)) q = s_get m q.
Proof.
  intros Hall. destruct (s_run_projection h m m q eq_refl) as (H & _).
  rewrite H. replace (filter (addressed q) h) with (@nil sop); [reflexivity|].
  symmetry. apply filter_all_false. intros o Hin. apply addressed_false. now apply Hall.
Qed.

Lemma no_io_logical outs :
  forallb (fun o => negb (is_io o)) outs = true ->
  exists souts, map out_logical outs = map Some souts.
Proof.
  induction outs as [|o outs IH]; intros H; [exists []; reflexivity|].
  cbn [forallb] in H. apply andb_true_iff in H as [H1 H2]. destruct (IH H2) as (souts & E).
  destruct o; try discriminate H1; cbn [map out_logical]; rewrite E;
    eexists (_ :: souts); reflexivity.
Qed.

Lemma logical_no_io outs souts :
  map out_logical outs = map Some souts -> forallb (fun o => negb (is_io o)) outs = true.
Proof.
  revert souts; induction outs as [|o outs IH]; intros [|so souts] H; try discriminate; [reflexivity|].
  cbn [map] in H. inversion H as [[H1 H2]]. cbn [forallb]. rewrite (IH _ H2).
  destruct o; try reflexivity. discriminate H1.
Qed.

(* the queue a call of the API is addressed to *)
Definition on_queue (q : bytes) (ot : op * bool) : bool := addressed q (sop_of (fst ot)).

(* the three reads of the API on q are functions of the abstract content of q *)
Lemma reads_of_abs st1 st2 q :
  qs_inv (s_qs st1) -> qs_inv (s_qs st2) ->
  s_get (abs_qs (s_qs st1)) q = s_get (abs_qs (s_qs st2)) q ->
  (forall lo hi, log_range st1 q lo hi = log_range st2 q lo hi) /\
  log_last_position st1 q = log_last_position st2 q /\
  log_last_record st1 q = log_last_record st2 q.
Proof.
  intros H1 H2 Hg. repeat split; intros.
  - rewrite !log_range_refines by assumption. unfold s_range. now rewrite Hg.
  - rewrite !log_last_position_refines. unfold s_last_position. now rewrite Hg.
  - rewrite !log_last_record_refines by assumption. unfold s_last_record. now rewrite Hg.
Qed.

Section LogIso.
Variable P : params.

(* C18 for the log: run any history from st1, and from st2 (holding the same content for q) the
   history with every call not addressed to q erased; if neither run meets an I/O failure then q
   holds the same content at the end and the calls addressed to q returned the same logical
   outcomes.  (wal_bytes_written and the GC side effects legitimately differ.) *)
Theorem log_projection h st1 st2 q st1' outs1 st2' outs2 souts1 souts2 :
  qs_inv (s_qs st1) -> qs_inv (s_qs st2) ->
  s_get (abs_qs (s_qs st1)) q = s_get (abs_qs (s_qs st2)) q ->
  run P st1 h = (st1', outs1) ->
  run P st2 (filter (on_queue q) h) = (st2', outs2) ->
  map out_logical outs1 = map Some souts1 ->
  map out_logical outs2 = map Some souts2 ->
  qs_inv (s_qs st1') /\ qs_inv (s_qs st2') /\
  s_get (abs_qs (s_qs st1')) q = s_get (abs_qs (s_qs st2')) q /\
  map out_logical (keep_outs (on_queue q) h outs1) = map out_logical outs2.
Proof.
  intros Hi1 Hi2 Hg R1 R2 L1 L2.
  pose proof (run_refines P h st1 Hi1) as A1. rewrite R1 in A1. destruct A1 as (Hi1' & A1).
  specialize (A1 _ L1).
  pose proof (run_refines P (filter (on_queue q) h) st2 Hi2) as A2. rewrite R2 in A2. destruct A2 as (Hi2' & A2).
  specialize (A2 _ L2).
  set (k := fun ot : op * bool => sop_of (fst ot)) in *.
  change (on_queue q) with (fun a => addressed q (k a)) in *.
  rewrite <- filter_map_comm in A2.
  destruct (s_run_projection (map k h) _ _ q Hg) as (G & O).
  rewrite A1, A2 in G, O. cbn [fst snd] in G, O.
  split; [exact Hi1'|]. split; [exact Hi2'|]. split; [exact G|].
  rewrite keep_outs_map_out, L1, <- keep_outs_map_out, L2. f_equal.
  rewrite <- O. now rewrite keep_outs_map_in.
Qed.

(* the same with the absence of I/O failure stated on the outcomes *)
Corollary log_projection_no_io h st1 st2 q st1' outs1 st2' outs2 :
  qs_inv (s_qs st1) -> qs_inv (s_qs st2) ->
  s_get (abs_qs (s_qs st1)) q = s_get (abs_qs (s_qs st2)) q ->
  run P st1 h = (st1', outs1) ->
  run P st2 (filter (on_queue q) h) = (st2', outs2) ->
  forallb (fun o => negb (is_io o)) outs1 = true ->
  forallb (fun o => negb (is_io o)) outs2 = true ->
  s_get (abs_qs (s_qs st1')) q = s_get (abs_qs (s_qs st2')) q /\
  map out_logical (keep_outs (on_queue q) h outs1) = map out_logical outs2 /\
  (forall lo hi, log_range st1' q lo hi = log_range st2' q lo hi) /\
  log_last_position st1' q = log_last_position st2' q /\
  log_last_record st1' q = log_last_record st2' q.
Proof.
  intros Hi1 Hi2 Hg R1 R2 N1 N2.
  destruct (no_io_logical _ N1) as (souts1 & L1). destruct (no_io_logical _ N2) as (souts2 & L2).
  destruct (log_projection _ _ _ _ _ _ _ _ _ _ Hi1 Hi2 Hg R1 R2 L1 L2) as (Hi1' & Hi2' & G & O).
  split; [exact G|]. split; [exact O|]. now apply reads_of_abs.
Qed.

(* one call addressed elsewhere, not failing on I/O, changes nothing that q returns *)
Theorem log_step_other st o tick st' out q :
  qs_inv (s_qs st) -> step P st o tick = (st', out) -> is_io out = false ->
  sop_queue (sop_of o) <> Some q ->
  s_get (abs_qs (s_qs st')) q = s_get (abs_qs (s_qs st)) q /\
  (forall lo hi, log_range st' q lo hi = log_range st q lo hi) /\
  log_last_position st' q = log_last_position st q /\
  log_last_record st' q = log_last_record st q.
Proof.
  intros Hi Hs Hio Hne.
  pose proof (step_refines P st o tick Hi) as A. rewrite Hs in A. destruct A as (Hi' & A).
  assert (G : s_get (abs_qs (s_qs st')) q = s_get (abs_qs (s_qs st)) q).
  { destruct (out_logical out) as [so|] eqn:E; [|destruct out; discriminate].
    specialize (A so eq_refl). rewrite <- (s_step_other (abs_qs (s_qs st)) _ _ Hne). now rewrite A. }
  split; [exact G|]. now apply reads_of_abs.
Qed.
End LogIso.

(* every retained position is below the next position *)
Definition sq_inv (v : squeue) : Prop := forall x, In x (fst v) -> fst x < snd v.
Definition s_inv (m : smap) : Prop := forall q v, s_get m q = Some v -> sq_inv v.

Lemma s_inv_nil : s_inv [].
Proof. intros q v H. discriminate. Qed.

Lemma s_number_pos : forall l p x, In x (s_number p l) -> p <= fst x < p + lenN l.
Proof.
  induction l as [|a l IH]; intros p x H; [destruct H|].
  cbn [s_number] in H. rewrite lenN_cons. destruct H as [<-|H].
  - cbn [fst]. lia.
  - apply IH in H. lia.
Qed.

(* one call on an existing queue: it leaves the queue as it is (and is neither a truncate nor an
   append that reports a position), or deletes it, or appends a non-empty batch at p >= next, or
   truncates *)
Lemma q_step_cases recs next o v' out :
  q_step (Some (recs, next)) o = (v', out) ->
  (v' = Some (recs, next) /\ (forall last, out <> SAppended (Some last)) /\
   (forall q p, o <> STruncate q p)) \/
  (v' = None /\ exists q, o = SDelete q /\ out = SOk) \/
  (exists q pos pl p, o = SAppend q pos pl /\ next <= p /\ pl <> [] /\
     v' = Some (recs ++ s_number p pl, p + lenN pl) /\ out = SAppended (Some (p + lenN pl - 1))) \/
  (exists q p, o = STruncate q p /\
     v' = Some (filter (fun r => p <? fst r) recs,
                if isnil (filter (fun r => p <? fst r) recs) && (next <=? p + 1) then p + 1 else next) /\
     out = STruncated (lenN recs - lenN (filter (fun r => p <? fst r) recs))).
Proof.
  assert (Hid : forall out0, (forall last, out0 <> SAppended (Some last)) ->
                             (forall q p, o <> STruncate q p) ->
     (Some (recs, next), out0) = (v', out) ->
     (v' = Some (recs, next) /\ (forall last, out <> SAppended (Some last)) /\
      (forall q p, o <> STruncate q p))).
  { intros out0 Hno Hnt E. inversion E; subst v' out. auto. }
  destruct o as [q|q|q pos pl|q p|]; cbn [q_step]; intros E.
  - left. apply (Hid SAlreadyExists); [discriminate..|exact E].
  - right; left. inversion E. eauto.
  - assert (Happ : forall p, next <= p -> pl <> [] ->
      (Some (recs ++ s_number p pl, p + lenN pl), SAppended (Some (p + lenN pl - 1))) = (v', out) ->
      exists q0 pos0 pl0 p0, SAppend q pos pl = SAppend q0 pos0 pl0 /\ next <= p0 /\ pl0 <> [] /\
        v' = Some (recs ++ s_number p0 pl0, p0 + lenN pl0) /\
        out = SAppended (Some (p0 + lenN pl0 - 1))).
    { intros p Hp Hpl E'. inversion E'. exists q, pos, pl, p. auto. }
    destruct pos as [p|].
    + destruct (N.eqb_spec (p + 1) next) as [He|Hne];
        [left; apply (Hid (SAppended None)); [discriminate..|exact E]|].
      destruct (N.ltb_spec p next) as [Hlt|Hge]; [left; apply (Hid SPast); [discriminate..|exact E]|].
      destruct pl as [|a pl]; [left; apply (Hid (SAppended None)); [discriminate..|exact E]|].
      right; right; left. apply (Happ p); [exact Hge|discriminate|exact E].
    + destruct pl as [|a pl]; [left; apply (Hid (SAppended None)); [discriminate..|exact E]|].
      right; right; left. apply (Happ next); [lia|discriminate|exact E].
  - right; right; right. cbn zeta in E. inversion E. eauto.
  - left. apply (Hid SOk); [discriminate..|exact E].
Qed.

(* what one call does to the content (recs, next) of the queue it addresses, when the queue is
   still there afterwards:
   (a) next does not decrease; (b) a record of the new content is an old record or carries a
   fresh position; (c) the invariant is kept; (d) a truncate at p leaves next > p and only
   positions > p; (e) the position returned by an append is fresh and next is just after it *)
Lemma q_step_facts recs next o recs' next' out :
  q_step (Some (recs, next)) o = (Some (recs', next'), out) ->
  next <= next' /\
  (forall x, In x recs' -> In x recs \/ next <= fst x) /\
  (sq_inv (recs, next) -> sq_inv (recs', next')) /\
  (forall q p, o = STruncate q p -> sq_inv (recs, next) ->
               p + 1 <= next' /\ forall x, In x recs' -> p < fst x) /\
  (forall last, out = SAppended (Some last) -> next <= last /\ last + 1 = next').
Proof.
  intros E.
  destruct (q_step_cases _ _ _ _ _ E)
    as [(Ev & Hno & Hnt)|[(Ev & _)|[(q & pos & pl & p & -> & Hp & Hpl & Ev & ->)|(q & p & -> & Ev & ->)]]];
    [| discriminate Ev | |]; inversion Ev; subst recs' next'; clear Ev.
  - split; [lia|]. split; [intros x Hx; now left|]. split; [trivial|].
    split; [intros q p Eo; exfalso; exact (Hnt _ _ Eo)|].
    intros last El. exfalso. exact (Hno _ El).
  - assert (Hlen : 1 <= lenN pl).
    { destruct pl as [|a pl']; [contradiction|]. rewrite lenN_cons. lia. }
    split; [lia|]. split.
    { intros x Hx. apply in_app_or in Hx as [Hx|Hx]; [now left|right].
      apply s_number_pos in Hx. lia. }
    split.
    { unfold sq_inv. cbn [fst snd]. intros Hinv x Hx. apply in_app_or in Hx as [Hx|Hx].
      - specialize (Hinv x Hx). lia.
      - apply s_number_pos in Hx. lia. }
    split; [intros q0 p0 Eo; discriminate Eo|].
    intros last El. inversion El. lia.
  - set (kept := filter (fun r => p <? fst r) recs).
    assert (Hk : forall x, In x kept -> In x recs /\ p < fst x).
    { intros x Hx. apply filter_In in Hx as [H1 H2]. split; [exact H1|lia]. }
    split.
    { destruct (isnil kept && (next <=? p + 1)) eqn:C; lia. }
    split; [intros x Hx; left; now apply Hk|].
    split.
    { unfold sq_inv. cbn [fst snd]. intros Hinv x Hx. destruct (Hk x Hx) as [H1 H2].
      specialize (Hinv x H1). destruct (isnil kept && (next <=? p + 1)) eqn:C; lia. }
    split.
    { unfold sq_inv. cbn [fst snd]. intros q0 p0 Eo Hinv. inversion Eo; subst q0 p0.
      split; [|intros x Hx; now apply Hk].
      destruct kept as [|x kept'] eqn:Ek; cbn [isnil andb].
      - destruct (N.leb_spec next (p + 1)); lia.
      - destruct (Hk x (or_introl eq_refl)) as [H1 H2]. specialize (Hinv x H1). lia. }
    intros last El. discriminate El.
Qed.

Lemma q_step_none o v' out : q_step None o = (Some v', out) -> v' = ([], 0).
Proof. destruct o; cbn [q_step]; intros H; inversion H; reflexivity. Qed.

(* (a) (b) (c) for ANY call, seen from any queue q that exists before and after it *)
Theorem s_step_positions m o q recs next recs' next' :
  s_get m q = Some (recs, next) -> s_get (fst (s_step m o)) q = Some (recs', next') ->
  next <= next' /\
  (forall x, In x recs' -> In x recs \/ next <= fst x) /\
  (sq_inv (recs, next) -> sq_inv (recs', next')).
Proof.
  intros Hg Hg'. destruct (addressed q o) eqn:Ea.
  - apply addressed_true in Ea. destruct (s_step_q_step m o q Ea) as (A & _).
    rewrite Hg, Hg' in A. destruct (q_step (Some (recs, next)) o) as [v' out] eqn:E.
    cbn [fst] in A. subst v'. destruct (q_step_facts _ _ _ _ _ _ E) as (F1 & F2 & F3 & _).
    repeat split; assumption.
  - apply addressed_false in Ea. rewrite (s_step_other _ _ _ Ea), Hg in Hg'.
    inversion Hg'; subst. split; [lia|]. split; [intros x Hx; now left|trivial].
Qed.

Theorem s_step_inv m o : s_inv m -> s_inv (fst (s_step m o)).
Proof.
  intros Hi q v' Hg'. destruct (addressed q o) eqn:Ea.
  - apply addressed_true in Ea. destruct (s_step_q_step m o q Ea) as (A & _).
    rewrite Hg' in A. destruct (s_get m q) as [[recs next]|] eqn:Hg.
    + destruct v' as [recs' next'].
      destruct (s_step_positions m o q _ _ _ _ Hg Hg') as (_ & _ & F3).
      apply F3. exact (Hi _ _ Hg).
    + destruct (q_step None o) as [v1 out] eqn:E. cbn [fst] in A. subst v1.
      apply q_step_none in E. subst v'. intros x [].
  - apply addressed_false in Ea. rewrite (s_step_other _ _ _ Ea) in Hg'. exact (Hi _ _ Hg').
Qed.

Theorem s_run_inv : forall h m, s_inv m -> s_inv (fst (s_run m h)).
Proof.
  induction h as [|o h IH]; intros m Hi; [exact Hi|].
  rewrite s_run_cons. cbn [fst]. apply IH. now apply s_step_inv.
Qed.

Lemma abs_s_inv qs : qs_inv qs -> s_inv (abs_qs qs).
Proof.
  intros Hi q v Hg. rewrite abs_get in Hg. destruct (qs_get qs q) as [mqv|] eqn:E; [|discriminate].
  inversion Hg; subst v. intros x Hx. unfold abs_q in *. cbn [fst snd] in *.
  apply (records_pos_lt_next mqv x (qs_inv_get _ _ _ Hi E) Hx).
Qed.

(* (d) a successful truncate at p: the queue continues strictly after p *)
Theorem s_truncate_next m q p m' e :
  s_inv m -> s_step m (STruncate q p) = (m', STruncated e) ->
  exists recs' next', s_get m' q = Some (recs', next') /\ p + 1 <= next' /\
                      forall x, In x recs' -> p < fst x.
Proof.
  intros Hi Hs. destruct (s_step_q_step m (STruncate q p) q eq_refl) as (A & B).
  rewrite Hs in A, B. cbn [fst snd] in A, B.
  destruct (s_get m q) as [[recs next]|] eqn:Hg.
  - match type of A with _ = fst ?t => remember t as r eqn:E end.
    symmetry in E. destruct r as [v' out]. cbn [fst snd] in A, B. destruct v' as [[recs' next']|]; [|cbn [q_step] in E; discriminate E].
    destruct (q_step_facts _ _ _ _ _ _ E) as (_ & _ & _ & F4 & _).
    exists recs', next'. split; [exact A|]. apply (F4 q p eq_refl). exact (Hi _ _ Hg).
  - cbn [q_step snd] in B. discriminate B.
Qed.

(* (e) a successful append: the returned position is fresh, next is just after it, and the new
   records are the payloads numbered consecutively up to it *)
Theorem s_append_last m q pos pl m' last :
  s_step m (SAppend q pos pl) = (m', SAppended (Some last)) ->
  exists recs next recs' next',
    s_get m q = Some (recs, next) /\ s_get m' q = Some (recs', next') /\
    next <= last /\ last + 1 = next' /\
    (forall x, In x recs' -> In x recs \/ next <= fst x <= last).
Proof.
  intros Hs. destruct (s_step_q_step m (SAppend q pos pl) q eq_refl) as (A & B).
  rewrite Hs in A, B. cbn [fst snd] in A, B.
  destruct (s_get m q) as [[recs next]|] eqn:Hg; [|cbn [q_step snd] in B; discriminate B].
  match type of A with _ = fst ?t => remember t as r eqn:E end.
  symmetry in E. destruct r as [v' out]. cbn [fst snd] in A, B. destruct v' as [[recs' next']|].
  - subst out. destruct (q_step_facts _ _ _ _ _ _ E) as (_ & _ & _ & _ & F5).
    destruct (F5 last eq_refl) as (L1 & L2).
    exists recs, next, recs', next'. repeat split; try assumption.
    intros x Hx.
    destruct (q_step_cases _ _ _ _ _ E)
      as [(_ & Hno & _)|[(Ev & _)|[(q0 & pos0 & pl0 & p & _ & Hp & _ & Ev & El)|(q0 & p & _ & _ & Eo)]]].
    + destruct (Hno last eq_refl).
    + discriminate Ev.
    + inversion Ev; subst recs'. inversion El. apply in_app_or in Hx as [Hx|Hx]; [now left|right].
      apply s_number_pos in Hx. lia.
    + discriminate Eo.
  - subst out.
    destruct (q_step_cases _ _ _ _ _ E)
      as [(Ev & _)|[(_ & q0 & _ & Eo)|[(q0 & pos0 & pl0 & p & _ & _ & _ & Ev & _)|(q0 & p & _ & Ev & _)]]];
      discriminate.
Qed.

Fixpoint filter_map {A B} (f : A -> option B) (l : list A) : list B :=
  match l with
  | [] => []
  | x :: r => match f x with Some y => y :: filter_map f r | None => filter_map f r end
  end.

(* lo <= x1 < x2 < ... < xn < hi   (strictly increasing, within [lo, hi) ) *)
Fixpoint incr_between (lo hi : N) (l : list N) : Prop :=
  match l with
  | [] => lo <= hi
  | x :: r => lo <= x /\ incr_between (x + 1) hi r
  end.

Lemma incr_between_weaken lo lo' hi l : incr_between lo hi l -> lo' <= lo -> incr_between lo' hi l.
Proof. destruct l; cbn [incr_between]; intros H Hl; [lia|]. destruct H. split; [lia|assumption]. Qed.

Lemma incr_between_le : forall l lo hi, incr_between lo hi l -> lo <= hi.
Proof.
  induction l as [|x l IH]; intros lo hi H; cbn [incr_between] in H; [exact H|].
  destruct H as [H1 H2]. apply IH in H2. lia.
Qed.

Lemma incr_between_bounds : forall l lo hi x, incr_between lo hi l -> In x l -> lo <= x < hi.
Proof.
  induction l as [|y l IH]; intros lo hi x H Hin; [destruct Hin|].
  cbn [incr_between] in H. destruct H as [H1 H2]. destruct Hin as [<-|Hin].
  - apply incr_between_le in H2. lia.
  - specialize (IH _ _ _ H2 Hin). lia.
Qed.

(* it is the usual notion: every element is smaller than all later ones *)
Lemma incr_between_sorted : forall l lo hi, incr_between lo hi l -> StronglySorted N.lt l.
Proof.
  induction l as [|y l IH]; intros lo hi H; [constructor|].
  cbn [incr_between] in H. destruct H as [H1 H2]. constructor; [eapply IH; exact H2|].
  apply Forall_forall. intros x Hx. pose proof (incr_between_bounds _ _ _ _ H2 Hx). lia.
Qed.

(* a successful delete of q *)
Definition s_deleted (q : bytes) (o : sop) (out : sout) : bool :=
  match o, out with SDelete q', SOk => bytes_eqb q' q | _, _ => false end.

(* the position returned by a successful, effective append to q *)
Definition s_last_of (q : bytes) (x : sop * sout) : option N :=
  match x with
  | (SAppend q' _ _, SAppended (Some l)) => if bytes_eqb q' q then Some l else None
  | _ => None
  end.

(* no call of the history deleted q *)
Definition never_deleted (q : bytes) (h : list sop) (outs : list sout) : Prop :=
  forallb (fun x => negb (s_deleted q (fst x) (snd x))) (combine h outs) = true.

(* the positions returned by the appends to q, in order *)
Definition lasts (q : bytes) (h : list sop) (outs : list sout) : list N :=
  filter_map (s_last_of q) (combine h outs).

(* next position of q, 0 when q does not exist (a fresh queue starts at 0) *)
Definition next_or0 (v : option squeue) : N := match v with Some (_, next) => next | None => 0 end.

Lemma q_step_next v o v' out :
  q_step v o = (v', out) ->
  (forall q', o = SDelete q' -> out <> SOk) ->
  (v <> None -> v' <> None) /\
  next_or0 v <= next_or0 v' /\
  (forall l, out = SAppended (Some l) -> next_or0 v <= l /\ next_or0 v' = l + 1).
Proof.
  intros E Hnd. destruct v as [[recs next]|].
  - destruct v' as [[recs' next']|].
    + destruct (q_step_facts _ _ _ _ _ _ E) as (F1 & _ & _ & _ & F5).
      cbn [next_or0]. split; [intros _; discriminate|]. split; [exact F1|]. intros l El.
      destruct (F5 l El). split; lia.
    + exfalso.
      destruct (q_step_cases _ _ _ _ _ E)
        as [(Ev & _)|[(_ & q & Eo & Eout)|[(q & pos & pl & p & _ & _ & _ & Ev & _)|(q & p & _ & Ev & _)]]];
        try discriminate Ev.
      exact (Hnd q Eo Eout).
  - split; [intros H; now destruct H|]. cbn [next_or0]. split; [lia|]. intros l El. subst out.
    destruct o; cbn [q_step] in E; discriminate E.
Qed.

Lemma s_step_next m o q :
  s_deleted q o (snd (s_step m o)) = false ->
  (s_get m q <> None -> s_get (fst (s_step m o)) q <> None) /\
  next_or0 (s_get m q) <= next_or0 (s_get (fst (s_step m o)) q) /\
  (forall l, s_last_of q (o, snd (s_step m o)) = Some l ->
             next_or0 (s_get m q) <= l /\ next_or0 (s_get (fst (s_step m o)) q) = l + 1).
Proof.
  intros Hd. destruct (addressed q o) eqn:Ea.
  - apply addressed_true in Ea. destruct (s_step_q_step m o q Ea) as (A & B).
    rewrite A. rewrite B in Hd. rewrite B.
    match type of A with _ = fst ?t => remember t as r eqn:E end.
    symmetry in E. destruct r as [v' out]. cbn [fst snd] in *.
    assert (Hnd : forall q', o = SDelete q' -> out <> SOk).
    { intros q' -> ->. cbn [sop_queue] in Ea. inversion Ea; subst q'.
      cbn [s_deleted] in Hd. rewrite bytes_eqb_refl in Hd. discriminate Hd. }
    destruct (q_step_next _ _ _ _ E Hnd) as (N1 & N2 & N3).
    split; [exact N1|]. split; [exact N2|]. intros l Hl. apply N3.
    destruct o as [| |q' pos pl| |]; try discriminate Hl. cbn [s_last_of] in Hl.
    destruct out as [|[l0|]| | | |]; try discriminate Hl.
    destruct (bytes_eqb q' q); [|discriminate Hl]. now inversion Hl.
  - apply addressed_false in Ea. rewrite (s_step_other _ _ _ Ea).
    split; [trivial|]. split; [lia|]. intros l Hl. exfalso.
    destruct o as [| |q' pos pl| |]; try discriminate Hl. cbn [s_last_of] in Hl.
    destruct (snd (s_step m (SAppend q' pos pl))) as [|[l0|]| | | |]; try discriminate Hl.
    destruct (bytes_eqb q' q) eqn:Eq; [|discriminate Hl]. apply bytes_eqb_eq in Eq. subst q'.
    apply Ea. reflexivity.
Qed.

Lemma never_deleted_cons q o h out outs :
  never_deleted q (o :: h) (out :: outs) <-> s_deleted q o out = false /\ never_deleted q h outs.
Proof.
  unfold never_deleted. cbn [combine forallb fst snd]. rewrite andb_true_iff, negb_true_iff. tauto.
Qed.

Lemma lasts_cons q o h out outs :
  lasts q (o :: h) (out :: outs) =
  match s_last_of q (o, out) with Some l => l :: lasts q h outs | None => lasts q h outs end.
Proof. reflexivity. Qed.

(* C04 for the specification: along a history that does not delete q, the next position of q never
   decreases, and the positions returned by the appends to q are strictly increasing, all at or
   above the next position at the start and below the next position at the end. *)
Theorem s_run_next_monotone : forall h m q,
  never_deleted q h (snd (s_run m h)) ->
  (s_get m q <> None -> s_get (fst (s_run m h)) q <> None) /\
  incr_between (next_or0 (s_get m q)) (next_or0 (s_get (fst (s_run m h)) q))
               (lasts q h (snd (s_run m h))).
Proof.
  induction h as [|o h IH]; intros m q Hnd.
  - cbn [s_run fst snd lasts combine filter_map incr_between]. split; [trivial|lia].
  - rewrite s_run_cons in *. cbn [fst snd] in *. apply never_deleted_cons in Hnd as [Hd Hnd].
    destruct (s_step_next m o q Hd) as (S1 & S2 & S3). destruct (IH _ q Hnd) as (I1 & I2).
    split; [intros H; apply I1, S1, H|]. rewrite lasts_cons.
    destruct (s_last_of q (o, snd (s_step m o))) as [l|] eqn:El.
    + destruct (S3 l eq_refl) as (L1 & L2). cbn [incr_between]. split; [exact L1|].
      rewrite <- L2. exact I2.
    + eapply incr_between_weaken; [exact I2|exact S2].
Qed.

(* the same, spelled out for a queue that exists at the start *)
Corollary s_run_next_monotone_some h m q recs next :
  s_get m q = Some (recs, next) ->
  never_deleted q h (snd (s_run m h)) ->
  exists recs' next',
    s_get (fst (s_run m h)) q = Some (recs', next') /\ next <= next' /\
    StronglySorted N.lt (lasts q h (snd (s_run m h))) /\
    (forall l, In l (lasts q h (snd (s_run m h))) -> next <= l < next').
Proof.
  intros Hg Hnd. destruct (s_run_next_monotone h m q Hnd) as (H1 & H2).
  rewrite Hg in H1, H2. cbn [next_or0] in H2.
  destruct (s_get (fst (s_run m h)) q) as [[recs' next']|]; [|exfalso; apply H1; [discriminate|reflexivity]].
  exists recs', next'. cbn [next_or0] in H2. split; [reflexivity|].
  split; [eapply incr_between_le; exact H2|]. split; [eapply incr_between_sorted; exact H2|].
  intros l Hl. eapply incr_between_bounds; eauto.
Qed.

(* after a successful truncate at p, every later append of the incarnation returns a position > p *)
Corollary s_run_after_truncate m q p m1 e h :
  s_inv m -> s_step m (STruncate q p) = (m1, STruncated e) ->
  never_deleted q h (snd (s_run m1 h)) ->
  incr_between (p + 1) (next_or0 (s_get (fst (s_run m1 h)) q)) (lasts q h (snd (s_run m1 h))).
Proof.
  intros Hi Hs Hnd. destruct (s_truncate_next _ _ _ _ _ Hi Hs) as (recs' & next' & Hg & Hp & _).
  destruct (s_run_next_monotone h m1 q Hnd) as (_ & H2). rewrite Hg in H2. cbn [next_or0] in H2.
  eapply incr_between_weaken; [exact H2|exact Hp].
Qed.

(* a history can be cut anywhere: the theorems above apply to any segment between two deletions *)
Lemma s_run_app : forall h1 h2 m,
  s_run m (h1 ++ h2) =
  (fst (s_run (fst (s_run m h1)) h2), snd (s_run m h1) ++ snd (s_run (fst (s_run m h1)) h2)).
Proof.
  induction h1 as [|o h1 IH]; intros h2 m.
  - cbn [app s_run fst snd]. now destruct (s_run m h2).
  - cbn [app]. rewrite !s_run_cons, IH. reflexivity.
Qed.

(* next position of q in a state of the log, 0 when q does not exist *)
Definition log_next (st : state) (q : bytes) : N :=
  match qs_get (s_qs st) q with Some m => next_position m | None => 0 end.

Lemma log_next_abs st q : next_or0 (s_get (abs_qs (s_qs st)) q) = log_next st q.
Proof. unfold log_next. rewrite abs_get. destruct (qs_get (s_qs st) q); reflexivity. Qed.

(* a successful delete_queue(q) *)
Definition l_deleted (q : bytes) (ot : op * bool) (out : outcome) : bool :=
  match fst ot, out with ODelete q' _, OutDelete _ => bytes_eqb q' q | _, _ => false end.

(* the last position reported by a successful, effective append_records(q, ..) *)
Definition l_last_of (q : bytes) (x : (op * bool) * outcome) : option N :=
  match x with
  | ((OAppend q' _ _, _), OutAppend (Some l) _) => if bytes_eqb q' q then Some l else None
  | _ => None
  end.

Definition log_never_deleted (q : bytes) (h : list (op * bool)) (outs : list outcome) : Prop :=
  forallb (fun x => negb (l_deleted q (fst x) (snd x))) (combine h outs) = true.

Definition log_lasts (q : bytes) (h : list (op * bool)) (outs : list outcome) : list N :=
  filter_map (l_last_of q) (combine h outs).

Lemma l_last_of_logical q o t out so :
  out_logical out = Some so -> l_last_of q ((o, t), out) = s_last_of q (sop_of o, so).
Proof.
  intros H. destruct out; cbn [out_logical] in H; inversion H; subst so;
    destruct o; cbn [l_last_of s_last_of sop_of]; try reflexivity;
    match goal with |- context [match ?l with Some _ => _ | None => _ end] => destruct l end;
    reflexivity.
Qed.

Section LogPositions.
Variable P : params.

Lemma delete_outcome st q hint :
  match snd (delete_queue P st q hint) with
  | OutDelete _ | OutMissing | OutIo _ => True
  | _ => False
  end.
Proof.
  unfold delete_queue. destruct (qs_get (s_qs st) q); [|exact I].
  destruct (write_entry P st _) as [st1 [n|e]]; [|exact I].
  destruct (run_gc_if_necessary P _ hint) as [st3 [k|e]]; exact I.
Qed.

Lemma l_deleted_logical q st o t st' out so :
  step P st o t = (st', out) -> out_logical out = Some so ->
  l_deleted q (o, t) out = s_deleted q (sop_of o) so.
Proof.
  intros Hs H. destruct o as [q'|q' hint|q' pos pl|q' p hint|fs];
    cbn [l_deleted fst sop_of s_deleted]; try reflexivity.
  cbn [step] in Hs. pose proof (delete_outcome st q' hint) as Ho. rewrite Hs in Ho. cbn [snd] in Ho.
  destruct out; try destruct Ho; cbn [out_logical] in H; inversion H; reflexivity.
Qed.

Lemma run_cons st o t h :
  run P st ((o, t) :: h) =
  (fst (run P (fst (step P st o t)) h), snd (step P st o t) :: snd (run P (fst (step P st o t)) h)).
Proof.
  cbn [run]. destruct (step P st o t) as [st1 out]. cbn [fst snd].
  destruct (run P st1 h) as [st2 outs]. reflexivity.
Qed.

(* the observations made on the log are those made on the specification *)
Lemma run_observations q : forall h st souts,
  map out_logical (snd (run P st h)) = map Some souts ->
  log_lasts q h (snd (run P st h)) = lasts q (map (fun ot => sop_of (fst ot)) h) souts /\
  (log_never_deleted q h (snd (run P st h)) <->
   never_deleted q (map (fun ot => sop_of (fst ot)) h) souts).
Proof.
  induction h as [|[o t] h IH]; intros st souts H.
  - cbn. split; [reflexivity|tauto].
  - rewrite run_cons in *. cbn [snd map fst] in *.
    destruct souts as [|so souts]; [discriminate H|]. cbn [map] in H. inversion H as [[H1 H2]].
    destruct (IH _ _ H2) as (I1 & I2).
    destruct (step P st o t) as [st1 out] eqn:Es. cbn [fst snd] in *.
    split.
    + unfold log_lasts, lasts in *. cbn [combine filter_map].
      rewrite (l_last_of_logical q o t out so H1), I1. reflexivity.
    + unfold log_never_deleted, never_deleted in *. cbn [combine forallb fst snd].
      rewrite (l_deleted_logical q _ _ _ _ _ _ Es H1). rewrite !andb_true_iff, I2. tauto.
Qed.

(* C04 for the log: along a history without I/O failure that does not delete q, the next position
   of q never decreases, q stays there if it was there, and the last positions reported by the
   appends to q are strictly increasing, all at or above the next position of q at the start and
   below its next position at the end. *)
Theorem log_positions_fresh h st st' outs q :
  qs_inv (s_qs st) -> run P st h = (st', outs) ->
  forallb (fun o => negb (is_io o)) outs = true ->
  log_never_deleted q h outs ->
  (qs_get (s_qs st) q <> None -> qs_get (s_qs st') q <> None) /\
  incr_between (log_next st q) (log_next st' q) (log_lasts q h outs).
Proof.
  intros Hi R Hio Hnd. destruct (no_io_logical _ Hio) as (souts & L).
  pose proof (run_refines P h st Hi) as A. rewrite R in A. destruct A as (_ & A). specialize (A _ L).
  pose proof (run_observations q h st souts) as O. rewrite R in O. cbn [snd] in O.
  destruct (O L) as (O1 & O2). apply O2 in Hnd.
  pose proof (s_run_next_monotone (map (fun ot => sop_of (fst ot)) h) (abs_qs (s_qs st)) q) as M.
  rewrite A in M. cbn [fst snd] in M. destruct (M Hnd) as (M1 & M2).
  rewrite !log_next_abs, <- O1 in M2. split; [|exact M2].
  intros Hq. rewrite !abs_get in M1.
  destruct (qs_get (s_qs st) q); [|now destruct Hq].
  destruct (qs_get (s_qs st') q); [discriminate|]. exfalso. apply M1; [discriminate|reflexivity].
Qed.

Corollary log_lasts_increasing h st st' outs q :
  qs_inv (s_qs st) -> run P st h = (st', outs) ->
  forallb (fun o => negb (is_io o)) outs = true ->
  log_never_deleted q h outs ->
  log_next st q <= log_next st' q /\
  StronglySorted N.lt (log_lasts q h outs) /\
  (forall l, In l (log_lasts q h outs) -> log_next st q <= l < log_next st' q).
Proof.
  intros Hi R Hio Hnd. destruct (log_positions_fresh h st st' outs q Hi R Hio Hnd) as (_ & H).
  split; [eapply incr_between_le; exact H|]. split; [eapply incr_between_sorted; exact H|].
  intros l Hl. eapply incr_between_bounds; eauto.
Qed.

(* one append: the reported last position is at or above the previous next position of q, the
   next position becomes last + 1, and last_position reports it *)
Theorem log_append_fresh st q pos pl tick st' l n :
  qs_inv (s_qs st) -> step P st (OAppend q pos pl) tick = (st', OutAppend (Some l) n) ->
  qs_get (s_qs st) q <> None /\
  log_next st q <= l /\ log_next st' q = l + 1 /\
  log_last_position st' q = Some (Some l).
Proof.
  intros Hi Hs. pose proof (step_refines P st (OAppend q pos pl) tick Hi) as A. rewrite Hs in A.
  destruct A as (_ & A). specialize (A _ eq_refl). cbn [sop_of] in A.
  destruct (s_append_last _ _ _ _ _ _ A) as (recs & next & recs' & next' & G & G' & L1 & L2 & _).
  rewrite <- !log_next_abs, G, G'. cbn [next_or0].
  split. { rewrite abs_get in G. destruct (qs_get (s_qs st) q); discriminate. }
  split; [exact L1|]. split; [lia|].
  rewrite log_last_position_refines. unfold s_last_position. rewrite G'.
  destruct (N.eqb_spec next' 0) as [E|E]; [lia|]. do 2 f_equal. lia.
Qed.

(* one truncate at p: the queue continues strictly after p and retains only positions > p *)
Theorem log_truncate_next st q p hint tick st' e n :
  qs_inv (s_qs st) -> step P st (OTruncate q p hint) tick = (st', OutTruncate e n) ->
  qs_get (s_qs st') q <> None /\ p + 1 <= log_next st' q /\
  (forall recs, log_range st' q Unb Unb = Some recs -> forall x, In x recs -> p < fst x).
Proof.
  intros Hi Hs. pose proof (step_refines P st (OTruncate q p hint) tick Hi) as A. rewrite Hs in A.
  destruct A as (Hi' & A). specialize (A _ eq_refl). cbn [sop_of] in A.
  destruct (s_truncate_next _ _ _ _ _ (abs_s_inv _ Hi) A) as (recs' & next' & G & Hp & Hr).
  rewrite <- log_next_abs, G. cbn [next_or0].
  split. { rewrite abs_get in G. destruct (qs_get (s_qs st') q); discriminate. }
  split; [exact Hp|]. intros recs Hrange x Hx.
  rewrite (log_range_refines _ _ _ _ Hi') in Hrange. unfold s_range in Hrange. rewrite G in Hrange.
  inversion Hrange; subst recs. apply filter_In in Hx as [Hx _]. now apply Hr.
Qed.

(* any call that is not an I/O failure, seen from any queue q present before and after it:
   next does not decrease, and a retained record is an old record or carries a fresh position *)
Theorem log_step_positions st o tick st' out q recs next recs' next' :
  qs_inv (s_qs st) -> step P st o tick = (st', out) -> is_io out = false ->
  s_get (abs_qs (s_qs st)) q = Some (recs, next) ->
  s_get (abs_qs (s_qs st')) q = Some (recs', next') ->
  next <= next' /\
  (forall x, In x recs' -> In x recs \/ next <= fst x) /\
  (forall x, In x recs' -> fst x < next').
Proof.
  intros Hi Hs Hio G G'. pose proof (step_refines P st o tick Hi) as A. rewrite Hs in A.
  destruct A as (Hi' & A).
  destruct (out_logical out) as [so|] eqn:E; [|destruct out; discriminate].
  specialize (A so eq_refl).
  assert (G2 : s_get (fst (s_step (abs_qs (s_qs st)) (sop_of o))) q = Some (recs', next'))
    by (rewrite A; exact G').
  destruct (s_step_positions _ _ _ _ _ _ _ G G2) as (F1 & F2 & _).
  split; [exact F1|]. split; [exact F2|].
  intros x Hx. exact (abs_s_inv _ Hi' _ _ G' x Hx).
Qed.

(* after a successful truncate at p, every later append of the incarnation reports a position > p *)
Corollary log_after_truncate st q p hint tick st1 e n h st' outs :
  qs_inv (s_qs st) -> step P st (OTruncate q p hint) tick = (st1, OutTruncate e n) ->
  run P st1 h = (st', outs) ->
  forallb (fun o => negb (is_io o)) outs = true ->
  log_never_deleted q h outs ->
  forall l, In l (log_lasts q h outs) -> p < l.
Proof.
  intros Hi Hs R Hio Hnd l Hl.
  destruct (log_truncate_next _ _ _ _ _ _ _ _ Hi Hs) as (_ & Hp & _).
  pose proof (step_refines P st (OTruncate q p hint) tick Hi) as A. rewrite Hs in A. destruct A as (Hi1 & _).
  destruct (log_lasts_increasing h st1 st' outs q Hi1 R Hio Hnd) as (_ & _ & B).
  specialize (B l Hl). lia.
Qed.
End LogPositions.

(* a concrete log (block size 32, two blocks per file), two queues, interleaved calls *)
Definition PK : params := mkParams 32 2 (fun _ _ => 0) 24 false false false.
Definition stK : state :=
  mkSt (mkWr (ctx_init [(filename 0, FFile (zerosN 64))] None) [0] 0 0 []) [] (PAlways false).
Definition qa : bytes := ["a"%byte].
Definition qb : bytes := ["b"%byte].
Definition hK : list (op * bool) :=
  [(OCreate qa, false); (OCreate qb, false); (OAppend qa None [zerosN 3; zerosN 2], false);
   (OAppend qb (Some 5) [zerosN 1], false); (OTruncate qa 0 [], false);
   (OAppend qa None [zerosN 1], false); (ODelete qb [], false);
   (OAppend qa (Some 7) [zerosN 1], false)].

Example QueueIso_nonvacuous :
  let '(st1, outs1) := run PK stK hK in
  let '(st2, outs2) := run PK stK (filter (on_queue qa) hK) in
  outs1 = [OutCreate 19; OutCreate 26; OutAppend (Some 1) 62; OutAppend (Some 5) 39;
           OutTruncate 1 26; OutAppend (Some 2) 39; OutDelete 26; OutAppend (Some 7) 39] /\
  outs2 = [OutCreate 19; OutAppend (Some 1) 62; OutTruncate 1 26; OutAppend (Some 2) 39;
           OutAppend (Some 7) 39] /\
  keep_outs (on_queue qa) hK outs1 = outs2 /\
  log_range st1 qa Unb Unb = log_range st2 qa Unb Unb /\
  log_range st1 qa Unb Unb = Some [(1, zerosN 2); (2, zerosN 1); (7, zerosN 1)] /\
  log_never_deleted qa hK outs1 /\ log_lasts qa hK outs1 = [1; 2; 7] /\ log_next st1 qa = 8.
Proof. vm_compute. repeat split; reflexivity. Qed.

(* the theorem applied to it: its premises are satisfiable *)
Example QueueIso_applied :
  log_last_record (fst (run PK stK hK)) qa =
  log_last_record (fst (run PK stK (filter (on_queue qa) hK))) qa.
Proof.
  destruct (run PK stK hK) as [st1 outs1] eqn:R1.
  destruct (run PK stK (filter (on_queue qa) hK)) as [st2 outs2] eqn:R2.
  assert (N1 : forallb (fun o => negb (is_io o)) outs1 = true).
  { replace outs1 with (snd (run PK stK hK)) by now rewrite R1. vm_compute. reflexivity. }
  assert (N2 : forallb (fun o => negb (is_io o)) outs2 = true).
  { replace outs2 with (snd (run PK stK (filter (on_queue qa) hK))) by now rewrite R2.
    vm_compute. reflexivity. }
  exact (proj2 (proj2 (proj2 (proj2
    (log_projection_no_io PK hK stK stK qa st1 outs1 st2 outs2
                          qs_inv_nil qs_inv_nil eq_refl R1 R2 N1 N2))))).
Qed.

Print Assumptions s_step_other.
Print Assumptions s_step_local.
Print Assumptions s_run_projection.
Print Assumptions log_projection.
Print Assumptions log_projection_no_io.
Print Assumptions log_step_other.
Print Assumptions s_step_positions.
Print Assumptions s_step_inv.
Print Assumptions s_run_inv.
Print Assumptions abs_s_inv.
Print Assumptions s_truncate_next.
Print Assumptions s_append_last.
Print Assumptions s_run_next_monotone.
Print Assumptions s_run_next_monotone_some.
Print Assumptions s_run_after_truncate.
Print Assumptions log_positions_fresh.
Print Assumptions log_lasts_increasing.
Print Assumptions log_append_fresh.
Print Assumptions log_truncate_next.
Print Assumptions log_step_positions.
Print Assumptions log_after_truncate.
Print Assumptions QueueIso_nonvacuous.
Print Assumptions QueueIso_applied.
