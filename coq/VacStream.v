(* VacStream.v — vacuity audit: the stream-level theorems (in-memory record log) of
   PropC02 (torn writes), PropC07, PropC08, PropC09, PropC12.
   Parameters: BS = 16, the real CRC-32.  Entries: entry_ser of small WAL entries; the torn /
   damaged entry spans several frames and blocks. *)
From Coq Require Import Lia ZArith ZifyN ZifyNat ZifyBool List.
From MRL Require Import Bytes BytesProofs Params Names Frame Record Mem Spec Rolling Log Driver Hist
  RecordProofs StreamProofs TornProofs DamageProofs ResyncProofs DamageFile Crc VacBase.
From MRL Require PropC02 PropC07 PropC08 PropC09 PropC12.
Import ListNotations.

Definition Ps : params := mkParams 16 2 Crc.crc32 24 false false false.
Lemma Ps_BS_lo : 7 < BS Ps. Proof. reflexivity. Qed.
Lemma Ps_BS_hi : BS Ps <= 65542. Proof. intros H; discriminate H. Qed.
Lemma Ps_NB : 1 <= NB Ps. Proof. intros H; discriminate H. Qed.
Lemma Ps_crc : forall t p, crcf Ps t p < 2 ^ 32.
Proof. exact Crc.crc32_lt. Qed.

Definition qa : bytes := ["a"%byte].
Definition qb : bytes := ["b"%byte].
Definition es1 : list bytes :=
  map entry_ser [EPosition qa 0; EAppend qa 0 [(0, ["x"; "y"; "z"]%byte)]].
Definition x_t : bytes := entry_ser (EAppend qa 1 [(1, ["p"; "q"; "r"; "s"; "t"; "u"; "v"; "w"]%byte)]).
Definition es2 : list bytes := map entry_ser [EPosition qb 3; ETruncate qa 0].

Definition t1 : bytes := Eval vm_compute in encs_of Ps 0 es1.
Lemma t1_eq : encs_of Ps 0 es1 = t1. Proof. vm_compute. reflexivity. Qed.
Lemma t1_rel : encs_rel Ps 0 es1 t1.
Proof. rewrite <- t1_eq. apply (encs_of_rel Ps Ps_BS_lo Ps_BS_hi Ps_crc). Qed.
Definition ex : bytes := Eval vm_compute in enc_of Ps (lenN t1) x_t.
Lemma ex_eq : enc_of Ps (lenN t1) x_t = ex. Proof. vm_compute. reflexivity. Qed.

Example stream_shape : lenN t1 = 80 /\ lenN ex = 60 /\ lenN x_t = 32.
Proof. vm_compute. repeat split; reflexivity. Qed.

Lemma ex_rel : exists k, enc_rel Ps (lenN t1) true x_t ex k.
Proof. rewrite <- ex_eq. apply (enc_of_rel Ps Ps_BS_lo Ps_BS_hi Ps_crc). Qed.

(* PropC02: torn writes (the theorems without no_zero_collision) *)
(* the entry x_t is cut after j = 30 of its 60 stream bytes (in its third frame) *)
Definition j_t : N := 30.
Definition S0 : bytes := Eval vm_compute in mem_stream Ps (t1 ++ takeN j_t ex).
Lemma S0_eq : S0 = mem_stream Ps (t1 ++ takeN j_t ex). Proof. vm_compute. reflexivity. Qed.

Lemma C02_torn_read_premises_satisfiable :
  exists k, encs_rel Ps 0 es1 t1 /\ enc_rel Ps (lenN t1) true x_t ex k /\ j_t < lenN ex /\
            S0 = mem_stream Ps (t1 ++ takeN j_t ex) /\ (length es1 + 3 <= 5)%nat /\
            lenN S0 <= 7 * N.of_nat 20.
Proof.
  destruct ex_rel as [k Hk]. exists k. split; [exact t1_rel|]. split; [exact Hk|].
  split; [reflexivity|]. split; [exact S0_eq|]. split; [cbn; lia|]. vm_compute. intros H; discriminate H.
Qed.

Example C02_torn_read_inst :
  exists tail, mem_read_all Ps 5 20 (rr_start Ps S0) = map MrEntry es1 ++ tail /\
    (tail = [MrEnd] \/ tail = [MrCorrupt; MrEnd] \/
     tail = [MrEntry x_t; MrEnd] /\ all_zero (dropN j_t ex) = true \/
     (exists y, tail = [MrEntry y; MrEnd] /\ y <> x_t /\ crc_collision Ps)).
Proof.
  destruct C02_torn_read_premises_satisfiable as (k & H1 & H2 & H3 & H4 & H5 & H6).
  exact (PropC02.C02_torn_read Ps Ps_BS_lo Ps_BS_hi Ps_crc es1 t1 x_t ex k j_t 5 20 S0 H1 H2 H3 H4 H5 H6).
Qed.
(* C02_torn_read_nocoll and C12_torn_entry_all_or_nothing have the same premises plus
   no_zero_collision (false for Ps, real CRC-32 and BS = 16 >= 15: VacCrc.crc32_refutes_nzc;
   with a witness checksum: VacAudit2.SatTorn). *)

Example C02_torn_read_computed :
  mem_read_all Ps 5 20 (rr_start Ps S0) = map MrEntry es1 ++ [MrEnd].
Proof. vm_compute. reflexivity. Qed.

Example C02_torn_read_written_inst :
  let w := fst (mem_write_all Ps (mkVecW 0 []) es1) in
  let w' := fst (write_record Ps vecw vw_write (vw_rem Ps) w x_t) in
  let S := mem_stream Ps (takeN (lenN (vw_buf w) + j_t) (vw_buf w')) in
  let fuel := N.to_nat (lenN S / HEADER_LEN + lenN S / BS Ps + 4) in
  exists tail, mem_read_all Ps fuel fuel (rr_start Ps S) = map MrEntry es1 ++ tail.
Proof.
  cbv zeta.
  destruct (PropC02.C02_torn_read_written Ps Ps_BS_lo Ps_BS_hi Ps_crc es1 x_t j_t _ _ _ _
              eq_refl eq_refl ltac:(vm_compute; reflexivity) eq_refl eq_refl) as (tail & H & _).
  exists tail. exact H.
Qed.

Example C02_torn_resume_inst :
  exists r, at_pos Ps S0 (rr_fr (snd (mem_read_fin Ps 5 20 (rr_start Ps S0)))) r /\
            lenN t1 <= r /\ all_zero (dropN r S0) = true /\ r + BS Ps <= lenN S0.
Proof.
  destruct C02_torn_read_premises_satisfiable as (k & H1 & H2 & H3 & H4 & H5 & H6).
  destruct (PropC02.C02_torn_resume Ps Ps_BS_lo Ps_BS_hi Ps_crc es1 t1 x_t ex k j_t 5 20 S0
              H1 H2 H3 H4 H5 H6) as (r & Ha & Hb & Hc & _ & _ & Hd).
  exists r. auto.
Qed.

(* C02_torn_then_append: the resume position r comes from C02_torn_resume; the entries es2 are
   written from there; the fuels are chosen from the stream *)
Example C02_torn_then_append_inst :
  exists r S' fuel' gofuel' corr,
    at_pos Ps S0 (rr_fr (snd (mem_read_fin Ps 5 20 (rr_start Ps S0)))) r /\
    S' = mem_stream Ps (takeN r S0 ++ encs_of Ps r es2) /\
    mem_read_all Ps fuel' gofuel' (rr_start Ps S') =
      map MrEntry es1 ++ corr ++ map MrEntry es2 ++ [MrEnd] /\
    corr_ok Ps x_t ex j_t corr.
Proof.
  destruct C02_torn_read_premises_satisfiable as (k & H1 & H2 & H3 & H4 & H5 & H6).
  destruct (PropC02.C02_torn_resume Ps Ps_BS_lo Ps_BS_hi Ps_crc es1 t1 x_t ex k j_t 5 20 S0
              H1 H2 H3 H4 H5 H6) as (r & Ha & _).
  set (t2 := encs_of Ps r es2). set (S' := mem_stream Ps (takeN r S0 ++ t2)).
  destruct (PropC02.C02_torn_then_append Ps Ps_BS_lo Ps_BS_hi Ps_crc es1 t1 x_t ex k j_t 5 20 S0
              H1 H2 H3 H4 H5 H6 r Ha es2 t2 S' (length es1 + length es2 + 3)%nat
              (N.to_nat (lenN S'))) as (corr & Hr & Hc).
  - apply (encs_of_rel Ps Ps_BS_lo Ps_BS_hi Ps_crc).
  - reflexivity.
  - lia.
  - lia.
  - exists r, S', (length es1 + length es2 + 3)%nat, (N.to_nat (lenN S')), corr. auto.
Qed.

Example C07_roundtrip_mem_inst :
  exists ns written,
    mem_roundtrip Ps (es1 ++ [x_t] ++ es2) = (ns, written, map MrEntry (es1 ++ [x_t] ++ es2) ++ [MrEnd]).
Proof.
  destruct (PropC07.C07_roundtrip_mem Ps Ps_BS_lo Ps_BS_hi Ps_crc (es1 ++ [x_t] ++ es2))
    as (ns & wr & H & _). now exists ns, wr.
Qed.

Example C07_write_count_inst :
  exists w' n, write_record Ps vecw vw_write (vw_rem Ps) (mkVecW 80 t1) x_t = (w', Ok n) /\
               vw_cursor w' = 80 + n.
Proof.
  destruct (PropC07.C07_write_never_fails Ps Ps_BS_lo Ps_BS_hi Ps_crc (mkVecW 80 t1) x_t) as (w' & n & H).
  exists w', n. split; [exact H|].
  exact (proj1 (PropC07.C07_write_count Ps Ps_BS_lo Ps_BS_hi Ps_crc _ _ _ _ H)).
Qed.

Definition e_wf : entry := EAppend qa 7 [(7, ["x"]%byte); (9, []); (2 ^ 64 - 1, ["y"; "z"]%byte)].
Lemma e_wf_ok : wf_entry e_wf.
Proof.
  unfold e_wf, wf_entry. cbn [entry_queue entry_pos].
  split; [vm_compute; reflexivity|]. split; [vm_compute; reflexivity|].
  split; [vm_compute; reflexivity|].
  constructor; [split; vm_compute; reflexivity|].
  constructor; [split; vm_compute; reflexivity|].
  constructor; [split; vm_compute; reflexivity|constructor].
Qed.

Example C07_entry_codec_inst : entry_deser (entry_ser e_wf) = Some e_wf.
Proof. exact (PropC07.C07_entry_codec e_wf e_wf_ok). Qed.

Example C07_batch_codec_inst :
  let recs := [(7, ["x"]%byte); (9, []); (2 ^ 64 - 1, ["y"; "z"]%byte)] in
  multi_parse (multi_fuel (multi_ser recs)) (multi_ser recs) = Some recs.
Proof.
  apply PropC07.C07_batch_codec.
  constructor; [split; vm_compute; reflexivity|].
  constructor; [split; vm_compute; reflexivity|].
  constructor; [split; vm_compute; reflexivity|constructor].
Qed.

Example C08_entry_deser_sound_inst :
  exists extra, entry_ser (ETruncate qa 4) ++ ["j"; "k"]%byte = entry_ser (ETruncate qa 4) ++ extra.
Proof.
  destruct (PropC08.C08_entry_deser_sound (entry_ser (ETruncate qa 4) ++ ["j"; "k"]%byte)
              (ETruncate qa 4) ltac:(vm_compute; reflexivity)) as (extra & H & _).
  now exists extra.
Qed.

Example C08_append_deser_exact_inst : wf_entry e_wf.
Proof.
  exact (proj2 (PropC08.C08_append_deser_exact (entry_ser e_wf) qa 7 _ C07_entry_codec_inst)).
Qed.

Example C12_batch_decodes_whole_inst : wf_entry e_wf.
Proof.
  exact (proj2 (PropC12.C12_batch_decodes_whole (entry_ser e_wf) qa 7 _ C07_entry_codec_inst)).
Qed.

Example C12_multi_parse_sound_inst :
  Forall wf_rec [(7, ["x"]%byte); (9, []); (2 ^ 64 - 1, ["y"; "z"]%byte)].
Proof.
  exact (proj2 (PropC12.C12_multi_parse_sound _ _ _ C07_batch_codec_inst)).
Qed.

Example C12_append_entry_roundtrip_inst :
  entry_deser (entry_ser (EAppend qa 5 (number_from 5 [["x"]%byte; []; ["y"; "z"]%byte]))) =
  Some (EAppend qa 5 (number_from 5 [["x"]%byte; []; ["y"; "z"]%byte])).
Proof.
  apply PropC12.C12_append_entry_roundtrip.
  - vm_compute; reflexivity.
  - vm_compute; reflexivity.
  - vm_compute; intros H; discriminate H.
  - vm_compute; reflexivity.
  - constructor; [vm_compute; reflexivity|]. constructor; [vm_compute; reflexivity|].
    constructor; [vm_compute; reflexivity|constructor].
Qed.

(* PropC09 (stream level) / PropC08 / PropC12: CRC-detected damage *)
(* C09_one_damaged_entry / C12_damaged_entry_dropped_whole: the premise is the run of the writer *)
Example C09_one_damaged_entry_inst :
  exists t1' ex0 k t2',
    vw_buf (fst (mem_write_all Ps (mkVecW 0 []) (es1 ++ [x_t] ++ es2))) = t1' ++ ex0 ++ t2' /\
    enc_rel Ps (lenN t1') true x_t ex0 k /\
    exists ed, enc_dmg Ps (lenN t1') true x_t ex0 ed k /\
      mem_read_stream Ps (mem_stream Ps (t1' ++ ed ++ t2')) =
      map MrEntry es1 ++ [MrCorrupt] ++ map MrEntry es2 ++ [MrEnd].
Proof.
  destruct (mem_write_all Ps (mkVecW 0 []) (es1 ++ [x_t] ++ es2)) as [w ns] eqn:Ew.
  destruct (PropC09.C09_one_damaged_entry Ps Ps_BS_lo Ps_BS_hi Ps_crc es1 x_t es2 w ns Ew)
    as (t1' & ex0 & k & t2' & Hb & Hr & Hall).
  destruct (PropC09.C09_damage_exists Ps Ps_BS_lo Ps_BS_hi Ps_crc _ _ _ _ _ Hr) as (ed & Hd).
  exists t1', ex0, k, t2'. cbn [fst]. split; [exact Hb|]. split; [exact Hr|].
  exists ed. split; [exact Hd|]. exact (proj2 (Hall ed Hd)).
Qed.

Example C12_damaged_entry_dropped_whole_inst :
  exists t1' ex0 k t2',
    vw_buf (fst (mem_write_all Ps (mkVecW 0 []) (es1 ++ [x_t] ++ es2))) = t1' ++ ex0 ++ t2' /\
    enc_rel Ps (lenN t1') true x_t ex0 k.
Proof.
  destruct (mem_write_all Ps (mkVecW 0 []) (es1 ++ [x_t] ++ es2)) as [w ns] eqn:Ew.
  destruct (PropC12.C12_damaged_entry_dropped_whole Ps Ps_BS_lo Ps_BS_hi Ps_crc es1 x_t es2 w ns Ew)
    as (t1' & ex0 & k & t2' & Hb & Hr & _).
  exists t1', ex0, k, t2'. auto.
Qed.

Lemma forallb_map_true {A} (f : A -> bool) l : forallb f l = true -> map f l = repeat true (length l).
Proof.
  induction l as [|x l IH]; intros H; [reflexivity|].
  cbn [forallb] in H. apply andb_true_iff in H.
  cbn [map length repeat]. now rewrite (proj1 H), (IH (proj2 H)).
Qed.

Lemma intact_mask P pxs1 x pxs2 :
  forallb (intact P) pxs1 = true -> intact P x = false -> forallb (intact P) pxs2 = true ->
  map (intact P) (pxs1 ++ x :: pxs2) = repeat true (length pxs1) ++ false :: repeat true (length pxs2).
Proof.
  intros H1 Hx H2. rewrite map_app. cbn [map].
  now rewrite Hx, (forallb_map_true _ _ H1), (forallb_map_true _ _ H2).
Qed.

(* C09_general / C08_detected_damage_subsequence: encs_any with a REALLY damaged entry:
   es1 intact, x_t with one frame damaged (from C09_damage_exists), es2 intact *)
Lemma encs_any_damaged_exists :
  exists pxs t, encs_any Ps 0 pxs t /\ map fst pxs = es1 ++ [x_t] ++ es2 /\
                map (intact Ps) pxs = [true; true; false; true; true].
Proof.
  destruct (encs_rel_any Ps Ps_BS_lo Ps_BS_hi Ps_crc 0 es1 t1 t1_rel) as (pxs1 & Ha1 & Hm1 & Hi1).
  destruct ex_rel as [k Hk].
  destruct (PropC09.C09_damage_exists Ps Ps_BS_lo Ps_BS_hi Ps_crc _ _ _ _ _ Hk) as (ed & Hd).
  destruct (enc_dmg_any Ps Ps_BS_lo Ps_BS_hi Ps_crc _ _ _ _ _ _ Hd) as (xs & Hx & Hbad & _).
  pose proof (encs_of_rel Ps Ps_BS_lo Ps_BS_hi Ps_crc es2 (0 + lenN t1 + lenN ed)) as Hr2.
  destruct (encs_rel_any Ps Ps_BS_lo Ps_BS_hi Ps_crc _ es2 _ Hr2) as (pxs2 & Ha2 & Hm2 & Hi2).
  exists (pxs1 ++ (x_t, xs) :: pxs2), (t1 ++ ed ++ encs_of Ps (0 + lenN t1 + lenN ed) es2).
  split.
  - apply (encs_any_app Ps Ps_BS_lo Ps_BS_hi Ps_crc 0 pxs1 t1 Ha1).
    econstructor; [exact Hx|exact Ha2].
  - split; [rewrite map_app; cbn [map fst]; now rewrite Hm1, Hm2|].
    assert (L1 : length pxs1 = 2%nat) by (rewrite <- (map_length fst), Hm1; reflexivity).
    assert (L2 : length pxs2 = 2%nat) by (rewrite <- (map_length fst), Hm2; reflexivity).
    rewrite (intact_mask Ps pxs1 (x_t, xs) pxs2 Hi1 Hbad Hi2), L1, L2. reflexivity.
Qed.

Example C09_general_inst :
  exists pxs t,
    encs_any Ps 0 pxs t /\
    delivered (mem_read_stream Ps (mem_stream Ps t)) = es1 ++ es2.
Proof.
  destruct encs_any_damaged_exists as (pxs & t & Ha & Hm & Hi).
  destruct (PropC09.C09_general Ps Ps_BS_lo Ps_BS_hi Ps_crc pxs t Ha) as (t0 & _ & _ & Hout & Hdel & _).
  exists pxs, t. split; [exact Ha|]. rewrite Hdel.
  destruct pxs as [|p1 [|p2 [|p3 [|p4 [|p5 [|]]]]]]; try discriminate Hi.
  cbn [map] in Hi. injection Hi as I1 I2 I3 I4 I5. cbn [filter]. rewrite I1, I2, I3, I4, I5.
  cbn [map fst app] in *. injection Hm as -> -> _ -> ->. reflexivity.
Qed.

Example C08_detected_damage_subsequence_inst :
  exists pxs t,
    encs_any Ps 0 pxs t /\ map (intact Ps) pxs = [true; true; false; true; true] /\
    DamageProofs.sublist (delivered (mem_read_stream Ps (mem_stream Ps t))) (map fst pxs).
Proof.
  destruct encs_any_damaged_exists as (pxs & t & Ha & Hm & Hi).
  destruct (PropC08.C08_detected_damage_subsequence Ps Ps_BS_lo Ps_BS_hi Ps_crc pxs t Ha)
    as (t0 & _ & _ & _ & _ & Hsub & _).
  exists pxs, t. auto.
Qed.

(* C09_bad_crc_frame: a stream starting with one Full frame whose checksum field is wrong *)
Definition pl_bad : bytes := ["h"; "e"; "l"; "l"; "o"]%byte.
Definition c4_bad : bytes :=
  Eval vm_compute in le_enc 4 ((Crc.crc32 (n2b (ft_code Full)) pl_bad + 1) mod 2 ^ 32).
Definition S_bad : bytes := Eval vm_compute in dframe c4_bad Full pl_bad ++ zerosN 20.

Example C09_bad_crc_frame_inst :
  exists fr', read_frame Ps vecr (vr_next Ps) vr_block (rr_fr (rr_start Ps S_bad)) = (fr', FCorrupt) /\
              fr_corrupt fr' = false /\ at_pos Ps S_bad fr' (0 + lenN (pad_of Ps 0) + 7 + lenN pl_bad).
Proof.
  apply (PropC09.C09_bad_crc_frame Ps Ps_BS_lo Ps_BS_hi Ps_crc S_bad (rr_fr (rr_start Ps S_bad)) 0 []
           c4_bad Full pl_bad (zerosN 20)).
  - exists 2. vm_compute. reflexivity.
  - apply (rr_start_at Ps Ps_BS_lo Ps_BS_hi Ps_crc). vm_compute. intros H; discriminate H.
  - vm_compute. reflexivity.
  - reflexivity.
  - vm_compute. reflexivity.
  - vm_compute. intros H; discriminate H.
  - vm_compute. intros H; discriminate H.
Qed.
