(* VacRecovered.v — vacuity audit of CrashRecovered.crash_recovered_usable.
   (1) ALL premises (crash_setting and the section hypotheses, including no_zero_collision) are
       jointly satisfiable: params P_sat 32 8 of NzcVacuous (a checksum for which
       no_zero_collision holds), history create qa; append; then the interrupted call append.
       The theorem is applied to this instance.
   (2) With the REAL CRC-32 (BS = 32, NB = 8) the conclusion is checked by computation on every
       crash image of that call: recover, run a continuation (append, create, truncate with GC),
       restart, compare the abstract states. Some of the images contain junk (torn frames). *)
From Coq Require Import Lia ZArith ZifyN ZifyNat ZifyBool List.
From MRL Require Import Bytes BytesProofs Params Names Frame Record Mem Spec Rolling Log Driver Hist
  WriterProofs SpecRefine RecordProofs StreamProofs ResyncProofs GhostLog ReplaySpec TornProofs
  RestartInv RestartWrite RestartStep OpenReplay RestartFinal CrashTrace CrashAtomic NzcVacuous
  VacBase VacCrash CrashRecovered.
Import ListNotations.
Import CrashAtomic.CrashExample.

Definition Pv : params := P_sat 32 8.
Lemma Pv_BS_lo : 7 < BS Pv. Proof. reflexivity. Qed.
Lemma Pv_BS_hi : BS Pv <= 65542. Proof. intros H; discriminate H. Qed.
Lemma Pv_NB : 1 <= NB Pv. Proof. intros H; discriminate H. Qed.
Lemma Pv_crc : forall t p, crcf Pv t p < 2 ^ 32. Proof. exact crc_sat_lt. Qed.
Lemma Pv_nzc : no_zero_collision Pv. Proof. apply nzc_P_sat. intros H; discriminate H. Qed.

Definition h1 : list hop :=
  [HCall (OCreate qa) false; HCall (OAppend qa None [pay "x"%byte]) false].
Definition sv0 : state :=
  Eval vm_compute in match open Pv [] None (PAlways true) [] with OpenOk s => s | _ => st_dummy end.
Definition sv_a : state :=
  Eval vm_compute in match hrun Pv sv0 h1 with Some (s, _) => s | None => st_dummy end.
Definition outs_a : list outcome :=
  Eval vm_compute in match hrun Pv sv0 h1 with Some (_, o) => o | None => [] end.
Definition o_v : op := OAppend qa None [pay "y"%byte].
Definition sv_b : state := Eval vm_compute in fst (step Pv sv_a o_v false).
Definition out_b : outcome := Eval vm_compute in snd (step Pv sv_a o_v false).

Lemma open_sv0 : open Pv [] None (PAlways true) [] = OpenOk sv0.
Proof. vm_compute. reflexivity. Qed.
Lemma hrun_a : hrun Pv sv0 h1 = Some (sv_a, outs_a).
Proof. vm_compute. reflexivity. Qed.
Lemma step_b : step Pv sv_a o_v false = (sv_b, out_b).
Proof. vm_compute. reflexivity. Qed.

Lemma hist_ok_a : hist_ok Pv sv0 h1.
Proof. unfold h1. call_tac. call_tac. exact I. Qed.

Lemma inv_a : exists G, Inv Pv sv_a G.
Proof.
  destruct (inv_hrun_fresh Pv Pv_BS_lo Pv_BS_hi Pv_NB Pv_crc eq_refl eq_refl _ _ _ _ _ open_sv0 hist_ok_a hrun_a)
    as (G & HI & _).
  now exists G.
Qed.

Example setting_shape :
  w_files (s_wr sv_a) = [0] /\ w_off (s_wr sv_a) = 74 /\ w_off (s_wr sv_b) = 122 /\
  FILE_BYTES Pv = 256 /\ w_file (s_wr sv_b) = 0.
Proof. vm_compute. repeat split; reflexivity. Qed.

Theorem crash_setting_satisfiable : exists G, crash_setting Pv sv_a G true o_v false sv_b out_b.
Proof.
  destruct inv_a as (G & HI). exists G.
  assert (Hb1 : crash_phys_bound Pv (s_wr sv_a) (map snd (step_log Pv sv_a o_v)) (abs_qs (s_qs sv_a))).
  { apply (crash_phys_bound_by Pv Pv_BS_lo Pv_BS_hi Pv_NB Pv_crc 64); [vm_compute; reflexivity|le_tac]. }
  assert (Hb2 : crash_phys_bound Pv (s_wr sv_a) (map snd (step_log Pv sv_a o_v)) (abs_qs (s_qs sv_b))).
  { apply (crash_phys_bound_by Pv Pv_BS_lo Pv_BS_hi Pv_NB Pv_crc 64); [vm_compute; reflexivity|le_tac]. }
  destruct (crash_bounds_by Pv Pv_BS_lo Pv_BS_hi Pv_NB Pv_crc _ G _ _ _ HI Hb1 Hb2) as (Hs & Hc1 & Hc2).
  split; [exact HI|]. split; [reflexivity|]. split; [reflexivity|].
  split; [unfold o_v; wf_tac|].
  split; [exact Hs|]. split; [exact Hc1|]. split; [exact Hc2|]. split; [exact step_b|].
  split; [intros e H; discriminate H|].
  split; [reflexivity|]. le_tac.
Qed.

Theorem crash_recovered_usable_inst :
  exists evs, c_ev (w_ctx (s_wr sv_b)) = rev evs ++ c_ev (w_ctx (s_wr sv_a)) /\
    forall cut k pol hint,
      exists st_r,
        open Pv (fold_left apply_event (crash_events evs cut k) (c_fs (w_ctx (s_wr sv_a)))) None pol hint
          = OpenOk st_r /\
        forall h2 st2 outs2, hrun Pv st_r h2 = Some (st2, outs2) -> hist_ok Pv st_r h2 ->
          restart_bound Pv st2 ->
          forall pol2 hint2, exists st3,
            restart Pv st2 pol2 hint2 = OpenOk st3 /\
            (forall q, s_get (abs_qs (s_qs st3)) q = s_get (abs_qs (s_qs st2)) q).
Proof.
  destruct crash_setting_satisfiable as (G & Hset).
  destruct (crash_recovered_usable Pv Pv_BS_lo Pv_BS_hi Pv_NB Pv_crc eq_refl eq_refl eq_refl Pv_nzc
              sv_a G true o_v false sv_b out_b Hset) as (evs & Hev & Hall).
  exists evs. split; [exact Hev|]. intros cut k pol hint.
  destruct (Hall cut k pol hint) as (st_r & Hopen & _ & _ & Hres).
  exists st_r. split; [exact Hopen|exact Hres].
Qed.

Definition Pr : params := mkParams 32 8 Crc.crc32 0 false false false.
Definition sr0 : state :=
  Eval vm_compute in match open Pr [] None (PAlways true) [] with OpenOk s => s | _ => st_dummy end.
Definition sr_a : state :=
  Eval vm_compute in match hrun Pr sr0 h1 with Some (s, _) => s | None => st_dummy end.
Definition sr_b : state := Eval vm_compute in fst (step Pr sr_a o_v false).

(* the continuation after recovery: an append, a create, a truncate that empties qa (its GC
   may write position entries), then a restart *)
Definition h2 : list hop :=
  [HCall (OAppend qa None [pay "z"%byte; pay "z"%byte; pay "z"%byte]) false;
   HCall (OCreate qb) false;
   HCall (OAppend qb None [pay "w"%byte; pay "w"%byte; pay "w"%byte; pay "w"%byte]) false;
   HCall (OTruncate qa 100 [qb]) false].

(* 1 = recovery ok, continuation ok, restart ok and abstractly the identity; 0 = anything else;
   second component: the image holds a proper non-empty prefix of the two data writes of the
   call (a torn frame, or the complete First frame without its Last frame), i.e. junk that the
   recovery skips: the recovered writer resumes at offset 96 or 128, not at 74 / 122 *)
Definition usable_verdict (evs : list event) (ck : N * N) : N * bool :=
  let img := fold_left apply_event (crash_events evs (fst ck) (snd ck)) (c_fs (w_ctx (s_wr sr_a))) in
  match open Pr img None (PAlways true) [] with
  | OpenOk st_r =>
      let junk := ((fst ck =? 0) && (0 <? snd ck)) || (fst ck =? 1) in
      match hrun Pr st_r h2 with
      | Some (st2, _) =>
          match restart Pr st2 (PAlways true) [] with
          | OpenOk st3 =>
              (if smap_ext_eqb (abs_qs (s_qs st3)) (abs_qs (s_qs st2)) then 1 else 0, junk)
          | _ => (0, junk)
          end
      | None => (0, junk)
      end
  | _ => (0, false)
  end.

Definition usable_census : N * N * N :=
  let evs := new_events sr_a sr_b in
  let vs := map (usable_verdict evs) (crash_points evs) in
  (lenN vs, lenN (filter (fun v => fst v =? 1) vs), lenN (filter (fun v => snd v) vs)).

(* (crash images, images for which recovery + continuation + restart is the identity,
    images with junk) *)
Example usable_census_ex : usable_census = (52, 52, 47).
Proof. vm_compute. reflexivity. Qed.

Print Assumptions crash_setting_satisfiable.
Print Assumptions crash_recovered_usable_inst.
