(* JunkStream.v — reading a WAL stream that contains junk (stream level, block reader
   vecr of Driver.v).

   The stream is  PRE ++ post  where PRE is built from
     - clean framed encodings (encs_rel),
     - junk segments (junk_at: a reader positioned at their start walks over them without
       delivering a record, reporting at most one corruption, and then reads at their end r).
   pre_cont PRE ops opos adm cmax rm  says, in continuation form, what a reader started at an
   admissible block boundary inside PRE delivers before it arrives at the end of PRE.
   Constructors: pre_cont_nil, pre_cont_clean (append a clean encoding), pre_cont_walk (append a
   segment over which the reader walks without delivering anything).  Closed form: pre_reads
   (PRE followed by a clean encoding and zeros), the premise needed by `open` (JReopen.v). *)
From Coq Require Import Lia ZArith ZifyN ZifyNat ZifyBool List Sorted.
From MRL Require Import Bytes BytesProofs Params Frame Driver StreamProofs DamageProofs TornProofs
  ResyncProofs OpenTerm OpenReplay TornFile KWalk.

Section JunkStream.
Variable P : params.
Hypothesis HBS_lo : 7 < BS P.
Hypothesis HBS_hi : BS P <= 65542.
Hypothesis Hcrc : forall t p, crcf P t p < 2 ^ 32.

Local Notation B := (BS P).
Local Notation rframe := (read_frame P vecr (vr_next P) vr_block).
Local Notation gonext := (go_next P vecr (vr_next P) vr_block).
Local Notation encrel := (enc_rel P).
Local Notation encsrel := (encs_rel P).
Local Notation rdat := (rd_at P).
Local Notation atpos := (at_pos P).
Local Notation atposn := (at_posn P).
Local Notation readsat := (reads_at P).
Local Notation sok := (stream_ok P).
Local Notation ffp := (first_frame_pos P).
Local Notation starts := (starts P).
Local Notation delivered_from := (delivered_from P).
Local Notation skipped_before := (skipped_before P).
Local Notation cursor_after := (cursor_after P).
Local Notation bpos := (bpos P).
Local Notation tr_ok := (tr_ok P).
Local Notation readsC := (reads_trc P (vr_next P) vr_block).
Local Notation H3 f := (f P HBS_lo HBS_hi Hcrc) (only parsing).
Local Notation H2 f := (f P HBS_lo HBS_hi) (only parsing).

Lemma at_pos_in S a : sok S -> a < lenN S -> atpos S (rdat S (a / B) (a mod B)) a.
Proof.
  intros [m Hm] Ha. pose proof (N.div_mod a B ltac:(lia)) as Hdm.
  pose proof (N.mod_lt a B ltac:(lia)) as Hlt.
  exists (a / B), (a mod B). repeat split; try lia.
  rewrite Hm in *. apply (H2 TornProofs.blocks_above m (a / B) (a mod B + 1)); lia.
Qed.

Lemma readsC_mono g1 rr l c rrf :
  readsC g1 rr l c rrf -> forall g2, (g1 <= g2)%nat -> readsC g2 rr l c rrf.
Proof.
  induction 1 as [rr rr' Hgo | rr rr' l c rrf Hgo Htr IH | rr rr' l c rrf Hgo Htr IH]; intros g2 Hle.
  - apply RC_end. apply (go_next_mono P vecr _ _ _ _ _ _ _ Hgo); [discriminate|exact Hle].
  - eapply RC_rec; [|apply IH; exact Hle].
    apply (go_next_mono P vecr _ _ _ _ _ _ _ Hgo); [discriminate|exact Hle].
  - eapply RC_cor; [|apply IH; exact Hle].
    apply (go_next_mono P vecr _ _ _ _ _ _ _ Hgo); [discriminate|exact Hle].
Qed.

Lemma at_posn_ffp S fr r : atposn S fr r -> ffp r = r.
Proof.
  intros (k & c & Hr & Hc & _ & _). subst r. rewrite (H2 ffp_kc) by lia.
  destruct (N.ltb_spec (B - c) 7); lia.
Qed.

(* the entries whose first frame is at or after a threshold b *)
Definition dfilter (b : N) (es : list bytes) (pos : list (N * N)) : list (bytes * (N * N)) :=
  filter (fun x => b <=? snd (snd x)) (combine es pos).

Lemma dfilter_none b es pos :
  Forall (fun s => snd s < b) pos -> dfilter b es pos = [].
Proof.
  unfold dfilter. revert pos. induction es as [|e es IH]; intros [|s pos] H; cbn [combine filter];
    try reflexivity.
  inversion H as [|? ? Hs Hr]; subst. cbn [snd]. destruct (N.leb_spec b (snd s)); [lia|]. now apply IH.
Qed.

Lemma dfilter_all b es pos :
  Forall (fun s => b <= snd s) pos -> dfilter b es pos = combine es pos.
Proof.
  unfold dfilter. revert pos. induction es as [|e es IH]; intros [|s pos] H; cbn [combine filter];
    try reflexivity.
  inversion H as [|? ? Hs Hr]; subst. cbn [snd]. destruct (N.leb_spec b (snd s)); [|lia].
  f_equal. now apply IH.
Qed.

Lemma dfilter_app b es1 es2 pos1 pos2 :
  length es1 = length pos1 ->
  dfilter b (es1 ++ es2) (pos1 ++ pos2) = dfilter b es1 pos1 ++ dfilter b es2 pos2.
Proof.
  intros H. unfold dfilter. rewrite (combine_app es1 pos1 es2 pos2 H). apply filter_app.
Qed.

Lemma dfilter_starts b es : forall a,
  dfilter b es (starts a es) =
  combine (delivered_from b a es)
          (starts (cursor_after a (skipped_before b a es)) (delivered_from b a es)).
Proof.
  induction es as [|p ps IH]; intros a; cbn [ResyncProofs.starts ResyncProofs.delivered_from
    ResyncProofs.skipped_before]; [reflexivity|].
  unfold dfilter. cbn [combine filter snd].
  destruct (N.leb_spec b (ffp a)) as [Hle|Hgt].
  - rewrite (H2 cursor_after_nil). cbn [ResyncProofs.starts combine]. f_equal.
    apply dfilter_all.
    pose proof (H3 starts_sorted (p :: ps) a) as Hs. cbn [ResyncProofs.starts] in Hs.
    inversion Hs as [|s l _ Hall]; subst.
    eapply Forall_impl; [|exact Hall]. cbn beta. cbn [snd]. intros s Hlt. lia.
  - rewrite (H3 cursor_after_cons). apply IH.
Qed.

Lemma ffp_mono a b : a <= b -> ffp a <= ffp b.
Proof. exact (H2 ffp_mono_r a b). Qed.

Lemma reads_at_bpos S fr r : readsat S fr r -> bpos S (fr_rd fr) <= r.
Proof.
  intros (fr0 & (k & c & Hr & Hc & Hblk & Hfr0) & Hrf).
  pose proof (read_frame_rest P HBS_lo HBS_hi fr) as Hrest. rewrite Hrf in Hrest.
  assert (E : fr_rd (fst (rframe fr0)) = fr_rd fr0).
  { rewrite FileStream.read_frame_unfold. subst fr0. unfold StreamProofs.rd_at.
    cbn [fr_corrupt fr_cursor fr_rd orb]. unfold HEADER_LEN.
    destruct (N.ltb_spec (B - c) 7) as [Hlt|_]; [lia|].
    apply (read_here_rd P). }
  rewrite E in Hrest. subst fr0. unfold StreamProofs.rd_at in Hrest. cbn [fr_rd vr_rest] in Hrest.
  rewrite lenN_dropN in Hrest. unfold OpenReplay.bpos. lia.
Qed.

(* arrival: the reader is about to read at position a.
   rr is the reader from which the next go_next is issued; that call behaves as a go_next with
   fuel g of the reader rr1, which sits exactly at a; the fuel consumed so far is paid for by
   the bytes before a *)
Definition arrive (S : bytes) (gofuel : nat) (a : N) (rr rr1 : rreader vecr) (g : nat) : Prop :=
  gonext gofuel rr = gonext g rr1 /\ atpos S (rr_fr rr1) a /\
  bpos S (fr_rd (rr_fr rr)) <= ffp a /\
  (g <= gofuel)%nat /\ 7 * N.of_nat (gofuel - g) <= a.

Lemma arrive_here S gofuel a rr : atpos S (rr_fr rr) a -> arrive S gofuel a rr rr gofuel.
Proof.
  intros Hat. split; [reflexivity|]. split; [exact Hat|].
  pose proof (at_pos_bpos P HBS_lo HBS_hi Hcrc S _ _ Hat). pose proof (H2 ffp_ge a).
  split; [lia|]. split; [lia|]. replace (gofuel - gofuel)%nat with 0%nat by lia. lia.
Qed.

Lemma arrive_clean a es t :
  encsrel a es t ->
  forall S pre post gofuel rr rr1 g,
    sok S -> S = pre ++ t ++ post -> lenN pre = a ->
    a + lenN t + 7 <= 7 * N.of_nat gofuel ->
    arrive S gofuel a rr rr1 g ->
    exists rrs rr' rr1' g',
      length rrs = length es /\ tr_ok S rrs (starts a es) /\
      arrive S gofuel (a + lenN t) rr' rr1' g' /\
      forall l' c' rrf, readsC gofuel rr' l' c' rrf -> readsC gofuel rr (combine rrs es ++ l') c' rrf.
Proof.
  intros Hes S pre post gofuel rr rr1 g Hok HS Hpre Hgf (Hgo & Hat & Hb & Hg & Hpaid).
  inversion Hes as [a0 Ha0 Hnil Ht | a0 p ps e k t' He Hps Ha0 Hcons Ht]; subst a0 es t.
  - exists [], rr, rr1, g. rewrite (@lenN_nil byte), N.add_0_r.
    cbn [length combine app ResyncProofs.starts].
    split; [reflexivity|]. split; [constructor|]. split; [repeat split; assumption|].
    intros l' c' rrf H. exact H.
  - destruct rr1 as [fr1 rbuf1 within1]. cbn [rr_fr] in Hat.
    rewrite <- !app_assoc in HS. rewrite lenN_app in *.
    pose proof (H3 StreamProofs.enc_rel_frames _ _ _ _ _ He) as [Hk Hk'].
    destruct (H3 StreamProofs.go_next_record a true p e k He S pre (t' ++ post) fr1 rbuf1 within1 g
                Hok Hat HS Hpre)
      as (fr' & Hgo' & Hat'); [left; reflexivity | lia |].
    cbn [app] in Hgo'.
    destruct (run_trc P HBS_lo HBS_hi Hcrc (a + lenN e) ps t' Hps S (pre ++ e) post
                (mkRR fr' p false) gofuel Hok Hat')
      as (rrs & rr' & Hlen & Hat'' & Htr & Hcont).
    { rewrite HS, <- app_assoc. reflexivity. }
    { rewrite lenN_app. lia. }
    { lia. }
    exists (rr :: rrs), rr', rr', gofuel.
    split; [cbn [length]; now rewrite Hlen|].
    split.
    { rewrite (H3 starts_cons_rel a p ps e k He). constructor; [exact Hb | exact Htr]. }
    split.
    { replace (a + (lenN e + lenN t')) with (a + lenN e + lenN t') by lia.
      exact (arrive_here S gofuel _ rr' Hat''). }
    intros l' c' rrf Hl'. cbn [combine app].
    change p with (rr_buf (mkRR fr' p false)) at 1.
    eapply RC_rec; [rewrite Hgo; exact Hgo'|]. apply Hcont. exact Hl'.
Qed.

(* the trivial arrival: the boundary lies between the cursor a and its first-frame position, so a
   reader at the boundary reads like a reader at a *)
Lemma arrive_after S a kb buf0 gofuel :
  sok S -> a <= kb * B -> kb * B <= ffp a -> (kb + 1) * B <= lenN S -> (1 <= gofuel)%nat ->
  exists rr1, arrive S gofuel a (mkRR (rdat S kb 0) buf0 false) rr1 gofuel.
Proof.
  intros Hok H1 H2' Hblk Hg. destruct gofuel as [|g]; [lia|].
  assert (Hb : kb * B = ffp a) by (apply (H2 boundary_is_ffp); assumption).
  pose proof (at_pos_in S a Hok ltac:(lia)) as Hat.
  exists (mkRR (rdat S (a / B) (a mod B)) buf0 false). split.
  { apply (TornProofs.gonext_cong P). symmetry.
    apply (H3 TornProofs.at_pos_pad S _ a kb 0 Hok Hat);
      [unfold first_frame_pos in Hb; lia | lia | exact Hblk]. }
  split; [exact Hat|].
  split; [cbn [rr_fr]; rewrite (bpos_rd_at P HBS_lo HBS_hi Hcrc) by exact Hblk; exact H2'|].
  split; [lia|]. replace (Datatypes.S g - Datatypes.S g)%nat with 0%nat by lia. lia.
Qed.

(* a reader started at a block boundary inside a run of intact entries, after the first frames of
   all of them, arrives at the end of the run: the boundary lies in the padding after the run, or
   at a frame of the last entry, whose remaining frames are skipped *)
Lemma arrive_resync S pre post a es t kb buf0 gofuel :
  sok S -> S = pre ++ t ++ post -> lenN pre = a -> (kb + 1) * B <= lenN S ->
  encsrel a es t -> a <= kb * B -> Forall (fun s => snd s < kb * B) (starts a es) ->
  (a + lenN t <= kb * B -> kb * B <= ffp (a + lenN t)) ->
  a + lenN t + 7 <= 7 * N.of_nat gofuel ->
  exists rr1 g, arrive S gofuel (a + lenN t) (mkRR (rdat S kb 0) buf0 false) rr1 g.
Proof.
  intros Hok HS Hpre Hblk Hes Ha Hss Hhead Hgf.
  destruct (H3 boundary_cases a es t kb Hes Ha Hss) as [HA1 | (t1' & e1 & e2 & p2 & k2 & Ht1 & Hl & Hrel)].
  - destruct (arrive_after S (a + lenN t) kb buf0 gofuel Hok HA1 (Hhead HA1) Hblk ltac:(lia)) as (rr1 & H).
    exists rr1, gofuel. exact H.
  - destruct (H3 go_next_skip (kb * B) false p2 e2 k2 Hrel eq_refl S (pre ++ t1' ++ e1) post
                (rdat S kb 0) Hok (H3 at_pos_boundary S kb Hblk)) as (fr' & Hat' & Hskip).
    { rewrite HS, Ht1, <- !app_assoc. reflexivity. }
    { rewrite !lenN_app. lia. }
    pose proof (H3 StreamProofs.enc_rel_frames _ _ _ _ _ Hrel) as [Hk2 _].
    assert (Ea1 : kb * B + lenN e2 = a + lenN t) by (rewrite Ht1, !lenN_app; lia).
    exists (mkRR fr' buf0 false), (gofuel - k2)%nat.
    assert (Hk2g : (k2 <= gofuel)%nat) by lia.
    split; [replace gofuel with (k2 + (gofuel - k2))%nat at 1 by lia; apply Hskip|].
    split; [cbn [rr_fr]; rewrite <- Ea1; exact Hat'|].
    split.
    { cbn [rr_fr]. rewrite (bpos_rd_at P HBS_lo HBS_hi Hcrc) by exact Hblk.
      pose proof (H2 ffp_ge (a + lenN t)). lia. }
    split; [lia|]. replace (gofuel - (gofuel - k2))%nat with k2 by lia. lia.
Qed.

Lemma starts_ge_ffp es : forall a, Forall (fun s => ffp a <= snd s) (starts a es).
Proof.
  intros a. destruct es as [|p ps]; [constructor|].
  pose proof (H3 starts_sorted (p :: ps) a) as Hs. cbn [ResyncProofs.starts] in *.
  inversion Hs as [|s l _ Hall]; subst. constructor; [cbn [snd]; lia|].
  eapply Forall_impl; [|exact Hall]. cbn beta. cbn [snd]. intros s Hlt. lia.
Qed.

Lemma starts_lt_end es a t : encsrel a es t -> Forall (fun s => snd s < a + lenN t) (starts a es).
Proof.
  intros Hes. pose proof (H3 starts_bounds es a) as Hb.
  rewrite (H3 cursor_after_rel _ _ _ Hes) in Hb.
  eapply Forall_impl; [|exact Hb]. cbn beta. intros s (_ & _ & H). lia.
Qed.

Definition pre_shape (PRE : bytes) (ops : list bytes) (opos : list (N * N)) : Prop :=
  length ops = length opos /\ Forall (fun s => snd s < lenN PRE) opos.

Definition pre_cont (PRE : bytes) (ops : list bytes) (opos : list (N * N)) (adm : N -> Prop)
    (cmax : nat) (rm : N) : Prop :=
  pre_shape PRE ops opos /\
  forall kb post S buf0 gofuel,
    S = PRE ++ post -> sok S -> (kb + 1) * B <= lenN S -> adm kb -> kb * B <= ffp (lenN PRE) ->
    lenN PRE + rm <= lenN S -> lenN PRE + 14 <= 7 * N.of_nat gofuel ->
    exists rrs c rr rr1 g,
      length rrs = length (dfilter (kb * B) ops opos) /\
      tr_ok S rrs (map snd (dfilter (kb * B) ops opos)) /\ (c <= cmax)%nat /\
      arrive S gofuel (lenN PRE) rr rr1 g /\
      forall l' c' rrf, readsC gofuel rr l' c' rrf ->
        readsC gofuel (mkRR (rdat S kb 0) buf0 false)
               (combine rrs (map fst (dfilter (kb * B) ops opos)) ++ l') (c + c') rrf.

(* what pre_cont promises for one block boundary kb, with the end of the prefix at a *)
Definition delivers (S : bytes) (kb : N) (buf0 : bytes) (gofuel : nat) (ops : list bytes)
    (opos : list (N * N)) (cmax : nat) (a : N) : Prop :=
  exists rrs c rr rr1 g,
    length rrs = length (dfilter (kb * B) ops opos) /\
    tr_ok S rrs (map snd (dfilter (kb * B) ops opos)) /\ (c <= cmax)%nat /\
    arrive S gofuel a rr rr1 g /\
    forall l' c' rrf, readsC gofuel rr l' c' rrf ->
      readsC gofuel (mkRR (rdat S kb 0) buf0 false)
             (combine rrs (map fst (dfilter (kb * B) ops opos)) ++ l') (c + c') rrf.

(* from rr the reader arrives at r, delivering nothing and reporting at most dc corruptions *)
Definition walk_to (S : bytes) (gofuel : nat) (r : N) (dc : nat) (rr : rreader vecr) : Prop :=
  exists c rr' rr1' g', (c <= dc)%nat /\ arrive S gofuel r rr' rr1' g' /\
    forall l' c' rrf, readsC gofuel rr' l' c' rrf -> readsC gofuel rr l' (c + c') rrf.

Lemma walk_to_after S a kb buf0 gofuel dc :
  sok S -> a <= kb * B -> kb * B <= ffp a -> (kb + 1) * B <= lenN S -> (1 <= gofuel)%nat ->
  walk_to S gofuel a dc (mkRR (rdat S kb 0) buf0 false).
Proof.
  intros Hok H1 H2' Hblk Hg.
  destruct (arrive_after S a kb buf0 gofuel Hok H1 H2' Hblk Hg) as (rr1 & Harr).
  exists 0%nat, (mkRR (rdat S kb 0) buf0 false), rr1, gofuel.
  split; [lia|]. split; [exact Harr|]. intros l' c' rrf H. exact H.
Qed.

(* a reader started at a block boundary after all first frames *)
Lemma delivers_boundary S kb buf0 gofuel ops opos cmax dc a :
  Forall (fun s => snd s < kb * B) opos -> (dc <= cmax)%nat ->
  walk_to S gofuel a dc (mkRR (rdat S kb 0) buf0 false) -> delivers S kb buf0 gofuel ops opos cmax a.
Proof.
  intros Hpos Hdc (c & rr & rr1 & g & Hc & Harr & Hk).
  unfold delivers. rewrite (dfilter_none (kb * B) ops opos Hpos).
  exists [], c, rr, rr1, g. cbn [combine length map app].
  split; [reflexivity|]. split; [constructor|]. split; [lia|]. split; [exact Harr|exact Hk].
Qed.

Lemma delivers_walk S kb buf0 gofuel ops opos cmax dc a r :
  delivers S kb buf0 gofuel ops opos cmax a ->
  (forall rr rr1 g, arrive S gofuel a rr rr1 g -> walk_to S gofuel r dc rr) ->
  delivers S kb buf0 gofuel ops opos (dc + cmax) r.
Proof.
  intros (rrs & c & rr & rr1 & g & Hl & Htr & Hc & Harr & Hk) Hw.
  destruct (Hw rr rr1 g Harr) as (c2 & rr' & rr1' & g' & Hc2 & Harr' & Hk').
  exists rrs, (c + c2)%nat, rr', rr1', g'.
  split; [exact Hl|]. split; [exact Htr|]. split; [lia|]. split; [exact Harr'|].
  intros l' c' rrf H. rewrite <- Nat.add_assoc. apply Hk. apply Hk'. exact H.
Qed.

Lemma pre_cont_weaken PRE ops opos (adm adm' : N -> Prop) cmax cmax' rm rm' :
  pre_cont PRE ops opos adm cmax rm ->
  (forall kb, adm' kb -> adm kb) -> (cmax <= cmax')%nat -> rm <= rm' ->
  pre_cont PRE ops opos adm' cmax' rm'.
Proof.
  intros (Hsh & H) Ha Hc Hr. split; [exact Hsh|].
  intros kb post S buf0 gofuel HS Hok Hblk Hadm Hkb Hroom Hgf.
  destruct (H kb post S buf0 gofuel HS Hok Hblk (Ha kb Hadm) Hkb ltac:(lia) Hgf)
    as (rrs & c & rr & rr1 & g & H1 & H2' & H3' & H4 & H5).
  exists rrs, c, rr, rr1, g. split; [exact H1|]. split; [exact H2'|]. split; [lia|].
  split; [exact H4|exact H5].
Qed.

Lemma pre_cont_nil : pre_cont [] [] [] (fun _ => True) 0 0.
Proof.
  split; [split; [reflexivity|constructor]|].
  intros kb post S buf0 gofuel HS Hok Hblk _ Hkb _ Hgf.
  change (lenN (@nil byte)) with 0 in *.
  apply (delivers_boundary S kb buf0 gofuel [] [] 0 0 0); [constructor|lia|].
  apply (walk_to_after S 0 kb buf0 gofuel 0 Hok); [lia|exact Hkb|exact Hblk|lia].
Qed.

Theorem pre_cont_clean PRE ops opos adm cmax rm es t rm' :
  pre_cont PRE ops opos adm cmax rm -> encsrel (lenN PRE) es t -> rm <= lenN t + rm' ->
  pre_cont (PRE ++ t) (ops ++ es) (opos ++ starts (lenN PRE) es) adm cmax rm'.
Proof.
  intros ((Hlen & Hpos) & Hcont) Hes Hrm.
  set (a := lenN PRE) in *.
  assert (Ha2 : lenN (PRE ++ t) = a + lenN t) by (rewrite lenN_app; reflexivity).
  assert (Hposall : Forall (fun s => snd s < a + lenN t) (opos ++ starts a es)).
  { apply Forall_app. split; [|exact (starts_lt_end es a t Hes)].
    eapply Forall_impl; [|exact Hpos]. cbn beta. intros s H. lia. }
  split.
  { split; [rewrite !app_length, (ResyncProofs.starts_length P), Hlen; reflexivity|].
    rewrite Ha2. exact Hposall. }
  intros kb post S buf0 gofuel HS Hok Hblk Hadm Hkb Hroom Hgf.
  rewrite Ha2 in *. rewrite <- app_assoc in HS.
  destruct (N.le_gt_cases (a + lenN t) (kb * B)) as [HA|HA].
  - (* the boundary is at or after the end of the prefix *)
    apply (delivers_boundary S kb buf0 gofuel (ops ++ es) (opos ++ starts a es) cmax 0 (a + lenN t)); [|lia|].
    { eapply Forall_impl; [|exact Hposall]. cbn beta. intros s H. lia. }
    apply (walk_to_after S (a + lenN t) kb buf0 gofuel 0 Hok HA Hkb Hblk). lia.
  - rewrite (dfilter_app (kb * B) ops es opos (starts a es) Hlen).
    destruct (N.le_gt_cases (kb * B) (ffp a)) as [HB|HC].
    + (* the boundary is inside the old prefix *)
      destruct (Hcont kb (t ++ post) S buf0 gofuel HS Hok Hblk Hadm HB)
        as (rrs0 & c & rr & rr1 & g & Hl0 & Htr0 & Hc & Harr & Hk0).
      { rewrite HS, !lenN_app in *. fold a in Hroom |- *. lia. }
      { lia. }
      destruct (arrive_clean a es t Hes S PRE post gofuel rr rr1 g Hok HS eq_refl ltac:(lia) Harr)
        as (rrs1 & rr' & rr1' & g' & Hl1 & Htr1 & Harr' & Hk1).
      assert (Hd2 : dfilter (kb * B) es (starts a es) = combine es (starts a es)).
      { apply dfilter_all. eapply Forall_impl; [|exact (starts_ge_ffp es a)].
        cbn beta. intros s H. lia. }
      rewrite Hd2.
      assert (Hle : length es = length (starts a es)) by (now rewrite (ResyncProofs.starts_length P)).
      exists (rrs0 ++ rrs1), c, rr', rr1', g'.
      rewrite !map_app, (map_fst_combine es (starts a es) Hle), (map_snd_combine es (starts a es) Hle).
      split; [rewrite !app_length, combine_length, <- Hle, Nat.min_id, Hl0, Hl1; reflexivity|].
      split; [apply Forall2_app; assumption|]. split; [exact Hc|]. split; [exact Harr'|].
      intros l' c' rrf Hl'.
      rewrite (combine_app rrs0 (map fst (dfilter (kb * B) ops opos)) rrs1 es)
        by (rewrite map_length; exact Hl0).
      rewrite <- app_assoc. apply Hk0. apply Hk1. exact Hl'.
    + (* the boundary is inside the new encoding *)
      rewrite (dfilter_none (kb * B) ops opos).
      2:{ eapply Forall_impl; [|exact Hpos]. cbn beta. fold a. intros s H.
          pose proof (H2 ffp_ge a). lia. }
      cbn [app]. rewrite (dfilter_starts (kb * B) es a).
      pose proof (skipped_delivered P (kb * B) es a) as Hsplit.
      pose proof (skipped_starts P (kb * B) es a) as Hss.
      pose proof (H3 delivered_head (kb * B) es a) as Hhead.
      set (es_s := skipped_before (kb * B) a es) in *.
      set (es_d := delivered_from (kb * B) a es) in *.
      clearbody es_s es_d.
      rewrite Hsplit in Hes.
      destruct (H3 encs_rel_app_inv es_s a es_d t Hes) as (t_s & t_d & -> & Hes_s & Hes_d).
      rewrite (H3 cursor_after_rel _ _ _ Hes_s) in *.
      rewrite lenN_app in *. rewrite <- app_assoc in HS.
      set (a1 := a + lenN t_s) in *.
      assert (Hle : length es_d = length (starts a1 es_d)) by (now rewrite (ResyncProofs.starts_length P)).
      rewrite (map_fst_combine es_d (starts a1 es_d) Hle), (map_snd_combine es_d (starts a1 es_d) Hle).
      rewrite combine_length, <- Hle, Nat.min_id.
      pose proof (H2 ffp_ge a) as Hffa.
      destruct (arrive_resync S PRE (t_d ++ post) a es_s t_s kb buf0 gofuel Hok HS eq_refl Hblk Hes_s
                  ltac:(lia) Hss) as (rr1 & g & Harr1).
      { intros HA1. apply Hhead. intros ->. inversion Hes_d; subst.
        rewrite (@lenN_nil byte) in *. unfold a1 in *. lia. }
      { unfold a1 in *. lia. }
      fold a1 in Harr1.
      destruct (arrive_clean a1 es_d t_d Hes_d S (PRE ++ t_s) post gofuel
                  (mkRR (rdat S kb 0) buf0 false) rr1 g Hok)
        as (rrs1 & rr' & rr1' & g' & Hl1 & Htr1 & Harr' & Hk1).
      { rewrite HS, <- app_assoc. reflexivity. }
      { rewrite lenN_app. reflexivity. }
      { unfold a1. lia. }
      { exact Harr1. }
      exists rrs1, 0%nat, rr', rr1', g'.
      split; [exact Hl1|]. split; [exact Htr1|]. split; [lia|].
      split; [unfold a1 in Harr'; replace (a + (lenN t_s + lenN t_d)) with (a + lenN t_s + lenN t_d) by lia;
              exact Harr'|].
      intros l' c' rrf Hl'. cbn [Nat.add]. apply Hk1. exact Hl'.
Qed.

(* W, lying at [a, r), is junk: a reader positioned at a walks over it without delivering a
   record, reporting at most one corruption, and then reads at r *)
Definition junk_at (a r : N) (W : bytes) : Prop :=
  a <= r /\ lenN W = r - a /\
  forall S pre post fr rbuf within,
    sok S -> atpos S fr a -> S = pre ++ W ++ post -> lenN pre = a -> r + 7 <= lenN S ->
    exists n rr1 c, (c <= 1)%nat /\ 7 * N.of_nat n <= r - a /\ readsat S (rr_fr rr1) r /\
      ((c = 0%nat /\ forall fuel', gonext (n + Datatypes.S fuel') (mkRR fr rbuf within) =
                                   gonext (Datatypes.S fuel') rr1) \/
       (c = 1%nat /\ forall fuel', gonext (n + Datatypes.S fuel') (mkRR fr rbuf within) =
                                   (rr1, RCorrupt))).

(* on a torn encoding whose missing bytes are not all zero no record is delivered *)
Lemma walk_out_nr S a r x e j fr rbuf within :
  no_zero_collision P -> all_zero (dropN j e) = false ->
  walk_out P S a r true x e j fr rbuf within -> nr_walk P S a r (mkRR fr rbuf within).
Proof.
  intros Hnc Hnz (n & rr1 & Hn & Hra & Hout).
  destruct Hout as [Hsil | [[Hn7 Hcor] | (Hn7 & p' & Hbuf & Hrec & Hcase)]].
  - exists n, rr1, 0%nat. split; [lia|]. split; [exact Hn|]. split; [exact Hra|].
    left. split; [reflexivity|]. intros fuel'. apply Hsil.
  - exists n, rr1, 1%nat. split; [lia|]. split; [exact Hn|]. split; [exact Hra|].
    right. split; [reflexivity|]. exact Hcor.
  - exfalso. destruct Hcase as [[_ Hz] | [_ Hcol]].
    + rewrite Hz in Hnz. discriminate.
    + exact (TornProofs.no_collision P Hnc Hcol).
Qed.

(* the torn encoding of an entry whose missing bytes are not all zero is junk *)
Theorem junk_of_torn a x e k j :
  no_zero_collision P ->
  encrel a true x e k -> j < lenN e -> all_zero (dropN j e) = false ->
  exists r W,
    junk_at a r W /\
    (forall z, r <= a + j + z -> takeN j e ++ zerosN z = W ++ zerosN (a + j + z - r)) /\
    (forall m, a + j <= m * B -> r <= m * B) /\
    (forall m, m * B <= a + j -> m * B <= r).
Proof.
  intros Hnc He Hj Hnz.
  destruct (H3 TornProofs.torn_walk a true x e k He j Hj) as (r & W & Har & HlW & Hspec & Hup & Hlo & Hrd).
  exists r, W. split; [|split; [exact Hspec|split; [exact Hup|exact Hlo]]].
  split; [exact Har|]. split; [exact HlW|].
  intros S pre post fr rbuf within Hok Hat HS Hpre Hroom.
  exact (walk_out_nr S a r x e j fr rbuf within Hnc Hnz
           (Hrd S pre post fr rbuf within Hok Hat HS Hpre Hroom (or_introl eq_refl))).
Qed.

Lemma arrive_boundary S kb buf0 gofuel :
  (kb + 1) * B <= lenN S ->
  arrive S gofuel (kb * B) (mkRR (rdat S kb 0) buf0 false) (mkRR (rdat S kb 0) buf0 false) gofuel.
Proof.
  intros Hblk. exact (arrive_here S gofuel (kb * B) (mkRR (rdat S kb 0) buf0 false) (H3 at_pos_boundary S kb Hblk)).
Qed.

(* a reader that has arrived at a consumes n frames silently and sits at r *)
Lemma arrive_silent S gofuel a r rr rr1 g n rr2 dc :
  arrive S gofuel a rr rr1 g -> a <= r -> r + 14 <= 7 * N.of_nat gofuel -> 7 * N.of_nat n <= r - a ->
  atpos S (rr_fr rr2) r ->
  (forall f, gonext (n + Datatypes.S f) rr1 = gonext (Datatypes.S f) rr2) ->
  walk_to S gofuel r dc rr.
Proof.
  intros (Hgo & Hat & Hb & Hg & Hpaid) Har Hgf Hn Hat2 Hsil.
  exists 0%nat, rr, rr2, (g - n)%nat. split; [lia|]. split.
  { split.
    { rewrite Hgo. remember (g - n - 1)%nat as f' eqn:Ef'.
      assert (Eg : g = (n + Datatypes.S f')%nat) by lia.
      assert (Egn : (g - n)%nat = Datatypes.S f') by lia.
      rewrite Egn. rewrite Eg at 1. apply Hsil. }
    split; [exact Hat2|].
    split; [pose proof (H2 ffp_mono_r a r Har); lia|].
    split; lia. }
  intros l' c' rrf H. exact H.
Qed.

(* a reader that has arrived at a walks over junk from there *)
Lemma arrive_nr_walk S gofuel a r rr rr1 g :
  arrive S gofuel a rr rr1 g -> a <= r -> r + 14 <= 7 * N.of_nat gofuel ->
  nr_walk P S a r rr1 -> walk_to S gofuel r 1 rr.
Proof.
  intros Harr Har Hgf (n & rr2 & cj & Hcj & Hn & Hra & Hout). pose proof Harr as (Hgo & Hat & Hb & Hg & Hpaid).
  pose proof (reads_at_bpos S _ r Hra) as Hbp2.
  destruct Hra as (fr0 & Hat0 & Hrf).
  pose proof (H3 TornProofs.at_posn_at_pos S fr0 r Hat0) as Hatr.
  assert (Hgn : (n + 2 <= g)%nat) by lia.
  assert (Hcong : forall f, gonext (Datatypes.S f) rr2 =
                            gonext (Datatypes.S f) (mkRR fr0 (rr_buf rr2) (rr_within rr2))).
  { intros f. destruct rr2 as [fr2 b2 w2]. cbn [rr_fr rr_buf rr_within] in *.
    apply (TornProofs.gonext_cong P). exact Hrf. }
  destruct Hout as [(-> & Hsil) | (-> & Hcor)].
  - apply (arrive_silent S gofuel a r rr rr1 g n (mkRR fr0 (rr_buf rr2) (rr_within rr2)) 1 Harr Har Hgf Hn Hatr).
    intros f. rewrite Hsil. apply Hcong.
  - exists 1%nat, rr2, (mkRR fr0 (rr_buf rr2) (rr_within rr2)), gofuel.
    split; [lia|]. split.
    { split; [destruct gofuel as [|gf]; [lia|apply Hcong]|].
      split; [exact Hatr|].
      split; [pose proof (H2 ffp_ge r); lia|].
      split; [lia|]. replace (gofuel - gofuel)%nat with 0%nat by lia. lia. }
    intros l' c' rrf Hl'. cbn [Nat.add]. eapply RC_cor; [|exact Hl'].
    rewrite Hgo. replace g with (n + Datatypes.S (g - n - 1))%nat by lia. apply Hcor.
Qed.

(* appending a segment W, lying at [lenN PRE, r), over which the reader walks: from an arrival at
   its start, and from the admissible block boundaries strictly inside it *)
Theorem pre_cont_walk PRE ops opos adm cmax rm r W dc rm' :
  pre_cont PRE ops opos adm cmax rm ->
  lenN PRE <= r -> lenN W = r - lenN PRE -> rm <= r - lenN PRE + rm' ->
  (forall S post gofuel,
     sok S -> S = PRE ++ W ++ post -> r + rm' <= lenN S -> r + 14 <= 7 * N.of_nat gofuel ->
     (forall rr rr1 g, arrive S gofuel (lenN PRE) rr rr1 g -> walk_to S gofuel r dc rr) /\
     (forall kb buf0, adm kb -> (kb + 1) * B <= lenN S -> ffp (lenN PRE) < kb * B -> kb * B < r ->
        walk_to S gofuel r dc (mkRR (rdat S kb 0) buf0 false))) ->
  pre_cont (PRE ++ W) ops opos adm (dc + cmax) rm'.
Proof.
  intros ((Hlen & Hpos) & Hcont) Har HlW Hrm Hwalk.
  set (a := lenN PRE) in *.
  assert (Ha2 : lenN (PRE ++ W) = r) by (rewrite lenN_app; fold a; lia).
  split.
  { split; [exact Hlen|]. rewrite Ha2. eapply Forall_impl; [|exact Hpos]. cbn beta. intros s H. lia. }
  intros kb post S buf0 gofuel HS Hok Hblk Hadm Hkb Hroom Hgf.
  rewrite Ha2 in *. rewrite <- app_assoc in HS.
  destruct (Hwalk S post gofuel Hok HS Hroom Hgf) as (HwA & HwD).
  change (delivers S kb buf0 gofuel ops opos (dc + cmax) r).
  pose proof (H2 ffp_ge a) as Hffa.
  destruct (N.le_gt_cases (kb * B) (ffp a)) as [HB|HB].
  - (* the boundary is inside the old prefix *)
    apply (delivers_walk S kb buf0 gofuel ops opos cmax dc a r); [|exact HwA].
    apply (Hcont kb (W ++ post) S buf0 gofuel HS Hok Hblk Hadm HB); lia.
  - apply (delivers_boundary S kb buf0 gofuel ops opos (dc + cmax) dc r); [|lia|].
    { eapply Forall_impl; [|exact Hpos]. cbn beta. fold a. intros s H. lia. }
    destruct (N.le_gt_cases r (kb * B)) as [HR|HR].
    + (* at or after the end of the segment *)
      apply (walk_to_after S r kb buf0 gofuel dc Hok HR Hkb Hblk). lia.
    + (* strictly inside the segment *)
      exact (HwD kb buf0 Hadm Hblk HB HR).
Qed.

Lemma junk_at_walk a r W S pre post gofuel rr rr1 g :
  junk_at a r W -> sok S -> S = pre ++ W ++ post -> lenN pre = a -> r + 7 <= lenN S ->
  r + 14 <= 7 * N.of_nat gofuel -> arrive S gofuel a rr rr1 g -> walk_to S gofuel r 1 rr.
Proof.
  intros (Har & _ & Hwalk) Hok HS Hpre Hroom Hgf Harr.
  apply (arrive_nr_walk S gofuel a r rr rr1 g Harr Har Hgf).
  destruct Harr as (_ & Hat & _). destruct rr1 as [fr1 rbuf1 within1].
  exact (Hwalk S pre post fr1 rbuf1 within1 Hok Hat HS Hpre Hroom).
Qed.

(* what `open` needs (JReopen.v): reading  PRE ++ t2 ++ zeros  from an admissible block boundary
   delivers the entries of ops ++ es2 whose first frame is at or after the boundary, with at
   most cmax corruptions, and ends at the end of t2 *)
Definition pre_reads (PRE : bytes) (ops : list bytes) (opos : list (N * N)) (adm : N -> Prop)
    (cmax : nat) (rm : N) : Prop :=
  forall kb es2 t2 z S buf0 gofuel,
    encsrel (lenN PRE) es2 t2 -> S = PRE ++ t2 ++ zerosN z -> sok S ->
    (kb + 1) * B <= lenN S -> adm kb -> lenN PRE + rm <= lenN S ->
    lenN S + 14 <= 7 * N.of_nat gofuel ->
    exists rrs c rrf,
      let D := dfilter (kb * B) (ops ++ es2) (opos ++ starts (lenN PRE) es2) in
      length rrs = length D /\
      readsC gofuel (mkRR (rdat S kb 0) buf0 false) (combine rrs (map fst D)) c rrf /\
      (c <= cmax)%nat /\ tr_ok S rrs (map snd D) /\
      at_end P S (rr_fr rrf) (N.max (kb * B) (lenN PRE + lenN t2)).

Theorem pre_reads_of_cont PRE ops opos adm cmax rm :
  pre_cont PRE ops opos adm cmax rm -> pre_reads PRE ops opos adm cmax rm.
Proof.
  intros Hc kb es2 t2 z S buf0 gofuel Hes2 HS Hok Hblk Hadm Hroom Hgf.
  set (a := lenN PRE) in *. set (a2 := a + lenN t2).
  destruct (pre_cont_clean PRE ops opos adm cmax rm es2 t2 (rm - lenN t2) Hc Hes2 ltac:(lia))
    as ((Hlen2 & Hpos2) & Hc2).
  fold a in Hpos2, Hc2. rewrite lenN_app in Hpos2, Hc2. fold a in Hpos2, Hc2. fold a2 in Hpos2, Hc2.
  assert (HlS : lenN S = a2 + z).
  { rewrite HS, !lenN_app, lenN_zerosN. unfold a2, a. lia. }
  assert (HS' : S = (PRE ++ t2) ++ zerosN z) by (rewrite HS, <- app_assoc; reflexivity).
  assert (Hwr : lenN (PRE ++ t2) <= a2) by (rewrite lenN_app; unfold a2, a; lia).
  destruct (N.le_gt_cases (kb * B) (ffp a2)) as [Hkb|Hkb].
  - destruct (Hc2 kb (zerosN z) S buf0 gofuel HS' Hok Hblk Hadm Hkb ltac:(lia) ltac:(lia))
      as (rrs & c & rr & rr1 & g & Hl0 & Htr0 & Hcc & (Hgo & Hat & Hb & Hg & Hpaid) & Hk0).
    destruct g as [|g']; [lia|].
    destruct (H3 go_next_end_gen S (PRE ++ t2) z rr1 a2 g' HS' Hwr Hat) as (fr' & Hend & Hp).
    exists rrs, c, (mkRR fr' (rr_buf rr1) (rr_within rr1)).
    cbv zeta. split; [exact Hl0|]. split.
    { rewrite <- (app_nil_r (combine rrs _)). replace c with (c + 0)%nat by lia.
      apply Hk0. apply RC_end. rewrite Hgo. exact Hend. }
    split; [exact Hcc|]. split; [exact Htr0|]. cbn [rr_fr].
    destruct (N.le_gt_cases (kb * B) a2) as [Hle|Hgt].
    + replace (N.max (kb * B) a2) with a2 by lia. exact Hp.
    + replace (N.max (kb * B) a2) with (kb * B) by lia.
      assert (Eb : kb * B = ffp a2) by (apply (H2 boundary_is_ffp); lia).
      destruct Hp as (k & c0 & Hfr & Hk & Hc0 & Hcase). exists k, c0.
      split; [exact Hfr|]. split; [exact Hk|]. split; [exact Hc0|].
      destruct Hcase as [[H1 H2'] | (H1 & H2' & H3')].
      * left. split; [|exact H2']. rewrite (H2 ffp_aligned). lia.
      * exfalso. rewrite <- H1, (H2 ffp_kc) in Eb by exact Hc0.
        destruct (N.ltb_spec (B - c0) 7) as [_|Hge]; [|lia].
        assert ((k + 1 + 1) * B <= lenN S); [|lia].
        replace ((k + 1) * B) with (kb * B) by lia. lia.
  - (* the boundary lies in the zeros after the stream *)
    pose proof (H2 ffp_ge a2) as Hge.
    rewrite (dfilter_none (kb * B) (ops ++ es2) (opos ++ starts a es2)).
    2:{ eapply Forall_impl; [|exact Hpos2]. cbn beta. intros s H. lia. }
    destruct gofuel as [|g']; [lia|].
    pose proof (H3 at_pos_boundary S kb Hblk) as Hat_b.
    destruct (H3 go_next_end_gen S (PRE ++ t2) z (mkRR (rdat S kb 0) buf0 false) (kb * B) g' HS'
                ltac:(lia) Hat_b) as (fr' & Hend & Hp).
    exists [], 0%nat, (mkRR fr' buf0 false). cbn [combine map length].
    split; [reflexivity|]. split; [apply RC_end; exact Hend|]. split; [lia|].
    split; [constructor|]. cbn [rr_fr].
    replace (N.max (kb * B) a2) with (kb * B) by lia. exact Hp.
Qed.

End JunkStream.

Print Assumptions pre_cont_clean.
Print Assumptions junk_of_torn.
Print Assumptions pre_reads_of_cont.
