(* JCrashShape.v — the file events of a call issued from a state satisfying the junk-tolerant
   invariant InvJ (JInv.v) are a CrashTrace.call_trace of its bytes at the cursor: the ghost
   stream is jT P PRE OLD G instead of gh_T P G, and a state with nothing pending stands in the
   trace simulation with itself (pinvJ_tinv).  The shape of the crash images is
   JRecover3.image_shape_of_trace. *)
From Coq Require Import Lia ZArith ZifyN ZifyNat ZifyBool List Sorted.
From MRL Require Import Bytes BytesProofs Params Names NamesProofs Frame Record Mem Spec Rolling Log
  Driver SpecRefine RecordProofs StreamProofs PolicyProofs GcProofs GhostLog ReplaySpec
  HandleProofs FileStream ResyncProofs PersistProofs WriterProofs RestartInv RestartWrite RestartGc
  RestartStep OpenReplay CrashTrace JInv JGc JStep.

Section JCrashShape.
Variable P : params.
Hypothesis HBS_lo : 7 < BS P.
Hypothesis HBS_hi : BS P <= 65542.
Hypothesis HNB : 1 <= NB P.
Hypothesis Hcrc : forall t p, crcf P t p < 2 ^ 32.
Hypothesis HGC : L_GC P = false.
Variable PRE : bytes.
Variable OLD : list entry.
Variable opos : list (N * N).
Hypothesis Hpre : pre_ok PRE OLD opos.

Local Notation B := (BS P).
Local Notation FB := (FILE_BYTES P).
Local Notation ffp := (first_frame_pos P).
Local Notation enc_of := (enc_of P).
Local Notation encs_of := (encs_of P).
Local Notation cursor_after := (cursor_after P).
Local Notation PInvJ := (PInvJ P PRE OLD opos).
Local Notation InvJ := (InvJ P PRE OLD opos).
Local Notation stream_boundJ := (stream_boundJ P PRE OLD).
Local Notation jT := (jT P PRE OLD).
Local Notation call_cursor := (call_cursor P).
Local Notation call_bytes := (call_bytes P).
Local Notation call_trace := (call_trace P).
Local Notation zext := (zext P).
Local Notation H3 f := (f P HBS_lo HBS_hi Hcrc) (only parsing).
Local Notation H2 f := (f P HBS_lo HBS_hi) (only parsing).
Local Notation HN f := (f P HBS_lo HBS_hi HNB) (only parsing).
Local Notation HW f := (f P HBS_lo HBS_hi HNB Hcrc) (only parsing).
Local Notation HG f := (f P HBS_lo HBS_hi HNB Hcrc HGC) (only parsing).

Lemma call_trace_pos lo f0 off0 NEW f1 off1 evs :
  call_trace lo f0 off0 NEW f1 off1 evs -> off0 <= FB ->
  f0 * FB + off0 + lenN NEW = f1 * FB + off1.
Proof using HBS_lo HBS_hi HNB Hcrc.
  intros [E -> ->|wevs a Htr|wevs m a Htr _] Hoff.
  - rewrite E, (@lenN_nil byte). lia.
  - eapply proj2. eapply wtrace_pos; eassumption.
  - eapply proj2. eapply wtrace_pos; eassumption.
Qed.

(* the reference writer of a state satisfying PInvJ: its buffer is the part of the ghost stream
   held by the kept files, up to the cursor *)
Lemma pinvJ_setup w G :
  PInvJ w G ->
  let dl := wlo w - gh_base G in
  let T := jT G in
  let c := dl * FB + wpos P w in
  let buf := takeN (wpos P w) (wstream w) in
  lenN buf = wpos P w /\
  buf = dropN (dl * FB) (T ++ zerosN (c - lenN T)) /\
  wstream w = buf ++ zerosN (lenN (w_files w) * FB - wpos P w) /\
  wpos P w <= lenN (w_files w) * FB /\
  lenN (w_files w) + wlo w = w_file w + 1 /\ 1 <= lenN (w_files w).
Proof.
  intros (Hw & Hwd & Hnd & Hbase & Hc1 & Hc2 & Hs & _). cbn zeta in *.
  set (dl := wlo w - gh_base G) in *.
  set (T := jT G) in *. set (a := lenN T) in *.
  set (n := lenN (w_files w)) in *.
  set (c := dl * FB + wpos P w) in *.
  pose proof Hw as (Hok & Hwf' & Hoff & _).
  destruct (wr_ok_len P (HN HB0) HNB w Hok) as (Hn & Hn1). fold n in Hn, Hn1.
  pose proof (lenN_wstream P w Hw) as HlenS. fold n in HlenS.
  assert (Hpos : wpos P w = (n - 1) * FB + w_off w) by reflexivity.
  assert (Hposn : wpos P w <= n * FB) by nia.
  assert (Hcn : c <= (dl + n) * FB) by (unfold c; nia).
  split; [rewrite lenN_takeN, HlenS; lia|].
  assert (Ebuf : takeN (wpos P w) (wstream w) = dropN (dl * FB) (T ++ zerosN (c - a))).
  { rewrite Hs.
    replace (wpos P w) with (dl * FB + wpos P w - dl * FB) by lia.
    rewrite <- dropN_takeN. f_equal. fold c.
    rewrite takeN_app_ge by (fold a; lia). fold a. f_equal.
    apply takeN_zerosN. lia. }
  split; [exact Ebuf|].
  split.
  { rewrite <- (takeN_dropN (wpos P w) (wstream w)) at 1. f_equal.
    rewrite Hs, dropN_dropN. fold c. rewrite dropN_app_ge by (fold a; lia). fold a.
    rewrite dropN_zerosN. f_equal. lia. }
  split; [exact Hposn|]. split; assumption.
Qed.

(* NEW: the bytes of a call (the same as CrashTrace.call_bytes: the cursor only uses gh_base G) *)
Definition call_bytesJ (st : state) (G : ghost) (o : op) : bytes :=
  encs_of (call_cursor st G) (map entry_ser (map snd (step_log P st o))).

Lemma call_bytesJ_eq st G o : call_bytesJ st G o = call_bytes st G o.
Proof. reflexivity. Qed.

(* A state with nothing pending stands in the trace simulation with itself, for a call that
   logs the entries L: M is the end of their bytes in the reference writer's buffer. *)
Lemma pinvJ_tinv w G L :
  PInvJ w G -> w_pending w = [] -> stream_boundJ G L ->
  let X := map entry_ser L in
  let M := wpos P w + lenN (encs_of (wpos P w) X) in
  encs_of (wpos P w) X = encs_of ((wlo w - gh_base G) * FB + wpos P w) X /\
  tinv P (c_ev (w_ctx w)) (c_fs (w_ctx w)) (w_file w) (w_off w) M (takeN (wpos P w) (wstream w))
       (wlo w) (wpos P w) w [].
Proof.
  intros HP Hp0 Hbound. cbn zeta.
  destruct (pinvJ_setup w G HP) as (Hlb & Ebuf & HS & Hposn & Hn & Hn1). cbn zeta in *.
  pose proof HP as (Hw & _ & _ & Hbase & Hc1 & Hc2 & _). cbn zeta in Hc1, Hc2.
  set (dl := wlo w - gh_base G) in *.
  set (T := jT G) in *. set (a0 := lenN T) in *.
  set (c := dl * FB + wpos P w) in *.
  set (buf := takeN (wpos P w) (wstream w)) in *.
  set (X := map entry_ser L) in *.
  assert (EX : encs_of (wpos P w) X = encs_of c X).
  { unfold c. symmetry. apply (HW encs_of_shift). apply (mulFB_mod P HBS_lo HBS_hi HNB). }
  set (M := wpos P w + lenN (encs_of (wpos P w) X)).
  pose proof Hw as (Hok & Hwf' & Hoff & Hplan & Hu & Hfull & Hfresh).
  assert (HM : FB * wlo w + M <= FB * (U64_MAX + 1)).
  { unfold M. rewrite EX. destruct X as [|x X'] eqn:EXX.
    - cbn [ResyncProofs.encs_of]. rewrite (@lenN_nil byte).
      assert (FB * (wlo w + lenN (w_files w)) <= FB * (U64_MAX + 1)) by (apply N.mul_le_mono_l; lia).
      lia.
    - rewrite <- EXX in *.
      assert (Hne : X <> []) by (rewrite EXX; discriminate).
      unfold JInv.stream_boundJ in Hbound. rewrite map_app in Hbound. fold X in Hbound.
      rewrite (H3 cursor_after_app) in Hbound. fold (jser OLD G) in Hbound.
      rewrite <- (jT_len P PRE OLD G) in Hbound. fold T in Hbound.
      fold a0 in Hbound. unfold ResyncProofs.cursor_after in Hbound.
      rewrite <- (HW encs_of_between a0 c X Hc1 Hc2 Hne), lenN_app, lenN_zerosN in Hbound.
      replace (wlo w) with (gh_base G + dl) by lia. unfold c in *. nia. }
  assert (Hcur : exists b, fs_get (c_fs (w_ctx w)) (filename (w_file w)) = Some (FFile b)).
  { rewrite <- (vfs_nil w Hp0). destruct (wr_ok_files w Hok) as (pre & Hpre' & _).
    destruct (Hfull (w_file w)) as (b & Hb & _); [rewrite Hpre'; apply in_or_app; right; now left|].
    now exists b. }
  split; [exact EX|].
  unfold tinv, tsim. rewrite (@lenN_nil byte), N.add_0_r, app_nil_r.
  split.
  { split; [exact Hw|]. split; [reflexivity|]. split; [exact Hlb|]. split; [exact HS|exact HM]. }
  split; [reflexivity|]. exists []. split; [now rewrite app_nil_r|].
  exists [], []. cbn [rev app fold_left].
  split; [reflexivity|]. split; [reflexivity|]. split; [exact Hcur|].
  split; [|now rewrite Hp0].
  replace (os_pos w) with (w_off w); [constructor|].
  unfold os_pos. rewrite Hp0, (@lenN_nil byte). lia.
Qed.

Theorem pinvJ_step_call_trace st G a o tick st' out :
  PInvJ (s_wr st) G -> w_pending (s_wr st) = [] -> s_pol st = PAlways a ->
  stream_boundJ G (map snd (step_log P st o)) ->
  step P st o tick = (st', out) -> (forall e, out <> OutIo e) ->
  let w := s_wr st in
  exists evs,
    c_ev (w_ctx (s_wr st')) = rev evs ++ c_ev (w_ctx w) /\
    c_fs (w_ctx (s_wr st')) = fold_left apply_event evs (c_fs (w_ctx w)) /\
    call_trace (wlo w) (w_file w) (w_off w) (call_bytes st G o)
               (w_file (s_wr st')) (w_off (s_wr st')) evs /\
    w_pending (s_wr st') = [].
Proof.
  intros HP Hp0 Hpol Hbound Hstep Hno w. subst w. set (w := s_wr st) in *.
  destruct (pinvJ_tinv w G _ HP Hp0 Hbound) as (EX & Ht). cbn zeta in EX, Ht.
  destruct (HG step_trace_rel _ _ _ _ _ _ (wlo w) (wpos P w) st a o tick st' out Ht Hpol
              eq_refl eq_refl Hp0 eq_refl eq_refl (N.le_refl _) Hstep Hno)
    as (evs & Hev & Hfs & Hct & Hp').
  exists evs. rewrite EX in Hct.
  split; [exact Hev|]. split; [exact Hfs|]. split; [exact Hct|exact Hp'].
Qed.

Theorem stepJ_call_trace st G a o tick st' out :
  InvJ st G -> w_pending (s_wr st) = [] -> s_pol st = PAlways a ->
  stream_boundJ G (map snd (step_log P st o)) ->
  step P st o tick = (st', out) -> (forall e, out <> OutIo e) ->
  let w := s_wr st in
  exists evs,
    c_ev (w_ctx (s_wr st')) = rev evs ++ c_ev (w_ctx w) /\
    c_fs (w_ctx (s_wr st')) = fold_left apply_event evs (c_fs (w_ctx w)) /\
    call_trace (wlo w) (w_file w) (w_off w) (call_bytes st G o)
               (w_file (s_wr st')) (w_off (s_wr st')) evs /\
    w_pending (s_wr st') = [].
Proof. intros (HP & _). now apply pinvJ_step_call_trace. Qed.

End JCrashShape.

Print Assumptions pinvJ_step_call_trace.
Print Assumptions stepJ_call_trace.
