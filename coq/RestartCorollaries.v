(* RestartCorollaries.v — the restart halves of C04 (positions never regress nor get reused) and of
   C18 (queue isolation), as corollaries of the end-to-end restart theorem RestartFinal.hrun_inv:
   a history of API calls and clean restarts (in any order) is observationally the run of the
   sequential specification over the calls alone. *)
From Coq Require Import Lia ZArith ZifyN ZifyNat ZifyBool List Sorted.
From MRL Require Import Bytes BytesProofs Params Names NamesProofs Frame Record Mem Spec Rolling Log
  Driver Hist NoopProofs WriterProofs SpecRefine GhostLog QueueIso RestartInv RestartFinal.

(* the calls of a history with their ticks (hrun returns one outcome per CALL, none per restart),
   in the shape QueueIso.log_never_deleted / log_lasts / on_queue expect *)
Fixpoint hcalls_t (h : list hop) : list (op * bool) :=
  match h with
  | [] => []
  | HCall o t :: r => (o, t) :: hcalls_t r
  | HRestart _ _ :: r => hcalls_t r
  end.

Lemma hcalls_t_fst h : map fst (hcalls_t h) = hcalls h.
Proof.
  induction h as [|[o t|pol hint] h IH]; [reflexivity| |exact IH].
  cbn [hcalls_t hcalls map fst]. now rewrite IH.
Qed.

Lemma hcalls_t_sop h : map (fun ot : op * bool => sop_of (fst ot)) (hcalls_t h) = map sop_of (hcalls h).
Proof. rewrite <- hcalls_t_fst, map_map. reflexivity. Qed.

(* the sub-history of q: every restart, and only the calls addressed to q *)
Definition hkeep (q : bytes) (x : hop) : bool :=
  match x with
  | HCall o _ => addressed q (sop_of o)
  | HRestart _ _ => true
  end.
Definition hproj (q : bytes) (h : list hop) : list hop := filter (hkeep q) h.

Lemma hcalls_t_hproj q h : hcalls_t (hproj q h) = filter (on_queue q) (hcalls_t h).
Proof.
  unfold hproj. induction h as [|[o t|pol hint] h IH]; [reflexivity| |exact IH].
  cbn [filter hkeep hcalls_t]. unfold on_queue at 1. cbn [fst].
  destruct (addressed q (sop_of o)); cbn [hcalls_t]; now rewrite IH.
Qed.

Lemma hcalls_hproj q h :
  map sop_of (hcalls (hproj q h)) = filter (addressed q) (map sop_of (hcalls h)).
Proof.
  rewrite <- !hcalls_t_sop, hcalls_t_hproj. symmetry.
  exact (filter_map_comm (addressed q) (fun ot : op * bool => sop_of (fst ot)) (hcalls_t h)).
Qed.

Lemma forall_no_io outs : Forall no_io outs -> forallb (fun o => negb (is_io o)) outs = true.
Proof.
  induction 1 as [|o outs Ho _ IH]; [reflexivity|]. cbn [forallb]. rewrite IH.
  destruct o; try reflexivity. exfalso. exact (Ho e eq_refl).
Qed.

Section Corollaries.
Variable P : params.
Hypothesis HBS_lo : 7 < BS P.
Hypothesis HBS_hi : BS P <= 65542.
Hypothesis HNB : 1 <= NB P.
Hypothesis Hcrc : forall t p, crcf P t p < 2 ^ 32.
Hypothesis HGC : L_GC P = false.
Hypothesis HIO : L_IO P = false.

Local Notation HF f := (f P HBS_lo HBS_hi HNB Hcrc HGC HIO) (only parsing).
Local Notation Inv := (Inv P).
Local Notation hrun := (hrun P).
Local Notation hist_ok := (hist_ok P).
Local Notation restart := (restart P).
Local Notation restart_bound := (restart_bound P).


Lemma hrun_app h1 : forall st h2,
  hrun st (h1 ++ h2) =
  match hrun st h1 with
  | Some (st1, outs1) =>
      match hrun st1 h2 with
      | Some (st2, outs2) => Some (st2, outs1 ++ outs2)
      | None => None
      end
  | None => None
  end.
Proof.
  induction h1 as [|[o t|pol hint] h1 IH]; intros st h2.
  - cbn [app hrun]. destruct (hrun st h2) as [[st2 outs2]|]; reflexivity.
  - cbn [app hrun]. destruct (step P st o t) as [st1 out]. rewrite IH.
    destruct (hrun st1 h1) as [[st2 outs1]|]; [|reflexivity].
    destruct (hrun st2 h2) as [[st3 outs2]|]; reflexivity.
  - cbn [app hrun]. destruct (restart st pol hint) as [st1| | |]; try reflexivity. apply IH.
Qed.

Lemma hist_ok_app h1 : forall st h2 st1 outs1,
  hist_ok st (h1 ++ h2) -> hrun st h1 = Some (st1, outs1) -> hist_ok st h1 /\ hist_ok st1 h2.
Proof.
  induction h1 as [|[o t|pol hint] h1 IH]; intros st h2 st1 outs1 Hok Hr.
  - cbn [hrun] in Hr. injection Hr as <- <-. split; [exact I|exact Hok].
  - cbn [app hist_ok] in Hok. destruct Hok as (H1 & H2 & Hok). cbn [hrun] in Hr. cbn [hist_ok].
    destruct (step P st o t) as [sa out]. cbn [fst] in *.
    destruct (hrun sa h1) as [[sb outs]|] eqn:Er; [|discriminate Hr]. injection Hr as <- <-.
    destruct (IH _ _ _ _ Hok Er) as (Ha & Hb). auto.
  - cbn [app hist_ok] in Hok. destruct Hok as (H1 & Hok). cbn [hrun] in Hr. cbn [hist_ok].
    destruct (restart st pol hint) as [sa| | |]; try discriminate Hr.
    destruct (IH _ _ _ _ Hok Hr) as (Ha & Hb). auto.
Qed.


Lemma hrun_observations q : forall h st st' outs souts,
  hrun st h = Some (st', outs) ->
  map out_logical outs = map Some souts ->
  log_lasts q (hcalls_t h) outs = lasts q (map sop_of (hcalls h)) souts /\
  (log_never_deleted q (hcalls_t h) outs <-> never_deleted q (map sop_of (hcalls h)) souts).
Proof.
  induction h as [|[o t|pol hint] h IH]; intros st st' outs souts Hr Hl.
  - cbn [hrun] in Hr. injection Hr as <- <-. destruct souts; [|discriminate Hl].
    cbn. split; [reflexivity|tauto].
  - cbn [hrun] in Hr. destruct (step P st o t) as [st1 out] eqn:Es.
    destruct (hrun st1 h) as [[st2 outs2]|] eqn:Er; [|discriminate Hr]. injection Hr as <- <-.
    destruct souts as [|so souts]; [discriminate Hl|]. cbn [map] in Hl. inversion Hl as [[H1 H2]].
    destruct (IH _ _ _ _ Er H2) as (I1 & I2). cbn [hcalls_t hcalls map]. split.
    + unfold log_lasts, lasts in *. cbn [combine filter_map].
      rewrite (l_last_of_logical q o t out so H1), I1. reflexivity.
    + unfold log_never_deleted, never_deleted in *. cbn [combine forallb fst snd].
      rewrite (l_deleted_logical P q _ _ _ _ _ _ Es H1). rewrite !andb_true_iff, I2. tauto.
  - cbn [hrun] in Hr. destruct (restart st pol hint) as [st1| | |]; try discriminate Hr.
    cbn [hcalls_t hcalls]. exact (IH _ _ _ _ Hr Hl).
Qed.

(* From any state satisfying the restart invariant: along a history of calls AND clean restarts
   that does not successfully delete q, q stays there if it was there, and the last positions
   reported by the successful appends to q are strictly increasing, all at or above the next
   position of q at the start and below its next position at the end (so that next position never
   decreases, restarts included).  The run is the specification's, and the final next /
   last position of q are the specification's. *)
Theorem positions_with_restarts h st G st' outs q :
  Inv st G -> hist_ok st h -> hrun st h = Some (st', outs) ->
  log_never_deleted q (hcalls_t h) outs ->
  (qs_get (s_qs st) q <> None -> qs_get (s_qs st') q <> None) /\
  incr_between (log_next st q) (log_next st' q) (log_lasts q (hcalls_t h) outs) /\
  exists m souts,
    s_run (abs_qs (s_qs st)) (map sop_of (hcalls h)) = (m, souts) /\
    map out_logical outs = map Some souts /\
    log_next st' q = next_or0 (s_get m q) /\
    log_last_position st' q = s_last_position m q.
Proof.
  intros HI Hok Hr Hnd.
  destruct (HF hrun_spec h st G HI Hok) as (st1 & outs1 & m & souts & Er & Erun & Hm & Hl).
  rewrite Hr in Er. injection Er as <- <-.
  destruct (hrun_observations q h st st' outs souts Hr Hl) as (O1 & O2). apply O2 in Hnd.
  pose proof (s_run_next_monotone (map sop_of (hcalls h)) (abs_qs (s_qs st)) q) as M.
  rewrite Erun in M. cbn [fst snd] in M. destruct (M Hnd) as (M1 & M2).
  rewrite (Hm q) in M1, M2. rewrite !log_next_abs, <- O1 in M2.
  split; [|split; [exact M2|]].
  - intros Hq. rewrite !abs_get in M1.
    destruct (qs_get (s_qs st) q); [|now destruct Hq].
    destruct (qs_get (s_qs st') q); [discriminate|]. exfalso. apply M1; [discriminate|reflexivity].
  - exists m, souts. split; [exact Erun|]. split; [exact Hl|]. split.
    + now rewrite <- log_next_abs, Hm.
    + rewrite log_last_position_refines. unfold s_last_position. now rewrite Hm.
Qed.

(* From a fresh directory.  (log_next st0 q = 0: nothing exists yet.) *)
Theorem positions_fresh_with_restarts pol0 st0 h st outs q :
  open P [] None pol0 [] = OpenOk st0 ->
  hist_ok st0 h ->
  hrun st0 h = Some (st, outs) ->
  log_never_deleted q (hcalls_t h) outs ->
  incr_between 0 (log_next st q) (log_lasts q (hcalls_t h) outs) /\
  StronglySorted N.lt (log_lasts q (hcalls_t h) outs) /\
  (forall l, In l (log_lasts q (hcalls_t h) outs) -> l < log_next st q) /\
  exists m souts,
    s_run [] (map sop_of (hcalls h)) = (m, souts) /\
    map out_logical outs = map Some souts /\
    log_next st q = next_or0 (s_get m q) /\
    log_last_position st q = s_last_position m q.
Proof.
  intros Hopen Hok Hr Hnd.
  pose proof (inv_fresh P HBS_lo HBS_hi HNB pol0 st0 Hopen) as HI0.
  destruct (positions_with_restarts h st0 gh_fresh st outs q HI0 Hok Hr Hnd) as (_ & Hinc & Hs).
  destruct (FileStream.open_fresh P HBS_lo HBS_hi HNB pol0) as (c & _ & Eo). rewrite Eo in Hopen.
  injection Hopen as <-. unfold log_next at 1 in Hinc. cbn [s_qs qs_get] in Hinc.
  cbn [s_qs abs_qs map] in Hs.
  split; [exact Hinc|]. split; [eapply incr_between_sorted; exact Hinc|]. split; [|exact Hs].
  intros l Hin. pose proof (incr_between_bounds _ _ _ _ Hinc Hin). lia.
Qed.

(* After a successful truncate(q, ..=p) anywhere in a history from a fresh directory, as long as q
   is not deleted every later append to q reports a position > p, whatever restarts happen in
   between — even if the truncate emptied q and every WAL file that held its records has been
   deleted: the next position stays >= p + 1. *)
Theorem after_truncate_with_restarts pol0 st0 h1 q p hint tick h2 st1 outs1 st e n outs2 :
  open P [] None pol0 [] = OpenOk st0 ->
  hist_ok st0 (h1 ++ HCall (OTruncate q p hint) tick :: h2) ->
  hrun st0 h1 = Some (st1, outs1) ->
  hrun st1 (HCall (OTruncate q p hint) tick :: h2) = Some (st, OutTruncate e n :: outs2) ->
  log_never_deleted q (hcalls_t h2) outs2 ->
  hrun st0 (h1 ++ HCall (OTruncate q p hint) tick :: h2) = Some (st, outs1 ++ OutTruncate e n :: outs2) /\
  incr_between (p + 1) (log_next st q) (log_lasts q (hcalls_t h2) outs2) /\
  (forall l, In l (log_lasts q (hcalls_t h2) outs2) -> p < l).
Proof.
  intros Hopen Hok Hr1 Hr2 Hnd.
  assert (Hinc : incr_between (p + 1) (log_next st q) (log_lasts q (hcalls_t h2) outs2)).
  { pose proof (inv_fresh P HBS_lo HBS_hi HNB pol0 st0 Hopen) as HI0.
    destruct (hist_ok_app _ _ _ _ _ Hok Hr1) as (Hok1 & Hok2).
    destruct (HF hrun_inv h1 st0 gh_fresh HI0 Hok1) as (sa & oa & G1 & Ea & HI1 & _).
    rewrite Hr1 in Ea. injection Ea as <- <-.
    destruct (hist_ok_app [HCall (OTruncate q p hint) tick] st1 h2
                (fst (step P st1 (OTruncate q p hint) tick))
                [snd (step P st1 (OTruncate q p hint) tick)] Hok2) as (Hok3 & Hok4).
    { cbn [hrun]. now destruct (step P st1 (OTruncate q p hint) tick). }
    destruct (HF hrun_inv [HCall (OTruncate q p hint) tick] st1 G1 HI1 Hok3)
      as (sb & ob & G2 & Eb & HI2 & _).
    cbn [hrun] in Hr2, Eb. destruct (step P st1 (OTruncate q p hint) tick) as [s2 out] eqn:Es.
    cbn [fst snd] in *. injection Eb as <- <-.
    destruct (hrun s2 h2) as [[s3 o3]|] eqn:Er2; [|discriminate Hr2].
    injection Hr2 as <- -> <-.
    destruct (log_truncate_next P st1 q p hint tick s2 e n (Inv_qs_inv P _ _ HI1) Es) as (_ & Hp & _).
    destruct (positions_with_restarts h2 s2 G2 s3 o3 q HI2 Hok4 Er2 Hnd) as (_ & Hinc & _).
    eapply incr_between_weaken; [exact Hinc|exact Hp]. }
  split; [now rewrite hrun_app, Hr1, Hr2|]. split; [exact Hinc|].
  intros l Hin. pose proof (incr_between_bounds _ _ _ _ Hinc Hin). lia.
Qed.

(* A clean restart never changes the next position of any queue — in particular it never lowers
   it — whether the queue holds records or was emptied (its WAL files possibly all deleted). *)
Theorem restart_keeps_next st G pol hint st' :
  Inv st G -> restart_bound st -> restart st pol hint = OpenOk st' ->
  (forall q, log_next st' q = log_next st q) /\
  (forall q, log_last_position st' q = log_last_position st q).
Proof.
  intros HI Hb Er. unfold RestartFinal.restart in Er.
  destruct (HF inv_reopen st G HI (restart_reopen_bound P HBS_lo HBS_hi HNB Hcrc st G HI Hb) pol hint)
    as (s1 & G1 & Eo & _ & Heq & _).
  rewrite Er in Eo. injection Eo as <-. split; intros q.
  - now rewrite <- !log_next_abs, Heq.
  - rewrite !log_last_position_refines. unfold s_last_position. now rewrite Heq.
Qed.

(* The next call after a restart answers as it would have without the restart: the same logical
   outcome, the same abstract content afterwards. *)
Theorem next_call_survives_restart pol0 st0 h st outs pol hint st' :
  open P [] None pol0 [] = OpenOk st0 ->
  hrun st0 h = Some (st, outs) ->
  hist_ok st0 h ->
  restart_bound st ->
  restart st pol hint = OpenOk st' ->
  forall o tick tick' s1 out s1' out' so,
    step P st o tick = (s1, out) -> step P st' o tick' = (s1', out') ->
    out_logical out = Some so -> is_io out' = false ->
    out_logical out' = Some so /\
    (forall q, s_get (abs_qs (s_qs s1')) q = s_get (abs_qs (s_qs s1)) q) /\
    (forall q, log_next s1' q = log_next s1 q).
Proof.
  intros Hopen Hr Hok Hb Er o tick tick' s1 out s1' out' so Es Es' Hl Hio.
  pose proof (inv_fresh P HBS_lo HBS_hi HNB pol0 st0 Hopen) as HI0.
  destruct (HF hrun_inv h st0 gh_fresh HI0 Hok) as (sa & oa & G & Ea & HI & _).
  rewrite Hr in Ea. injection Ea as <- <-.
  unfold RestartFinal.restart in Er.
  destruct (HF inv_reopen st G HI (restart_reopen_bound P HBS_lo HBS_hi HNB Hcrc st G HI Hb) pol hint)
    as (sb & G' & Eo & HI' & Heq & _).
  rewrite Er in Eo. injection Eo as <-.
  pose proof (step_refines P st o tick (Inv_qs_inv P _ _ HI)) as A. rewrite Es in A.
  destruct A as (_ & A). specialize (A so Hl).
  pose proof (step_refines P st' o tick' (Inv_qs_inv P _ _ HI')) as A'. rewrite Es' in A'.
  destruct A' as (_ & A').
  destruct (out_logical out') as [so'|] eqn:El'; [|destruct out'; discriminate].
  specialize (A' so' eq_refl).
  destruct (s_step_ext _ _ (sop_of o) Heq) as (X1 & X2). rewrite A, A' in X1, X2.
  cbn [fst snd] in X1, X2. subst so'.
  split; [reflexivity|]. split; [exact X2|]. intros q. now rewrite <- !log_next_abs, X2.
Qed.

(* "the next automatic append gets the same position": if append_records(q, None, pl) on the state
   reached reports the last position l, then after a clean restart the same call (not failing on
   I/O) reports the same l *)
Theorem next_position_survives_restart pol0 st0 h st outs pol hint st' :
  open P [] None pol0 [] = OpenOk st0 ->
  hrun st0 h = Some (st, outs) ->
  hist_ok st0 h ->
  restart_bound st ->
  restart st pol hint = OpenOk st' ->
  (forall q, log_last_position st' q = log_last_position st q) /\
  forall q pos pl tick tick' s1 l n s1' out',
    step P st (OAppend q pos pl) tick = (s1, OutAppend l n) ->
    step P st' (OAppend q pos pl) tick' = (s1', out') ->
    is_io out' = false ->
    exists n', out' = OutAppend l n'.
Proof.
  intros Hopen Hr Hok Hb Er. split.
  - destruct (HF C01_restart_identity pol0 st0 h st outs Hopen Hr Hok Hb pol hint)
      as (sb & Eb & _ & _ & Hlp & _).
    rewrite Er in Eb. injection Eb as <-. exact Hlp.
  - intros q pos pl tick tick' s1 l n s1' out' Es Es' Hio.
    destruct (next_call_survives_restart pol0 st0 h st outs pol hint st' Hopen Hr Hok Hb Er
                _ _ _ _ _ _ _ (SAppended l) Es Es' eq_refl Hio) as (Hl & _).
    destruct out'; cbn [out_logical] in Hl; try discriminate Hl.
    injection Hl as ->. eexists; reflexivity.
Qed.

(* Run a history of calls and restarts from st1, and from st2 (holding the same content for q) the
   sub-history that keeps the restarts and only the calls addressed to q.  Both runs succeed, q
   holds the same content at the end (so the three reads agree on q), and the calls addressed to
   q returned the same logical outcomes. *)
Theorem projection_with_restarts_inv h q st1 G1 st2 G2 :
  Inv st1 G1 -> Inv st2 G2 ->
  s_get (abs_qs (s_qs st1)) q = s_get (abs_qs (s_qs st2)) q ->
  hist_ok st1 h -> hist_ok st2 (hproj q h) ->
  exists st1' outs1 st2' outs2 souts2,
    hrun st1 h = Some (st1', outs1) /\
    hrun st2 (hproj q h) = Some (st2', outs2) /\
    s_get (abs_qs (s_qs st1')) q = s_get (abs_qs (s_qs st2')) q /\
    (forall lo hi, log_range st1' q lo hi = log_range st2' q lo hi) /\
    log_last_position st1' q = log_last_position st2' q /\
    log_last_record st1' q = log_last_record st2' q /\
    map out_logical outs2 = map Some souts2 /\
    map out_logical (keep_outs (on_queue q) (hcalls_t h) outs1) = map Some souts2.
Proof.
  intros HI1 HI2 Hg Hok1 Hok2.
  destruct (HF hrun_inv h st1 G1 HI1 Hok1) as (st1' & outs1 & G1' & Er1 & HI1' & _ & _ & Hs1).
  destruct (HF hrun_inv (hproj q h) st2 G2 HI2 Hok2) as (st2' & outs2 & G2' & Er2 & HI2' & _ & _ & Hs2).
  destruct (Hs1 _ (fun q => eq_refl)) as (m1 & souts1 & R1 & Hm1 & L1).
  destruct (Hs2 _ (fun q => eq_refl)) as (m2 & souts2 & R2 & Hm2 & L2).
  rewrite hcalls_hproj in R2.
  destruct (s_run_projection (map sop_of (hcalls h)) _ _ q Hg) as (Pg & Po).
  rewrite R1, R2 in Pg, Po. cbn [fst snd] in Pg, Po. rewrite Hm1, Hm2 in Pg.
  exists st1', outs1, st2', outs2, souts2.
  split; [exact Er1|]. split; [exact Er2|]. split; [exact Pg|].
  destruct (reads_of_abs st1' st2' q (Inv_qs_inv P _ _ HI1') (Inv_qs_inv P _ _ HI2') Pg)
    as (Ra & Rb & Rc).
  split; [exact Ra|]. split; [exact Rb|]. split; [exact Rc|]. split; [exact L2|].
  rewrite keep_outs_map_out, L1, <- keep_outs_map_out. f_equal.
  rewrite <- Po, <- hcalls_t_sop. unfold on_queue.
  now rewrite (keep_outs_map_in (addressed q) (fun ot : op * bool => sop_of (fst ot))).
Qed.

(* both from the same fresh directory *)
Theorem projection_with_restarts pol0 st0 h q :
  open P [] None pol0 [] = OpenOk st0 ->
  hist_ok st0 h -> hist_ok st0 (hproj q h) ->
  exists st1 outs1 st2 outs2 souts2,
    hrun st0 h = Some (st1, outs1) /\
    hrun st0 (hproj q h) = Some (st2, outs2) /\
    s_get (abs_qs (s_qs st1)) q = s_get (abs_qs (s_qs st2)) q /\
    (forall lo hi, log_range st1 q lo hi = log_range st2 q lo hi) /\
    log_last_position st1 q = log_last_position st2 q /\
    log_last_record st1 q = log_last_record st2 q /\
    map out_logical outs2 = map Some souts2 /\
    map out_logical (keep_outs (on_queue q) (hcalls_t h) outs1) = map Some souts2.
Proof.
  intros Hopen Hok1 Hok2.
  pose proof (inv_fresh P HBS_lo HBS_hi HNB pol0 st0 Hopen) as HI0.
  exact (projection_with_restarts_inv h q st0 gh_fresh st0 gh_fresh HI0 HI0 eq_refl Hok1 Hok2).
Qed.

(* special case: a history in which no call is addressed to q (restarts anywhere) leaves q exactly
   as it was *)
Corollary others_and_restarts_invisible h q st G st' outs :
  Inv st G -> hist_ok st h -> hrun st h = Some (st', outs) ->
  (forall o, In o (hcalls h) -> sop_queue (sop_of o) <> Some q) ->
  s_get (abs_qs (s_qs st')) q = s_get (abs_qs (s_qs st)) q /\
  (forall lo hi, log_range st' q lo hi = log_range st q lo hi) /\
  log_last_position st' q = log_last_position st q /\
  log_last_record st' q = log_last_record st q.
Proof.
  intros HI Hok Hr Hall.
  destruct (HF hrun_inv h st G HI Hok) as (s1 & o1 & G' & Er & HI' & _ & _ & Hs).
  rewrite Hr in Er. injection Er as <- <-.
  destruct (Hs _ (fun q => eq_refl)) as (m & souts & R & Hm & _).
  assert (Hg : s_get (abs_qs (s_qs st')) q = s_get (abs_qs (s_qs st)) q).
  { rewrite <- Hm. replace m with (fst (s_run (abs_qs (s_qs st)) (map sop_of (hcalls h))))
      by now rewrite R.
    apply s_run_others_invisible. intros so Hin. apply in_map_iff in Hin as (o & <- & Hin).
    now apply Hall. }
  split; [exact Hg|].
  exact (reads_of_abs st' st q (Inv_qs_inv P _ _ HI') (Inv_qs_inv P _ _ HI) Hg).
Qed.

End Corollaries.

Print Assumptions positions_with_restarts.
Print Assumptions positions_fresh_with_restarts.
Print Assumptions after_truncate_with_restarts.
Print Assumptions restart_keeps_next.
Print Assumptions next_call_survives_restart.
Print Assumptions next_position_survives_restart.
Print Assumptions projection_with_restarts_inv.
Print Assumptions projection_with_restarts.
Print Assumptions others_and_restarts_invisible.

(* The theorems on the concrete history of RestartFinal.Example
   (BS = 32, two blocks per file; roll-overs, two GC passes, three restarts; queue a is truncated
   twice, queue b is created empty, survives three restarts through its position entry only, and
   receives its first record after the last restart.) *)
Module ExampleCorollaries.
Import ListNotations Example.

(* C04: no delete in h_ex; the appends to a report 1 < 2 < 5 < 6 across two restarts, the append
   to b reports 0; final next positions 7 and 1 *)
Example positions_ex :
  log_never_deleted qa (hcalls_t h_ex) outs_ex /\ log_never_deleted qb (hcalls_t h_ex) outs_ex /\
  log_lasts qa (hcalls_t h_ex) outs_ex = [1; 2; 5; 6] /\ log_next st_ex qa = 7 /\
  log_lasts qb (hcalls_t h_ex) outs_ex = [0] /\ log_next st_ex qb = 1.
Proof. vm_compute. repeat split; reflexivity. Qed.

Example positions_fresh_ex :
  incr_between 0 (log_next st_ex qa) (log_lasts qa (hcalls_t h_ex) outs_ex).
Proof.
  exact (proj1 (positions_fresh_with_restarts Px Px_BS_lo Px_BS_hi Px_NB Px_crc eq_refl eq_refl
                  PNothing st0 h_ex st_ex outs_ex qa open_st0 hist_ok_ex hrun_ex
                  (proj1 positions_ex))).
Qed.

(* C18: the sub-history of b (create b, three restarts, append to b) *)
Example hproj_qb_ex :
  hproj qb h_ex =
  [HCall (OCreate qb) false; HRestart (PDelay true) []; HRestart PNothing [qb];
   HRestart PNothing [qb]; HCall (OAppend qb None [pay "w"%byte]) true].
Proof. vm_compute. reflexivity. Qed.

Lemma hist_ok_proj_qb : hist_ok Px st0 (hproj qb h_ex).
Proof.
  rewrite hproj_qb_ex.
  call_tac. restart_tac qb 0. restart_tac qb 0. restart_tac qb 0. call_tac.
  exact I.
Qed.

Example projection_ex :
  exists st1 outs1 st2 outs2 souts2,
    hrun Px st0 h_ex = Some (st1, outs1) /\
    hrun Px st0 (hproj qb h_ex) = Some (st2, outs2) /\
    s_get (abs_qs (s_qs st1)) qb = s_get (abs_qs (s_qs st2)) qb /\
    (forall lo hi, log_range st1 qb lo hi = log_range st2 qb lo hi) /\
    log_last_position st1 qb = log_last_position st2 qb /\
    log_last_record st1 qb = log_last_record st2 qb /\
    map out_logical outs2 = map Some souts2 /\
    map out_logical (keep_outs (on_queue qb) (hcalls_t h_ex) outs1) = map Some souts2.
Proof.
  exact (projection_with_restarts Px Px_BS_lo Px_BS_hi Px_NB Px_crc eq_refl eq_refl
           PNothing st0 h_ex qb open_st0 hist_ok_ex hist_ok_proj_qb).
Qed.

Example projection_ex_computed :
  match hrun Px st0 (hproj qb h_ex) with
  | Some (st2, outs2) =>
      s_get (abs_qs (s_qs st2)) qb = s_get (abs_qs (s_qs st_ex)) qb /\
      map out_logical outs2 = [Some SOk; Some (SAppended (Some 0))] /\
      map out_logical (keep_outs (on_queue qb) (hcalls_t h_ex) outs_ex) =
        [Some SOk; Some (SAppended (Some 0))]
  | None => False
  end.
Proof. vm_compute. repeat split; reflexivity. Qed.
End ExampleCorollaries.

Print Assumptions ExampleCorollaries.positions_fresh_ex.
Print Assumptions ExampleCorollaries.projection_ex.
