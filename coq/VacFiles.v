(* VacFiles.v — vacuity audit: the file-level damage theorems (the "kept / ghost
   stream" setting of DamageFile): C09_open_one_damaged, and C08_open_damaged_replays_only_written
   = C09_open_damaged = C12_open_damaged (one lemma, DamageFile.open_damaged).
   Instance: BS = 16, NB = 2 (files of 32 bytes), the real CRC-32; six entries written from
   stream position 0 (file 0); file 0 was deleted (base = 0, lo = 1): the kept files 1..6 hold
   the stream from byte 32 on, with one frame of the THIRD entry damaged so that its CRC fails
   (the damaged bytes come from C09_damage_exists, so the directory is built from them). *)
From Coq Require Import Lia ZArith ZifyN ZifyNat ZifyBool List.
From MRL Require Import Bytes BytesProofs Params Names Frame Record Mem Spec Rolling Log Driver Hist
  RecordProofs StreamProofs TornProofs DamageProofs ResyncProofs GcProofs FileStream GhostLog
  OpenReplay DamageFile Crc VacBase VacStream.
From MRL Require PropC08 PropC09 PropC12.
Import ListNotations.

(* a directory of six full files 1..6 with given contents *)
Section Six.
Variables b1 b2 b3 b4 b5 b6 : bytes.
Definition fs6 : fsT :=
  [(filename 1, FFile b1); (filename 2, FFile b2); (filename 3, FFile b3);
   (filename 4, FFile b4); (filename 5, FFile b5); (filename 6, FFile b6)].

Lemma fs6_listing : list_wal_numbers fs6 = iota 1 6.
Proof. vm_compute. reflexivity. Qed.

Lemma fs6_stream : stream_of fs6 (iota 1 6) = b1 ++ b2 ++ b3 ++ b4 ++ b5 ++ b6 ++ [].
Proof. vm_compute. reflexivity. Qed.

Lemma fs6_get f : In f (iota 1 6) ->
  exists b, fs_get fs6 (filename f) = Some (FFile b) /\ In b [b1; b2; b3; b4; b5; b6].
Proof.
  intros H. cbn in H.
  destruct H as [<-|[<-|[<-|[<-|[<-|[<-|[]]]]]]];
    eexists; (split; [vm_compute; reflexivity|]); cbn; tauto.
Qed.
End Six.

(* cutting a stream into n chunks of F bytes *)
Fixpoint chunks (n : nat) (F : N) (S : bytes) : list bytes :=
  match n with O => [] | Datatypes.S n' => takeN F S :: chunks n' F (dropN F S) end.

Lemma chunks_ok n F : forall S, lenN S = N.of_nat n * F ->
  concat (chunks n F S) = S /\ Forall (fun c => lenN c = F) (chunks n F S).
Proof.
  induction n as [|n IH]; intros S HS; cbn [chunks concat].
  - split; [|constructor]. symmetry. apply lenN_0_nil. lia.
  - destruct (IH (dropN F S)) as (Hc & Hl); [rewrite lenN_dropN; lia|].
    rewrite Hc. split; [apply takeN_dropN|]. constructor; [|exact Hl]. rewrite lenN_takeN. lia.
Qed.

Definition fs_of_stream (S : bytes) : fsT :=
  match chunks 6 32 S with
  | [c1; c2; c3; c4; c5; c6] => fs6 c1 c2 c3 c4 c5 c6
  | _ => []
  end.

Lemma fs_of_stream_ok S : lenN S = 192 ->
  list_wal_numbers (fs_of_stream S) = iota 1 6 /\
  stream_of (fs_of_stream S) (iota 1 6) = S /\
  forall f, In f (iota 1 6) ->
    exists b, fs_get (fs_of_stream S) (filename f) = Some (FFile b) /\ lenN b = 32.
Proof.
  intros HS. destruct (chunks_ok 6 32 S) as (Hc & Hl); [rewrite HS; reflexivity|].
  unfold fs_of_stream. cbn [chunks] in *.
  split; [apply fs6_listing|]. split.
  - rewrite fs6_stream. cbn [concat] in Hc. exact Hc.
  - intros f Hf. match goal with |- context [fs6 ?c1 ?c2 ?c3 ?c4 ?c5 ?c6] =>
      destruct (fs6_get c1 c2 c3 c4 c5 c6 f Hf) as (b & Hg & Hin) end. exists b. split; [exact Hg|].
    rewrite Forall_forall in Hl. apply Hl. exact Hin.
Qed.

Definition E1 : list entry := [EPosition qa 0; EAppend qa 0 [(0, ["x"; "y"]%byte)]].
Definition X : entry := EPosition qb 3.
Definition E2 : list entry := [EAppend qa 1 [(1, ["z"]%byte)]; ETruncate qa 0; EPosition qb 7].

Lemma wf_all : Forall wf_entry (E1 ++ X :: E2).
Proof.
  unfold E1, X, E2, wf_entry. cbn [app entry_queue entry_pos].
  repeat (constructor; [split; [vm_compute; reflexivity|]; split; [vm_compute; reflexivity|];
                        split; [vm_compute; reflexivity|];
                        first [exact I | repeat (constructor; [split; vm_compute; reflexivity|]); constructor]|]).
  constructor.
Qed.

Definition t1f : bytes := Eval vm_compute in encs_of Ps 0 (map entry_ser E1).
Definition exf : bytes := Eval vm_compute in enc_of Ps (lenN t1f) (entry_ser X).
Definition t2f : bytes := Eval vm_compute in encs_of Ps (lenN t1f + lenN exf) (map entry_ser E2).

Example files_shape :
  lenN t1f = 79 /\ lenN exf = 27 /\ lenN t2f = 112 /\
  map snd (starts Ps 0 (map entry_ser (E1 ++ X :: E2))) = [0; 32; 80; 112; 160; 192].
Proof. vm_compute. repeat split; reflexivity. Qed.

Lemma t1f_rel : encs_rel Ps 0 (map entry_ser E1) t1f.
Proof.
  replace t1f with (encs_of Ps 0 (map entry_ser E1)) by (vm_compute; reflexivity).
  apply (encs_of_rel Ps Ps_BS_lo Ps_BS_hi Ps_crc).
Qed.
Lemma exf_rel : exists k, enc_rel Ps (lenN t1f) true (entry_ser X) exf k.
Proof.
  replace exf with (enc_of Ps (lenN t1f) (entry_ser X)) by (vm_compute; reflexivity).
  apply (enc_of_rel Ps Ps_BS_lo Ps_BS_hi Ps_crc).
Qed.
Lemma t2f_rel : encs_rel Ps (lenN t1f + lenN exf) (map entry_ser E2) t2f.
Proof.
  replace t2f with (encs_of Ps (lenN t1f + lenN exf) (map entry_ser E2)) by (vm_compute; reflexivity).
  apply (encs_of_rel Ps Ps_BS_lo Ps_BS_hi Ps_crc).
Qed.

Lemma C09_open_one_damaged_premises_satisfiable :
  exists (fs : fsT) (ed : bytes) (k : nat),
    (forall f, In f (iota 1 6) ->
       exists b, fs_get fs (filename f) = Some (FFile b) /\ lenN b = FILE_BYTES Ps) /\
    L_IO Ps = false /\ 0 <= 1 /\
    list_wal_numbers fs = iota 1 6 /\
    Forall wf_entry (E1 ++ X :: E2) /\
    encs_rel Ps 0 (map entry_ser E1) t1f /\
    enc_dmg Ps (lenN t1f) true (entry_ser X) exf ed k /\
    encs_rel Ps (lenN t1f + lenN exf) (map entry_ser E2) t2f /\
    stream_of fs (iota 1 6) = dropN ((1 - 0) * FILE_BYTES Ps) ((t1f ++ ed ++ t2f) ++ zerosN 6) /\
    lenN ((t1f ++ ed ++ t2f) ++ zerosN 6) = (1 + N.of_nat 5 - 0 + 1) * FILE_BYTES Ps /\
    (1 - 0) * FILE_BYTES Ps <= first_frame_pos Ps (lenN t1f).
Proof.
  destruct exf_rel as [k Hk].
  destruct (PropC09.C09_damage_exists Ps Ps_BS_lo Ps_BS_hi Ps_crc _ _ _ _ _ Hk) as (ed & Hd).
  pose proof (enc_dmg_len Ps Ps_BS_lo Ps_BS_hi Ps_crc _ _ _ _ _ _ Hd) as Hlen.
  set (Sall := (t1f ++ ed ++ t2f) ++ zerosN 6).
  assert (HL : lenN Sall = 224).
  { unfold Sall. rewrite !lenN_app, Hlen, lenN_zerosN. vm_compute. reflexivity. }
  set (S := dropN 32 Sall).
  assert (HS : lenN S = 192) by (unfold S; rewrite lenN_dropN, HL; reflexivity).
  destruct (fs_of_stream_ok S HS) as (Hls & Hst & Hget).
  exists (fs_of_stream S), ed, k.
  split; [exact Hget|]. split; [reflexivity|]. split; [lia|]. split; [exact Hls|].
  split; [exact wf_all|]. split; [exact t1f_rel|]. split; [exact Hd|]. split; [exact t2f_rel|].
  split; [exact Hst|]. split; [exact HL|]. vm_compute. intros H; discriminate H.
Qed.

Example C09_open_one_damaged_inst :
  exists fs w0 tags E1s,
    match replay_entries [] (combine tags (E1s ++ E2)) with
    | Some qs => open Ps fs None PNothing [] = open_finish Ps w0 qs PNothing []
    | None => exists c, open Ps fs None PNothing [] = OpenCorruption c
    end.
Proof.
  destruct C09_open_one_damaged_premises_satisfiable
    as (fs & ed & k & H1 & H2 & H3 & H4 & H5 & H6 & H7 & H8 & H9 & H10 & H11).
  destruct (PropC09.C09_open_one_damaged Ps Ps_BS_lo Ps_BS_hi Ps_NB Ps_crc fs 1 5%nat H1 0 E1 X E2 t1f
              exf ed k t2f 6 PNothing [] H2 H3 H4 H5 H6 H7 H8 H9 H10 H11)
    as (w0 & tags & E1p & E1s & _ & _ & _ & _ & _ & Hres).
  exists fs, w0, tags, E1s. exact Hres.
Qed.

(* open_damaged (C08 / C09 / C12): all premises, with real damage *)
Lemma open_damaged_premises_satisfiable :
  exists (fs : fsT) (pxs : list (bytes * list fspec)) (T' : bytes),
    (forall f, In f (iota 1 6) ->
       exists b, fs_get fs (filename f) = Some (FFile b) /\ lenN b = FILE_BYTES Ps) /\
    L_IO Ps = false /\ 0 <= 1 /\
    list_wal_numbers fs = iota 1 6 /\
    Forall wf_entry (E1 ++ X :: E2) /\
    map fst pxs = map entry_ser (E1 ++ X :: E2) /\
    encs_any Ps 0 pxs T' /\
    stream_of fs (iota 1 6) = dropN ((1 - 0) * FILE_BYTES Ps) (T' ++ zerosN 6) /\
    lenN (T' ++ zerosN 6) = (1 + N.of_nat 5 - 0 + 1) * FILE_BYTES Ps /\
    map (intact Ps) pxs = [true; true; false; true; true; true].
Proof.
  destruct C09_open_one_damaged_premises_satisfiable
    as (fs & ed & k & H1 & H2 & H3 & H4 & H5 & H6 & H7 & H8 & H9 & H10 & H11).
  pose proof (enc_dmg_len Ps Ps_BS_lo Ps_BS_hi Ps_crc _ _ _ _ _ _ H7) as Hlen.
  destruct (encs_rel_any Ps Ps_BS_lo Ps_BS_hi Ps_crc 0 _ t1f H6) as (pxs1 & Ha1 & Hm1 & Hi1).
  destruct (enc_dmg_any Ps Ps_BS_lo Ps_BS_hi Ps_crc _ _ _ _ _ _ H7) as (xs & Hx & Hbad & _).
  rewrite <- Hlen in H8.
  destruct (encs_rel_any Ps Ps_BS_lo Ps_BS_hi Ps_crc _ _ t2f H8) as (pxs2 & Ha2 & Hm2 & Hi2).
  exists fs, (pxs1 ++ (entry_ser X, xs) :: pxs2), (t1f ++ ed ++ t2f).
  split; [exact H1|]. split; [exact H2|]. split; [exact H3|]. split; [exact H4|]. split; [exact H5|].
  split; [rewrite !map_app; cbn [map fst]; now rewrite Hm1, Hm2|].
  split.
  { apply (encs_any_app Ps Ps_BS_lo Ps_BS_hi Ps_crc 0 pxs1 t1f Ha1).
    econstructor; [exact Hx|]. rewrite N.add_0_l. exact Ha2. }
  split; [exact H9|]. split; [exact H10|].
  assert (L1 : length pxs1 = 2%nat) by (rewrite <- (map_length fst), Hm1; reflexivity).
  assert (L2 : length pxs2 = 3%nat) by (rewrite <- (map_length fst), Hm2; reflexivity).
  rewrite (intact_mask Ps pxs1 (entry_ser X, xs) pxs2 Hi1 Hbad Hi2), L1, L2. reflexivity.
Qed.

Example C09_open_damaged_inst :
  exists fs w0 tags E_ok,
    match replay_entries [] (combine tags E_ok) with
    | Some qs => open Ps fs None PNothing [] = open_finish Ps w0 qs PNothing []
    | None => exists c, open Ps fs None PNothing [] = OpenCorruption c
    end.
Proof.
  destruct open_damaged_premises_satisfiable
    as (fs & pxs & T' & H1 & H2 & H3 & H4 & H5 & H6 & H7 & H8 & H9 & _).
  destruct (PropC09.C09_open_damaged Ps Ps_BS_lo Ps_BS_hi Ps_NB Ps_crc fs 1 5%nat H1 0 (E1 ++ X :: E2)
              pxs T' 6 PNothing [] H2 H3 H4 H5 H6 H7 H8 H9)
    as (w0 & tags & Ep & Es & p1 & p2 & _ & _ & _ & _ & _ & _ & _ & _ & Hres).
  exists fs, w0, tags, (ok_entries Ps p2 Es). exact Hres.
Qed.

Example C08_open_damaged_replays_only_written_inst :
  exists fs w0 tags E_ok,
    match replay_entries [] (combine tags E_ok) with
    | Some qs => open Ps fs None (PAlways true) [qa] = open_finish Ps w0 qs (PAlways true) [qa]
    | None => exists c, open Ps fs None (PAlways true) [qa] = OpenCorruption c
    end.
Proof.
  destruct open_damaged_premises_satisfiable
    as (fs & pxs & T' & H1 & H2 & H3 & H4 & H5 & H6 & H7 & H8 & H9 & _).
  destruct (PropC08.C08_open_damaged_replays_only_written Ps Ps_BS_lo Ps_BS_hi Ps_NB Ps_crc fs 1 5%nat H1
              0 (E1 ++ X :: E2) pxs T' 6 (PAlways true) [qa] H2 H3 H4 H5 H6 H7 H8 H9)
    as (w0 & tags & Ep & Es & p1 & p2 & _ & _ & _ & _ & _ & _ & _ & _ & Hres).
  exists fs, w0, tags, (ok_entries Ps p2 Es). exact Hres.
Qed.

Example C12_open_damaged_inst :
  exists fs w0 tags E_ok,
    match replay_entries [] (combine tags E_ok) with
    | Some qs => open Ps fs None (PDelay false) [] = open_finish Ps w0 qs (PDelay false) []
    | None => exists c, open Ps fs None (PDelay false) [] = OpenCorruption c
    end.
Proof.
  destruct open_damaged_premises_satisfiable
    as (fs & pxs & T' & H1 & H2 & H3 & H4 & H5 & H6 & H7 & H8 & H9 & _).
  destruct (PropC12.C12_open_damaged Ps Ps_BS_lo Ps_BS_hi Ps_NB Ps_crc fs 1 5%nat H1
              0 (E1 ++ X :: E2) pxs T' 6 (PDelay false) [] H2 H3 H4 H5 H6 H7 H8 H9)
    as (w0 & tags & Ep & Es & p1 & p2 & _ & _ & _ & _ & _ & _ & _ & _ & Hres).
  exists fs, w0, tags, (ok_entries Ps p2 Es). exact Hres.
Qed.

(* open_torn (C02_open_torn = C12_open_torn): every premise except no_zero_collision *)
(* base 0, lo 1 (file 0 deleted); E_all = E1 ++ [X] written from 0 (106 bytes); the call in
   flight logs the three entries of E2 from c0 = 106, cut after j = 50 of their 112 bytes (inside
   the third frame of the first entry); the last file (4) is SHORT: 28 bytes instead of 32 *)
Import TornFile.
Definition T_t : bytes := Eval vm_compute in encs_of Ps 0 (map entry_ser (E1 ++ [X])).
Definition S_t : bytes :=
  Eval vm_compute in T_t ++ zerosN (106 - lenN T_t) ++
                     takeN 50 (encs_of Ps 106 (map entry_ser E2)) ++ zerosN 4.
Definition fs_t : fsT :=
  Eval vm_compute in
    [(filename 1, FFile (sliceN 32 64 S_t)); (filename 2, FFile (sliceN 64 96 S_t));
     (filename 3, FFile (sliceN 96 128 S_t)); (filename 4, FFile (sliceN 128 156 S_t))].

Lemma wf_E1X : Forall wf_entry (E1 ++ [X]).
Proof.
  pose proof wf_all as H. apply Forall_app in H as [H1 H2]. apply Forall_app. split; [exact H1|].
  inversion H2; subst. constructor; [assumption|constructor].
Qed.
Lemma wf_E2 : Forall wf_entry E2.
Proof. pose proof wf_all as H. apply Forall_app in H as [_ H2]. now inversion H2. Qed.

Lemma open_torn_other_premises_satisfiable :
  list_wal_numbers fs_t = iota 1 4 /\
  (forall f, In f (iota 1 4) ->
     exists b, fs_get fs_t (filename f) = Some (FFile b) /\
               lenN b <= FILE_BYTES Ps /\ (f <> 1 + N.of_nat 3 -> lenN b = FILE_BYTES Ps)) /\
  0 <= 1 /\ L_IO Ps = false /\ L_SHORT Ps = false /\
  Forall wf_entry (E1 ++ [X]) /\ Forall wf_entry E2 /\
  encs_rel Ps 0 (map entry_ser (E1 ++ [X])) T_t /\
  lenN T_t <= 106 /\ 106 <= first_frame_pos Ps (lenN T_t) /\ (1 - 0) * FILE_BYTES Ps <= 106 /\
  50 <= lenN (encs_of Ps 106 (map entry_ser E2)) /\
  stream_of (fs_ext Ps fs_t 1 3) (iota 1 4) =
    dropN ((1 - 0) * FILE_BYTES Ps)
          (T_t ++ zerosN (106 - lenN T_t) ++ takeN 50 (encs_of Ps 106 (map entry_ser E2)) ++ zerosN 4) /\
  lenN (T_t ++ zerosN (106 - lenN T_t) ++ takeN 50 (encs_of Ps 106 (map entry_ser E2)) ++ zerosN 4) =
    (1 + N.of_nat 3 - 0 + 1) * FILE_BYTES Ps.
Proof.
  split; [vm_compute; reflexivity|]. split.
  { intros f Hf. cbn in Hf.
    destruct Hf as [<-|[<-|[<-|[<-|[]]]]]; eexists;
      (split; [vm_compute; reflexivity|]);
      (split; [vm_compute; intros H; discriminate H|]); intros Hne;
      first [vm_compute; reflexivity | exfalso; apply Hne; reflexivity]. }
  split; [lia|]. split; [reflexivity|]. split; [reflexivity|].
  split; [exact wf_E1X|]. split; [exact wf_E2|]. split.
  { replace T_t with (encs_of Ps 0 (map entry_ser (E1 ++ [X]))) by (vm_compute; reflexivity).
    apply (encs_of_rel Ps Ps_BS_lo Ps_BS_hi Ps_crc). }
  split; [vm_compute; intros H; discriminate H|]. split; [vm_compute; intros H; discriminate H|].
  split; [vm_compute; intros H; discriminate H|]. split; [vm_compute; intros H; discriminate H|].
  split; vm_compute; reflexivity.
Qed.

(* what open does on this directory, by computation (the theorem itself cannot be applied:
   no_zero_collision Ps is false): it succeeds and replays E1[1] and X; the torn first entry of
   E2 (cut in its third frame) is not delivered *)
Example open_torn_computed :
  match open Ps fs_t None PNothing [] with
  | OpenOk st => map (fun '(q, m) => (q, next_position m)) (s_qs st) = [(qa, 1); (qb, 3)] /\
                 w_file (s_wr st) = 4 /\ w_off (s_wr st) = 30
  | _ => False
  end.
Proof. vm_compute. repeat split; reflexivity. Qed.

(* C07_roundtrip_files / C07_restart_continues_stream: a fresh directory and a total size below
   2^64 files *)
Definition st0s : state :=
  Eval vm_compute in match open Ps [] None PNothing [] with OpenOk s => s
                     | _ => mkSt (mkWr (ctx_init [] None) [] 0 0 []) [] PNothing end.
Lemma open_st0s : open Ps [] None PNothing [] = OpenOk st0s.
Proof. vm_compute. reflexivity. Qed.
Definition es_f : list bytes := map entry_ser (E1 ++ X :: E2).
Lemma maxlen_ok : vw_cursor (fst (mem_write_all Ps (mkVecW 0 []) es_f)) <= MAXLEN Ps.
Proof. vm_compute. intros H; discriminate H. Qed.

Example C07_roundtrip_files_inst :
  exists w', file_write_all Ps (s_wr st0s) es_f =
             (w', Ok (snd (mem_write_all Ps (mkVecW 0 []) es_f))).
Proof.
  destruct (PropC07.C07_roundtrip_files Ps Ps_BS_lo Ps_BS_hi Ps_NB Ps_crc PNothing st0s es_f open_st0s
              maxlen_ok) as (w' & H & _). exists w'. exact H.
Qed.

Example C07_restart_continues_stream_inst :
  exists w' c rd, file_write_all Ps (s_wr st0s) es_f =
                    (w', Ok (snd (mem_write_all Ps (mkVecW 0 []) es_f))) /\
                  rd_open Ps (ctx_init (PolicyProofs.vfs w') None) = (c, Ok rd).
Proof.
  destruct (PropC07.C07_restart_continues_stream Ps Ps_BS_lo Ps_BS_hi Ps_NB Ps_crc PNothing st0s es_f
              open_st0s maxlen_ok) as (w' & c & rd & H1 & H2 & _).
  exists w', c, rd. split; [exact H1|exact H2].
Qed.

(* C07_reader_is_stream_reader: rd_rel holds between the reader `rd_open` returns on a directory
   of full files and the in-memory reader at block 0 of their concatenation *)
Definition fs_c : fsT := Eval vm_compute in fs_of_stream (dropN 32 ((t1f ++ exf ++ t2f) ++ zerosN 6)).

Lemma fs_c_full : forall n, In n (iota 1 6) ->
  exists b, fs_get fs_c (filename n) = Some (FFile b) /\ lenN b = FILE_BYTES Ps.
Proof.
  change fs_c with (fs_of_stream (dropN 32 ((t1f ++ exf ++ t2f) ++ zerosN 6))).
  refine (proj2 (proj2 (fs_of_stream_ok _ _))). vm_compute. reflexivity.
Qed.

Example C07_reader_is_stream_reader_inst :
  exists r v, rd_rel Ps fs_c (iota 1 6) r v /\
    snd (rd_next Ps r) = snd (vr_next Ps v) /\
    rd_rel Ps fs_c (iota 1 6) (fst (rd_next Ps r)) (fst (vr_next Ps v)).
Proof.
  assert (HB : 0 < BS Ps) by reflexivity.
  destruct (rd_open_sim Ps HB Ps_NB fs_c (iota 1 6) (iota_sorted _ _) fs_c_full (ctx_init fs_c None))
    as (c & rd & _ & Hrel); [split; reflexivity | vm_compute; reflexivity | discriminate |].
  exists rd, (vec_at Ps fs_c (iota 1 6) 0). split; [exact Hrel|].
  exact (PropC07.C07_reader_is_stream_reader Ps HB Ps_NB fs_c (iota 1 6) (iota_sorted _ _) fs_c_full
           rd _ Hrel).
Qed.
