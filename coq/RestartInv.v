(* RestartInv.v — the global restart invariant: definition, derived views, the payoff theorem
   (replaying only the kept suffix E, with any file tags, gives the abstract content of the
   live queues) and the invariant of a fresh directory.  Preservation by writes, by the GC and
   by every API call: RestartStep.v, from JInv.v, JGc.v, JStep.v. *)
From Coq Require Import Lia ZArith ZifyN ZifyNat ZifyBool List Sorted.
From MRL Require Import Bytes BytesProofs Params Names NamesProofs Frame Record Mem Spec Rolling Log
  Driver SpecRefine RecordProofs StreamProofs PolicyProofs GcProofs GhostLog ReplaySpec
  HandleProofs FileStream ResyncProofs.

Record ghost := mkGhost {
  gh_base : N;               (* file number of stream offset 0 *)
  gh_dropped : list entry;   (* forgotten for good: outside the files at the last restart *)
  gh_pre : glog;             (* logged since the last restart, first frame in a deleted file *)
  gh_E : glog                (* first frame in the kept files *)
}.

Definition gh_log (G : ghost) : glog := gh_pre G ++ gh_E G.
Definition gh_ALL (G : ghost) : list entry := gh_dropped G ++ map snd (gh_log G).
(* everything before E *)
Definition gh_before (G : ghost) : list entry := gh_dropped G ++ map snd (gh_pre G).
(* number of entries before E = index in ALL of the first entry of E *)
Definition gh_k (G : ghost) : nat := (length (gh_dropped G) + length (gh_pre G))%nat.

Lemma gh_ALL_split G : gh_ALL G = gh_before G ++ map snd (gh_E G).
Proof. unfold gh_ALL, gh_before, gh_log. now rewrite map_app, app_assoc. Qed.

Lemma gh_before_length G : length (gh_before G) = gh_k G.
Proof. unfold gh_before, gh_k. now rewrite app_length, map_length. Qed.

Lemma Forall2_app_one {A B} (R : A -> B -> Prop) l1 l2 a b :
  Forall2 R l1 l2 -> R a b -> Forall2 R (l1 ++ [a]) (l2 ++ [b]).
Proof. intros H1 H2. apply Forall2_app; [exact H1|]. constructor; [exact H2|constructor]. Qed.

Lemma Forall2_skipn {A B} (R : A -> B -> Prop) : forall n l1 l2,
  Forall2 R l1 l2 -> Forall2 R (skipn n l1) (skipn n l2).
Proof.
  induction n as [|n IH]; intros l1 l2 H; [exact H|].
  destruct H as [|a b l1 l2 Hab H]; [constructor|]. cbn [skipn]. now apply IH.
Qed.

Lemma Forall2_nth_error {A B} (R : A -> B -> Prop) : forall l1 l2 j a,
  Forall2 R l1 l2 -> nth_error l1 j = Some a -> exists b, nth_error l2 j = Some b /\ R a b.
Proof.
  intros l1 l2 j a H. revert j. induction H as [|x y l1 l2 Hxy H IH]; intros j Hj.
  - destruct j; discriminate.
  - destruct j as [|j]; cbn [nth_error] in *.
    + inversion Hj; subst. now exists y.
    + now apply IH.
Qed.

Lemma map_snd_combine' {A B} : forall (l1 : list A) (l2 : list B),
  length l1 = length l2 -> map snd (combine l1 l2) = l2.
Proof. exact map_snd_combine. Qed.

(* (L)(C): the logical log.  lo = the first kept file. *)
Definition LInv (qs : queues) (lo : N) (G : ghost) : Prop :=
  qs_wf qs /\
  legal_log [] 0 (gh_ALL G) /\
  replay_entries [] (gh_log G) = Some qs /\
  exists F, t_replay [] 0 (gh_ALL G) = Some F /\
    forall q rf n, t_get F q = Some (rf, n) ->
      (* (C2) every queue has a creating entry in E *)
      existsb (fun e => creates e q) (map snd (gh_E G)) = true /\
      (* (C1)+(H) every retained record was appended by an entry of E (for this queue), tagged
         with a kept file *)
      Forall (fun r => exists j f e, fst r = (gh_k G + j)%nat /\
                                     nth_error (gh_E G) j = Some (f, e) /\ lo <= f /\
                                     creates e q = true) rf.

Lemma LInv_nodup qs lo G : LInv qs lo G -> nodup_names qs.
Proof. intros (_ & _ & H & _). exact (replay_from_nil_nodup _ _ H). Qed.

(* the dummy-tagged full log, for HandleProofs *)
Definition gh_tagged (G : ghost) : glog := map (pair 0) (gh_dropped G) ++ gh_log G.

Lemma gh_tagged_snd G : map snd (gh_tagged G) = gh_ALL G.
Proof.
  unfold gh_tagged, gh_ALL. rewrite map_app, map_map. cbn [snd]. now rewrite map_id.
Qed.

(* the views of the replay of LOG from the empty state, with the indices of ALL *)
Lemma replay_views_from (pre fes : glog) qs :
  replay_entries [] fes = Some qs ->
  exists cm S,
    c_replay [] [] (length pre) fes = Some (cm, qs) /\
    t_replay [] (length pre) (map snd fes) = Some S /\
    ginv snd cm qs /\ tinv fst cm S /\
    HandleProofs.g_all (fun a => nth_error (map fst (pre ++ fes)) (fst a) = Some (snd a)) cm /\
    untag S = abs_qs qs /\ qs_inv qs.
Proof.
  intros H. pose proof (g_replay_queues (fun i f => (i, f)) fes [] [] (length pre)) as Hq.
  rewrite H in Hq. destruct Hq as (cm & Ec).
  destruct (g_replay_tags fst (fun i f => (i, f)) (fun _ _ => eq_refl) fes [] [] [] (length pre)
              cm qs (tinv_nil fst) qs_inv_nil eq_refl Ec) as (S & ES & Ht & Hu & Hq).
  pose proof (g_replay_handles snd (fun i f => (i, f)) (fun _ _ => eq_refl) fes [] [] (length pre)
                cm qs (ginv_nil snd) Ec) as Hg.
  pose proof (c_replay_files fes pre [] [] cm qs (g_all_nil _) Ec) as Hf.
  exists cm, S. split; [exact Ec|]. split; [exact ES|]. split; [exact Hg|]. split; [exact Ht|].
  split; [exact Hf|]. split; assumption.
Qed.

(* a retained record of the replay of fes (indices shifted by length pre) was appended by an
   entry whose file is referenced *)
Lemma record_referenced (pre fes : glog) qs S q rf n r :
  replay_entries [] fes = Some qs ->
  t_replay [] (length pre) (map snd fes) = Some S ->
  t_get S q = Some (rf, n) -> In r rf ->
  exists f, nth_error (map fst (pre ++ fes)) (fst r) = Some f /\ qs_ref f qs = true.
Proof.
  intros H ES Eq Hin.
  destruct (replay_views_from pre fes qs H) as (cm & S' & Ec & ES' & Hg & Ht & Hf & _).
  rewrite ES in ES'. inversion ES'; subst S'. clear ES'.
  pose proof (Ht q) as Htq. unfold tq_inv in Htq. rewrite Eq in Htq.
  destruct (g_get cm q) as [l|] eqn:El; [|contradiction].
  assert (Hi : In (fst r) (map fst l)) by (rewrite Htq; now apply in_map).
  apply in_map_iff in Hi. destruct Hi as (a & Ea & Ha).
  exists (snd a). split.
  - rewrite <- Ea. pose proof (Hf q l El) as Hall. rewrite Forall_forall in Hall. now apply Hall.
  - exact (attribution_referenced snd cm qs q l a Hg El Ha).
Qed.

(* the suffix replay (over LOG, with the indices of ALL) agrees with the full replay *)
Lemma LInv_views qs lo G :
  LInv qs lo G ->
  exists F S,
    t_replay [] 0 (gh_ALL G) = Some F /\
    t_replay [] (length (gh_dropped G)) (map snd (gh_log G)) = Some S /\
    (forall q, t_get S q = t_get F q) /\
    untag S = abs_qs qs /\ qs_inv qs.
Proof.
  intros (_ & Hleg & Hrep & F & EF & Hcov).
  destruct (replay_views_from (map (pair 0) (gh_dropped G)) (gh_log G) qs Hrep)
    as (cm & S & _ & ES & _ & _ & _ & Hu & Hq).
  rewrite map_length in ES.
  exists F, S. split; [exact EF|]. split; [exact ES|]. split; [|split; assumption].
  apply (covered_suffix_equal_tagged (gh_dropped G) (map snd (gh_log G)) F S Hleg EF ES).
  intros q rf n Eq. destruct (Hcov q rf n Eq) as (Hc & Hr). split.
  - eapply Forall_impl; [|exact Hr]. intros r (j & f & e & Ej & _). unfold gh_k in Ej. lia.
  - intros _. unfold gh_log. rewrite map_app, existsb_app, Hc. apply orb_true_r.
Qed.

(* the live queues, seen through the full replay *)
Lemma LInv_tget qs lo G F :
  LInv qs lo G -> t_replay [] 0 (gh_ALL G) = Some F ->
  forall q, match t_get F q, qs_get qs q with
            | Some v, Some m => untag_q v = abs_q m
            | None, None => True
            | _, _ => False
            end.
Proof.
  intros HL EF q. destruct (LInv_views qs lo G HL) as (F' & S & EF' & _ & Hp & Hu & _).
  rewrite EF in EF'. inversion EF'; subst F'. rewrite <- Hp.
  exact (untag_abs_get S qs q Hu).
Qed.

Lemma LInv_qs_inv qs lo G : LInv qs lo G -> qs_inv qs.
Proof. intros HL. now destruct (LInv_views qs lo G HL) as (F & S & _ & _ & _ & _ & Hq). Qed.

Lemma LInv_qs_wf qs lo G : LInv qs lo G -> qs_wf qs.
Proof. now intros (H & _). Qed.

(* (H) the attributions of the replay of LOG are covered by the file handles *)
Lemma LInv_attr_inv qs lo G :
  LInv qs lo G -> exists am, a_replay [] [] (gh_log G) = Some (am, qs) /\ attr_inv am qs.
Proof. intros (_ & _ & H & _). exact (replay_handles_from [] [] _ _ attr_inv_nil H). Qed.

Theorem linv_restart_equal qs lo G :
  LInv qs lo G ->
  forall tags', length tags' = length (gh_E G) ->
  exists qs',
    replay_entries [] (combine tags' (map snd (gh_E G))) = Some qs' /\
    qs_inv qs' /\ nodup_names qs' /\
    forall q, s_get (abs_qs qs') q = s_get (abs_qs qs) q.
Proof.
  intros HL tags' Hlen.
  destruct (LInv_views qs lo G HL) as (F & S & EF & ES & Hp & Hu & _).
  destruct HL as (_ & Hleg & Hrep & F' & EF' & Hcov).
  rewrite EF in EF'. inversion EF'; subst F'. clear EF'.
  set (fpre := map (pair 0) (gh_dropped G) ++ gh_pre G).
  assert (Epre : map snd fpre = gh_before G).
  { unfold fpre, gh_before. rewrite map_app, map_map. cbn [snd]. now rewrite map_id. }
  destruct (model_covered_suffix_equal fpre (gh_E G) (combine tags' (map snd (gh_E G))) F)
    as (qF & qS & _ & EqS & _ & HiS & HaF & Heq).
  - rewrite map_snd_combine; [reflexivity|]. rewrite map_length. lia.
  - rewrite Epre, <- gh_ALL_split. exact Hleg.
  - rewrite Epre, <- gh_ALL_split. exact EF.
  - intros q rf n Eq. rewrite Epre, gh_before_length. destruct (Hcov q rf n Eq) as (Hc & Hr). split.
    + eapply Forall_impl; [|exact Hr]. intros r (j & f & e & Ej & _). lia.
    + intros _. exact Hc.
  - rewrite apply_entries_replay_entries in EqS.
    exists qS. split; [exact EqS|]. split; [exact HiS|].
    split; [exact (replay_from_nil_nodup _ _ EqS)|].
    intros q. rewrite Heq, HaF, <- Hu, !untag_get, Hp. reflexivity.
Qed.

Section Restart.
Variable P : params.
Hypothesis HBS_lo : 7 < BS P.
Hypothesis HBS_hi : BS P <= 65542.
Hypothesis HNB : 1 <= NB P.
Hypothesis Hcrc : forall t p, crcf P t p < 2 ^ 32.

Local Notation B := (BS P).
Local Notation FB := (FILE_BYTES P).
Local Notation ffp := (first_frame_pos P).
Local Notation enc_of := (enc_of P).
Local Notation encs_of := (encs_of P).
Local Notation cursor_after := (cursor_after P).
Local Notation starts := (starts P).
Local Notation delivered_from := (delivered_from P).
Local Notation skipped_before := (skipped_before P).

Definition gh_ser (G : ghost) : list bytes := map entry_ser (gh_ALL G).
Definition gh_T (G : ghost) : bytes := encs_of 0 (gh_ser G).
Definition gh_ser_before (G : ghost) : list bytes := map entry_ser (gh_before G).
Definition gh_ser_E (G : ghost) : list bytes := map entry_ser (map snd (gh_E G)).
(* the cursor at which the first entry of E was written *)
Definition gh_a0 (G : ghost) : N := cursor_after 0 (gh_ser_before G).

Lemma gh_ser_split G : gh_ser G = gh_ser_before G ++ gh_ser_E G.
Proof. unfold gh_ser, gh_ser_before, gh_ser_E. now rewrite gh_ALL_split, map_app. Qed.

(* (F)(S)(W)(D)(H): the writer, its files and the ghost stream.
   dl = number of files deleted since `base`; the kept files are files base+dl .. w_file;
   c = the writer's cursor in the ghost stream. *)
Definition PInv (w : rwriter) (G : ghost) : Prop :=
  (* (F) *)
  winv P w /\ wd_ok w /\ nd w /\ gh_base G <= wlo w /\
  let dl := wlo w - gh_base G in
  let c := dl * FB + wpos P w in
  (* (S) the cursor: at the end of the ghost stream, or already past the zero padding that the
     next entry starts with (after a restart) *)
  lenN (gh_T G) <= c /\ c <= ffp (lenN (gh_T G)) /\
  (* (S) the kept files hold the ghost stream from the start of the first kept file on *)
  wstream w =
    dropN (dl * FB) (gh_T G ++ zerosN ((dl + lenN (w_files w)) * FB - lenN (gh_T G))) /\
  (* (W) *)
  Forall wf_entry (gh_ALL G) /\
  (* (D) a reader starting at the first kept file skips everything before E ... *)
  Forall (fun s => snd s < dl * FB) (starts 0 (gh_ser_before G)) /\
  (* ... and delivers E; (H) the first frame of an entry is not before the start of the file
     it is tagged with *)
  Forall2 (fun fe s => dl * FB <= snd s /\ (fst fe - gh_base G) * FB <= snd s)
          (gh_E G) (starts (gh_a0 G) (gh_ser_E G)) /\
  (* (H) tags never decrease and are file numbers between base and the current file *)
  tags_mono (gh_base G) (gh_log G) (w_file w).

Definition Inv (st : state) (G : ghost) : Prop :=
  PInv (s_wr st) G /\ LInv (s_qs st) (wlo (s_wr st)) G.

Theorem inv_restart_equal st G :
  Inv st G ->
  forall tags', length tags' = length (gh_E G) ->
  exists qs',
    replay_entries [] (combine tags' (map snd (gh_E G))) = Some qs' /\
    qs_inv qs' /\ nodup_names qs' /\
    forall q, s_get (abs_qs qs') q = s_get (abs_qs (s_qs st)) q.
Proof. intros (_ & HL). exact (linv_restart_equal _ _ _ HL). Qed.

Lemma Inv_nodup st G : Inv st G -> nodup_names (s_qs st).
Proof. intros (_ & HL). exact (LInv_nodup _ _ _ HL). Qed.

Lemma Inv_qs_inv st G : Inv st G -> qs_inv (s_qs st).
Proof. intros (_ & HL). exact (LInv_qs_inv _ _ _ HL). Qed.

Lemma Inv_qs_wf st G : Inv st G -> qs_wf (s_qs st).
Proof. intros (_ & HL). exact (LInv_qs_wf _ _ _ HL). Qed.

Lemma Inv_winv st G : Inv st G -> winv P (s_wr st) /\ wd_ok (s_wr st) /\ nd (s_wr st).
Proof. intros ((H1 & H2 & H3 & _) & _). auto. Qed.

(* what `open` will list: exactly the tracked files *)
Lemma Inv_listing st G : Inv st G -> list_wal_numbers (vfs (s_wr st)) = w_files (s_wr st).
Proof. intros HI. destruct (Inv_winv st G HI) as (H1 & H2 & H3). exact (listing_after P _ H1 H2 H3). Qed.

Lemma delivered_from_split b suf : forall pre a,
  Forall (fun s => snd s < b) (starts a pre) ->
  (suf <> [] -> b <= ffp (cursor_after a pre)) ->
  delivered_from b a (pre ++ suf) = suf.
Proof.
  induction pre as [|p pre IH]; intros a Hpre Hsuf; cbn [app].
  - rewrite (cursor_after_nil P HBS_lo HBS_hi) in Hsuf.
    destruct suf as [|x suf]; [reflexivity|]. cbn [ResyncProofs.delivered_from].
    destruct (N.leb_spec b (ffp a)) as [|Hlt]; [reflexivity|].
    specialize (Hsuf ltac:(discriminate)). lia.
  - cbn [ResyncProofs.starts] in Hpre. inversion Hpre as [|? ? Hp Hpre']; subst. cbn [snd] in Hp.
    cbn [ResyncProofs.delivered_from].
    destruct (N.leb_spec b (ffp a)) as [Hle|_]; [lia|].
    apply IH; [exact Hpre'|]. intros Hne.
    rewrite (cursor_after_cons P HBS_lo HBS_hi Hcrc) in Hsuf. now apply Hsuf.
Qed.

Lemma PInv_delivered w G :
  PInv w G ->
  delivered_from ((wlo w - gh_base G) * FB) 0 (gh_ser G) = gh_ser_E G /\
  skipped_before ((wlo w - gh_base G) * FB) 0 (gh_ser G) = gh_ser_before G.
Proof.
  intros (_ & _ & _ & _ & _ & _ & _ & _ & HD1 & HD2 & _). cbn zeta in *.
  assert (Hd : delivered_from ((wlo w - gh_base G) * FB) 0 (gh_ser G) = gh_ser_E G).
  { rewrite gh_ser_split. apply delivered_from_split; [exact HD1|].
    intros Hne. fold (gh_a0 G).
    destruct (gh_ser_E G) as [|p ps]; [contradiction|]. cbn [ResyncProofs.starts] in HD2.
    inversion HD2 as [|fe s l1 l2 (Hle & _) _]; subst. exact Hle. }
  split; [exact Hd|].
  pose proof (skipped_delivered P ((wlo w - gh_base G) * FB) (gh_ser G) 0) as Hsd.
  rewrite Hd in Hsd. rewrite gh_ser_split in Hsd at 1.
  apply app_inv_tail in Hsd. now symmetry.
Qed.

Definition gh_fresh : ghost := mkGhost 0 [] [] [].

Theorem inv_fresh pol st0 : open P [] None pol [] = OpenOk st0 -> Inv st0 gh_fresh.
Proof.
  intros H. destruct (open_fresh P HBS_lo HBS_hi HNB pol) as (c & Hc & Eo).
  rewrite Eo in H. inversion H; subst st0. clear H Eo.
  destruct (wsim_fresh P HBS_lo HBS_hi HNB c Hc) as ((Hw & Hcur & Hlen & Hs & _) & _).
  destruct (fresh_dir_inv P HBS_lo HBS_hi HNB c Hc) as (Hwd & Hnd).
  set (w := mkWr c [0] 0 (0 * B + 0) []) in *.
  assert (Elo : wlo w = 0) by reflexivity.
  assert (Efl : lenN (w_files w) = 1) by reflexivity.
  assert (Epos : wpos P w = 0).
  { unfold wpos. rewrite Efl. unfold w. cbn [w_off]. lia. }
  split.
  - unfold PInv. cbn [s_wr]. rewrite Elo, Efl, Epos.
    change (gh_T gh_fresh) with (@nil byte). change (gh_base gh_fresh) with 0.
    change (lenN (@nil byte)) with 0.
    split; [exact Hw|]. split; [exact Hwd|]. split; [exact Hnd|]. split; [lia|].
    cbn zeta. replace (0 - 0) with 0 by lia.
    split; [lia|]. split; [unfold first_frame_pos; lia|].
    split.
    { rewrite Hs, Efl, Epos. cbn [vw_buf app]. rewrite dropN_0. f_equal. }
    split; [constructor|]. split; [constructor|]. split; [constructor|].
    cbn. lia.
  - cbn [s_qs]. split; [intros n q []|]. split; [constructor|]. split; [reflexivity|].
    exists []. split; [reflexivity|]. intros q rf n Eq. discriminate.
Qed.

End Restart.

Print Assumptions linv_restart_equal.
Print Assumptions inv_restart_equal.
Print Assumptions inv_fresh.
Print Assumptions PInv_delivered.
