(* JRecoverGc.v — the garbage collection that `open` runs at the end of a
   recovery, seen as a virtual call (JRecover3.recover_vcall): its entries are position entries
   (identities), its file-system events are a prefix of a CrashTrace.call_trace.  Hence every
   crash image of the GC's own effects is recovered to the same abstract state. *)
From Coq Require Import Lia ZArith ZifyN ZifyNat ZifyBool List Sorted.
From MRL Require Import Bytes BytesProofs Params Names NamesProofs Frame Record Mem Spec Rolling Log
  Driver Hist NoopProofs SpecRefine RecordProofs StreamProofs PolicyProofs GcProofs GhostLog ReplaySpec
  HandleProofs FileStream ResyncProofs QueueIso RestartInv RestartWrite RestartGc RestartStep
  OpenReplay RestartFinal TornProofs TornFile CrashTrace CrashAtomic
  JInv JGc JStep JunkStream JReopen JRecoverL JRecoverP JRecoverL2
  JCrashShape JRecover2 JRecover3.

Section RecoverGc.
Variable P : params.
Hypothesis HBS_lo : 7 < BS P.
Hypothesis HBS_hi : BS P <= 65542.
Hypothesis HNB : 1 <= NB P.
Hypothesis Hcrc : forall t p, crcf P t p < 2 ^ 32.
Hypothesis HGC : L_GC P = false.
Hypothesis HIO : L_IO P = false.
Hypothesis HSHORT : L_SHORT P = false.
Hypothesis Hnc : no_zero_collision P.

Local Notation B := (BS P).
Local Notation FB := (FILE_BYTES P).
Local Notation ffp := (first_frame_pos P).
Local Notation encs_of := (encs_of P).
Local Notation cursor_after := (cursor_after P).
Local Notation ser := (map entry_ser).
Local Notation H3 f := (f P HBS_lo HBS_hi Hcrc) (only parsing).
Local Notation H2 f := (f P HBS_lo HBS_hi) (only parsing).
Local Notation HW f := (f P HBS_lo HBS_hi HNB Hcrc) (only parsing).
Local Notation HN f := (f P HBS_lo HBS_hi HNB) (only parsing).
Local Notation HG f := (f P HBS_lo HBS_hi HNB Hcrc HGC) (only parsing).

Variable PRE0 : bytes.
Variable OLD0 : list entry.
Variable opos0 : list (N * N).
Variable adm0 : N -> Prop.
Variable cmax0 : nat.
Variable rm0 : N.
Hypothesis Hpre0 : pre_ok PRE0 OLD0 opos0.
Hypothesis Hpc0 : pre_cont P PRE0 (ser OLD0) opos0 adm0 cmax0 rm0.
Hypothesis Hrm0 : rm0 <= 7.
Hypothesis Hadm0 : forall m, adm0 (m * NB P).

Local Notation InvJ0 := (InvJ P PRE0 OLD0 opos0).
Local Notation PInvJ0 := (PInvJ P PRE0 OLD0 opos0).
Local Notation jT0 := (jT P PRE0 OLD0).
Local Notation jser0 := (jser OLD0).
Local Notation crash_boundJ := (crash_boundJ P PRE0 OLD0).

Theorem gcJ_call_trace st G hint st3 n :
  PInvJ0 (s_wr st) G -> w_pending (s_wr st) = [] ->
  stream_boundJ P PRE0 OLD0 G (map snd (gc_log P st hint)) ->
  run_gc_if_necessary P st hint = (st3, Ok n) ->
  let w := s_wr st in
  exists evs extra,
    c_ev (w_ctx (s_wr st3)) = rev evs ++ c_ev (w_ctx w) /\
    c_fs (w_ctx (s_wr st3)) = fold_left apply_event (evs ++ extra) (c_fs (w_ctx w)) /\
    call_trace P (wlo w) (w_file w) (w_off w)
               (encs_of (call_cursor P st G) (ser (map snd (gc_log P st hint))))
               (w_file (s_wr st3)) (w_off (s_wr st3)) (evs ++ extra) /\
    w_pending (s_wr st3) = [].
Proof.
  clear Hpc0 Hrm0 Hadm0 HIO HSHORT Hnc. clear adm0 cmax0 rm0.
  intros HP Hp0 Hbound Hgc w. subst w. set (w := s_wr st) in *.
  destruct (pinvJ_tinv P HBS_lo HBS_hi HNB Hcrc PRE0 OLD0 opos0 w G _ HP Hp0 Hbound) as (EX & Ht).
  cbn zeta in EX, Ht.
  set (c := (wlo w - gh_base G) * FB + wpos P w) in *.
  set (buf := takeN (wpos P w) (wstream w)) in *.
  set (X := map entry_ser (map snd (gc_log P st hint))) in *.
  set (M := wpos P w + lenN (encs_of (wpos P w) X)) in *.
  destruct (HG tinv_run_gc (c_ev (w_ctx w)) (c_fs (w_ctx w)) (w_file w) (w_off w) M buf (wlo w) (wpos P w)
              st [] hint st3 n Ht) as (_ & [(Ehd & ->)|(evs & m & Hgc')]).
  { rewrite (@lenN_nil byte), N.add_0_r. fold X. unfold M. lia. }
  { exact Hgc. }
  - (* nothing deletable: no effect *)
    exists [], []. cbn [app rev fold_left].
    assert (EX0 : X = []) by (unfold X, gc_log; rewrite Ehd; reflexivity).
    split; [reflexivity|]. split; [reflexivity|]. split; [|exact Hp0].
    fold X. rewrite EX0. cbn [ResyncProofs.encs_of]. now constructor.
  - cbn zeta in Hgc'. destruct Hgc' as (Hev & Hfs & Htr & Hm & Hp').
    rewrite (@lenN_nil byte), N.add_0_r in *. cbn [app] in Htr. fold X in Htr. rewrite EX in Htr.
    set (f1 := w_file (s_wr st3)) in *.
    exists (evs ++ flush_group f1 true ++ unlinks (wlo w) m), (flush_group f1 false).
    split; [exact Hev|].
    split.
    { rewrite (fold_left_app _ _ (flush_group f1 false)), fold_flush_group. exact Hfs. }
    split; [|exact Hp'].
    fold X. change (call_cursor P st G) with c.
    replace ((evs ++ flush_group f1 true ++ unlinks (wlo w) m) ++ flush_group f1 false)
      with (evs ++ flush_group f1 true ++ unlinks (wlo w) m ++ flush_group f1 false)
      by (rewrite <- !app_assoc; reflexivity).
    apply ct_gc; assumption.
Qed.

Theorem recover_gc st G hint st3 n :
  InvJ0 st G -> w_pending (s_wr st) = [] ->
  run_gc_if_necessary P st hint = (st3, Ok n) ->
  crash_boundJ G (map snd (gc_log P st hint)) (abs_qs (s_qs st)) ->
  w_file (s_wr st3) = w_file (s_wr st) ->
  w_off (s_wr st3) + B <= FB ->
  exists evs, c_ev (w_ctx (s_wr st3)) = rev evs ++ c_ev (w_ctx (s_wr st)) /\
    forall pe, cpre pe evs -> forall pol hint2,
      let img := fold_left apply_event pe (c_fs (w_ctx (s_wr st))) in
      exists PRE OLD opos adm cmax rm st_r G_r,
        open P img None pol hint2 = OpenOk st_r /\
        pre_ok PRE OLD opos /\ pre_cont P PRE (ser OLD) opos adm cmax rm /\ rm <= 7 /\
        (forall m, adm (m * NB P)) /\
        InvJ P PRE OLD opos st_r G_r /\
        lenN PRE + rm <= (w_file (s_wr st_r) + 1 - gh_base G_r) * FB /\
        s_pol st_r = pol /\ w_pending (s_wr st_r) = [] /\
        (forall q, s_get (abs_qs (s_qs st_r)) q = s_get (abs_qs (s_qs st)) q).
Proof.
  intros HI Hp0 Hgc Hcb Hroll Hblk.
  pose proof HI as (HP & HL).
  set (X := map snd (gc_log P st hint)) in *.
  assert (Hsb : stream_boundJ P PRE0 OLD0 G X)
    by (eapply crash_boundJ_stream_boundJ; eassumption).
  destruct (invJ_gc P HBS_lo HBS_hi HNB Hcrc HGC PRE0 OLD0 opos0 Hpre0 st G hint st3 n HI Hsb Hgc)
    as (G' & HI' & Eqs & Epol & Eb & Ed & Elog).
  destruct (gcJ_call_trace st G hint st3 n HP Hp0 Hsb Hgc) as (evs & extra & Hev & Hfs & Hct & Hp3).
  cbn zeta in *.
  assert (EALL' : gh_ALL G' = gh_ALL G ++ X).
  { unfold gh_ALL. rewrite Ed, Elog, map_app, app_assoc. reflexivity. }
  assert (HwfX : Forall wf_entry X).
  { destruct HI' as ((_ & _ & _ & _ & _ & _ & _ & HWf' & _) & _). cbn zeta in HWf'.
    rewrite EALL' in HWf'. apply Forall_app in HWf'. apply HWf'. }
  assert (Hxtra : pos_extra (abs_qs (s_qs st)) X).
  { exact (gc_log_pos_extra P st hint (LInv_nodup _ _ _ HL)). }
  assert (Habs3 : forall q, s_get (abs_qs (s_qs st3)) q = s_get (abs_qs (s_qs st)) q)
    by (intros q; now rewrite Eqs).
  exists evs. split; [exact Hev|]. intros pe Hcpre pol hint2. cbn zeta.
  destruct (recover_vcall P HBS_lo HBS_hi HNB Hcrc HGC HIO HSHORT Hnc PRE0 OLD0 opos0 adm0 cmax0 rm0
              Hpre0 Hpc0 Hrm0 Hadm0 st G X st3 G' (evs ++ extra))
    with (pe := pe) (pol := pol) (hint := hint2)
    as (PRE & OLD & opos & adm & cmax & rm & st_r & G_r & Hopen & H1 & H2' & H3' & H4 & H5 & H6 & H7 & H8 & Habs).
  - repeat (split; [assumption|]). split; [|intros _; exact Habs3].
    (* logical prefixes: position entries are identities *)
    intros Xd Xr HXs.
    assert (Hxd : pos_extra (abs_qs (s_qs st)) Xd).
    { rewrite HXs in Hxtra. exact (pos_extra_prefix _ _ _ Hxtra). }
    set (lo := wlo (s_wr st)).
    set (fx := map (pair lo) Xd).
    assert (Efx : map snd fx = Xd) by (unfold fx; rewrite map_map; cbn [snd]; apply map_id).
    destruct (linv_pos_extra (s_qs st) lo G fx HL) as (HL2 & _).
    { now rewrite Efx. }
    { unfold fx. apply Forall_forall. intros fe Hin. apply in_map_iff in Hin.
      destruct Hin as (y & <- & _). cbn [fst]. lia. }
    exists (gh_app G fx), (s_qs st).
    split; [exact HL2|]. split; [reflexivity|]. split; [reflexivity|].
    split; [cbn [gh_app gh_E]; now rewrite map_app, Efx|].
    split; [intros _ q; reflexivity|]. intros _ q. now rewrite Habs3.
  - exact Hcb.
  - intros c extra' Hx. apply Hcb. apply (pos_extra_ext (abs_qs (s_qs st3))); [intros q; symmetry; apply Habs3|exact Hx].
  - exact Hroll.
  - exact Hblk.
  - apply cpre_app_l. exact Hcpre.
  - exists PRE, OLD, opos, adm, cmax, rm, st_r, G_r.
    repeat (split; [assumption|]).
    destruct Habs as [Ha|Ha]; intros q; [exact (Ha q)|now rewrite Ha, Habs3].
Qed.

End RecoverGc.

Print Assumptions gcJ_call_trace.
Print Assumptions recover_gc.
