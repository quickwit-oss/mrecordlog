(* DamageFile.v — `open` on WAL files in which frames were damaged in place (checksum and / or
   payload bytes changed so that the CRC check fails; length field and type byte intact): it
   replays exactly the intact entries.  File level of properties C09 / C12 / C08-detected.

   Stream level (vecr), from a block boundary, traced (reads_trc): the reader skips the remaining
   frames of the straddling entry (damaged ones cost one RCorrupt each), then delivers exactly
   the entries with first frame at or after the boundary all of whose frames are intact, with
   RCorrupt steps in between, then End — WITHOUT a spare zero block after the written bytes (as
   in OpenReplay).  open_damaged carries this to the rolling files; open_one_damaged is the case
   of one damaged entry (DamageProofs.enc_dmg): E_ok = E_suf without it.

   The damaged stream is described with DamageProofs.encs_any: a per-entry list of frame specs
   (fspec: 4 checksum bytes, type, payload bytes) such that every frame stands where the writer
   put it, has the original type and length, and either fails the CRC check or carries the
   original payload chunk (frame_for). *)
From Coq Require Import Lia ZArith ZifyN ZifyNat ZifyBool Sorted.
From MRL Require Import Bytes BytesProofs Params Names NamesProofs Frame Record Mem Rolling Log
  Driver StreamProofs DamageProofs TornProofs PolicyProofs GcProofs FileStream ResyncProofs
  RecordProofs GhostLog OpenTerm OpenReplay TornFile.

Local Notation fspecD := DamageProofs.fspec.

Section Stream.
Variable P : params.
Hypothesis HBS_lo : 7 < BS P.
Hypothesis HBS_hi : BS P <= 65542.
Hypothesis Hcrc : forall t p, crcf P t p < 2 ^ 32.

Local Notation B := (BS P).
Local Notation rframe := (read_frame P vecr (vr_next P) vr_block).
Local Notation gonext := (go_next P vecr (vr_next P) vr_block).
Local Notation padof := (pad_of P).
Local Notation chunkof := (chunk_of P).
Local Notation encrel := (enc_rel P).
Local Notation encsrel := (encs_rel P).
Local Notation rdat := (rd_at P).
Local Notation atpos := (at_pos P).
Local Notation sok := (stream_ok P).
Local Notation ffp := (first_frame_pos P).
Local Notation encany := (enc_any P).
Local Notation encsany := (encs_any P).
Local Notation good := (fs_good P).
Local Notation cbad := (countbad P).
Local Notation isintact := (intact P).
Local Notation readsC := (reads_trc P (vr_next P) vr_block).
Local Notation H3 f := (f P HBS_lo HBS_hi Hcrc) (only parsing).
Local Notation H2 f := (f P HBS_lo HBS_hi) (only parsing).

Lemma frame_step a f l p x S pre post fr :
  frame_for P a f l p x -> sok S -> atpos S fr a ->
  S = pre ++ padof a ++ fs_bytes x ++ post -> lenN pre = a ->
  exists fr',
    rframe fr = (fr', if good x then FOk (frame_type f l) (takeN (chunkof a p) p) else FCorrupt) /\
    atpos S fr' (a + lenN (padof a) + 7 + chunkof a p).
Proof.
  intros (Ht & Hc4 & Hl & Hg) Hok Hat HS Hpre. unfold fs_bytes in HS.
  destruct (H3 read_frame_gen_at S fr a pre _ _ _ post Hok Hat HS Hpre Hc4) as (fr' & Hrf & Hat').
  { rewrite Hl. apply (H3 DamageProofs.chunk_fits). }
  exists fr'. rewrite Hl in Hat'. split; [|exact Hat'].
  rewrite Hrf, frame_verdict_fs. destruct (good x) eqn:Eg; [|reflexivity].
  rewrite Ht, (Hg eq_refl). reflexivity.
Qed.

Lemma lenN_fs_bytes a f l p x : frame_for P a f l p x -> lenN (fs_bytes x) = 7 + chunkof a p.
Proof. intros (_ & Hc4 & Hl & _). unfold fs_bytes. rewrite lenN_dframe by exact Hc4. lia. Qed.

Lemma good_frame_bytes a f l p x :
  frame_for P a f l p x -> good x = true ->
  fs_bytes x = frame_bytes P (frame_type f l) (takeN (chunk_of P a p) p).
Proof.
  intros (Ht & Hc4 & Hl & Hg) Hgood. rewrite (frame_bytes_dframe P). unfold fs_bytes.
  unfold fs_good in Hgood. apply N.eqb_eq in Hgood.
  rewrite <- (Hg ltac:(unfold fs_good; now apply N.eqb_eq)), <- Ht, Hgood.
  rewrite (le_enc_dec_n 4 (fs_c4 x)) by exact Hc4. reflexivity.
Qed.

(* an entry none of whose frames is damaged is byte for byte what the writer emitted (so T'
   differs from the intact stream only inside the damaged frames): reading it is reading an
   intact entry (StreamProofs.go_next_record, DamageProofs.go_next_skip) *)
Lemma enc_any_good_rel a f p xs e :
  enc_any P a f p xs e -> forallb good xs = true -> enc_rel P a f p e (length xs).
Proof.
  induction 1 as [a f p x Hd Hff | a f p x xs e Hd Hff Hr IH]; intros Hall;
    cbn [forallb] in Hall; apply andb_true_iff in Hall as [Hgx Hall];
    rewrite (good_frame_bytes _ _ _ _ _ Hff Hgx); cbn [length].
  - apply ER_last. exact Hd.
  - apply ER_more; [exact Hd | apply IH; exact Hall].
Qed.

(* the rest of a damaged entry still ahead of the reader: nothing, or a non-first continuation *)
Inductive tl_spec : N -> list fspecD -> bytes -> Prop :=
| TL_nil q : tl_spec q [] []
| TL_enc q p xs e : encany q false p xs e -> tl_spec q xs e.

(* some frame is damaged: one RCorrupt, the reader is left just after the first damaged
   frame with within = false, the rest of the entry still ahead *)
Lemma go_next_any_bad a f p xs e :
  encany a f p xs e -> forallb good xs = false ->
  forall S pre post fr buf w fuel,
    sok S -> atpos S fr a -> S = pre ++ e ++ post -> lenN pre = a ->
    (length xs <= fuel)%nat ->
    exists fr1 buf1 q2 xs2 e2 pre2,
      gonext fuel (mkRR fr buf w) = (mkRR fr1 buf1 false, RCorrupt) /\
      atpos S fr1 q2 /\ S = pre2 ++ e2 ++ post /\ lenN pre2 = q2 /\
      q2 + lenN e2 = a + lenN e /\ tl_spec q2 xs2 e2 /\
      cbad xs = Datatypes.S (cbad xs2) /\ (length xs2 < length xs)%nat.
Proof.
  induction 1 as [a f p x Hd Hff | a f p x xs e Hd Hff Hr IH];
    intros Hall S pre post fr buf w fuel Hok Hat HS Hpre Hfuel;
    cbn [forallb] in Hall;
    (destruct fuel as [|fuel]; [cbn [length] in Hfuel; lia|]);
    pose proof (lenN_fs_bytes _ _ _ _ _ Hff) as Hlx;
    rewrite <- ?app_assoc in HS;
    destruct (frame_step _ _ _ _ _ S pre _ fr Hff Hok Hat HS Hpre) as (fr' & Hrf & Hat');
    rewrite go_next_S; cbn [rr_fr rr_buf rr_within]; rewrite Hrf; cbv zeta.
  - rewrite andb_true_r in Hall. rewrite Hall.
    exists fr', buf, (a + lenN (padof a) + 7 + chunkof a p), [], [], (pre ++ padof a ++ fs_bytes x).
    split; [reflexivity|]. split; [exact Hat'|]. split; [rewrite HS, <- !app_assoc; reflexivity|].
    split; [rewrite !lenN_app, Hlx; lia|]. split; [rewrite (@lenN_nil byte), lenN_app, Hlx; lia|].
    split; [constructor|]. cbn [countbad length]. rewrite Hall. split; [reflexivity|lia].
  - cbn [length] in Hfuel. destruct (good x) eqn:Hgx.
    + cbn [andb] in Hall. rewrite is_first_frame_type, is_last_frame_type.
      assert (Hrec : forall buf' w',
        exists fr1 buf1 q2 xs2 e2 pre2,
          gonext fuel (mkRR fr' buf' w') = (mkRR fr1 buf1 false, RCorrupt) /\
          atpos S fr1 q2 /\ S = pre2 ++ e2 ++ post /\ lenN pre2 = q2 /\
          q2 + lenN e2 = a + lenN (padof a ++ fs_bytes x ++ e) /\ tl_spec q2 xs2 e2 /\
          cbad (x :: xs) = Datatypes.S (cbad xs2) /\ (length xs2 < length (x :: xs))%nat).
      { intros buf' w'.
        destruct (IH Hall S (pre ++ padof a ++ fs_bytes x) post fr' buf' w' fuel Hok Hat')
          as (fr1 & buf1 & q2 & xs2 & e2 & pre2 & Hgo & Hat1 & HS2 & Hpre2 & Hq2 & Htl & Hcb & Hlen).
        - rewrite HS, <- !app_assoc. reflexivity.
        - rewrite !lenN_app, Hlx. lia.
        - lia.
        - exists fr1, buf1, q2, xs2, e2, pre2. repeat split; try assumption.
          + rewrite !lenN_app, Hlx. lia.
          + cbn [countbad]. rewrite Hgx. exact Hcb.
          + cbn [length]. lia. }
      destruct (if f then true else w); apply Hrec.
    + exists fr', buf, (a + lenN (padof a) + 7 + chunkof a p), xs, e, (pre ++ padof a ++ fs_bytes x).
      split; [reflexivity|]. split; [exact Hat'|]. split; [rewrite HS, <- !app_assoc; reflexivity|].
      split; [rewrite !lenN_app, Hlx; lia|]. split; [rewrite !lenN_app, Hlx; lia|].
      split; [econstructor; exact Hr|]. cbn [countbad length]. rewrite Hgx. split; [reflexivity|lia].
Qed.

(* rr (within = false) behaves, after j frames skipped, as a reader positioned at the writer's
   cursor a, and its block does not start after the first-frame position of a *)
Definition pend (S : bytes) (rr : rreader vecr) (a : N) (j : nat) : Prop :=
  rr_within rr = false /\ bpos P S (fr_rd (rr_fr rr)) <= ffp a /\
  exists fr', atpos S fr' a /\
    forall fuel, gonext (j + Datatypes.S fuel) rr = gonext (Datatypes.S fuel) (mkRR fr' (rr_buf rr) false).

Lemma pend_here S fr buf a : atpos S fr a -> pend S (mkRR fr buf false) a 0.
Proof.
  intros Hat. split; [reflexivity|]. split.
  - cbn [rr_fr]. pose proof (H3 at_pos_bpos S fr a Hat). pose proof (H2 ffp_ge a). lia.
  - exists fr. split; [exact Hat|]. intros fuel. reflexivity.
Qed.

(* the rest of a damaged entry: one RCorrupt per damaged frame, then the reader is between
   two entries *)
Lemma run_tail n : forall q xs e, tl_spec q xs e -> (length xs < n)%nat ->
  forall S pre post fr buf g,
    sok S -> atpos S fr q -> S = pre ++ e ++ post -> lenN pre = q -> (length xs <= g)%nat ->
    exists rr2 j,
      pend S rr2 (q + lenN e) j /\ (j <= length xs)%nat /\
      forall l c rrf, readsC g rr2 l c rrf -> readsC g (mkRR fr buf false) l (cbad xs + c) rrf.
Proof.
  induction n as [|n IH]; intros q xs e Htl Hn S pre post fr buf g Hok Hat HS Hpre Hg; [lia|].
  destruct Htl as [q | q p xs e He].
  - exists (mkRR fr buf false), 0%nat. rewrite (@lenN_nil byte), N.add_0_r.
    split; [apply pend_here; exact Hat|]. split; [lia|]. intros l c rrf Hr. exact Hr.
  - destruct (forallb good xs) eqn:Hall.
    + destruct (H3 go_next_skip _ _ _ _ _ (enc_any_good_rel _ _ _ _ _ He Hall) eq_refl S pre post fr
                  Hok Hat HS Hpre) as (fr' & Hat' & Hgo).
      exists (mkRR fr buf false), (length xs). split; [|split; [lia|]].
      * split; [reflexivity|]. split.
        -- cbn [rr_fr]. pose proof (H3 at_pos_bpos S fr q Hat). pose proof (H2 ffp_ge (q + lenN e)). lia.
        -- exists fr'. split; [exact Hat'|]. intros fuel. apply Hgo.
      * intros l c rrf Hr. rewrite (countbad_allgood P xs Hall). exact Hr.
    + destruct (go_next_any_bad _ _ _ _ _ He Hall S pre post fr buf false g Hok Hat HS Hpre Hg)
        as (fr1 & buf1 & q2 & xs2 & e2 & pre2 & Hgo & Hat1 & HS2 & Hpre2 & Hq2 & Htl2 & Hcb & Hlen).
      destruct (IH q2 xs2 e2 Htl2 ltac:(lia) S pre2 post fr1 buf1 g Hok Hat1 HS2 Hpre2 ltac:(lia))
        as (rr2 & j & Hpend & Hj & Hcont).
      exists rr2, j. rewrite <- Hq2. split; [exact Hpend|]. split; [lia|].
      intros l c rrf Hr. rewrite Hcb. cbn [Nat.add].
      eapply RC_cor; [exact Hgo|]. apply Hcont. exact Hr.
Qed.

(* (start cursor, first-frame position) of the intact entries of pxs written from cursor a *)
Fixpoint ok_sts (a : N) (pxs : list (bytes * list fspecD)) : list (N * N) :=
  match pxs with
  | [] => []
  | px :: r =>
      let a' := a + lenN (enc_of P a (fst px)) in
      if isintact px then (a, ffp a) :: ok_sts a' r else ok_sts a' r
  end.

Lemma ok_sts_filter pxs : forall a,
  ok_sts a pxs =
  map snd (filter (fun y : (bytes * list fspecD) * (N * N) => isintact (fst y))
                  (combine pxs (starts P a (map fst pxs)))).
Proof.
  induction pxs as [|px r IH]; intros a; cbn [ok_sts map starts combine filter fst]; [reflexivity|].
  destruct (isintact px); cbn [map snd]; rewrite IH; reflexivity.
Qed.

(* number of damaged frames *)
Definition cb_total (pxs : list (bytes * list fspecD)) : nat :=
  fold_right Nat.add 0%nat (map (fun px => cbad (snd px)) pxs).

Lemma cbad_le xs : (cbad xs <= length xs)%nat.
Proof.
  induction xs as [|x xs IH]; cbn [countbad length]; [lia|]. destruct (good x); lia.
Qed.

Lemma cb_total_le pxs : (cb_total pxs <= length (flat_map snd pxs))%nat.
Proof.
  unfold cb_total. induction pxs as [|[p xs] r IH]; cbn [map fold_right flat_map snd]; [lia|].
  rewrite app_length. pose proof (cbad_le xs). lia.
Qed.

Lemma enc_any_len a p xs e : encany a true p xs e -> lenN (enc_of P a p) = lenN e.
Proof.
  intros He. destruct (H3 enc_any_orig _ _ _ _ _ He) as (e0 & Hrel & Hlen).
  rewrite (H3 enc_rel_enc_of _ _ _ _ Hrel). exact Hlen.
Qed.

Lemma enc_any_ffp_lt a f p xs e : encany a f p xs e -> ffp a + 7 <= a + lenN e.
Proof.
  intros He. destruct (H3 enc_any_orig _ _ _ _ _ He) as (e0 & Hrel & Hlen).
  rewrite <- Hlen. apply (H3 enc_rel_ffp_lt _ _ _ _ _ Hrel).
Qed.

Lemma encs_any_cursor a pxs t : encsany a pxs t -> cursor_after P a (map fst pxs) = a + lenN t.
Proof.
  intros H. destruct (H3 encs_any_orig _ _ _ H) as (t0 & Hrel & Hlen).
  rewrite (H3 cursor_after_rel _ _ _ Hrel), Hlen. reflexivity.
Qed.

Lemma run_any a pxs t :
  encsany a pxs t ->
  forall S pre z rr j g,
    sok S -> S = pre ++ t ++ zerosN z -> lenN pre = a -> pend S rr a j ->
    (j + length (flat_map snd pxs) + 1 <= g)%nat ->
    exists rrs rrf,
      length rrs = length (filter isintact pxs) /\
      readsC g rr (combine rrs (map fst (filter isintact pxs))) (cb_total pxs) rrf /\
      tr_ok P S rrs (ok_sts a pxs) /\ at_end P S (rr_fr rrf) (a + lenN t).
Proof.
  induction 1 as [a | a p xs e pxs t He Hes IH]; intros S pre z rr j g Hok HS Hpre Hpend Hg.
  - destruct Hpend as (Hw & Hb & fr' & Hat & Hgo).
    set (g' := (g - j - 1)%nat). assert (Eg : g = (j + Datatypes.S g')%nat) by lia.
    clearbody g'. subst g. cbn [app] in HS.
    destruct (H3 go_next_end_gen S pre z (mkRR fr' (rr_buf rr) false) a g' HS ltac:(lia) Hat)
      as (fr'' & Hend & Hp).
    exists [], (mkRR fr'' (rr_buf rr) false). cbn [filter map combine length ok_sts rr_fr].
    rewrite (@lenN_nil byte), N.add_0_r.
    split; [reflexivity|]. split; [|split; [constructor|exact Hp]].
    apply RC_end. rewrite Hgo. exact Hend.
  - destruct Hpend as (Hw & Hb & fr' & Hat & Hgo).
    destruct rr as [fr0 buf0 w0]. cbn [rr_within rr_buf rr_fr] in *. subst w0.
    cbn [flat_map snd] in Hg. rewrite app_length in Hg.
    set (g' := (g - j - 1)%nat). assert (Eg : g = (j + Datatypes.S g')%nat) by lia.
    rewrite <- app_assoc in HS.
    assert (HS' : S = (pre ++ e) ++ t ++ zerosN z) by (rewrite HS, <- app_assoc; reflexivity).
    assert (Hpre' : lenN (pre ++ e) = a + lenN e) by (rewrite lenN_app; lia).
    cbn [ok_sts filter fst]. rewrite (enc_any_len _ _ _ _ He).
    unfold cb_total. cbn [map fold_right snd]. fold (cb_total pxs).
    rewrite lenN_app. replace (a + (lenN e + lenN t)) with (a + lenN e + lenN t) by lia.
    assert (Hint : isintact (p, xs) = forallb good xs) by reflexivity. rewrite !Hint.
    destruct (forallb good xs) eqn:Hall.
    + destruct (H3 go_next_record _ _ _ _ _ (enc_any_good_rel _ _ _ _ _ He Hall) S pre (t ++ zerosN z)
                  fr' buf0 false (Datatypes.S g') Hok Hat HS Hpre (or_introl eq_refl) ltac:(lia))
        as (fr2 & Hgo2 & Hat2).
      cbn [app] in Hgo2.
      destruct (IH S (pre ++ e) z (mkRR fr2 p false) 0%nat g Hok HS' Hpre'
                  (pend_here S fr2 p _ Hat2) ltac:(lia)) as (rrs & rrf & Hlen & Hrd & Htr & Hend).
      exists (mkRR fr0 buf0 false :: rrs), rrf.
      split; [cbn [length]; now rewrite Hlen|]. split; [|split; [|exact Hend]].
      * cbn [map fst combine]. rewrite (countbad_allgood P xs Hall). cbn [Nat.add].
        apply (RC_rec P vecr (vr_next P) vr_block g (mkRR fr0 buf0 false) (mkRR fr2 p false));
          [|exact Hrd].
        rewrite Eg, Hgo. exact Hgo2.
      * constructor; [|exact Htr]. cbn [rr_fr snd]. exact Hb.
    + destruct (go_next_any_bad _ _ _ _ _ He Hall S pre (t ++ zerosN z) fr' buf0 false
                  (Datatypes.S g') Hok Hat HS Hpre ltac:(lia))
        as (fr1 & buf1 & q2 & xs2 & e2 & pre2 & Hgo1 & Hat1 & HS2 & Hpre2 & Hq2 & Htl2 & Hcb & Hlen2).
      destruct (run_tail (Datatypes.S (length xs2)) q2 xs2 e2 Htl2 ltac:(lia) S pre2 (t ++ zerosN z)
                  fr1 buf1 g Hok Hat1 HS2 Hpre2 ltac:(lia)) as (rr3 & j3 & Hpend3 & Hj3 & Hcont).
      rewrite Hq2 in Hpend3.
      destruct (IH S (pre ++ e) z rr3 j3 g Hok HS' Hpre' Hpend3 ltac:(lia))
        as (rrs & rrf & Hlen & Hrd & Htr & Hend).
      exists rrs, rrf. split; [exact Hlen|]. split; [|split; [exact Htr|exact Hend]].
      rewrite Hcb. cbn [Nat.add].
      eapply RC_cor; [rewrite Eg, Hgo; exact Hgo1|]. apply Hcont. exact Hrd.
Qed.

Lemma encs_any_app_inv pxs1 : forall a pxs2 t,
  encsany a (pxs1 ++ pxs2) t ->
  exists t1 t2, t = t1 ++ t2 /\ encsany a pxs1 t1 /\ encsany (a + lenN t1) pxs2 t2.
Proof.
  induction pxs1 as [|y pxs1 IH]; intros a pxs2 t H.
  - exists [], t. rewrite (@lenN_nil byte), N.add_0_r. repeat split; [constructor|exact H].
  - cbn [app] in H. inversion H as [|a' p xs e pxs' t' He Hes]; subst.
    destruct (IH _ _ _ Hes) as (t1 & t2 & -> & H1 & H2').
    exists (e ++ t1), t2. rewrite <- app_assoc. split; [reflexivity|]. split.
    + econstructor; eassumption.
    + rewrite lenN_app. replace (a + (lenN e + lenN t1)) with (a + lenN e + lenN t1) by lia.
      exact H2'.
Qed.

(* cf. ResyncProofs.enc_rel_split_at_block *)
Lemma enc_any_split_at_block a f p xs e :
  encany a f p xs e ->
  forall kb, ffp a < kb * B -> kb * B <= a + lenN e ->
    kb * B = a + lenN e \/
    exists e1 e2 p2 xs2,
      e = e1 ++ e2 /\ a + lenN e1 = kb * B /\ encany (kb * B) false p2 xs2 e2 /\
      (length xs2 < length xs)%nat.
Proof.
  induction 1 as [a f p x Hd Hff | a f p x xs e Hd Hff Hr IH]; intros kb Hlo Hhi;
    pose proof (lenN_fs_bytes _ _ _ _ _ Hff) as Hlx; unfold first_frame_pos in Hlo;
    destruct (H2 pad_geom a) as (k' & c' & Hp & Hc' & Hmw & _).
  - left. rewrite lenN_app, Hlx in *.
    pose proof (H3 DamageProofs.chunk_fits a p) as Hch.
    pose proof (H2 blocks_above kb k' (c' + 1)) as Hb. lia.
  - rewrite !lenN_app, Hlx in *.
    pose proof (H3 ResyncProofs.chunk_full a p Hd) as Hch.
    pose proof (H2 blocks_above kb k' (c' + 1)) as Hb.
    set (a' := a + lenN (padof a) + 7 + chunkof a p) in *.
    assert (Ha' : a' = (k' + 1) * B) by (unfold a'; lia).
    destruct (N.eq_dec (kb * B) a') as [E|E].
    + right. exists (padof a ++ fs_bytes x), e, (dropN (chunkof a p) p), xs.
      split; [now rewrite <- app_assoc|]. split; [rewrite lenN_app, Hlx; unfold a' in E; lia|].
      split; [rewrite E; exact Hr|]. cbn [length]. lia.
    + assert (Hffp : ffp a' = a') by (rewrite Ha'; apply (H2 ffp_aligned)).
      destruct (IH kb) as [Hend | (e1 & e2 & p2 & xs2 & He & Hl & Hrel & Hk)].
      * rewrite Hffp. lia.
      * lia.
      * left. lia.
      * right. exists (padof a ++ fs_bytes x ++ e1), e2, p2, xs2.
        split; [rewrite He, <- !app_assoc; reflexivity|].
        split; [rewrite !lenN_app, Hlx; unfold a' in Hl; lia|].
        split; [exact Hrel|]. cbn [length]. lia.
Qed.

(* cf. ResyncProofs.boundary_cases *)
Lemma boundary_cases_any a pxs1 t1 kb :
  encsany a pxs1 t1 -> a <= kb * B ->
  Forall (fun s => snd s < kb * B) (starts P a (map fst pxs1)) ->
  a + lenN t1 <= kb * B \/
  exists t1' e1 e2 p2 xs2,
    t1 = t1' ++ e1 ++ e2 /\ a + lenN t1' + lenN e1 = kb * B /\
    encany (kb * B) false p2 xs2 e2 /\ (length xs2 <= length (flat_map snd pxs1))%nat.
Proof.
  intros Hes1 Ha Hall.
  induction pxs1 as [|[x xs] pxs1' _] using rev_ind.
  - left. inversion Hes1; subst. rewrite (@lenN_nil byte). lia.
  - destruct (encs_any_app_inv pxs1' a [(x, xs)] t1 Hes1) as (t1' & tx & -> & Hes1' & Hx).
    inversion Hx as [|a0 p0 xs0 ex pxs0 t'' Hex Hnil]; subst.
    inversion Hnil; subst. rewrite app_nil_r in *.
    rewrite map_app, (H3 starts_app) in Hall. apply Forall_app in Hall as [_ Hlast].
    rewrite (encs_any_cursor _ _ _ Hes1') in Hlast. cbn [map starts fst] in Hlast.
    inversion Hlast as [|s l Hs _]; subst. cbn [snd] in Hs.
    rewrite lenN_app.
    destruct (N.le_gt_cases (kb * B) (a + lenN t1' + lenN ex)) as [Hle|Hgt]; [|left; lia].
    destruct (enc_any_split_at_block _ _ _ _ _ Hex kb Hs Hle)
      as [Hend | (e1 & e2 & p2 & xs2 & He & Hl & Hrel & Hk)].
    + left. lia.
    + right. exists t1', e1, e2, p2, xs2. rewrite He.
      split; [reflexivity|]. split; [lia|]. split; [exact Hrel|].
      rewrite flat_map_app, app_length. cbn [flat_map snd length]. rewrite app_nil_r. lia.
Qed.

(* S = T' ++ zeros is any whole number of blocks (no spare zero block after T'); T' is the
   layout of the frames of pxs, each intact or damaged.  From block kb the reader delivers
   exactly the intact entries among those whose first frame lies at or after kb * B (pxs2), in
   order, each read from a reader whose block starts at or before the entry's first frame,
   with c RCorrupt steps (at most one per frame) in between, then End, where the reader of
   the intact stream would end. *)
Theorem read_damaged_tr pxs T' S z kb buf0 g :
  encsany 0 pxs T' -> S = T' ++ zerosN z -> sok S -> (kb + 1) * B <= lenN S ->
  (length (flat_map snd pxs) + 1 <= g)%nat ->
  exists pxs1 pxs2 rrs c rrf,
    pxs = pxs1 ++ pxs2 /\
    map fst pxs1 = skipped_before P (kb * B) 0 (map fst pxs) /\
    map fst pxs2 = delivered_from P (kb * B) 0 (map fst pxs) /\
    length rrs = length (filter isintact pxs2) /\
    readsC g (mkRR (rdat S kb 0) buf0 false) (combine rrs (map fst (filter isintact pxs2))) c rrf /\
    (c <= length (flat_map snd pxs))%nat /\
    tr_ok P S rrs (ok_sts (cursor_after P 0 (map fst pxs1)) pxs2) /\
    at_end P S (rr_fr rrf) (N.max (kb * B) (lenN T')).
Proof.
  intros Hany HS Hok Hblk Hg.
  pose proof (skipped_delivered P (kb * B) (map fst pxs) 0) as Hsplit.
  destruct (map_app_inv fst pxs _ _ Hsplit) as (pxs1 & pxs2 & -> & Hm1 & Hm2).
  destruct (encs_any_app_inv pxs1 0 pxs2 T' Hany) as (t1 & t2 & -> & Hes1 & Hes2).
  rewrite flat_map_app, app_length in Hg.
  pose proof (encs_any_cursor _ _ _ Hes1) as Hcur.
  pose proof (H3 at_pos_boundary S kb Hblk) as Hat_b.
  assert (Hall : Forall (fun s => snd s < kb * B) (starts P 0 (map fst pxs1)))
    by (rewrite Hm1; apply skipped_starts).
  exists pxs1, pxs2. rewrite Hcur.
  destruct (boundary_cases_any 0 pxs1 t1 kb Hes1 ltac:(lia) Hall)
    as [HA | (t1' & e1 & e2 & p2 & xs2 & Ht1 & Hl & Hrel & Hk2)].
  - destruct pxs2 as [|[p xs] pxs2'].
    + inversion Hes2; subst t2. rewrite app_nil_r in *.
      destruct g as [|g]; [lia|].
      destruct (H3 go_next_end_gen S t1 z (mkRR (rdat S kb 0) buf0 false) (kb * B) g HS ltac:(lia) Hat_b)
        as (fr' & Hend & Hp).
      exists [], 0%nat, (mkRR fr' buf0 false). cbn [filter map combine length ok_sts rr_fr].
      split; [reflexivity|]. split; [exact Hm1|]. split; [exact Hm2|]. split; [reflexivity|].
      split; [apply RC_end; exact Hend|]. split; [lia|]. split; [constructor|].
      rewrite ?app_nil_r. replace (N.max (kb * B) (lenN t1)) with (kb * B) by lia. exact Hp.
    + set (a1 := 0 + lenN t1) in *.
      assert (Hhead : kb * B <= ffp a1).
      { rewrite <- Hcur, Hm1. apply (H3 delivered_head). rewrite <- Hm2. discriminate. }
      assert (Hb : kb * B = ffp a1) by (apply (H2 boundary_is_ffp); [exact HA | exact Hhead]).
      assert (Hlow : ffp a1 + 7 <= a1 + lenN t2).
      { inversion Hes2 as [|a0 p0 xs0 e pxs0 t' He Hrest]; subst.
        pose proof (enc_any_ffp_lt _ _ _ _ _ He). rewrite lenN_app. lia. }
      assert (Hat_a : atpos S (rdat S (a1 / B) (a1 mod B)) a1).
      { pose proof (N.div_mod a1 B) as Hdm. pose proof (H2 StreamProofs.mod_lt_B a1) as Hm.
        exists (a1 / B), (a1 mod B). repeat split; lia. }
      set (fr_a := rdat S (a1 / B) (a1 mod B)) in *.
      assert (Hrf : rframe fr_a = rframe (rdat S kb 0)).
      { apply (H3 at_pos_pad S fr_a a1 kb 0 Hok Hat_a);
          [unfold first_frame_pos in Hb; lia | lia | exact Hblk]. }
      assert (Hpend : pend S (mkRR (rdat S kb 0) buf0 false) a1 0).
      { split; [reflexivity|]. split.
        - cbn [rr_fr]. rewrite (H3 bpos_rd_at S kb 0 Hblk). lia.
        - exists fr_a. split; [exact Hat_a|]. intros fuel. cbn [Nat.add rr_buf].
          apply (gonext_cong P). symmetry. exact Hrf. }
      destruct (run_any a1 _ t2 Hes2 S t1 z (mkRR (rdat S kb 0) buf0 false) 0%nat g Hok)
        as (rrs & rrf & Hlen & Hrd & Htr & Hend).
      { rewrite HS, <- app_assoc. reflexivity. }
      { unfold a1. lia. }
      { exact Hpend. }
      { lia. }
      exists rrs, (cb_total ((p, xs) :: pxs2')), rrf.
      split; [reflexivity|]. split; [exact Hm1|]. split; [exact Hm2|]. split; [exact Hlen|].
      split; [exact Hrd|]. split; [rewrite flat_map_app, app_length; pose proof (cb_total_le ((p, xs) :: pxs2')); lia|].
      split; [exact Htr|]. rewrite lenN_app.
      replace (N.max (kb * B) (lenN t1 + lenN t2)) with (a1 + lenN t2) by (unfold a1 in *; lia).
      exact Hend.
  - subst t1. rewrite !lenN_app in *.
    destruct (run_tail (Datatypes.S (length xs2)) (kb * B) xs2 e2 (TL_enc _ _ _ _ Hrel) ltac:(lia)
                S (t1' ++ e1) (t2 ++ zerosN z) (rdat S kb 0) buf0 g Hok Hat_b)
      as (rr2 & j & Hpend & Hj & Hcont).
    { rewrite HS, <- !app_assoc. reflexivity. }
    { rewrite lenN_app. lia. }
    { lia. }
    replace (kb * B + lenN e2) with (0 + (lenN t1' + (lenN e1 + lenN e2))) in Hpend by lia.
    destruct (run_any _ _ t2 Hes2 S (t1' ++ e1 ++ e2) z rr2 j g Hok)
      as (rrs & rrf & Hlen & Hrd & Htr & Hend).
    { rewrite HS, <- !app_assoc. reflexivity. }
    { rewrite !lenN_app. lia. }
    { exact Hpend. }
    { lia. }
    exists rrs, (cbad xs2 + cb_total pxs2)%nat, rrf.
    split; [reflexivity|]. split; [exact Hm1|]. split; [exact Hm2|]. split; [exact Hlen|].
    split; [apply Hcont; exact Hrd|].
    split; [rewrite flat_map_app, app_length; pose proof (cbad_le xs2); pose proof (cb_total_le pxs2); lia|].
    split; [exact Htr|].
    replace (N.max (kb * B) (lenN t1' + (lenN e1 + lenN e2) + lenN t2))
      with (0 + (lenN t1' + (lenN e1 + lenN e2)) + lenN t2) by lia.
    exact Hend.
Qed.

Lemma ok_sts_app pxs1 : forall a pxs2,
  ok_sts a (pxs1 ++ pxs2) = ok_sts a pxs1 ++ ok_sts (cursor_after P a (map fst pxs1)) pxs2.
Proof.
  induction pxs1 as [|px pxs1 IH]; intros a pxs2; cbn [app ok_sts map].
  - rewrite (cursor_after_nil P HBS_lo HBS_hi). reflexivity.
  - rewrite (H3 cursor_after_cons), IH. destruct (intact P px); reflexivity.
Qed.

Lemma ok_sts_all pxs : forall a,
  forallb (intact P) pxs = true -> ok_sts a pxs = starts P a (map fst pxs).
Proof.
  induction pxs as [|px pxs IH]; intros a Hall; cbn [ok_sts map starts]; [reflexivity|].
  cbn [forallb] in Hall. apply andb_true_iff in Hall as [Hx Hall]. rewrite Hx, IH by exact Hall.
  reflexivity.
Qed.

Lemma ok_sts_one_bad a pa x xs pb :
  forallb (intact P) pa = true -> forallb (fs_good P) xs = false -> forallb (intact P) pb = true ->
  ok_sts a (pa ++ (x, xs) :: pb) =
    starts P a (map fst pa) ++
    starts P (cursor_after P a (map fst pa) + lenN (enc_of P (cursor_after P a (map fst pa)) x))
      (map fst pb).
Proof.
  intros Ha Hx Hb. rewrite ok_sts_app, (ok_sts_all pa _ Ha). f_equal.
  cbn [ok_sts fst]. unfold intact at 1. cbn [snd]. rewrite Hx. apply (ok_sts_all pb _ Hb).
Qed.

Lemma encs_any_good_rel a pxs t :
  encs_any P a pxs t -> forallb (intact P) pxs = true -> encs_rel P a (map fst pxs) t.
Proof.
  induction 1 as [a | a p xs e pxs t He Hes IH]; intros Hall; cbn [map fst].
  - constructor.
  - cbn [forallb] in Hall. apply andb_true_iff in Hall as [Hx Hall].
    econstructor; [apply (enc_any_good_rel _ _ _ _ _ He Hx) | apply IH; exact Hall].
Qed.
End Stream.


(* the entries of E (aligned with pxs) all of whose frames are intact *)
Definition ok_entries (P : params) (pxs : list (bytes * list fspecD)) (E : list entry) : list entry :=
  map snd (filter (fun y : (bytes * list fspecD) * entry => intact P (fst y)) (combine pxs E)).

Lemma ok_entries_ser P pxs : forall E,
  map fst pxs = map entry_ser E ->
  map fst (filter (intact P) pxs) = map entry_ser (ok_entries P pxs E).
Proof.
  unfold ok_entries.
  induction pxs as [|px pxs IH]; intros [|e E] H; cbn [map] in H; try discriminate;
    cbn [combine filter map fst]; [reflexivity|].
  injection H as Hx Hr. destruct (intact P px); cbn [map snd fst]; rewrite (IH E Hr); [|reflexivity].
  rewrite Hx. reflexivity.
Qed.

Lemma ok_entries_Forall P (Q : entry -> Prop) pxs : forall E,
  Forall Q E -> Forall Q (ok_entries P pxs E).
Proof.
  unfold ok_entries.
  induction pxs as [|px pxs IH]; intros [|e E] H; cbn [combine filter map]; try constructor.
  inversion H as [|e0 E0 He HE]; subst.
  cbn [fst]. destruct (intact P px); cbn [map snd]; [constructor; [exact He|]|]; apply IH; exact HE.
Qed.

Lemma sublist_nil_l {A} (l : list A) : sublist [] l.
Proof. induction l; constructor; assumption. Qed.

Lemma ok_entries_sublist P pxs : forall E, sublist (ok_entries P pxs E) E.
Proof.
  unfold ok_entries.
  induction pxs as [|px pxs IH]; intros [|e E]; cbn [combine filter map]; try apply sublist_nil_l.
  cbn [fst]. destruct (intact P px); cbn [map snd]; constructor; apply IH.
Qed.

Lemma filter_length_le {A} (h : A -> bool) l : (length (filter h l) <= length l)%nat.
Proof. induction l as [|x l IH]; cbn [filter length]; [lia|]. destruct (h x); cbn [length]; lia. Qed.

Lemma encs_any_len P (HBS_lo : 7 < BS P) (HBS_hi : BS P <= 65542)
      (Hcrc : forall t p, crcf P t p < 2 ^ 32) a pxs t :
  encs_any P a pxs t -> lenN t = lenN (encs_of P a (map fst pxs)).
Proof.
  intros H. destruct (encs_any_orig P HBS_lo HBS_hi Hcrc _ _ _ H) as (t0 & Hrel & Hlen).
  rewrite (encs_rel_encs_of P HBS_lo HBS_hi Hcrc _ _ _ Hrel). symmetry. exact Hlen.
Qed.

Lemma split_at_len {A} (l : list A) m : (m <= length l)%nat ->
  exists l1 l2, l = l1 ++ l2 /\ length l1 = m.
Proof.
  intros H. exists (firstn m l), (skipn m l). split; [symmetry; apply firstn_skipn|].
  apply firstn_length_le. exact H.
Qed.

Lemma ok_entries_all P pxs : forall E,
  forallb (intact P) pxs = true -> length pxs = length E -> ok_entries P pxs E = E.
Proof.
  unfold ok_entries.
  induction pxs as [|px pxs IH]; intros [|e E] Hall Hl; cbn [length] in Hl; try discriminate;
    cbn [combine filter map fst]; [reflexivity|].
  cbn [forallb] in Hall. apply andb_true_iff in Hall as [Hx Hall]. rewrite Hx.
  cbn [map snd]. f_equal. apply IH; [exact Hall | lia].
Qed.

Lemma ok_entries_app P pxs1 : forall E1 pxs2 E2,
  length pxs1 = length E1 ->
  ok_entries P (pxs1 ++ pxs2) (E1 ++ E2) = ok_entries P pxs1 E1 ++ ok_entries P pxs2 E2.
Proof.
  unfold ok_entries.
  induction pxs1 as [|px pxs1 IH]; intros [|e E1] pxs2 E2 Hl; cbn [length] in Hl; try discriminate;
    cbn [app combine filter map fst]; [reflexivity|].
  destruct (intact P px); cbn [map snd app]; rewrite IH by lia; reflexivity.
Qed.

Lemma ok_entries_one_bad P pa x xs pb Ea X Eb :
  forallb (intact P) pa = true -> forallb (fs_good P) xs = false -> forallb (intact P) pb = true ->
  length pa = length Ea -> length pb = length Eb ->
  ok_entries P (pa ++ (x, xs) :: pb) (Ea ++ X :: Eb) = Ea ++ Eb.
Proof.
  intros Ha Hx Hb Hla Hlb.
  rewrite ok_entries_app by exact Hla. rewrite (ok_entries_all P pa Ea Ha Hla). f_equal.
  unfold ok_entries. cbn [combine filter fst]. unfold intact at 1. cbn [snd]. rewrite Hx.
  apply (ok_entries_all P pb Eb Hb Hlb).
Qed.

Section Files.
Variable P : params.
Hypothesis HBS_lo : 7 < BS P.
Hypothesis HBS_hi : BS P <= 65542.
Hypothesis HNB : 1 <= NB P.
Hypothesis Hcrc : forall t p, crcf P t p < 2 ^ 32.
Local Notation B := (BS P).
Local Notation FB := (FILE_BYTES P).
Local Notation ffp := (first_frame_pos P).
Local Notation readsC := (reads_trc P (vr_next P) vr_block).
Local Notation readsFc := (reads_trc P (rd_next P) rd_block).
Local Notation H3 f := (f P HBS_lo HBS_hi Hcrc) (only parsing).
Local Notation H2 f := (f P HBS_lo HBS_hi) (only parsing).
Local Notation HN f := (f P HBS_lo HBS_hi HNB) (only parsing).

Section Dir.
Variable fs : fsT.
Variable lo : N.
Variable n : nat.
Local Notation files := (iota lo (Datatypes.S n)).
Local Notation cur := (lo + N.of_nat n).
Hypothesis Hfull : forall f, In f files ->
  exists b, fs_get fs (filename f) = Some (FFile b) /\ lenN b = FB.

Local Notation St := (stream_of fs files).
Local Notation rsim := (rd_rel P fs files).
Local Notation rrsim := (rr_sim rreaderS vecr rsim).
Local Notation HD f := (f P HBS_lo HBS_hi HNB fs lo n Hfull) (only parsing).

(* what `open` builds from the kept files: the files `tags` the replayed entries are
   attributed to (sts: their (start cursor, first-frame position) in the stream numbered from
   file `base`), and the writer w0 made of the final reader, which stopped at the end e_end of
   the log.  This is OpenReplay.kept_spec with sts and e_end as parameters. *)
Definition dmg_spec (base : N) (w0 : rwriter) (tags : list N) (sts : list (N * N)) (e_end : N) : Prop :=
  length tags = length sts /\
  Forall2 (fun f s => (f - base) * FB <= snd s) tags sts /\
  StronglySorted N.le tags /\
  Forall (fun f => lo <= f /\ f <= w_file w0) tags /\
  w_files w0 = files /\ lo <= w_file w0 /\ w_file w0 <= cur /\
  (((w_file w0 - base) * FB + w_off w0 = ffp e_end /\ w_off w0 < FB) \/
   ((w_file w0 - base) * FB + w_off w0 = e_end /\ w_file w0 = cur /\
    FB < w_off w0 + 7 /\ w_off w0 <= FB)) /\
  w_pending w0 = [] /\ c_fs (w_ctx w0) = fs /\ c_plan (w_ctx w0) = None.

(* cf. OpenReplay.kept_spec_last *)
Lemma dmg_spec_last base w0 tags sts e_end woff :
  base <= lo -> dmg_spec base w0 tags sts e_end ->
  e_end = (cur - base) * FB + woff -> woff <= FB ->
  w_file w0 = cur /\ w_off w0 = norm_off P woff.
Proof.
  intros Hbase (_ & _ & _ & _ & _ & Hlo & Hcur & Hpos & _) He Hw.
  apply (HN final_pos_norm base lo cur (w_file w0) (w_off w0) e_end woff); assumption.
Qed.

(* the writer in the terms of the writer that was dropped: when the log reaches into the last
   file (always the case when a clean writer wrote it), or there is one file, open's writer is
   in the last file at the normalised offset (cf. OpenReplay.reach_last / kept_spec_last) *)
Lemma dmg_spec_reach_last base w0 tags sts (T' : bytes) z :
  base <= lo ->
  lenN (T' ++ zerosN z) = (cur - base + 1) * FB ->
  (cur - base) * FB <= lenN T' \/ n = 0%nat ->
  dmg_spec base w0 tags sts (N.max ((lo - base) * FB) (lenN T')) ->
  w_file w0 = cur /\
  w_off w0 = norm_off P (N.max ((lo - base) * FB) (lenN T') - (cur - base) * FB).
Proof.
  intros Hbase HlenS Hreach Hspec.
  assert (HT : lenN T' <= (cur - base + 1) * FB).
  { pose proof HlenS as HL. rewrite lenN_app in HL. lia. }
  assert (Hb : (lo - base) * FB <= (cur - base) * FB) by (apply N.mul_le_mono_r; lia).
  assert (Hb1 : (cur - base + 1) * FB = (cur - base) * FB + FB) by lia.
  apply (dmg_spec_last base w0 tags sts _ _ Hbase Hspec).
  - destruct Hreach as [H|H]; [lia|].
    assert (E : cur = lo) by lia. rewrite E in *. lia.
  - destruct Hreach as [H|H]; [lia|].
    assert (E : cur = lo) by lia. rewrite E in *. lia.
Qed.

Section Kept.
Variables (base : N) (S_all : bytes).
Hypothesis Hbase : base <= lo.
Hypothesis Hlist : list_wal_numbers fs = files.
Hypothesis HSt : St = dropN ((lo - base) * FB) S_all.
Hypothesis HlenS : lenN S_all = (cur - base + 1) * FB.

Local Notation b := ((lo - base) * FB).
Local Notation kb := ((lo - base) * NB P).

(* any vecr trace (with Corruption steps) from the boundary that stops at the end of the log,
   to the rolling files (TornFile.trace_tags; cf. OpenReplay.kept_files_trace) *)
Lemma trace_to_files g rrs ds sts c rrfV e_end :
  length rrs = length ds ->
  readsC g (mkRR (rd_at P S_all kb 0) [] false) (combine rrs ds) c rrfV ->
  tr_ok P S_all rrs sts -> at_end P S_all (rr_fr rrfV) e_end ->
  exists c0 rd lF rrfF,
    rd_open P (ctx_init fs None) = (c0, Ok rd) /\
    readsFc g (rr_open rreaderS rd) lF c rrfF /\
    map snd lF = ds /\
    dmg_spec base (rd_into_writer P (fr_rd (rr_fr rrfF)) (fr_cursor (rr_fr rrfF))) (tags_of lF)
             sts e_end.
Proof.
  intros Hlen HrdV Htr (k & c1 & Hfr & Hkblk & Hc & Hcase).
  destruct (rd_open_sim P ltac:(lia) HNB fs files (iota_sorted _ _) Hfull (ctx_init fs None))
    as (c0 & rd & Hopen & Hrel); [split; reflexivity | exact Hlist | discriminate |].
  destruct (trace_tags P HBS_lo HBS_hi HNB Hcrc fs lo n Hfull base S_all Hbase HSt HlenS g rd rrs ds sts
              c rrfV k c1 false Hrel Hlen HrdV Htr Hfr Hkblk)
    as (lF & rrfF & w0 & i & j & HrdF & Hsnd & -> & Hlt & Hfst & Hsort & Hrng & Hfl & Hfile & Hi & Hj &
        Hoff & Hk & Hrest).
  exists c0, rd, lF, rrfF. split; [exact Hopen|]. split; [exact HrdF|]. split; [exact Hsnd|].
  split; [exact Hlt|]. split; [exact Hfst|]. split; [exact Hsort|]. split; [exact Hrng|].
  split; [exact Hfl|]. split; [lia|]. split; [lia|].
  split; [|exact Hrest].
  rewrite (HN tags_pos base lo _ _ i j k c1 Hbase Hfile Hoff Hk), Hoff, (HN FB_eq).
  destruct Hcase as [(Hp & Hc7) | (Hp & Hc7 & Hlast)].
  - left. split; [exact Hp|].
    assert ((j + 1) * B <= NB P * B) by (apply N.mul_le_mono_r; lia). lia.
  - right.
    (* no block follows block k: it is the last block of the last file *)
    assert (Hin : i = N.of_nat n /\ j + 1 = NB P).
    { rewrite HlenS, (HN FB_eq), Hk in Hlast.
      replace (lo + N.of_nat n - base + 1) with ((lo - base) + (N.of_nat n + 1)) in Hlast by lia.
      assert (E1 : (N.of_nat n + 1) * NB P < i * NB P + j + 2).
      { apply (H2 TornProofs.mulB_lt_inv). lia. }
      destruct (N.eq_dec i (N.of_nat n)) as [Ei|Ni].
      - subst i. split; [reflexivity|]. lia.
      - exfalso.
        assert (H : (i + 1) * NB P <= N.of_nat n * NB P) by (apply N.mul_le_mono_r; lia).
        lia. }
    destruct Hin as [-> Hj1].
    split; [exact Hp|]. split; [lia|].
    replace (NB P) with (j + 1) by exact Hj1. lia.
Qed.

(* ... and to `open` *)
Lemma open_of_trace_end F rrs ds sts c rrfV e_end Ds pol hint :
  L_IO P = false ->
  length rrs = length ds ->
  readsC F (mkRR (rd_at P S_all kb 0) [] false) (combine rrs ds) c rrfV ->
  tr_ok P S_all rrs sts -> at_end P S_all (rr_fr rrfV) e_end ->
  ds = map entry_ser Ds -> Forall wf_entry Ds -> (length ds + c < F)%nat ->
  exists w0 tags,
    dmg_spec base w0 tags sts e_end /\
    match replay_entries [] (combine tags Ds) with
    | Some qs => open P fs None pol hint = open_finish P w0 qs pol hint
    | None => exists c', open P fs None pol hint = OpenCorruption c'
    end.
Proof.
  intros Hio Hlen HrdV Htr Hend Hds Hwf HF.
  destruct (trace_to_files F rrs ds sts c rrfV e_end Hlen HrdV Htr Hend)
    as (c0 & rd & lF & rrfF & Hopen & HrdF & Hsnd & Hspec).
  eexists _, (tags_of lF). split; [exact Hspec|].
  subst ds. rewrite map_length in HF.
  exact (HD open_of_files_trace F fs c0 rd lF c rrfF Ds pol hint Hio Hopen HrdF Hsnd Hwf HF).
Qed.

End Kept.

(* Ghost setting as in OpenReplay: the WAL is one byte stream numbered from file `base`; E_all
   are the (well-formed) entries ever written; the directory holds the full-size files
   lo..lo+n, which are the tail, from the block boundary b = (lo - base) * FILE, of T' ++ zeros,
   where T' is the stream the writer produced for E_all (T = encs_of 0 (map entry_ser E_all))
   with any number of frames damaged in place: encs_any 0 pxs T', pxs giving for every entry
   its payload and its frames as found in the files. *)
Theorem open_damaged base E_all pxs T' z pol hint :
  L_IO P = false ->
  base <= lo ->
  list_wal_numbers fs = files ->
  Forall wf_entry E_all ->
  map fst pxs = map entry_ser E_all ->
  encs_any P 0 pxs T' ->
  St = dropN ((lo - base) * FB) (T' ++ zerosN z) ->
  lenN (T' ++ zerosN z) = (cur - base + 1) * FB ->
  let b := (lo - base) * FB in
  exists w0 tags E_pre E_suf pxs1 pxs2,
    E_all = E_pre ++ E_suf /\ pxs = pxs1 ++ pxs2 /\
    map fst pxs1 = map entry_ser E_pre /\ map fst pxs2 = map entry_ser E_suf /\
    map entry_ser E_pre = skipped_before P b 0 (map entry_ser E_all) /\
    map entry_ser E_suf = delivered_from P b 0 (map entry_ser E_all) /\
    lenN T' = lenN (encs_of P 0 (map entry_ser E_all)) /\
    let E_ok := ok_entries P pxs2 E_suf in
    dmg_spec base w0 tags (ok_sts P (cursor_after P 0 (map entry_ser E_pre)) pxs2)
             (N.max b (lenN T')) /\
    match replay_entries [] (combine tags E_ok) with
    | Some qs => open P fs None pol hint = open_finish P w0 qs pol hint
    | None => exists c, open P fs None pol hint = OpenCorruption c
    end.
Proof.
  intros Hio Hbase Hlist Hwf Hmap Hany HSt HlenS b.
  set (S_all := T' ++ zerosN z) in *.
  assert (Hkb : (lo - base) * NB P * B = b) by (unfold b; rewrite (HN FB_eq); lia).
  assert (Hok : stream_ok P S_all).
  { exists ((cur - base + 1) * NB P). rewrite HlenS, (HN FB_eq). lia. }
  assert (Hblk : ((lo - base) * NB P + 1) * B <= lenN S_all).
  { rewrite HlenS, (HN FB_eq).
    replace (cur - base + 1) with ((lo - base) + (N.of_nat n + 1)) by lia. nia. }
  set (F := (length E_all + length (flat_map snd pxs) + 2)%nat).
  destruct (read_damaged_tr P HBS_lo HBS_hi Hcrc pxs T' S_all z ((lo - base) * NB P) [] F Hany eq_refl
              Hok Hblk ltac:(unfold F; lia))
    as (pxs1 & pxs2 & rrs & c & rrfV & Hpxs & Hm1 & Hm2 & Hlen & HrdV & Hc & Htr & Hend).
  rewrite Hkb in Hm1, Hm2, Hend. rewrite Hmap in Hm1, Hm2.
  assert (Hsplit : map entry_ser E_all = map fst pxs1 ++ map fst pxs2)
    by (rewrite <- Hmap, Hpxs, map_app; reflexivity).
  destruct (map_app_inv entry_ser E_all _ _ Hsplit) as (E_pre & E_suf & HE & Hpre & Hsuf).
  assert (Hwf_suf : Forall wf_entry E_suf).
  { rewrite HE in Hwf. apply Forall_app in Hwf. apply Hwf. }
  assert (HF : (length (map fst (filter (intact P) pxs2)) + c < F)%nat).
  { rewrite map_length. pose proof (filter_length_le (intact P) pxs2) as Hfl.
    assert (Hl : length pxs = length E_all).
    { apply (f_equal (@length bytes)) in Hmap. rewrite !map_length in Hmap. exact Hmap. }
    rewrite Hpxs, app_length in Hl. unfold F. lia. }
  rewrite <- Hpre in Htr.
  assert (Hlen' : length rrs = length (map fst (filter (intact P) pxs2)))
    by (rewrite map_length; exact Hlen).
  destruct (open_of_trace_end base S_all Hbase Hlist HSt HlenS F rrs _ _ c rrfV _
              (ok_entries P pxs2 E_suf) pol hint Hio Hlen' HrdV Htr Hend
              (ok_entries_ser P pxs2 E_suf (eq_sym Hsuf))
              (ok_entries_Forall P wf_entry pxs2 E_suf Hwf_suf) HF)
    as (w0 & tags & Hspec & Hres).
  exists w0, tags, E_pre, E_suf, pxs1, pxs2.
  split; [exact HE|]. split; [exact Hpxs|]. split; [symmetry; exact Hpre|].
  split; [symmetry; exact Hsuf|]. split; [rewrite Hpre; exact Hm1|].
  split; [rewrite Hsuf; exact Hm2|].
  split; [rewrite <- Hmap; apply (encs_any_len P HBS_lo HBS_hi Hcrc); exact Hany|].
  cbv zeta. split; [exact Hspec | exact Hres].
Qed.

(* E_all = E1 ++ X :: E2; the stream is the one the writer produced (t1 ++ ex ++ t2) with ONE
   frame of X damaged (ed instead of ex, DamageProofs.enc_dmg), and X is among the entries
   delivered from the boundary (its first frame lies in the kept files): open replays E_suf
   without X. *)
Theorem open_one_damaged base E1 X E2 t1 ex ed k t2 z pol hint :
  L_IO P = false ->
  base <= lo ->
  list_wal_numbers fs = files ->
  Forall wf_entry (E1 ++ X :: E2) ->
  encs_rel P 0 (map entry_ser E1) t1 ->
  enc_dmg P (lenN t1) true (entry_ser X) ex ed k ->
  encs_rel P (lenN t1 + lenN ex) (map entry_ser E2) t2 ->
  St = dropN ((lo - base) * FB) ((t1 ++ ed ++ t2) ++ zerosN z) ->
  lenN ((t1 ++ ed ++ t2) ++ zerosN z) = (cur - base + 1) * FB ->
  let b := (lo - base) * FB in
  b <= ffp (lenN t1) ->
  exists w0 tags E1_pre E1_suf,
    E1 = E1_pre ++ E1_suf /\
    map entry_ser E1_pre = skipped_before P b 0 (map entry_ser (E1 ++ X :: E2)) /\
    map entry_ser (E1_suf ++ X :: E2) = delivered_from P b 0 (map entry_ser (E1 ++ X :: E2)) /\
    lenN (t1 ++ ed ++ t2) = lenN (t1 ++ ex ++ t2) /\
    dmg_spec base w0 tags
      (starts P (cursor_after P 0 (map entry_ser E1_pre)) (map entry_ser E1_suf) ++
       starts P (lenN t1 + lenN ex) (map entry_ser E2))
      (N.max b (lenN (t1 ++ ex ++ t2))) /\
    match replay_entries [] (combine tags (E1_suf ++ E2)) with
    | Some qs => open P fs None pol hint = open_finish P w0 qs pol hint
    | None => exists c, open P fs None pol hint = OpenCorruption c
    end.
Proof.
  intros Hio Hbase Hlist Hwf He1 Hdmg He2 HSt HlenS b Hb.
  destruct (H3 encs_rel_any _ _ _ He1) as (pa & Hpa & Hma & Hia).
  destruct (H3 enc_dmg_any _ _ _ _ _ _ Hdmg) as (xsd & Hxd & Hbadx & _ & _).
  pose proof (H3 enc_dmg_len _ _ _ _ _ _ Hdmg) as Hled.
  pose proof (enc_dmg_orig P _ _ _ _ _ _ Hdmg) as Hrelx.
  destruct (H3 encs_rel_any _ _ _ He2) as (pb & Hpb & Hmb & Hib).
  set (pxs := pa ++ (entry_ser X, xsd) :: pb).
  assert (Hany : encs_any P 0 pxs (t1 ++ ed ++ t2)).
  { apply (H3 encs_any_app 0 pa t1 Hpa). econstructor; [rewrite N.add_0_l; exact Hxd|].
    rewrite N.add_0_l, Hled. exact Hpb. }
  assert (Hmap : map fst pxs = map entry_ser (E1 ++ X :: E2)).
  { unfold pxs. rewrite !map_app. cbn [map fst]. rewrite Hma, Hmb. reflexivity. }
  pose proof (open_damaged base (E1 ++ X :: E2) pxs (t1 ++ ed ++ t2) z pol hint Hio Hbase Hlist
                Hwf Hmap Hany HSt HlenS) as Hmain.
  cbv zeta in Hmain. fold b in Hmain.
  destruct Hmain as (w0 & tags & E_pre & E_suf & pxs1 & pxs2 & HE & Hpxs & Hm1 & Hm2 & Hpre & Hsuf &
                     HlenT & Hspec & Hres).
  assert (Hcur1 : cursor_after P 0 (map entry_ser E1) = 0 + lenN t1)
    by apply (H3 cursor_after_rel _ _ _ He1).
  destruct (H3 delivered_from_app b (map entry_ser E1) 0 (map entry_ser (X :: E2))) as [Hdf Hsk].
  { rewrite Hcur1, N.add_0_l. exact Hb. }
  rewrite map_app in Hpre, Hsuf. rewrite Hsk in Hpre. rewrite Hdf in Hsuf.
  pose proof (skipped_delivered P b (map entry_ser E1) 0) as Hsd.
  destruct (map_app_inv entry_ser E1 _ _ Hsd) as (E1p & E1s & HE1 & Hp1 & Hs1).
  assert (HlenEp : length E_pre = length E1p).
  { apply (f_equal (@length bytes)) in Hpre. rewrite <- Hp1 in Hpre.
    rewrite !map_length in Hpre. exact Hpre. }
  assert (HEE : E_pre ++ E_suf = E1p ++ (E1s ++ X :: E2)).
  { rewrite <- HE, HE1, <- app_assoc. reflexivity. }
  destruct (app_inv_len _ _ _ _ HEE HlenEp) as [EE1 EE2]. subst E_pre E_suf.
  assert (Hlpa : length pa = length E1).
  { apply (f_equal (@length bytes)) in Hma. rewrite !map_length in Hma. exact Hma. }
  destruct (split_at_len pa (length E1p)) as (pa1 & pa2 & Hpa12 & Hlpa1).
  { rewrite Hlpa, HE1, app_length. lia. }
  assert (Hlp1 : length pxs1 = length pa1).
  { apply (f_equal (@length bytes)) in Hm1. rewrite !map_length in Hm1. lia. }
  assert (Hpp : pxs1 ++ pxs2 = pa1 ++ (pa2 ++ (entry_ser X, xsd) :: pb)).
  { rewrite <- Hpxs. unfold pxs. rewrite Hpa12, <- app_assoc. reflexivity. }
  destruct (app_inv_len _ _ _ _ Hpp Hlp1) as [EP1 EP2]. subst pxs1 pxs2.
  rewrite Hpa12, forallb_app in Hia. apply andb_true_iff in Hia as [_ Hia2].
  assert (Hma2 : map fst pa2 = map entry_ser E1s).
  { rewrite Hpa12, HE1, !map_app in Hma. apply app_inv_len in Hma; [apply Hma|].
    rewrite !map_length. exact Hlpa1. }
  assert (Hlpa2 : length pa2 = length E1s).
  { apply (f_equal (@length bytes)) in Hma2. rewrite !map_length in Hma2. exact Hma2. }
  assert (Hlpb : length pb = length E2).
  { apply (f_equal (@length bytes)) in Hmb. rewrite !map_length in Hmb. exact Hmb. }
  pose proof (ok_entries_one_bad P pa2 (entry_ser X) xsd pb E1s X E2 Hia2 Hbadx Hib Hlpa2 Hlpb) as Hok.
  assert (Hsts : ok_sts P (cursor_after P 0 (map entry_ser E1p)) (pa2 ++ (entry_ser X, xsd) :: pb) =
                 starts P (cursor_after P 0 (map entry_ser E1p)) (map entry_ser E1s) ++
                 starts P (lenN t1 + lenN ex) (map entry_ser E2)).
  { rewrite (ok_sts_one_bad P HBS_lo HBS_hi Hcrc _ pa2 (entry_ser X) xsd pb Hia2 Hbadx Hib), Hma2, Hmb.
    rewrite <- (H3 cursor_after_app), <- map_app, <- HE1, Hcur1, N.add_0_l.
    rewrite (H3 enc_rel_enc_of _ _ _ _ Hrelx). reflexivity. }
  assert (HlenTT : lenN (t1 ++ ed ++ t2) = lenN (t1 ++ ex ++ t2))
    by (rewrite !lenN_app, Hled; reflexivity).
  cbv zeta in Hspec, Hres. rewrite Hok in Hres. rewrite Hsts, HlenTT in Hspec.
  exists w0, tags, E1p, E1s.
  split; [exact HE1|]. split; [rewrite map_app, Hsk; exact Hpre|].
  split; [rewrite (map_app entry_ser E1), Hdf; exact Hsuf|].
  split; [exact HlenTT|]. split; [exact Hspec | exact Hres].
Qed.

End Dir.
End Files.

Print Assumptions read_damaged_tr.
Print Assumptions open_damaged.
Print Assumptions open_one_damaged.

(* The directory of OpenReplay.Example (BS = 16, two blocks per file, files 1..6 kept, base 0)
   with the checksum of the first frame of the third entry (EPosition qb 3, first frame at
   byte 80 = file 2, offset 16) damaged: open replays the entries 1, 3, 4, 5 (entry 0 lies
   before the boundary, entry 2 is damaged).  Note the file attribution of entry 3 (first
   frame at 112, in file 3): it is read by the go_next call that starts just after the
   damaged frame, in file 2, and skips the remaining frame of entry 2 first, so its tag is 2
   (in the undamaged directory it is 3).  This is why dmg_spec only bounds the tags from above
   by the first-frame positions: (tag - base) * FILE <= first frame. *)
Module Example.
Import OpenReplay.Example.
Definition flip (bs : bytes) (i : N) : bytes :=
  takeN i bs ++ match dropN i bs with [] => [] | x :: r => n2b ((b2n x + 1) mod 256) :: r end.
Definition fs_dmg : fsT := fs_put fs_kept (filename 2) (FFile (flip (fcontent fs_kept 2) 16)).
Definition qs_of (fs : fsT) : option queues :=
  match open Px fs None PNothing [] with OpenOk st => Some (s_qs st) | _ => None end.
Definition nthE (i : nat) : entry := nth i E_ex (EPosition qa 0).

Example damaged_dir_replays_intact :
  qs_of fs_dmg = replay_entries [] (combine [1; 2; 5; 6] [nthE 1; nthE 3; nthE 4; nthE 5]) /\
  qs_of fs_kept = replay_entries [] (combine [1; 2; 3; 5; 6] (tl E_ex)).
Proof. vm_compute. split; reflexivity. Qed.
End Example.

Print Assumptions encs_any_good_rel.
Print Assumptions dmg_spec_reach_last.
