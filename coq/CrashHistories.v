(* CrashHistories.v — property C02 for WHOLE HISTORIES with any number of crashes.
   A history is a list of calls, clean restarts and CRASHES (a call interrupted at crash point
   (cut, k), the directory left behind is recovered by `open`).  From any usable state (jstate;
   in particular any state satisfying the restart invariant, e.g. a fresh log), if the side
   conditions chist_ok hold along the run, the run succeeds, every recovered state is usable
   again, and the final abstract state is the one the specification reaches over the same calls
   where every crashed call is either applied or not applied (chist_spec).
   Side conditions of a crash step: flush-per-operation policy, well-formed arguments, bounds,
   and the two restrictions of CrashRecovered.v (the interrupted call does not roll over to a new file
   and ends before the last block of its file). *)
From Coq Require Import Lia ZArith ZifyN ZifyNat ZifyBool List Sorted.
From MRL Require Import Bytes BytesProofs Params Names NamesProofs Frame Record Mem Spec Rolling Log
  Driver Hist NoopProofs SpecRefine RecordProofs StreamProofs PolicyProofs GcProofs GhostLog ReplaySpec
  HandleProofs FileStream ResyncProofs QueueIso RestartInv RestartWrite RestartGc RestartStep
  OpenReplay RestartFinal TornProofs TornFile CrashTrace CrashAtomic
  JInv JGc JStep JunkStream JReopen CrashRecovered CrashRecovered2.

(* the events a transition appended to the trace, oldest first *)
Definition new_evs (st st' : state) : list event :=
  rev (firstn (length (c_ev (w_ctx (s_wr st'))) - length (c_ev (w_ctx (s_wr st))))
              (c_ev (w_ctx (s_wr st')))).

Lemma new_evs_spec st st' evs :
  c_ev (w_ctx (s_wr st')) = rev evs ++ c_ev (w_ctx (s_wr st)) -> new_evs st st' = evs.
Proof.
  intros H. unfold new_evs. rewrite H, app_length.
  replace (length (rev evs) + length (c_ev (w_ctx (s_wr st))) - length (c_ev (w_ctx (s_wr st))))%nat
    with (length (rev evs)) by lia.
  rewrite firstn_app, Nat.sub_diag, firstn_all. cbn [firstn]. rewrite app_nil_r. apply rev_involutive.
Qed.

Section Histories.
Variable P : params.
Hypothesis HBS_lo : 7 < BS P.
Hypothesis HBS_hi : BS P <= 65542.
Hypothesis HNB : 1 <= NB P.
Hypothesis Hcrc : forall t p, crcf P t p < 2 ^ 32.
Hypothesis HGC : L_GC P = false.
Hypothesis HIO : L_IO P = false.
Hypothesis HSHORT : L_SHORT P = false.
Hypothesis Hnc : no_zero_collision P.

Local Notation B := (BS P).
Local Notation FB := (FILE_BYTES P).

Inductive chop :=
| CCall (o : op) (tick : bool)
| CRestart (pol : policy) (hint : list bytes)
| CCrash (o : op) (tick : bool) (cut k : N) (pol : policy) (hint : list bytes).

(* the directory left by a crash at (cut, k) during the call o *)
Definition crash_img (st : state) (o : op) (tick : bool) (cut k : N) : fsT :=
  let st' := fst (step P st o tick) in
  fold_left apply_event (crash_events (new_evs st st') cut k) (c_fs (w_ctx (s_wr st))).

Fixpoint crun (st : state) (h : list chop) : option state :=
  match h with
  | [] => Some st
  | CCall o tick :: r => crun (fst (step P st o tick)) r
  | CRestart pol hint :: r =>
      match restart P st pol hint with OpenOk st' => crun st' r | _ => None end
  | CCrash o tick cut k pol hint :: r =>
      match open P (crash_img st o tick cut k) None pol hint with
      | OpenOk st' => crun st' r
      | _ => None
      end
  end.

(* the side conditions, along the run *)
Fixpoint chist_ok (st : state) (h : list chop) : Prop :=
  match h with
  | [] => True
  | CCall o tick :: r =>
      op_wf_strict (s_qs st) o /\
      phys_bound P (s_wr st) (map snd (step_log P st o)) /\
      chist_ok (fst (step P st o tick)) r
  | CRestart pol hint :: r =>
      restart_bound P st /\
      match restart P st pol hint with OpenOk st' => chist_ok st' r | _ => True end
  | CCrash o tick cut k pol hint :: r =>
      (exists a, crash_call_ok P st a o tick (fst (step P st o tick)) (snd (step P st o tick))) /\
      match open P (crash_img st o tick cut k) None pol hint with
      | OpenOk st' => chist_ok st' r
      | _ => True
      end
  end.

(* the specification: every crashed call is applied or not *)
Inductive chist_spec : smap -> list chop -> smap -> Prop :=
| cs_nil m : chist_spec m [] m
| cs_call m o tick r m' :
    chist_spec (fst (s_step m (sop_of o))) r m' -> chist_spec m (CCall o tick :: r) m'
| cs_restart m pol hint r m' : chist_spec m r m' -> chist_spec m (CRestart pol hint :: r) m'
| cs_crash_before m o tick cut k pol hint r m' :
    chist_spec m r m' -> chist_spec m (CCrash o tick cut k pol hint :: r) m'
| cs_crash_after m o tick cut k pol hint r m' :
    chist_spec (fst (s_step m (sop_of o))) r m' -> chist_spec m (CCrash o tick cut k pol hint :: r) m'.

Lemma chist_spec_ext h : forall m1 m2 m',
  (forall q, s_get m1 q = s_get m2 q) -> chist_spec m1 h m' ->
  exists m'', chist_spec m2 h m'' /\ forall q, s_get m'' q = s_get m' q.
Proof.
  induction h as [|c r IH]; intros m1 m2 m' He Hs; inversion Hs; subst.
  - exists m2. split; [constructor|]. intros q. now rewrite He.
  - destruct (s_step_ext m1 m2 (sop_of o) He) as (_ & H2).
    match goal with H : chist_spec _ r _ |- _ => destruct (IH _ _ _ H2 H) as (m'' & H4 & H5) end.
    exists m''. split; [now constructor|exact H5].
  - match goal with H : chist_spec _ r _ |- _ => destruct (IH _ _ _ He H) as (m'' & H4 & H5) end.
    exists m''. split; [now constructor|exact H5].
  - match goal with H : chist_spec _ r _ |- _ => destruct (IH _ _ _ He H) as (m'' & H4 & H5) end.
    exists m''. split; [now apply cs_crash_before|exact H5].
  - destruct (s_step_ext m1 m2 (sop_of o) He) as (_ & H2).
    match goal with H : chist_spec _ r _ |- _ => destruct (IH _ _ _ H2 H) as (m'' & H4 & H5) end.
    exists m''. split; [now apply cs_crash_after|exact H5].
Qed.

(* one call from a usable state: the abstract state follows the specification *)
Lemma jstate_call st o tick :
  jstate P st -> op_wf_strict (s_qs st) o -> phys_bound P (s_wr st) (map snd (step_log P st o)) ->
  jstate P (fst (step P st o tick)) /\
  forall q, s_get (fst (s_step (abs_qs (s_qs st)) (sop_of o))) q =
            s_get (abs_qs (s_qs (fst (step P st o tick)))) q.
Proof.
  intros Hj Hop Hb.
  destruct (jstate_run P HBS_lo HBS_hi HNB Hcrc HGC HIO HSHORT st [HCall o tick] Hj)
    as (st1 & outs & m' & souts & Hr & Hj1 & _ & Hs & Hm & _).
  { cbn [hist_ok]. split; [exact Hop|]. split; [exact Hb|exact I]. }
  cbn [hrun] in Hr. destruct (step P st o tick) as [s1 out] eqn:Es. cbn [hrun] in Hr.
  injection Hr as <- _. cbn [fst]. split; [exact Hj1|].
  cbn [hcalls map s_run] in Hs.
  destruct (s_step (abs_qs (s_qs st)) (sop_of o)) as [m1 so] eqn:Em. cbn [fst].
  injection Hs as <- _. exact Hm.
Qed.

(* The induction over a history, for any side condition okh that gives, at a call and at a clean
   restart, what chist_ok gives, and at a crash a usable recovered state that is abstractly the
   state before the call or the specification's state after it. *)
Section Gen.
Variable okh : state -> list chop -> Prop.
Hypothesis okh_call : forall st o tick r, okh st (CCall o tick :: r) ->
  op_wf_strict (s_qs st) o /\ phys_bound P (s_wr st) (map snd (step_log P st o)) /\
  okh (fst (step P st o tick)) r.
Hypothesis okh_restart : forall st pol hint r, okh st (CRestart pol hint :: r) ->
  restart_bound P st /\ match restart P st pol hint with OpenOk st' => okh st' r | _ => True end.
Hypothesis okh_crash : forall st o tick cut k pol hint r,
  jstate P st -> okh st (CCrash o tick cut k pol hint :: r) ->
  exists st_r, open P (crash_img st o tick cut k) None pol hint = OpenOk st_r /\ jstate P st_r /\
    okh st_r r /\
    ((forall q, s_get (abs_qs (s_qs st_r)) q = s_get (abs_qs (s_qs st)) q) \/
     (forall q, s_get (abs_qs (s_qs st_r)) q = s_get (fst (s_step (abs_qs (s_qs st)) (sop_of o))) q)).

Theorem crash_histories_gen h : forall st,
  jstate P st -> okh st h ->
  exists st' m',
    crun st h = Some st' /\ jstate P st' /\
    chist_spec (abs_qs (s_qs st)) h m' /\
    forall q, s_get m' q = s_get (abs_qs (s_qs st')) q.
Proof.
  induction h as [|[o tick|pol hint|o tick cut k pol hint] r IH]; intros st Hj Hok.
  - exists st, (abs_qs (s_qs st)). split; [reflexivity|]. split; [exact Hj|]. split; [constructor|auto].
  - destruct (okh_call _ _ _ _ Hok) as (Hop & Hb & Hok'). cbn [crun].
    destruct (jstate_call st o tick Hj Hop Hb) as (Hj1 & Ha1).
    destruct (IH _ Hj1 Hok') as (st' & m' & Hr & Hj' & Hs & Hm).
    destruct (chist_spec_ext r _ _ m' (fun q => eq_sym (Ha1 q)) Hs) as (m'' & Hs' & Hm'').
    exists st', m''. split; [exact Hr|]. split; [exact Hj'|]. split; [now constructor|].
    intros q. now rewrite Hm''.
  - destruct (okh_restart _ _ _ _ Hok) as (Hb & Hok'). cbn [crun].
    destruct (jstate_restart_identity P HBS_lo HBS_hi HNB Hcrc HGC HIO HSHORT st Hj Hb pol hint)
      as (st1 & Eo & Hj1 & _ & _ & Ha1).
    rewrite Eo in *.
    destruct (IH _ Hj1 Hok') as (st' & m' & Hr & Hj' & Hs & Hm).
    destruct (chist_spec_ext r _ _ m' Ha1 Hs) as (m'' & Hs' & Hm'').
    exists st', m''. split; [exact Hr|]. split; [exact Hj'|]. split; [now constructor|].
    intros q. now rewrite Hm''.
  - destruct (okh_crash _ _ _ _ _ _ _ _ Hj Hok) as (st_r & Ho & Hjr & Hok' & Habs). cbn [crun].
    rewrite Ho.
    destruct (IH _ Hjr Hok') as (st' & m' & Hr & Hj' & Hs & Hm).
    destruct Habs as [Ha|Ha]; destruct (chist_spec_ext r _ _ m' Ha Hs) as (m'' & Hs' & Hm'');
      exists st', m''; (split; [exact Hr|]); (split; [exact Hj'|]).
    + split; [now apply cs_crash_before|]. intros q. now rewrite Hm''.
    + split; [now apply cs_crash_after|]. intros q. now rewrite Hm''.
Qed.
End Gen.

(* a crash step, from a recovery theorem in the form of CrashRecovered2.jstate_crash *)
Lemma crash_step st o tick cut k pol hint :
  jstate P st ->
  (forall s1 out, step P st o tick = (s1, out) ->
     (forall e, out <> OutIo e) /\
     exists evs, c_ev (w_ctx (s_wr s1)) = rev evs ++ c_ev (w_ctx (s_wr st)) /\
       exists st_r,
         open P (fold_left apply_event (crash_events evs cut k) (c_fs (w_ctx (s_wr st)))) None pol hint
           = OpenOk st_r /\ jstate P st_r /\
         ((forall q, s_get (abs_qs (s_qs st_r)) q = s_get (abs_qs (s_qs st)) q) \/
          (forall q, s_get (abs_qs (s_qs st_r)) q = s_get (abs_qs (s_qs s1)) q))) ->
  exists st_r, open P (crash_img st o tick cut k) None pol hint = OpenOk st_r /\ jstate P st_r /\
    ((forall q, s_get (abs_qs (s_qs st_r)) q = s_get (abs_qs (s_qs st)) q) \/
     (forall q, s_get (abs_qs (s_qs st_r)) q = s_get (fst (s_step (abs_qs (s_qs st)) (sop_of o))) q)).
Proof.
  intros Hj H. unfold crash_img. destruct (step P st o tick) as [s1 out] eqn:Es. cbn [fst].
  destruct (H s1 out eq_refl) as (Hno & evs & Hev & st_r & Ho & Hjr & Habs).
  rewrite (new_evs_spec st s1 evs Hev).
  exists st_r. split; [exact Ho|]. split; [exact Hjr|].
  destruct Habs as [Ha|Ha]; [left; exact Ha|right].
  (* the call was applied: the abstract state after it is the specification's *)
  pose proof (step_refines P st o tick (jstate_qs_inv P st Hj)) as Href. rewrite Es in Href.
  destruct Href as (_ & Href).
  destruct (no_io_logical out ltac:(intros e0 He0; exact (Hno e0 He0))) as (so & Eso).
  intros q. rewrite Ha, (Href so Eso). reflexivity.
Qed.

Theorem crash_histories h : forall st,
  jstate P st -> chist_ok st h ->
  exists st' m',
    crun st h = Some st' /\ jstate P st' /\
    chist_spec (abs_qs (s_qs st)) h m' /\
    forall q, s_get m' q = s_get (abs_qs (s_qs st')) q.
Proof.
  apply (crash_histories_gen chist_ok); [intros st o tick r H; exact H|intros st pol hint r H; exact H|].
  intros st o tick cut k pol hint r Hj ((a & Hcc) & Hok).
  destruct (crash_step st o tick cut k pol hint Hj) as (st_r & Ho & Hjr & Habs).
  { intros s1 out Es. rewrite Es in Hcc. cbn [fst snd] in Hcc.
    destruct (jstate_crash P HBS_lo HBS_hi HNB Hcrc HGC HIO HSHORT Hnc st a o tick s1 out Hj Hcc)
      as (Hno & evs & Hev & Hall).
    split; [exact Hno|]. exists evs. split; [exact Hev|].
    destruct (Hall cut k pol hint) as (st_r & Ho & Hjr & _ & _ & Habs). exists st_r. auto. }
  rewrite Ho in Hok. exists st_r. auto.
Qed.

(* from a fresh directory *)
Corollary crash_histories_fresh pol0 st0 h :
  open P [] None pol0 [] = OpenOk st0 -> chist_ok st0 h ->
  exists st' m',
    crun st0 h = Some st' /\ jstate P st' /\
    chist_spec [] h m' /\ forall q, s_get m' q = s_get (abs_qs (s_qs st')) q.
Proof.
  intros Ho Hok.
  pose proof (inv_fresh P HBS_lo HBS_hi HNB pol0 st0 Ho) as HI0.
  destruct (crash_histories h st0 (jstate_inv P HBS_lo HBS_hi HNB Hcrc st0 gh_fresh HI0) Hok)
    as (st' & m' & Hr & Hj & Hs & Hm).
  destruct (open_fresh P HBS_lo HBS_hi HNB pol0) as (c & _ & Eo). rewrite Eo in Ho.
  injection Ho as <-. cbn [s_qs abs_qs map] in Hs.
  exists st', m'. auto.
Qed.

(* a clean restart of a usable state (e.g. a state reached after crash recoveries) is invisible
   for the whole read API, as in C01_restart_identity *)
Corollary jstate_restart_reads st :
  jstate P st -> restart_bound P st ->
  forall pol hint, exists st2,
    restart P st pol hint = OpenOk st2 /\
    (forall q, s_get (abs_qs (s_qs st2)) q = s_get (abs_qs (s_qs st)) q) /\
    (forall q lo hi, log_range st2 q lo hi = log_range st q lo hi) /\
    (forall q, log_last_position st2 q = log_last_position st q) /\
    (forall q, log_last_record st2 q = log_last_record st q).
Proof.
  intros Hj Hb pol hint.
  destruct (jstate_restart_identity P HBS_lo HBS_hi HNB Hcrc HGC HIO HSHORT st Hj Hb pol hint)
    as (st2 & Eo & Hj2 & _ & _ & Heq).
  exists st2. split; [exact Eo|]. split; [exact Heq|].
  exact (reads_ext st2 st (jstate_qs_inv P st2 Hj2) (jstate_qs_inv P st Hj) Heq).
Qed.

End Histories.

Print Assumptions crash_histories.
Print Assumptions crash_histories_fresh.
Print Assumptions jstate_restart_reads.
