(* RestartFinal.v — the end-to-end restart theorem (property C01): a clean restart (drop + open)
   is the identity on the abstract state, for every history of calls from a fresh directory with
   clean restarts anywhere.  The two halves of reopening (pinvJ_reopen for the writer,
   invJ_reopen_finish for the replayed queues and the recovery-time GC) are stated for the
   junk-tolerant invariant InvJ, so that JReopen.invJ_reopen uses them too.  At the end a concrete
   instance (roll-over, GC, restart). *)
From Coq Require Import Lia ZArith ZifyN ZifyNat ZifyBool List Sorted.
From MRL Require Import Bytes BytesProofs Params Names NamesProofs Frame Record Mem Spec Rolling Log
  Driver Hist NoopProofs SpecRefine RecordProofs StreamProofs PolicyProofs GcProofs GhostLog ReplaySpec
  HandleProofs FileStream ResyncProofs QueueIso TornFile RestartInv RestartWrite RestartGc JInv JGc JStep
  RestartStep OpenReplay.


Lemma app_eq_len {A} : forall (l1 l1' l2 l2' : list A),
  l1 ++ l2 = l1' ++ l2' -> length l2 = length l2' -> l1 = l1' /\ l2 = l2'.
Proof.
  induction l1 as [|a l1 IH]; intros [|a' l1'] l2 l2' H Hlen; cbn [app] in H.
  - split; [reflexivity|exact H].
  - exfalso. apply (f_equal (@length A)) in H. cbn [length] in H. rewrite app_length in H. lia.
  - exfalso. apply (f_equal (@length A)) in H. cbn [length] in H. rewrite app_length in H. lia.
  - injection H as -> H. destruct (IH l1' l2 l2' H Hlen) as [-> ->]. split; reflexivity.
Qed.

Lemma nth_error_combine {A B} : forall (l1 : list A) (l2 : list B) j a b,
  nth_error l1 j = Some a -> nth_error l2 j = Some b -> nth_error (combine l1 l2) j = Some (a, b).
Proof.
  induction l1 as [|x l1 IH]; intros [|y l2] [|j] a b H1 H2; cbn [nth_error combine] in *;
    try discriminate.
  - now inversion H1; inversion H2.
  - now apply IH.
Qed.

Lemma nth_error_Some_ex {A} (l : list A) j : (j < length l)%nat -> exists a, nth_error l j = Some a.
Proof.
  intros H. destruct (nth_error l j) as [a|] eqn:E; [now exists a|].
  apply nth_error_None in E. lia.
Qed.

Lemma tags_mono_combine : forall (tags : list N) (E : list entry) lo hi,
  length tags = length E -> StronglySorted N.le tags ->
  Forall (fun f => lo <= f /\ f <= hi) tags -> lo <= hi ->
  tags_mono lo (combine tags E) hi.
Proof.
  induction tags as [|f tags IH]; intros [|e E] lo hi Hlen Hs Hr Hle; cbn [length] in Hlen;
    try discriminate; cbn [combine tags_mono]; [exact Hle|].
  inversion Hs as [|? ? Hs' Hf]; subst. inversion Hr as [|? ? [H1 H2] Hr']; subst.
  split; [exact H1|]. apply IH; [lia|exact Hs'| |exact H2].
  rewrite Forall_forall in *. intros x Hx. split; [now apply Hf|now apply Hr'].
Qed.


(* everything before E is forgotten for good; E is re-tagged with the files the reader
   attributes its entries to *)
Definition gh_reopen (G : ghost) (tags : list N) : ghost :=
  mkGhost (gh_base G) (gh_before G) [] (combine tags (map snd (gh_E G))).

Section GhReopen.
Variables (G : ghost) (tags : list N).
Hypothesis Hlen : length tags = length (gh_E G).

Lemma gh_reopen_E_snd : map snd (gh_E (gh_reopen G tags)) = map snd (gh_E G).
Proof. cbn [gh_reopen gh_E]. apply map_snd_combine. now rewrite map_length. Qed.

Lemma gh_reopen_before : gh_before (gh_reopen G tags) = gh_before G.
Proof. unfold gh_before at 1. cbn [gh_reopen gh_dropped gh_pre map]. apply app_nil_r. Qed.

Lemma gh_reopen_ALL : gh_ALL (gh_reopen G tags) = gh_ALL G.
Proof. now rewrite !gh_ALL_split, gh_reopen_before, gh_reopen_E_snd. Qed.

Lemma gh_reopen_k : gh_k (gh_reopen G tags) = gh_k G.
Proof. now rewrite <- !gh_before_length, gh_reopen_before. Qed.

Lemma gh_reopen_log : gh_log (gh_reopen G tags) = combine tags (map snd (gh_E G)).
Proof. reflexivity. Qed.

End GhReopen.

Lemma linv_reopen qs lo G tags qs' :
  LInv qs lo G -> length tags = length (gh_E G) -> Forall (fun f => lo <= f) tags ->
  replay_entries [] (combine tags (map snd (gh_E G))) = Some qs' -> qs_wf qs' ->
  LInv qs' lo (gh_reopen G tags).
Proof.
  intros (_ & Hleg & _ & F & EF & Hcov) Hlen Htags Hrep Hwf.
  unfold LInv. rewrite (gh_reopen_ALL G tags Hlen), (gh_reopen_k G tags),
    (gh_reopen_E_snd G tags Hlen), gh_reopen_log.
  split; [exact Hwf|]. split; [exact Hleg|]. split; [exact Hrep|].
  exists F. split; [exact EF|].
  intros q rf n Eq. destruct (Hcov q rf n Eq) as (Hc & Hr). split; [exact Hc|].
  eapply Forall_impl; [|exact Hr].
  intros r (j & f & e & Ej & En & _ & Hcr).
  assert (Hj : (j < length tags)%nat).
  { rewrite Hlen. apply nth_error_Some. congruence. }
  destruct (nth_error_Some_ex tags j Hj) as (f' & Ef').
  exists j, f', e. split; [exact Ej|]. split.
  - cbn [gh_reopen gh_E]. apply nth_error_combine; [exact Ef'|].
    now rewrite nth_error_map, En.
  - split; [|exact Hcr]. rewrite Forall_forall in Htags. apply Htags.
    eapply nth_error_In; exact Ef'.
Qed.

Lemma qs_wf_ext qs qs' :
  qs_wf qs -> nodup_names qs' ->
  (forall q, s_get (abs_qs qs') q = s_get (abs_qs qs) q) -> qs_wf qs'.
Proof.
  intros Hwf Hnd Heq n q Hin.
  pose proof (Heq n) as He. rewrite !abs_get, (qs_get_nodup _ _ _ Hnd Hin) in He.
  destruct (qs_get qs n) as [q2|] eqn:E2; [|discriminate].
  destruct (Hwf n q2 (qs_get_In_eq _ _ _ E2)) as (Hn & Hp).
  split; [exact Hn|]. unfold abs_q in He. injection He as _ Hx. now rewrite Hx.
Qed.

Section Final.
Variable P : params.
Hypothesis HBS_lo : 7 < BS P.
Hypothesis HBS_hi : BS P <= 65542.
Hypothesis HNB : 1 <= NB P.
Hypothesis Hcrc : forall t p, crcf P t p < 2 ^ 32.
Hypothesis HGC : L_GC P = false.      (* the current code: the GC persists before unlinking *)
Hypothesis HIO : L_IO P = false.      (* the current code: I/O errors of the replay are reported *)

Local Notation B := (BS P).
Local Notation FB := (FILE_BYTES P).
Local Notation ffp := (first_frame_pos P).
Local Notation enc_of := (enc_of P).
Local Notation encs_of := (encs_of P).
Local Notation cursor_after := (cursor_after P).
Local Notation starts := (starts P).
Local Notation H3 f := (f P HBS_lo HBS_hi Hcrc) (only parsing).
Local Notation H2 f := (f P HBS_lo HBS_hi) (only parsing).
Local Notation HW f := (f P HBS_lo HBS_hi HNB Hcrc) (only parsing).
Local Notation HN f := (f P HBS_lo HBS_hi HNB) (only parsing).
Local Notation HG f := (f P HBS_lo HBS_hi HNB Hcrc HGC) (only parsing).
Local Notation PInv := (PInv P).
Local Notation Inv := (Inv P).
Local Notation stream_bound := (stream_bound P).



Lemma winv_files w : winv P w ->
  exists n, w_files w = iota (wlo w) (S n) /\ w_file w = wlo w + N.of_nat n.
Proof.
  intros (Hok & _). pose proof Hok as [Hc Hl].
  destruct (proj1 (contiguous_iota _) Hc) as (lo & n & Hf).
  destruct (wr_ok_len P (HN HB0) HNB w Hok) as (Hn & _).
  rewrite Hf, (HN iota_last) in Hl. injection Hl as Hl.
  rewrite Hf, lenN_iota in Hn.
  exists n. assert (wlo w = lo) by lia. subst lo. split; [exact Hf|lia].
Qed.

(* the writer w0 made by `open` (TornFile.fspec) when it stands in the file of w, at a position
   pf between the end of the ghost stream and the next frame position: it satisfies the physical
   invariant for the ghost re-tagged with the files the reader attributes the entries to *)
Lemma pinvJ_reopen PRE OLD opos w G w0 tags n pf :
  PInvJ P PRE OLD opos w G -> w_files w = iota (wlo w) (S n) -> w_file w = wlo w + N.of_nat n ->
  fspec P (wlo w) n (gh_base G) (vfs w) w0 tags (skipn (gh_k G) (jpos P PRE OLD opos G)) pf ->
  w_file w0 = w_file w ->
  N.max ((wlo w - gh_base G) * FB) (lenN (jT P PRE OLD G)) <= pf ->
  pf <= ffp (N.max ((wlo w - gh_base G) * FB) (lenN (jT P PRE OLD G))) ->
  length tags = length (gh_E G) /\ Forall (fun f => wlo w <= f) tags /\
  wlo w0 = wlo w /\ PInvJ P PRE OLD opos w0 (gh_reopen G tags).
Proof.
  intros HP Hfiles Hwf_w Hspec Hfile' He1 He2.
  destruct HP as (Hw & Hwd & Hnd & Hbase & Hc1 & Hc2 & Hs & HWf & Hold & HD1 & HD2 & Htags).
  cbn zeta in *.
  destruct Hspec as (Hlen & HF2 & Hsorted & Hrange & Hfl & Hlo & Hcur & Hoff0 & Hpos & Hpend & Hfs & Hplan).
  assert (Hlen' : length tags = length (gh_E G)).
  { rewrite Hlen. symmetry. exact (Forall2_length' _ _ _ HD2). }
  pose proof Hw as (Hok & Hwf & Hoff & Hpl & Hu & Hfull & Hfresh).
  assert (Hnf : lenN (w_files w) = N.of_nat n + 1) by (rewrite Hfiles, lenN_iota; lia).
  assert (Hnf0 : lenN (w_files w0) = N.of_nat n + 1) by (rewrite Hfl, lenN_iota; lia).
  set (lo := wlo w) in *. set (base := gh_base G) in *. set (dl := lo - base) in *.
  set (T := jT P PRE OLD G) in *. set (a := lenN T) in *.
  assert (Hwpos : wpos P w = N.of_nat n * FB + w_off w).
  { unfold wpos. rewrite Hnf. f_equal. f_equal. lia. }
  rewrite Hwpos in Hc1, Hc2.
  set (e := N.max (dl * FB) a) in *.
  pose proof (H2 ffp_ge a) as Hge.
  assert (Hffe : ffp e = ffp a) by (apply (HN ffp_between); lia).
  assert (Hposeq : pf = dl * FB + (N.of_nat n * FB + w_off w0)).
  { rewrite <- Hpos, Hfile', Hwf_w. replace (lo + N.of_nat n - base) with (dl + N.of_nat n) by lia. lia. }
  assert (Hk1 : a <= dl * FB + (N.of_nat n * FB + w_off w0)) by lia.
  assert (Hk2 : dl * FB + (N.of_nat n * FB + w_off w0) <= ffp a) by lia.
  assert (Hfl' : w_files w0 = w_files w) by congruence.
  assert (Hv : vfs w0 = vfs w) by (rewrite vfs_nil; assumption).
  assert (Hok0 : wr_ok w0) by (eapply wr_ok_same; eassumption).
  assert (Hw0 : winv P w0).
  { split; [exact Hok0|]. split; [apply wf_nil; exact Hpend|]. split; [exact Hoff0|].
    split; [exact Hplan|]. split; [rewrite Hfile'; exact Hu|]. rewrite Hv, Hfl', Hfile'.
    split; assumption. }
  assert (Elo : wlo w0 = lo) by (unfold lo, wlo; now rewrite Hfl', Hfile').
  split; [exact Hlen'|]. split.
  { eapply Forall_impl; [|exact Hrange]. intros f [Hf _]. exact Hf. }
  split; [exact Elo|].
  unfold JInv.PInvJ. cbn zeta.
  rewrite (jT_ext P PRE OLD _ _ (gh_reopen_ALL G tags Hlen')),
    (jpos_ext P PRE OLD opos _ _ (gh_reopen_ALL G tags Hlen')), (gh_reopen_ALL G tags Hlen'),
    (gh_reopen_k G tags), gh_reopen_log.
  change (gh_base (gh_reopen G tags)) with base.
  change (gh_E (gh_reopen G tags)) with (combine tags (map snd (gh_E G))).
  rewrite Elo. fold dl. fold T. fold a.
  split; [exact Hw0|].
  split.
  { split; [exact Hok0|]. intros _. destruct Hwd as [_ Hdir].
    pose proof (flush_buf_dir w (wr_ok_cur_in w Hok) Hu (Hdir Hu)) as Hd.
    unfold dir_ok in *. destruct (flush_buf_tracker w) as [T1 _]. rewrite T1 in Hd.
    rewrite Hfs, Hfl'. exact Hd. }
  split.
  { unfold nd. rewrite Hfs. exact (flush_buf_nd w Hnd). }
  split; [exact Hbase|].
  assert (Hwpos0 : wpos P w0 = N.of_nat n * FB + w_off w0).
  { unfold wpos. rewrite Hnf0. f_equal. f_equal. lia. }
  rewrite Hwpos0.
  split; [exact Hk1|]. split; [exact Hk2|].
  split.
  { unfold wstream in *. rewrite Hv, Hfl'. exact Hs. }
  split; [exact HWf|]. split; [exact Hold|]. split; [exact HD1|].
  split.
  { (* the starts of E: at or after the boundary (as before), and at or after the start of the
       file the reader attributes them to *)
    assert (Hb : Forall (fun s => dl * FB <= snd s) (skipn (gh_k G) (jpos P PRE OLD opos G))).
    { clear - HD2. induction HD2 as [|x y l1 l2 [Hxy _] _ IH]; constructor; assumption. }
    assert (H1 : Forall2 (fun (fe : N * entry) s => (fst fe - base) * FB <= snd s)
                   (combine tags (map snd (gh_E G))) (skipn (gh_k G) (jpos P PRE OLD opos G))).
    { apply (Forall2_combine_l (fun f s => (f - base) * FB <= snd s)); [|exact HF2].
      now rewrite map_length. }
    pose proof (Forall2_Forall_r _ _ _ _ H1 Hb) as H12.
    eapply Forall2_impl'; [|exact H12]. cbn beta. intros fe s [Hx' Hy]. split; assumption. }
  apply tags_mono_combine.
  - now rewrite map_length.
  - exact Hsorted.
  - eapply Forall_impl; [|exact Hrange]. cbn beta. intros f [Hf1 Hf2]. fold lo in Hf1. lia.
  - rewrite Hfile'. lia.
Qed.

(* the same for the writer OpenReplay.kept_spec describes, under the restart invariant: either it
   stands strictly inside a file, at a position no file before the last reaches, or kept_spec
   says it stands in the last file *)
Lemma pinv_reopen w G w0 tags n :
  PInv w G -> w_files w = iota (wlo w) (S n) ->
  kept_spec P (vfs w) (wlo w) n (gh_base G) (gh_ser G) (gh_T P G) w0 tags ->
  length tags = length (gh_E G) /\ Forall (fun f => wlo w <= f) tags /\
  wlo w0 = wlo w /\ PInv w0 (gh_reopen G tags).
Proof.
  intros HP Hfiles Hspec.
  destruct (HW PInv_delivered w G HP) as (Edel & Eskip).
  destruct Hspec as (_ & HF2 & Hsorted & Hrange & Hfl & Hlo & Hcur & Hpos & Hrest).
  rewrite Edel, Eskip in HF2. fold (gh_a0 P G) in HF2.
  rewrite <- (proj2 (H3 jpos_nil_split G)) in HF2.
  pose proof (proj1 (H3 PInv_PInvJ w G) HP) as HJ.
  pose proof HJ as (Hw & _ & _ & Hbase & _ & Hc2 & _). cbn zeta in Hc2.
  change (jT P [] [] G) with (gh_T P G) in Hc2.
  pose proof Hw as (Hok & _).
  destruct (wr_ok_len P (HN HB0) HNB w Hok) as (Hn & _).
  assert (Hnf : lenN (w_files w) = N.of_nat n + 1) by (rewrite Hfiles, lenN_iota; lia).
  assert (Hwf_w : w_file w = wlo w + N.of_nat n) by lia.
  assert (Hwpos : wpos P w = N.of_nat n * FB + w_off w).
  { unfold wpos. rewrite Hnf. f_equal. f_equal. lia. }
  rewrite Hwpos in Hc2.
  set (dl := wlo w - gh_base G) in *. set (a := lenN (gh_T P G)) in *.
  set (e := N.max (dl * FB) a) in *.
  pose proof (H2 ffp_ge a) as Hga.
  assert (Hffe : ffp e = ffp a) by (apply (HN ffp_between); lia).
  pose proof (H2 ffp_ge e) as Hge.
  assert (Hf0 : w_file w0 = w_file w).
  { destruct Hpos as [(Hp & Hwo) | (_ & Hwf0 & _)]; [|congruence].
    destruct (N.eq_dec (w_file w0) (w_file w)) as [E|Hne]; [exact E|exfalso].
    assert ((w_file w0 - gh_base G + 1) * FB <= (dl + N.of_nat n) * FB)
      by (apply N.mul_le_mono_r; lia).
    lia. }
  destruct (pinvJ_reopen [] [] [] w G w0 tags n ((w_file w0 - gh_base G) * FB + w_off w0)
              HJ Hfiles Hwf_w) as (H1 & H2' & H3' & HJ0).
  - split; [exact (Forall2_length' _ _ _ HF2)|].
    repeat (split; [assumption|]). split; [|split; [reflexivity|exact Hrest]].
    destruct Hpos as [(_ & Hwo) | (_ & _ & _ & Hwo)]; lia.
  - exact Hf0.
  - destruct Hpos as [(Hp & _) | (Hp & _)]; rewrite Hp; [exact Hge|reflexivity].
  - destruct Hpos as [(Hp & _) | (Hp & _)]; rewrite Hp; [reflexivity|exact Hge].
  - repeat (split; [assumption|]). exact (proj2 (H3 PInv_PInvJ w0 _) HJ0).
Qed.


(* position entries for distinct empty queues of the abstract state m *)
Definition pos_extra (m : smap) (extra : list entry) : Prop :=
  NoDup (map entry_queue extra) /\
  Forall (fun e => exists q p, e = EPosition q p /\ s_get m q = Some ([], p)) extra.

Lemma pos_extra_nil m : pos_extra m [].
Proof. split; constructor. Qed.

Lemma pos_extra_ext m1 m2 x :
  (forall q, s_get m2 q = s_get m1 q) -> pos_extra m1 x -> pos_extra m2 x.
Proof.
  intros He [H1 H2]. split; [exact H1|]. eapply Forall_impl; [|exact H2].
  intros e (q & p & E1 & E2). exists q, p. split; [exact E1|]. now rewrite He.
Qed.

Lemma NoDup_name_remove h : forall l, NoDup l -> NoDup (name_remove h l) /\ ~ In h (name_remove h l).
Proof.
  induction l as [|x l IH]; intros Hnd; cbn [name_remove]; [split; [constructor|intros []]|].
  inversion Hnd as [|? ? Hx Hl]; subst.
  destruct (bytes_eqb x h) eqn:E.
  - apply bytes_eqb_eq in E. subst x. split; assumption.
  - apply bytes_eqb_neq in E. destruct (IH Hl) as [H1 H2]. split.
    + constructor; [|exact H1]. intros Hin. apply Hx. eapply In_name_remove; exact Hin.
    + intros [Hin|Hin]; [congruence|contradiction].
Qed.

Lemma NoDup_pick_order hint : forall rem, NoDup rem -> NoDup (pick_order hint rem).
Proof.
  induction hint as [|h r IH]; intros rem Hnd; cbn [pick_order]; [exact Hnd|].
  destruct (name_mem h rem); [|now apply IH].
  destruct (NoDup_name_remove h rem Hnd) as [H1 H2].
  constructor; [|now apply IH]. intros Hin. apply H2. eapply In_pick_order; exact Hin.
Qed.

Lemma NoDup_empty_names qs : nodup_names qs -> NoDup (empty_names qs).
Proof.
  unfold nodup_names, empty_names. induction qs as [|[n q] qs IH]; cbn [map fst filter]; intros Hnd.
  - constructor.
  - inversion Hnd as [|? ? Hn Hl]; subst. destruct (mq_is_empty q); cbn [map fst]; [|now apply IH].
    constructor; [|now apply IH]. intros Hin. apply Hn.
    apply in_map_iff in Hin. destruct Hin as (x & Ex & Hx). apply filter_In in Hx.
    apply in_map_iff. exists x. split; [exact Ex|apply Hx].
Qed.

(* the position entries record_positions logs *)
Lemma rp_log_extra names : forall st,
  NoDup names -> names_empty (s_qs st) names ->
  NoDup (map entry_queue (map snd (rp_log P st names))) /\
  Forall (fun e => In (entry_queue e) names /\
                   exists q p, e = EPosition q p /\ s_get (abs_qs (s_qs st)) q = Some ([], p))
         (map snd (rp_log P st names)).
Proof.
  induction names as [|n r IH]; intros st Hnd Hne; cbn [rp_log]; [split; constructor|].
  inversion Hnd as [|? ? Hn Hr]; subst.
  assert (Hne' : names_empty (s_qs st) r) by (intros n' q' Hin; apply Hne; now right).
  destruct (qs_get (s_qs st) n) as [q|] eqn:Eq.
  - cbn [map snd entry_queue].
    assert (Hrest : forall X : glog,
              NoDup (map entry_queue (map snd X)) /\
              Forall (fun e => In (entry_queue e) r /\
                   exists q p, e = EPosition q p /\ s_get (abs_qs (s_qs st)) q = Some ([], p))
                (map snd X) ->
              NoDup (n :: map entry_queue (map snd X)) /\
              Forall (fun e => In (entry_queue e) (n :: r) /\
                   exists q p, e = EPosition q p /\ s_get (abs_qs (s_qs st)) q = Some ([], p))
                (EPosition n (next_position q) :: map snd X)).
    { intros X [HX1 HX2]. split.
      - constructor; [|exact HX1]. intros Hin. apply Hn.
        apply in_map_iff in Hin. destruct Hin as (e & Ee & He).
        rewrite Forall_forall in HX2. destruct (HX2 e He) as [Hi _]. now rewrite Ee in Hi.
      - constructor.
        + cbn [entry_queue]. split; [now left|]. exists n, (next_position q). split; [reflexivity|].
          rewrite abs_get, Eq. unfold abs_q.
          pose proof (Hne n q (or_introl eq_refl) Eq) as Hem. unfold mq_is_empty in Hem.
          apply isnil_true in Hem. rewrite Hem. reflexivity.
        + eapply Forall_impl; [|exact HX2]. intros e [Hi He]. split; [now right|exact He]. }
    destruct (write_entry P st (EPosition n (next_position q))) as [st1 [k|e]] eqn:Ew.
    + apply Hrest. pose proof (write_entry_qs P _ _ _ _ Ew) as Eqs. rewrite <- Eqs.
      apply IH; [exact Hr|]. now rewrite Eqs.
    + apply (Hrest []). split; constructor.
  - destruct (IH st Hr Hne') as [H1 H2]. split; [exact H1|].
    eapply Forall_impl; [|exact H2]. intros e [Hi He]. split; [now right|exact He].
Qed.

Lemma gc_log_pos_extra st hint :
  nodup_names (s_qs st) -> pos_extra (abs_qs (s_qs st)) (map snd (gc_log P st hint)).
Proof.
  intros Hnd. unfold gc_log. destruct (has_deletable st); [|apply pos_extra_nil].
  destruct (rp_log_extra (pick_order hint (empty_names (s_qs st))) st) as [H1 H2].
  - apply NoDup_pick_order. now apply NoDup_empty_names.
  - now apply pick_order_names_empty.
  - split; [exact H1|]. eapply Forall_impl; [|exact H2]. intros e [_ He]. exact He.
Qed.

(* what is left of `open` once its writer w0 satisfies the physical invariant for the re-tagged
   ghost: the replay of the re-tagged entries gives the same abstract queues, and the
   recovery-time GC preserves the invariant and writes position entries only *)
Lemma invJ_reopen_finish PRE OLD opos st G w0 tags pol hint :
  pre_ok PRE OLD opos -> InvJ P PRE OLD opos st G ->
  (forall extra, pos_extra (abs_qs (s_qs st)) extra -> stream_boundJ P PRE OLD G extra) ->
  length tags = length (gh_E G) -> Forall (fun f => wlo (s_wr st) <= f) tags ->
  wlo w0 = wlo (s_wr st) -> PInvJ P PRE OLD opos w0 (gh_reopen G tags) ->
  exists qs', replay_entries [] (combine tags (map snd (gh_E G))) = Some qs' /\
  exists st' G',
    open_finish P w0 qs' pol hint = OpenOk st' /\ InvJ P PRE OLD opos st' G' /\
    (forall q, s_get (abs_qs (s_qs st')) q = s_get (abs_qs (s_qs st)) q) /\
    gh_base G' = gh_base G /\ s_pol st' = pol /\ w_file w0 <= w_file (s_wr st') /\
    (exists extra, gh_ALL G' = gh_ALL G ++ extra /\ pos_extra (abs_qs (s_qs st)) extra).
Proof.
  intros Hpre HI Hb Hlen Hlo Elo HP0. pose proof HI as (_ & HL).
  destruct (invJ_restart_equal P PRE OLD opos st G HI tags Hlen) as (qs' & Hrep & Hqi & Hnd' & Heq).
  exists qs'. split; [exact Hrep|].
  set (st0 := mkSt w0 qs' pol).
  assert (HI0 : InvJ P PRE OLD opos st0 (gh_reopen G tags)).
  { split; cbn [st0 s_wr s_qs]; [exact HP0|]. rewrite Elo.
    apply (linv_reopen (s_qs st)); try assumption.
    exact (qs_wf_ext _ _ (LInv_qs_wf _ _ _ HL) Hnd' Heq). }
  assert (Hex0 : pos_extra (abs_qs (s_qs st)) (map snd (gc_log P st0 hint))).
  { apply (pos_extra_ext (abs_qs qs')); [intros q; now rewrite Heq|].
    exact (gc_log_pos_extra st0 hint Hnd'). }
  assert (Hb0 : stream_boundJ P PRE OLD (gh_reopen G tags) (map snd (gc_log P st0 hint))).
  { unfold JInv.stream_boundJ. rewrite (jNEW_ext OLD _ _ (gh_reopen_ALL G tags Hlen)).
    change (gh_base (gh_reopen G tags)) with (gh_base G). now apply Hb. }
  unfold open_finish. fold st0.
  destruct (run_gc_if_necessary P st0 hint) as [st1 r] eqn:Egc.
  destruct (HG invJ_gc_total PRE OLD opos Hpre st0 _ hint st1 r HI0 Hb0 Egc)
    as (k & G' & -> & HI' & Eqs & Epol & Eb & Ed & Elog).
  assert (Hok0 : wr_ok w0) by (destruct HP0 as ((H & _) & _); exact H).
  destruct (run_gc_step P st0 hint st1 (Ok k) Egc Hok0) as (_ & Hmono & _).
  exists st1, G'. split; [reflexivity|]. split; [exact HI'|].
  split; [intros q; rewrite Eqs; exact (Heq q)|]. split; [exact Eb|]. split; [exact Epol|].
  split; [exact Hmono|].
  exists (map snd (gc_log P st0 hint)). split; [|exact Hex0].
  unfold gh_ALL at 1. rewrite Ed, Elog, map_app, app_assoc.
  fold (gh_ALL (gh_reopen G tags)). now rewrite (gh_reopen_ALL G tags Hlen).
Qed.


(* the bound a restart needs: whatever position entries (for distinct empty queues) the
   recovery-time GC writes, the stream stays below 2^64 files *)
Definition reopen_bound (st : state) (G : ghost) : Prop :=
  forall extra, pos_extra (abs_qs (s_qs st)) extra -> stream_bound G extra.

Theorem inv_reopen st G :
  Inv st G -> reopen_bound st G ->
  forall pol hint, exists st' G',
    open P (c_fs (drop_log st)) None pol hint = OpenOk st' /\ Inv st' G' /\
    (forall q, s_get (abs_qs (s_qs st')) q = s_get (abs_qs (s_qs st)) q) /\
    gh_base G' = gh_base G /\ s_pol st' = pol /\
    (* the ghost stream continues: what was ever written, plus what the recovery GC wrote *)
    (exists extra, gh_ALL G' = gh_ALL G ++ extra /\ pos_extra (abs_qs (s_qs st)) extra).
Proof.
  intros HI Hb pol hint. pose proof HI as (HP & HL).
  change (c_fs (drop_log st)) with (vfs (s_wr st)).
  set (w := s_wr st) in *.
  pose proof HP as (Hw & Hwd & Hnd & Hbase & Hc1 & Hc2 & Hs & HWf & _). cbn zeta in *.
  destruct (winv_files w Hw) as (n & Hfiles & Hfile).
  pose proof Hw as (Hok & _ & Hoff & _ & _ & Hfull & _).
  assert (Hnf : lenN (w_files w) = N.of_nat n + 1) by (rewrite Hfiles, lenN_iota; lia).
  assert (Hwpos : wpos P w = N.of_nat n * FB + w_off w).
  { unfold wpos. rewrite Hnf. f_equal. f_equal. lia. }
  rewrite Hwpos in Hc1, Hc2.
  set (lo := wlo w) in *. set (base := gh_base G) in *. set (dl := lo - base) in *.
  set (T := gh_T P G) in *.
  set (z := (dl + lenN (w_files w)) * FB - lenN T) in *.
  assert (Hfull' : forall f, In f (iota lo (S n)) ->
            exists b, fs_get (vfs w) (filename f) = Some (FFile b) /\ lenN b = FB).
  { rewrite <- Hfiles. exact Hfull. }
  assert (Hlist : list_wal_numbers (vfs w) = iota lo (S n)).
  { rewrite <- Hfiles. exact (listing_after P w Hw Hwd Hnd). }
  assert (Henc : encs_rel P 0 (map entry_ser (gh_ALL G)) T).
  { unfold T, gh_T, gh_ser. apply (H3 encs_of_rel). }
  assert (HSt : stream_of (vfs w) (iota lo (S n)) = dropN (dl * FB) (T ++ zerosN z)).
  { rewrite <- Hfiles. exact Hs. }
  assert (HlenS : lenN (T ++ zerosN z) = (lo + N.of_nat n - base + 1) * FB).
  { rewrite lenN_app, lenN_zerosN. unfold z. rewrite Hnf.
    replace (lo + N.of_nat n - base + 1) with (dl + (N.of_nat n + 1)) by lia.
    assert (lenN T <= (dl + (N.of_nat n + 1)) * FB) by lia. lia. }
  destruct (open_replays_delivered P HBS_lo HBS_hi HNB Hcrc (vfs w) lo n Hfull' base (gh_ALL G) T z
              pol hint HIO Hbase Hlist HWf Henc HSt HlenS)
    as (w0 & tags & E_pre & E_suf & HE & _ & Hsuf & Hspec & Hres).
  change (map entry_ser (gh_ALL G)) with (gh_ser G) in *.
  destruct (HW PInv_delivered w G HP) as (Edel & _). fold lo base in Edel.
  rewrite Edel in Hsuf.
  assert (HEs : E_suf = map snd (gh_E G)).
  { rewrite gh_ALL_split in HE. symmetry in HE.
    apply app_eq_len in HE; [apply HE|].
    apply (f_equal (@length bytes)) in Hsuf. unfold gh_ser_E in Hsuf.
    repeat rewrite map_length in Hsuf. repeat rewrite map_length. lia. }
  subst E_suf.
  destruct (pinv_reopen w G w0 tags n HP Hfiles Hspec) as (Hlen & Hlo & Elo & HP0).
  destruct (invJ_reopen_finish [] [] [] st G w0 tags pol hint pre_ok_nil (H3 Inv_J st G HI) Hb Hlen Hlo Elo
              (proj1 (H3 PInv_PInvJ w0 _) HP0))
    as (qs' & Hrep & st' & G' & Eo & HI' & Heq & Eb & Epol & _ & Hx).
  rewrite Hrep in Hres. rewrite Hres.
  exists st', G'. split; [exact Eo|]. split; [exact (H3 J_Inv st' G' HI')|]. auto.
Qed.


(* the absolute byte position of the writer in the WAL numbered from file 0 *)
Definition wabs (w : rwriter) : N := w_file w * FB + w_off w.

(* writing the entries `extra` from the writer's position stays below 2^64 files *)
Definition phys_bound (w : rwriter) (extra : list entry) : Prop :=
  cursor_after (wabs w) (map entry_ser extra) <= FB * (U64_MAX + 1).

Lemma cursor_after_shift d es : d mod B = 0 -> forall a,
  cursor_after (d + a) es = d + cursor_after a es.
Proof.
  intros Hd. induction es as [|p ps IH]; intros a.
  - now rewrite !(H2 cursor_after_nil).
  - rewrite !(H3 cursor_after_cons), (HW enc_of_shift d a p Hd), <- N.add_assoc. apply IH.
Qed.

Lemma cursor_after_between a c es : a <= c -> c <= ffp a -> cursor_after a es <= cursor_after c es.
Proof.
  intros H1 H2'. destruct es as [|p ps].
  - now rewrite !(H2 cursor_after_nil).
  - rewrite !(H3 cursor_after_cons), (HW enc_of_between_len a c p H1 H2'). lia.
Qed.

Lemma phys_stream_boundJ PRE OLD opos w G extra :
  PInvJ P PRE OLD opos w G -> phys_bound w extra -> stream_boundJ P PRE OLD G extra.
Proof.
  intros (Hw & _ & _ & Hbase & Hc1 & Hc2 & _) Hb. cbn zeta in *.
  unfold phys_bound in Hb. unfold stream_boundJ.
  rewrite map_app, (H3 cursor_after_app). fold (jser OLD G). rewrite <- (jT_len P PRE OLD G).
  pose proof Hw as (Hok & _). destruct (wr_ok_len P (HN HB0) HNB w Hok) as (Hn & Hn1).
  set (c := (wlo w - gh_base G) * FB + wpos P w) in *.
  assert (Eabs : wabs w = gh_base G * FB + c).
  { unfold wabs, c, wpos.
    replace (w_file w) with (gh_base G + ((wlo w - gh_base G) + (lenN (w_files w) - 1))) by lia.
    lia. }
  rewrite Eabs, cursor_after_shift in Hb by apply (HN mulFB_mod).
  pose proof (cursor_after_between (lenN (jT P PRE OLD G)) c (map entry_ser extra) Hc1 Hc2). lia.
Qed.

Lemma phys_stream_bound w G extra : PInv w G -> phys_bound w extra -> stream_bound G extra.
Proof.
  intros HP. exact (phys_stream_boundJ [] [] [] w G extra (proj1 (H3 PInv_PInvJ w G) HP)).
Qed.

(* the bound a restart needs, in terms of the state *)
Definition restart_bound (st : state) : Prop :=
  forall extra, pos_extra (abs_qs (s_qs st)) extra -> phys_bound (s_wr st) extra.

Lemma restart_reopen_bound st G : Inv st G -> restart_bound st -> reopen_bound st G.
Proof. intros (HP & _) Hb extra Hx. exact (phys_stream_bound _ _ _ HP (Hb extra Hx)). Qed.


Lemma s_step_ext m1 m2 o :
  (forall q, s_get m1 q = s_get m2 q) ->
  snd (s_step m1 o) = snd (s_step m2 o) /\
  forall q, s_get (fst (s_step m1 o)) q = s_get (fst (s_step m2 o)) q.
Proof.
  intros He. destruct (sop_queue o) as [q0|] eqn:Eo.
  - destruct (s_step_local m1 m2 o q0 (He q0) Eo) as [Hs Hg]. split; [exact Hs|].
    intros q. destruct (bytes_eqb q0 q) eqn:Eq.
    + apply bytes_eqb_eq in Eq. subst q. exact Hg.
    + apply bytes_eqb_neq in Eq.
      rewrite !s_step_other by (rewrite Eo; congruence). apply He.
  - destruct o; try discriminate. cbn [s_step fst snd]. split; [reflexivity|exact He].
Qed.

Lemma no_io_logical out : no_io out -> exists so, out_logical out = Some so.
Proof.
  intros H. destruct out; cbn [out_logical]; try (eexists; reflexivity).
  exfalso. eapply H. reflexivity.
Qed.

Lemma step_no_io st G o tick :
  Inv st G -> op_wf_strict (s_qs st) o ->
  stream_bound G (map snd (step_log P st o)) ->
  no_io (snd (step P st o tick)).
Proof.
  intros HI Hop Hb. destruct (step P st o tick) as [st' out] eqn:Hstep.
  exact (proj1 (HG inv_step_total st G o tick st' out HI Hop Hb Hstep)).
Qed.


Inductive hop :=
| HCall (o : op) (tick : bool)
| HRestart (pol : policy) (hint : list bytes).

(* a clean restart: drop the log (flushing the buffer), open the directory it leaves *)
Definition restart (st : state) (pol : policy) (hint : list bytes) : open_result :=
  open P (c_fs (drop_log st)) None pol hint.

Fixpoint hrun (st : state) (h : list hop) : option (state * list outcome) :=
  match h with
  | [] => Some (st, [])
  | HCall o tick :: r =>
      let '(st1, out) := step P st o tick in
      match hrun st1 r with
      | Some (st2, outs) => Some (st2, out :: outs)
      | None => None
      end
  | HRestart pol hint :: r =>
      match restart st pol hint with
      | OpenOk st' => hrun st' r
      | _ => None
      end
  end.

Fixpoint hcalls (h : list hop) : list op :=
  match h with
  | [] => []
  | HCall o _ :: r => o :: hcalls r
  | HRestart _ _ :: r => hcalls r
  end.

(* the hypotheses on a history, along its run (like GhostLog.hist_wf): every call has
   well-formed arguments and keeps the stream below 2^64 files; every restart happens in a
   state where the recovery GC has room for its position entries.  (No hypothesis on I/O errors:
   the model injects faults only through an explicit fault plan, open P _ None starts without
   one, and step_no_io shows that no call reports an error then.) *)
Fixpoint hist_ok (st : state) (h : list hop) : Prop :=
  match h with
  | [] => True
  | HCall o tick :: r =>
      op_wf_strict (s_qs st) o /\
      phys_bound (s_wr st) (map snd (step_log P st o)) /\
      hist_ok (fst (step P st o tick)) r
  | HRestart pol hint :: r =>
      restart_bound st /\
      match restart st pol hint with
      | OpenOk st' => hist_ok st' r
      | _ => True
      end
  end.

(* a history preserves every property I of the state that the calls within the bound (which then
   report no I/O error) and the clean restarts (which then keep the abstract state) preserve; its
   calls refine the specification, its restarts are invisible *)
Lemma hrun_sim (I : state -> Prop) :
  (forall st, I st -> qs_inv (s_qs st)) ->
  (forall st o tick st1 out, I st -> op_wf_strict (s_qs st) o ->
     phys_bound (s_wr st) (map snd (step_log P st o)) -> step P st o tick = (st1, out) ->
     no_io out /\ I st1) ->
  (forall st pol hint, I st -> restart_bound st ->
     exists st1, restart st pol hint = OpenOk st1 /\ I st1 /\
       forall q, s_get (abs_qs (s_qs st1)) q = s_get (abs_qs (s_qs st)) q) ->
  forall h st, I st -> hist_ok st h ->
  exists st' outs,
    hrun st h = Some (st', outs) /\ I st' /\ Forall no_io outs /\
    forall m, (forall q, s_get m q = s_get (abs_qs (s_qs st)) q) ->
      exists m' souts,
        s_run m (map sop_of (hcalls h)) = (m', souts) /\
        (forall q, s_get m' q = s_get (abs_qs (s_qs st')) q) /\
        map out_logical outs = map Some souts.
Proof.
  intros Hqs Hcall Hrest.
  induction h as [|[o tick|pol hint] h IH]; intros st HI Hok.
  - exists st, []. split; [reflexivity|]. split; [exact HI|]. split; [constructor|].
    intros m Hm. exists m, []. cbn [hcalls map s_run]. auto.
  - cbn [hist_ok] in Hok. destruct Hok as (Hop & Hb & Hok).
    cbn [hrun hcalls map].
    pose proof (step_refines P st o tick (Hqs st HI)) as Href.
    destruct (step P st o tick) as [st1 out] eqn:Es. cbn [fst snd] in *.
    destruct Href as (_ & Href).
    destruct (Hcall st o tick st1 out HI Hop Hb Es) as (Hno & HI1).
    destruct (IH st1 HI1 Hok) as (st2 & outs & Er & HI2 & Hno2 & Hspec).
    exists st2, (out :: outs). rewrite Er.
    split; [reflexivity|]. split; [exact HI2|]. split; [constructor; assumption|].
    intros m Hm. destruct (no_io_logical out Hno) as (so & Eso).
    specialize (Href so Eso).
    destruct (s_step_ext m (abs_qs (s_qs st)) (sop_of o) Hm) as (Hs1 & Hs2).
    rewrite Href in Hs1, Hs2. cbn [fst snd] in Hs1, Hs2.
    destruct (s_step m (sop_of o)) as [m1 so1] eqn:Em. cbn [fst snd] in Hs1, Hs2. subst so1.
    destruct (Hspec m1 Hs2) as (m' & souts & Erun & Hm' & Hl).
    exists m', (so :: souts). cbn [s_run]. rewrite Em, Erun. split; [reflexivity|]. split; [exact Hm'|].
    cbn [map]. now rewrite Eso, Hl.
  - cbn [hist_ok] in Hok. destruct Hok as (Hb & Hok).
    cbn [hrun hcalls].
    destruct (Hrest st pol hint HI Hb) as (st1 & Eo & HI1 & Heq).
    rewrite Eo in *.
    destruct (IH st1 HI1 Hok) as (st2 & outs & Er & HI2 & Hno2 & Hspec).
    exists st2, outs. split; [exact Er|]. split; [exact HI2|]. split; [exact Hno2|].
    intros m Hm. apply Hspec. intros q. now rewrite Hm, Heq.
Qed.

Theorem hrun_inv h : forall st G,
  Inv st G -> hist_ok st h ->
  exists st' outs G',
    hrun st h = Some (st', outs) /\ Inv st' G' /\ gh_base G' = gh_base G /\
    Forall no_io outs /\
    forall m, (forall q, s_get m q = s_get (abs_qs (s_qs st)) q) ->
      exists m' souts,
        s_run m (map sop_of (hcalls h)) = (m', souts) /\
        (forall q, s_get m' q = s_get (abs_qs (s_qs st')) q) /\
        map out_logical outs = map Some souts.
Proof.
  intros st G HI Hok.
  destruct (hrun_sim (fun s => exists G', Inv s G' /\ gh_base G' = gh_base G)) with (h := h) (st := st)
    as (st' & outs & Er & (G' & HI' & Eb) & Hno & Hspec).
  - intros s (G1 & H1 & _). exact (Inv_qs_inv P s G1 H1).
  - intros s o tick s1 out (G1 & H1 & E1) Hop Hb Es.
    destruct (HG inv_step_total s G1 o tick s1 out H1 Hop (phys_stream_bound _ _ _ (proj1 H1) Hb) Es)
      as (Hno & G2 & H2' & E2 & _).
    split; [exact Hno|]. exists G2. split; [exact H2'|congruence].
  - intros s pol hint (G1 & H1 & E1) Hb.
    destruct (inv_reopen s G1 H1 (restart_reopen_bound s G1 H1 Hb) pol hint)
      as (s1 & G2 & Eo & H2' & Heq & E2 & _).
    exists s1. split; [exact Eo|]. split; [|exact Heq]. exists G2. split; [exact H2'|congruence].
  - exists G. split; [exact HI|reflexivity].
  - exact Hok.
  - exists st', outs, G'. auto.
Qed.

(* in particular: the restarts are the identity on the abstract state; the final abstract state
   and the logical outcomes are those of the specification run over the calls only *)
Corollary hrun_spec h st G :
  Inv st G -> hist_ok st h ->
  exists st' outs m' souts,
    hrun st h = Some (st', outs) /\
    s_run (abs_qs (s_qs st)) (map sop_of (hcalls h)) = (m', souts) /\
    (forall q, s_get m' q = s_get (abs_qs (s_qs st')) q) /\
    map out_logical outs = map Some souts.
Proof.
  intros HI Hok. destruct (hrun_inv h st G HI Hok) as (st' & outs & G' & Er & _ & _ & _ & Hspec).
  destruct (Hspec (abs_qs (s_qs st)) (fun q => eq_refl)) as (m' & souts & Erun & Hm & Hl).
  exists st', outs, m', souts. auto.
Qed.


(* the read API only sees the abstract content *)
Lemma reads_ext st1 st2 :
  qs_inv (s_qs st1) -> qs_inv (s_qs st2) ->
  (forall q, s_get (abs_qs (s_qs st1)) q = s_get (abs_qs (s_qs st2)) q) ->
  (forall q lo hi, log_range st1 q lo hi = log_range st2 q lo hi) /\
  (forall q, log_last_position st1 q = log_last_position st2 q) /\
  (forall q, log_last_record st1 q = log_last_record st2 q).
Proof.
  intros H1 H2' He. split; [|split].
  - intros q lo hi. rewrite !log_range_refines by assumption. unfold s_range. now rewrite He.
  - intros q. rewrite !log_last_position_refines. unfold s_last_position. now rewrite He.
  - intros q. rewrite !log_last_record_refines by assumption. unfold s_last_record. now rewrite He.
Qed.

(* Every history of calls and clean restarts from a fresh directory (hist_ok: well-formed
   arguments, stream below 2^64 files) ends in a state st such that one more clean restart, if
   its recovery GC has room for its position entries (restart_bound st), reproduces st exactly, as far as the API can tell: the same queues, the same retained records
   (same positions, same payload bytes, same order), the same next positions. *)
Theorem C01_restart_identity pol0 st0 h st outs :
  open P [] None pol0 [] = OpenOk st0 ->
  hrun st0 h = Some (st, outs) ->
  hist_ok st0 h ->
  restart_bound st ->
  forall pol hint, exists st',
    restart st pol hint = OpenOk st' /\
    (forall q, s_get (abs_qs (s_qs st')) q = s_get (abs_qs (s_qs st)) q) /\
    (forall q lo hi, log_range st' q lo hi = log_range st q lo hi) /\
    (forall q, log_last_position st' q = log_last_position st q) /\
    (forall q, log_last_record st' q = log_last_record st q).
Proof.
  intros Hopen Hrun Hok Hb pol hint.
  pose proof (inv_fresh P HBS_lo HBS_hi HNB pol0 st0 Hopen) as HI0.
  destruct (hrun_inv h st0 gh_fresh HI0 Hok) as (st1 & outs1 & G & Er & HI & _).
  rewrite Hrun in Er. injection Er as <- <-.
  destruct (inv_reopen st G HI (restart_reopen_bound st G HI Hb) pol hint)
    as (st' & G' & Eo & HI' & Heq & _).
  exists st'. split; [exact Eo|]. split; [exact Heq|].
  exact (reads_ext st' st (Inv_qs_inv P st' G' HI') (Inv_qs_inv P st G HI) Heq).
Qed.

(* ... and that state is the one the sequential specification computes from the CALLS of the
   history alone: the restarts in between are invisible *)
Theorem C01_history_spec pol0 st0 h :
  open P [] None pol0 [] = OpenOk st0 ->
  hist_ok st0 h ->
  exists st outs m souts,
    hrun st0 h = Some (st, outs) /\
    s_run [] (map sop_of (hcalls h)) = (m, souts) /\
    (forall q, s_get m q = s_get (abs_qs (s_qs st)) q) /\
    map out_logical outs = map Some souts.
Proof.
  intros Hopen Hok.
  pose proof (inv_fresh P HBS_lo HBS_hi HNB pol0 st0 Hopen) as HI0.
  destruct (hrun_inv h st0 gh_fresh HI0 Hok) as (st & outs & G & Er & _ & _ & _ & Hspec).
  destruct (open_fresh P HBS_lo HBS_hi HNB pol0) as (c & _ & Eo). rewrite Eo in Hopen.
  injection Hopen as <-. cbn [s_qs abs_qs map] in Hspec.
  destruct (Hspec [] (fun q => eq_refl)) as (m & souts & Erun & Hm & Hl).
  exists st, outs, m, souts. auto.
Qed.


Lemma hist_ok_call st o t r s1 o1 :
  step P st o t = (s1, o1) ->
  op_wf_strict (s_qs st) o -> phys_bound (s_wr st) (map snd (step_log P st o)) ->
  hist_ok s1 r -> hist_ok st (HCall o t :: r).
Proof. intros E H1 H2' H4. cbn [hist_ok]. rewrite E. cbn [fst snd]. auto. Qed.

Lemma hist_ok_restart st pol hint r s1 :
  restart st pol hint = OpenOk s1 -> restart_bound st -> hist_ok s1 r ->
  hist_ok st (HRestart pol hint :: r).
Proof. intros E H1 H2'. cbn [hist_ok]. rewrite E. auto. Qed.

(* the empty queues of an abstract state, with their next positions *)
Definition s_empties (m : smap) : list (bytes * N) :=
  flat_map (fun x => if isnil (fst (snd x)) then [(fst x, snd (snd x))] else []) m.

Lemma s_get_empties m q p : s_get m q = Some ([], p) -> In (q, p) (s_empties m).
Proof.
  induction m as [|[n [recs nx]] m IH]; cbn [s_get]; [discriminate|].
  unfold s_empties. cbn [flat_map fst snd]. fold (s_empties m).
  destruct (bytes_eqb n q) eqn:E.
  - apply bytes_eqb_eq in E. subst n. intros H. injection H as -> ->. cbn [isnil]. now left.
  - intros H. apply in_or_app. right. now apply IH.
Qed.

(* at most one empty queue: the recovery GC writes at most one position entry *)
Lemma restart_bound_le1 st q0 p0 :
  (forall x, In x (s_empties (abs_qs (s_qs st))) -> x = (q0, p0)) ->
  phys_bound (s_wr st) [] -> phys_bound (s_wr st) [EPosition q0 p0] ->
  restart_bound st.
Proof.
  intros Hone Hb0 Hb1 extra [Hnd Hall].
  assert (Hel : forall e, In e extra -> e = EPosition q0 p0).
  { intros e He. rewrite Forall_forall in Hall. destruct (Hall e He) as (q & p & -> & Hg).
    apply s_get_empties in Hg. apply Hone in Hg. now injection Hg as -> ->. }
  destruct extra as [|e1 [|e2 r]]; [exact Hb0| |exfalso].
  - rewrite (Hel e1 (or_introl eq_refl)). exact Hb1.
  - rewrite (Hel e1 (or_introl eq_refl)), (Hel e2 (or_intror (or_introl eq_refl))) in Hnd.
    cbn [map entry_queue] in Hnd. inversion Hnd as [|? ? Hn _]. apply Hn. now left.
Qed.
End Final.

Print Assumptions inv_reopen.
Print Assumptions hrun_inv.
Print Assumptions hrun_spec.
Print Assumptions step_no_io.
Print Assumptions phys_stream_boundJ.
Print Assumptions C01_restart_identity.
Print Assumptions C01_history_spec.

(* BS = 32, two blocks per file (files of 64 bytes).  Two queues; the appends roll over to
   files 1, 2, 3; the first restart finds the writer 6 bytes before a block end (the reader
   skips them: FileStream.norm_off); the truncates delete files 0-1, then 2-3 (each GC pass first
   re-records the position of the empty queue b); after a restart the association list of the
   queues is ordered differently (b before a), which is why the theorem speaks of s_get. *)
Module Example.
Import ListNotations.
Definition Px : params := mkParams 32 2 (fun _ _ => 5) 0 false false false.
Definition qa : bytes := ["a"%byte].
Definition qb : bytes := ["b"%byte].
Definition pay (c : byte) : bytes := [c; c; c; c; c; c; c; c; c; c].

Definition h_ex : list hop :=
  [HCall (OCreate qa) false;
   HCall (OAppend qa None [pay "x"%byte; pay "y"%byte]) false;
   HCall (OAppend qa None [pay "z"%byte]) true;
   HCall (OCreate qb) false;
   HCall (OAppend qa (Some 5) [pay "u"%byte]) false;
   HRestart (PDelay true) [];
   HCall (OTruncate qa 2 [qb]) false;
   HCall (OAppend qa None [pay "v"%byte]) false;
   HRestart PNothing [qb];
   HCall (OTruncate qa 5 []) true;
   HRestart PNothing [qb];
   HCall (OAppend qb None [pay "w"%byte]) true].

Lemma Px_BS_lo : 7 < BS Px. Proof. reflexivity. Qed.
Lemma Px_BS_hi : BS Px <= 65542. Proof. intros H; discriminate H. Qed.
Lemma Px_NB : 1 <= NB Px. Proof. intros H; discriminate H. Qed.
Lemma Px_crc : forall t p, crcf Px t p < 2 ^ 32. Proof. intros t p. reflexivity. Qed.

Definition st_dummy : state := mkSt (mkWr (ctx_init [] None) [] 0 0 []) [] PNothing.
Definition st0 : state :=
  Eval vm_compute in match open Px [] None PNothing [] with OpenOk s => s | _ => st_dummy end.
Lemma open_st0 : open Px [] None PNothing [] = OpenOk st0.
Proof. vm_compute. reflexivity. Qed.

Definition st_ex : state :=
  Eval vm_compute in match hrun Px st0 h_ex with Some (s, _) => s | None => st_dummy end.
Definition outs_ex : list outcome :=
  Eval vm_compute in match hrun Px st0 h_ex with Some (_, o) => o | None => [] end.
Lemma hrun_ex : hrun Px st0 h_ex = Some (st_ex, outs_ex).
Proof. vm_compute. reflexivity. Qed.

(* what happened on the way: the files and the writer position after each prefix of the history *)
Example trace_ex :
  map (fun k => match hrun Px st0 (firstn k h_ex) with
                | Some (s, _) => Some (w_files (s_wr s), w_off (s_wr s), map fst (s_qs s))
                | None => None end) [5; 6; 7; 9; 10; 11; 12]%nat =
  [Some ([0; 1; 2; 3], 26, [qa; qb]);      (* three roll-overs *)
   Some ([0; 1; 2; 3], 32, [qa; qb]);      (* restart: the offset is normalised *)
   Some ([2; 3; 4], 13, [qa; qb]);         (* truncate: GC deletes files 0 and 1 *)
   Some ([2; 3; 4], 61, [qb; qa]);         (* restart: same content, another order *)
   Some ([4; 5], 45, [qb; qa]);            (* truncate: GC deletes files 2 and 3 *)
   Some ([4; 5], 45, [qa; qb]);            (* restart *)
   Some ([4; 5; 6], 29, [qa; qb])].
Proof. vm_compute. reflexivity. Qed.

Ltac wf_tac :=
  cbn [op_wf_strict];
  repeat match goal with
         | |- _ /\ _ => split
         | |- Forall _ _ => repeat constructor
         | |- name_ok _ => split; vm_compute; reflexivity
         | |- forall m, qs_get _ _ = Some m -> _ =>
             let m := fresh "m" in let H := fresh "H" in
             intros m H; vm_compute in H; injection H as <-; vm_compute; reflexivity
         | |- _ < _ => vm_compute; reflexivity
         | |- True => exact I
         end.
Ltac bound_tac := unfold phys_bound; vm_compute; let H := fresh in intro H; discriminate H.
Ltac call_tac := eapply hist_ok_call; [vm_compute; reflexivity | wf_tac | bound_tac | ].
Ltac restart_tac q p :=
  eapply hist_ok_restart;
  [ vm_compute; reflexivity
  | apply (restart_bound_le1 Px _ q p);
    [ let x := fresh in let H := fresh in
      intros x H; vm_compute in H; repeat (destruct H as [H|H]; [now rewrite <- H|]); destruct H
    | bound_tac | bound_tac ]
  | ].

Lemma hist_ok_ex : hist_ok Px st0 h_ex.
Proof.
  unfold h_ex.
  call_tac. call_tac. call_tac. call_tac. call_tac.
  restart_tac qb 0.
  call_tac. call_tac.
  restart_tac qb 0.
  call_tac.
  restart_tac qb 0.
  call_tac.
  exact I.
Qed.

Lemma restart_bound_ex : restart_bound Px st_ex.
Proof.
  apply (restart_bound_le1 Px _ qb 0); [intros x H; vm_compute in H; destruct H | bound_tac | bound_tac].
Qed.

Example C01_ex : forall pol hint, exists st',
  restart Px st_ex pol hint = OpenOk st' /\
  (forall q, s_get (abs_qs (s_qs st')) q = s_get (abs_qs (s_qs st_ex)) q) /\
  (forall q lo hi, log_range st' q lo hi = log_range st_ex q lo hi) /\
  (forall q, log_last_position st' q = log_last_position st_ex q) /\
  (forall q, log_last_record st' q = log_last_record st_ex q).
Proof.
  exact (C01_restart_identity Px Px_BS_lo Px_BS_hi Px_NB Px_crc eq_refl eq_refl
           PNothing st0 h_ex st_ex outs_ex open_st0 hrun_ex hist_ok_ex restart_bound_ex).
Qed.

(* ... and by direct computation: the final restart reproduces the queues (here even as the
   same association list) and every outcome of the history is the specification's *)
Example C01_ex_computed :
  match restart Px st_ex PNothing [] with
  | OpenOk st' => abs_qs (s_qs st') = abs_qs (s_qs st_ex)
  | _ => False
  end /\
  abs_qs (s_qs st_ex) = [(qa, ([(6, pay "v"%byte)], 7)); (qb, ([(0, pay "w"%byte)], 1))] /\
  s_run [] (map sop_of (hcalls h_ex)) =
    (abs_qs (s_qs st_ex),
     [SOk; SAppended (Some 1); SAppended (Some 2); SOk; SAppended (Some 5); STruncated 3;
      SAppended (Some 6); STruncated 1; SAppended (Some 0)]) /\
  map out_logical outs_ex =
    map Some [SOk; SAppended (Some 1); SAppended (Some 2); SOk; SAppended (Some 5); STruncated 3;
              SAppended (Some 6); STruncated 1; SAppended (Some 0)].
Proof. vm_compute. repeat split; reflexivity. Qed.
End Example.

Print Assumptions Example.C01_ex.
