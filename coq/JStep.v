(* JStep.v — under the junk-tolerant invariant InvJ and the stream bound, an API call reports no
   I/O error, preserves the invariant, and extends the ghost log by exactly the entries it
   logged (GhostLog.step_log). *)
From Coq Require Import Lia ZArith ZifyN ZifyNat ZifyBool List Sorted.
From MRL Require Import Bytes BytesProofs Params Names NamesProofs Frame Record Mem Spec Rolling Log
  Driver NoopProofs SpecRefine RecordProofs StreamProofs PolicyProofs GcProofs GhostLog ReplaySpec
  HandleProofs FileStream ResyncProofs RestartInv RestartWrite RestartGc JInv JGc.

Section JStep.
Variable P : params.
Hypothesis HBS_lo : 7 < BS P.
Hypothesis HBS_hi : BS P <= 65542.
Hypothesis HNB : 1 <= NB P.
Hypothesis Hcrc : forall t p, crcf P t p < 2 ^ 32.
Hypothesis HGC : L_GC P = false.
Variable PRE : bytes.
Variable OLD : list entry.
Variable opos : list (N * N).
Hypothesis Hpre : pre_ok PRE OLD opos.

Local Notation FB := (FILE_BYTES P).
Local Notation PInvJ := (PInvJ P PRE OLD opos).
Local Notation InvJ := (InvJ P PRE OLD opos).
Local Notation stream_boundJ := (stream_boundJ P PRE OLD).
Local Notation jT := (jT P PRE OLD).
Local Notation H3 f := (f P HBS_lo HBS_hi Hcrc) (only parsing).
Local Notation H2 f := (f P HBS_lo HBS_hi) (only parsing).
Local Notation HN f := (f P HBS_lo HBS_hi HNB) (only parsing).
Local Notation HW f := (f P HBS_lo HBS_hi HNB Hcrc) (only parsing).
Local Notation HG f := (f P HBS_lo HBS_hi HNB Hcrc HGC) (only parsing).

(* what `open` will list: exactly the tracked files *)
Lemma invJ_listing st G : InvJ st G -> list_wal_numbers (vfs (s_wr st)) = w_files (s_wr st).
Proof.
  intros HI. destruct (InvJ_winv P PRE OLD opos st G HI) as (H1 & H2' & H3').
  exact (listing_after P _ H1 H2' H3').
Qed.

(* one write followed by the in-memory update, with the bound carried to the rest of the log *)
Lemma invJ_write_then st G e rest st1 r1 qs' :
  InvJ st G -> wf_entry e -> stream_boundJ G (e :: rest) ->
  (forall F, t_replay [] 0 (gh_ALL G) = Some F -> legal F e) ->
  write_entry P st e = (st1, r1) ->
  apply_entry (s_qs st) (w_file (s_wr st)) e = Some qs' -> qs_wf qs' ->
  (exists n, r1 = Ok n) /\ s_qs st1 = s_qs st /\ s_pol st1 = s_pol st /\
  InvJ (set_qs st1 qs') (gh_snoc G (w_file (s_wr st)) e) /\
  stream_boundJ (gh_snoc G (w_file (s_wr st)) e) rest.
Proof.
  intros HI Hwf Hb Hleg Ew Hap Hwf'.
  assert (Hb1 : stream_boundJ G [e]).
  { eapply (HW stream_boundJ_prefix). exact Hb. }
  destruct (HW invJ_write_entry PRE OLD opos st G e st1 r1 qs' Hpre HI Hwf Hb1 Hleg Ew Hap Hwf')
    as (Hr & Eqs & Epol & _ & _ & HI').
  repeat (split; [assumption|]). apply JInv.stream_boundJ_snoc; [|exact Hb].
  exact (HW jlen_le PRE OLD opos _ _ (proj1 HI)).
Qed.

(* Five-way analysis of the call.  Each entry it logs is written by invJ_write_then, the GC
   after a delete or truncate is total by invJ_gc_total; persisting is invisible to the
   invariant.  A call that logs nothing returns the state unchanged. *)
Theorem invJ_step_total st G o tick st' out :
  InvJ st G -> op_wf_strict (s_qs st) o ->
  stream_boundJ G (map snd (step_log P st o)) ->
  step P st o tick = (st', out) ->
  no_io out /\
  exists G', InvJ st' G' /\ gh_base G' = gh_base G /\ gh_dropped G' = gh_dropped G /\
             gh_log G' = gh_log G ++ step_log P st o.
Proof.
  intros HI Hop Hb Hstep.
  pose proof HI as (HP & HL). pose proof HL as (Hqwf & _).
  pose proof (step_log_wf P st o Hqwf (op_wf_strict_wf _ _ Hop)) as Hlwf.
  assert (Hsame : forall out0, no_io out0 -> step_log P st o = [] ->
            no_io out0 /\
            exists G', InvJ st G' /\ gh_base G' = gh_base G /\ gh_dropped G' = gh_dropped G /\
                       gh_log G' = gh_log G ++ step_log P st o).
  { intros out0 Hn ->. split; [exact Hn|]. exists G. rewrite app_nil_r. auto. }
  destruct o as [q|q hint|q pos payloads|q p hint|a]; cbn [step step_log] in *.
  -     unfold create_queue in Hstep. unfold create_log in *. rewrite qs_contains_get in *.
    destruct (qs_get (s_qs st) q) as [m|] eqn:Eq.
    { inversion Hstep; subst. apply Hsame; [intros ? ?; discriminate|reflexivity]. }
    destruct (write_entry P st (EPosition q 0)) as [st1 r1] eqn:Ew.
    cbn [map snd] in Hb. inversion Hlwf as [|? ? Hwf _]; subst. cbn [snd] in Hwf.
    assert (Hap : apply_entry (s_qs st) (w_file (s_wr st)) (EPosition q 0) =
                  Some (qs_put (s_qs st) q mq_default)).
    { cbn [apply_entry]. unfold ack_position. now rewrite Eq. }
    assert (Hwf' : qs_wf (qs_put (s_qs st) q mq_default)).
    { apply qs_wf_put; [exact Hqwf|exact Hop|]. cbn. lia. }
    destruct (invJ_write_then st G _ [] st1 r1 _ HI Hwf Hb
                (fun F => legal_create _ _ _ q F HL Eq) Ew Hap Hwf')
      as ((k & ->) & Eqs & Epol & HI1 & _).
    inversion Hstep; subst st' out. clear Hstep. split; [intros ? ?; discriminate|].
    exists (gh_snoc G (w_file (s_wr st)) (EPosition q 0)).
    split; [|split; [reflexivity|split; [reflexivity|apply gh_snoc_log]]].
    cbn [persist set_wr s_qs]. rewrite Eqs.
    exact (invJ_persist P PRE OLD opos (set_qs st1 (qs_put (s_qs st) q mq_default)) true _ HI1).
  -     unfold delete_queue in Hstep. unfold delete_log in *.
    destruct (qs_get (s_qs st) q) as [m|] eqn:Eq.
    2:{ inversion Hstep; subst. apply Hsame; [intros ? ?; discriminate|reflexivity]. }
    set (e := EDelete q (next_position m)) in *.
    destruct (write_entry P st e) as [st1 r1] eqn:Ew.
    cbn [map snd] in Hb. inversion Hlwf as [|? ? Hwf Hlwf']; subst. cbn [snd] in Hwf.
    assert (Hap : apply_entry (s_qs st) (w_file (s_wr st)) e = Some (qs_remove (s_qs st) q))
      by reflexivity.
    destruct (invJ_write_then st G e _ st1 r1 _ HI Hwf Hb
                (fun F => legal_delete _ _ _ q m _ F HL Eq) Ew Hap (qs_wf_remove _ q Hqwf))
      as ((k & ->) & Eqs & Epol & HI1 & Hb1).
    rewrite Eqs in *.
    set (st2 := set_qs st1 (qs_remove (s_qs st) q)) in *.
    destruct (run_gc_if_necessary P st2 hint) as [st3 r3] eqn:Egc.
    destruct (HG invJ_gc_total PRE OLD opos Hpre st2 _ hint st3 r3 HI1 Hb1 Egc)
      as (k3 & G3 & -> & HI3 & _ & _ & Eb & Ed & Elog).
    inversion Hstep; subst st' out. clear Hstep. split; [intros ? ?; discriminate|].
    exists G3. split; [exact (invJ_persist P PRE OLD opos st3 true G3 HI3)|].
    split; [exact Eb|]. split; [exact Ed|].
    rewrite Elog, gh_snoc_log. now rewrite <- app_assoc.
  -     unfold append_records in Hstep. rewrite append_log_target in *.
    destruct (qs_get (s_qs st) q) as [m|] eqn:Eq.
    2:{ inversion Hstep; subst. apply Hsame; [intros ? ?; discriminate|reflexivity]. }
    destruct (match pos with
              | Some p => if p + 1 =? next_position m then Some (OutAppend None 0)
                          else if p <? next_position m then Some OutPast else None
              | None => None end) as [o|] eqn:Ee.
    { assert (Hno : no_io o).
      { intros e0 H. rewrite H in Ee. destruct pos as [p0|]; [|discriminate].
        destruct (p0 + 1 =? next_position m); [discriminate|].
        destruct (p0 <? next_position m); discriminate. }
      rewrite (append_early_target_none _ _ _ Ee) in *. inversion Hstep; subst.
      now apply Hsame. }
    rewrite (append_early_target _ _ Ee) in *.
    pose proof (append_target_ge _ _ _ (append_early_target _ _ Ee)) as Hge.
    set (position := match pos with Some p => p | None => next_position m end) in *.
    destruct payloads as [|x r].
    { cbn [number_from] in Hstep. inversion Hstep; subst.
      apply Hsame; [intros ? ?; discriminate|reflexivity]. }
    set (payloads := x :: r) in *.
    assert (Hpne : payloads <> []) by discriminate.
    set (recs := number_from position payloads) in *.
    set (e := EAppend q position recs) in *.
    assert (Hrne : recs <> []).
    { intros H. apply number_from_nil_iff in H. contradiction. }
    destruct (append_all_some payloads m (w_file (s_wr st)) position Hge) as (m' & Em).
    fold recs in Em.
    assert (Hstep' : match write_entry P st e with
                     | (st1, Err e0) => (st1, OutIo e0)
                     | (st1, Ok n) =>
                         (set_qs (persist_on_policy st1 tick)
                                 (qs_put (s_qs (persist_on_policy st1 tick)) q m'),
                          OutAppend (Some (last_pos_of position recs)) n)
                     end = (st', out)).
    { rewrite <- Hstep. unfold recs, payloads. cbn [number_from]. fold payloads. fold recs.
      fold e. destruct (write_entry P st e) as [st1 [n|e0]]; [|reflexivity].
      unfold recs, payloads in Em. cbn [number_from] in Em. now rewrite Em. }
    clear Hstep.
    destruct (write_entry P st e) as [st1 r1] eqn:Ew.
    change (map snd [(w_file (s_wr st), e)]) with [e] in Hb.
    inversion Hlwf as [|? ? Hwf _]; subst. cbn [snd] in Hwf.
    assert (Hap : apply_entry (s_qs st) (w_file (s_wr st)) e = Some (qs_put (s_qs st) q m')).
    { unfold e. cbn [apply_entry]. rewrite qs_contains_get, Eq, Eq, Em. reflexivity. }
    assert (Hwf' : qs_wf (qs_put (s_qs st) q m')).
    { destruct (Hqwf q m (qs_get_In_eq _ _ _ Eq)) as (Hn & _).
      apply qs_wf_put; [exact Hqwf|exact Hn|].
      rewrite (append_all_next payloads m _ position m' Hge Em). unfold payloads at 1.
      destruct Hop as (_ & Hop). unfold position. destruct pos as [p0|]; [exact Hop|].
      exact (Hop m Eq). }
    destruct (invJ_write_then st G e [] st1 r1 _ HI Hwf Hb
                (fun F => legal_append _ _ _ q m position payloads F HL Eq Hge Hpne) Ew Hap Hwf')
      as ((k & ->) & Eqs & Epol & HI1 & _).
    inversion Hstep'; subst st' out. clear Hstep'. split; [intros ? ?; discriminate|].
    exists (gh_snoc G (w_file (s_wr st)) e).
    split; [|split; [reflexivity|split; [reflexivity|apply gh_snoc_log]]].
    rewrite persist_on_policy_qs, Eqs, set_qs_persist_on_policy.
    exact (invJ_persist_on_policy P PRE OLD opos _ tick _ HI1).
  -     unfold truncate in Hstep. unfold truncate_log in *.
    destruct (qs_get (s_qs st) q) as [m|] eqn:Eq.
    2:{ inversion Hstep; subst. apply Hsame; [intros ? ?; discriminate|reflexivity]. }
    set (e := ETruncate q p) in *.
    destruct (write_entry P st e) as [st1 r1] eqn:Ew.
    cbn [map snd] in Hb. inversion Hlwf as [|? ? Hwf Hlwf']; subst. cbn [snd] in Hwf.
    destruct (truncate_head m p) as [m' evicted] eqn:Et. cbn [fst] in *.
    assert (Hap : apply_entry (s_qs st) (w_file (s_wr st)) e = Some (qs_put (s_qs st) q m')).
    { unfold e. cbn [apply_entry]. now rewrite Eq, Et. }
    assert (Hwf' : qs_wf (qs_put (s_qs st) q m')).
    { destruct (Hqwf q m (qs_get_In_eq _ _ _ Eq)) as (Hn & Hnx).
      apply qs_wf_put; [exact Hqwf|exact Hn|].
      pose proof (truncate_head_next m p) as Hth. rewrite Et in Hth. cbn [fst] in Hth.
      cbn [op_wf_strict] in Hop. destruct Hth as [-> | ->]; lia. }
    destruct (invJ_write_then st G e _ st1 r1 _ HI Hwf Hb
                (fun F => legal_truncate _ _ _ q m _ F HL Eq) Ew Hap Hwf')
      as ((k & ->) & Eqs & Epol & HI1 & Hb1).
    rewrite Eqs in *.
    set (st2 := set_qs st1 (qs_put (s_qs st) q m')) in *.
    destruct (run_gc_if_necessary P st2 hint) as [st3 r3] eqn:Egc.
    destruct (HG invJ_gc_total PRE OLD opos Hpre st2 _ hint st3 r3 HI1 Hb1 Egc)
      as (k3 & G3 & -> & HI3 & _ & _ & Eb & Ed & Elog).
    inversion Hstep; subst st' out. clear Hstep. split; [intros ? ?; discriminate|].
    exists G3. split; [exact (invJ_persist_on_policy P PRE OLD opos st3 tick G3 HI3)|].
    split; [exact Eb|]. split; [exact Ed|].
    rewrite Elog, gh_snoc_log. now rewrite <- app_assoc.
  -     inversion Hstep; subst st' out. split; [intros ? ?; discriminate|]. exists G. rewrite app_nil_r.
    split; [exact (invJ_persist P PRE OLD opos st a G HI)|]. auto.
Qed.

Theorem invJ_step st G o tick st' out :
  InvJ st G -> op_wf_strict (s_qs st) o ->
  stream_boundJ G (map snd (step_log P st o)) ->
  step P st o tick = (st', out) -> (forall e, out <> OutIo e) ->
  exists G', InvJ st' G' /\ gh_base G' = gh_base G /\ gh_dropped G' = gh_dropped G /\
             gh_log G' = gh_log G ++ step_log P st o.
Proof. intros HI Hop Hb Hstep _. exact (proj2 (invJ_step_total st G o tick st' out HI Hop Hb Hstep)). Qed.

Lemma stepJ_no_io st G o tick :
  InvJ st G -> op_wf_strict (s_qs st) o ->
  stream_boundJ G (map snd (step_log P st o)) ->
  no_io (snd (step P st o tick)).
Proof.
  intros HI Hop Hb. destruct (step P st o tick) as [st' out] eqn:Hstep.
  exact (proj1 (invJ_step_total st G o tick st' out HI Hop Hb Hstep)).
Qed.

Lemma gcJ_no_err st G hint st' r :
  InvJ st G -> stream_boundJ G (map snd (gc_log P st hint)) ->
  run_gc_if_necessary P st hint = (st', r) -> exists n, r = Ok n.
Proof.
  intros HI Hb Hgc.
  destruct (HG invJ_gc_total PRE OLD opos Hpre st G hint st' r HI Hb Hgc) as (n & _ & E & _).
  now exists n.
Qed.

End JStep.

Print Assumptions invJ_listing.
Print Assumptions invJ_write_then.
Print Assumptions invJ_step.
Print Assumptions gcJ_no_err.
Print Assumptions stepJ_no_io.
