(* JGc.v — run_gc_if_necessary preserves the junk-tolerant invariant InvJ (JInv.v) and cannot
   fail under it.  The ghost operations gh_move / gh_app, the GC geometry and the logical half
   (linv_gc_move) are those of RestartGc.v. *)
From Coq Require Import Lia ZArith ZifyN ZifyNat ZifyBool List Sorted.
From MRL Require Import Bytes BytesProofs Params Names NamesProofs Frame Record Mem Spec Rolling Log
  Driver SpecRefine RecordProofs StreamProofs PolicyProofs GcProofs GhostLog ReplaySpec
  HandleProofs FileStream ResyncProofs RestartInv RestartWrite RestartGc JInv.

Lemma firstn_add_skipn {A} : forall k m (l : list A),
  firstn (k + m) l = firstn k l ++ firstn m (skipn k l).
Proof.
  induction k as [|k IH]; intros m l; [reflexivity|].
  destruct l as [|x l]; [cbn [Nat.add firstn skipn app]; now rewrite firstn_nil|].
  cbn [Nat.add firstn skipn app]. now rewrite IH.
Qed.

Lemma skipn_add_skipn {A} : forall k m (l : list A),
  skipn (k + m) l = skipn m (skipn k l).
Proof.
  induction k as [|k IH]; intros m l; [reflexivity|].
  destruct l as [|x l]; [cbn [Nat.add skipn]; now rewrite skipn_nil|].
  cbn [Nat.add skipn]. apply IH.
Qed.

Lemma nth_error_firstn_lt {A} : forall m (l : list A) j,
  (j < m)%nat -> nth_error (firstn m l) j = nth_error l j.
Proof.
  induction m as [|m IH]; intros l j H; [lia|].
  destruct l as [|x l]; [reflexivity|]. destruct j as [|j]; [reflexivity|].
  cbn [firstn nth_error]. apply IH. lia.
Qed.

Section JGc.
Variable P : params.
Hypothesis HBS_lo : 7 < BS P.
Hypothesis HBS_hi : BS P <= 65542.
Hypothesis HNB : 1 <= NB P.
Hypothesis Hcrc : forall t p, crcf P t p < 2 ^ 32.
Hypothesis HGC : L_GC P = false.      (* the current code: the GC persists before unlinking *)
Variable PRE : bytes.
Variable OLD : list entry.
Variable opos : list (N * N).
Hypothesis Hpre : pre_ok PRE OLD opos.

Local Notation B := (BS P).
Local Notation FB := (FILE_BYTES P).
Local Notation ffp := (first_frame_pos P).
Local Notation H3 f := (f P HBS_lo HBS_hi Hcrc) (only parsing).
Local Notation H2 f := (f P HBS_lo HBS_hi) (only parsing).
Local Notation HW f := (f P HBS_lo HBS_hi HNB Hcrc) (only parsing).
Local Notation HN f := (f P HBS_lo HBS_hi HNB) (only parsing).
Local Notation PInvJ := (PInvJ P PRE OLD opos).
Local Notation InvJ := (InvJ P PRE OLD opos).
Local Notation stream_boundJ := (stream_boundJ P PRE OLD).
Local Notation jT := (jT P PRE OLD).
Local Notation jpos := (jpos P PRE OLD opos).

Lemma pinvJ_transfer w w' G :
  wkey w' = wkey w -> vfs w' = vfs w -> wf w' -> wd_ok w' -> nd w' -> PInvJ w G -> PInvJ w' G.
Proof.
  intros Hk Hv Hwf Hwd Hnd (Hw & _ & _ & Hrest).
  destruct (wkey_inv _ _ Hk) as (Ef & Ec & Eo & Em).
  unfold JInv.PInvJ, wlo, wpos, wstream in *. rewrite Hv, Ef, Ec, Eo.
  split; [exact (winv_transfer P w w' Hk Hv Hwf Hw)|]. split; [exact Hwd|]. split; [exact Hnd|].
  exact Hrest.
Qed.

Lemma pinvJ_persist w a G : PInvJ w G -> PInvJ (wr_persist w a) G.
Proof.
  intros HP. pose proof HP as ((_ & Hwf & _) & Hwd & Hnd & _).
  destruct (wr_persist_rel w a Hwf) as (_ & Hwf' & _).
  apply (pinvJ_transfer w); [apply wr_persist_key|apply wr_persist_vfs|exact Hwf'| | |exact HP].
  - now apply wr_persist_wd_ok.
  - now apply wr_persist_nd.
Qed.

Lemma invJ_persist st a G : InvJ st G -> InvJ (persist st a) G.
Proof.
  intros (HP & HL). split; cbn [persist set_wr s_wr s_qs].
  - now apply pinvJ_persist.
  - now rewrite wlo_persist.
Qed.

Lemma invJ_persist_on_policy st tick G : InvJ st G -> InvJ (persist_on_policy st tick) G.
Proof.
  intros H. unfold persist_on_policy. destruct (s_pol st) as [|a|a]; [exact H| |].
  - destruct tick; [now apply invJ_persist|exact H].
  - now apply invJ_persist.
Qed.

Lemma invJ_record_positions names : forall st G acc st' r,
  InvJ st G -> names_empty (s_qs st) names ->
  stream_boundJ G (map snd (rp_log P st names)) ->
  record_positions P st names acc = (st', r) ->
  (exists n, r = Ok n) /\ s_qs st' = s_qs st /\ s_pol st' = s_pol st /\
  wlo (s_wr st') = wlo (s_wr st) /\ w_file (s_wr st) <= w_file (s_wr st') /\
  InvJ st' (gh_app G (rp_log P st names)) /\
  (forall n q, In n names -> qs_get (s_qs st) n = Some q ->
     exists f, In (f, EPosition n (next_position q)) (rp_log P st names) /\ w_file (s_wr st) <= f).
Proof.
  induction names as [|n names IH]; intros st G acc st' r HI Hne Hb Hrp.
  - cbn [record_positions] in Hrp. inversion Hrp; subst. cbn [rp_log]. rewrite gh_app_nil.
    split; [eexists; reflexivity|]. repeat (split; [reflexivity || lia || exact HI|]).
    intros n q [].
  - cbn [record_positions] in Hrp. cbn [rp_log] in *.
    assert (Hne' : names_empty (s_qs st) names).
    { intros n' q' Hin. apply Hne. now right. }
    destruct (qs_get (s_qs st) n) as [q|] eqn:Eq.
    + destruct (write_entry P st (EPosition n (next_position q))) as [st1 r1] eqn:Ew.
      pose proof HI as (HPJ & HL).
      pose proof (HW jlen_le PRE OLD opos _ _ HPJ) as Hjl.
      destruct (position_entry_facts _ _ _ n q HL Eq (Hne n q (or_introl eq_refl) Eq))
        as (Hwf & Hleg & Hap).
      cbn [map snd] in Hb.
      assert (Hb1 : stream_boundJ G [EPosition n (next_position q)]).
      { eapply (HW stream_boundJ_prefix). exact Hb. }
      destruct (HW invJ_write_entry PRE OLD opos st G _ st1 r1 (s_qs st) Hpre HI Hwf
                  Hb1 Hleg Ew (Hap _) (proj1 HL))
        as ((k & ->) & Eqs1 & Epol1 & Elo1 & Hm1 & HI1).
      rewrite (set_qs_same st1 _ Eqs1) in HI1.
      cbn [fst] in Hb. apply (JInv.stream_boundJ_snoc P PRE OLD G (w_file (s_wr st)) _ _ Hjl) in Hb.
      rewrite <- Eqs1 in Hne'.
      destruct (IH st1 _ (acc + k) st' r HI1 Hne' Hb Hrp)
        as (Hr & Eqs & Epol & Elo & Hm & HI' & Hcov).
      rewrite gh_app_snoc in HI'.
      split; [exact Hr|]. split; [congruence|]. split; [congruence|]. split; [congruence|].
      split; [lia|]. split; [exact HI'|].
      intros n' q' [<-|Hin] Eq'.
      * rewrite Eq in Eq'. inversion Eq'; subst q'. exists (w_file (s_wr st)). split; [now left|lia].
      * rewrite <- Eqs1 in Eq'. destruct (Hcov n' q' Hin Eq') as (f & Hf & Hle).
        exists f. split; [now right|lia].
    + destruct (IH st G acc st' r HI Hne' Hb Hrp) as (Hr & Eqs & Epol & Elo & Hm & HI' & Hcov).
      repeat (split; [assumption|]).
      intros n' q' [<-|Hin] Eq'; [congruence|]. now apply Hcov.
Qed.

Lemma invJ_gc_drop st G refd c files' g :
  InvJ st G -> w_pending (s_wr st) = [] ->
  gc_loop (w_ctx (s_wr st)) (w_files (s_wr st)) refd = (c, files', Ok tt) ->
  (forall x, refd x = false -> qs_ref x (s_qs st) = false) ->
  refd g = true -> wlo (s_wr st) <= g ->
  (forall q m, qs_get (s_qs st) q = Some m -> mq_is_empty m = true ->
     exists j f e, nth_error (gh_E G) j = Some (f, e) /\ creates e q = true /\ g <= f) ->
  exists m,
    InvJ (set_wr st (mkWr c files' (w_file (s_wr st)) (w_off (s_wr st)) (w_pending (s_wr st))))
        (gh_move G m).
Proof.
  intros (HP & HL) Hpend Hgc Hrefq Hg Hglo Hempty.
  set (w := s_wr st) in *. set (qs := s_qs st) in *.
  destruct HP as (Hw & Hwd & Hnd & Hbase & Hc1 & Hc2 & Hs & HWf & Hold & HD1 & HD2 & Htags).
  cbn zeta in *.
  pose proof Hw as (Hok & Hwfw & Hoff & Hpl & Hfile & Hfull & Hfresh).
  destruct (HN gc_geometry w refd c files' Hok Hgc)
    as (dropped & Ef & Hun & Hok' & Elo & Hrange & Hlt & Efs & Epl).
  set (w' := mkWr c files' (w_file w) (w_off w) (w_pending w)) in *.
  set (d := lenN dropped) in *.
  set (dl := wlo w - gh_base G) in *.
  assert (Edl' : wlo w' - gh_base G = dl + d) by lia.
  set (b' := (dl + d) * FB).
  set (posE := skipn (gh_k G) (jpos G)) in *.
  assert (HsortE : StronglySorted (fun s s' : N * N => snd s < snd s') posE).
  { unfold posE. apply StronglySorted_skipn. exact (HW jpos_sorted PRE OLD opos G Hpre). }
  destruct (sorted_split_at posE b' HsortE) as (m & Hm0 & Hsk & Hdv).
  assert (HlenE : length (gh_E G) = length posE) by exact (Forall2_length' _ _ _ HD2).
  assert (Hm : (m <= length (gh_E G))%nat) by lia.
  (* an entry of E tagged with a kept file stays in E *)
  assert (Hkept : forall j f e, nth_error (gh_E G) j = Some (f, e) -> wlo w' <= f -> (m <= j)%nat).
  { intros j f e Ej Hf. destruct (Nat.le_gt_cases m j) as [|Hlt']; [assumption|exfalso].
    destruct (Forall2_nth_error _ _ _ _ _ HD2 Ej) as (s & Es & _ & Hs2). cbn [fst] in Hs2.
    rewrite <- (nth_error_firstn_lt m posE j Hlt') in Es.
    rewrite Forall_forall in Hsk. pose proof (Hsk s (nth_error_In _ _ Es)) as Hlt2.
    assert (dl + d <= f - gh_base G) by lia.
    assert ((dl + d) * FB <= (f - gh_base G) * FB) by (apply N.mul_le_mono_r; assumption).
    unfold b' in Hlt2. lia. }
  (* the first kept file is not after a referenced one *)
  assert (Hkeep : forall x, refd x = true -> wlo w <= x -> wlo w' <= x).
  { intros x Hx Hxlo. destruct (N.le_gt_cases (wlo w') x) as [|Hxlt]; [assumption|exfalso].
    rewrite (Hrange x) in Hx by lia. discriminate. }
  exists m. split.
  -     cbn [set_wr s_wr]. fold w'.
    assert (Evfs : vfs w = c_fs (w_ctx w)) by (apply vfs_nil; exact Hpend).
    assert (Evfs' : vfs w' = remove_files (vfs w) dropped).
    { rewrite Evfs, <- Efs. apply vfs_nil. exact Hpend. }
    assert (Hle : forall x, In x (w_files w) -> x <= U64_MAX).
    { intros x Hx. pose proof (wr_ok_le w x Hok Hx). lia. }
    assert (Hget : forall x, In x files' ->
              fs_get (vfs w') (filename x) = fs_get (vfs w) (filename x)).
    { intros x Hx. rewrite Evfs'. apply fs_get_remove_files_other. intros y Hy.
      pose proof (Hlt y Hy). pose proof (HN wr_ok_ge w' x Hok' Hx).
      apply filename_neq; [apply Hle|apply Hle|lia]; rewrite Ef; apply in_or_app; auto. }
    assert (Hw' : winv P w').
    { split; [exact Hok'|]. split; [exact Hwfw|]. split; [exact Hoff|].
      split; [cbn [w' w_ctx]; congruence|]. split; [exact Hfile|]. split.
      - intros x Hx. cbn [w' w_files] in Hx. rewrite (Hget x Hx). apply Hfull.
        rewrite Ef. apply in_or_app. now right.
      - intros x Hx1 Hx2. rewrite Evfs'. apply fs_get_remove_files_none. now apply Hfresh. }
    assert (En : lenN (w_files w) = d + lenN files') by (rewrite Ef, lenN_app; reflexivity).
    destruct (wr_ok_len P (HN HB0) HNB w' Hok') as (_ & Hn1'). cbn [w' w_files] in Hn1'.
    assert (Epos : (dl + d) * FB + wpos P w' = dl * FB + wpos P w).
    { unfold wpos. cbn [w' w_files w_off]. rewrite En. nia. }
    unfold JInv.PInvJ. cbn zeta. change (gh_base (gh_move G m)) with (gh_base G).
    rewrite Edl', Epos, (jT_ext P PRE OLD _ _ (gh_move_ALL G m)),
      (jpos_ext P PRE OLD opos _ _ (gh_move_ALL G m)), gh_move_ALL, (gh_move_k G m Hm).
    split; [exact Hw'|].
    split; [exact (gc_loop_wd_ok w refd c files' _ Hgc Hwd)|].
    split; [unfold nd; cbn [w' w_ctx]; exact (gc_loop_nd _ _ _ _ _ _ Hgc Hnd)|].
    split; [lia|]. split; [exact Hc1|]. split; [exact Hc2|].
    split.
    { unfold wstream. cbn [w' w_files]. fold w'.
      rewrite (stream_of_ext (vfs w) (vfs w') files').
      2:{ intros x Hx. unfold fcontent. now rewrite (Hget x Hx). }
      assert (Hsplit : wstream w = stream_of (vfs w) dropped ++ stream_of (vfs w) files').
      { unfold wstream. now rewrite Ef, stream_of_app. }
      assert (Hld : lenN (stream_of (vfs w) dropped) = d * FB).
      { apply lenN_stream_of. intros x Hx. apply (winv_content P w x Hw).
        rewrite Ef. apply in_or_app. now left. }
      rewrite <- (dropN_app_exact' (d * FB) _ _ Hld), <- Hsplit, Hs, dropN_dropN.
      rewrite En. f_equal; [lia|]. do 2 f_equal. lia. }
    split; [exact HWf|].
    split; [exact Hold|].
    split.
    { rewrite firstn_add_skipn. fold posE. apply Forall_app. split.
      - eapply Forall_impl; [|exact HD1]. cbn beta. intros s Hs0. nia.
      - exact Hsk. }
    split.
    { rewrite skipn_add_skipn. fold posE.
      change (gh_E (gh_move G m)) with (skipn m (gh_E G)).
      pose proof (Forall2_skipn _ m _ _ HD2) as H2'.
      pose proof (Forall2_Forall_r _ _ _ _ H2' Hdv) as H3'.
      eapply Forall2_impl'; [|exact H3']. cbn beta. intros fe s ((_ & Hx) & Hy). split; assumption. }
    rewrite gh_move_log. exact Htags.
  -     cbn [set_wr s_wr s_qs]. fold w'. fold qs.
    exact (linv_gc_move qs (wlo w) (wlo w') G m refd g HL Hm Hkept Hkeep Hrefq Hg Hglo Hempty).
Qed.

(* under the invariant and the bound the GC cannot fail: the position records are writes
   within the bound, and gc_loop only unlinks files the directory holds *)
Theorem invJ_gc_total st G hint st' r :
  InvJ st G -> stream_boundJ G (map snd (gc_log P st hint)) ->
  run_gc_if_necessary P st hint = (st', r) ->
  exists n G', r = Ok n /\ InvJ st' G' /\ s_qs st' = s_qs st /\ s_pol st' = s_pol st /\
    gh_base G' = gh_base G /\ gh_dropped G' = gh_dropped G /\
    gh_log G' = gh_log G ++ gc_log P st hint.
Proof.
  intros HI Hb Hgc. unfold run_gc_if_necessary in Hgc. unfold gc_log in *.
  destruct (has_deletable st) eqn:Hd.
  2:{ inversion Hgc; subst. exists 0, G. rewrite app_nil_r. auto 8. }
  set (names := pick_order hint (empty_names (s_qs st))) in *.
  unfold record_empty_queues_position in Hgc. fold names in Hgc.
  destruct (record_positions P st names 0) as [st0 r0] eqn:Erp.
  pose proof HI as (HP & HL).
  assert (Hne : names_empty (s_qs st) names).
  { apply pick_order_names_empty. exact (LInv_nodup _ _ _ HL). }
  destruct (invJ_record_positions names st G 0 st0 r0 HI Hne Hb Erp)
    as ((k & ->) & Eqs0 & Epol0 & Elo0 & Hm0 & HI0 & Hcov).
  rewrite HGC in Hgc. cbn [andb] in Hgc.
  set (st1 := persist st0 true) in *.
  set (guard := w_file (s_wr st)) in *.
  assert (HI1 : InvJ st1 (gh_app G (rp_log P st names))) by (apply invJ_persist; exact HI0).
  assert (Eqs1 : s_qs st1 = s_qs st) by exact Eqs0.
  destruct (gc_loop (w_ctx (s_wr st1)) (w_files (s_wr st1)) (referenced st1 guard))
    as [[c files'] rg] eqn:Egc.
  assert (rg = Ok tt) as ->.
  { destruct HI1 as (((Hok1 & _ & _ & _ & Hu1 & _) & [_ Hdir1] & _) & _).
    exact (gc_loop_no_err _ _ _ _ _ Egc Hok1 (Hdir1 Hu1) Hu1). }
  inversion Hgc; subst st' r. clear Hgc.
  destruct (invJ_gc_drop st1 _ (referenced st1 guard) c files' guard HI1) as (m & HI').
  - exact (synced_pending (s_wr st0)).
  - exact Egc.
  - intros x Hx. unfold referenced in Hx. apply orb_false_iff in Hx. tauto.
  - unfold referenced. now rewrite N.eqb_refl.
  - unfold st1. cbn [persist set_wr s_wr]. rewrite wlo_persist, Elo0.
    destruct HP as (Hw & _). exact (HN winv_wlo_le _ Hw).
  - intros q mq Eq Hem. rewrite Eqs1 in Eq.
    assert (Hin : In q names).
    { unfold names. apply In_pick_order_conv. exact (In_empty_names_conv _ _ _ Eq Hem). }
    destruct (Hcov q mq Hin Eq) as (f & Hf & Hle).
    destruct (In_nth_error _ _ (in_or_app (gh_E G) _ _ (or_intror Hf))) as (j & Ej).
    exists j, f, (EPosition q (next_position mq)). split; [exact Ej|]. split; [|exact Hle].
    cbn [creates]. apply bytes_eqb_refl.
  - exists k, (gh_move (gh_app G (rp_log P st names)) m). split; [reflexivity|]. split; [exact HI'|].
    split; [exact Eqs1|]. split; [exact Epol0|]. split; [reflexivity|]. split; [reflexivity|].
    now rewrite gh_move_log, gh_app_log.
Qed.

Theorem invJ_gc st G hint st' n :
  InvJ st G -> stream_boundJ G (map snd (gc_log P st hint)) ->
  run_gc_if_necessary P st hint = (st', Ok n) ->
  exists G', InvJ st' G' /\ s_qs st' = s_qs st /\ s_pol st' = s_pol st /\
    gh_base G' = gh_base G /\ gh_dropped G' = gh_dropped G /\
    gh_log G' = gh_log G ++ gc_log P st hint.
Proof.
  intros HI Hb Hgc. destruct (invJ_gc_total st G hint st' _ HI Hb Hgc) as (_ & G' & _ & H).
  now exists G'.
Qed.

End JGc.

Print Assumptions pinvJ_transfer.
Print Assumptions invJ_persist.
Print Assumptions invJ_persist_on_policy.
Print Assumptions invJ_record_positions.
Print Assumptions invJ_gc_drop.
Print Assumptions invJ_gc.
