(* BatchHeaderDamageEx.v — instances for BatchHeaderDamage.v, by computation with the real CRC-32.
   (Pos) params Pc (BS = 32, two blocks per file), the state st_ex and the dropped directory of
         DamageAtomic.Example (as in HeaderDamageFileEx.A): the two-record batch
         EAppend a 3 [v; t] occupies three frames in blocks 8, 9, 10 of the ghost stream.  ONE
         byte changed in block 9: the length field of the Middle frame of the batch (25 -> 24).
         All premises of C12_header_damage_never_deleted are discharged for this directory; by
         computation open recovers NOTHING of the batch (skipn 2) and everything else, although
         two of its three frames are intact; from the clean directory it recovers all of it
         (skipn 0).
   (Counter) the side condition batch_fresh of the position form is needed, at the level of the
         replay: a legal log, a sub-list of it (a DeleteQueue, the re-creation of the queue and
         the batch are lost together), and the replay of the sub-list holds, at the positions of
         the batch, the records of the EARLIER incarnation of the queue.
   (Neg) the same end to end (params Pd: BS = 64): ONE damaged byte, every premise of
         C12_header_damage except batch_fresh holds, open succeeds, and the recovered queue
         holds another payload at the batch's first position. *)
From Coq Require Import Lia ZArith ZifyN ZifyNat ZifyBool List.
From MRL Require Import Bytes BytesProofs Params Names Frame Record Mem Rolling Log Driver Hist
  StreamProofs DamageProofs TornProofs ResyncProofs RecordProofs PolicyProofs GhostLog GcProofs FileStream OpenReplay
  SpecRefine ReplaySpec RestartFinal DamageFile DamageAtomic HeaderDamageEv HeaderDamage HeaderDamageFile
  HeaderDamageFileEx BatchHeaderDamage.
From MRL Require VacBase VacDamage.
From MRL Require Import RestartInv.
Import ListNotations.
Import DamageAtomic.Example.

Local Notation K f := (f Pc Pc_BS_lo Pc_BS_hi Pc_crc) (only parsing).

(* what open recovers, as (queue, records, next position) *)
Definition view (P : params) (fs : fsT) : option (list (bytes * (list (N * bytes) * N))) :=
  match open P fs None PNothing [] with OpenOk st => Some (abs_qs (s_qs st)) | _ => None end.

Module Pos.
Import HeaderDamageFileEx.A.

Definition batch : list (N * bytes) := [(3, pay "v"%byte); (4, pay "t"%byte)].

(* the Middle frame of the batch starts at 288 = the start of block 9 = byte 32 of file 4; its
   length field (bytes 4..5 of the header) holds 25 *)
Example where_the_batch_is :
  nth_error E_all 7 = Some (EAppend qa 3 batch) /\
  nth_error (starts Pc 0 (map entry_ser E_all)) 7 = Some (272, 272) /\
  sliceN 288 295 S = sliceN 32 39 (fcontent fs_ex 4) /\
  le_dec (sliceN 292 294 S) = 25 /\ ft_of_code (le_dec (sliceN 294 295 S)) = Some Middle.
Proof. vm_compute. repeat split; reflexivity. Qed.

Definition D9 : bytes := Eval vm_compute in write_at S 292 ["024"%byte].
Definition fs9 : fsT :=
  Eval vm_compute in fs_put fs_ex (filename 4) (FFile (write_at (fcontent fs_ex 4) 36 ["024"%byte])).

(* the reader's path through block 9 is 0, 31: nothing verifies at 0, no header fits at 31 *)
Lemma path_ok : NoEmbeddedPath Pc D9 9 T.
Proof.
  apply (K NoEmbeddedPath_of_X D9 9 T xs lay).
  apply (K HeaderDamageEx.path_chk_sound 2); vm_compute; [congruence|reflexivity].
Qed.

Lemma dir9 G : gh_base G = 0 -> gh_ALL G = E_all -> header_damaged_dir Pc st_ex G 9 D9 fs9.
Proof.
  intros Eb EA.
  assert (ET : gh_T Pc G = T) by (unfold gh_T, gh_ser; rewrite EA; vm_compute; reflexivity).
  unfold header_damaged_dir. cbn zeta. rewrite ET, Eb.
  split. { vm_compute. repeat (constructor; [split; reflexivity|]). constructor. }
  split; [vm_compute; reflexivity|]. split; [vm_compute; reflexivity|].
  split; [vm_compute; reflexivity|]. split; [vm_compute; congruence|].
  split; [vm_compute; congruence|]. split; [vm_compute; reflexivity|]. exact path_ok.
Qed.

(* all premises of C12_header_damage_never_deleted, for the batch *)
Lemma premises : exists G j fB,
  Inv Pc st_ex G /\ header_damaged_dir Pc st_ex G 9 D9 fs9 /\
  nth_error (gh_E G) j = Some (fB, EAppend qa 3 batch) /\
  (forall f p, ~ In (f, EDelete qa p) (gh_E G)).
Proof.
  destruct VacDamage.ghost_ex as (G & HI & Eb & Ed & El).
  assert (EA : gh_ALL G = E_all) by (unfold gh_ALL; rewrite Ed, El; vm_compute; reflexivity).
  pose proof HI as (_ & (_ & _ & _ & F & EF & Hcov)).
  rewrite EA in EF. vm_compute in EF. injection EF as <-.
  destruct (Hcov qa [(3%nat, (2, pay "u"%byte)); (7%nat, (3, pay "v"%byte)); (7%nat, (4, pay "t"%byte))]
              5 eq_refl) as (_ & Hf).
  inversion Hf as [|? ? _ Hf']; subst. inversion Hf' as [|? ? (j & f & e & H7 & Hj & _) _]; subst.
  cbn [fst] in H7.
  pose proof (dmg_nth Pc Pc_BS_lo Pc_BS_hi Pc_NB G j e f Hj) as He.
  rewrite <- H7, EA in He. vm_compute in He. injection He as <-.
  exists G, j, f. split; [exact HI|]. split; [exact (dir9 G Eb EA)|]. split; [exact Hj|].
  intros f' p Hin.
  assert (H : In (EDelete qa p) (gh_ALL G)).
  { rewrite gh_ALL_split. apply in_or_app. right. apply in_map_iff. exists (f', EDelete qa p). auto. }
  rewrite EA in H. vm_compute in H.
  repeat (destruct H as [H|H]; [discriminate H|]). destruct H.
Qed.

(* the theorem applies: whatever open recovers from fs9, what it holds of the batch is a suffix *)
Theorem C12_inst : forall pol hint st_r,
  open Pc fs9 None pol hint = OpenOk st_r ->
  forall m, qs_get (s_qs st_r) qa = Some m ->
    exists k, filter (in_span 3 5) (records_of (q_buf m) (q_metas m)) = skipn k batch.
Proof.
  destruct premises as (G & j & fB & HI & Hd & Hj & Hnd).
  intros pol hint st_r Ho m Eq.
  exact (C12_header_damage_never_deleted Pc Pc_BS_lo Pc_BS_hi Pc_NB Pc_crc eq_refl st_ex G 9 D9 fs9
           HI Hd pol hint st_r Ho j fB qa 3 batch Hj Hnd m Eq).
Qed.

(* and by computation: the batch is lost as a whole (two of its three frames are intact), the
   rest is recovered; from the clean directory all of it is recovered *)
Example what_open_recovers :
  view Pc fs9 = Some [(qa, ([(2, pay "u"%byte)], 3));
                      (qb, ([(0, pay "z"%byte); (1, pay "w"%byte)], 2))] /\
  view Pc fs_ex = Some [(qa, ([(2, pay "u"%byte); (3, pay "v"%byte); (4, pay "t"%byte)], 5));
                        (qb, ([(0, pay "z"%byte); (1, pay "w"%byte)], 2))] /\
  filter (in_span 3 5) [(2, pay "u"%byte)] = skipn 2 batch /\
  filter (in_span 3 5) [(2, pay "u"%byte); (3, pay "v"%byte); (4, pay "t"%byte)] = skipn 0 batch.
Proof. vm_compute. repeat split; reflexivity. Qed.
End Pos.

Module Counter.
Definition px : bytes := ["x"%byte].
Definition py : bytes := ["y"%byte].
Definition pz : bytes := ["z"%byte].
(* a is created, filled, deleted, created again, and the batch [y; z] gets positions 0, 1 *)
Definition L : list entry :=
  [EPosition qa 0; EAppend qa 0 (number_from 0 [px]); EDelete qa 1;
   EPosition qa 0; EAppend qa 0 (number_from 0 [py; pz])].
(* the DeleteQueue, the re-creation and the batch are lost *)
Definition Es' : list entry := firstn 2 L.

Example legal_L : legal_log [] 0 L.
Proof. unfold L. repeat legal_step. apply ll_nil. Qed.

Example position_form_needs_fresh :
  DamageProofs.sublist Es' L /\
  (* no DeleteQueue of a AFTER the batch: the batch belongs to the current incarnation *)
  ~ In (EDelete qa 2) (skipn 5 L) /\
  (exists qD m, replay_entries [] (combine [0; 0] Es') = Some qD /\ qs_get qD qa = Some m /\
     records_of (q_buf m) (q_metas m) = [(0, px)] /\
     (* the suffix form holds ... *)
     records_of (q_buf m) (q_metas m) = skipn 0 (appended qa Es') /\
     (* ... the position form does not: position 0 of the batch holds another payload *)
     forall k, filter (in_span 0 2) (records_of (q_buf m) (q_metas m)) <> skipn k (number_from 0 [py; pz])).
Proof.
  split. { unfold Es', L. cbn [firstn]. do 2 apply SL_keep. do 3 apply SL_skip. apply SL_nil. }
  split. { intros []. }
  eexists _, _. split; [vm_compute; reflexivity|]. split; [vm_compute; reflexivity|].
  split; [vm_compute; reflexivity|]. split; [vm_compute; reflexivity|].
  intros [|[|[|k]]]; vm_compute; discriminate.
Qed.
End Counter.

Module Neg.
Definition Pd : params := mkParams 64 2 Crc.crc32 0 false false false.
Lemma Pd_BS_lo : 7 < BS Pd. Proof. reflexivity. Qed.
Lemma Pd_BS_hi : BS Pd <= 65542. Proof. intros H; discriminate H. Qed.
Lemma Pd_NB : 1 <= NB Pd. Proof. intros H; discriminate H. Qed.
Lemma Pd_crc : forall t p, crcf Pd t p < 2 ^ 32.
Proof. exact Pc_crc. Qed.
Local Notation Kd f := (f Pd Pd_BS_lo Pd_BS_hi Pd_crc) (only parsing).

Definition std0 : state :=
  Eval vm_compute in match open Pd [] None PNothing [] with OpenOk s => s | _ => st_dummy end.
Lemma open_std0 : open Pd [] None PNothing [] = OpenOk std0.
Proof. vm_compute. reflexivity. Qed.

(* b keeps file 0 alive; a is created, filled, deleted, created again, and the two-record batch
   [y; w] gets positions 0, 1 *)
Definition batch : list (N * bytes) := [(0, pay "y"%byte); (1, pay "w"%byte)].
Definition calls : list (op * bool) :=
  [(OCreate qb, false); (OAppend qb None [pay "z"%byte], false);
   (OCreate qa, false); (OAppend qa None [pay "x"%byte], false); (ODelete qa [], false);
   (OCreate qa, false); (OAppend qa None [pay "y"%byte; pay "w"%byte], false)].
Definition std : state := Eval vm_compute in fst (run Pd std0 calls).
Definition Ed : list entry := Eval vm_compute in map snd (VacBase.calls_log Pd std0 calls).
Definition Td : bytes := Eval vm_compute in encs_of Pd 0 (map entry_ser Ed).
Definition Sd : bytes := Eval vm_compute in Td ++ zerosN (256 - lenN Td).
Definition fsd : fsT := Eval vm_compute in c_fs (drop_log std).

(* block 2 of the stream (= the first block of file 1) holds the DeleteQueue, the re-creation
   and the First frame of the batch *)
Example setting :
  Ed = [EPosition qb 0; EAppend qb 0 [(0, pay "z"%byte)];
        EPosition qa 0; EAppend qa 0 [(0, pay "x"%byte)];
        EDelete qa 1; EPosition qa 0; EAppend qa 0 batch] /\
  starts Pd 0 (map entry_ser Ed) =
    [(0, 0); (19, 19); (60, 64); (83, 83); (124, 128); (147, 147); (166, 166)] /\
  lenN Td = 236 /\ w_files (s_wr std) = [0; 1] /\ stream_of fsd [0; 1] = Sd.
Proof. vm_compute. repeat split; reflexivity. Qed.

Lemma hist_ok_d : hist_ok Pd std0 (VacBase.hcalls_of calls).
Proof.
  unfold calls. cbn [VacBase.hcalls_of map fst snd].
  RestartFinal.Example.call_tac. RestartFinal.Example.call_tac.
  RestartFinal.Example.call_tac. RestartFinal.Example.call_tac.
  RestartFinal.Example.call_tac. RestartFinal.Example.call_tac.
  RestartFinal.Example.call_tac.
  exact I.
Qed.

Lemma ghost_d : exists G,
  Inv Pd std G /\ gh_base G = 0 /\ gh_ALL G = Ed.
Proof.
  pose proof (inv_fresh Pd Pd_BS_lo Pd_BS_hi Pd_NB PNothing std0 open_std0) as HI0.
  destruct (VacBase.calls_inv_log Pd Pd_BS_lo Pd_BS_hi Pd_NB Pd_crc eq_refl calls std0 gh_fresh HI0 hist_ok_d)
    as (G & HI & Eb & Edr & El & _).
  exists G. replace std with (fst (run Pd std0 calls)) by (vm_compute; reflexivity).
  split; [exact HI|]. split; [exact Eb|].
  unfold gh_ALL. rewrite Edr, El. vm_compute. reflexivity.
Qed.

(* ONE byte of file 1 (offset 4 = byte 132 of the stream, in block 2): the low byte of the
   length field of the frame of EDelete a 1: 12 -> 13 *)
Definition Dd : bytes := Eval vm_compute in write_at Sd 132 ["013"%byte].
Definition fsdd : fsT :=
  Eval vm_compute in fs_put fsd (filename 1) (FFile (write_at (fcontent fsd 1) 4 ["013"%byte])).

Definition xsd : list fspec := Eval vm_compute in HeaderDamageEx.parse Pd 100 0 Td.
Lemma layd : layout Pd 0 xsd Td.
Proof. apply HeaderDamageEx.layout_b_sound. vm_compute. reflexivity. Qed.

(* no frame verifies on the reader's path (0, 20, 27) through block 2 *)
Lemma path_ok : NoEmbeddedPath Pd Dd 2 Td.
Proof.
  apply (Kd NoEmbeddedPath_of_X Dd 2 Td xsd layd).
  apply (Kd HeaderDamageEx.path_chk_sound 4); vm_compute; [congruence|reflexivity].
Qed.

Lemma dird G : gh_base G = 0 -> gh_ALL G = Ed -> header_damaged_dir Pd std G 2 Dd fsdd.
Proof.
  intros Eb EA.
  assert (ET : gh_T Pd G = Td) by (unfold gh_T, gh_ser; rewrite EA; vm_compute; reflexivity).
  unfold header_damaged_dir. cbn zeta. rewrite ET, Eb.
  split. { vm_compute. repeat (constructor; [split; reflexivity|]). constructor. }
  split; [vm_compute; reflexivity|]. split; [vm_compute; reflexivity|].
  split; [vm_compute; reflexivity|]. split; [vm_compute; congruence|].
  split; [vm_compute; congruence|]. split; [vm_compute; reflexivity|]. exact path_ok.
Qed.

(* what open recovers from the damaged directory (and from the clean one) *)
Definition vd : list (bytes * (list (N * bytes) * N)) :=
  [(qb, ([(0, pay "z"%byte)], 1)); (qa, ([(0, pay "x"%byte)], 1))].
Example view_d :
  view Pd fsdd = Some vd /\
  view Pd fsd = Some [(qb, ([(0, pay "z"%byte)], 1)); (qa, (batch, 2))].
Proof. vm_compute. split; reflexivity. Qed.

(* every premise of C12_header_damage except batch_fresh — and the batch is the LAST entry of the
   log (nothing after it, in particular no DeleteQueue) — yet open succeeds and the recovered
   queue a holds, at position 0 of the batch, the payload x of the deleted incarnation, and
   nothing at position 1: not a suffix of the batch.  The sub-list form
   (C12_header_damage_suffix) holds: [(0, x)] = appended a [first four entries]. *)
Definition st_rd : state :=
  Eval vm_compute in match open Pd fsdd None PNothing [] with OpenOk s => s | _ => st_dummy end.
Lemma open_d : open Pd fsdd None PNothing [] = OpenOk st_rd.
Proof. vm_compute. reflexivity. Qed.
Definition m_d : mq :=
  Eval vm_compute in match qs_get (s_qs st_rd) qa with Some m => m | None => mq_default end.

Theorem position_form_needs_fresh_e2e : exists G j fB,
  Inv Pd std G /\ header_damaged_dir Pd std G 2 Dd fsdd /\
  nth_error (gh_E G) j = Some (fB, EAppend qa 0 batch) /\ length (gh_E G) = S j /\
  open Pd fsdd None PNothing [] = OpenOk st_rd /\ qs_get (s_qs st_rd) qa = Some m_d /\
  records_of (q_buf m_d) (q_metas m_d) = [(0, pay "x"%byte)] /\
  forall k, filter (in_span 0 (0 + lenN batch)) (records_of (q_buf m_d) (q_metas m_d)) <> skipn k batch.
Proof.
  destruct ghost_d as (G & HI & Eb & EA).
  pose proof HI as (_ & (_ & _ & _ & F & EF & Hcov)).
  rewrite EA in EF. vm_compute in EF. injection EF as <-.
  destruct (Hcov qa [(6%nat, (0, pay "y"%byte)); (6%nat, (1, pay "w"%byte))] 2 eq_refl) as (_ & Hf).
  inversion Hf as [|? ? (j & f & e & H6 & Hj & _) _]; subst. cbn [fst] in H6.
  pose proof (dmg_nth Pd Pd_BS_lo Pd_BS_hi Pd_NB G j e f Hj) as He.
  assert (Hlen : length (gh_ALL G) = 7%nat) by (rewrite EA; reflexivity).
  rewrite gh_ALL_split, app_length, gh_before_length, map_length in Hlen.
  rewrite <- H6, EA in He. vm_compute in He. injection He as <-.
  exists G, j, f. split; [exact HI|]. split; [exact (dird G Eb EA)|]. split; [exact Hj|].
  split; [lia|]. split; [exact open_d|]. split; [vm_compute; reflexivity|].
  split; [vm_compute; reflexivity|].
  intros [|[|[|k]]]; vm_compute; discriminate.
Qed.
End Neg.

Print Assumptions Pos.premises.
Print Assumptions Pos.C12_inst.
Print Assumptions Pos.what_open_recovers.
Print Assumptions Counter.position_form_needs_fresh.
Print Assumptions Neg.position_form_needs_fresh_e2e.
