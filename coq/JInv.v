(* JInv.v — the junk-tolerant restart invariant InvJ.

   The restart invariant Inv (RestartInv.v) says that the ghost stream is EXACTLY
   gh_T G = encs_of 0 (ser (gh_ALL G)).  After the recovery of a crash image this is false: the
   files hold   old entries ++ junk (valid leading frames of the torn entry, a partial frame,
   the zero gap up to the resume position) ++ whatever is written next.

   The invariant is therefore parametrised by a FIXED PREFIX of the ghost stream
        PRE : bytes          everything in the stream up to the resume position of the
                             recovered writer (old encodings AND junk, any number of segments)
        OLD : list entry     the entries that a reader delivers out of PRE
        opos : list (N * N)  their (start cursor, first-frame position)
   and the ghost stream is
        jT G   = PRE ++ encs_of (lenN PRE) (ser NEW)      NEW = skipn (length OLD) (gh_ALL G)
        jpos G = opos ++ starts (lenN PRE) (ser NEW)      positions of ALL entries
   i.e. everything written after the recovery is a clean framed encoding starting at the cursor
   lenN PRE, and nothing at all is assumed about the bytes of PRE in the invariant itself.
   The clauses of PInv on the files, the stream and the writer read the same with jT for gh_T;
   those on what a reader delivers are stated on the explicit position list jpos (split at
   gh_k G) instead of `starts`/`delivered_from`; one clause is new: OLD is a prefix of gh_ALL G.
   The logical half LInv is the same (it never mentions bytes), as are the ghost
   operations gh_snoc / gh_app / gh_move / gh_reopen.  Inv is the instance PRE = [], OLD = []
   (Inv_InvJ), and RestartStep.v reads the preservation theorems of JInv.v, JGc.v, JStep.v
   for it.

   What the bytes of PRE must satisfy is needed only where the files are READ (a restart):
   the semantic premise  pre_reads  (JunkStream.v): a reader started at an (admissible) block
   boundary kb of  PRE ++ t2 ++ zeros  (t2 a clean encoding from cursor lenN PRE) delivers
   exactly the entries of OLD ++ es2 whose first frame is at or after kb*B, reports at most
   cmax corruptions, and ends at the end of t2 (from JunkStream.pre_reads_of_cont). *)
From Coq Require Import Lia ZArith ZifyN ZifyNat ZifyBool List Sorted.
From MRL Require Import Bytes BytesProofs Params Names NamesProofs Frame Record Mem Spec Rolling Log
  Driver SpecRefine RecordProofs StreamProofs PolicyProofs GcProofs GhostLog ReplaySpec
  HandleProofs FileStream ResyncProofs RestartInv RestartWrite RestartGc.

Lemma firstn_app_le {A} (l1 l2 : list A) n : (n <= length l1)%nat -> firstn n (l1 ++ l2) = firstn n l1.
Proof.
  intros H. rewrite firstn_app. replace (n - length l1)%nat with 0%nat by lia.
  cbn [firstn]. apply app_nil_r.
Qed.

Lemma skipn_app_le {A} (l1 l2 : list A) n : (n <= length l1)%nat -> skipn n (l1 ++ l2) = skipn n l1 ++ l2.
Proof.
  intros H. rewrite skipn_app. replace (n - length l1)%nat with 0%nat by lia. reflexivity.
Qed.

Lemma firstn_skipn_eq {A} (l a : list A) : firstn (length a) l = a -> l = a ++ skipn (length a) l.
Proof. intros H. rewrite <- H at 1. symmetry. apply firstn_skipn. Qed.

Lemma sorted_split_at (l : list (N * N)) b :
  StronglySorted (fun s s' : N * N => snd s < snd s') l ->
  exists m, (m <= length l)%nat /\
    Forall (fun s => snd s < b) (firstn m l) /\ Forall (fun s => b <= snd s) (skipn m l).
Proof.
  induction 1 as [|x l Hs IH Hx].
  - exists 0%nat. cbn. repeat split; constructor.
  - destruct (N.lt_ge_cases (snd x) b) as [Hlt|Hge].
    + destruct IH as (m & Hm & H1 & H2). exists (S m). cbn [length firstn skipn].
      split; [lia|]. split; [constructor; assumption|exact H2].
    + exists 0%nat. cbn [firstn skipn length]. split; [lia|]. split; [constructor|].
      constructor; [exact Hge|]. eapply Forall_impl; [|exact Hx]. cbn beta. intros s Hs'. lia.
Qed.

Lemma StronglySorted_app_lt {A} (R : A -> A -> Prop) l1 l2 :
  StronglySorted R l1 -> StronglySorted R l2 ->
  (forall x y, In x l1 -> In y l2 -> R x y) -> StronglySorted R (l1 ++ l2).
Proof.
  intros H1 H2 H. induction H1 as [|x l1 Hs IH Hx]; [exact H2|].
  cbn [app]. constructor.
  - apply IH. intros a b Ha Hb. apply H; [now right|exact Hb].
  - apply Forall_app. split; [exact Hx|]. apply Forall_forall. intros y Hy. apply H; [now left|exact Hy].
Qed.

Lemma StronglySorted_skipn {A} (R : A -> A -> Prop) : forall n l,
  StronglySorted R l -> StronglySorted R (skipn n l).
Proof.
  induction n as [|n IH]; intros l H; [exact H|].
  destruct H as [|x l Hs Hx]; [constructor|]. cbn [skipn]. now apply IH.
Qed.

Section JInv.
Variable P : params.
Hypothesis HBS_lo : 7 < BS P.
Hypothesis HBS_hi : BS P <= 65542.
Hypothesis HNB : 1 <= NB P.
Hypothesis Hcrc : forall t p, crcf P t p < 2 ^ 32.

Local Notation B := (BS P).
Local Notation FB := (FILE_BYTES P).
Local Notation ffp := (first_frame_pos P).
Local Notation enc_of := (enc_of P).
Local Notation encs_of := (encs_of P).
Local Notation cursor_after := (cursor_after P).
Local Notation starts := (starts P).
Local Notation H3 f := (f P HBS_lo HBS_hi Hcrc) (only parsing).
Local Notation H2 f := (f P HBS_lo HBS_hi) (only parsing).
Local Notation HW f := (f P HBS_lo HBS_hi HNB Hcrc) (only parsing).
Local Notation HN f := (f P HBS_lo HBS_hi HNB) (only parsing).

Variable PRE : bytes.
Variable OLD : list entry.
Variable opos : list (N * N).

(* what the invariant needs to know about the positions of the old entries *)
Definition pre_ok : Prop :=
  length opos = length OLD /\
  Forall (fun s => snd s < lenN PRE) opos /\
  StronglySorted (fun s s' => snd s < snd s') opos.

Definition jNEW (G : ghost) : list entry := skipn (length OLD) (gh_ALL G).
Definition jser (G : ghost) : list bytes := map entry_ser (jNEW G).
Definition jT (G : ghost) : bytes := PRE ++ encs_of (lenN PRE) (jser G).
Definition jpos (G : ghost) : list (N * N) := opos ++ starts (lenN PRE) (jser G).

Definition PInvJ (w : rwriter) (G : ghost) : Prop :=
  winv P w /\ wd_ok w /\ nd w /\ gh_base G <= wlo w /\
  let dl := wlo w - gh_base G in
  let c := dl * FB + wpos P w in
  lenN (jT G) <= c /\ c <= ffp (lenN (jT G)) /\
  wstream w =
    dropN (dl * FB) (jT G ++ zerosN ((dl + lenN (w_files w)) * FB - lenN (jT G))) /\
  Forall wf_entry (gh_ALL G) /\
  firstn (length OLD) (gh_ALL G) = OLD /\
  Forall (fun s => snd s < dl * FB) (firstn (gh_k G) (jpos G)) /\
  Forall2 (fun fe s => dl * FB <= snd s /\ (fst fe - gh_base G) * FB <= snd s)
          (gh_E G) (skipn (gh_k G) (jpos G)) /\
  tags_mono (gh_base G) (gh_log G) (w_file w).

Definition InvJ (st : state) (G : ghost) : Prop :=
  PInvJ (s_wr st) G /\ LInv (s_qs st) (wlo (s_wr st)) G.

(* the ghost enters NEW, the stream and the positions only through gh_ALL *)
Lemma jNEW_ext G G' : gh_ALL G' = gh_ALL G -> jNEW G' = jNEW G.
Proof. unfold jNEW. now intros ->. Qed.

Lemma jT_ext G G' : gh_ALL G' = gh_ALL G -> jT G' = jT G.
Proof. intros E. unfold jT, jser. now rewrite (jNEW_ext G G' E). Qed.

Lemma jpos_ext G G' : gh_ALL G' = gh_ALL G -> jpos G' = jpos G.
Proof. intros E. unfold jpos, jser. now rewrite (jNEW_ext G G' E). Qed.

Lemma InvJ_nodup st G : InvJ st G -> nodup_names (s_qs st).
Proof. intros (_ & HL). exact (LInv_nodup _ _ _ HL). Qed.

Lemma InvJ_qs_inv st G : InvJ st G -> qs_inv (s_qs st).
Proof. intros (_ & HL). exact (LInv_qs_inv _ _ _ HL). Qed.

Lemma InvJ_qs_wf st G : InvJ st G -> qs_wf (s_qs st).
Proof. intros (_ & HL). exact (LInv_qs_wf _ _ _ HL). Qed.

Lemma InvJ_winv st G : InvJ st G -> winv P (s_wr st) /\ wd_ok (s_wr st) /\ nd (s_wr st).
Proof. intros ((H1 & H2' & H3' & _) & _). auto. Qed.

Theorem invJ_restart_equal st G :
  InvJ st G ->
  forall tags', length tags' = length (gh_E G) ->
  exists qs',
    replay_entries [] (combine tags' (map snd (gh_E G))) = Some qs' /\
    qs_inv qs' /\ nodup_names qs' /\
    forall q, s_get (abs_qs qs') q = s_get (abs_qs (s_qs st)) q.
Proof. intros (_ & HL). exact (linv_restart_equal _ _ _ HL). Qed.

Lemma jALL_split w G : PInvJ w G -> gh_ALL G = OLD ++ jNEW G.
Proof.
  intros (_ & _ & _ & _ & _ & _ & _ & _ & Ho & _). cbn zeta in Ho.
  unfold jNEW. now apply firstn_skipn_eq.
Qed.

Lemma jlen_le w G : PInvJ w G -> (length OLD <= length (gh_ALL G))%nat.
Proof. intros H. rewrite (jALL_split w G H), app_length. lia. Qed.

Lemma jpos_length w G : pre_ok -> PInvJ w G -> length (jpos G) = length (gh_ALL G).
Proof.
  intros (Hl & _) H. unfold jpos. rewrite app_length, (ResyncProofs.starts_length P), Hl.
  unfold jser. rewrite map_length.
  pose proof (f_equal (@length entry) (jALL_split w G H)) as E. rewrite app_length in E. lia.
Qed.

Lemma gh_k_le G : (gh_k G <= length (gh_ALL G))%nat.
Proof. rewrite gh_ALL_split, app_length, gh_before_length. lia. Qed.

Lemma jpos_sorted G : pre_ok -> StronglySorted (fun s s' : N * N => snd s < snd s') (jpos G).
Proof.
  intros (_ & Hb & Hs). unfold jpos. apply StronglySorted_app_lt; [exact Hs|apply (H3 starts_sorted)|].
  intros x y Hx Hy. rewrite Forall_forall in Hb. specialize (Hb x Hx).
  pose proof (H3 starts_bounds (jser G) (lenN PRE)) as Hsb. rewrite Forall_forall in Hsb.
  destruct (Hsb y Hy) as (H1 & H2' & _). lia.
Qed.

Lemma jT_len G : lenN (jT G) = cursor_after (lenN PRE) (jser G).
Proof. unfold jT, ResyncProofs.cursor_after. now rewrite lenN_app. Qed.

Lemma jNEW_snoc G f e :
  (length OLD <= length (gh_ALL G))%nat -> jNEW (gh_snoc G f e) = jNEW G ++ [e].
Proof. intros H. unfold jNEW. rewrite gh_snoc_ALL. now apply skipn_app_le. Qed.

Lemma jser_snoc G f e :
  (length OLD <= length (gh_ALL G))%nat -> jser (gh_snoc G f e) = jser G ++ [entry_ser e].
Proof. intros H. unfold jser. now rewrite (jNEW_snoc G f e H), map_app. Qed.

Lemma jT_snoc G f e :
  (length OLD <= length (gh_ALL G))%nat ->
  jT (gh_snoc G f e) = jT G ++ enc_of (lenN (jT G)) (entry_ser e).
Proof.
  intros H. unfold jT. rewrite (jser_snoc G f e H), (H3 encs_of_app), <- app_assoc.
  cbn [ResyncProofs.encs_of]. rewrite app_nil_r, lenN_app. reflexivity.
Qed.

Lemma jpos_snoc G f e :
  (length OLD <= length (gh_ALL G))%nat ->
  jpos (gh_snoc G f e) = jpos G ++ [(lenN (jT G), ffp (lenN (jT G)))].
Proof.
  intros H. unfold jpos. rewrite (jser_snoc G f e H), (H3 starts_app), <- app_assoc.
  cbn [ResyncProofs.starts]. now rewrite <- jT_len.
Qed.

(* the premise of a write: the stream stays below 2^64 files *)
Definition stream_boundJ (G : ghost) (extra : list entry) : Prop :=
  FB * gh_base G + cursor_after (lenN PRE) (map entry_ser (jNEW G ++ extra)) <= FB * (U64_MAX + 1).

Lemma stream_boundJ_prefix G x y : stream_boundJ G (x ++ y) -> stream_boundJ G x.
Proof.
  unfold stream_boundJ. rewrite app_assoc, map_app, (H3 cursor_after_app).
  pose proof (H3 cursor_after_ge (map entry_ser y)
                (cursor_after (lenN PRE) (map entry_ser (jNEW G ++ x)))).
  lia.
Qed.

Lemma stream_boundJ_snoc G f e x :
  (length OLD <= length (gh_ALL G))%nat ->
  stream_boundJ G (e :: x) -> stream_boundJ (gh_snoc G f e) x.
Proof.
  intros H. unfold stream_boundJ. rewrite (jNEW_snoc G f e H), <- app_assoc.
  cbn [app gh_snoc gh_base]. trivial.
Qed.

Lemma pinvJ_write w G e w' r :
  pre_ok -> PInvJ w G -> wf_entry e -> stream_boundJ G [e] ->
  write_record P rwriter (wr_write P) (wr_rem P) w (entry_ser e) = (w', r) ->
  (exists n, r = Ok n) /\ wlo w' = wlo w /\ w_file w <= w_file w' /\
  PInvJ w' (gh_snoc G (w_file w) e).
Proof.
  intros Hpre HPJ Hwf Hbound Hwr.
  pose proof (jlen_le w G HPJ) as Hjl.
  pose proof (jpos_length w G Hpre HPJ) as Hjpl.
  destruct HPJ as (Hw & Hwd & Hnd & Hbase & Hc1 & Hc2 & Hs & HWe & Hold & HD1 & HD2 & Htags).
  cbn zeta in *.
  set (p := entry_ser e) in *.
  set (dl := wlo w - gh_base G) in *.
  set (T := jT G) in *. set (a := lenN T) in *.
  set (n := lenN (w_files w)) in *.
  set (c := dl * FB + wpos P w) in *.
  pose proof Hw as (Hok & Hwf' & Hoff & _).
  destruct (wr_ok_len P (HN HB0) HNB w Hok) as (Hn & Hn1). fold n in Hn, Hn1.
  pose proof (lenN_wstream P w Hw) as HlenS. fold n in HlenS.
  assert (Hpos : wpos P w = (n - 1) * FB + w_off w) by reflexivity.
  assert (Hposn : wpos P w <= n * FB) by nia.
  assert (Hcn : c <= (dl + n) * FB) by (unfold c; nia).
  set (buf := takeN (wpos P w) (wstream w)).
  assert (Ebuf : buf = dropN (dl * FB) (T ++ zerosN (c - a))).
  { unfold buf. rewrite Hs.
    replace (wpos P w) with (dl * FB + wpos P w - dl * FB) by lia.
    rewrite <- dropN_takeN. f_equal. fold c.
    rewrite takeN_app_ge by (fold a; lia). fold a. f_equal.
    apply takeN_zerosN. lia. }
  assert (Eenc : enc_of (wpos P w) p = enc_of c p).
  { unfold c. symmetry. apply (HW enc_of_shift). apply (HN mulFB_mod). }
  set (enc := enc_of c p) in *.
  assert (Elen : c + lenN enc = a + lenN (enc_of a p)) by (apply (HW enc_of_between_len); assumption).
  assert (Ebound : FB * gh_base G + (a + lenN (enc_of a p)) <= FB * (U64_MAX + 1)).
  { unfold stream_boundJ in Hbound. rewrite map_app in Hbound. cbn [map] in Hbound.
    fold p in Hbound. fold (jser G) in Hbound.
    rewrite (H3 cursor_after_snoc), <- jT_len in Hbound. exact Hbound. }
  set (M := wpos P w + lenN enc).
  set (v := mkVecW (wpos P w) buf).
  assert (Hsim : wsim P M w v).
  { unfold v. split; [exact Hw|]. split; [reflexivity|]. split.
    { cbn [vw_buf vw_cursor]. unfold buf. rewrite lenN_takeN, HlenS. lia. }
    split.
    { cbn [vw_buf]. rewrite <- (takeN_dropN (wpos P w) (wstream w)) at 1. fold buf. f_equal.
      rewrite Hs, dropN_dropN. fold c. rewrite dropN_app_ge by (fold a; lia). fold a.
      rewrite dropN_zerosN. fold n. f_equal. lia. }
    unfold M. replace (wlo w) with (gh_base G + dl) by lia. unfold c in Elen. nia. }
  assert (HG : Gv M (fst (write_record P vecw vw_write (vw_rem P) v p))).
  { rewrite (H3 write_record_enc_of). unfold Gv, v. cbn [fst vw_cursor].
    rewrite Eenc. unfold M. lia. }
  destruct (write_record_file_sim P (HN HB0) HNB M w v p (HN HB7) Hsim HG) as (Er & Hsim').
  rewrite Hwr in Er, Hsim'. rewrite (H3 write_record_enc_of) in Er, Hsim'.
  unfold v in Er, Hsim'. cbn [fst snd vw_cursor vw_buf] in Er, Hsim'. rewrite Eenc in Er, Hsim'.
  destruct Hsim' as (Hw' & Hcur' & _ & Hs' & _). cbn [vw_cursor vw_buf] in Hcur', Hs'.
  pose proof (write_record_hd P (wlo w) w p w' r Hwr (conj Hok (HN wr_ok_hd w Hok))) as Hhd.
  pose proof (HN hd_inv_wlo _ _ Hhd) as Elo.
  destruct (write_record_wr_step P w p w' r Hwr Hok) as (Hok' & Hmono).
  destruct (wr_ok_len P (HN HB0) HNB w' Hok') as (Hn' & Hn1').
  set (n' := lenN (w_files w')) in *.
  split; [eexists; exact Er|]. split; [exact Elo|]. split; [exact Hmono|].
  unfold PInvJ. cbn zeta. rewrite Elo. fold dl.
  rewrite (jT_snoc G (w_file w) e Hjl). fold T. fold a. cbn [gh_snoc gh_base].
  assert (ET' : lenN (T ++ enc_of a p) = dl * FB + wpos P w').
  { rewrite lenN_app. fold a. unfold c in Elen. lia. }
  split; [exact Hw'|].
  split; [exact (write_record_inv P rwriter (wr_write P) (wr_rem P) wd_ok (wr_write_wd_ok P) w p w' r Hwr Hwd)|].
  split; [exact (write_record_inv P rwriter (wr_write P) (wr_rem P) (nd) (wr_write_nd P) w p w' r Hwr Hnd)|].
  split; [exact Hbase|].
  fold p. fold dl. fold n'. split; [rewrite ET'; lia|]. split; [rewrite ET'; apply (H2 ffp_ge)|].
  split.
  { rewrite Hs'. fold n'. rewrite dropN_app_le by lia. f_equal; [|f_equal; lia].
    rewrite Ebuf. rewrite <- (HW enc_of_between a c p Hc1 Hc2). fold enc.
    rewrite (app_assoc T). rewrite (dropN_app_le (dl * FB) (T ++ zerosN (c - a))); [reflexivity|].
    rewrite lenN_app, lenN_zerosN. fold a. unfold c. lia. }
  fold (gh_snoc G (w_file w) e).
  split; [rewrite gh_snoc_ALL; apply Forall_app; split; [exact HWe|constructor; [exact Hwf|constructor]]|].
  split.
  { rewrite gh_snoc_ALL, firstn_app_le by exact Hjl. exact Hold. }
  pose proof (gh_k_le G) as Hk.
  rewrite gh_snoc_k, (jpos_snoc G (w_file w) e Hjl). fold T. fold a.
  split.
  { rewrite firstn_app_le by lia. exact HD1. }
  split.
  { rewrite skipn_app_le by lia. cbn [gh_snoc gh_E].
    apply Forall2_app_one; [exact HD2|]. cbn [fst snd].
    split; [unfold c in Hc2; lia|].
    replace (w_file w - gh_base G) with (dl + (n - 1)) by lia.
    unfold c in Hc2. nia. }
  rewrite gh_snoc_log.
  eapply tags_mono_app; [exact Htags|]. cbn [tags_mono]. lia.
Qed.

Theorem invJ_write_entry st G e st1 r qs' :
  pre_ok -> InvJ st G -> wf_entry e -> stream_boundJ G [e] ->
  (forall F, t_replay [] 0 (gh_ALL G) = Some F -> legal F e) ->
  write_entry P st e = (st1, r) ->
  apply_entry (s_qs st) (w_file (s_wr st)) e = Some qs' -> qs_wf qs' ->
  (exists n, r = Ok n) /\ s_qs st1 = s_qs st /\ s_pol st1 = s_pol st /\
  wlo (s_wr st1) = wlo (s_wr st) /\ w_file (s_wr st) <= w_file (s_wr st1) /\
  InvJ (set_qs st1 qs') (gh_snoc G (w_file (s_wr st)) e).
Proof.
  intros Hpre (HP & HL) Hwf Hb Hleg Hwr Hap Hwf'. unfold write_entry in Hwr.
  destruct (write_record P rwriter (wr_write P) (wr_rem P) (s_wr st) (entry_ser e)) as [w1 r1] eqn:Ew.
  inversion Hwr; subst st1 r. clear Hwr.
  destruct (pinvJ_write _ _ _ _ _ Hpre HP Hwf Hb Ew) as (Hr & Elo & Hmono & HP').
  split; [exact Hr|]. split; [reflexivity|]. split; [reflexivity|].
  cbn [set_wr s_wr]. split; [exact Elo|]. split; [exact Hmono|].
  split; cbn [set_qs set_wr s_wr s_qs]; [exact HP'|]. rewrite Elo.
  apply (linv_apply _ _ _ _ _ _ HL Hwf' Hleg Hap).
  destruct HP as (Hw & _). now apply (HN winv_wlo_le).
Qed.

End JInv.

Section Instance.
Variable P : params.
Hypothesis HBS_lo : 7 < BS P.
Hypothesis HBS_hi : BS P <= 65542.
Hypothesis HNB : 1 <= NB P.
Hypothesis Hcrc : forall t p, crcf P t p < 2 ^ 32.

Lemma pre_ok_nil : pre_ok [] [] [].
Proof. split; [reflexivity|]. split; constructor. Qed.

Lemma jT_nil G : jT P [] [] G = gh_T P G.
Proof. unfold jT, jser, jNEW. cbn [length skipn app]. reflexivity. Qed.

Lemma jpos_nil G : jpos P [] [] [] G = starts P 0 (gh_ser G).
Proof. unfold jpos, jser, jNEW. cbn [length skipn app]. reflexivity. Qed.

Lemma starts_firstn_skipn es1 : forall es2 a,
  firstn (length es1) (starts P a (es1 ++ es2)) = starts P a es1 /\
  skipn (length es1) (starts P a (es1 ++ es2)) = starts P (cursor_after P a es1) es2.
Proof.
  intros es2 a. rewrite (starts_app P HBS_lo HBS_hi Hcrc).
  pose proof (starts_length P es1 a) as Hl. set (s1 := starts P a es1) in *. clearbody s1.
  rewrite <- Hl.
  split; [apply RestartGc.firstn_app_exact|apply RestartGc.skipn_app_exact].
Qed.

(* with the empty prefix the positions split at gh_k as the ghost stream does *)
Lemma jpos_nil_split G :
  firstn (gh_k G) (jpos P [] [] [] G) = starts P 0 (gh_ser_before G) /\
  skipn (gh_k G) (jpos P [] [] [] G) = starts P (gh_a0 P G) (gh_ser_E G).
Proof.
  rewrite jpos_nil, gh_ser_split.
  replace (gh_k G) with (length (gh_ser_before G))
    by (unfold gh_ser_before; now rewrite map_length, gh_before_length).
  apply starts_firstn_skipn.
Qed.

Theorem PInv_PInvJ w G : PInv P w G <-> PInvJ P [] [] [] w G.
Proof.
  destruct (jpos_nil_split G) as [E1 E2].
  unfold PInv, PInvJ. rewrite jT_nil. cbn zeta. rewrite E1, E2. cbn [length firstn].
  split.
  - intros (H1 & H2 & H3 & H4 & H5 & H6 & H7 & H8 & H9 & H10 & H11).
    repeat (split; [assumption|]). split; [reflexivity|]. repeat (split; [assumption|]). assumption.
  - intros (H1 & H2 & H3 & H4 & H5 & H6 & H7 & H8 & _ & H9 & H10 & H11).
    repeat (split; [assumption|]). assumption.
Qed.

Theorem Inv_InvJ st G : Inv P st G <-> InvJ P [] [] [] st G.
Proof. unfold Inv, InvJ. now rewrite PInv_PInvJ. Qed.

End Instance.

Print Assumptions pinvJ_write.
Print Assumptions invJ_write_entry.
Print Assumptions Inv_InvJ.
