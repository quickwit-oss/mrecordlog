(* PersistLogic.v — the logical half of "recovery yields the state after some prefix of the
   history".
   inv_mid: the restart invariant holds in the middle of a delete / truncate call (own entry
   written, queues updated, garbage collector not yet run).
   prefix_state: for EVERY prefix l1 of the entries logged by a history there is a state that
   satisfies the invariant for the ghost log extended by exactly l1, whose abstract content is
   that of the state after m calls (a prefix of a call's entry group that contains the call's
   own entry gives the abstract state after the call: position entries are abstract no-ops).
   kept_replay: under the invariant, replaying the entries delivered from the first kept file
   (any tags) gives the abstract content of the live queues. *)
From Coq Require Import Lia ZArith ZifyN ZifyNat ZifyBool List Sorted.
From MRL Require Import Bytes BytesProofs Params Names NamesProofs Frame Record Mem Spec Rolling Log
  Driver Hist SpecRefine RecordProofs StreamProofs PolicyProofs GcProofs GhostLog ReplaySpec
  HandleProofs FileStream ResyncProofs PersistProofs WriterProofs RestartInv RestartWrite RestartGc
  RestartStep OpenReplay RestartFinal TornFile CrashTrace PersistTrace PersistGc.

Section PLogic.
Variable P : params.
Hypothesis HBS_lo : 7 < BS P.
Hypothesis HBS_hi : BS P <= 65542.
Hypothesis HNB : 1 <= NB P.
Hypothesis Hcrc : forall t p, crcf P t p < 2 ^ 32.
Hypothesis HGC : L_GC P = false.

Local Notation B := (BS P).
Local Notation FB := (FILE_BYTES P).
Local Notation ffp := (first_frame_pos P).
Local Notation sr := (map entry_ser).
Local Notation HW f := (f P HBS_lo HBS_hi HNB Hcrc) (only parsing).
Local Notation HG f := (f P HBS_lo HBS_hi HNB Hcrc HGC) (only parsing).
Local Notation HN f := (f P HBS_lo HBS_hi HNB) (only parsing).
Local Notation H3 f := (f P HBS_lo HBS_hi Hcrc) (only parsing).
Local Notation Inv := (Inv P).
Local Notation PInv := (PInv P).
Local Notation stream_bound := (stream_bound P).
Local Notation absq st := (abs_qs (s_qs st)).

Lemma write_entry_wlo st e st1 r :
  wr_ok (s_wr st) -> write_entry P st e = (st1, r) -> wlo (s_wr st1) = wlo (s_wr st).
Proof.
  intros Hok Hw. unfold write_entry in Hw.
  destruct (write_record P rwriter (wr_write P) (wr_rem P) (s_wr st) (entry_ser e)) as [w1 r1] eqn:Ew.
  inversion Hw; subst st1 r. cbn [set_wr s_wr].
  apply (HN hd_inv_wlo). eapply write_record_hd; [exact Ew|].
  split; [exact Hok|]. now apply (HN wr_ok_hd).
Qed.

Lemma inv_mid st G o st2 e :
  Inv st G -> op_wf_strict (s_qs st) o ->
  stream_bound G (map snd (step_log P st o)) ->
  mid_state P st o = Some st2 -> own_entry st o = Some e ->
  step_log P st o = (w_file (s_wr st), e) :: gc_log P st2 (gc_hint o) /\
  Inv st2 (gh_snoc G (w_file (s_wr st)) e) /\
  stream_bound (gh_snoc G (w_file (s_wr st)) e) (map snd (gc_log P st2 (gc_hint o))) /\
  wlo (s_wr st2) = wlo (s_wr st).
Proof.
  intros HI Hop Hb Hmid Hown.
  pose proof HI as (HP & HL). pose proof HL as (Hqwf & _).
  pose proof (step_log_wf P st o Hqwf (op_wf_strict_wf _ _ Hop)) as Hlwf.
  assert (Hok : wr_ok (s_wr st)) by (destruct HP as ((Hok & _) & _); exact Hok).
  (* what differs between delete and truncate: why e is legal and the new queues well formed *)
  assert (Hcase : forall qs', apply_entry (s_qs st) (w_file (s_wr st)) e = Some qs' ->
            (forall F, t_replay [] 0 (gh_ALL G) = Some F -> legal F e) /\ qs_wf qs').
  { destruct o as [q|q hint|q pos payloads|q p hint|a]; cbn [own_entry] in Hown; try discriminate;
      (destruct (qs_get (s_qs st) q) as [m|] eqn:Eq; [|discriminate]); injection Hown as <-;
      cbn [apply_entry]; rewrite ?Eq; intros qs' E; injection E as <-.
    - split; [intros F; exact (legal_delete _ _ _ q m _ F HL Eq)|exact (qs_wf_remove _ q Hqwf)].
    - split; [intros F; exact (legal_truncate _ _ _ q m _ F HL Eq)|].
      destruct (qs_wf_get _ _ _ Hqwf Eq) as (Hn & Hnx).
      apply qs_wf_put; [exact Hqwf|exact Hn|].
      cbn [op_wf_strict] in Hop. destruct (truncate_head_next m p) as [-> | ->]; lia. }
  destruct (mid_scheme P st o st2 Hmid) as (e' & qs' & mk & Hown' & Hap & -> & Elog & _).
  rewrite Hown in Hown'. injection Hown' as <-. destruct (Hcase _ Hap) as (Hleg & Hwf').
  destruct (write_entry P st e) as [st1 r1] eqn:Ew. cbn [fst snd] in *.
  rewrite Elog in Hlwf, Hb. cbn [map snd] in Hb. inversion Hlwf as [|? ? Hwf _]; subst. cbn [snd] in Hwf.
  destruct (HW inv_write_then st G e _ st1 r1 _ HI Hwf Hb Hleg Ew Hap Hwf')
    as ((k & ->) & Eqs & _ & HI1 & Hb1).
  split; [exact Elog|]. split; [exact HI1|]. split; [exact Hb1|].
  cbn [set_qs s_wr]. eapply write_entry_wlo; eassumption.
Qed.

Lemma rp_log_prefix names : forall st l1 l2,
  rp_log P st names = l1 ++ l2 ->
  exists names1, (forall x, In x names1 -> In x names) /\ rp_log P st names1 = l1.
Proof.
  induction names as [|n names IH]; intros st l1 l2 H; cbn [rp_log] in H.
  - destruct l1; [|discriminate]. exists []. split; [intros x []|reflexivity].
  - destruct (qs_get (s_qs st) n) as [q|] eqn:Eq.
    + destruct l1 as [|x l1'].
      { exists []. split; [intros x []|reflexivity]. }
      cbn [app] in H. injection H as <- H.
      destruct (write_entry P st (EPosition n (next_position q))) as [st1 [k|e]] eqn:Ew.
      * destruct (IH st1 l1' l2 H) as (names1 & Hin & E).
        exists (n :: names1). split.
        { intros y [->|Hy]; [now left|right; now apply Hin]. }
        cbn [rp_log]. now rewrite Eq, Ew, E.
      * destruct l1'; [|discriminate]. exists [n]. split.
        { intros y [->|[]]. now left. }
        cbn [rp_log]. now rewrite Eq, Ew.
    + destruct (IH st l1 l2 H) as (names1 & Hin & E).
      exists (n :: names1). split.
      { intros y [->|Hy]; [now left|right; now apply Hin]. }
      cbn [rp_log]. now rewrite Eq.
Qed.

Lemma rp_prefix_state st2 G2 names l1 l2 :
  Inv st2 G2 -> names_empty (s_qs st2) names ->
  stream_bound G2 (map snd (rp_log P st2 names)) ->
  rp_log P st2 names = l1 ++ l2 ->
  exists st_x, Inv st_x (gh_app G2 l1) /\ s_qs st_x = s_qs st2 /\
               wlo (s_wr st_x) = wlo (s_wr st2).
Proof.
  intros HI Hne Hb Hl. destruct (rp_log_prefix names st2 l1 l2 Hl) as (names1 & Hin & E).
  destruct (record_positions P st2 names1 0) as [st_x r] eqn:Erp.
  assert (Hne1 : names_empty (s_qs st2) names1).
  { intros n q Hn. apply Hne. now apply Hin. }
  assert (Hb1 : stream_bound G2 (map snd (rp_log P st2 names1))).
  { rewrite E. rewrite Hl, map_app in Hb. exact (HW stream_bound_prefix _ _ _ Hb). }
  destruct (HW inv_record_positions names1 st2 G2 0 st_x r HI Hne1 Hb1 Erp)
    as (_ & Eqs & _ & Elo & _ & HIx & _).
  exists st_x. rewrite E in HIx. auto.
Qed.

Lemma run_cons_fst st o t r :
  fst (run P st ((o, t) :: r)) = fst (run P (fst (step P st o t)) r).
Proof.
  cbn [run]. destruct (step P st o t) as [st1 out]. cbn [fst].
  destruct (run P st1 r) as [st2 outs]. reflexivity.
Qed.

Lemma mid_none_log st o : mid_state P st o = None -> (length (step_log P st o) <= 1)%nat.
Proof.
  destruct o as [q|q hint|q pos payloads|q p hint|a]; cbn [mid_state step_log]; intros H.
  - unfold create_log. destruct (qs_contains (s_qs st) q); cbn [length]; lia.
  - unfold delete_log. destruct (qs_get (s_qs st) q); [discriminate|]. cbn [length]. lia.
  - unfold append_log. destruct (qs_get (s_qs st) q); [|cbn [length]; lia].
    destruct (append_target m pos); [|cbn [length]; lia].
    destruct payloads; cbn [length]; lia.
  - unfold truncate_log. destruct (qs_get (s_qs st) q); [discriminate|]. cbn [length]. lia.
  - cbn [length]. lia.
Qed.

Lemma mid_own st o st2 : mid_state P st o = Some st2 -> exists e, own_entry st o = Some e.
Proof.
  destruct o as [q|q hint|q pos payloads|q p hint|a]; cbn [mid_state own_entry]; try discriminate;
    destruct (qs_get (s_qs st) q); try discriminate; eauto.
Qed.

(* the queues at the end of a delete / truncate call are those of its middle *)
Lemma step_mid_qs st o t st2 :
  mid_state P st o = Some st2 -> no_io (snd (step P st o t)) ->
  s_qs (fst (step P st o t)) = s_qs st2.
Proof.
  intros Hmid Hno.
  destruct (mid_scheme P st o st2 Hmid) as (e & qs' & mk & _ & _ & _ & _ & Hst).
  rewrite (Hst t) in *.
  destruct (snd (write_entry P st e)) as [n|x]; [|exfalso; eapply Hno; reflexivity].
  pose proof (run_gc_qs P st2 (gc_hint o)) as Hq.
  destruct (run_gc_if_necessary P st2 (gc_hint o)) as [st3 [k|x]]; [|exfalso; eapply Hno; reflexivity].
  cbn [fst] in *. rewrite <- Hq.
  destruct o; cbn [fin_state]; rewrite ?persist_on_policy_qs; reflexivity.
Qed.

(* the bound for what follows, at a ghost whose log has grown by l *)
Lemma stream_bound_advance G G1 l X :
  gh_base G1 = gh_base G -> gh_dropped G1 = gh_dropped G -> gh_log G1 = gh_log G ++ l ->
  stream_bound G (map snd l ++ X) -> stream_bound G1 X.
Proof.
  intros Eb Ed El Hb. unfold RestartWrite.stream_bound, gh_ALL in *.
  rewrite Eb, Ed, El, (map_app snd), <- !app_assoc. rewrite <- !app_assoc in Hb. exact Hb.
Qed.

(* under the invariant and the bound the first call of a history reports no I/O error, and the
   hypotheses hold again for the rest *)
Lemma step_advance st G o t h :
  Inv st G -> hist_wf P st ((o, t) :: h) ->
  stream_bound G (map snd (run_log P st ((o, t) :: h))) ->
  let st1 := fst (step P st o t) in
  op_wf_strict (s_qs st) o /\ hist_wf P st1 h /\
  stream_bound G (map snd (step_log P st o)) /\ no_io (snd (step P st o t)) /\
  exists G1, Inv st1 G1 /\ gh_base G1 = gh_base G /\ gh_dropped G1 = gh_dropped G /\
             gh_log G1 = gh_log G ++ step_log P st o /\
             stream_bound G1 (map snd (run_log P st1 h)).
Proof.
  intros HI (Hop & Hwf) Hb st1. cbn [run_log] in Hb. rewrite map_app in Hb.
  pose proof (HW stream_bound_prefix _ _ _ Hb) as Hb1.
  pose proof (HG step_no_io st G o t HI Hop Hb1) as Hno.
  destruct (HG inv_step st G o t st1 _ HI Hop Hb1 (surjective_pairing _) Hno)
    as (G1 & HI1 & Eb1 & Ed1 & El1).
  repeat (split; [assumption|]). exists G1. repeat (split; [assumption|]).
  exact (stream_bound_advance G G1 _ _ Eb1 Ed1 El1 Hb).
Qed.

Theorem prefix_state h : forall st G l1 l2,
  Inv st G -> hist_wf P st h -> stream_bound G (map snd (run_log P st h)) ->
  run_log P st h = l1 ++ l2 ->
  exists m st_x G_x,
    (m <= length h)%nat /\ Inv st_x G_x /\ gh_base G_x = gh_base G /\
    gh_dropped G_x = gh_dropped G /\ gh_log G_x = gh_log G ++ l1 /\
    (forall q, s_get (absq st_x) q = s_get (absq (fst (run P st (firstn m h)))) q) /\
    (m = 0%nat -> l1 = []) /\
    ((st_x = fst (run P st (firstn m h)) /\
      forall m' o t, m = S m' -> nth_error h m' = Some (o, t) ->
        mid_state P (fst (run P st (firstn m' h))) o = None) \/
     exists m', m = S m' /\ wlo (s_wr st_x) = wlo (s_wr (fst (run P st (firstn m' h))))).
Proof.
  induction h as [|[o t] h IH]; intros st G l1 l2 HI Hwf Hb Hl.
  - cbn [run_log] in Hl. destruct l1; [|discriminate].
    exists 0%nat, st, G. cbn [firstn run fst length]. rewrite app_nil_r.
    split; [apply Nat.le_0_l|]. split; [exact HI|]. repeat (split; [reflexivity|]).
    left. split; [reflexivity|]. intros m' o t Hm. discriminate Hm.
  - destruct (step_advance st G o t h HI Hwf Hb) as (Hop & Hwf' & Hb1 & Hno & G1 & HI1 & Eb1 & Ed1 & El1 & Hb2).
    clear Hwf. rename Hwf' into Hwf. cbn [run_log] in Hl.
    destruct (step P st o t) as [st1 out] eqn:Es. cbn [fst snd] in *.
    assert (Est1 : forall m, fst (run P st (firstn (S m) ((o, t) :: h))) = fst (run P st1 (firstn m h))).
    { intros m. cbn [firstn]. rewrite run_cons_fst, Es. reflexivity. }
    assert (Hcase : (exists l, step_log P st o = l1 ++ l) \/
                    (exists l, l <> [] /\ l1 = step_log P st o ++ l /\ run_log P st1 h = l ++ l2)).
    { destruct (app_eq_app _ _ _ _ Hl) as (l & [(E1 & E2) | (E1 & E2)]).
      - left. now exists l.
      - destruct l as [|y l'].
        + left. exists []. rewrite E1. now rewrite !app_nil_r.
        + right. exists (y :: l'). split; [discriminate|]. auto. }
    destruct Hcase as [(l & E1) | (l & Hlne & E1 & E2)].
    + (* the prefix ends inside the call *)
      destruct l1 as [|x l1'].
      { exists 0%nat, st, G. cbn [firstn run fst length]. rewrite app_nil_r.
        split; [apply Nat.le_0_l|]. split; [exact HI|]. repeat (split; [reflexivity|]).
        left. split; [reflexivity|]. intros m' o' t' Hm. discriminate Hm. }
      destruct (mid_state P st o) as [st2|] eqn:Emid.
      * destruct (mid_own st o st2 Emid) as (e & Hown).
        destruct (inv_mid st G o st2 e HI Hop Hb1 Emid Hown) as (Elog & HI2 & Hb2' & Elo2).
        rewrite Elog in E1. cbn [app] in E1. injection E1 as <- E1.
        assert (Hx : exists st_x, Inv st_x (gh_app (gh_snoc G (w_file (s_wr st)) e) l1') /\
                       s_qs st_x = s_qs st2 /\ wlo (s_wr st_x) = wlo (s_wr st2)).
        { unfold gc_log in E1, Hb2'. destruct (has_deletable st2).
          - eapply rp_prefix_state; [exact HI2| |exact Hb2'|exact E1].
            apply pick_order_names_empty. destruct HI2 as (_ & HL2). exact (LInv_nodup _ _ _ HL2).
          - destruct l1'; [|discriminate]. exists st2. rewrite gh_app_nil. auto. }
        destruct Hx as (st_x & HIx & Eqx & Elox).
        exists 1%nat, st_x, (gh_app (gh_snoc G (w_file (s_wr st)) e) l1'). cbn [length].
        split; [lia|]. split; [exact HIx|]. split; [reflexivity|]. split; [reflexivity|].
        split; [rewrite gh_app_log, gh_snoc_log, <- app_assoc; reflexivity|].
        split.
        { intros q. rewrite Est1. cbn [firstn run fst]. rewrite Eqx.
          pose proof (step_mid_qs st o t st2 Emid) as Hs. rewrite Es in Hs. cbn [fst snd] in Hs.
          now rewrite (Hs Hno). }
        split; [discriminate|].
        right. exists 0%nat. split; [reflexivity|]. cbn [firstn run fst]. congruence.
      * pose proof (mid_none_log st o Emid) as Hlen. rewrite E1 in Hlen.
        cbn [app length] in Hlen. rewrite app_length in Hlen.
        assert (l1' = [] /\ l = []) as [-> ->].
        { destruct l1'; [|cbn [length] in Hlen; lia]. destruct l; [auto|cbn [length] in Hlen; lia]. }
        exists 1%nat, st1, G1. cbn [length]. rewrite app_nil_r in E1.
        split; [lia|]. split; [exact HI1|]. split; [exact Eb1|]. split; [exact Ed1|].
        split; [rewrite El1, E1; reflexivity|].
        split; [intros q; now rewrite Est1|]. split; [discriminate|].
        left. split; [now rewrite Est1|].
        intros m' o' t' Hm' Hnth. injection Hm' as <-. cbn [nth_error] in Hnth.
        injection Hnth as <- <-. cbn [firstn run fst]. exact Emid.
    + (* the prefix covers the whole call, and more *)
      destruct (IH st1 G1 l l2 HI1 Hwf Hb2 E2)
        as (m & st_x & G_x & Hm & HIx & Eb & Ed & El & Hq & Hm0 & Hw).
      destruct m as [|m0]; [exfalso; apply Hlne; now apply Hm0|].
      exists (S (S m0)), st_x, G_x. cbn [length].
      split; [lia|]. split; [exact HIx|]. split; [congruence|]. split; [congruence|].
      split; [rewrite El, El1, E1; now rewrite app_assoc|].
      split; [intros q; rewrite Est1; apply Hq|]. split; [discriminate|].
      destruct Hw as [(-> & Hmid)|(m' & Em' & Hw)].
      * left. split; [now rewrite Est1|].
        intros m' o' t' Hm' Hnth. injection Hm' as <-. cbn [nth_error] in Hnth.
        rewrite Est1. now apply (Hmid m0 o' t').
      * right. exists (S m'). split; [congruence|]. now rewrite Est1.
Qed.

Theorem kept_replay st_x G_x E_pre Ekept tags :
  Inv st_x G_x -> gh_ALL G_x = E_pre ++ Ekept ->
  sr Ekept = delivered_from P ((wlo (s_wr st_x) - gh_base G_x) * FB) 0 (sr (gh_ALL G_x)) ->
  length tags = length Ekept ->
  exists qs',
    replay_entries [] (combine tags Ekept) = Some qs' /\ qs_inv qs' /\ nodup_names qs' /\
    forall q, s_get (abs_qs qs') q = s_get (absq st_x) q.
Proof.
  intros HI HE Hdel Hlen. pose proof HI as (HP & _).
  destruct (HW PInv_delivered _ _ HP) as (Edel & _).
  change (gh_ser G_x) with (sr (gh_ALL G_x)) in Edel. rewrite Edel in Hdel.
  assert (Hk : Ekept = map snd (gh_E G_x)).
  { rewrite gh_ALL_split in HE. apply app_eq_len in HE; [symmetry; apply HE|].
    apply (f_equal (@length bytes)) in Hdel. unfold gh_ser_E in Hdel.
    rewrite !map_length in Hdel. rewrite map_length. lia. }
  subst Ekept. rewrite map_length in Hlen.
  exact (inv_restart_equal P st_x G_x HI tags Hlen).
Qed.

End PLogic.

Print Assumptions prefix_state.
Print Assumptions kept_replay.
Print Assumptions inv_mid.
