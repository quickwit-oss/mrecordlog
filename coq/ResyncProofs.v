(* ResyncProofs.v — reading the WAL stream from a block boundary in the middle
   (resynchronisation of the record reader), used for property C01, at the level
   of the in-memory block reader vecr of Driver.v.  Same setting as StreamProofs.v. *)
From Coq Require Import Lia ZArith ZifyN ZifyNat ZifyBool Sorted.
From MRL Require Import Bytes BytesProofs Params Frame Driver StreamProofs DamageProofs TornProofs.

Section Resync.
Variable P : params.
Hypothesis HBS_lo : 7 < BS P.
Hypothesis HBS_hi : BS P <= 65542.
Hypothesis Hcrc : forall t p, crcf P t p < 2 ^ 32.

Local Notation B := (BS P).
Local Notation rframe := (read_frame P vecr (vr_next P) vr_block).
Local Notation gonext := (go_next P vecr (vr_next P) vr_block).
Local Notation pad_of := (pad_of P).
Local Notation chunk_of := (chunk_of P).
Local Notation enc_rel := (enc_rel P).
Local Notation encs_rel := (encs_rel P).
Local Notation rd_at := (rd_at P).
Local Notation at_pos := (at_pos P).
Local Notation at_posn := (at_posn P).
Local Notation stream_ok := (stream_ok P).
Local Notation mem_read_fin := (mem_read_fin P).
Local Notation H3 f := (f P HBS_lo HBS_hi Hcrc) (only parsing).
Local Notation H2 f := (f P HBS_lo HBS_hi) (only parsing).
Local Notation mod_kc := (H2 StreamProofs.mod_kc).
Local Notation mod_lt_B := (H2 StreamProofs.mod_lt_B).
Local Notation enc_rel_frames := (H3 StreamProofs.enc_rel_frames).
Local Notation lenN_take_chunk := (H3 StreamProofs.lenN_take_chunk).
Local Notation write_record_vecw := (H3 StreamProofs.write_record_vecw).
Local Notation encs_rel_app_inv := (H3 DamageProofs.encs_rel_app_inv).
Local Notation at_pos_pad := (H3 TornProofs.at_pos_pad).
Local Notation blocks_above := (H2 TornProofs.blocks_above).

(* the position at which the first frame of an entry written at cursor a starts: the writer
   first pads to the next block when fewer than 7 bytes remain in the current one *)
Definition first_frame_pos (a : N) : N := a + lenN (pad_of a).
Local Notation ffp := first_frame_pos.

Lemma ffp_ge a : a <= ffp a.
Proof. unfold first_frame_pos. lia. Qed.

(* closed form, on the block number and the offset in the block (c = B: the end of block k) *)
Lemma ffp_closed k c : c <= B -> ffp (k * B + c) = if B - c <? 7 then (k + 1) * B else k * B + c.
Proof.
  intros Hc. unfold first_frame_pos. rewrite lenN_pad_of.
  destruct (N.eq_dec c B) as [->|Hne].
  - rewrite (H2 StreamProofs.mod_kB).
    destruct (N.ltb_spec (B - 0) 7) as [H|_]; [lia|].
    destruct (N.ltb_spec (B - B) 7) as [_|H]; lia.
  - rewrite mod_kc by lia.
    destruct (N.ltb_spec (B - c) 7) as [H|H]; lia.
Qed.

Lemma block_offset a : exists k c, a = k * B + c /\ c < B.
Proof.
  exists (a / B), (a mod B). pose proof (N.div_mod a B) as Hdm. pose proof (mod_lt_B a) as Hm. lia.
Qed.

Lemma aligned_elim b : b mod B = 0 -> b = (b / B) * B.
Proof. intros H. pose proof (N.div_mod b B) as Hdm. lia. Qed.

Lemma pad_of_aligned kb : pad_of (kb * B) = [].
Proof.
  unfold StreamProofs.pad_of. rewrite N.mod_mul by lia.
  destruct (N.ltb_spec (B - 0) 7) as [Hlt|_]; [lia | reflexivity].
Qed.

Lemma ffp_aligned kb : ffp (kb * B) = kb * B.
Proof. unfold first_frame_pos. rewrite pad_of_aligned, (@lenN_nil byte). lia. Qed.

Lemma ffp_le_boundary a kb : a <= kb * B -> ffp a <= kb * B.
Proof.
  destruct (block_offset a) as (k & c & -> & Hc). intros Ha. rewrite ffp_closed by lia.
  destruct (N.ltb_spec (B - c) 7) as [Hpad|_]; [|exact Ha].
  apply (blocks_above kb k c); [exact Ha | lia].
Qed.

(* a block boundary between the cursor and the first-frame position IS the first-frame position
   (only padding lies in between) *)
Lemma boundary_is_ffp a kb : a <= kb * B -> kb * B <= ffp a -> kb * B = ffp a.
Proof. intros H1 H2. pose proof (ffp_le_boundary a kb H1). lia. Qed.

Lemma ffp_between_r a c : a <= c -> c <= ffp a -> ffp c = ffp a.
Proof.
  destruct (block_offset a) as (k & m & -> & Hm). intros Hac Hca.
  pose proof (ffp_closed k m) as Ea.
  destruct (N.ltb_spec (B - m) 7) as [Hpad|Hnopad].
  - rewrite Ea in * by lia.
    replace c with (k * B + (c - k * B)) by lia. rewrite ffp_closed by lia.
    destruct (N.ltb_spec (B - (c - k * B)) 7); lia.
  - replace c with (k * B + m) by lia. reflexivity.
Qed.

Lemma ffp_mono_r a b : a <= b -> ffp a <= ffp b.
Proof.
  intros Hab. destruct (N.le_gt_cases (ffp a) b) as [H|H].
  - pose proof (ffp_ge b). lia.
  - rewrite (ffp_between_r a b) by lia. lia.
Qed.

Lemma ffp_idem a : ffp (ffp a) = ffp a.
Proof. apply ffp_between_r; [apply ffp_ge | lia]. Qed.

Lemma pad_of_ffp a : pad_of (ffp a) = [].
Proof.
  apply lenN_0_nil. pose proof (ffp_idem a) as H. unfold first_frame_pos at 1 in H. lia.
Qed.

(* a frame header fits in the block at the first-frame position, and the payload bytes the
   writer at a can put in its first frame are those left in that block *)
Lemma ffp_mod a : exists k' c', ffp a = k' * B + c' /\ c' + 7 <= B /\ ffp a mod B = c' /\
                                max_writable P (B - a mod B) = B - c' - 7.
Proof.
  destruct (block_offset a) as (k & c & -> & Hc).
  rewrite ffp_closed, (mod_kc k c), max_writable_eq by lia.
  destruct (N.ltb_spec (B - c) 7) as [Hpad|Hnopad].
  - exists (k + 1), 0. rewrite N.mod_mul by lia.
    destruct (N.leb_spec 7 (B - c)); repeat split; lia.
  - exists k, c. rewrite mod_kc by lia.
    destruct (N.leb_spec 7 (B - c)); repeat split; lia.
Qed.

Lemma chunk_full a p : dropN (chunk_of a p) p <> [] -> chunk_of a p = max_writable P (B - a mod B).
Proof.
  intros Hd.
  assert (Hl : lenN (dropN (chunk_of a p) p) <> 0).
  { intros E. apply Hd. now apply lenN_0_nil. }
  rewrite lenN_dropN in Hl. unfold StreamProofs.chunk_of in *. lia.
Qed.

Lemma lenN_enc_last a f p :
  lenN (pad_of a ++ frame_bytes P (frame_type f true) (takeN (chunk_of a p) p)) =
  lenN (pad_of a) + 7 + chunk_of a p.
Proof. rewrite lenN_app, lenN_frame_bytes, lenN_take_chunk. lia. Qed.

Lemma lenN_enc_more a f p (e : bytes) :
  lenN (pad_of a ++ frame_bytes P (frame_type f false) (takeN (chunk_of a p) p) ++ e) =
  lenN (pad_of a) + 7 + chunk_of a p + lenN e.
Proof. rewrite !lenN_app, lenN_frame_bytes, lenN_take_chunk. lia. Qed.

(* the first frame of an encoding starts at the first-frame position and is inside it *)
Lemma enc_rel_ffp_lt a f p e k : enc_rel a f p e k -> ffp a + 7 <= a + lenN e.
Proof.
  unfold first_frame_pos.
  destruct 1 as [a f p Hd | a f p e k Hd Hr].
  - rewrite lenN_enc_last. lia.
  - rewrite lenN_enc_more. lia.
Qed.

(* kb*B strictly after the start of the first frame and at most at the end of the encoding:
   either it is the end of the encoding, or the encoding splits there into whole frames, the
   second part being the encoding of the rest of the payload as a non-first continuation *)
Lemma enc_rel_split_at_block a f p e k :
  enc_rel a f p e k ->
  forall kb, ffp a < kb * B -> kb * B <= a + lenN e ->
    kb * B = a + lenN e \/
    exists e1 e2 p1 p2 k2,
      e = e1 ++ e2 /\ a + lenN e1 = kb * B /\ p = p1 ++ p2 /\
      enc_rel (kb * B) false p2 e2 k2 /\ (k2 < k)%nat.
Proof.
  induction 1 as [a f p Hd | a f p e k Hd Hr IH]; intros kb Hlo Hhi.
  - left. rewrite lenN_enc_last in *.
    destruct (ffp_mod a) as (k' & c' & Hp & Hc' & _ & Hmw). unfold first_frame_pos in Hlo, Hp.
    pose proof (H3 DamageProofs.chunk_fits a p) as Hch.
    pose proof (blocks_above kb k' (c' + 1)) as Hb. lia.
  - rewrite lenN_enc_more in *.
    destruct (ffp_mod a) as (k' & c' & Hp & Hc' & _ & Hmw). unfold first_frame_pos in Hlo, Hp.
    pose proof (chunk_full a p Hd) as Hch.
    pose proof (blocks_above kb k' (c' + 1)) as Hb.
    set (a' := a + lenN (pad_of a) + 7 + chunk_of a p) in *.
    assert (Ha' : a' = (k' + 1) * B) by (unfold a'; lia).
    set (fb := frame_bytes P (frame_type f false) (takeN (chunk_of a p) p)) in *.
    assert (Hfb : lenN (pad_of a ++ fb) = lenN (pad_of a) + 7 + chunk_of a p).
    { unfold fb. rewrite lenN_app, lenN_frame_bytes, lenN_take_chunk. lia. }
    destruct (N.eq_dec (kb * B) a') as [E|E].
    + right. exists (pad_of a ++ fb), e, (takeN (chunk_of a p) p), (dropN (chunk_of a p) p), k.
      repeat split.
      * now rewrite <- app_assoc.
      * rewrite Hfb. unfold a' in E. lia.
      * now rewrite takeN_dropN.
      * rewrite E. exact Hr.
      * lia.
    + assert (Hffp : ffp a' = a') by (rewrite Ha'; apply ffp_aligned).
      destruct (IH kb) as [Hend | (e1 & e2 & p1 & p2 & k2 & He & Hl & Hp12 & Hrel & Hk)].
      * rewrite Hffp. lia.
      * lia.
      * left. lia.
      * right. exists (pad_of a ++ fb ++ e1), e2, (takeN (chunk_of a p) p ++ p1), p2, k2.
        repeat split.
        -- rewrite He, <- !app_assoc. reflexivity.
        -- rewrite app_assoc, lenN_app, Hfb. unfold a' in Hl. lia.
        -- rewrite <- app_assoc, <- Hp12. now rewrite takeN_dropN.
        -- exact Hrel.
        -- lia.
Qed.

Lemma enc_rel_split_at_boundary a f p e k b :
  enc_rel a f p e k -> b mod B = 0 ->
  a + lenN (pad_of a) < b -> b <= a + lenN e ->
    b = a + lenN e \/
    exists e1 e2 p1 p2 k2,
      e = e1 ++ e2 /\ a + lenN e1 = b /\ p = p1 ++ p2 /\
      enc_rel b false p2 e2 k2 /\ (k2 < k)%nat.
Proof.
  intros He Hb. rewrite (aligned_elim b Hb). apply (enc_rel_split_at_block a f p e k He).
Qed.

(* the easy case: a boundary at or before the first-frame position and at or after the
   cursor has only padding before it, and is the first-frame position itself *)
Lemma boundary_before_first_frame a b :
  b mod B = 0 -> a <= b -> b <= a + lenN (pad_of a) -> b = a + lenN (pad_of a).
Proof.
  intros Hb. rewrite (aligned_elim b Hb). apply boundary_is_ffp.
Qed.

Lemma enc_rel_det a f p e k :
  enc_rel a f p e k -> forall e' k', enc_rel a f p e' k' -> e = e' /\ k = k'.
Proof.
  induction 1 as [a f p Hd | a f p e k Hd Hr IH]; intros e' k' H'.
  - inversion H' as [a0 f0 p0 Hd' | a0 f0 p0 e0 k0 Hd' Hr']; subst.
    + split; reflexivity.
    + contradiction.
  - inversion H' as [a0 f0 p0 Hd' | a0 f0 p0 e0 k0 Hd' Hr']; subst.
    + contradiction.
    + destruct (IH _ _ Hr') as [-> ->]. split; reflexivity.
Qed.

(* what the in-memory writer appends for payload p when its cursor is a *)
Definition enc_of (a : N) (p : bytes) : bytes :=
  vw_buf (fst (write_record P vecw vw_write (vw_rem P) (mkVecW a []) p)).

Lemma enc_of_rel a p : exists k, enc_rel a true p (enc_of a p) k.
Proof.
  destruct (write_record_vecw (mkVecW a []) p) as (e & k & Hrel & Hwr).
  exists k. unfold enc_of. rewrite Hwr. cbn [fst vw_buf vw_cursor app] in *. exact Hrel.
Qed.

Lemma enc_rel_enc_of a p e k : enc_rel a true p e k -> enc_of a p = e.
Proof.
  intros H. destruct (enc_of_rel a p) as [k' H'].
  destruct (enc_rel_det _ _ _ _ _ H' _ _ H) as [E _]. exact E.
Qed.

(* the writer, whatever its buffer, appends enc_of cursor p *)
Lemma write_record_enc_of w p :
  write_record P vecw vw_write (vw_rem P) w p =
    (mkVecW (vw_cursor w + lenN (enc_of (vw_cursor w) p)) (vw_buf w ++ enc_of (vw_cursor w) p),
     Ok (lenN (enc_of (vw_cursor w) p))).
Proof.
  destruct (write_record_vecw w p) as (e & k & Hrel & Hwr).
  rewrite (enc_rel_enc_of _ _ _ _ Hrel). exact Hwr.
Qed.

Fixpoint encs_of (a : N) (es : list bytes) : bytes :=
  match es with
  | [] => []
  | p :: ps => enc_of a p ++ encs_of (a + lenN (enc_of a p)) ps
  end.

Lemma encs_of_rel es : forall a, encs_rel a es (encs_of a es).
Proof.
  induction es as [|p ps IH]; intros a; cbn [encs_of].
  - constructor.
  - destruct (enc_of_rel a p) as [k Hk]. econstructor; [exact Hk | apply IH].
Qed.

Lemma encs_rel_encs_of a es t : encs_rel a es t -> encs_of a es = t.
Proof.
  induction 1 as [a | a p ps e k t He Hes IH]; cbn [encs_of].
  - reflexivity.
  - rewrite (enc_rel_enc_of _ _ _ _ He), IH. reflexivity.
Qed.

Lemma encs_rel_det a es t t' : encs_rel a es t -> encs_rel a es t' -> t = t'.
Proof. intros H H'. rewrite <- (encs_rel_encs_of _ _ _ H). now apply encs_rel_encs_of. Qed.

Lemma encs_of_app es1 : forall a es2,
  encs_of a (es1 ++ es2) = encs_of a es1 ++ encs_of (a + lenN (encs_of a es1)) es2.
Proof.
  induction es1 as [|p ps IH]; intros a es2; cbn [encs_of app].
  - rewrite (@lenN_nil byte), N.add_0_r. reflexivity.
  - rewrite IH, <- app_assoc, lenN_app. do 3 f_equal. lia.
Qed.

(* the cursor after writing es from a *)
Definition cursor_after (a : N) (es : list bytes) : N := a + lenN (encs_of a es).

Lemma cursor_after_nil a : cursor_after a [] = a.
Proof. unfold cursor_after. cbn [encs_of]. rewrite (@lenN_nil byte). lia. Qed.

Lemma cursor_after_cons a p ps :
  cursor_after a (p :: ps) = cursor_after (a + lenN (enc_of a p)) ps.
Proof. unfold cursor_after. cbn [encs_of]. rewrite lenN_app. lia. Qed.

Lemma cursor_after_app a es1 es2 :
  cursor_after a (es1 ++ es2) = cursor_after (cursor_after a es1) es2.
Proof. unfold cursor_after. rewrite encs_of_app, lenN_app. lia. Qed.

Lemma cursor_after_rel a es t : encs_rel a es t -> cursor_after a es = a + lenN t.
Proof. intros H. unfold cursor_after. now rewrite (encs_rel_encs_of _ _ _ H). Qed.

Lemma enc_of_ffp a p : ffp a + 7 <= a + lenN (enc_of a p).
Proof. destruct (enc_of_rel a p) as [k Hk]. apply (enc_rel_ffp_lt _ _ _ _ _ Hk). Qed.

Lemma cursor_after_ge es : forall a, a <= cursor_after a es.
Proof.
  induction es as [|p ps IH]; intros a.
  - rewrite cursor_after_nil. lia.
  - rewrite cursor_after_cons. pose proof (IH (a + lenN (enc_of a p))). lia.
Qed.

(* (start cursor, first-frame position) of each entry of es written from cursor a *)
Fixpoint starts (a : N) (es : list bytes) : list (N * N) :=
  match es with
  | [] => []
  | p :: ps => (a, ffp a) :: starts (a + lenN (enc_of a p)) ps
  end.

Lemma starts_length es : forall a, length (starts a es) = length es.
Proof. induction es as [|p ps IH]; intros a; cbn [starts length]; [reflexivity | now rewrite IH]. Qed.

Lemma starts_app es1 : forall a es2,
  starts a (es1 ++ es2) = starts a es1 ++ starts (cursor_after a es1) es2.
Proof.
  induction es1 as [|p ps IH]; intros a es2; cbn [starts app].
  - now rewrite cursor_after_nil.
  - rewrite IH, cursor_after_cons. reflexivity.
Qed.

(* every entry starts at or after the cursor, its first frame at or after its start, and
   strictly before the end of the whole encoding *)
Lemma starts_bounds es : forall a,
  Forall (fun s => a <= fst s /\ fst s <= snd s /\ snd s + 7 <= cursor_after a es) (starts a es).
Proof.
  induction es as [|p ps IH]; intros a; cbn [starts]; constructor.
  - cbn [fst snd]. rewrite cursor_after_cons.
    pose proof (ffp_ge a). pose proof (enc_of_ffp a p).
    pose proof (cursor_after_ge ps (a + lenN (enc_of a p))). lia.
  - rewrite cursor_after_cons. eapply Forall_impl; [|apply IH].
    cbn beta. intros s (H1 & H2 & H3). pose proof (enc_of_ffp a p). pose proof (ffp_ge a). lia.
Qed.

Lemma starts_tail_ge b a p ps :
  b <= ffp a -> Forall (fun s => b <= snd s) (starts (a + lenN (enc_of a p)) ps).
Proof.
  intros Hle. pose proof (enc_of_ffp a p) as Hp.
  eapply Forall_impl; [|apply starts_bounds]. cbn beta. intros s (H1 & H2 & _). lia.
Qed.

(* start cursors and first-frame positions are increasing along the log: each entry's first
   frame is at least 7 bytes before the start cursor of the next one *)
Inductive chain_lt : list (N * N) -> Prop :=
| chain_nil : chain_lt []
| chain_one s : fst s <= snd s -> chain_lt [s]
| chain_cons s s' l : fst s <= snd s -> snd s + 7 <= fst s' -> chain_lt (s' :: l) -> chain_lt (s :: s' :: l).

Lemma starts_chain es : forall a, chain_lt (starts a es).
Proof.
  induction es as [|p ps IH]; intros a; cbn [starts].
  - constructor.
  - specialize (IH (a + lenN (enc_of a p))).
    destruct ps as [|q qs]; cbn [starts] in *.
    + constructor. cbn [fst snd]. apply ffp_ge.
    + constructor; [apply ffp_ge | cbn [fst snd]; apply enc_of_ffp | exact IH].
Qed.

Lemma starts_sorted es : forall a, Sorted.StronglySorted (fun s s' => snd s < snd s') (starts a es).
Proof.
  induction es as [|p ps IH]; intros a; cbn [starts]; constructor.
  - apply IH.
  - pose proof (starts_bounds ps (a + lenN (enc_of a p))) as Hb.
    eapply Forall_impl; [|exact Hb]. cbn beta. intros s (H1 & H2 & _). cbn [snd].
    pose proof (enc_of_ffp a p). lia.
Qed.

(* the suffix of es (written from cursor a) starting at the first entry whose first frame is at
   or after position b, and the prefix before it *)
Fixpoint delivered_from (b a : N) (es : list bytes) : list bytes :=
  match es with
  | [] => []
  | p :: ps => if b <=? ffp a then p :: ps else delivered_from b (a + lenN (enc_of a p)) ps
  end.

Fixpoint skipped_before (b a : N) (es : list bytes) : list bytes :=
  match es with
  | [] => []
  | p :: ps => if b <=? ffp a then [] else p :: skipped_before b (a + lenN (enc_of a p)) ps
  end.

(* a reader at a, at or after the end of the written bytes: End, and the frame reader is left
   at the normalised position first_frame_pos a *)
Lemma read_frame_end_pos S written z nb fr a :
  S = written ++ zerosN z -> lenN S = (nb + 1) * B -> lenN written <= a -> a <= nb * B ->
  at_pos S fr a ->
  exists fr', rframe fr = (fr', FNotAvail) /\ at_posn S fr' (ffp a).
Proof.
  intros HS HlenS Hw Ha Hat.
  assert (Hok : stream_ok S) by (exists (nb + 1); exact HlenS).
  pose proof (ffp_le_boundary a nb Ha) as Hf. pose proof (ffp_ge a) as Hg.
  destruct (ffp_mod a) as (k' & c' & Hp & Hc' & _ & _).
  unfold first_frame_pos in *.
  assert (Hblk : (k' + 1) * B <= lenN S) by lia.
  rewrite (at_pos_pad S fr a k' c' Hok Hat Hp Hc' Hblk).
  exists (rd_at S k' c'). split.
  - apply (H3 StreamProofs.read_frame_zero); [lia|].
    rewrite sliceN_sliceN by lia. rewrite HS. apply slice_zero. lia.
  - exists k', c'. repeat split; assumption.
Qed.

(* ... and the record reader, when its first go_next behaves as that of a reader rr1 at a,
   delivers End *)
Lemma read_end_pos S written z nb rr1 a g rr gofuel fuel :
  S = written ++ zerosN z -> lenN S = (nb + 1) * B -> lenN written <= a -> a <= nb * B ->
  at_pos S (rr_fr rr1) a -> gonext gofuel rr = gonext (Datatypes.S g) rr1 ->
  exists rrf, mem_read_fin (Datatypes.S fuel) gofuel rr = ([MrEnd], rrf) /\
              at_posn S (rr_fr rrf) (ffp a).
Proof.
  intros HS HlenS Hw Ha Hat Hgo.
  destruct (read_frame_end_pos S written z nb (rr_fr rr1) a HS HlenS Hw Ha Hat) as (fr' & Hrf & Hp).
  cbn [TornProofs.mem_read_fin]. rewrite Hgo. cbn [go_next]. rewrite Hrf.
  eexists. split; [reflexivity | exact Hp].
Qed.

(* reading a run es2 of intact entries followed by the zero tail, when the first go_next of the
   loop behaves as a go_next (fuel g) of a reader rr1 positioned at the start of the run *)
Lemma read_tail_pos S a t1 es2 t2 pre z nb gofuel :
  encs_rel (a + lenN t1) es2 t2 -> S = pre ++ (t1 ++ t2) ++ zerosN z -> lenN pre = a ->
  lenN S = (nb + 1) * B -> a + lenN t1 + lenN t2 <= nb * B ->
  lenN t2 + 7 <= 7 * N.of_nat gofuel ->
  forall rr1 g rr fuel,
    at_pos S (rr_fr rr1) (a + lenN t1) -> gonext gofuel rr = gonext g rr1 ->
    lenN t2 + 7 <= 7 * N.of_nat g -> (length es2 + 1 <= fuel)%nat ->
    exists rrf, mem_read_fin fuel gofuel rr = (map MrEntry es2 ++ [MrEnd], rrf) /\
                at_posn S (rr_fr rrf) (ffp (a + lenN t1 + lenN t2)).
Proof.
  intros Hes2 HS Hpre HlenS Hnb Hgf rr1 g rr fuel Hat Hgo Hg Hfuel.
  assert (Hok : stream_ok S) by (exists (nb + 1); exact HlenS).
  rewrite <- app_assoc, app_assoc in HS.
  assert (Hpre1 : lenN (pre ++ t1) = a + lenN t1) by (rewrite lenN_app; lia).
  set (r := a + lenN t1) in *. set (pre1 := pre ++ t1) in *.
  destruct fuel as [|fuel]; [lia|].
  inversion Hes2 as [a0 Ha0 Hnil Ht2 | a0 p2 ps e2 k2 t2' He2 Hps Ha0 Hcons Ht2];
    subst a0 es2 t2.
  - (* nothing follows: end of the log *)
    cbn [app] in HS. rewrite (@lenN_nil byte), N.add_0_r in *.
    destruct g as [|g]; [lia|].
    apply (read_end_pos S pre1 z nb rr1 r g rr gofuel fuel HS HlenS);
      [lia | lia | exact Hat | exact Hgo].
  - destruct rr1 as [fr1 rbuf1 within1]. cbn [rr_fr] in Hat.
    rewrite <- !app_assoc in HS. rewrite lenN_app in *.
    pose proof (enc_rel_frames _ _ _ _ _ He2) as [Hk2 Hk2'].
    destruct (H3 StreamProofs.go_next_record r true p2 e2 k2 He2 S pre1 (t2' ++ zerosN z) fr1 rbuf1 within1
                g Hok Hat HS Hpre1)
      as (fr' & Hgo' & Hat'); [left; reflexivity | lia |].
    cbn [TornProofs.mem_read_fin]. rewrite Hgo, Hgo'. cbn [rr_buf app].
    cbn [length] in Hfuel.
    replace fuel with (length ps + Datatypes.S (fuel - length ps - 1))%nat by lia.
    destruct (H3 TornProofs.read_all_entries_fin (r + lenN e2) ps t2' Hps S (pre1 ++ e2) (zerosN z)
                (mkRR fr' p2 false) gofuel (Datatypes.S (fuel - length ps - 1)) Hok Hat')
      as (rr' & Hat'' & Hrd).
    { rewrite HS, <- app_assoc. reflexivity. }
    { rewrite lenN_app. lia. }
    { lia. }
    rewrite Hrd.
    destruct gofuel as [|g1]; [lia|].
    destruct (read_end_pos S (pre1 ++ e2 ++ t2') z nb rr' (r + lenN e2 + lenN t2') g1 rr'
                (Datatypes.S g1) (fuel - length ps - 1))
      as (rrf & Hend & Hp).
    { rewrite HS, <- !app_assoc. reflexivity. }
    { exact HlenS. }
    { rewrite !lenN_app. lia. }
    { lia. }
    { exact Hat''. }
    { reflexivity. }
    rewrite Hend. cbn [fst snd map].
    exists rrf. split; [reflexivity|].
    replace (r + (lenN e2 + lenN t2')) with (r + lenN e2 + lenN t2') by lia. exact Hp.
Qed.

(* where a boundary kb*B lies with respect to a run es1 of entries whose first frames all
   start before it: at or after the end of the run, or inside the encoding of its last entry,
   at a frame boundary, the rest being a non-first continuation *)
Lemma boundary_cases a es1 t1 kb :
  encs_rel a es1 t1 -> a <= kb * B ->
  Forall (fun s => snd s < kb * B) (starts a es1) ->
  a + lenN t1 <= kb * B \/
  exists t1' e1 e2 p2 k2,
    t1 = t1' ++ e1 ++ e2 /\ a + lenN t1' + lenN e1 = kb * B /\
    enc_rel (kb * B) false p2 e2 k2.
Proof.
  intros Hes1 Ha Hall.
  induction es1 as [|x es1' _] using rev_ind.
  - left. inversion Hes1; subst. rewrite (@lenN_nil byte). lia.
  - destruct (encs_rel_app_inv es1' a [x] t1 Hes1) as (t1' & tx & -> & Hes1' & Hx).
    inversion Hx as [|a0 p0 ps0 ex k t'' Hex Hnil]; subst.
    inversion Hnil; subst. rewrite app_nil_r in *.
    rewrite starts_app in Hall. apply Forall_app in Hall as [_ Hlast].
    rewrite (cursor_after_rel _ _ _ Hes1') in Hlast. cbn [starts] in Hlast.
    inversion Hlast as [|s l Hs _]; subst. cbn [snd] in Hs.
    rewrite lenN_app.
    destruct (N.le_gt_cases (kb * B) (a + lenN t1' + lenN ex)) as [Hle|Hgt]; [|left; lia].
    destruct (enc_rel_split_at_block _ _ _ _ _ Hex kb Hs Hle)
      as [Hend | (e1 & e2 & p1 & p2 & k2 & He & Hl & _ & Hrel & _)].
    + left. lia.
    + right. exists t1', e1, e2, p2, k2. rewrite He. repeat split; [lia | exact Hrel].
Qed.

Lemma at_pos_boundary S kb : (kb + 1) * B <= lenN S -> at_pos S (rd_at S kb 0) (kb * B).
Proof. intros H. exists kb, 0. repeat split; try lia. Qed.

Lemma at_pos_any S a nb : lenN S = (nb + 1) * B -> a <= nb * B ->
  at_pos S (rd_at S (a / B) (a mod B)) a.
Proof.
  intros HlenS Ha. pose proof (N.div_mod a B) as Hdm. pose proof (mod_lt_B a) as Hm.
  exists (a / B), (a mod B). repeat split; try lia.
Qed.

Theorem read_from_boundary_gen a es1 es2 t1 t2 S pre z nb kb buf0 fuel gofuel :
  encs_rel a es1 t1 -> encs_rel (a + lenN t1) es2 t2 ->
  S = pre ++ (t1 ++ t2) ++ zerosN z -> lenN pre = a ->
  lenN S = (nb + 1) * B -> a + lenN t1 + lenN t2 <= nb * B ->
  a <= kb * B -> kb <= nb ->
  Forall (fun s => snd s < kb * B) (starts a es1) ->
  (es2 <> [] -> kb * B <= ffp (a + lenN t1)) ->
  lenN t1 + lenN t2 + 7 <= 7 * N.of_nat gofuel -> (length es2 + 1 <= fuel)%nat ->
  exists rrf,
    mem_read_fin fuel gofuel (mkRR (rd_at S kb 0) buf0 false) = (map MrEntry es2 ++ [MrEnd], rrf) /\
    at_posn S (rr_fr rrf) (N.max (kb * B) (ffp (a + lenN t1 + lenN t2))).
Proof.
  intros Hes1 Hes2 HS Hpre HlenS Hnb Ha Hkb Hall Hsuf Hgf Hfuel.
  assert (Hok : stream_ok S) by (exists (nb + 1); exact HlenS).
  pose proof (TornProofs.mulB_le P kb nb Hkb) as HkbB.
  assert (Hblk : (kb + 1) * B <= lenN S) by lia.
  pose proof (at_pos_boundary S kb Hblk) as Hat_b.
  set (rr := mkRR (rd_at S kb 0) buf0 false).
  destruct (boundary_cases a es1 t1 kb Hes1 Ha Hall)
    as [HA | (t1' & e1 & e2 & p2 & k2 & Ht1 & Hl & Hrel)].
  - (* the boundary is at or after the end of es1 *)
    destruct es2 as [|p ps].
    + (* nothing follows: only zeros from the boundary on *)
      inversion Hes2; subst t2. rewrite (@lenN_nil byte), N.add_0_r in *.
      destruct fuel as [|fuel]; [cbn [length] in Hfuel; lia|].
      destruct gofuel as [|g]; [lia|].
      assert (HS' : S = (pre ++ t1) ++ zerosN z).
      { rewrite HS, app_nil_r, <- app_assoc. reflexivity. }
      destruct (read_end_pos S (pre ++ t1) z nb rr (kb * B) g rr (Datatypes.S g) fuel HS' HlenS)
        as (rrf & Hrd & Hp); [rewrite lenN_app; lia | exact HkbB | exact Hat_b | reflexivity |].
      exists rrf. split; [exact Hrd|].
      rewrite ffp_aligned in Hp. rewrite N.max_l by (apply ffp_le_boundary; exact HA). exact Hp.
    + (* the boundary is the first-frame position of the first entry of es2 *)
      set (a1 := a + lenN t1) in *.
      assert (Hb : kb * B = ffp a1) by (apply boundary_is_ffp; [exact HA | apply Hsuf; discriminate]).
      assert (Hlow : ffp a1 + 7 <= a1 + lenN t2).
      { inversion Hes2 as [|a0 p0 ps0 e k t' He Hrest]; subst.
        pose proof (enc_rel_ffp_lt _ _ _ _ _ He). rewrite lenN_app. lia. }
      pose proof (at_pos_any S a1 nb HlenS ltac:(lia)) as Hat_a.
      set (fr_a := rd_at S (a1 / B) (a1 mod B)) in *.
      assert (Hrf : rframe fr_a = rframe (rd_at S kb 0)).
      { apply (at_pos_pad S fr_a a1 kb 0 Hok Hat_a); [unfold first_frame_pos in Hb; lia | lia | exact Hblk]. }
      destruct gofuel as [|g0]; [lia|].
      destruct (read_tail_pos S a t1 (p :: ps) t2 pre z nb (Datatypes.S g0) Hes2 HS Hpre HlenS Hnb
                  ltac:(lia) (mkRR fr_a buf0 false) (Datatypes.S g0) rr fuel) as (rrf & Hrd & Hp);
        [exact Hat_a | apply gonext_cong; symmetry; exact Hrf | lia | exact Hfuel |].
      exists rrf. split; [exact Hrd|].
      rewrite N.max_r by (pose proof (ffp_ge (a1 + lenN t2)); lia). exact Hp.
  - (* the boundary is inside the last entry of es1: skip the rest of its frames *)
    assert (Hr : a + lenN t1 = kb * B + lenN e2) by (rewrite Ht1, !lenN_app; lia).
    destruct (H3 DamageProofs.go_next_skip (kb * B) false p2 e2 k2 Hrel eq_refl S (pre ++ t1' ++ e1)
                (t2 ++ zerosN z) (rd_at S kb 0) Hok Hat_b) as (fr' & Hat' & Hskip).
    { rewrite HS, Ht1, <- !app_assoc. reflexivity. }
    { rewrite !lenN_app. lia. }
    rewrite <- Hr in Hat'.
    pose proof (enc_rel_frames _ _ _ _ _ Hrel) as [Hk2 _].
    destruct (read_tail_pos S a t1 es2 t2 pre z nb gofuel Hes2 HS Hpre HlenS Hnb ltac:(lia)
                (mkRR fr' buf0 false) (gofuel - k2)%nat rr fuel) as (rrf & Hrd & Hp);
      [exact Hat' | | lia | exact Hfuel |].
    { replace gofuel with (k2 + (gofuel - k2))%nat at 1 by lia. apply Hskip. }
    exists rrf. split; [exact Hrd|].
    rewrite N.max_r by (pose proof (ffp_ge (a + lenN t1 + lenN t2)); lia). exact Hp.
Qed.

(* the whole stream from cursor 0 *)
Theorem read_from_boundary es1 es2 t S z nb kb buf0 fuel gofuel :
  encs_rel 0 (es1 ++ es2) t ->
  S = t ++ zerosN z -> lenN S = (nb + 1) * B -> lenN t <= nb * B -> kb <= nb ->
  Forall (fun s => snd s < kb * B) (starts 0 es1) ->
  Forall (fun s => kb * B <= snd s) (starts (cursor_after 0 es1) es2) ->
  lenN t + 7 <= 7 * N.of_nat gofuel -> (length es2 + 1 <= fuel)%nat ->
  exists rrf,
    mem_read_fin fuel gofuel (mkRR (rd_at S kb 0) buf0 false) = (map MrEntry es2 ++ [MrEnd], rrf) /\
    at_posn S (rr_fr rrf) (N.max (kb * B) (ffp (lenN t))).
Proof.
  intros Hes HS HlenS Hnb Hkb H1 H2 Hgf Hfuel.
  destruct (encs_rel_app_inv es1 0 es2 t Hes) as (t1 & t2 & -> & Hes1 & Hes2).
  rewrite lenN_app in *.
  rewrite (cursor_after_rel _ _ _ Hes1) in H2.
  apply (read_from_boundary_gen 0 es1 es2 t1 t2 S [] z nb kb buf0 fuel gofuel);
    try assumption; try reflexivity; try lia.
  intros Hne. destruct es2 as [|p ps]; [contradiction|].
  cbn [starts] in H2. inversion H2 as [|s l Hs _]; subst. exact Hs.
Qed.

Corollary read_from_boundary_all es1 es2 t S z nb kb buf0 fuel gofuel :
  encs_rel 0 (es1 ++ es2) t ->
  S = t ++ zerosN z -> lenN S = (nb + 1) * B -> lenN t <= nb * B -> kb <= nb ->
  Forall (fun s => snd s < kb * B) (starts 0 es1) ->
  Forall (fun s => kb * B <= snd s) (starts (cursor_after 0 es1) es2) ->
  lenN t + 7 <= 7 * N.of_nat gofuel -> (length es2 + 1 <= fuel)%nat ->
  mem_read_all P fuel gofuel (mkRR (rd_at S kb 0) buf0 false) = map MrEntry es2 ++ [MrEnd].
Proof.
  intros Hes HS HlenS Hnb Hkb H1 H2 Hgf Hfuel.
  destruct (read_from_boundary es1 es2 t S z nb kb buf0 fuel gofuel Hes HS HlenS Hnb Hkb H1 H2 Hgf Hfuel)
    as (rrf & Hrd & _).
  rewrite <- mem_read_fin_fst, Hrd. reflexivity.
Qed.

Lemma skipped_delivered b es : forall a, es = skipped_before b a es ++ delivered_from b a es.
Proof.
  induction es as [|p ps IH]; intros a; cbn [skipped_before delivered_from].
  - reflexivity.
  - destruct (N.leb_spec b (ffp a)) as [Hle|Hgt]; [reflexivity|].
    cbn [app]. f_equal. apply IH.
Qed.

Lemma skipped_starts b es : forall a,
  Forall (fun s => snd s < b) (starts a (skipped_before b a es)).
Proof.
  induction es as [|p ps IH]; intros a; cbn [skipped_before].
  - constructor.
  - destruct (N.leb_spec b (ffp a)) as [Hle|Hgt]; [constructor|].
    cbn [starts]. constructor; [exact Hgt | apply IH].
Qed.

Lemma delivered_head b es : forall a,
  delivered_from b a es <> [] -> b <= ffp (cursor_after a (skipped_before b a es)).
Proof.
  induction es as [|p ps IH]; intros a; cbn [skipped_before delivered_from].
  - intros H. contradiction.
  - destruct (N.leb_spec b (ffp a)) as [Hle|Hgt].
    + intros _. rewrite cursor_after_nil. exact Hle.
    + intros H. rewrite cursor_after_cons. apply IH. exact H.
Qed.

Lemma delivered_starts b es : forall a,
  Forall (fun s => b <= snd s)
         (starts (cursor_after a (skipped_before b a es)) (delivered_from b a es)).
Proof.
  intros a. pose proof (delivered_head b es a) as Hh.
  set (c := cursor_after a (skipped_before b a es)) in *. clearbody c.
  destruct (delivered_from b a es) as [|p ps]; [constructor|].
  specialize (Hh ltac:(discriminate)).
  cbn [starts]. constructor; [exact Hh | apply starts_tail_ge; exact Hh].
Qed.

(* delivered_from is the filter "first frame at or after b" *)
Lemma filter_all_starts b ps : forall a,
  Forall (fun s => b <= snd s) (starts a ps) ->
  map fst (filter (fun x : bytes * (N * N) => b <=? snd (snd x)) (combine ps (starts a ps))) = ps.
Proof.
  induction ps as [|p ps IH]; intros a Hall; cbn [starts combine filter map].
  - reflexivity.
  - cbn [starts] in Hall. inversion Hall as [|s l Hs Hrest]; subst. cbn [snd] in *.
    destruct (N.leb_spec b (ffp a)) as [_|Hgt]; [|lia].
    cbn [map fst]. f_equal. apply IH. exact Hrest.
Qed.

Theorem delivered_from_filter b es : forall a,
  delivered_from b a es =
  map fst (filter (fun x : bytes * (N * N) => b <=? snd (snd x)) (combine es (starts a es))).
Proof.
  induction es as [|p ps IH]; intros a; cbn [delivered_from starts combine filter snd].
  - reflexivity.
  - destruct (N.leb_spec b (ffp a)) as [Hle|Hgt].
    + cbn [map fst]. f_equal. symmetry. apply filter_all_starts, starts_tail_ge. exact Hle.
    + apply IH.
Qed.

Theorem read_delivered_from_gen a es t S pre z nb kb buf0 fuel gofuel :
  encs_rel a es t ->
  S = pre ++ t ++ zerosN z -> lenN pre = a ->
  lenN S = (nb + 1) * B -> a + lenN t <= nb * B -> a <= kb * B -> kb <= nb ->
  lenN t + 7 <= 7 * N.of_nat gofuel -> (length es + 1 <= fuel)%nat ->
  exists rrf,
    mem_read_fin fuel gofuel (mkRR (rd_at S kb 0) buf0 false) =
      (map MrEntry (delivered_from (kb * B) a es) ++ [MrEnd], rrf) /\
    at_posn S (rr_fr rrf) (N.max (kb * B) (ffp (a + lenN t))).
Proof.
  intros Hes HS Hpre HlenS Hnb Ha Hkb Hgf Hfuel.
  pose proof (skipped_delivered (kb * B) es a) as Hsplit.
  set (es1 := skipped_before (kb * B) a es) in *.
  set (es2 := delivered_from (kb * B) a es) in *.
  rewrite Hsplit in Hes.
  destruct (encs_rel_app_inv es1 a es2 t Hes) as (t1 & t2 & -> & Hes1 & Hes2).
  rewrite lenN_app in *.
  assert (Hlen : (length es2 <= length es)%nat).
  { rewrite Hsplit, app_length. lia. }
  replace (a + (lenN t1 + lenN t2)) with (a + lenN t1 + lenN t2) by lia.
  apply (read_from_boundary_gen a es1 es2 t1 t2 S pre z nb kb buf0 fuel gofuel);
    try assumption; try lia.
  - apply skipped_starts.
  - intros Hne. rewrite <- (cursor_after_rel _ _ _ Hes1). apply delivered_head. exact Hne.
Qed.

Theorem read_delivered_from es t S z nb kb buf0 fuel gofuel :
  encs_rel 0 es t ->
  S = t ++ zerosN z -> lenN S = (nb + 1) * B -> lenN t <= nb * B -> kb <= nb ->
  lenN t + 7 <= 7 * N.of_nat gofuel -> (length es + 1 <= fuel)%nat ->
  exists rrf,
    mem_read_fin fuel gofuel (mkRR (rd_at S kb 0) buf0 false) =
      (map MrEntry (delivered_from (kb * B) 0 es) ++ [MrEnd], rrf) /\
    at_posn S (rr_fr rrf) (N.max (kb * B) (ffp (lenN t))).
Proof.
  intros Hes HS HlenS Hnb Hkb Hgf Hfuel.
  apply (read_delivered_from_gen 0 es t S [] z nb kb buf0 fuel gofuel);
    try assumption; try reflexivity; lia.
Qed.

Corollary read_delivered_from_all es t S z nb kb buf0 fuel gofuel :
  encs_rel 0 es t ->
  S = t ++ zerosN z -> lenN S = (nb + 1) * B -> lenN t <= nb * B -> kb <= nb ->
  lenN t + 7 <= 7 * N.of_nat gofuel -> (length es + 1 <= fuel)%nat ->
  mem_read_all P fuel gofuel (mkRR (rd_at S kb 0) buf0 false) =
    map MrEntry (delivered_from (kb * B) 0 es) ++ [MrEnd].
Proof.
  intros Hes HS HlenS Hnb Hkb Hgf Hfuel.
  destruct (read_delivered_from es t S z nb kb buf0 fuel gofuel Hes HS HlenS Hnb Hkb Hgf Hfuel)
    as (rrf & Hrd & _).
  rewrite <- mem_read_fin_fst, Hrd. reflexivity.
Qed.

(* the same on the stream mem_stream builds (written bytes zero-padded to whole blocks, plus
   one block), with the fuel mem_roundtrip / mem_read_stream give themselves *)
Corollary read_delivered_from_stream es t kb buf0 :
  encs_rel 0 es t -> (kb + 1) * B <= lenN (mem_stream P t) ->
  let S := mem_stream P t in
  let fuel := N.to_nat (lenN S / HEADER_LEN + lenN S / B + 4) in
  mem_read_all P fuel fuel (mkRR (rd_at S kb 0) buf0 false) =
    map MrEntry (delivered_from (kb * B) 0 es) ++ [MrEnd].
Proof.
  intros Hes Hkb S fuel.
  destruct (H3 StreamProofs.mem_stream_shape t) as (z & nb & Hshape & HlenS & Hnb).
  fold S in Hshape, HlenS, Hkb.
  pose proof (H3 DamageProofs.stream_fuel_ok t) as Hf. fold S in Hf. fold fuel in Hf.
  pose proof (H3 StreamProofs.encs_rel_len _ _ _ Hes) as Hcount.
  apply (read_delivered_from_all es t S z nb kb buf0 fuel fuel Hes Hshape HlenS Hnb).
  - apply (H2 TornProofs.mulB_le_inv). lia.
  - exact Hf.
  - lia.
Qed.

(* a writer restarted at first_frame_pos a (the padding pad_of a being already in the stream as
   zeros) emits the same bytes as the one at a, minus that padding *)
Lemma chunk_of_ffp a p : chunk_of (ffp a) p = chunk_of a p.
Proof.
  destruct (ffp_mod a) as (k' & c' & _ & Hc' & Hm & Hmw).
  unfold StreamProofs.chunk_of. rewrite Hm, Hmw, max_writable_eq.
  destruct (N.leb_spec 7 (B - c')) as [_|Hlt]; [reflexivity | lia].
Qed.

Lemma pad_of_zeros a : pad_of a = zerosN (ffp a - a).
Proof.
  unfold first_frame_pos. rewrite lenN_pad_of. unfold StreamProofs.pad_of.
  destruct (N.ltb_spec (B - a mod B) 7) as [Hlt|Hge].
  - f_equal. lia.
  - replace (a + 0 - a) with 0 by lia. reflexivity.
Qed.

(* the encoding depends on the cursor only through its first-frame position: cursors with the
   same first-frame position give the same frames, each after its own padding *)
Lemma enc_rel_same_ffp a b f p e k :
  ffp a = ffp b -> enc_rel a f p e k ->
  exists e', e = pad_of a ++ e' /\ enc_rel b f p (pad_of b ++ e') k.
Proof.
  intros E H.
  assert (Hch : chunk_of a p = chunk_of b p).
  { rewrite <- (chunk_of_ffp a p), <- (chunk_of_ffp b p), E. reflexivity. }
  unfold first_frame_pos in E.
  destruct H as [a f p Hd | a f p e k Hd Hr]; rewrite Hch in *.
  - eexists. split; [reflexivity|]. apply ER_last. exact Hd.
  - eexists. split; [reflexivity|]. apply ER_more; [exact Hd|]. rewrite <- E. exact Hr.
Qed.

Lemma enc_rel_ffp a f p e k : enc_rel (ffp a) f p e k -> enc_rel a f p (pad_of a ++ e) k.
Proof.
  intros H. destruct (enc_rel_same_ffp (ffp a) a f p e k (ffp_idem a) H) as (e' & -> & H').
  rewrite pad_of_ffp. exact H'.
Qed.

Lemma enc_rel_ffp_inv a f p e k :
  enc_rel a f p e k -> exists e', e = pad_of a ++ e' /\ enc_rel (ffp a) f p e' k.
Proof.
  intros H. destruct (enc_rel_same_ffp a (ffp a) f p e k (eq_sym (ffp_idem a)) H) as (e' & -> & H').
  exists e'. split; [reflexivity|]. rewrite pad_of_ffp in H'. exact H'.
Qed.

Lemma enc_of_ffp_eq a p : enc_of a p = pad_of a ++ enc_of (ffp a) p.
Proof.
  destruct (enc_of_rel (ffp a) p) as [k Hk].
  apply (enc_rel_enc_of a p _ k). apply enc_rel_ffp. exact Hk.
Qed.

Lemma encs_of_ffp_eq a es : es <> [] -> encs_of a es = pad_of a ++ encs_of (ffp a) es.
Proof.
  destruct es as [|p ps]; [contradiction|]. intros _. cbn [encs_of].
  rewrite (enc_of_ffp_eq a p), <- app_assoc. do 2 f_equal.
  rewrite lenN_app. unfold first_frame_pos. f_equal. lia.
Qed.

Lemma next_cursor_ffp a p : ffp a + lenN (enc_of (ffp a) p) = a + lenN (enc_of a p).
Proof. rewrite (enc_of_ffp_eq a p), lenN_app. unfold first_frame_pos. lia. Qed.

Lemma delivered_from_ffp b a es : delivered_from b (ffp a) es = delivered_from b a es.
Proof.
  destruct es as [|p ps]; [reflexivity|]. cbn [delivered_from].
  rewrite ffp_idem, next_cursor_ffp. reflexivity.
Qed.

(* the list of first-frame positions does not depend on whether the writer started an entry at a
   or at first_frame_pos a *)
Lemma starts_ffp a es : map snd (starts (ffp a) es) = map snd (starts a es).
Proof.
  destruct es as [|p ps]; [reflexivity|]. cbn [starts map snd].
  rewrite ffp_idem, next_cursor_ffp. reflexivity.
Qed.

Lemma starts_cons_rel a p ps e k :
  enc_rel a true p e k -> starts a (p :: ps) = (a, ffp a) :: starts (a + lenN e) ps.
Proof. intros H. cbn [starts]. now rewrite (enc_rel_enc_of _ _ _ _ H). Qed.

Lemma delivered_from_cons_rel b a p ps e k :
  enc_rel a true p e k ->
  delivered_from b a (p :: ps) = if b <=? ffp a then p :: ps else delivered_from b (a + lenN e) ps.
Proof. intros H. cbn [delivered_from]. now rewrite (enc_rel_enc_of _ _ _ _ H). Qed.

End Resync.

Print Assumptions enc_rel_split_at_boundary.
Print Assumptions read_from_boundary_gen.
Print Assumptions read_from_boundary.
Print Assumptions read_from_boundary_all.
Print Assumptions delivered_from_filter.
Print Assumptions read_delivered_from_gen.
Print Assumptions read_delivered_from.
Print Assumptions read_delivered_from_stream.
Print Assumptions enc_of_ffp_eq.
