(* NzcVacuous.v — why TornProofs.no_zero_collision / crc_collision bound the payload length.
   Quantified over payloads of ANY length, no_zero_collision P would read
       forall ty fp n, n < lenN fp ->
         crcf P ty (takeN n fp ++ zerosN (lenN fp - n)) = crcf P ty fp ->
         takeN n fp ++ zerosN (lenN fp - n) = fp.
   Together with the 32-bit range of the checksum (forall t p, crcf P t p < 2^32) that formula is
   contradictory, by the pigeonhole principle: the 2^32 + 1 strings  1^n 0^(2^32 - n)
   (n = 0 .. 2^32) are pairwise "zero-completed proper prefixes" of one another, so the formula
   makes their checksums pairwise distinct (nzc_inconsistent below, stated about the unbounded
   formula written out in full).  Every theorem assuming both would be vacuous.
   Hence both definitions in TornProofs.v bound the payload length
   (lenN fp + 7 <= BS P: every payload whose checksum the reader verifies fits in a block after
   its 7-byte header).  This file also shows that the bounded hypothesis IS satisfiable together
   with the 32-bit range, for every admissible block size (nzc_bounded_sat), so the theorems that
   assume it (TornProofs.torn_read_nocoll, TornFile.open_torn, CrashAtomic.C02_crash_atomic, ...)
   are not vacuous on that account. *)
From Coq Require Import Lia ZArith ZifyN ZifyNat ZifyBool List.
From MRL Require Import Bytes BytesProofs Params FileStream TornProofs.

Lemma bounded_search (p : N -> bool) : forall n,
  (exists i, i <= n /\ p i = true) \/ (forall i, i <= n -> p i = false).
Proof.
  induction n as [|n IH] using N.peano_ind.
  - destruct (p 0) eqn:E.
    + left. exists 0. split; [lia|exact E].
    + right. intros i Hi. assert (i = 0) by lia. now subst.
  - destruct IH as [(i & Hi & Hp)|Hall].
    + left. exists i. split; [lia|exact Hp].
    + destruct (p (N.succ n)) eqn:E.
      * left. exists (N.succ n). split; [lia|exact E].
      * right. intros i Hi. destruct (N.eq_dec i (N.succ n)) as [->|Hne]; [exact E|].
        apply Hall. lia.
Qed.

Lemma pigeonhole : forall (M : N) (g : N -> N),
  (forall i, i <= M -> g i < M) -> exists i j, i < j /\ j <= M /\ g i = g j.
Proof.
  induction M as [|M IH] using N.peano_ind; intros g Hg.
  - specialize (Hg 0 ltac:(lia)). lia.
  - set (v := g (N.succ M)).
    destruct (bounded_search (fun i => g i =? v) M) as [(i & Hi & Hp)|Hall].
    + exists i, (N.succ M). split; [lia|]. split; [lia|]. apply N.eqb_eq in Hp. exact Hp.
    + assert (Hne : forall i, i <= M -> g i <> v).
      { intros i Hi E. specialize (Hall i Hi). cbn beta in Hall. apply N.eqb_neq in Hall. contradiction. }
      assert (Hv : v < N.succ M) by (apply Hg; lia).
      set (g' := fun i => if g i =? M then v else g i).
      destruct (IH g') as (i & j & Hij & Hj & E).
      { intros i Hi. unfold g'. pose proof (Hg i ltac:(lia)). pose proof (Hne i Hi).
        destruct (N.eqb_spec (g i) M); lia. }
      exists i, j. split; [exact Hij|]. split; [lia|].
      unfold g' in E. pose proof (Hne i ltac:(lia)). pose proof (Hne j ltac:(lia)).
      destruct (N.eqb_spec (g i) M), (N.eqb_spec (g j) M); congruence.
Qed.

Definition onesN (n : N) : bytes := map (fun _ => x01) (zerosN n).

Lemma lenN_onesN n : lenN (onesN n) = n.
Proof. unfold onesN. rewrite lenN_length, map_length, <- lenN_length. apply lenN_zerosN. Qed.

Lemma takeN_onesN n m : n <= m -> takeN n (onesN m) = onesN n.
Proof.
  intros H. unfold onesN. rewrite takeN_firstn, firstn_map, <- takeN_firstn.
  now rewrite takeN_zerosN.
Qed.

Lemma dropN_onesN n m : dropN n (onesN m) = onesN (m - n).
Proof.
  unfold onesN. rewrite dropN_skipn, skipn_map, <- dropN_skipn. now rewrite dropN_zerosN.
Qed.

Lemma all_zero_onesN n : 0 < n -> all_zero (onesN n) = false.
Proof.
  intros H. unfold onesN. destruct (zerosN n) as [|b r] eqn:E.
  - apply (f_equal lenN) in E. rewrite lenN_zerosN, (@lenN_nil byte) in E. lia.
  - reflexivity.
Qed.

Definition step_str (M n : N) : bytes := onesN n ++ zerosN (M - n).

Lemma lenN_step_str M n : n <= M -> lenN (step_str M n) = M.
Proof. intros H. unfold step_str. rewrite lenN_app, lenN_onesN, lenN_zerosN. lia. Qed.

(* step_str M i is the zero-completed i-prefix of step_str M j *)
Lemma step_str_prefix M i j : i <= j -> j <= M ->
  takeN i (step_str M j) ++ zerosN (lenN (step_str M j) - i) = step_str M i.
Proof.
  intros Hij Hj. rewrite lenN_step_str by exact Hj. unfold step_str.
  rewrite takeN_app_le by (rewrite lenN_onesN; lia).
  now rewrite takeN_onesN.
Qed.

Lemma step_str_neq M i j : i < j -> j <= M -> step_str M i <> step_str M j.
Proof.
  intros Hij Hj E. apply (f_equal (fun l => all_zero (dropN i l))) in E. unfold step_str in E.
  rewrite dropN_app_ge in E by (rewrite lenN_onesN; lia).
  rewrite dropN_app_le in E by (rewrite lenN_onesN; lia).
  rewrite lenN_onesN, N.sub_diag, dropN_0, all_zero_zerosN, dropN_onesN, all_zero_app in E.
  rewrite all_zero_onesN in E by lia. discriminate.
Qed.

(* the unbounded formula is inconsistent with a 32-bit checksum; it is NOT
   TornProofs.no_zero_collision, which bounds the payload length *)
Theorem nzc_inconsistent (P : params) :
  (forall t p, crcf P t p < 2 ^ 32) ->
  (forall ty fp n, n < lenN fp ->
     crcf P ty (takeN n fp ++ zerosN (lenN fp - n)) = crcf P ty fp ->
     takeN n fp ++ zerosN (lenN fp - n) = fp) ->
  False.
Proof.
  intros Hcrc Hnc. set (M := 2 ^ 32) in *.
  destruct (pigeonhole M (fun n => crcf P x00 (step_str M n))) as (i & j & Hij & Hj & E).
  { intros i _. apply Hcrc. }
  cbn beta in E.
  apply (step_str_neq M i j Hij Hj).
  pose proof (step_str_prefix M i j ltac:(lia) Hj) as Hp.
  rewrite <- Hp. apply (Hnc x00 (step_str M j) i).
  - rewrite lenN_step_str by exact Hj. lia.
  - rewrite Hp. exact E.
Qed.

(* the unbounded formula implies the bounded definition (the bound only weakens the hypothesis
   of the torn-write theorems) *)
Lemma nzc_unbounded_bounded (P : params) :
  (forall ty fp n, n < lenN fp ->
     crcf P ty (takeN n fp ++ zerosN (lenN fp - n)) = crcf P ty fp ->
     takeN n fp ++ zerosN (lenN fp - n) = fp) ->
  no_zero_collision P.
Proof. intros H ty fp n _ Hn E. exact (H ty fp n Hn E). Qed.

(* 1 + the index of the last non-zero byte (0 for an all-zero string) *)
Fixpoint last_nz (bs : bytes) : N :=
  match bs with
  | [] => 0
  | b :: r => let k := last_nz r in
              if k =? 0 then (if Byte.eqb b x00 then 0 else 1) else k + 1
  end.

Lemma last_nz_le bs : last_nz bs <= lenN bs.
Proof.
  induction bs as [|b r IH]; [cbn [last_nz]; rewrite (@lenN_nil byte); lia|].
  cbn [last_nz]. rewrite lenN_cons. destruct (N.eqb_spec (last_nz r) 0); [destruct (Byte.eqb b x00)|]; lia.
Qed.

Lemma last_nz_le_iff bs : forall n, last_nz bs <= n <-> all_zero (dropN n bs) = true.
Proof.
  induction bs as [|b r IH]; intros n.
  - rewrite dropN_all by (rewrite (@lenN_nil byte); lia). cbn. split; [reflexivity|lia].
  - destruct (N.eq_dec n 0) as [->|Hn].
    + specialize (IH 0). rewrite dropN_0 in *. cbn [last_nz all_zero].
      destruct (N.eqb_spec (last_nz r) 0) as [E|E].
      * destruct (Byte.eqb b x00); cbn [andb]; [rewrite <- IH; lia|split; [lia|discriminate]].
      * split; [lia|]. intros H. apply andb_true_iff in H. destruct H as [_ H]. apply IH in H. lia.
    + rewrite dropN_skipn. replace (N.to_nat n) with (S (N.to_nat (n - 1))) by lia.
      cbn [skipn]. rewrite <- dropN_skipn, <- IH. cbn [last_nz].
      destruct (N.eqb_spec (last_nz r) 0); [destruct (Byte.eqb b x00)|]; lia.
Qed.

Lemma last_nz_zero bs : last_nz bs = 0 <-> all_zero bs = true.
Proof. pose proof (last_nz_le_iff bs 0) as H. rewrite dropN_0 in H. rewrite <- H. lia. Qed.

Lemma last_nz_app_zeros a z : last_nz (a ++ zerosN z) <= lenN a.
Proof. apply last_nz_le_iff. rewrite dropN_app_exact. apply all_zero_zerosN. Qed.

Definition crc_sat : byte -> bytes -> N := fun _ p => N.min (last_nz p) (2 ^ 32 - 1).

Definition P_sat (bs nb : N) : params := mkParams bs nb crc_sat 24 false false false.

Lemma lenN_app_zeros_take (fp : bytes) n : n <= lenN fp ->
  lenN (takeN n fp ++ zerosN (lenN fp - n)) = lenN fp.
Proof. intros H. rewrite lenN_app, lenN_takeN, lenN_zerosN. lia. Qed.

Lemma crc_sat_lt t p : crc_sat t p < 2 ^ 32.
Proof.
  assert (Hpos : 0 < 2 ^ 32) by (vm_compute; reflexivity).
  unfold crc_sat. lia.
Qed.

Lemma nzc_P_sat bs nb : bs <= 65542 -> no_zero_collision (P_sat bs nb).
Proof.
  intros Hbs.
  assert (Hpow : 65542 < 2 ^ 32 - 1) by (vm_compute; reflexivity).
  intros ty fp n Hlen Hn E. cbn [crcf P_sat BS] in *. unfold crc_sat in E.
  pose proof (last_nz_le fp) as L1.
  pose proof (last_nz_le (takeN n fp ++ zerosN (lenN fp - n))) as L2.
  rewrite lenN_app_zeros_take in L2 by lia.
  rewrite !N.min_l in E by lia.
  pose proof (last_nz_app_zeros (takeN n fp) (lenN fp - n)) as H1.
  rewrite lenN_takeN in H1. rewrite E in H1.
  assert (Hz : all_zero (dropN n fp) = true) by (apply last_nz_le_iff; lia).
  rewrite <- (takeN_dropN n fp) at 3. f_equal.
  rewrite (all_zero_is_zeros _ Hz), lenN_dropN. reflexivity.
Qed.

(* the bounded hypothesis is satisfiable together with the 32-bit range of the checksum, for
   every block size allowed by the other standing hypotheses (7 < BS <= 65542) *)
Theorem nzc_bounded_sat : forall BSv NBv, 7 < BSv -> BSv <= 65542 ->
  exists crc, (forall t p, crc t p < 2 ^ 32) /\
              no_zero_collision (mkParams BSv NBv crc 24 false false false).
Proof.
  intros BSv NBv _ Hhi. exists crc_sat. split; [exact crc_sat_lt|].
  exact (nzc_P_sat BSv NBv Hhi).
Qed.

(* in particular the hypotheses of the torn-write theorems are jointly satisfiable *)
Corollary torn_hyps_sat : forall BSv NBv, 7 < BSv -> BSv <= 65542 ->
  exists P, BS P = BSv /\ NB P = NBv /\ 7 < BS P /\ BS P <= 65542 /\
            (forall t p, crcf P t p < 2 ^ 32) /\ no_zero_collision P /\
            L_GC P = false /\ L_IO P = false /\ L_SHORT P = false.
Proof.
  intros BSv NBv Hlo Hhi. exists (P_sat BSv NBv).
  repeat split; try assumption; try reflexivity.
  - intros t p. apply crc_sat_lt.
  - apply nzc_P_sat. exact Hhi.
Qed.

Print Assumptions nzc_inconsistent.
Print Assumptions nzc_bounded_sat.
Print Assumptions torn_hyps_sat.
