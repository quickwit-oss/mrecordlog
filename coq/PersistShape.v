(* PersistShape.v — the shape of the I/O trace of a history under any persist policy, with
   buffering.
   btrace lo f off evs D lo' f' off': starting with the OS position at offset off of file f and
   the first tracked file lo, the events evs are: data writes (CrashTrace.wtrace: every EvWrite
   exactly at the current end of the OS-level stream, the data concatenating to consecutive
   bytes, a roll-over group exactly at each file boundary), separated by flush groups
   (File::flush, + sync_data + sync of the directory), and - only directly after a flush group
   WITH sync that follows ALL the data written so far - the unlinks of the oldest files.
   C03_trace_shape: the events of a history from a persist point form a btrace whose data,
   followed by the bytes still buffered, are exactly the bytes the history writes
   (padding + encodings of run_log from the cursor of the persist point). *)
From Coq Require Import Lia ZArith ZifyN ZifyNat ZifyBool List Sorted.
From MRL Require Import Bytes BytesProofs Params Names NamesProofs Frame Record Mem Spec Rolling Log
  Driver Hist SpecRefine RecordProofs StreamProofs PolicyProofs GcProofs GhostLog ReplaySpec
  HandleProofs FileStream ResyncProofs TornProofs PersistProofs WriterProofs EffectsProofs
  RestartInv RestartWrite RestartGc RestartStep OpenReplay RestartFinal TornFile CrashTrace
  PersistTrace PersistGc PersistLogic PersistRecover PersistSurvive.

Section Shape.
Variable P : params.
Hypothesis HBS_lo : 7 < BS P.
Hypothesis HBS_hi : BS P <= 65542.
Hypothesis HNB : 1 <= NB P.
Hypothesis Hcrc : forall t p, crcf P t p < 2 ^ 32.
Hypothesis HGC : L_GC P = false.

Local Notation B := (BS P).
Local Notation FB := (FILE_BYTES P).
Local Notation encs_of := (encs_of P).
Local Notation sr := (map entry_ser).
Local Notation wtrace := (wtrace P).
Local Notation HW f := (f P HBS_lo HBS_hi HNB Hcrc) (only parsing).
Local Notation HG f := (f P HBS_lo HBS_hi HNB Hcrc HGC) (only parsing).
Local Notation HN f := (f P HBS_lo HBS_hi HNB) (only parsing).
Local Notation H3 f := (f P HBS_lo HBS_hi Hcrc) (only parsing).
Local Notation wabs := (wabs P).

Inductive btrace : N -> N -> N -> list event -> bytes -> N -> N -> N -> Prop :=
| bt_data lo f off wevs D f' off' :
    wtrace f off wevs D f' off' -> btrace lo f off wevs D lo f' off'
| bt_flush lo f off wevs D1 f1 off1 a rest D2 lo' f' off' :
    wtrace f off wevs D1 f1 off1 ->
    btrace lo f1 off1 rest D2 lo' f' off' ->
    btrace lo f off (wevs ++ flush_group f1 a ++ rest) (D1 ++ D2) lo' f' off'
| bt_gc lo f off wevs D1 f1 off1 m tailf rest D2 lo' f' off' :
    wtrace f off wevs D1 f1 off1 -> lo + N.of_nat m <= f1 ->
    (tailf = [] \/ exists a, tailf = flush_group f1 a) ->
    btrace (lo + N.of_nat m) f1 off1 rest D2 lo' f' off' ->
    btrace lo f off (wevs ++ flush_group f1 true ++ unlinks lo m ++ tailf ++ rest) (D1 ++ D2)
           lo' f' off'.

Lemma btrace_prepend lo f off e1 D1 f1 off1 e2 D2 lo' f' off' :
  wtrace f off e1 D1 f1 off1 -> btrace lo f1 off1 e2 D2 lo' f' off' ->
  btrace lo f off (e1 ++ e2) (D1 ++ D2) lo' f' off'.
Proof.
  intros H1 H2. destruct H2 as [lo f1 off1 wevs D f' off' Hw
                               |lo f1 off1 wevs Da f2 off2 a rest Db lo' f' off' Hw Hr
                               |lo f1 off1 wevs Da f2 off2 m tailf rest Db lo' f' off' Hw Hm Ht Hr].
  - constructor. eapply wtrace_app; eassumption.
  - rewrite (app_assoc D1), (app_assoc e1).
    eapply bt_flush; [eapply wtrace_app; eassumption|exact Hr].
  - rewrite (app_assoc D1), (app_assoc e1).
    eapply bt_gc; [eapply wtrace_app; eassumption|exact Hm|exact Ht|exact Hr].
Qed.

Local Notation Inv := (Inv P).
Local Notation stream_bound := (stream_bound P).
Local Notation ATI := (ATI P).

Lemma seg_trace : forall h h_pre st_g G_g st_i G_i D_i M,
  Inv st_g G_g -> w_pending (s_wr st_g) = [] ->
  fst (run P st_g h_pre) = st_i ->
  hist_wf P st_g (h_pre ++ h) ->
  stream_bound G_g (map snd (run_log P st_g (h_pre ++ h))) ->
  Inv st_i G_i -> stream_bound G_i (map snd (run_log P st_i h)) ->
  M = wpos P (s_wr st_g) +
      lenN (encs_of (wpos P (s_wr st_g)) (sr (map snd (run_log P st_g (h_pre ++ h))))) ->
  ATI st_g M (s_wr st_i) D_i ->
  D_i = encs_of (wpos P (s_wr st_g)) (sr (map snd (run_log P st_g h_pre))) ->
  forall evs, c_ev (w_ctx (s_wr (fst (run P st_i h)))) = rev evs ++ c_ev (w_ctx (s_wr st_i)) ->
  let fin := s_wr (fst (run P st_i h)) in
  exists Dos,
    btrace (wlo (s_wr st_i)) (w_file (s_wr st_i)) (os_pos (s_wr st_i)) evs Dos
           (wlo fin) (w_file fin) (os_pos fin) /\
    w_pending (s_wr st_i) ++ encs_of (wabs (s_wr st_i)) (sr (map snd (run_log P st_i h))) =
      Dos ++ w_pending fin.
Proof.
  induction h as [|[o t] h IH];
    intros h_pre st_g G_g st_i G_i D_i M HIg Hpg Hrun Hwf Hbg HIi Hbi EM Ht ED evs Hev fin.
  - subst fin. cbn [run fst] in *. apply no_new_events in Hev. subst evs.
    exists []. split; [constructor; constructor|].
    cbn [run_log map ResyncProofs.encs_of app]. now rewrite app_nil_r.
  - pose proof Hwf as Hwf0. apply (hist_wf_app P) in Hwf0. destruct Hwf0 as (Hwf_pre & Hwf_i).
    rewrite Hrun in Hwf_i. cbn [hist_wf] in Hwf_i. destruct Hwf_i as (Hop & Hwf_h).
    destruct (HG step_advance st_i G_i o t h HIi (conj Hop Hwf_h) Hbi)
      as (_ & _ & Hb1 & Hno & G' & HI' & Eb' & Ed' & El' & Hb2).
    destruct (ev_split P st_i o t h evs Hev) as (evs1 & evs2 & Eevs & Hev1 & Hev2).
    destruct (H3 seg_extend st_g h_pre o t h st_i D_i M Hrun ED EM) as (Eapp & Er' & Elog1 & ED' & HM).
    subst fin. rewrite run_cons_fst.
    destruct (step P st_i o t) as [st' out] eqn:Es. cbn [fst snd] in *.
    set (cur0 := wpos P (s_wr st_g)) in *.
    set (NEW1 := encs_of (cur0 + lenN D_i) (sr (map snd (step_log P st_i o)))) in *.
    set (D' := D_i ++ NEW1) in *.
    destruct (tinv_facts _ _ _ _ _ _ _ _ _ _ _ Ht) as (_ & Hloi & (E_i & Dos_i & HevEi & _)).
    destruct (HG call_kinds _ _ _ _ _ _ _ _ st_i D_i o t st' out E_i evs1 Ht HM Es Hno HevEi Hev1)
      as (Habs' & _ & Hk). fold NEW1 in Habs', Hk. fold D' in Hk.
    (* the bytes, with absolute cursors *)
    destruct (HW TI_wabs _ _ _ _ _ _ _ _ _ _ Ht) as (Habs_i & _).
    assert (Esh : forall X, encs_of (wabs (s_wr st_i)) X = encs_of (cur0 + lenN D_i) X).
    { intros X. rewrite Habs_i. apply (HW encs_of_shift). apply (HN mulFB_mod). }
    assert (ENEW : encs_of (wabs (s_wr st_i)) (sr (map snd (step_log P st_i o ++ run_log P st' h))) =
                   NEW1 ++ encs_of (wabs (s_wr st')) (sr (map snd (run_log P st' h)))).
    { rewrite !map_app, (H3 encs_of_app), (Esh (sr (map snd (step_log P st_i o)))).
      fold NEW1. rewrite Habs'. reflexivity. }
    cbn [run_log]. rewrite Es. cbn [fst]. rewrite ENEW.
    (* the rest of the history, as a continuation of the segment or from a new anchor *)
    assert (ContN : ATI st_g M (s_wr st') D' ->
              exists Dos2,
                btrace (wlo (s_wr st')) (w_file (s_wr st')) (os_pos (s_wr st')) evs2 Dos2
                       (wlo (s_wr (fst (run P st' h)))) (w_file (s_wr (fst (run P st' h))))
                       (os_pos (s_wr (fst (run P st' h)))) /\
                w_pending (s_wr st') ++ encs_of (wabs (s_wr st')) (sr (map snd (run_log P st' h))) =
                  Dos2 ++ w_pending (s_wr (fst (run P st' h)))).
    { intros Ht'. specialize (IH (h_pre ++ [(o, t)]) st_g G_g st' G' D' M HIg Hpg Er').
      rewrite Eapp in IH. exact (IH Hwf Hbg HI' Hb2 EM Ht' ED' evs2 Hev2). }
    assert (ContA : w_pending (s_wr st') = [] ->
              exists Dos2,
                btrace (wlo (s_wr st')) (w_file (s_wr st')) (w_off (s_wr st')) evs2 Dos2
                       (wlo (s_wr (fst (run P st' h)))) (w_file (s_wr (fst (run P st' h))))
                       (os_pos (s_wr (fst (run P st' h)))) /\
                encs_of (wabs (s_wr st')) (sr (map snd (run_log P st' h))) =
                  Dos2 ++ w_pending (s_wr (fst (run P st' h)))).
    { intros Hp'.
      destruct (IH [] st' G' st' G' [] _ HI' Hp' eq_refl Hwf_h Hb2 HI' Hb2 eq_refl
                  (anchor_ATI P HBS_lo HBS_hi HNB Hcrc st' G' h HI' Hp' Hb2) eq_refl evs2 Hev2)
        as (Dos2 & Hbt & Hd2).
      assert (Eos : os_pos (s_wr st') = w_off (s_wr st')).
      { unfold os_pos. rewrite Hp', (@lenN_nil byte). lia. }
      rewrite Eos in Hbt. rewrite Hp' in Hd2. exists Dos2. split; [exact Hbt|exact Hd2]. }
    rewrite Eevs.
    destruct Hk as [(HN & D1 & Hw1 & HD1)|[(Hp' & Hlo' & w1 & a & -> & Hw1)|(Hp' & w1 & mg & tailf & -> & Hw1 & Hmg & Htl & Hlo' & _)]].
    + destruct (ContN HN) as (Dos2 & Hbt & Hd2).
      destruct (HW TI_wabs _ _ _ _ _ _ _ _ _ _ HN) as (_ & Hlo').
      exists (D1 ++ Dos2). split.
      * rewrite Hloi, <- Hlo'. eapply btrace_prepend; eassumption.
      * rewrite <- (app_assoc D1), <- Hd2, !app_assoc. f_equal. exact HD1.
    + destruct (ContA Hp') as (Dos2 & Hbt & Hd2). rewrite Hlo' in Hbt.
      exists ((w_pending (s_wr st_i) ++ NEW1) ++ Dos2). split.
      * rewrite Hloi, <- (app_assoc w1). eapply bt_flush; eassumption.
      * rewrite <- !app_assoc. do 2 f_equal. exact Hd2.
    + destruct (ContA Hp') as (Dos2 & Hbt & Hd2). rewrite Hlo' in Hbt.
      exists ((w_pending (s_wr st_i) ++ NEW1) ++ Dos2). split.
      * rewrite Hloi, <- (app_assoc w1), <- (app_assoc (flush_group _ true)), <- (app_assoc (unlinks _ _)).
        eapply bt_gc; eassumption.
      * rewrite <- !app_assoc. do 2 f_equal. exact Hd2.
Qed.

(* the trace of a history from a persist point *)
Theorem C03_trace_shape st0 G0 h evs :
  Inv st0 G0 -> w_pending (s_wr st0) = [] ->
  hist_wf P st0 h -> stream_bound G0 (map snd (run_log P st0 h)) ->
  c_ev (w_ctx (s_wr (fst (run P st0 h)))) = rev evs ++ c_ev (w_ctx (s_wr st0)) ->
  let w0 := s_wr st0 in
  let w := s_wr (fst (run P st0 h)) in
  let NEWALL := encs_of (wabs w0) (sr (map snd (run_log P st0 h))) in
  exists Dos,
    (* the events: data writes of consecutive bytes, flush groups, guarded unlinks *)
    btrace (wlo w0) (w_file w0) (w_off w0) evs Dos (wlo w) (w_file w) (os_pos w) /\
    (* (bytes in the events) + (bytes pending) = the bytes written *)
    Dos ++ w_pending w = NEWALL /\ ev_data evs = Dos.
Proof.
  intros HI0 Hp0 Hwf Hb Hevs w0 w NEWALL. subst w0 w NEWALL.
  destruct (seg_trace h [] st0 G0 st0 G0 [] _ HI0 Hp0 eq_refl Hwf Hb HI0 Hb eq_refl
              (anchor_ATI P HBS_lo HBS_hi HNB Hcrc st0 G0 h HI0 Hp0 Hb) eq_refl evs Hevs)
    as (Dos & Hbt & Hd).
  cbn zeta in Hbt, Hd. rewrite Hp0 in Hd. cbn [app] in Hd.
  assert (Eos : os_pos (s_wr st0) = w_off (s_wr st0)) by (unfold os_pos; rewrite Hp0, (@lenN_nil byte); lia).
  rewrite Eos in Hbt. exists Dos. split; [exact Hbt|]. split; [symmetry; exact Hd|].
  clear - Hbt. induction Hbt as [lo f off wevs D f' off' Hw
                                |lo f off wevs D1 f1 off1 a rest D2 lo' f' off' Hw _ IH
                                |lo f off wevs D1 f1 off1 m tailf rest D2 lo' f' off' Hw _ Ht _ IH].
  - exact (wtrace_data P _ _ _ _ _ _ Hw).
  - rewrite !ev_data_app, (wtrace_data P _ _ _ _ _ _ Hw), IH.
    now rewrite (proj2 (noop_fold _ (flush_group_noop f1 a))).
  - rewrite !ev_data_app, (wtrace_data P _ _ _ _ _ _ Hw), IH, unlinks_data.
    rewrite (proj2 (noop_fold _ (flush_group_noop f1 true))).
    destruct Ht as [->|(a & ->)]; [reflexivity|].
    now rewrite (proj2 (noop_fold _ (flush_group_noop f1 a))).
Qed.

End Shape.

Print Assumptions C03_trace_shape.
