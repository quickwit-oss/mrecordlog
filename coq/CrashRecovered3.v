(* CrashRecovered3.v — a second crash during the recovery's own writes.
   jstate_crash_self: img a crash image of a call issued from a usable state (jstate), st_r the
   state `open` recovers from it; every crash image of the events that this `open` itself
   appended to the I/O trace (set_len of a short last file, position entries of the recovery-time
   GC, flush/syncs, unlinks), applied to img, is again recovered, to the abstract state of st_r,
   and the result is again usable.
   crash_recovered_self: the same from the setting of crash_recovered_usable. *)
From Coq Require Import Lia ZArith ZifyN ZifyNat ZifyBool List Sorted.
From MRL Require Import Bytes BytesProofs Params Names NamesProofs Frame Record Mem Spec Rolling Log
  Driver Hist NoopProofs SpecRefine RecordProofs StreamProofs PolicyProofs GcProofs GhostLog ReplaySpec
  HandleProofs FileStream ResyncProofs QueueIso RestartInv RestartWrite RestartGc RestartStep
  OpenReplay RestartFinal TornProofs TornFile CrashTrace CrashAtomic
  JInv JGc JStep JunkStream JReopen JRecoverL JRecoverP JRecoverL2
  JCrashShape JRecover2 JRecoverPk JRecover3 JRecoverGc JRecoverSelf
  CrashRecovered CrashRecovered2.

Section Self.
Variable P : params.
Hypothesis HBS_lo : 7 < BS P.
Hypothesis HBS_hi : BS P <= 65542.
Hypothesis HNB : 1 <= NB P.
Hypothesis Hcrc : forall t p, crcf P t p < 2 ^ 32.
Hypothesis HGC : L_GC P = false.
Hypothesis HIO : L_IO P = false.
Hypothesis HSHORT : L_SHORT P = false.
Hypothesis Hnc : no_zero_collision P.

Local Notation B := (BS P).
Local Notation FB := (FILE_BYTES P).
Local Notation ser := (map entry_ser).

Lemma recovered_jstate st : recovered P st -> jstate P st.
Proof. intros H. exact H. Qed.

Theorem jstate_crash_self st a o tick st' out :
  jstate P st -> crash_call_ok P st a o tick st' out ->
  exists evs, c_ev (w_ctx (s_wr st')) = rev evs ++ c_ev (w_ctx (s_wr st)) /\
    forall cut k pol hint st_r,
      let img := fold_left apply_event (crash_events evs cut k) (c_fs (w_ctx (s_wr st))) in
      open P img None pol hint = OpenOk st_r ->
      (* the recovery-time GC stays in the same file, before its last block, with room *)
      w_file (s_wr st_r) = w_file (s_wr st) -> w_off (s_wr st_r) + B <= FB -> rec_bound P st_r ->
      forall cut2 k2 pol3 hint3,
        exists st_r2,
          open P (fold_left apply_event (crash_events (rev (c_ev (w_ctx (s_wr st_r)))) cut2 k2) img)
               None pol3 hint3 = OpenOk st_r2 /\
          (forall q, s_get (abs_qs (s_qs st_r2)) q = s_get (abs_qs (s_qs st_r)) q) /\
          jstate P st_r2 /\ s_pol st_r2 = pol3 /\ w_pending (s_wr st_r2) = [].
Proof.
  intros (PRE0 & OLD0 & opos0 & adm0 & cmax0 & rm0 & G & Hpre0 & Hpc0 & Hrm0 & Hadm0 & HI & Hroom0)
         (Hp0 & Hpol & Hop & Hb1 & Hb2 & Hstep & Hroll & Hblk).
  destruct (call_vcall P HBS_lo HBS_hi HNB Hcrc HGC PRE0 OLD0 opos0 Hpre0 st G a o tick st' out
              HI Hp0 Hpol Hop Hb1 Hb2 Hstep) as (Hno & Hc1 & Hc2 & G' & evs & Hev & Hv).
  exists evs. split; [exact Hev|]. intros cut k pol hint st_r. cbn zeta.
  intros Hopen Hrollr Hblkr Hrb cut2 k2 pol3 hint3.
  destruct (recover_vcall_setup P HBS_lo HBS_hi HNB Hcrc Hnc PRE0 OLD0 opos0 adm0 cmax0 rm0
              Hpre0 Hpc0 Hrm0 Hadm0 st G _ st' G' evs Hv Hc1 Hc2 Hroll Hblk
              (crash_events evs cut k) (crash_events_cpre evs cut k))
    as (PRE & OLD & opos & adm & cmax & rm & lo' & n & zz & qs_log & lo_log & Glog &
        Hpre & Hpc & Hrm & Hadm & Hrc & Ehi & _).
  cbn zeta in Hrc.
  destruct (recover_self P HBS_lo HBS_hi HNB Hcrc HGC HIO HSHORT Hnc PRE OLD opos adm cmax rm _ lo' n
              (gh_base G) zz qs_log lo_log Glog pol hint st_r Hpre Hpc Hrm Hadm Hrc Hopen
              ltac:(rewrite Ehi; exact Hrollr) Hblkr Hrb)
    as (_ & _ & Hall2).
  destruct (Hall2 (crash_events (rev (c_ev (w_ctx (s_wr st_r)))) cut2 k2)
              (crash_events_cpre _ cut2 k2) pol3 hint3)
    as (st_r2 & Ho2 & Habs2 & Hrec2 & Hpol2 & Hpend2).
  exists st_r2. split; [exact Ho2|]. split; [exact Habs2|]. split; [exact Hrec2|].
  split; [exact Hpol2|exact Hpend2].
Qed.

(* in the setting of crash_recovered_usable *)
Theorem crash_recovered_self st G a o tick st' out :
  crash_setting P st G a o tick st' out ->
  crash_phys_bound P (s_wr st) (map snd (step_log P st o)) (abs_qs (s_qs st)) ->
  crash_phys_bound P (s_wr st) (map snd (step_log P st o)) (abs_qs (s_qs st')) ->
  exists evs, c_ev (w_ctx (s_wr st')) = rev evs ++ c_ev (w_ctx (s_wr st)) /\
    forall cut k pol hint st_r,
      let img := fold_left apply_event (crash_events evs cut k) (c_fs (w_ctx (s_wr st))) in
      open P img None pol hint = OpenOk st_r ->
      w_file (s_wr st_r) = w_file (s_wr st) -> w_off (s_wr st_r) + B <= FB -> rec_bound P st_r ->
      forall cut2 k2 pol3 hint3,
        exists st_r2,
          open P (fold_left apply_event (crash_events (rev (c_ev (w_ctx (s_wr st_r)))) cut2 k2) img)
               None pol3 hint3 = OpenOk st_r2 /\
          (forall q, s_get (abs_qs (s_qs st_r2)) q = s_get (abs_qs (s_qs st_r)) q) /\
          jstate P st_r2.
Proof.
  intros (HI & Hp0 & Hpol & Hop & Hb & _ & _ & Hstep & Hno & Hroll & Hblk) Hb1 Hb2.
  destruct (jstate_crash_self st a o tick st' out (jstate_inv P HBS_lo HBS_hi HNB Hcrc st G HI))
    as (evs & Hev & Hall).
  { split; [exact Hp0|]. split; [exact Hpol|]. split; [exact Hop|]. split; [exact Hb1|].
    split; [exact Hb2|]. split; [exact Hstep|]. split; [exact Hroll|exact Hblk]. }
  exists evs. split; [exact Hev|]. intros cut k pol hint st_r. cbn zeta.
  intros Hopen H1 H2 H3 cut2 k2 pol3 hint3.
  destruct (Hall cut k pol hint st_r Hopen H1 H2 H3 cut2 k2 pol3 hint3) as (st_r2 & Ho & Ha & Hj & _).
  exists st_r2. split; [exact Ho|]. split; [exact Ha|exact Hj].
Qed.

End Self.

Print Assumptions jstate_crash_self.
Print Assumptions crash_recovered_self.
