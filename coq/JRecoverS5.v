(* JRecoverS5.v — JRecoverS4.crash_stream_cut with no_zero_collision as a premise of the theorem:
   all the data of the call are in the image, or a whole block follows the cut, or the torn data
   end EXACTLY at the end of the image stream (the cut completes the last file and its successor
   does not exist). *)
From Coq Require Import Lia ZArith ZifyN ZifyNat ZifyBool List Sorted.
From MRL Require Import Bytes BytesProofs Params Frame Driver StreamProofs DamageProofs TornProofs
  ResyncProofs OpenTerm OpenReplay TornFile JunkStream JRecoverS4.

Section RecoverS5.
Variable P : params.
Hypothesis HBS_lo : 7 < BS P.
Hypothesis HBS_hi : BS P <= 65542.
Hypothesis Hcrc : forall t p, crcf P t p < 2 ^ 32.

Local Notation B := (BS P).
Local Notation ffp := (first_frame_pos P).
Local Notation encsof := (encs_of P).
Local Notation starts := (starts P).
Local Notation pre_cont := (pre_cont P).

Theorem crash_stream_pre3 PRE0 ops0 opos0 adm0 cmax0 rm0 (es_new : list bytes) c0 xs j z (S_all : bytes) :
  no_zero_collision P ->
  pre_cont PRE0 ops0 opos0 adm0 cmax0 rm0 -> rm0 <= 7 ->
  let a0 := lenN PRE0 in
  let T := PRE0 ++ encsof a0 es_new in
  lenN T <= c0 -> c0 <= ffp (lenN T) -> j <= lenN (encsof c0 xs) ->
  S_all = T ++ zerosN (c0 - lenN T) ++ takeN j (encsof c0 xs) ++ zerosN z ->
  stream_ok P S_all ->
  j = lenN (encsof c0 xs) \/ c0 + j + B <= lenN S_all \/ c0 + j = lenN S_all ->
  lenN PRE0 + rm0 <= lenN S_all ->
  exists xs_d xs_r PRE cmax rm zz,
    xs = xs_d ++ xs_r /\
    pre_cont PRE (ops0 ++ es_new ++ xs_d) (opos0 ++ starts a0 (es_new ++ xs_d)) adm0 cmax rm /\
    S_all = PRE ++ zerosN zz /\ lenN PRE + rm <= lenN S_all /\
    (cmax <= Datatypes.S cmax0)%nat /\ rm <= 7 /\
    (forall m, m * B <= c0 + j -> m * B <= ffp (lenN PRE)) /\
    lenN T <= lenN PRE /\ c0 <= ffp (lenN PRE) /\
    a0 + lenN (encsof a0 (es_new ++ xs_d)) <= lenN PRE /\
    lenN PRE <= a0 + lenN (encsof a0 (es_new ++ xs)) + B /\
    (xs_r <> [] -> j < lenN (encsof c0 xs)).
Proof.
  intros Hnc Hpc0 Hrm0 a0 T Hlo Hhi Hj HS Hok Hc Hroom0.
  apply (crash_stream_cut P HBS_lo HBS_hi Hcrc PRE0 ops0 opos0 adm0 cmax0 rm0 es_new c0 xs j z S_all
           Hpc0 Hrm0 Hlo Hhi Hj HS Hok); [|exact Hroom0].
  destruct Hc as [Hc|[Hc|Hc]]; [left; exact Hc | right; left; split; [exact Hnc|exact Hc] | right; right; exact Hc].
Qed.

End RecoverS5.

Print Assumptions crash_stream_pre3.
