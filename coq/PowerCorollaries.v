(* PowerCorollaries.v — the POWER-LOSS halves of C04 (positions never regress), C18 (queue
   isolation) and C12 (a batch append is all-or-nothing).
   PowerLoss.C03_power_image_is_crash_image: from a persist point, the image of a power loss at
   cut c IS the process-crash image at (cut', 0) for some cut' <= c.  Hence every statement of
   CrashCorollaries on process-crash images (crash_events evs cut k) holds for the power-loss
   images (power_events evs cut):
     power_next_positions (C04), power_projection (C18), batch_power (C12).
   For the "after a persist point" variants the cut' must not fall before the events of call i.
   On event lists alone, a fully synced prefix evs_i of the trace survives a
   power loss at any cut >= |evs_i| as a whole, so that cut' can be taken >= |evs_i|
   (power_is_crash_ge); hence, when call i is a POWER persist point (nothing buffered, everything
   written so far synced):
     power_next_after_persist (C04), batch_power_persisted (C12): m >= i. *)
From Coq Require Import Lia ZArith ZifyN ZifyNat ZifyBool List Sorted.
From MRL Require Import Bytes BytesProofs Params Names NamesProofs Frame Record Mem Spec Rolling Log
  Driver Hist NoopProofs WriterProofs SpecRefine GhostLog ReplaySpec DeletionSim QueueIso
  RestartInv RestartWrite RestartGc RestartStep OpenReplay RestartFinal RestartCorollaries
  RecordProofs StreamProofs PolicyProofs GcProofs HandleProofs FileStream ResyncProofs
  TornProofs PersistProofs CrashTrace CrashAtomic PersistLogic PersistRecover PersistSurvive
  PersistShape PersistImage CrashCorollaries PowerLoss.
Import ListNotations.

Lemma disc_app_r a : forall cur d b, disc cur d (a ++ b) -> exists cur' d', disc cur' d' b.
Proof.
  induction a as [|e a IH]; intros cur d b H.
  - exists cur, d. exact H.
  - cbn [app] in H. destruct e; cbn [disc] in H; try contradiction.
    + destruct H as [_ H]. exact (IH _ _ _ H).
    + destruct H as [_ H]. exact (IH _ _ _ H).
    + destruct H as [_ H]. exact (IH _ _ _ H).
    + exact (IH _ _ _ H).
    + destruct H as [_ H]. exact (IH _ _ _ H).
    + exact (IH _ _ _ H).
    + destruct H as [_ H]. exact (IH _ _ _ H).
Qed.

(* PowerLoss.power_is_crash when the cut is after a fully synced prefix a of the trace: the
   process-crash cut is after a too *)
Theorem power_is_crash_ge a b cur d cut :
  disc cur d (a ++ b) -> all_synced a -> lenN a <= cut ->
  exists cut', lenN a <= cut' /\ cut' <= cut /\
    (forall fs, fold_left apply_event (power_events (a ++ b) cut) fs =
                fold_left apply_event (crash_events (a ++ b) cut' 0) fs) /\
    ev_data (power_events (a ++ b) cut) = ev_data (crash_events (a ++ b) cut' 0) /\
    Forall (fun e => ~ meta_ev e) (dropN cut' (takeN cut (a ++ b))).
Proof.
  intros Hd Ha Hc. destruct (disc_app_r a cur d b Hd) as (cur' & d' & Hdb).
  destruct (power_is_crash b cur' d' (cut - lenN a) Hdb) as (c2 & Hc2 & I1 & I2 & I3).
  exists (lenN a + c2). split; [lia|]. split; [lia|].
  rewrite power_events_app_ge by assumption.
  rewrite crash_events_k0 in *.
  rewrite (takeN_app_ge (lenN a + c2)) by lia.
  replace (lenN a + c2 - lenN a) with c2 by lia.
  split; [intros fs; rewrite !fold_left_app; apply I1|].
  split; [rewrite !ev_data_app, I2; reflexivity|].
  rewrite (takeN_app_ge cut) by assumption.
  rewrite !dropN_skipn in *. rewrite skipn_app.
  replace (N.to_nat (lenN a + c2) - length a)%nat with (N.to_nat c2) by (rewrite lenN_length; lia).
  rewrite (skipn_all2 a) by (rewrite lenN_length; lia). exact I3.
Qed.

Section Main.
Variable P : params.
Hypothesis HBS_lo : 7 < BS P.
Hypothesis HBS_hi : BS P <= 65542.
Hypothesis HNB : 1 <= NB P.
Hypothesis Hcrc : forall t p, crcf P t p < 2 ^ 32.
Hypothesis HGC : L_GC P = false.
Hypothesis HIO : L_IO P = false.
Hypothesis HSHORT : L_SHORT P = false.
Hypothesis Hnc : no_zero_collision P.

Local Notation HW f := (f P HBS_lo HBS_hi HNB Hcrc) (only parsing).
Local Notation HG f := (f P HBS_lo HBS_hi HNB Hcrc HGC) (only parsing).
Local Notation HN f := (f P HBS_lo HBS_hi HNB) (only parsing).
Local Notation HA f := (f P HBS_lo HBS_hi HNB Hcrc HGC HIO HSHORT Hnc) (only parsing).
Local Notation Inv := (Inv P).
Local Notation stream_bound := (stream_bound P).
Local Notation absq st := (abs_qs (s_qs st)).
Local Notation stN st h m := (fst (run P st (firstn m h))).
Local Notation CB := (CB P).

Section Setting.
(* the setting of PowerLoss.C03_power_loss: a persist point (the restart invariant holds and
   nothing is buffered), any further history under any policy, the events it adds *)
Variables (st0 : state) (G0 : ghost).
Hypothesis HI0 : Inv st0 G0.
Hypothesis Hp0 : w_pending (s_wr st0) = [].
Variable h : list (op * bool).
Hypothesis Hwf : hist_wf P st0 h.
Hypothesis Hb : stream_bound G0 (map snd (run_log P st0 h)).
Variable evs : list event.
Hypothesis Hevs : c_ev (w_ctx (s_wr (fst (run P st0 h)))) = rev evs ++ c_ev (w_ctx (s_wr st0)).
Hypothesis Hcb : CB st0 h.

Local Notation fs0 := (c_fs (w_ctx (s_wr st0))).
Local Notation crash_dir cut k := (fold_left apply_event (crash_events evs cut k) fs0).
Local Notation power_dir cut := (fold_left apply_event (power_events evs cut) fs0).

(* the power-loss image at cut is a process-crash image *)
Lemma power_dir_crash cut : exists cut', cut' <= cut /\ power_dir cut = crash_dir cut' 0.
Proof.
  destruct (HG C03_power_image_is_crash_image st0 G0 HI0 Hp0 h Hwf Hb evs Hevs cut)
    as (cut' & Hc & E & _).
  exists cut'. split; [exact Hc|exact E].
Qed.

(* the same when the cut is after the events of a call boundary st_i at which everything written
   is synced: the process-crash cut is after these events too *)
Lemma power_dir_crash_ge i evs_i cut :
  (i <= length h)%nat ->
  let st_i := stN st0 h i in
  wr_all_synced (s_wr st_i) ->
  c_ev (w_ctx (s_wr st_i)) = rev evs_i ++ c_ev (w_ctx (s_wr st0)) ->
  lenN evs_i <= cut ->
  exists cut', lenN evs_i <= cut' /\ cut' <= cut /\ power_dir cut = crash_dir cut' 0.
Proof.
  intros Hi st_i Hsi Hevi Hcut.
  pose proof (boundary_synced _ _ _ Hevi Hsi) as Hall.
  pose proof (HG history_disc st0 G0 HI0 Hp0 h Hwf Hb evs Hevs) as Hd.
  destruct (HG cut_at st0 G0 h evs i evs_i HI0 Hwf Hb Hcb Hevs Hevi)
    as (_ & _ & _ & _ & evs2 & _ & _ & _ & _ & _ & ->).
  destruct (power_is_crash_ge evs_i evs2 _ _ cut Hd Hall Hcut) as (cut' & H1 & H2 & E & _).
  exists cut'. split; [exact H1|]. split; [exact H2|apply E].
Qed.

(* Whatever the policy and wherever the power fails in h, recovery gives every queue the next
   position (hence the last position) the specification gives it after a prefix of the calls; if
   no call of h successfully deletes q, that is never below the next position q had at the
   persist point, and q is still there if it was there. *)
Theorem power_next_positions cut pol hint :
  exists m st_r,
    (m <= length h)%nat /\ open P (power_dir cut) None pol hint = OpenOk st_r /\
    (forall q, log_next st_r q = next_or0 (s_get (fst (s_run (absq st0) (firstn m (sops h)))) q) /\
               log_last_position st_r q =
                 s_last_position (fst (s_run (absq st0) (firstn m (sops h)))) q) /\
    (forall q, log_next st_r q = log_next (stN st0 h m) q /\
               log_last_position st_r q = log_last_position (stN st0 h m) q) /\
    (forall q, log_never_deleted q h (snd (run P st0 h)) ->
               log_next st0 q <= log_next st_r q /\
               (qs_get (s_qs st0) q <> None -> qs_get (s_qs st_r) q <> None)).
Proof.
  destruct (power_dir_crash cut) as (cut' & _ & ->).
  exact (HA crash_next_positions st0 G0 HI0 Hp0 h Hwf Hb Hcb evs Hevs cut' 0 pol hint).
Qed.

(* If call number i is a POWER persist point (nothing buffered, everything written so far
   synced) and the power fails after it returned, the recovered state is that of a prefix of
   length m >= i, and every queue that is not deleted by the calls after i recovers a next
   position at or above the one it had after call i. *)
Theorem power_next_after_persist i evs_i :
  (i <= length h)%nat ->
  let st_i := stN st0 h i in
  w_pending (s_wr st_i) = [] -> wr_all_synced (s_wr st_i) ->
  c_ev (w_ctx (s_wr st_i)) = rev evs_i ++ c_ev (w_ctx (s_wr st0)) ->
  forall cut pol hint, lenN evs_i <= cut ->
  exists m st_r,
    (i <= m)%nat /\ (m <= length h)%nat /\
    open P (power_dir cut) None pol hint = OpenOk st_r /\
    (forall q, log_next st_r q = next_or0 (s_get (fst (s_run (absq st0) (firstn m (sops h)))) q)) /\
    (forall q, log_next st_r q = log_next (stN st0 h m) q) /\
    (forall q, log_never_deleted q (skipn i h) (snd (run P st_i (skipn i h))) ->
               log_next st_i q <= log_next st_r q /\
               (qs_get (s_qs st_i) q <> None -> qs_get (s_qs st_r) q <> None)).
Proof.
  intros Hi st_i Hpi Hsi Hevi cut pol hint Hcut.
  destruct (power_dir_crash_ge i evs_i cut Hi Hsi Hevi Hcut) as (cut' & Hc1 & _ & ->).
  exact (HA crash_next_after_persist st0 G0 HI0 Hp0 h Hwf Hb Hcb evs Hevs i evs_i Hi Hpi Hevi
           cut' 0 pol hint Hc1).
Qed.

(* After recovery from a power loss anywhere in h, under any policy, what a queue q holds —
   and so what range / last_position / last_record answer for q — is what the SPECIFICATION gives
   q when it runs only the calls addressed to q among the first m calls, from any map that agrees
   with the persist point on q. *)
Theorem power_projection cut pol hint :
  exists m st_r,
    (m <= length h)%nat /\ open P (power_dir cut) None pol hint = OpenOk st_r /\
    forall q m0, s_get m0 q = s_get (absq st0) q ->
      let mq := fst (s_run m0 (filter (addressed q) (firstn m (sops h)))) in
      s_get (absq st_r) q = s_get mq q /\
      (forall lo hi, log_range st_r q lo hi = s_range mq q lo hi) /\
      log_last_position st_r q = s_last_position mq q /\
      log_last_record st_r q = s_last_record mq q /\
      log_next st_r q = next_or0 (s_get mq q).
Proof.
  destruct (power_dir_crash cut) as (cut' & _ & ->).
  exact (HA crash_projection st0 G0 HI0 Hp0 h Hwf Hb Hcb evs Hevs cut' 0 pol hint).
Qed.

(* the same with m >= i when call i is a power persist point and the power fails
   after it returned *)
Theorem power_projection_after_persist i evs_i :
  (i <= length h)%nat ->
  let st_i := stN st0 h i in
  w_pending (s_wr st_i) = [] -> wr_all_synced (s_wr st_i) ->
  c_ev (w_ctx (s_wr st_i)) = rev evs_i ++ c_ev (w_ctx (s_wr st0)) ->
  forall cut pol hint, lenN evs_i <= cut ->
  exists m st_r,
    (i <= m)%nat /\ (m <= length h)%nat /\
    open P (power_dir cut) None pol hint = OpenOk st_r /\
    forall q m0, s_get m0 q = s_get (absq st0) q ->
      let mq := fst (s_run m0 (filter (addressed q) (firstn m (sops h)))) in
      s_get (absq st_r) q = s_get mq q /\
      (forall lo hi, log_range st_r q lo hi = s_range mq q lo hi) /\
      log_last_position st_r q = s_last_position mq q /\
      log_last_record st_r q = s_last_record mq q /\
      log_next st_r q = next_or0 (s_get mq q).
Proof.
  intros Hi st_i Hpi Hsi Hevi cut pol hint Hcut.
  destruct (HA C03_fsynced_survives_power_loss st0 G0 h evs i evs_i HI0 Hp0 Hwf Hb Hcb Hevs Hi
              Hpi Hsi Hevi cut pol hint Hcut) as (m & st_r & Him & Hm & Ho & Hq).
  exists m, st_r. split; [exact Him|]. split; [exact Hm|]. split; [exact Ho|]. intros q m0 H0.
  apply (reads_of_projection st_r (absq st0) m0 _ q (open_inv P _ _ _ _ _ Ho) H0).
  now rewrite Hq, <- (HG run_spec_prefix h st0 G0 m HI0 Hwf Hb).
Qed.

(* Wherever the power fails in h, under any policy, the recovered state is that of a prefix of
   h: the batch is recovered as nothing (prefix before the append), or as a suffix of itself
   (prefix containing the append). *)
Theorem batch_power h1 q pos pl t h2 last nb :
  h = h1 ++ (OAppend q pos pl, t) :: h2 ->
  let st1 := fst (run P st0 h1) in
  snd (step P st1 (OAppend q pos pl) t) = OutAppend (Some last) nb ->
  let st2 := fst (step P st1 (OAppend q pos pl) t) in
  forall cut pol hint,
  exists m st_r,
    (m <= length h)%nat /\ open P (power_dir cut) None pol hint = OpenOk st_r /\
    (forall q', s_get (absq st_r) q' = s_get (absq (stN st0 h m)) q') /\
    batch_at P st0 h1 q pl h2 st2 last m (s_get (absq st_r) q).
Proof.
  intros Eh st1 Hout st2 cut pol hint.
  destruct (power_dir_crash cut) as (cut' & _ & ->).
  exact (HA batch_crash st0 G0 HI0 Hp0 h Hwf Hb Hcb evs Hevs h1 q pos pl t h2 last nb Eh Hout
           cut' 0 pol hint).
Qed.

(* If the batch append left nothing buffered AND everything written so far synced (e.g.
   policy Always with fsync) and the power fails after it returned, the batch is never recovered
   as "nothing because too early": the recovered prefix contains the append, and q holds a suffix
   of the batch as long as q is not deleted by the later calls of that prefix. *)
Theorem batch_power_persisted h1 q pos pl t h2 last nb evs_i :
  h = h1 ++ (OAppend q pos pl, t) :: h2 ->
  let st1 := fst (run P st0 h1) in
  snd (step P st1 (OAppend q pos pl) t) = OutAppend (Some last) nb ->
  let st2 := fst (step P st1 (OAppend q pos pl) t) in
  let b := last + 1 - lenN pl in
  w_pending (s_wr st2) = [] -> wr_all_synced (s_wr st2) ->
  c_ev (w_ctx (s_wr st2)) = rev evs_i ++ c_ev (w_ctx (s_wr st0)) ->
  forall cut pol hint, lenN evs_i <= cut ->
  exists m st_r,
    (length h1 < m)%nat /\ (m <= length h)%nat /\
    open P (power_dir cut) None pol hint = OpenOk st_r /\
    let k2 := (m - S (length h1))%nat in
    (log_never_deleted q (firstn k2 h2) (snd (run P st2 (firstn k2 h2))) ->
     exists recs next j,
       s_get (absq st_r) q = Some (recs, next) /\ last < next /\
       filter (in_span b (last + 1)) recs = skipn j (s_number b pl)).
Proof.
  intros Eh st1 Hout st2 b Hp2 Hs2 Hev2 cut pol hint Hcut.
  destruct (HN stN_after_call st0 h h1 _ t h2 Eh) as (Hi & Esti). fold st1 in Esti. fold st2 in Esti.
  destruct (power_dir_crash_ge (S (length h1)) evs_i cut Hi) as (cut' & Hc1 & _ & ->);
    try (rewrite Esti; assumption); [exact Hcut|].
  exact (HA batch_crash_persisted st0 G0 HI0 Hp0 h Hwf Hb Hcb evs Hevs h1 q pos pl t h2 last nb
           evs_i Eh Hout Hp2 Hev2 cut' 0 pol hint Hc1).
Qed.

End Setting.
End Main.

Print Assumptions power_is_crash_ge.
Print Assumptions power_next_positions.
Print Assumptions power_next_after_persist.
Print Assumptions power_projection.
Print Assumptions power_projection_after_persist.
Print Assumptions batch_power.
Print Assumptions batch_power_persisted.

Check power_is_crash_ge.
Check power_next_positions.
Check power_next_after_persist.
Check power_projection.
Check power_projection_after_persist.
Check batch_power.
Check batch_power_persisted.
