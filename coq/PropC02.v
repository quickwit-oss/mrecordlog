(* PropC02.v — C02: a crash at any instant recovers to an atomic, consistent prefix. End to end (every crash image of a call, of a later call, of the recovery itself; histories with crashes anywhere) and at the levels below: entries, the stream (WAL = zero-prefilled stream, crash = any byte prefix of the entry in flight; every block size and checksum function), the I/O trace and the directory image of a call. crc_collision P = a frame and its own zero-completed prefix have the same checksum.
   Statements only; each theorem is closed by `exact <lemma>`; proofs live in the imported files. *)
From Coq Require Import Lia NArith List.
From MRL Require Import Bytes Params Names Frame Record Mem Spec Rolling Log Driver Hist SpecRefine StreamProofs TornProofs GhostLog RestartInv RestartFinal OpenReplay TornFile CrashTrace NzcVacuous CrashAtomic JInv JunkStream CrashRecovered CrashRecovered2 CrashRecovered3 CrashHistories KTail CrashAt CrashAt2 CrashAt3.

(* THE PROPERTY, end to end: from any state satisfying the global invariant, under a flush-per-operation policy, for EVERY crash image of a call (cut between any two file-system effects - file creation, set_len, flush, sync, unlink - or after any number of bytes of any write): open succeeds and the recovered abstract state is that of all completed calls, or that plus the in-flight call (the model never shows a partially applied truncate/delete) *)
Theorem C02_crash_atomic :
    forall P : params,
    7 < BS P ->
    BS P <= 65542 ->
    1 <= NB P ->
    (forall (t : byte) (p : bytes), crcf P t p < 2 ^ 32) ->
    L_GC P = false ->
    L_IO P = false ->
    L_SHORT P = false ->
    no_zero_collision P ->
    forall (st : state) (G : ghost) (a : bool) (o : op) (tick : bool) (st' : state) (out : outcome),
    Inv P st G ->
    w_pending (s_wr st) = [] ->
    s_pol st = PAlways a ->
    op_wf_strict (s_qs st) o ->
    RestartWrite.stream_bound P G (map snd (step_log P st o)) ->
    crash_bound P G (map snd (step_log P st o)) (abs_qs (s_qs st)) ->
    crash_bound P G (map snd (step_log P st o)) (abs_qs (s_qs st')) ->
    step P st o tick = (st', out) ->
    (forall e : ioerr, out <> OutIo e) ->
    exists evs : list event,
    c_ev (w_ctx (s_wr st')) = rev evs ++ c_ev (w_ctx (s_wr st)) /\
    (forall (cut k : N) (pol : policy) (hint : list bytes),
    let img := fold_left apply_event (crash_events evs cut k) (c_fs (w_ctx (s_wr st))) in
    exists st_r : state,
    open P img None pol hint = OpenOk st_r /\
    ((forall q : bytes, s_get (abs_qs (s_qs st_r)) q = s_get (abs_qs (s_qs st)) q) \/
    (forall q : bytes, s_get (abs_qs (s_qs st_r)) q = s_get (abs_qs (s_qs st')) q))).
Proof. exact C02_crash_atomic. Qed.
Print Assumptions C02_crash_atomic.

(* from a fresh directory: after any hist_ok history with restarts under Always policies, a crash during the next call recovers to the specification state before or after that call *)
Theorem C02_history :
    forall P : params,
    7 < BS P ->
    BS P <= 65542 ->
    1 <= NB P ->
    (forall (t : byte) (p : bytes), crcf P t p < 2 ^ 32) ->
    L_GC P = false ->
    L_IO P = false ->
    L_SHORT P = false ->
    no_zero_collision P ->
    forall (a : bool) (st0 : state) (h : list hop) (st : state) (outs : list outcome)
    (o : op) (tick : bool) (st' : state) (out : outcome),
    open P [] None (PAlways a) [] = OpenOk st0 ->
    hrun P st0 h = Some (st, outs) ->
    hist_ok P st0 h ->
    always_hist a h ->
    op_wf_strict (s_qs st) o ->
    crash_phys_bound P (s_wr st) (map snd (step_log P st o)) (abs_qs (s_qs st)) ->
    crash_phys_bound P (s_wr st) (map snd (step_log P st o)) (abs_qs (s_qs st')) ->
    step P st o tick = (st', out) ->
    exists (m_before : smap) (souts : list sout) (m_after : smap) (so : sout)
    (evs : list event),
    s_run [] (map sop_of (hcalls h)) = (m_before, souts) /\
    s_step m_before (sop_of o) = (m_after, so) /\
    out_logical out = Some so /\
    c_ev (w_ctx (s_wr st')) = rev evs ++ c_ev (w_ctx (s_wr st)) /\
    (forall (cut k : N) (pol : policy) (hint : list bytes),
    let img := fold_left apply_event (crash_events evs cut k) (c_fs (w_ctx (s_wr st))) in
    exists st_r : state,
    open P img None pol hint = OpenOk st_r /\
    ((forall q : bytes, s_get (abs_qs (s_qs st_r)) q = s_get m_before q) \/
    (forall q : bytes, s_get (abs_qs (s_qs st_r)) q = s_get m_after q))).
Proof. exact C02_history. Qed.
Print Assumptions C02_history.

(* entry level: replaying the kept entries plus any prefix of the entries a call logs gives the state before the call (empty prefix) or after it (non-empty prefix): GC position entries are abstract no-ops *)
Theorem C02_call_entries_atomic :
    forall P : params,
    7 < BS P ->
    BS P <= 65542 ->
    1 <= NB P ->
    (forall (t : byte) (p : bytes), crcf P t p < 2 ^ 32) ->
    L_GC P = false ->
    forall (st : state) (G : ghost) (o : op) (tick : bool) (st' : state) (out : outcome),
    Inv P st G ->
    op_wf_strict (s_qs st) o ->
    RestartWrite.stream_bound P G (map snd (step_log P st o)) ->
    step P st o tick = (st', out) ->
    (forall e : ioerr, out <> OutIo e) ->
    forall Xd Xr : list entry,
    map snd (step_log P st o) = Xd ++ Xr ->
    forall tags : list N,
    length tags = (length (gh_E G) + length Xd)%nat ->
    exists qs' : queues,
    replay_entries [] (combine tags (map snd (gh_E G) ++ Xd)) = Some qs' /\
    qs_inv qs' /\
    nodup_names qs' /\
    (Xd = [] -> forall q : bytes, s_get (abs_qs qs') q = s_get (abs_qs (s_qs st)) q) /\
    (Xd <> [] -> forall q : bytes, s_get (abs_qs qs') q = s_get (abs_qs (s_qs st')) q).
Proof. exact call_entries_atomic. Qed.
Print Assumptions C02_call_entries_atomic.

(* all earlier entries are delivered, then nothing, or one Corruption, or the in-flight entry itself - the latter only if the missing bytes are all zero (the disk equals the fully written entry), or another entry only under a CRC collision *)
Theorem C02_torn_read :
    forall P : params,
    7 < BS P ->
    BS P <= 65542 ->
    (forall (t : byte) (p : bytes), crcf P t p < 2 ^ 32) ->
    forall (es : list bytes) (t x e : bytes) (k : nat) (j : N) (fuel gofuel : nat) (S0 : bytes),
    encs_rel P 0 es t ->
    enc_rel P (lenN t) true x e k ->
    j < lenN e ->
    S0 = mem_stream P (t ++ takeN j e) ->
    (length es + 3 <= fuel)%nat ->
    lenN S0 <= 7 * N.of_nat gofuel ->
    exists tail : list mem_read,
    mem_read_all P fuel gofuel (rr_start P S0) = map MrEntry es ++ tail /\
    (tail = [MrEnd] \/
    tail = [MrCorrupt; MrEnd] \/
    tail = [MrEntry x; MrEnd] /\ all_zero (dropN j e) = true \/
    (exists y : bytes, tail = [MrEntry y; MrEnd] /\ y <> x /\ crc_collision P)).
Proof. exact torn_read. Qed.
Print Assumptions C02_torn_read.

(* without such a collision: never anything that was not written *)
Theorem C02_torn_read_nocoll :
    forall P : params,
    7 < BS P ->
    BS P <= 65542 ->
    (forall (t : byte) (p : bytes), crcf P t p < 2 ^ 32) ->
    forall (es : list bytes) (t x e : bytes) (k : nat) (j : N) (fuel gofuel : nat) (S0 : bytes),
    no_zero_collision P ->
    encs_rel P 0 es t ->
    enc_rel P (lenN t) true x e k ->
    j < lenN e ->
    S0 = mem_stream P (t ++ takeN j e) ->
    (length es + 3 <= fuel)%nat ->
    lenN S0 <= 7 * N.of_nat gofuel ->
    exists tail : list mem_read,
    mem_read_all P fuel gofuel (rr_start P S0) = map MrEntry es ++ tail /\
    (tail = [MrEnd] \/
    tail = [MrCorrupt; MrEnd] \/ tail = [MrEntry x; MrEnd] /\ all_zero (dropN j e) = true).
Proof. exact torn_read_nocoll. Qed.
Print Assumptions C02_torn_read_nocoll.

(* stated from the writer, with the fuel the model uses *)
Theorem C02_torn_read_written :
    forall P : params,
    7 < BS P ->
    BS P <= 65542 ->
    (forall (t : byte) (p : bytes), crcf P t p < 2 ^ 32) ->
    forall (es : list bytes) (x : bytes) (j : N) (w w' : vecw) (S : bytes) (fuel : nat),
    w = fst (mem_write_all P {| vw_cursor := 0; vw_buf := [] |} es) ->
    w' = fst (write_record P vecw vw_write (vw_rem P) w x) ->
    lenN (vw_buf w) + j < lenN (vw_buf w') ->
    S = mem_stream P (takeN (lenN (vw_buf w) + j) (vw_buf w')) ->
    fuel = N.to_nat (lenN S / HEADER_LEN + lenN S / BS P + 4) ->
    exists tail : list mem_read,
    mem_read_all P fuel fuel (rr_start P S) = map MrEntry es ++ tail /\
    (tail = [MrEnd] \/
    tail = [MrCorrupt; MrEnd] \/
    tail = [MrEntry x; MrEnd] /\ all_zero (dropN (lenN (vw_buf w) + j) (vw_buf w')) = true \/
    (exists y : bytes, tail = [MrEntry y; MrEnd] /\ y <> x /\ crc_collision P)).
Proof. exact torn_read_written. Qed.
Print Assumptions C02_torn_read_written.

(* the reader stops at a position at or after everything written before the torn entry, from which every byte is zero, in the block where the torn data ends or at the start of the next *)
Theorem C02_torn_resume :
    forall P : params,
    7 < BS P ->
    BS P <= 65542 ->
    (forall (t : byte) (p : bytes), crcf P t p < 2 ^ 32) ->
    forall (es : list bytes) (t x e : bytes) (k : nat) (j : N) (fuel gofuel : nat) (S0 : bytes),
    encs_rel P 0 es t ->
    enc_rel P (lenN t) true x e k ->
    j < lenN e ->
    S0 = mem_stream P (t ++ takeN j e) ->
    (length es + 3 <= fuel)%nat ->
    lenN S0 <= 7 * N.of_nat gofuel ->
    exists r : N,
    at_pos P S0 (rr_fr (snd (mem_read_fin P fuel gofuel (rr_start P S0)))) r /\
    lenN t <= r /\
    all_zero (dropN r S0) = true /\
    lenN (t ++ takeN j e) / BS P * BS P <= r /\
    r <= (lenN (t ++ takeN j e) + BS P - 1) / BS P * BS P /\ r + BS P <= lenN S0.
Proof. exact torn_resume. Qed.
Print Assumptions C02_torn_resume.

(* the recovered log is usable: entries written from that position are read back after the earlier ones (the torn frame, if visible, is skipped as one Corruption) *)
Theorem C02_torn_then_append :
    forall P : params,
    7 < BS P ->
    BS P <= 65542 ->
    (forall (t : byte) (p : bytes), crcf P t p < 2 ^ 32) ->
    forall (es : list bytes) (t x e : bytes) (k : nat) (j : N) (fuel gofuel : nat) (S0 : bytes),
    encs_rel P 0 es t ->
    enc_rel P (lenN t) true x e k ->
    j < lenN e ->
    S0 = mem_stream P (t ++ takeN j e) ->
    (length es + 3 <= fuel)%nat ->
    lenN S0 <= 7 * N.of_nat gofuel ->
    forall r : N,
    at_pos P S0 (rr_fr (snd (mem_read_fin P fuel gofuel (rr_start P S0)))) r ->
    forall (es2 : list bytes) (t2 S' : bytes) (fuel' gofuel' : nat),
    encs_rel P r es2 t2 ->
    S' = mem_stream P (takeN r S0 ++ t2) ->
    (length es + length es2 + 3 <= fuel')%nat ->
    lenN S' <= 7 * N.of_nat gofuel' ->
    exists corr : list mem_read,
    mem_read_all P fuel' gofuel' (rr_start P S') = map MrEntry es ++ corr ++ map MrEntry es2 ++ [MrEnd] /\
    corr_ok P x e j corr.
Proof. exact torn_then_append. Qed.
Print Assumptions C02_torn_then_append.

(* one call only appends entries to the log (the in-flight call is the last entry group) *)
Theorem C02_one_call_one_logged_suffix :
    forall (P : params) (st : state) (L : glog) (o : op) (tick : bool),
    exists es : list (N * entry), snd (fst (gstep P (st, L) o tick)) = L ++ es.
Proof. exact gstep_log_extends. Qed.
Print Assumptions C02_one_call_one_logged_suffix.

(* the I/O trace of one call under a flush-per-operation policy: writes of exactly the bytes of the logged entries at the cursor, roll-over groups only at file boundaries, then flush/sync, then unlinks of a prefix of the files, then the policy's persist *)
Theorem C02_call_trace :
    forall P : params,
    7 < BS P ->
    BS P <= 65542 ->
    1 <= NB P ->
    (forall (t : byte) (p : bytes), crcf P t p < 2 ^ 32) ->
    L_GC P = false ->
    forall (st : state) (G : ghost) (a : bool) (o : op) (tick : bool) (st' : state) (out : outcome),
    Inv P st G ->
    w_pending (s_wr st) = [] ->
    s_pol st = PAlways a ->
    RestartWrite.stream_bound P G (map snd (step_log P st o)) ->
    step P st o tick = (st', out) ->
    (forall e : ioerr, out <> OutIo e) ->
    let w := s_wr st in
    exists evs : list event,
    c_ev (w_ctx (s_wr st')) = rev evs ++ c_ev (w_ctx w) /\
    c_fs (w_ctx (s_wr st')) = fold_left apply_event evs (c_fs (w_ctx w)) /\
    call_trace P (FileStream.wlo w) (w_file w) (w_off w) (call_bytes P st G o)
    (w_file (s_wr st')) (w_off (s_wr st')) evs /\ w_pending (s_wr st') = [].
Proof. exact step_call_trace. Qed.
Print Assumptions C02_call_trace.

(* EVERY crash image of a call (cut before any event, or after any number of bytes of a write): a contiguous file set, only the last created file possibly empty, and the stream = the old stream + a byte prefix of what the call writes + zeros; files are unlinked only once everything is written *)
Theorem C02_crash_image_shape :
    forall P : params,
    7 < BS P ->
    BS P <= 65542 ->
    1 <= NB P ->
    (forall (t : byte) (p : bytes), crcf P t p < 2 ^ 32) ->
    L_GC P = false ->
    forall (st : state) (G : ghost) (a : bool) (o : op) (tick : bool) (st' : state) (out : outcome),
    Inv P st G ->
    w_pending (s_wr st) = [] ->
    s_pol st = PAlways a ->
    op_wf_strict (s_qs st) o ->
    RestartWrite.stream_bound P G (map snd (step_log P st o)) ->
    step P st o tick = (st', out) ->
    (forall e : ioerr, out <> OutIo e) ->
    let w := s_wr st in
    let fs0 := c_fs (w_ctx w) in
    let lo := FileStream.wlo w in
    let T := gh_T P G in
    let c0 := call_cursor P st G in
    let NEW := call_bytes P st G o in
    exists evs : list event,
    c_ev (w_ctx (s_wr st')) = rev evs ++ c_ev (w_ctx w) /\
    c_fs (w_ctx (s_wr st')) = fold_left apply_event evs fs0 /\
    call_trace P lo (w_file w) (w_off w) NEW (w_file (s_wr st')) (w_off (s_wr st')) evs /\
    (forall cut k : N,
    let pe := crash_events evs cut k in
    let img := fold_left apply_event pe fs0 in
    let j := lenN (ev_data pe) in
    exists (nu : nat) (hi : N) (short : bool) (z : N),
    let lo' := lo + N.of_nat nu in
    lo' <= hi /\
    w_file w <= hi /\
    hi <= w_file (s_wr st') /\
    hi <= U64_MAX /\
    GcProofs.nodup_keys img /\
    GcProofs.dir_of img (nfiles lo' hi) /\
    list_wal_numbers img = nfiles lo' hi /\
    (forall n : N,
    lo' <= n <= hi ->
    exists b : bytes,
    fs_get img (filename n) = Some (FFile b) /\
    lenN b = (if short && (n =? hi) then 0 else FILE_BYTES P)) /\
    (short = true -> w_file w < hi /\ nu = 0%nat) /\
    ev_data pe = takeN j NEW /\
    j <= lenN NEW /\
    FileStream.stream_of (zext P img hi) (nfiles lo' hi) =
    dropN ((lo' - gh_base G) * FILE_BYTES P) (T ++ zerosN (c0 - lenN T) ++ takeN j NEW ++ zerosN z) /\
    c0 + j + z = (hi + 1 - gh_base G) * FILE_BYTES P /\ (nu <> 0%nat -> j = lenN NEW)).
Proof. exact crash_image_shape. Qed.
Print Assumptions C02_crash_image_shape.

(* open on such a directory (short last file included): replays the kept entries and a prefix of the entries in flight - those completely written, plus the next one only if its missing bytes are zero - and nothing else; the writer resumes where only zeros follow (or at most 6 bytes of a torn header that its next header overwrites) *)
Theorem C02_open_torn :
    forall P : params,
    7 < BS P ->
    BS P <= 65542 ->
    1 <= NB P ->
    (forall (t : byte) (p : bytes), crcf P t p < 2 ^ 32) ->
    no_zero_collision P ->
    forall (fs : fsT) (lo : N) (n : nat),
    list_wal_numbers fs = GcProofs.iota lo (S n) ->
    (forall f : N,
    In f (GcProofs.iota lo (S n)) ->
    exists b : bytes,
    fs_get fs (filename f) = Some (FFile b) /\
    lenN b <= FILE_BYTES P /\ (f <> lo + N.of_nat n -> lenN b = FILE_BYTES P)) ->
    forall base : N,
    base <= lo ->
    forall (E_all X : list entry) (T : bytes) (c0 j z : N) (pol : policy) (hint : list bytes),
    L_IO P = false ->
    L_SHORT P = false ->
    Forall RecordProofs.wf_entry E_all ->
    Forall RecordProofs.wf_entry X ->
    encs_rel P 0 (map entry_ser E_all) T ->
    lenN T <= c0 ->
    c0 <= ResyncProofs.first_frame_pos P (lenN T) ->
    (lo - base) * FILE_BYTES P <= c0 ->
    j <= lenN (ResyncProofs.encs_of P c0 (map entry_ser X)) ->
    let S_all :=
    T ++ zerosN (c0 - lenN T) ++ takeN j (ResyncProofs.encs_of P c0 (map entry_ser X)) ++ zerosN z in
    FileStream.stream_of (fs_ext P fs lo n) (GcProofs.iota lo (S n)) =
    dropN ((lo - base) * FILE_BYTES P) S_all ->
    lenN S_all = (lo + N.of_nat n - base + 1) * FILE_BYTES P ->
    exists (w0 : rwriter) (tags : list N) (E_pre E_suf X1 Xr Xd : list entry)
    (pf : N),
    E_all = E_pre ++ E_suf /\
    map entry_ser E_pre =
    ResyncProofs.skipped_before P ((lo - base) * FILE_BYTES P) 0 (map entry_ser E_all) /\
    map entry_ser E_suf =
    ResyncProofs.delivered_from P ((lo - base) * FILE_BYTES P) 0 (map entry_ser E_all) /\
    X = X1 ++ Xr /\
    lenN (ResyncProofs.encs_of P c0 (map entry_ser X1)) <= j /\
    match Xr with
    | [] => j = lenN (ResyncProofs.encs_of P c0 (map entry_ser X))
    | x :: _ => j < lenN (ResyncProofs.encs_of P c0 (map entry_ser (X1 ++ [x])))
    end /\
    (Xd = X1 \/
    (exists (x : entry) (X2 : list entry),
    Xr = x :: X2 /\
    Xd = X1 ++ [x] /\
    all_zero (dropN j (ResyncProofs.encs_of P c0 (map entry_ser (X1 ++ [x])))) = true)) /\
    fspec P lo n base (fs_ext P fs lo n) w0 tags
    (ResyncProofs.starts P
    (ResyncProofs.cursor_after P 0
    (ResyncProofs.skipped_before P ((lo - base) * FILE_BYTES P) 0 (map entry_ser E_all)))
    (map entry_ser (E_suf ++ Xd))) pf /\
    lenN T <= pf /\
    (Xd <> [] -> c0 + lenN (ResyncProofs.encs_of P c0 (map entry_ser Xd)) <= pf) /\
    pf <= lenN S_all /\
    (forall m : N, c0 + j <= m * BS P -> (lo - base) * FILE_BYTES P <= m * BS P -> pf <= m * BS P) /\
    resume_ok P S_all pf /\
    match replay_entries [] (combine tags (E_suf ++ Xd)) with
    | Some qs => open P fs None pol hint = open_finish P w0 qs pol hint
    | None => exists c' : ioctx, open P fs None pol hint = OpenCorruption c'
    end.
Proof. exact open_torn. Qed.
Print Assumptions C02_open_torn.

(* non-vacuity of the standing hypotheses: for every block size and blocks-per-file there are parameters with a checksum below 2^32 satisfying no_zero_collision (which speaks of frame payloads only) *)
Theorem C02_hypotheses_satisfiable :
    forall BSv NBv : N,
    7 < BSv ->
    BSv <= 65542 ->
    exists P : params,
    BS P = BSv /\
    NB P = NBv /\
    7 < BS P /\
    BS P <= 65542 /\
    (forall (t : byte) (p : bytes), crcf P t p < 2 ^ 32) /\
    no_zero_collision P /\ L_GC P = false /\ L_IO P = false /\ L_SHORT P = false.
Proof. exact torn_hyps_sat. Qed.
Print Assumptions C02_hypotheses_satisfiable.

(* why the bound is needed: the same condition over payloads of ANY length contradicts a 32-bit checksum (pigeonhole) *)
Theorem C02_unbounded_hypothesis_inconsistent :
    forall P : params,
    (forall (t : byte) (p : bytes), crcf P t p < 2 ^ 32) ->
    (forall (ty : byte) (fp : list byte) (n : N),
    n < lenN fp ->
    crcf P ty (takeN n fp ++ zerosN (lenN fp - n)) = crcf P ty fp ->
    takeN n fp ++ zerosN (lenN fp - n) = fp) -> False.
Proof. exact nzc_inconsistent. Qed.
Print Assumptions C02_unbounded_hypothesis_inconsistent.

(* "THE RECOVERED LOG IS FULLY USABLE", end to end: for every crash image of a call (from the global invariant, Always policy) open succeeds, the state is the one before or after the call, EVERY continuation history then behaves exactly as the specification from that state, and a clean restart after it restores the state - although the files now hold the junk a torn write left behind (junk-tolerant invariant InvJ). Restriction (explicit premises): the interrupted call neither rolls over nor ends in the last block of its file *)
Theorem C02_crash_recovered_usable :
    forall P : params,
    7 < BS P ->
    BS P <= 65542 ->
    1 <= NB P ->
    (forall (t : byte) (p : bytes), crcf P t p < 2 ^ 32) ->
    L_GC P = false ->
    L_IO P = false ->
    L_SHORT P = false ->
    no_zero_collision P ->
    forall (st : state) (G : ghost) (a : bool) (o : op) (tick : bool) (st' : state) (out : outcome),
    crash_setting P st G a o tick st' out ->
    exists evs : list event,
    c_ev (w_ctx (s_wr st')) = rev evs ++ c_ev (w_ctx (s_wr st)) /\
    (forall (cut k : N) (pol : policy) (hint : list bytes),
    let img := fold_left apply_event (crash_events evs cut k) (c_fs (w_ctx (s_wr st))) in
    exists st_r : state,
    open P img None pol hint = OpenOk st_r /\
    ((forall q : bytes, s_get (abs_qs (s_qs st_r)) q = s_get (abs_qs (s_qs st)) q) \/
    (forall q : bytes, s_get (abs_qs (s_qs st_r)) q = s_get (abs_qs (s_qs st')) q)) /\
    (forall h2 : list hop,
    hist_ok P st_r h2 ->
    exists (st2 : state) (outs2 : list outcome) (m2 : smap) (souts2 : list sout),
    hrun P st_r h2 = Some (st2, outs2) /\
    Forall no_io outs2 /\
    s_run (abs_qs (s_qs st_r)) (map sop_of (hcalls h2)) = (m2, souts2) /\
    (forall q : bytes, s_get m2 q = s_get (abs_qs (s_qs st2)) q) /\
    map out_logical outs2 = map Some souts2) /\
    (forall (h2 : list hop) (st2 : state) (outs2 : list outcome),
    hrun P st_r h2 = Some (st2, outs2) ->
    hist_ok P st_r h2 ->
    restart_bound P st2 ->
    forall (pol2 : policy) (hint2 : list bytes),
    exists st3 : state,
    restart P st2 pol2 hint2 = OpenOk st3 /\
    (forall q : bytes, s_get (abs_qs (s_qs st3)) q = s_get (abs_qs (s_qs st2)) q))).
Proof. exact crash_recovered_usable. Qed.
Print Assumptions C02_crash_recovered_usable.

(* the restart identity alone, for any state recovered from such an image *)
Theorem C02_crash_recovered_restart :
    forall P : params,
    7 < BS P ->
    BS P <= 65542 ->
    1 <= NB P ->
    (forall (t : byte) (p : bytes), crcf P t p < 2 ^ 32) ->
    L_GC P = false ->
    L_IO P = false ->
    L_SHORT P = false ->
    no_zero_collision P ->
    forall (st : state) (G : ghost) (a : bool) (o : op) (tick : bool) (st' : state) (out : outcome),
    crash_setting P st G a o tick st' out ->
    exists evs : list event,
    c_ev (w_ctx (s_wr st')) = rev evs ++ c_ev (w_ctx (s_wr st)) /\
    (forall (cut k : N) (pol : policy) (hint : list bytes) (st_r : state),
    open P (fold_left apply_event (crash_events evs cut k) (c_fs (w_ctx (s_wr st)))) None pol hint =
    OpenOk st_r ->
    forall (h2 : list hop) (st2 : state) (outs2 : list outcome),
    hrun P st_r h2 = Some (st2, outs2) ->
    hist_ok P st_r h2 ->
    restart_bound P st2 ->
    forall (pol2 : policy) (hint2 : list bytes),
    exists st3 : state,
    restart P st2 pol2 hint2 = OpenOk st3 /\
    (forall q : bytes, s_get (abs_qs (s_qs st3)) q = s_get (abs_qs (s_qs st2)) q)).
Proof. exact crash_recovered_restart. Qed.
Print Assumptions C02_crash_recovered_restart.

(* a SECOND crash, during any later call of any continuation: recovers to the state before or after that call, and the result is usable again (jstate is closed under calls, restarts and crash recoveries) *)
Theorem C02_crash_recovered_crash :
    forall P : params,
    7 < BS P ->
    BS P <= 65542 ->
    1 <= NB P ->
    (forall (t : byte) (p : bytes), crcf P t p < 2 ^ 32) ->
    L_GC P = false ->
    L_IO P = false ->
    L_SHORT P = false ->
    no_zero_collision P ->
    forall (st : state) (G : ghost) (a : bool) (o : op) (tick : bool) (st' : state) (out : outcome),
    crash_setting P st G a o tick st' out ->
    exists evs : list event,
    c_ev (w_ctx (s_wr st')) = rev evs ++ c_ev (w_ctx (s_wr st)) /\
    (forall (cut k : N) (a2 : bool) (hint : list bytes) (st_r : state),
    open P (fold_left apply_event (crash_events evs cut k) (c_fs (w_ctx (s_wr st)))) None
    (PAlways a2) hint = OpenOk st_r ->
    forall (h2 : list hop) (st2 : state) (outs2 : list outcome),
    hist_ok P st_r h2 ->
    always_hist a2 h2 ->
    hrun P st_r h2 = Some (st2, outs2) ->
    forall (o2 : op) (tick2 : bool) (st2' : state) (out2 : outcome),
    op_wf_strict (s_qs st2) o2 ->
    crash_phys_bound P (s_wr st2) (map snd (step_log P st2 o2)) (abs_qs (s_qs st2)) ->
    crash_phys_bound P (s_wr st2) (map snd (step_log P st2 o2)) (abs_qs (s_qs st2')) ->
    step P st2 o2 tick2 = (st2', out2) ->
    w_file (s_wr st2') = w_file (s_wr st2) ->
    w_off (s_wr st2') + BS P <= FILE_BYTES P ->
    exists evs2 : list event,
    c_ev (w_ctx (s_wr st2')) = rev evs2 ++ c_ev (w_ctx (s_wr st2)) /\
    (forall (cut2 k2 : N) (pol3 : policy) (hint3 : list bytes),
    exists st_r2 : state,
    open P (fold_left apply_event (crash_events evs2 cut2 k2) (c_fs (w_ctx (s_wr st2)))) None pol3
    hint3 = OpenOk st_r2 /\
    ((forall q : bytes, s_get (abs_qs (s_qs st_r2)) q = s_get (abs_qs (s_qs st2)) q) \/
    (forall q : bytes, s_get (abs_qs (s_qs st_r2)) q = s_get (abs_qs (s_qs st2')) q)) /\
    jstate P st_r2)).
Proof. exact crash_recovered_crash. Qed.
Print Assumptions C02_crash_recovered_crash.

(* a second crash DURING THE RECOVERY'S OWN EFFECTS (set_len of the last file, position entries of the recovery-time GC, unlinks, syncs): reopening any crash image of the recovery returns the same abstract state, usable again *)
Theorem C02_crash_recovered_self :
    forall P : params,
    7 < BS P ->
    BS P <= 65542 ->
    1 <= NB P ->
    (forall (t : byte) (p : bytes), crcf P t p < 2 ^ 32) ->
    L_GC P = false ->
    L_IO P = false ->
    L_SHORT P = false ->
    no_zero_collision P ->
    forall (st : state) (G : ghost) (a : bool) (o : op) (tick : bool) (st' : state) (out : outcome),
    crash_setting P st G a o tick st' out ->
    crash_phys_bound P (s_wr st) (map snd (step_log P st o)) (abs_qs (s_qs st)) ->
    crash_phys_bound P (s_wr st) (map snd (step_log P st o)) (abs_qs (s_qs st')) ->
    exists evs : list event,
    c_ev (w_ctx (s_wr st')) = rev evs ++ c_ev (w_ctx (s_wr st)) /\
    (forall (cut k : N) (pol : policy) (hint : list bytes) (st_r : state),
    let img := fold_left apply_event (crash_events evs cut k) (c_fs (w_ctx (s_wr st))) in
    open P img None pol hint = OpenOk st_r ->
    w_file (s_wr st_r) = w_file (s_wr st) ->
    w_off (s_wr st_r) + BS P <= FILE_BYTES P ->
    JRecoverSelf.rec_bound P st_r ->
    forall (cut2 k2 : N) (pol3 : policy) (hint3 : list bytes),
    exists st_r2 : state,
    open P (fold_left apply_event (crash_events (rev (c_ev (w_ctx (s_wr st_r)))) cut2 k2) img) None
    pol3 hint3 = OpenOk st_r2 /\
    (forall q : bytes, s_get (abs_qs (s_qs st_r2)) q = s_get (abs_qs (s_qs st_r)) q) /\
    jstate P st_r2).
Proof. exact crash_recovered_self. Qed.
Print Assumptions C02_crash_recovered_self.

(* capstone: histories made of calls, clean restarts and crashes (each followed by its recovery) anywhere: the run succeeds and the final state is the specification state in which every crashed call was applied or not *)
Theorem C02_crash_histories :
    forall P : params,
    7 < BS P ->
    BS P <= 65542 ->
    1 <= NB P ->
    (forall (t : byte) (p : bytes), crcf P t p < 2 ^ 32) ->
    L_GC P = false ->
    L_IO P = false ->
    L_SHORT P = false ->
    no_zero_collision P ->
    forall (h : list chop) (st : state),
    jstate P st ->
    chist_ok P st h ->
    exists (st' : state) (m' : smap),
    crun P st h = Some st' /\
    jstate P st' /\
    chist_spec (abs_qs (s_qs st)) h m' /\ (forall q : bytes, s_get m' q = s_get (abs_qs (s_qs st')) q).
Proof. exact crash_histories. Qed.
Print Assumptions C02_crash_histories.

(* the same from a fresh directory *)
Theorem C02_crash_histories_fresh :
    forall P : params,
    7 < BS P ->
    BS P <= 65542 ->
    1 <= NB P ->
    (forall (t : byte) (p : bytes), crcf P t p < 2 ^ 32) ->
    L_GC P = false ->
    L_IO P = false ->
    L_SHORT P = false ->
    no_zero_collision P ->
    forall (pol0 : policy) (st0 : state) (h : list chop),
    open P [] None pol0 [] = OpenOk st0 ->
    chist_ok P st0 h ->
    exists (st' : state) (m' : smap),
    crun P st0 h = Some st' /\
    jstate P st' /\ chist_spec [] h m' /\ (forall q : bytes, s_get m' q = s_get (abs_qs (s_qs st')) q).
Proof. exact crash_histories_fresh. Qed.
Print Assumptions C02_crash_histories_fresh.

(* usable states: any well-formed history runs without I/O error and refines the specification *)
Theorem C02_usable_closed_under_calls :
    forall P : params,
    7 < BS P ->
    BS P <= 65542 ->
    1 <= NB P ->
    (forall (t : byte) (p : bytes), crcf P t p < 2 ^ 32) ->
    L_GC P = false ->
    L_IO P = false ->
    L_SHORT P = false ->
    forall (st : state) (h : list hop),
    jstate P st ->
    hist_ok P st h ->
    exists (st' : state) (outs : list outcome) (m' : smap) (souts : list sout),
    hrun P st h = Some (st', outs) /\
    jstate P st' /\
    Forall no_io outs /\
    s_run (abs_qs (s_qs st)) (map sop_of (hcalls h)) = (m', souts) /\
    (forall q : bytes, s_get m' q = s_get (abs_qs (s_qs st')) q) /\
    map out_logical outs = map Some souts.
Proof. exact jstate_run. Qed.
Print Assumptions C02_usable_closed_under_calls.

(* usable states: a clean restart restores the abstract state and gives a usable state *)
Theorem C02_usable_restart_identity :
    forall P : params,
    7 < BS P ->
    BS P <= 65542 ->
    1 <= NB P ->
    (forall (t : byte) (p : bytes), crcf P t p < 2 ^ 32) ->
    L_GC P = false ->
    L_IO P = false ->
    L_SHORT P = false ->
    forall st : state,
    jstate P st ->
    restart_bound P st ->
    forall (pol : policy) (hint : list bytes),
    exists st2 : state,
    restart P st pol hint = OpenOk st2 /\
    jstate P st2 /\
    s_pol st2 = pol /\
    w_pending (s_wr st2) = [] /\
    (forall q : bytes, s_get (abs_qs (s_qs st2)) q = s_get (abs_qs (s_qs st)) q).
Proof. exact jstate_restart_identity. Qed.
Print Assumptions C02_usable_restart_identity.

(* the restrictions on the interrupted call lifted: ANY call (roll-overs, last blocks, multi-file entries) from a usable state, and every crash point of it except one family - a strictly partial cut whose torn data end strictly inside the LAST block of the top file of the image: open succeeds, state before/after, usable again (crash points between completing a file and creating the next, at and after the roll-over's create/set_len with the junk spanning the file boundary, and in the flush/sync/unlink tail are all covered) *)
Theorem C02_crash_at_any_geometry :
    forall P : params,
    7 < BS P ->
    BS P <= 65542 ->
    1 <= NB P ->
    (forall (t : byte) (p : bytes), crcf P t p < 2 ^ 32) ->
    L_GC P = false ->
    L_IO P = false ->
    L_SHORT P = false ->
    no_zero_collision P ->
    forall (st : state) (a : bool) (o : op) (tick : bool) (st' : state) (out : outcome),
    jstate P st ->
    crash_call_ok0 P st a o tick st' out ->
    (forall e : ioerr, out <> OutIo e) /\
    (exists evs : list event,
    c_ev (w_ctx (s_wr st')) = rev evs ++ c_ev (w_ctx (s_wr st)) /\
    (forall (cut k : N) (pol : policy) (hint : list bytes),
    crash_point_ok3 P st evs (crash_events evs cut k) ->
    let img := fold_left apply_event (crash_events evs cut k) (c_fs (w_ctx (s_wr st))) in
    exists st_r : state,
    open P img None pol hint = OpenOk st_r /\
    jstate P st_r /\
    s_pol st_r = pol /\
    w_pending (s_wr st_r) = [] /\
    ((forall q : bytes, s_get (abs_qs (s_qs st_r)) q = s_get (abs_qs (s_qs st)) q) \/
    (forall q : bytes, s_get (abs_qs (s_qs st_r)) q = s_get (abs_qs (s_qs st')) q)))).
Proof. exact jstate_crash_at3. Qed.
Print Assumptions C02_crash_at_any_geometry.

(* the same for a second crash during the recovery's own effects *)
Theorem C02_crash_self_at_any_geometry :
    forall P : params,
    7 < BS P ->
    BS P <= 65542 ->
    1 <= NB P ->
    (forall (t : byte) (p : bytes), crcf P t p < 2 ^ 32) ->
    L_GC P = false ->
    L_IO P = false ->
    L_SHORT P = false ->
    no_zero_collision P ->
    forall (st : state) (a : bool) (o : op) (tick : bool) (st' : state) (out : outcome),
    jstate P st ->
    crash_call_ok0 P st a o tick st' out ->
    exists evs : list event,
    c_ev (w_ctx (s_wr st')) = rev evs ++ c_ev (w_ctx (s_wr st)) /\
    (forall (cut k : N) (pol : policy) (hint : list bytes) (st_r : state),
    crash_point_ok3 P st evs (crash_events evs cut k) ->
    let img := fold_left apply_event (crash_events evs cut k) (c_fs (w_ctx (s_wr st))) in
    open P img None pol hint = OpenOk st_r ->
    JRecover5.is_top img (w_file (s_wr st_r)) ->
    w_off (s_wr st_r) + BS P <= FILE_BYTES P ->
    JRecoverSelf.rec_bound P st_r ->
    forall (cut2 k2 : N) (pol3 : policy) (hint3 : list bytes),
    exists st_r2 : state,
    open P (fold_left apply_event (crash_events (rev (c_ev (w_ctx (s_wr st_r)))) cut2 k2) img) None
    pol3 hint3 = OpenOk st_r2 /\
    (forall q : bytes, s_get (abs_qs (s_qs st_r2)) q = s_get (abs_qs (s_qs st_r)) q) /\
    jstate P st_r2 /\ s_pol st_r2 = pol3 /\ w_pending (s_wr st_r2) = []).
Proof. exact jstate_crash_self_at3. Qed.
Print Assumptions C02_crash_self_at_any_geometry.

(* and for histories with crashes anywhere, each crash point subject to that one exclusion *)
Theorem C02_crash_histories_any_geometry :
    forall P : params,
    7 < BS P ->
    BS P <= 65542 ->
    1 <= NB P ->
    (forall (t : byte) (p : bytes), crcf P t p < 2 ^ 32) ->
    L_GC P = false ->
    L_IO P = false ->
    L_SHORT P = false ->
    no_zero_collision P ->
    forall (h : list chop) (st : state),
    jstate P st ->
    chist_ok_at3 P st h ->
    exists (st' : state) (m' : smap),
    crun P st h = Some st' /\
    jstate P st' /\
    chist_spec (abs_qs (s_qs st)) h m' /\ (forall q : bytes, s_get m' q = s_get (abs_qs (s_qs st')) q).
Proof. exact crash_histories_at3. Qed.
Print Assumptions C02_crash_histories_any_geometry.

(* tail lemma: if the missing bytes of an entry are all zero, fewer than a block payload of them are missing *)
Theorem C02_zero_tail_short :
    forall P : params,
    7 < BS P ->
    BS P <= 65542 ->
    (forall (t : byte) (p : bytes), crcf P t p < 2 ^ 32) ->
    forall (a : N) (f : bool) (p e : bytes) (k : nat),
    enc_rel P a f p e k ->
    forall j : N, j <= lenN e -> all_zero (dropN j e) = true -> lenN e <= j + (BS P - 7).
Proof. exact zero_tail_short. Qed.
Print Assumptions C02_zero_tail_short.

