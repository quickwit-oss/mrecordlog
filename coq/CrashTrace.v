(* CrashTrace.v — the I/O event trace of one API call and its crash images (property C02).
   Setting: Inv P st G, nothing buffered, policy PAlways a, one call step P st o tick = (st', out)
   without I/O error; evs = the events the call added (chronological).
   wtrace / call_trace / step_call_trace: evs = the data writes (every EvWrite exactly at the
       current end of the written stream, their data concatenating to
       NEW = call_bytes st G o = encs_of cursor (entries of step_log), a roll-over group
       [EvFlush; EvSyncData; EvSyncDir; EvCreate next; EvSetLen next FILE] exactly at each file
       boundary), then a flush group, then - if the GC ran - the unlinks of the m oldest files,
       oldest first, and the final flush group of the policy.  Also: the directory after the call
       is the replay of evs (fold_left apply_event).
   crash_image_shape: for every (cut, k) the image fold_left apply_event (crash_events evs
       cut k) fs0 holds exactly the files lo+nu .. hi (nodup_keys, dir_of), all of FILE bytes
       except - if short - the last one, just created and still empty; after zero-extending that
       last file (zext, what ensure_last_full does) the stream of these files is
         dropN ((lo+nu-base)*FILE) (T ++ zerosN (c0 - |T|) ++ takeN j NEW ++ zerosN z)
       with j = the number of data bytes of the crash prefix (crash_data_mono: monotone in
       (cut, k)), and nu <> 0 -> j = |NEW|.
   The unlinked files are a prefix lo .. lo+m-1 of the files
   present when the GC runs, with lo + m <= the current file at the end of the call; they are
   NOT always files of st: an entry larger than a file rolls over several times and the GC of
   the same call may unlink files the call itself created (unlink_created_example at the end
   of this file: BS = 16, NB = 2, a 40-byte queue name).  Hence lo + nu <= hi in crash_image_shape, not
   lo + nu <= w_file (s_wr st). *)
From Coq Require Import Lia ZArith ZifyN ZifyNat ZifyBool List Sorted.
From MRL Require Import Bytes BytesProofs Params Names NamesProofs Frame Record Mem Spec Rolling Log
  Driver SpecRefine RecordProofs StreamProofs PolicyProofs GcProofs GhostLog ReplaySpec
  HandleProofs FileStream ResyncProofs PersistProofs WriterProofs RestartInv RestartWrite RestartGc
  RestartStep OpenReplay.

(* pe is what a crash leaves of evs: a prefix, the last event possibly a torn write *)
Inductive cpre : list event -> list event -> Prop :=
| cp_nil evs : cpre [] evs
| cp_part n off d k evs : cpre [EvWrite n off (takeN k d)] (EvWrite n off d :: evs)
| cp_cons e pe evs : cpre pe evs -> cpre (e :: pe) (e :: evs).

Lemma crash_events_cons0 e r k :
  crash_events (e :: r) 0 k =
  if k =? 0 then [] else match e with EvWrite n off d => [EvWrite n off (takeN k d)] | _ => [] end.
Proof. unfold crash_events. cbn [takeN dropN]. change (0 =? 0) with true. cbn [app]. reflexivity. Qed.

Lemma crash_events_consS e r cut k :
  cut <> 0 -> crash_events (e :: r) cut k = e :: crash_events r (N.pred cut) k.
Proof.
  intros H. unfold crash_events. cbn [takeN dropN].
  destruct (N.eqb_spec cut 0) as [E|_]; [contradiction|]. reflexivity.
Qed.

Lemma crash_events_cpre evs : forall cut k, cpre (crash_events evs cut k) evs.
Proof.
  induction evs as [|e r IH]; intros cut k.
  - unfold crash_events. cbn [takeN dropN]. destruct (k =? 0); constructor.
  - destruct (N.eq_dec cut 0) as [->|Hc].
    + rewrite crash_events_cons0. destruct (k =? 0); [constructor|].
      destruct e; constructor.
    + rewrite crash_events_consS by exact Hc. constructor. apply IH.
Qed.

Lemma cpre_refl evs : cpre evs evs.
Proof. induction evs; constructor; assumption. Qed.

Lemma cpre_app_inv a : forall pe b,
  cpre pe (a ++ b) -> cpre pe a \/ exists pt, pe = a ++ pt /\ cpre pt b.
Proof.
  induction a as [|e a IH]; intros pe b H; cbn [app] in H.
  - right. exists pe. split; [reflexivity|exact H].
  - inversion H as [evs|n off d k evs|e' pe' evs H']; subst.
    + left. constructor.
    + left. constructor.
    + destruct (IH _ _ H') as [Hl|(pt & -> & Hr)].
      * left. now constructor.
      * right. exists pt. split; [reflexivity|exact Hr].
Qed.

Lemma cpre_app_l a pe b : cpre pe a -> cpre pe (a ++ b).
Proof. induction 1; cbn [app]; constructor; assumption. Qed.

Lemma cpre_app_r a : forall pt b, cpre pt b -> cpre (a ++ pt) (a ++ b).
Proof. induction a as [|e a IH]; intros pt b H; cbn [app]; [exact H|]. constructor. now apply IH. Qed.

(* the bytes of the write events, in order *)
Fixpoint ev_data (evs : list event) : bytes :=
  match evs with
  | [] => []
  | EvWrite _ _ d :: r => d ++ ev_data r
  | _ :: r => ev_data r
  end.

Lemma ev_data_app a b : ev_data (a ++ b) = ev_data a ++ ev_data b.
Proof.
  induction a as [|e a IH]; [reflexivity|]. cbn [app ev_data].
  destruct e; try exact IH. now rewrite IH, app_assoc.
Qed.

Lemma cpre_data pe evs : cpre pe evs -> exists rest, ev_data evs = ev_data pe ++ rest.
Proof.
  induction 1 as [evs|n off d k evs|e pe evs _ [rest IH]].
  - now exists (ev_data evs).
  - exists (dropN k d ++ ev_data evs). cbn [ev_data]. rewrite app_nil_r, app_assoc.
    now rewrite takeN_dropN.
  - exists rest. cbn [ev_data]. destruct e; try exact IH. now rewrite IH, app_assoc.
Qed.

Lemma cpre_data_take pe evs : cpre pe evs ->
  ev_data pe = takeN (lenN (ev_data pe)) (ev_data evs) /\ lenN (ev_data pe) <= lenN (ev_data evs).
Proof.
  intros H. destruct (cpre_data _ _ H) as [rest E]. rewrite E, takeN_app_exact, lenN_app.
  split; [reflexivity|lia].
Qed.

(* monotonicity in (cut, k): an earlier crash point leaves a crash prefix of a later one *)
Lemma crash_events_mono evs : forall cut1 k1 cut2 k2,
  cut1 < cut2 \/ (cut1 = cut2 /\ k1 <= k2) ->
  cpre (crash_events evs cut1 k1) (crash_events evs cut2 k2).
Proof.
  induction evs as [|e r IH]; intros cut1 k1 cut2 k2 Hle.
  - unfold crash_events. cbn [takeN dropN]. destruct (k1 =? 0); constructor.
  - destruct (N.eq_dec cut1 0) as [->|Hc1].
    + rewrite crash_events_cons0. destruct (N.eqb_spec k1 0) as [_|Hk1]; [constructor|].
      destruct (N.eq_dec cut2 0) as [->|Hc2].
      * rewrite crash_events_cons0. destruct (N.eqb_spec k2 0) as [Hk2|Hk2]; [lia|].
        destruct e; try constructor.
        replace (takeN k1 data) with (takeN k1 (takeN k2 data)); [constructor|].
        rewrite takeN_takeN. f_equal. lia.
      * rewrite crash_events_consS by exact Hc2. destruct e; constructor.
    + assert (Hc2 : cut2 <> 0) by lia.
      rewrite !crash_events_consS by assumption. constructor. apply IH. lia.
Qed.

Lemma crash_data_mono evs cut1 k1 cut2 k2 :
  cut1 < cut2 \/ (cut1 = cut2 /\ k1 <= k2) ->
  lenN (ev_data (crash_events evs cut1 k1)) <= lenN (ev_data (crash_events evs cut2 k2)).
Proof. intros H. exact (proj2 (cpre_data_take _ _ (crash_events_mono evs _ _ _ _ H))). Qed.

Section Trace.
Variable P : params.
Hypothesis HBS_lo : 7 < BS P.
Hypothesis HBS_hi : BS P <= 65542.
Hypothesis HNB : 1 <= NB P.
Hypothesis Hcrc : forall t p, crcf P t p < 2 ^ 32.
Hypothesis HGC : L_GC P = false.      (* the current code: the GC persists before unlinking *)

Local Notation B := (BS P).
Local Notation FB := (FILE_BYTES P).
Local Notation ffp := (first_frame_pos P).
Local Notation enc_of := (enc_of P).
Local Notation encs_of := (encs_of P).
Local Notation cursor_after := (cursor_after P).
Local Notation H3 f := (f P HBS_lo HBS_hi Hcrc) (only parsing).
Local Notation H2 f := (f P HBS_lo HBS_hi) (only parsing).
Local Notation HN f := (f P HBS_lo HBS_hi HNB) (only parsing).
Local Notation HW f := (f P HBS_lo HBS_hi HNB Hcrc) (only parsing).

Lemma FB_pos : 0 < FB. Proof. pose proof (FB_ge_B P (HN HB0) HNB). lia. Qed.

Lemma rem_le_FB off len : len <= B - off mod B -> len <= FB.
Proof. intros H. pose proof (FB_ge_B P (HN HB0) HNB). lia. Qed.

(* a write that ends below byte FB * 2^64 of the log and starts after file f starts in a file
   whose number fits in a u64 *)
Lemma next_file_u64 f len :
  0 < len -> FB * (f + 1) + len <= FB * (U64_MAX + 1) -> f + 1 <= U64_MAX.
Proof.
  intros Hl H. pose proof FB_pos.
  assert (Hlt : FB * (f + 1) < FB * (U64_MAX + 1)) by lia.
  apply N.mul_lt_mono_pos_l in Hlt; lia.
Qed.

(* the roll-over group: the old file is flushed and synced, the next one created and sized *)
Definition roll_group (f : N) : list event :=
  [EvFlush (filename f); EvSyncData (filename f); EvSyncDir;
   EvCreate (filename (f + 1)); EvSetLen (filename (f + 1)) FB].

(* wtrace f off evs D f' off': starting with the OS position at offset off of file f, the
   events evs write the bytes D, consecutively, every write exactly at the current end of the
   written stream, rolling over to the next (fresh) file exactly at the end of a file, and leave
   the OS position at offset off' of file f' *)
Inductive wtrace : N -> N -> list event -> bytes -> N -> N -> Prop :=
| wt_nil f off : wtrace f off [] [] f off
| wt_write f off d evs D f' off' :
    off + lenN d <= FB ->
    wtrace f (off + lenN d) evs D f' off' ->
    wtrace f off (EvWrite (filename f) off d :: evs) (d ++ D) f' off'
| wt_roll f evs D f' off' :
    wtrace (f + 1) 0 evs D f' off' ->
    wtrace f FB (roll_group f ++ evs) D f' off'.

Lemma wtrace_app f off e1 D1 f1 off1 e2 D2 f2 off2 :
  wtrace f off e1 D1 f1 off1 -> wtrace f1 off1 e2 D2 f2 off2 ->
  wtrace f off (e1 ++ e2) (D1 ++ D2) f2 off2.
Proof.
  intros H1 H2. induction H1 as [f off|f off d evs D f' off' Hfit _ IH|f evs D f' off' _ IH].
  - exact H2.
  - cbn [app]. rewrite <- app_assoc. constructor; [exact Hfit|]. now apply IH.
  - rewrite <- app_assoc. constructor. now apply IH.
Qed.

Lemma wtrace_snoc_write f off evs D f1 off1 d :
  wtrace f off evs D f1 off1 -> off1 + lenN d <= FB ->
  wtrace f off (evs ++ [EvWrite (filename f1) off1 d]) (D ++ d) f1 (off1 + lenN d).
Proof.
  intros H Hfit. eapply wtrace_app; [exact H|].
  pose proof (wt_write f1 off1 d [] [] f1 (off1 + lenN d) Hfit (wt_nil _ _)) as H'.
  rewrite app_nil_r in H'. exact H'.
Qed.

Lemma wtrace_snoc_roll f off evs D f1 :
  wtrace f off evs D f1 FB -> wtrace f off (evs ++ roll_group f1) D (f1 + 1) 0.
Proof.
  intros H. rewrite <- (app_nil_r D). eapply wtrace_app; [exact H|].
  pose proof (wt_roll f1 [] [] (f1 + 1) 0 (wt_nil _ _)) as H'.
  rewrite app_nil_r in H'. exact H'.
Qed.

Lemma wtrace_le f off evs D f' off' : wtrace f off evs D f' off' -> f <= f'.
Proof. induction 1; lia. Qed.

Lemma wtrace_data f off evs D f' off' : wtrace f off evs D f' off' -> ev_data evs = D.
Proof.
  induction 1 as [f off|f off d evs D f' off' _ _ IH|f evs D f' off' _ IH].
  - reflexivity.
  - cbn [ev_data]. now rewrite IH.
  - exact IH.
Qed.

(* the offsets are those of consecutive stream positions *)
Lemma wtrace_pos f off evs D f' off' : wtrace f off evs D f' off' ->
  off <= FB -> off' <= FB /\ f * FB + off + lenN D = f' * FB + off'.
Proof.
  induction 1 as [f off|f off d evs D f' off' Hfit _ IH|f evs D f' off' _ IH]; intros Hoff.
  - rewrite (@lenN_nil byte). lia.
  - rewrite lenN_app. destruct (IH Hfit) as [H1 H2]. lia.
  - destruct (IH ltac:(lia)) as [H1 H2]. lia.
Qed.

(* File::flush of the current file, with sync_data + directory sync when fsync is on *)
Definition flush_group (f : N) (a : bool) : list event :=
  EvFlush (filename f) :: (if a then [EvSyncData (filename f); EvSyncDir] else []).

(* the GC: the m oldest files, oldest first *)
Definition unlinks (lo : N) (m : nat) : list event :=
  map (fun f => EvUnlink (filename f)) (iota lo m).

(* events that change neither the directory nor the data *)
Definition noop_ev (e : event) : Prop :=
  match e with EvFlush _ | EvSyncData _ | EvSyncDir => True | _ => False end.

Lemma noop_cpre l pt : Forall noop_ev l -> cpre pt l -> Forall noop_ev pt.
Proof.
  intros Hl Hc. induction Hc as [evs|n off d k evs|e pe evs _ IH].
  - constructor.
  - inversion Hl as [|? ? H _]; subst. destruct H.
  - inversion Hl; subst. constructor; auto.
Qed.

Lemma noop_fold pt : Forall noop_ev pt ->
  (forall fs, fold_left apply_event pt fs = fs) /\ ev_data pt = [].
Proof.
  induction 1 as [|e pt He _ [IH1 IH2]]; [split; reflexivity|].
  destruct e; try destruct He; cbn [fold_left apply_event ev_data]; auto.
Qed.

Lemma flush_group_noop f a : Forall noop_ev (flush_group f a).
Proof. destruct a; repeat constructor. Qed.

(* call_trace lo f0 off0 NEW f1 off1 evs: the events of a call that starts with the OS position
   at (f0, off0), the tracker starting at file lo, and writes the bytes NEW: first all the data
   writes (with the roll-over groups), then a flush group, then - if the GC ran - the unlinks of
   the m oldest files followed by the final flush group of the policy *)
Inductive call_trace (lo f0 off0 : N) (NEW : bytes) (f1 off1 : N) : list event -> Prop :=
| ct_noop : NEW = [] -> f1 = f0 -> off1 = off0 -> call_trace lo f0 off0 NEW f1 off1 []
| ct_plain wevs a :
    wtrace f0 off0 wevs NEW f1 off1 ->
    call_trace lo f0 off0 NEW f1 off1 (wevs ++ flush_group f1 a)
| ct_gc wevs m a :
    wtrace f0 off0 wevs NEW f1 off1 -> lo + N.of_nat m <= f1 ->
    call_trace lo f0 off0 NEW f1 off1
               (wevs ++ flush_group f1 true ++ unlinks lo m ++ flush_group f1 a).

Section Ext.
Variable ev0 : list event.       (* the events before the call *)
Variable fs0 : fsT.              (* the directory before the call *)
Variables f0 off0 : N.           (* the OS position before the call *)

Definition trW (w : rwriter) (D : bytes) : Prop :=
  exists evs Dos,
    c_ev (w_ctx w) = rev evs ++ ev0 /\
    c_fs (w_ctx w) = fold_left apply_event evs fs0 /\
    (exists b, fs_get (c_fs (w_ctx w)) (filename (w_file w)) = Some (FFile b)) /\
    wtrace f0 off0 evs Dos (w_file w) (os_pos w) /\
    D = Dos ++ w_pending w.

Lemma rev_snoc_ev (evs : list event) e : e :: rev evs ++ ev0 = rev (evs ++ [e]) ++ ev0.
Proof. now rewrite rev_app_distr. Qed.

Lemma fold_snoc_ev (evs : list event) e :
  fold_left apply_event (evs ++ [e]) fs0 = apply_event (fold_left apply_event evs fs0) e.
Proof. now rewrite fold_left_app. Qed.

Lemma os_write_apply c n off d b :
  fs_get (c_fs c) (filename n) = Some (FFile b) ->
  c_fs (os_write c n off d) = apply_event (c_fs c) (EvWrite (filename n) off d) /\
  exists b', fs_get (c_fs (os_write c n off d)) (filename n) = Some (FFile b').
Proof.
  intros Hg. unfold os_write, file_content. cbn [ctx_ev ctx_fs c_fs apply_event]. rewrite Hg.
  split; [reflexivity|]. eexists. apply PolicyProofs.fs_get_put_same.
Qed.

(* an OS write of d at the OS position; the writer's buffer is emptied *)
Lemma trW_os_write w D d off' :
  trW w D -> off' = os_pos w + lenN d -> off' <= FB ->
  exists Dos, D = Dos ++ w_pending w /\
    trW (mkWr (os_write (w_ctx w) (w_file w) (os_pos w) d) (w_files w) (w_file w) off' []) (Dos ++ d).
Proof.
  intros (evs & Dos & Hev & Hfs & (b & Hb) & Htr & HD) -> Hfit.
  destruct (os_write_apply (w_ctx w) (w_file w) (os_pos w) d b Hb) as (Hfs' & Hb').
  exists Dos. split; [exact HD|].
  exists (evs ++ [EvWrite (filename (w_file w)) (os_pos w) d]), (Dos ++ d).
  cbn [w_ctx w_file w_pending].
  split; [unfold os_write; cbn [ctx_ev c_ev ctx_fs]; rewrite Hev; apply rev_snoc_ev|].
  split; [rewrite Hfs', Hfs; symmetry; apply fold_snoc_ev|].
  split; [exact Hb'|].
  split; [|now rewrite app_nil_r].
  match goal with |- wtrace _ _ _ _ _ ?p => replace p with (os_pos w + lenN d) end.
  - now apply wtrace_snoc_write.
  - unfold os_pos at 2. cbn [w_off w_pending]. rewrite (@lenN_nil byte). symmetry. apply N.sub_0_r.
Qed.

(* a direct OS write of d, nothing pending *)
Lemma trW_direct w D d :
  trW w D -> w_pending w = [] -> w_off w + lenN d <= FB ->
  trW (mkWr (os_write (w_ctx w) (w_file w) (os_pos w) d) (w_files w) (w_file w)
            (w_off w + lenN d) []) (D ++ d).
Proof.
  intros Ht Hp Hfit.
  assert (Hos : os_pos w = w_off w) by (unfold os_pos; rewrite Hp, (@lenN_nil byte); lia).
  destruct (trW_os_write w D d (w_off w + lenN d) Ht) as (Dos & HD & Ht'); [now rewrite Hos|exact Hfit|].
  rewrite Hp, app_nil_r in HD. now subst Dos.
Qed.

Lemma trW_flush_buf w D :
  trW w D -> wf w -> w_off w <= FB -> trW (flush_buf w) D.
Proof.
  intros Ht Hwf Hoff. unfold flush_buf. destruct (w_pending w) as [|x r] eqn:Ep; [exact Ht|].
  rewrite <- Ep. unfold wf in Hwf.
  destruct (trW_os_write w D (w_pending w) (w_off w) Ht) as (Dos & HD & Ht');
    [unfold os_pos; lia|exact Hoff|].
  now rewrite HD.
Qed.

Lemma trW_buffer w D d :
  trW w D -> wf w ->
  trW (mkWr (w_ctx w) (w_files w) (w_file w) (w_off w + lenN d) (w_pending w ++ d)) (D ++ d).
Proof.
  intros (evs & Dos & Hev & Hfs & Hb & Htr & HD) Hwf. unfold wf in Hwf.
  exists evs, Dos. cbn [w_ctx w_file w_pending].
  split; [exact Hev|]. split; [exact Hfs|]. split; [exact Hb|]. split.
  - replace (os_pos (mkWr (w_ctx w) (w_files w) (w_file w) (w_off w + lenN d) (w_pending w ++ d)))
      with (os_pos w); [exact Htr|].
    unfold os_pos. cbn [w_off w_pending]. rewrite lenN_app. lia.
  - rewrite HD, app_assoc. reflexivity.
Qed.

Lemma trW_bw_write_all w D d :
  trW w D -> wf w -> w_off w + lenN d <= FB -> trW (bw_write_all P w d) (D ++ d).
Proof.
  intros Ht Hwf Hfit. unfold bw_write_all, bw_write_all0.
  destruct (N.ltb_spec (lenN d) (B - lenN (w_pending w))) as [Hsp|Hsp].
  - cbn [w_ctx w_files w_file w_off w_pending]. now apply trW_buffer.
  - set (w1 := if B - lenN (w_pending w) <? lenN d then flush_buf w else w).
    assert (H1 : trW w1 D /\ wf w1 /\ w_off w1 = w_off w /\
                 (B <= lenN d -> w_pending w1 = [])).
    { unfold w1. destruct (N.ltb_spec (B - lenN (w_pending w)) (lenN d)) as [Hlt|Hge].
      - destruct (flush_buf_same w) as (_ & _ & Eo & Ep).
        split; [apply trW_flush_buf; [exact Ht|exact Hwf|lia]|].
        split; [apply wf_nil; exact Ep|]. split; [exact Eo|]. intros _. exact Ep.
      - split; [exact Ht|]. split; [exact Hwf|]. split; [reflexivity|].
        intros HB. apply lenN_0_nil. lia. }
    destruct H1 as (Ht1 & Hwf1 & Eo1 & Hp1).
    destruct (N.leb_spec B (lenN d)) as [HBd|HBd].
    + cbn [w_ctx w_files w_file w_off w_pending]. rewrite (Hp1 HBd).
      apply trW_direct; [exact Ht1|exact (Hp1 HBd)|lia].
    + cbn [w_ctx w_files w_file w_off w_pending]. now apply trW_buffer.
Qed.

Lemma wr_write_fit_eq w d :
  d <> [] -> w_off w + lenN d <= FB -> wr_write P w d = (bw_write_all P w d, Ok tt).
Proof.
  intros Hd Hfit. unfold wr_write. destruct d as [|x d'] eqn:Ed; [congruence|].
  rewrite <- Ed in *. clear Ed x d'.
  destruct (N.ltb_spec FB (w_off w + lenN d)) as [H|_]; [lia|reflexivity].
Qed.

Lemma synced_ev w :
  c_ev (w_ctx (synced w)) =
  EvSyncDir :: EvSyncData (filename (w_file w)) :: EvFlush (filename (w_file w)) ::
  c_ev (w_ctx (flush_buf w)).
Proof.
  unfold synced, sync_dir, sync_data, bw_flush, wr_ctx. cbn [w_ctx ctx_ev c_ev w_file].
  rewrite (proj1 (flush_buf_same w)). reflexivity.
Qed.

Lemma wr_write_roll_eq w d :
  d <> [] -> wr_ok w -> FB < w_off w + lenN d ->
  fs_get (vfs w) (filename (w_file w + 1)) = None ->
  exists c2,
    wr_write P w d =
      (bw_write_all P (mkWr c2 (insert_sorted (w_file w + 1) (w_files w)) (w_file w + 1) 0 []) d,
       Ok tt) /\
    c_ev c2 = EvSetLen (filename (w_file w + 1)) FB :: EvCreate (filename (w_file w + 1)) ::
              c_ev (w_ctx (synced w)) /\
    c_fs c2 = fs_put (fs_put (vfs w) (filename (w_file w + 1)) (FFile []))
                     (filename (w_file w + 1)) (FFile (zerosN FB)).
Proof.
  intros Hd Hok Hroll Hfresh. unfold wr_write. destruct d as [|x d'] eqn:Ed; [congruence|].
  rewrite <- Ed in *. clear Ed x d'.
  destruct (N.ltb_spec FB (w_off w + lenN d)) as [_|H]; [|lia].
  fold (synced w).
  pose proof (synced_key w) as Q1. pose proof (synced_fs w) as V1.
  assert (Hok1 : wr_ok (synced w)).
  { eapply same_tracker_ok; [apply presync_tracker|exact Hok]. }
  rewrite (wr_ok_tracker_next _ Hok1).
  symmetry in Q1. apply wkey_fields in Q1. destruct Q1 as (E1 & E2 & E3 & _).
  rewrite <- E1, <- E2. unfold create_file. rewrite V1, Hfresh.
  eexists. split; [reflexivity|]. cbn [ctx_ev ctx_fs c_ev c_fs].
  split; reflexivity.
Qed.

Variable M : N.                  (* bound on the cursor of the reference writer *)
Variable buf0 : bytes.           (* the buffer of the reference writer before the call *)
Variable lo0 : N.                (* the first tracked file *)

Definition tsim (w : rwriter) (v : vecw) : Prop :=
  wsim P M w v /\ wlo w = lo0 /\ exists D, vw_buf v = buf0 ++ D /\ trW w D.

Lemma tsim_rem w v : tsim w v -> wr_rem P w = vw_rem P v.
Proof. intros (H & _). exact (wsim_rem P (HN HB0) HNB M w v H). Qed.

Lemma tsim_write w v d :
  tsim w v -> lenN d <= vw_rem P v -> Gv M (fst (vw_write v d)) ->
  snd (wr_write P w d) = snd (vw_write v d) /\
  tsim (fst (wr_write P w d)) (fst (vw_write v d)).
Proof.
  intros (Hs & Hlo & D & Hbuf & Ht) Hlen HG.
  destruct (wsim_write P (HN HB0) HNB M w v d Hs Hlen HG) as (A & C).
  split; [exact A|]. split; [exact C|].
  pose proof (wsim_rem P (HN HB0) HNB M w v Hs) as Hrem.
  destruct Hs as (Hi & Hc & Hb & HS & HM).
  pose proof Hi as (Hok & Hwf & Hoff & Hplan & Hu & Hfull & Hfresh).
  split.
  { (* the first tracked file *)
    pose proof (wr_write_hd P (wlo w) w d (fst (wr_write P w d)) (snd (wr_write P w d))
                  (surjective_pairing _) (conj Hok (wr_ok_hd P HBS_lo HBS_hi HNB w Hok))) as Hhd.
    rewrite (hd_inv_wlo P HBS_lo HBS_hi HNB _ _ Hhd). exact Hlo. }
  exists (D ++ d). split; [unfold vw_write; cbn [fst vw_buf]; rewrite Hbuf; apply app_assoc_reverse|].
  destruct d as [|x d'] eqn:Ed.
  { cbn [wr_write fst]. rewrite app_nil_r. exact Ht. }
  rewrite <- Ed in *. assert (Hd : d <> []) by (rewrite Ed; discriminate). clear Ed x d'.
  rewrite <- Hrem in Hlen. unfold wr_rem in Hlen.
  destruct (N.le_gt_cases (w_off w + lenN d) FB) as [Hfit|Hroll].
  - rewrite (wr_write_fit_eq w d Hd Hfit). cbn [fst]. now apply trW_bw_write_all.
  - assert (Hend : w_off w = FB) by (apply (fit_or_end P (HN HB0) HNB _ (lenN d)); assumption).
    destruct (wr_ok_len P (HN HB0) HNB w Hok) as [Hlow Hk].
    assert (Hpos' : wpos P w = lenN (w_files w) * FB).
    { unfold wpos. rewrite Hend. clear - Hk. replace (lenN (w_files w)) with (lenN (w_files w) - 1 + 1) at 2 by lia. lia. }
    assert (Hu1 : w_file w + 1 <= U64_MAX).
    { apply (next_file_u64 _ (lenN d) (lenN_pos d Hd)). rewrite <- Hlow.
      unfold Gv, vw_write in HG. cbn [fst vw_cursor] in HG. rewrite Hc, Hpos' in HG.
      clear - HG HM. lia. }
    assert (HlenFB : lenN d <= FB) by exact (rem_le_FB _ _ Hlen).
    assert (Hfr : fs_get (vfs w) (filename (w_file w + 1)) = None)
      by (apply Hfresh; [clear; lia|exact Hu1]).
    destruct (wr_write_roll_eq w d Hd Hok Hroll Hfr) as (c2 & Ew & Hev2 & Hfs2).
    rewrite Ew. cbn [fst].
    (* the trace up to the new file *)
    pose proof (trW_flush_buf w D Ht Hwf Hoff) as Ht1.
    destruct (flush_buf_same w) as (Ef & _ & Eo & Ep).
    destruct Ht1 as (evs & Dos & Hev & Hfs & Hb1 & Htr & HD).
    rewrite Ep, app_nil_r in HD. subst Dos.
    assert (Hos : os_pos (flush_buf w) = FB).
    { unfold os_pos. rewrite Ep, Eo, (@lenN_nil byte). clear - Hend. lia. }
    rewrite Hos, Ef in Htr.
    apply trW_bw_write_all.
    + exists (evs ++ roll_group (w_file w)), D. cbn [w_ctx w_file w_pending].
      split.
      { rewrite Hev2, synced_ev, Hev, rev_app_distr. cbn [roll_group rev app].
        reflexivity. }
      split.
      { rewrite Hfs2, fold_left_app, <- Hfs. unfold roll_group.
        cbn [fold_left apply_event]. rewrite PolicyProofs.fs_get_put_same.
        rewrite flush_buf_fs. unfold set_len. rewrite (@lenN_nil byte).
        destruct (N.leb_spec FB 0) as [Hle|_]; [apply N.le_ngt in Hle; destruct (Hle FB_pos)|].
        rewrite N.sub_0_r. reflexivity. }
      split; [rewrite Hfs2; eexists; apply PolicyProofs.fs_get_put_same|].
      split; [|now rewrite app_nil_r].
      unfold os_pos. cbn [w_off w_pending]. rewrite (@lenN_nil byte).
      change (0 - 0) with 0. now apply wtrace_snoc_roll.
    + apply wf_nil. reflexivity.
    + exact HlenFB.
Qed.

Theorem write_record_tsim w v p : tsim w v ->
  Gv M (fst (write_record P vecw vw_write (vw_rem P) v p)) ->
  snd (write_record P rwriter (wr_write P) (wr_rem P) w p) =
    snd (write_record P vecw vw_write (vw_rem P) v p) /\
  tsim (fst (write_record P rwriter (wr_write P) (wr_rem P) w p))
       (fst (write_record P vecw vw_write (vw_rem P) v p)).
Proof.
  apply (write_record_sim P (HN HB7) rwriter vecw (wr_write P) (wr_rem P)
           vw_write (vw_rem P) tsim (Gv M) tsim_rem (Gv_back P (HN HB0) HNB M) tsim_write (vw_pad_full P (HN HB0) HNB)).
Qed.

(* the invariant of the API level: D = the bytes accepted so far *)
Variable cur0 : N.               (* the cursor of the reference writer before the call *)

Definition tinv (w : rwriter) (D : bytes) : Prop := tsim w (mkVecW (cur0 + lenN D) (buf0 ++ D)).

Lemma tsim_ext w v v' : vw_cursor v = vw_cursor v' -> vw_buf v = vw_buf v' -> tsim w v -> tsim w v'.
Proof. destruct v as [c b], v' as [c' b']; cbn [vw_cursor vw_buf]; intros -> ->; auto. Qed.

Lemma tinv_write_entry st D e st1 r :
  tinv (s_wr st) D ->
  cur0 + lenN D + lenN (enc_of (cur0 + lenN D) (entry_ser e)) <= M ->
  write_entry P st e = (st1, r) ->
  r = Ok (lenN (enc_of (cur0 + lenN D) (entry_ser e))) /\
  s_qs st1 = s_qs st /\ s_pol st1 = s_pol st /\
  tinv (s_wr st1) (D ++ enc_of (cur0 + lenN D) (entry_ser e)).
Proof.
  intros Ht HM Hw. unfold write_entry in Hw.
  destruct (write_record P rwriter (wr_write P) (wr_rem P) (s_wr st) (entry_ser e)) as [w1 r1] eqn:Ew.
  inversion Hw; subst st1 r. clear Hw.
  pose proof (write_record_tsim (s_wr st) _ (entry_ser e) Ht) as Hsim.
  rewrite (H3 write_record_enc_of) in Hsim. cbn [fst snd vw_cursor vw_buf] in Hsim.
  destruct Hsim as [Er Hs]; [unfold Gv; cbn [vw_cursor]; exact HM|].
  rewrite Ew in Er, Hs. cbn [fst snd] in Er, Hs.
  split; [exact Er|]. split; [reflexivity|]. split; [reflexivity|].
  unfold tinv. cbn [set_wr s_wr]. eapply tsim_ext; [| |exact Hs]; cbn [vw_cursor vw_buf].
  - rewrite lenN_app. lia.
  - symmetry. apply app_assoc.
Qed.

Lemma tinv_record_positions names : forall st D acc st1 r,
  tinv (s_wr st) D ->
  cur0 + lenN D +
    lenN (encs_of (cur0 + lenN D) (map entry_ser (map snd (rp_log P st names)))) <= M ->
  record_positions P st names acc = (st1, r) ->
  (exists n, r = Ok n) /\ s_qs st1 = s_qs st /\ s_pol st1 = s_pol st /\
  tinv (s_wr st1) (D ++ encs_of (cur0 + lenN D) (map entry_ser (map snd (rp_log P st names)))).
Proof.
  induction names as [|n names IH]; intros st D acc st1 r Ht HM Hr; cbn [record_positions rp_log] in *.
  - inversion Hr; subst. cbn [map ResyncProofs.encs_of]. rewrite app_nil_r.
    split; [eauto|]. auto.
  - destruct (qs_get (s_qs st) n) as [q|] eqn:Eq; [|eapply IH; eassumption].
    destruct (write_entry P st (EPosition n (next_position q))) as [st2 r2] eqn:Ew.
    set (e := EPosition n (next_position q)) in *.
    set (enc := enc_of (cur0 + lenN D) (entry_ser e)).
    assert (HM1 : cur0 + lenN D + lenN enc <= M).
    { destruct r2 as [k|err]; cbn [map snd ResyncProofs.encs_of] in HM; fold enc in HM;
        rewrite lenN_app in HM; lia. }
    destruct (tinv_write_entry st D e st2 r2 Ht HM1 Ew) as (Er & Eqs & Epol & Ht2).
    fold enc in Er, Ht2. subst r2.
    cbn [map snd ResyncProofs.encs_of] in HM |- *. fold enc in HM |- *.
    assert (Ec : cur0 + lenN D + lenN enc = cur0 + lenN (D ++ enc)) by (rewrite lenN_app; lia).
    rewrite Ec in HM |- *.
    set (X := encs_of (cur0 + lenN (D ++ enc)) (map entry_ser (map snd (rp_log P st2 names)))) in *.
    destruct (IH st2 (D ++ enc) (acc + lenN enc) st1 r Ht2) as (Hr' & Eqs' & Epol' & Ht').
    + fold X. rewrite (lenN_app enc X) in HM. lia.
    + exact Hr.
    + split; [exact Hr'|]. split; [congruence|]. split; [congruence|].
      rewrite <- app_assoc in Ht'. exact Ht'.
Qed.

Lemma fold_flush_group f a fs : fold_left apply_event (flush_group f a) fs = fs.
Proof. apply (noop_fold _ (flush_group_noop f a)). Qed.

Lemma fold_unlinks l : forall fs,
  fold_left apply_event (map (fun f => EvUnlink (filename f)) l) fs = remove_files fs l.
Proof.
  unfold remove_files. induction l as [|x l IH]; intros fs; cbn [map fold_left apply_event];
    [reflexivity|apply IH].
Qed.

Lemma persist_ev_nil w a :
  w_pending w = [] ->
  c_ev (w_ctx (wr_persist w a)) = rev (flush_group (w_file w) a) ++ c_ev (w_ctx w) /\
  c_fs (w_ctx (wr_persist w a)) = c_fs (w_ctx w) /\
  w_files (wr_persist w a) = w_files w /\ w_file (wr_persist w a) = w_file w /\
  w_off (wr_persist w a) = w_off w /\ w_pending (wr_persist w a) = [].
Proof.
  intros Hp. unfold wr_persist, sync_dir, sync_data, bw_flush, flush_buf, wr_ctx. rewrite Hp.
  destruct a; cbn [w_ctx ctx_ev c_ev c_fs w_files w_file w_off w_pending flush_group rev app];
    rewrite ?Hp; repeat split; reflexivity.
Qed.

Lemma flush_buf_idem w : flush_buf (flush_buf w) = flush_buf w.
Proof. unfold flush_buf at 1. now rewrite (proj2 (proj2 (proj2 (flush_buf_same w)))). Qed.

Lemma wr_persist_flushed w a : wr_persist w a = wr_persist (flush_buf w) a.
Proof. unfold wr_persist, bw_flush. now rewrite flush_buf_idem. Qed.

Lemma trW_persist w D a :
  trW w D -> wf w -> w_off w <= FB ->
  let w' := wr_persist w a in
  exists evs,
    c_ev (w_ctx w') = rev (evs ++ flush_group (w_file w) a) ++ ev0 /\
    c_fs (w_ctx w') = fold_left apply_event (evs ++ flush_group (w_file w) a) fs0 /\
    wtrace f0 off0 evs D (w_file w) (w_off w) /\
    w_files w' = w_files w /\ w_file w' = w_file w /\ w_off w' = w_off w /\ w_pending w' = [].
Proof.
  intros Ht Hwf Hoff w'. unfold w'. rewrite wr_persist_flushed.
  destruct (flush_buf_same w) as (Ef & Efl & Eo & Ep).
  destruct (persist_ev_nil (flush_buf w) a Ep) as (Hev & Hfs & K1 & K2 & K3 & K4).
  destruct (trW_flush_buf w D Ht Hwf Hoff) as (evs & Dos & Hev1 & Hfs1 & _ & Htr & HD).
  rewrite Ep, app_nil_r in HD. subst Dos.
  exists evs. rewrite Hev, Hfs, Hev1, Hfs1, Ef, K1, K2, K3, K4, Efl, Ef, Eo.
  split; [now rewrite rev_app_distr, app_assoc|].
  split; [now rewrite fold_left_app, fold_flush_group|].
  split; [|auto].
  unfold os_pos in Htr. rewrite Ep, Ef, Eo, (@lenN_nil byte), N.sub_0_r in Htr. exact Htr.
Qed.

Lemma wr_ok_iota w : wr_ok w -> w_files w = iota (wlo w) (length (w_files w)).
Proof.
  intros Hok. pose proof (wr_ok_hd P HBS_lo HBS_hi HNB w Hok) as Hhd. destruct Hok as [Hc _].
  destruct (w_files w) as [|lo r]; [destruct Hc|]. cbn [hd_error] in Hhd. injection Hhd as <-.
  cbn [contiguous] in Hc. cbn [length iota]. f_equal. now apply chain_iota.
Qed.

Lemma iota_app_inv a : forall lo n b, iota lo n = a ++ b -> a = iota lo (length a).
Proof.
  induction a as [|x a IH]; intros lo n b H; [reflexivity|].
  destruct n as [|n]; [discriminate|]. cbn [iota app length] in *. injection H as <- H.
  f_equal. eapply IH. exact H.
Qed.

Lemma tinv_facts w D : tinv w D -> winv P w /\ wlo w = lo0 /\ trW w D.
Proof.
  intros ((Hi & _) & Hlo & D1 & Hb & Ht). cbn [vw_buf] in Hb. apply app_inv_head in Hb.
  subst D1. auto.
Qed.

Lemma tinv_write_first st e st1 r :
  tinv (s_wr st) [] ->
  cur0 + lenN (enc_of cur0 (entry_ser e)) <= M ->
  write_entry P st e = (st1, r) ->
  r = Ok (lenN (enc_of cur0 (entry_ser e))) /\
  s_qs st1 = s_qs st /\ s_pol st1 = s_pol st /\ tinv (s_wr st1) (enc_of cur0 (entry_ser e)).
Proof.
  intros Ht HM Hw. pose proof (tinv_write_entry st [] e st1 r Ht) as H.
  rewrite (@lenN_nil byte), N.add_0_r in H. cbn [app] in H. now apply H.
Qed.

(* the call ends with a persist, no GC *)
Lemma finish_plain st D a :
  tinv (s_wr st) D ->
  let w' := s_wr (persist st a) in
  exists evs,
    c_ev (w_ctx w') = rev evs ++ ev0 /\
    c_fs (w_ctx w') = fold_left apply_event evs fs0 /\
    call_trace lo0 f0 off0 D (w_file w') (w_off w') evs /\ w_pending w' = [].
Proof.
  intros Ht w'. destruct (tinv_facts _ _ Ht) as ((_ & Hwf & Hoff & _) & _ & HtW).
  destruct (trW_persist (s_wr st) D a HtW Hwf Hoff) as (evs & Hev & Hfs & Htr & _ & K2 & K3 & K4).
  unfold w'. cbn [persist set_wr s_wr].
  exists (evs ++ flush_group (w_file (s_wr st)) a). rewrite K2, K3.
  split; [exact Hev|]. split; [exact Hfs|]. split; [now constructor|exact K4].
Qed.

Lemma tinv_run_gc st D hint st3 n :
  tinv (s_wr st) D ->
  cur0 + lenN D +
    lenN (encs_of (cur0 + lenN D) (map entry_ser (map snd (gc_log P st hint)))) <= M ->
  run_gc_if_necessary P st hint = (st3, Ok n) ->
  s_pol st3 = s_pol st /\
  ((has_deletable st = false /\ st3 = st) \/
   (exists evs m,
      let D' := D ++ encs_of (cur0 + lenN D) (map entry_ser (map snd (gc_log P st hint))) in
      let f1 := w_file (s_wr st3) in
      c_ev (w_ctx (s_wr st3)) = rev (evs ++ flush_group f1 true ++ unlinks lo0 m) ++ ev0 /\
      c_fs (w_ctx (s_wr st3)) =
        fold_left apply_event (evs ++ flush_group f1 true ++ unlinks lo0 m) fs0 /\
      wtrace f0 off0 evs D' f1 (w_off (s_wr st3)) /\ lo0 + N.of_nat m <= f1 /\
      w_pending (s_wr st3) = [])).
Proof.
  intros Ht HM Hg. unfold run_gc_if_necessary in Hg. unfold gc_log in *.
  destruct (has_deletable st) eqn:Ehd.
  2:{ inversion Hg; subst. split; [reflexivity|]. left. auto. }
  unfold record_empty_queues_position in Hg.
  destruct (record_positions P st (pick_order hint (empty_names (s_qs st))) 0) as [st1 r1] eqn:Er.
  destruct (tinv_record_positions _ st D 0 st1 r1 Ht HM Er) as ((k & ->) & Eqs & Epol & Ht1).
  rewrite HGC in Hg. cbn [andb] in Hg.
  set (D' := D ++ encs_of (cur0 + lenN D) _) in *.
  destruct (tinv_facts _ _ Ht1) as (Hi1 & Hlo1 & HtW1).
  pose proof Hi1 as (Hok1 & Hwf1 & Hoff1 & _).
  destruct (trW_persist (s_wr st1) D' true HtW1 Hwf1 Hoff1)
    as (evs & Hev & Hfs & Htr & K1 & K2 & K3 & K4).
  cbn [persist set_wr s_wr] in Hg.
  remember (wr_persist (s_wr st1) true) as wp eqn:Ewp.
  destruct (gc_loop (w_ctx wp) (w_files wp) _) as [[c files] rg] eqn:Egc.
  destruct rg as [[]|e]; inversion Hg; subst st3 n; clear Hg.
  destruct (gc_loop_ok _ _ _ _ _ Egc) as (dropped & Efiles & Hun & _ & Hevg & Hfsg & _).
  cbn [set_wr s_wr s_pol w_ctx w_file w_off w_pending].
  split; [exact Epol|]. right.
  rewrite K1, (wr_ok_iota _ Hok1), Hlo1 in Efiles.
  pose proof (iota_app_inv _ _ _ _ Efiles) as Edr.
  set (m := length dropped) in *.
  exists evs, m. rewrite K2, K3.
  split.
  { rewrite Hevg, Hev. unfold unlink_events, unlinks. rewrite <- Edr.
    rewrite !rev_app_distr, <- !app_assoc. reflexivity. }
  split.
  { rewrite Hfsg, Hfs. rewrite app_assoc, (fold_left_app _ (evs ++ _)). unfold unlinks.
    rewrite fold_unlinks, <- Edr. reflexivity. }
  split; [exact Htr|]. split; [|exact K4].
  (* the current file is referenced, hence not dropped *)
  destruct (N.le_gt_cases (lo0 + N.of_nat m) (w_file (s_wr st1))) as [Hle|Hgt]; [exact Hle|].
  exfalso. assert (Hin : In (w_file (s_wr st1)) dropped).
  { rewrite Edr. apply iota_In. fold m. pose proof (winv_wlo_le P HBS_lo HBS_hi HNB _ Hi1). lia. }
  rewrite Forall_forall in Hun. specialize (Hun _ Hin). unfold referenced in Hun.
  cbn [persist set_wr s_wr] in Hun. rewrite <- Ewp, K2, N.eqb_refl, orb_true_r in Hun. discriminate.
Qed.

(* the call ends with a persist after the GC branch *)
Lemma finish_gc st D hint st3 n a :
  tinv (s_wr st) D ->
  cur0 + lenN D +
    lenN (encs_of (cur0 + lenN D) (map entry_ser (map snd (gc_log P st hint)))) <= M ->
  run_gc_if_necessary P st hint = (st3, Ok n) ->
  s_pol st3 = s_pol st /\
  let w' := s_wr (persist st3 a) in
  exists evs,
    c_ev (w_ctx w') = rev evs ++ ev0 /\
    c_fs (w_ctx w') = fold_left apply_event evs fs0 /\
    call_trace lo0 f0 off0
      (D ++ encs_of (cur0 + lenN D) (map entry_ser (map snd (gc_log P st hint))))
      (w_file w') (w_off w') evs /\
    w_pending w' = [].
Proof.
  intros Ht HM Hg. destruct (tinv_run_gc st D hint st3 n Ht HM Hg) as (Epol & [(Ehd & ->)|Hgc]).
  - split; [reflexivity|]. unfold gc_log. rewrite Ehd. cbn [map ResyncProofs.encs_of].
    rewrite app_nil_r. now apply finish_plain.
  - split; [exact Epol|]. destruct Hgc as (evs & m & Hev & Hfs & Htr & Hm & Hp). cbn zeta in *.
    cbn [persist set_wr s_wr].
    destruct (persist_ev_nil (s_wr st3) a Hp) as (Hev' & Hfs' & _ & K2 & K3 & K4).
    set (f1 := w_file (s_wr st3)) in *.
    exists (evs ++ flush_group f1 true ++ unlinks lo0 m ++ flush_group f1 a).
    rewrite Hev', Hfs', Hev, Hfs, K2, K3.
    split.
    { rewrite app_assoc, <- rev_app_distr, <- !app_assoc. reflexivity. }
    split.
    { replace (evs ++ flush_group f1 true ++ unlinks lo0 m ++ flush_group f1 a)
        with ((evs ++ flush_group f1 true ++ unlinks lo0 m) ++ flush_group f1 a)
        by (rewrite <- !app_assoc; reflexivity).
      now rewrite (fold_left_app _ _ (flush_group f1 a)), fold_flush_group. }
    split; [now constructor|exact K4].
Qed.

Lemma pop_always st tick a : s_pol st = PAlways a -> persist_on_policy st tick = persist st a.
Proof. intros H. unfold persist_on_policy. now rewrite H. Qed.

(* one call, relative to the reference writer *)
Theorem step_trace_rel st a o tick st' out :
  tinv (s_wr st) [] -> s_pol st = PAlways a ->
  w_file (s_wr st) = f0 -> w_off (s_wr st) = off0 -> w_pending (s_wr st) = [] ->
  c_ev (w_ctx (s_wr st)) = ev0 -> c_fs (w_ctx (s_wr st)) = fs0 ->
  cur0 + lenN (encs_of cur0 (map entry_ser (map snd (step_log P st o)))) <= M ->
  step P st o tick = (st', out) -> (forall e, out <> OutIo e) ->
  exists evs,
    c_ev (w_ctx (s_wr st')) = rev evs ++ ev0 /\
    c_fs (w_ctx (s_wr st')) = fold_left apply_event evs fs0 /\
    call_trace lo0 f0 off0 (encs_of cur0 (map entry_ser (map snd (step_log P st o))))
               (w_file (s_wr st')) (w_off (s_wr st')) evs /\
    w_pending (s_wr st') = [].
Proof.
  intros Ht Hpol Hf0 Hoff0 Hp0 Hev0 Hfs0 HM Hstep Hno.
  assert (Hnoop : step_log P st o = [] -> st' = st ->
            exists evs,
              c_ev (w_ctx (s_wr st')) = rev evs ++ ev0 /\
              c_fs (w_ctx (s_wr st')) = fold_left apply_event evs fs0 /\
              call_trace lo0 f0 off0 (encs_of cur0 (map entry_ser (map snd (step_log P st o))))
                         (w_file (s_wr st')) (w_off (s_wr st')) evs /\
              w_pending (s_wr st') = []).
  { intros -> ->. exists []. cbn [rev app fold_left map ResyncProofs.encs_of].
    split; [exact Hev0|]. split; [exact Hfs0|]. split; [now constructor|exact Hp0]. }
  destruct o as [q|q hint|q pos payloads|q p hint|fsync]; cbn [step step_log] in *.
  -     unfold create_queue in Hstep. unfold create_log in *.
    destruct (qs_contains (s_qs st) q).
    { inversion Hstep; subst. now apply Hnoop. }
    destruct (write_entry P st (EPosition q 0)) as [st1 r1] eqn:Ew.
    cbn [map snd ResyncProofs.encs_of] in HM |- *. rewrite app_nil_r in HM |- *.
    destruct (tinv_write_first st _ st1 r1 Ht HM Ew) as (-> & _ & _ & Ht1).
    inversion Hstep; subst st' out. cbn [set_qs s_wr].
    exact (finish_plain st1 _ true Ht1).
  -     unfold delete_queue in Hstep. unfold delete_log in *.
    destruct (qs_get (s_qs st) q) as [mqv|]; [|inversion Hstep; subst; now apply Hnoop].
    destruct (write_entry P st (EDelete q (next_position mqv))) as [st1 r1] eqn:Ew.
    set (e1 := EDelete q (next_position mqv)) in *.
    assert (HM1 : cur0 + lenN (enc_of cur0 (entry_ser e1)) <= M).
    { destruct r1; cbn [map snd ResyncProofs.encs_of] in HM; rewrite lenN_app in HM; lia. }
    destruct (tinv_write_first st _ st1 r1 Ht HM1 Ew) as (-> & _ & Epol1 & Ht1).
    cbn [map snd ResyncProofs.encs_of] in HM |- *.
    set (st2 := set_qs st1 (qs_remove (s_qs st1) q)) in *.
    destruct (run_gc_if_necessary P st2 hint) as [st3 [k|err]] eqn:Eg;
      [|inversion Hstep; subst; exfalso; eapply Hno; reflexivity].
    inversion Hstep; subst st' out.
    destruct (finish_gc st2 _ hint st3 k true Ht1) as (_ & Hfin); [|exact Eg|exact Hfin].
    rewrite lenN_app in HM. lia.
  -     unfold append_records in Hstep. unfold append_log in *.
    destruct (qs_get (s_qs st) q) as [mqv|]; [|inversion Hstep; subst; now apply Hnoop].
    destruct (match pos with
              | Some p => if p + 1 =? next_position mqv then Some (OutAppend None 0)
                          else if p <? next_position mqv then Some OutPast else None
              | None => None end) as [o|] eqn:Ee.
    { rewrite (append_early_target_none _ _ _ Ee) in *. inversion Hstep; subst; now apply Hnoop. }
    rewrite (append_early_target _ _ Ee) in *.
    set (position := match pos with Some p => p | None => next_position mqv end) in *.
    destruct payloads as [|x r]; cbn [number_from] in *;
      [inversion Hstep; subst; now apply Hnoop|].
    set (e1 := EAppend q position ((position, x) :: number_from (position + 1) r)) in *.
    destruct (write_entry P st e1) as [st1 r1] eqn:Ew.
    cbn [map snd ResyncProofs.encs_of] in HM |- *. rewrite app_nil_r in HM |- *.
    destruct (tinv_write_first st _ st1 r1 Ht HM Ew) as (-> & _ & Epol1 & Ht1).
    rewrite (pop_always st1 tick a) in Hstep by congruence.
    destruct (append_all mqv (w_file (s_wr st)) ((position, x) :: number_from (position + 1) r));
      inversion Hstep; subst st' out; cbn [set_qs s_wr]; exact (finish_plain st1 _ a Ht1).
  -     unfold truncate in Hstep. unfold truncate_log in *.
    destruct (qs_get (s_qs st) q) as [mqv|]; [|inversion Hstep; subst; now apply Hnoop].
    destruct (write_entry P st (ETruncate q p)) as [st1 r1] eqn:Ew.
    set (e1 := ETruncate q p) in *.
    assert (HM1 : cur0 + lenN (enc_of cur0 (entry_ser e1)) <= M).
    { destruct r1; cbn [map snd ResyncProofs.encs_of] in HM; rewrite lenN_app in HM; lia. }
    destruct (tinv_write_first st _ st1 r1 Ht HM1 Ew) as (-> & _ & Epol1 & Ht1).
    cbn [map snd ResyncProofs.encs_of] in HM |- *.
    destruct (truncate_head mqv p) as [mq' evicted]. cbn [fst] in *.
    set (st2 := set_qs st1 (qs_put (s_qs st1) q mq')) in *.
    destruct (run_gc_if_necessary P st2 hint) as [st3 [k|err]] eqn:Eg;
      [|inversion Hstep; subst; exfalso; eapply Hno; reflexivity].
    destruct (finish_gc st2 _ hint st3 k a Ht1) as (Epol3 & Hfin); [|exact Eg|].
    { rewrite lenN_app in HM. lia. }
    rewrite (pop_always st3 tick a) in Hstep by (rewrite Epol3; cbn [st2 set_qs s_pol]; congruence).
    inversion Hstep; subst st' out. exact Hfin.
  -     inversion Hstep; subst st' out. cbn [map ResyncProofs.encs_of].
    exact (finish_plain st [] fsync Ht).
Qed.

End Ext.

Lemma encs_of_shift d es : d mod B = 0 -> forall a, encs_of (d + a) es = encs_of a es.
Proof.
  intros Hd. induction es as [|p ps IH]; intros a; cbn [ResyncProofs.encs_of]; [reflexivity|].
  rewrite (HW enc_of_shift d a p Hd). f_equal. rewrite <- N.add_assoc. apply IH.
Qed.

Lemma encs_of_between a c es :
  a <= c -> c <= ffp a -> es <> [] -> zerosN (c - a) ++ encs_of c es = encs_of a es.
Proof.
  intros H1 H2 Hne. destruct es as [|p ps]; [congruence|]. cbn [ResyncProofs.encs_of].
  rewrite app_assoc, (HW enc_of_between a c p H1 H2), (HW enc_of_between_len a c p H1 H2).
  reflexivity.
Qed.

(* the reference writer of a state satisfying PInv: its buffer is the part of the ghost stream
   held by the kept files, up to the cursor *)
Lemma pinv_setup w G :
  PInv P w G ->
  let dl := wlo w - gh_base G in
  let T := gh_T P G in
  let c := dl * FB + wpos P w in
  let buf := takeN (wpos P w) (wstream w) in
  lenN buf = wpos P w /\
  buf = dropN (dl * FB) (T ++ zerosN (c - lenN T)) /\
  wstream w = buf ++ zerosN (lenN (w_files w) * FB - wpos P w) /\
  wpos P w <= lenN (w_files w) * FB /\
  lenN (w_files w) + wlo w = w_file w + 1 /\ 1 <= lenN (w_files w).
Proof.
  intros (Hw & Hwd & Hnd & Hbase & Hc1 & Hc2 & Hs & _). cbn zeta in *.
  set (dl := wlo w - gh_base G) in *.
  set (T := gh_T P G) in *. set (a := lenN T) in *.
  set (n := lenN (w_files w)) in *.
  set (c := dl * FB + wpos P w) in *.
  pose proof Hw as (Hok & Hwf' & Hoff & _).
  destruct (wr_ok_len P (HN HB0) HNB w Hok) as (Hn & Hn1). fold n in Hn, Hn1.
  pose proof (lenN_wstream P w Hw) as HlenS. fold n in HlenS.
  assert (Hpos : wpos P w = (n - 1) * FB + w_off w) by reflexivity.
  assert (Hposn : wpos P w <= n * FB) by nia.
  assert (Hcn : c <= (dl + n) * FB) by (unfold c; nia).
  split; [rewrite lenN_takeN, HlenS; lia|].
  assert (Ebuf : takeN (wpos P w) (wstream w) = dropN (dl * FB) (T ++ zerosN (c - a))).
  { rewrite Hs.
    replace (wpos P w) with (dl * FB + wpos P w - dl * FB) by lia.
    rewrite <- dropN_takeN. f_equal. fold c.
    rewrite takeN_app_ge by (fold a; lia). fold a. f_equal.
    apply takeN_zerosN. lia. }
  split; [exact Ebuf|].
  split.
  { rewrite <- (takeN_dropN (wpos P w) (wstream w)) at 1. f_equal.
    rewrite Hs, dropN_dropN. fold c. rewrite dropN_app_ge by (fold a; lia). fold a.
    rewrite dropN_zerosN. f_equal. lia. }
  split; [exact Hposn|]. split; assumption.
Qed.

Definition call_cursor (st : state) (G : ghost) : N :=
  (wlo (s_wr st) - gh_base G) * FB + wpos P (s_wr st).

(* NEW: the bytes of a call *)
Definition call_bytes (st : state) (G : ghost) (o : op) : bytes :=
  encs_of (call_cursor st G) (map entry_ser (map snd (step_log P st o))).

Theorem pinv_step_call_trace st G a o tick st' out :
  PInv P (s_wr st) G -> w_pending (s_wr st) = [] -> s_pol st = PAlways a ->
  stream_bound P G (map snd (step_log P st o)) ->
  step P st o tick = (st', out) -> (forall e, out <> OutIo e) ->
  let w := s_wr st in
  exists evs,
    c_ev (w_ctx (s_wr st')) = rev evs ++ c_ev (w_ctx w) /\
    c_fs (w_ctx (s_wr st')) = fold_left apply_event evs (c_fs (w_ctx w)) /\
    call_trace (wlo w) (w_file w) (w_off w) (call_bytes st G o)
               (w_file (s_wr st')) (w_off (s_wr st')) evs /\
    w_pending (s_wr st') = [].
Proof.
  intros HP Hp0 Hpol Hbound Hstep Hno w. subst w. set (w := s_wr st) in *.
  destruct (pinv_setup w G HP) as (Hlb & Ebuf & HS & Hposn & Hn & Hn1). cbn zeta in *.
  pose proof HP as (Hw & _ & _ & Hbase & Hc1 & Hc2 & _). cbn zeta in Hc1, Hc2.
  set (dl := wlo w - gh_base G) in *.
  set (T := gh_T P G) in *. set (a0 := lenN T) in *.
  set (c := dl * FB + wpos P w) in *.
  set (buf := takeN (wpos P w) (wstream w)) in *.
  set (X := map entry_ser (map snd (step_log P st o))) in *.
  assert (EX : encs_of (wpos P w) X = encs_of c X).
  { unfold c. symmetry. apply encs_of_shift. apply (mulFB_mod P HBS_lo HBS_hi HNB). }
  set (M := wpos P w + lenN (encs_of (wpos P w) X)).
  pose proof Hw as (Hok & Hwf' & Hoff & Hplan & Hu & Hfull & Hfresh).
  assert (HM : FB * wlo w + M <= FB * (U64_MAX + 1)).
  { unfold M. rewrite EX. destruct X as [|x X'] eqn:EXX.
    - cbn [ResyncProofs.encs_of]. rewrite (@lenN_nil byte).
      assert (FB * (wlo w + lenN (w_files w)) <= FB * (U64_MAX + 1)) by (apply N.mul_le_mono_l; lia).
      lia.
    - rewrite <- EXX in *.
      assert (Hne : X <> []) by (rewrite EXX; discriminate).
      unfold stream_bound in Hbound. rewrite map_app in Hbound. fold X in Hbound.
      rewrite (H3 cursor_after_app) in Hbound. fold (gh_ser G) in Hbound.
      rewrite cursor_after_0 in Hbound by assumption. fold (gh_T P G) in Hbound. fold T in Hbound.
      fold a0 in Hbound. unfold ResyncProofs.cursor_after in Hbound.
      rewrite <- (encs_of_between a0 c X Hc1 Hc2 Hne), lenN_app, lenN_zerosN in Hbound.
      replace (wlo w) with (gh_base G + dl) by lia. unfold c in *. nia. }
  assert (Hcur : exists b, fs_get (c_fs (w_ctx w)) (filename (w_file w)) = Some (FFile b)).
  { rewrite <- (vfs_nil w Hp0). destruct (wr_ok_files w Hok) as (pre & Hpre & _).
    destruct (Hfull (w_file w)) as (b & Hb & _); [rewrite Hpre; apply in_or_app; right; now left|].
    now exists b. }
  assert (Ht : tinv (c_ev (w_ctx w)) (c_fs (w_ctx w)) (w_file w) (w_off w) M buf (wlo w)
                    (wpos P w) w []).
  { unfold tinv, tsim. rewrite (@lenN_nil byte), N.add_0_r, app_nil_r.
    split.
    { split; [exact Hw|]. split; [reflexivity|]. split; [exact Hlb|]. split; [exact HS|exact HM]. }
    split; [reflexivity|]. exists []. split; [now rewrite app_nil_r|].
    exists [], []. cbn [rev app fold_left].
    split; [reflexivity|]. split; [reflexivity|]. split; [exact Hcur|].
    split; [|now rewrite Hp0].
    replace (os_pos w) with (w_off w); [constructor|].
    unfold os_pos. rewrite Hp0, (@lenN_nil byte). lia. }
  destruct (step_trace_rel _ _ _ _ M buf (wlo w) (wpos P w) st a o tick st' out Ht Hpol
              eq_refl eq_refl Hp0 eq_refl eq_refl (N.le_refl _) Hstep Hno)
    as (evs & Hev & Hfs & Hct & Hp').
  exists evs. fold X in Hct. rewrite EX in Hct.
  split; [exact Hev|]. split; [exact Hfs|]. split; [exact Hct|exact Hp'].
Qed.

Theorem step_call_trace st G a o tick st' out :
  Inv P st G -> w_pending (s_wr st) = [] -> s_pol st = PAlways a ->
  stream_bound P G (map snd (step_log P st o)) ->
  step P st o tick = (st', out) -> (forall e, out <> OutIo e) ->
  let w := s_wr st in
  exists evs,
    c_ev (w_ctx (s_wr st')) = rev evs ++ c_ev (w_ctx w) /\
    c_fs (w_ctx (s_wr st')) = fold_left apply_event evs (c_fs (w_ctx w)) /\
    call_trace (wlo w) (w_file w) (w_off w) (call_bytes st G o)
               (w_file (s_wr st')) (w_off (s_wr st')) evs /\
    w_pending (s_wr st') = [].
Proof. intros (HP & _). now apply pinv_step_call_trace. Qed.

(* what `open` does to a short last file: zero-extended to full size *)
Definition zext (fs : fsT) (n : N) : fsT :=
  fs_put fs (filename n) (FFile (set_len (fcontent fs n) FB)).

Definition full_file (fs : fsT) (n : N) : Prop :=
  exists b, fs_get fs (filename n) = Some (FFile b) /\ lenN b = FB.

(* file f is there, full size; the files after it, up to fmax, do not exist *)
Definition good (fs : fsT) (f fmax : N) : Prop :=
  full_file fs f /\ forall n, f < n -> n <= fmax -> fs_get fs (filename n) = None.

(* the file numbers f .. f1 *)
Definition nfiles (f f1 : N) : list N := iota f (S (N.to_nat (f1 - f))).

Lemma nfiles_same f : nfiles f f = [f].
Proof. unfold nfiles. now rewrite N.sub_diag. Qed.

Lemma nfiles_cons f f1 : f < f1 -> nfiles f f1 = f :: nfiles (f + 1) f1.
Proof.
  intros H. unfold nfiles. replace (N.to_nat (f1 - f)) with (S (N.to_nat (f1 - (f + 1)))) by lia.
  reflexivity.
Qed.

Lemma nfiles_In f f1 x : f <= f1 -> (In x (nfiles f f1) <-> f <= x <= f1).
Proof. intros H. unfold nfiles. rewrite iota_In. lia. Qed.

Lemma lenN_nfiles f f1 : f <= f1 -> lenN (nfiles f f1) = f1 - f + 1.
Proof. intros H. unfold nfiles. rewrite lenN_iota. lia. Qed.

Lemma iota_app a : forall lo b, iota lo (a + b) = iota lo a ++ iota (lo + N.of_nat a) b.
Proof.
  induction a as [|a IH]; intros lo b; cbn [Nat.add iota app].
  - f_equal. lia.
  - f_equal. rewrite IH. do 2 f_equal. lia.
Qed.

Lemma nfiles_split lo f f1 : lo <= f -> f <= f1 ->
  nfiles lo f1 = iota lo (N.to_nat (f - lo)) ++ nfiles f f1.
Proof.
  intros H1 H2. unfold nfiles.
  replace (S (N.to_nat (f1 - lo))) with (N.to_nat (f - lo) + S (N.to_nat (f1 - f)))%nat by lia.
  rewrite iota_app. do 2 f_equal. lia.
Qed.

Lemma set_len_full b : lenN b = FB -> set_len b FB = b.
Proof.
  intros H. unfold set_len. destruct (N.leb_spec FB (lenN b)) as [_|Hlt]; [|lia].
  apply takeN_all. lia.
Qed.

Lemma set_len_nil : set_len [] FB = zerosN FB.
Proof.
  unfold set_len. rewrite (@lenN_nil byte).
  destruct (N.leb_spec FB 0) as [Hle|_]; [pose proof FB_pos; lia|].
  now rewrite N.sub_0_r.
Qed.

Lemma fcontent_get fs n b : fs_get fs (filename n) = Some (FFile b) -> fcontent fs n = b.
Proof. intros H. unfold fcontent. now rewrite H. Qed.

Lemma fcontent_ext fs fs' n :
  fs_get fs' (filename n) = fs_get fs (filename n) -> fcontent fs' n = fcontent fs n.
Proof. intros H. unfold fcontent. now rewrite H. Qed.

Lemma fcontent_zext_same fs n : fcontent (zext fs n) n = set_len (fcontent fs n) FB.
Proof. unfold zext. now apply fcontent_put_same. Qed.

Lemma fcontent_zext_other fs n n' :
  n <= U64_MAX -> n' <= U64_MAX -> n <> n' -> fcontent (zext fs n) n' = fcontent fs n'.
Proof. intros H1 H2 H3. unfold zext. apply fcontent_put_other. now apply filename_neq. Qed.

Lemma dropN_app_len {A} n (a a' b : list A) :
  lenN a = lenN a' -> lenN a <= n -> dropN n (a ++ b) = dropN n (a' ++ b).
Proof. intros H1 H2. rewrite !dropN_app_ge by lia. now rewrite H1. Qed.

(* img_ok fs f off img D1 f1 short: img is fs with the bytes D1 written from offset off of
   file f on, into the files f .. f1 (the files after f newly created, zero-filled); if short,
   the last one has just been created and is still empty *)
Definition img_ok (fs : fsT) (f off : N) (img : fsT) (D1 : bytes) (f1 : N) (short : bool) : Prop :=
  f <= f1 /\
  (forall name, (forall n, f <= n <= f1 -> name <> filename n) -> fs_get img name = fs_get fs name) /\
  (forall n, f <= n <= f1 ->
     exists b, fs_get img (filename n) = Some (FFile b) /\
               lenN b = if short && (n =? f1) then 0 else FB) /\
  (short = true -> f < f1) /\
  stream_of (zext img f1) (nfiles f f1) =
    takeN off (fcontent fs f) ++ D1 ++
    dropN (off + lenN D1) (fcontent fs f ++ zerosN ((f1 - f) * FB)).

Lemma img_base fs f off fmax :
  good fs f fmax -> img_ok fs f off fs [] f false.
Proof.
  intros ((b & Hb & Hlen) & _). unfold img_ok.
  split; [lia|]. split; [auto|].
  split.
  { intros n Hn. assert (n = f) by lia. subst n. exists b. cbn [andb]. auto. }
  split; [discriminate|].
  rewrite nfiles_same, stream_of_cons. unfold stream_of at 1. cbn [flat_map]. rewrite app_nil_r.
  rewrite fcontent_zext_same, (fcontent_get _ _ _ Hb), (set_len_full _ Hlen).
  rewrite N.sub_diag, N.mul_0_l. change (zerosN 0) with (@nil byte).
  rewrite (@lenN_nil byte), N.add_0_r, app_nil_r. cbn [app]. now rewrite takeN_dropN.
Qed.

Lemma img_write_step fs f off d fmax :
  good fs f fmax -> f <= fmax -> fmax <= U64_MAX -> off + lenN d <= FB ->
  let fs1 := apply_event fs (EvWrite (filename f) off d) in
  good fs1 f fmax /\
  forall img D1 f1 short,
    img_ok fs1 f (off + lenN d) img D1 f1 short -> img_ok fs f off img (d ++ D1) f1 short.
Proof.
  intros ((b & Hb & Hlen) & Hfresh) Hf Hmax Hfit fs1.
  assert (E1 : fs1 = fs_put fs (filename f) (FFile (write_at b off d))).
  { unfold fs1. cbn [apply_event]. now rewrite Hb. }
  assert (Hb1 : fs_get fs1 (filename f) = Some (FFile (write_at b off d))).
  { rewrite E1. apply PolicyProofs.fs_get_put_same. }
  split.
  { split.
    - exists (write_at b off d). split; [exact Hb1|]. rewrite lenN_write_at_inside; lia.
    - intros n H1 H2. rewrite E1, GcProofs.fs_get_put_other by (apply filename_neq; lia).
      now apply Hfresh. }
  intros img D1 f1 short (Hle & Hoth & Hfiles & Hshort & Hstr).
  split; [exact Hle|].
  split.
  { intros name Hname. rewrite (Hoth name Hname), E1.
    apply GcProofs.fs_get_put_other. intros E. apply (Hname f); [lia|now symmetry]. }
  split; [exact Hfiles|]. split; [exact Hshort|].
  rewrite Hstr, (fcontent_get _ _ _ Hb1), (fcontent_get _ _ _ Hb).
  rewrite write_at_inside by lia.
  rewrite (app_assoc (takeN off b) d), takeN_app_exact'
    by (rewrite lenN_app, lenN_takeN; lia).
  rewrite <- !app_assoc. do 3 f_equal.
  rewrite lenN_app.
  replace (off + lenN d + lenN D1) with (off + (lenN d + lenN D1)) by lia.
  rewrite (app_assoc (takeN off b) d).
  transitivity (dropN (off + (lenN d + lenN D1))
                  (takeN (off + lenN d) b ++ dropN (off + lenN d) b ++ zerosN ((f1 - f) * FB))).
  - apply dropN_app_len; rewrite ?lenN_app, !lenN_takeN; lia.
  - now rewrite app_assoc, takeN_dropN.
Qed.

(* the crash between create_new and set_len *)
Lemma img_short fs f fmax :
  good fs f fmax -> f + 1 <= fmax -> fmax <= U64_MAX ->
  img_ok fs f FB (fs_put fs (filename (f + 1)) (FFile [])) [] (f + 1) true.
Proof.
  intros ((b & Hb & Hlen) & Hfresh) Hf Hmax.
  set (img := fs_put fs (filename (f + 1)) (FFile [])).
  assert (Hnf : filename (f + 1) <> filename f) by (apply filename_neq; lia).
  assert (Hbi : fs_get img (filename f) = Some (FFile b)).
  { unfold img. now rewrite GcProofs.fs_get_put_other. }
  assert (Hni : fs_get img (filename (f + 1)) = Some (FFile [])).
  { apply PolicyProofs.fs_get_put_same. }
  split; [lia|].
  split.
  { intros name Hname. unfold img. apply GcProofs.fs_get_put_other.
    intros E. apply (Hname (f + 1)); [lia|now symmetry]. }
  split.
  { intros n Hn. destruct (N.eq_dec n f) as [->|Hne].
    - exists b. split; [exact Hbi|].
      destruct (N.eqb_spec f (f + 1)) as [E|_]; [lia|]. exact Hlen.
    - assert (n = f + 1) by lia. subst n. exists []. split; [exact Hni|].
      now rewrite N.eqb_refl. }
  split; [lia|].
  rewrite nfiles_cons by lia. rewrite nfiles_same, !stream_of_cons.
  unfold stream_of at 1. cbn [flat_map]. rewrite app_nil_r.
  rewrite fcontent_zext_same, fcontent_zext_other by lia.
  rewrite (fcontent_get _ _ _ Hbi), (fcontent_get _ _ _ Hni), (fcontent_get _ _ _ Hb), set_len_nil.
  rewrite (@lenN_nil byte), N.add_0_r. cbn [app].
  rewrite takeN_all by lia. rewrite dropN_app_exact' by exact Hlen.
  do 2 f_equal. lia.
Qed.

Lemma img_roll_step fs f fmax :
  good fs f fmax -> f + 1 <= fmax -> fmax <= U64_MAX ->
  let fs2 := fold_left apply_event (roll_group f) fs in
  good fs2 (f + 1) fmax /\
  forall img D1 f1 short, f1 <= fmax ->
    img_ok fs2 (f + 1) 0 img D1 f1 short -> img_ok fs f FB img D1 f1 short.
Proof.
  intros ((b & Hb & Hlen) & Hfresh) Hf Hmax fs2.
  assert (E2 : fs2 = fs_put (fs_put fs (filename (f + 1)) (FFile [])) (filename (f + 1))
                            (FFile (zerosN FB))).
  { unfold fs2, roll_group. cbn [fold_left apply_event].
    now rewrite PolicyProofs.fs_get_put_same, set_len_nil. }
  assert (Hnf : filename (f + 1) <> filename f) by (apply filename_neq; lia).
  assert (Hz : fs_get fs2 (filename (f + 1)) = Some (FFile (zerosN FB))).
  { rewrite E2. apply PolicyProofs.fs_get_put_same. }
  assert (Hoth2 : forall name, name <> filename (f + 1) -> fs_get fs2 name = fs_get fs name).
  { intros name Hne. rewrite E2.
    rewrite !GcProofs.fs_get_put_other by (intros E; apply Hne; now symmetry). reflexivity. }
  split.
  { split.
    - exists (zerosN FB). split; [exact Hz|apply lenN_zerosN].
    - intros n H1 H2. rewrite Hoth2 by (apply filename_neq; lia). apply Hfresh; lia. }
  intros img D1 f1 short Hf1 (Hle & Hoth & Hfiles & Hshort & Hstr).
  assert (Hbf : fs_get img (filename f) = Some (FFile b)).
  { rewrite Hoth; [|intros n Hn; apply filename_neq; lia].
    rewrite Hoth2; [exact Hb|congruence]. }
  split; [lia|].
  split.
  { intros name Hname. rewrite Hoth.
    - apply Hoth2. intros E. apply (Hname (f + 1)); [lia|exact E].
    - intros n Hn. apply Hname. lia. }
  split.
  { intros n Hn. destruct (N.eq_dec n f) as [->|Hne].
    - exists b. split; [exact Hbf|].
      destruct (N.eqb_spec f f1) as [E|_]; [lia|]. rewrite andb_false_r. exact Hlen.
    - apply Hfiles. lia. }
  split; [lia|].
  rewrite nfiles_cons by lia. rewrite stream_of_cons, Hstr.
  rewrite fcontent_zext_other by lia.
  rewrite (fcontent_get _ _ _ Hbf), (fcontent_get _ _ _ Hz), (fcontent_get _ _ _ Hb).
  rewrite takeN_0, N.add_0_l. cbn [app].
  rewrite takeN_all by lia. do 2 f_equal.
  rewrite (dropN_app_ge (FB + lenN D1) b) by lia. rewrite Hlen.
  replace (FB + lenN D1 - FB) with (lenN D1) by lia.
  rewrite <- zerosN_app. do 2 f_equal.
  replace (f1 - f) with (f1 - (f + 1) + 1) by lia. lia.
Qed.

(* the directory after the complete data writes of a call *)
Lemma wtrace_img_full f off evs D f' off' :
  wtrace f off evs D f' off' ->
  forall fs fmax, good fs f fmax -> f' <= fmax -> fmax <= U64_MAX ->
  img_ok fs f off (fold_left apply_event evs fs) D f' false.
Proof.
  induction 1 as [f off|f off d evs D f' off' Hfit Htr IH|f evs D f' off' Htr IH];
    intros fs fmax Hgood Hf' Hmax.
  - cbn [fold_left]. now apply (img_base fs f off fmax).
  - pose proof (wtrace_le _ _ _ _ _ _ Htr) as Hle.
    destruct (img_write_step fs f off d fmax Hgood ltac:(lia) Hmax Hfit) as (Hgood1 & Hstep).
    cbn [fold_left]. apply Hstep. now apply (IH _ fmax).
  - pose proof (wtrace_le _ _ _ _ _ _ Htr) as Hle.
    destruct (img_roll_step fs f fmax Hgood ltac:(lia) Hmax) as (Hgood2 & Hstep).
    rewrite fold_left_app. apply Hstep; [exact Hf'|]. now apply (IH _ fmax).
Qed.

(* a crash inside a roll-over group: before the create nothing has changed; between the create
   and the set_len the new file is there, empty; after both the group is complete *)
Lemma cpre_roll f pe evs : cpre pe (roll_group f ++ evs) ->
  ((forall fs, fold_left apply_event pe fs = fs) /\ ev_data pe = []) \/
  pe = firstn 4 (roll_group f) \/
  exists pt, pe = roll_group f ++ pt /\ cpre pt evs.
Proof.
  intros H.
  change (roll_group f ++ evs)
    with (flush_group f true ++ EvCreate (filename (f + 1)) :: EvSetLen (filename (f + 1)) FB :: evs) in H.
  destruct (cpre_app_inv _ _ _ H) as [Hc|(pt & -> & Hc)].
  - left. exact (noop_fold _ (noop_cpre _ _ (flush_group_noop f true) Hc)).
  - inversion Hc as [|?|e4 pe4 ? H4]; subst; [left; split; reflexivity|].
    inversion H4 as [|?|e5 pe5 ? H5]; subst; [right; left; reflexivity|].
    right; right. exists pe5. split; [reflexivity|exact H5].
Qed.

(* the directory after a crash prefix of the data writes *)
Lemma wtrace_img_pre f off evs D f' off' :
  wtrace f off evs D f' off' ->
  forall pe fs fmax, cpre pe evs -> good fs f fmax -> f' <= fmax -> fmax <= U64_MAX ->
  exists f1 short,
    f1 <= f' /\ img_ok fs f off (fold_left apply_event pe fs) (ev_data pe) f1 short.
Proof.
  induction 1 as [f off|f off d evs D f' off' Hfit Htr IH|f evs D f' off' Htr IH];
    intros pe fs fmax Hpe Hgood Hf' Hmax.
  - inversion Hpe; subst. exists f, false. split; [lia|]. now apply (img_base fs f off fmax).
  - pose proof (wtrace_le _ _ _ _ _ _ Htr) as Hle.
    inversion Hpe as [evs0|n off1 d1 k evs0|e pe' evs0 Hpe']; subst.
    + exists f, false. split; [lia|]. now apply (img_base fs f off fmax).
    + exists f, false. split; [lia|]. cbn [fold_left ev_data].
      assert (Hk : off + lenN (takeN k d) <= FB) by (rewrite lenN_takeN; lia).
      destruct (img_write_step fs f off (takeN k d) fmax Hgood ltac:(lia) Hmax Hk) as (Hgood1 & Hstep).
      apply Hstep. now apply (img_base _ f _ fmax).
    + destruct (img_write_step fs f off d fmax Hgood ltac:(lia) Hmax Hfit) as (Hgood1 & Hstep).
      destruct (IH pe' _ fmax Hpe' Hgood1 Hf' Hmax) as (f1 & short & Hf1 & Hok).
      exists f1, short. split; [exact Hf1|]. cbn [fold_left ev_data]. now apply Hstep.
  - pose proof (wtrace_le _ _ _ _ _ _ Htr) as Hle.
    destruct (cpre_roll f pe evs Hpe) as [[E1 E2]|[->|(pt & -> & Hpt)]].
    + exists f, false. split; [lia|]. rewrite E1, E2. now apply (img_base fs f FB fmax).
    + exists (f + 1), true. split; [lia|]. cbn [firstn roll_group fold_left apply_event ev_data].
      apply (img_short fs f fmax Hgood); lia.
    + destruct (img_roll_step fs f fmax Hgood ltac:(lia) Hmax) as (Hgood2 & Hstep).
      destruct (IH pt _ fmax Hpt Hgood2 Hf' Hmax) as (f1 & short & Hf1 & Hok).
      exists f1, short. split; [exact Hf1|]. rewrite fold_left_app, ev_data_app.
      apply Hstep; [lia|exact Hok].
Qed.

Lemma fs_get_removed dropped : forall fs n,
  In n dropped -> fs_get (remove_files fs dropped) (filename n) = None.
Proof.
  unfold remove_files. induction dropped as [|d r IH]; intros fs n Hin; [destruct Hin|].
  cbn [fold_left]. destruct (N.eq_dec d n) as [->|Hne].
  - apply (fs_get_remove_files_none r). apply GcProofs.fs_get_remove_same.
  - apply IH. destruct Hin as [E|Hin]; [contradiction|exact Hin].
Qed.

Lemma assemble fs0 lo f0 off0 imgW D1 f1 short (mu : nat) :
  lo <= f0 -> f1 <= U64_MAX ->
  (forall n, lo <= n <= f0 -> full_file fs0 n) ->
  dir_of fs0 (nfiles lo f0) ->
  img_ok fs0 f0 off0 imgW D1 f1 short ->
  lo + N.of_nat mu <= f1 ->
  let img := remove_files imgW (iota lo mu) in
  let lo' := lo + N.of_nat mu in
  let S0 := stream_of fs0 (nfiles lo f0) in
  let pos0 := (f0 - lo) * FB + off0 in
  dir_of img (nfiles lo' f1) /\
  (forall n, lo' <= n <= f1 ->
     exists b, fs_get img (filename n) = Some (FFile b) /\
               lenN b = if short && (n =? f1) then 0 else FB) /\
  stream_of (zext img f1) (nfiles lo' f1) =
    dropN (N.of_nat mu * FB)
      (takeN pos0 S0 ++ D1 ++ dropN (pos0 + lenN D1) (S0 ++ zerosN ((f1 - f0) * FB))).
Proof.
  intros Hlo Hmax Hfull Hdir (Hle & Hoth & Hfiles & Hshort & Hstr) Hmu img lo' S0 pos0.
  assert (HoldW : forall n, n <= U64_MAX -> ~ (f0 <= n <= f1) ->
            fs_get imgW (filename n) = fs_get fs0 (filename n)).
  { intros n Hn Hout. apply Hoth. intros m Hm. apply filename_neq; lia. }
  assert (HA : forall n, lo <= n <= f1 ->
            exists b, fs_get imgW (filename n) = Some (FFile b) /\
                      lenN b = if short && (n =? f1) then 0 else FB).
  { intros n Hn. destruct (N.lt_ge_cases n f0) as [Hlt|Hge].
    - rewrite HoldW by lia. destruct (Hfull n ltac:(lia)) as (b & Hb & Hl). exists b.
      split; [exact Hb|]. destruct (N.eqb_spec n f1) as [E|_]; [lia|]. now rewrite andb_false_r.
    - apply Hfiles. lia. }
  assert (HB : forall n, n <= U64_MAX -> ~ (lo <= n < lo') ->
            fs_get img (filename n) = fs_get imgW (filename n)).
  { intros n Hn Hout. unfold img. apply fs_get_remove_files_other.
    intros y Hy. apply iota_In in Hy. apply filename_neq; lia. }
  assert (HBn : forall n, lo <= n < lo' -> fs_get img (filename n) = None).
  { intros n Hn. unfold img. apply fs_get_removed. apply iota_In. lia. }
  split.
  {
    intros n Hn. rewrite nfiles_In by lia. split.
    - intros (b & Hb). destruct (N.lt_ge_cases n lo) as [Hlt|Hge0].
      + rewrite HB, HoldW in Hb by lia.
        assert (Hin : In n (nfiles lo f0)) by (apply (Hdir n Hn); now exists b).
        apply nfiles_In in Hin; lia.
      + destruct (N.lt_ge_cases n lo') as [Hlt'|Hge'].
        * rewrite HBn in Hb by lia. discriminate.
        * split; [exact Hge'|]. destruct (N.le_gt_cases n f1) as [H1|H1]; [exact H1|].
          rewrite HB, HoldW in Hb by lia.
          assert (Hin : In n (nfiles lo f0)) by (apply (Hdir n Hn); now exists b).
          apply nfiles_In in Hin; lia.
    - intros Hin. rewrite HB by lia. destruct (HA n ltac:(lia)) as (b & Hb & _). now exists b. }
  split.
  { intros n Hn. rewrite HB by lia. apply HA. lia. }
  set (Z := zerosN ((f1 - f0) * FB)).
  set (b0 := fcontent fs0 f0) in *.
  set (Spre := stream_of fs0 (iota lo (N.to_nat (f0 - lo)))).
  assert (HlenSpre : lenN Spre = (f0 - lo) * FB).
  { unfold Spre. rewrite (lenN_stream_of fs0 FB).
    - rewrite lenN_iota. lia.
    - intros n Hn. apply iota_In in Hn. destruct (Hfull n ltac:(lia)) as (b & Hb & Hl).
      now rewrite (fcontent_get _ _ _ Hb). }
  assert (ES0 : S0 = Spre ++ b0).
  { unfold S0. rewrite (nfiles_split lo f0 f0) by lia. rewrite stream_of_app, nfiles_same.
    unfold stream_of at 2. cbn [flat_map]. now rewrite app_nil_r. }
  (* the stream of all the files lo .. f1 of imgW *)
  assert (ESW : stream_of (zext imgW f1) (nfiles lo f1) =
                takeN pos0 S0 ++ D1 ++ dropN (pos0 + lenN D1) (S0 ++ Z)).
  { rewrite (nfiles_split lo f0 f1) by lia. rewrite stream_of_app, Hstr. fold b0. fold Z.
    replace (stream_of (zext imgW f1) (iota lo (N.to_nat (f0 - lo)))) with Spre.
    - rewrite ES0. unfold pos0. rewrite <- HlenSpre.
      rewrite takeN_app_ge by lia. replace (lenN Spre + off0 - lenN Spre) with off0 by lia.
      rewrite <- !app_assoc. do 3 f_equal.
      rewrite (dropN_app_ge _ Spre) by lia. f_equal. lia.
    - unfold Spre. symmetry. apply stream_of_ext. intros n Hn. apply iota_In in Hn.
      destruct (N.eq_dec f1 n) as [<-|Hne]; [lia|].
      rewrite fcontent_zext_other by lia. apply fcontent_ext. apply HoldW; lia. }
  rewrite <- ESW.
  replace (nfiles lo f1) with (iota lo mu ++ nfiles lo' f1).
  2:{ rewrite (nfiles_split lo lo' f1) by lia. do 2 f_equal. lia. }
  rewrite stream_of_app. rewrite dropN_app_exact'.
  - apply stream_of_ext. intros n Hn. apply nfiles_In in Hn; [|lia].
    destruct (N.eq_dec f1 n) as [<-|Hne].
    + rewrite !fcontent_zext_same. f_equal. apply fcontent_ext. apply HB; lia.
    + rewrite !fcontent_zext_other by lia. apply fcontent_ext. apply HB; lia.
  - rewrite (lenN_stream_of _ FB); [rewrite lenN_iota; lia|].
    intros n Hn. apply iota_In in Hn.
    rewrite fcontent_zext_other by lia.
    destruct (HA n ltac:(lia)) as (b & Hb & Hl). rewrite (fcontent_get _ _ _ Hb).
    destruct (N.eqb_spec n f1) as [E|_]; [lia|]. now rewrite andb_false_r in Hl.
Qed.

Lemma unlinks_data lo m : ev_data (unlinks lo m) = [].
Proof. unfold unlinks. generalize (iota lo m). induction l; [reflexivity|exact IHl]. Qed.

Lemma cpre_unlinks m : forall lo pt,
  cpre pt (unlinks lo m) -> exists mu, (mu <= m)%nat /\ pt = unlinks lo mu.
Proof.
  induction m as [|m IH]; intros lo pt H.
  - inversion H; subst. exists 0%nat. split; [lia|reflexivity].
  - unfold unlinks in H. cbn [iota map] in H.
    inversion H as [| |e pe evs H']; subst; [exists 0%nat; split; [lia|reflexivity]|].
    destruct (IH _ _ H') as (mu & Hmu & ->). exists (S mu). split; [lia|reflexivity].
Qed.

Lemma tail_prefix f a lo m a' pt :
  cpre pt (flush_group f a ++ unlinks lo m ++ flush_group f a') ->
  exists mu, (mu <= m)%nat /\
    (forall fs, fold_left apply_event pt fs = remove_files fs (iota lo mu)) /\ ev_data pt = [].
Proof.
  intros H. destruct (cpre_app_inv _ _ _ H) as [H1|(pt2 & -> & H2)].
  - destruct (noop_fold _ (noop_cpre _ _ (flush_group_noop f a) H1)) as [F1 F2].
    exists 0%nat. split; [lia|]. split; [exact F1|exact F2].
  - destruct (noop_fold _ (flush_group_noop f a)) as [G1 G2].
    destruct (cpre_app_inv _ _ _ H2) as [H3|(pt3 & -> & H3)].
    + destruct (cpre_unlinks _ _ _ H3) as (mu & Hmu & ->). exists mu. split; [exact Hmu|].
      split.
      * intros fs. rewrite fold_left_app, G1. unfold unlinks. apply fold_unlinks.
      * now rewrite ev_data_app, G2, unlinks_data.
    + destruct (noop_fold _ (noop_cpre _ _ (flush_group_noop f a') H3)) as [F1 F2].
      exists m. split; [lia|]. split.
      * intros fs. rewrite !fold_left_app, G1, F1. unfold unlinks. apply fold_unlinks.
      * now rewrite !ev_data_app, G2, unlinks_data, F2.
Qed.

Lemma call_trace_data lo f0 off0 NEW f1 off1 evs :
  call_trace lo f0 off0 NEW f1 off1 evs -> ev_data evs = NEW.
Proof.
  intros [E _ _|wevs a Htr|wevs m a Htr _].
  - now rewrite E.
  - rewrite ev_data_app, (wtrace_data _ _ _ _ _ _ Htr).
    rewrite (proj2 (noop_fold _ (flush_group_noop f1 a))). apply app_nil_r.
  - rewrite !ev_data_app, (wtrace_data _ _ _ _ _ _ Htr), unlinks_data.
    rewrite !(proj2 (noop_fold _ (flush_group_noop f1 _))). apply app_nil_r.
Qed.

(* the directory after a crash prefix of a whole call *)
Lemma call_trace_img lo f0 off0 NEW f1 off1 evs :
  call_trace lo f0 off0 NEW f1 off1 evs ->
  forall pe fs0 fmax, cpre pe evs -> good fs0 f0 fmax -> lo <= f0 -> f1 <= fmax -> fmax <= U64_MAX ->
  exists imgW fc short mu,
    img_ok fs0 f0 off0 imgW (ev_data pe) fc short /\ fc <= f1 /\ lo + N.of_nat mu <= fc /\
    fold_left apply_event pe fs0 = remove_files imgW (iota lo mu) /\
    (mu <> 0%nat -> ev_data pe = NEW /\ short = false).
Proof.
  intros Hct pe fs0 fmax Hpe Hgood Hlo Hf1 Hmax.
  assert (Hfull : forall wevs, wtrace f0 off0 wevs NEW f1 off1 ->
            forall pt mu, (forall fs, fold_left apply_event pt fs = remove_files fs (iota lo mu)) ->
            ev_data pt = [] -> lo + N.of_nat mu <= f1 ->
            exists imgW fc short mu,
              img_ok fs0 f0 off0 imgW (ev_data (wevs ++ pt)) fc short /\ fc <= f1 /\
              lo + N.of_nat mu <= fc /\
              fold_left apply_event (wevs ++ pt) fs0 = remove_files imgW (iota lo mu) /\
              (mu <> 0%nat -> ev_data (wevs ++ pt) = NEW /\ short = false)).
  { intros wevs Htr pt mu Hfold Hdata Hmu.
    exists (fold_left apply_event wevs fs0), f1, false, mu.
    rewrite ev_data_app, Hdata, app_nil_r, (wtrace_data _ _ _ _ _ _ Htr).
    split; [exact (wtrace_img_full _ _ _ _ _ _ Htr fs0 fmax Hgood Hf1 Hmax)|].
    split; [lia|]. split; [exact Hmu|]. split; [now rewrite fold_left_app, Hfold|auto]. }
  assert (Hpart : forall wevs, wtrace f0 off0 wevs NEW f1 off1 -> cpre pe wevs ->
            exists imgW fc short mu,
              img_ok fs0 f0 off0 imgW (ev_data pe) fc short /\ fc <= f1 /\
              lo + N.of_nat mu <= fc /\
              fold_left apply_event pe fs0 = remove_files imgW (iota lo mu) /\
              (mu <> 0%nat -> ev_data pe = NEW /\ short = false)).
  { intros wevs Htr Hc.
    destruct (wtrace_img_pre _ _ _ _ _ _ Htr pe fs0 fmax Hc Hgood Hf1 Hmax)
      as (fc & short & Hfc & Hok).
    exists (fold_left apply_event pe fs0), fc, short, 0%nat.
    split; [exact Hok|]. split; [exact Hfc|]. destruct Hok as (Hle & _).
    split; [lia|]. split; [reflexivity|]. intros H; now destruct H. }
  destruct Hct as [E -> ->|wevs a Htr|wevs m a Htr Hm].
  - inversion Hpe; subst. exists fs0, f0, false, 0%nat. cbn [ev_data fold_left].
    split; [now apply (img_base fs0 f0 off0 fmax)|]. split; [lia|]. split; [lia|].
    split; [reflexivity|]. intros H; now destruct H.
  - destruct (cpre_app_inv _ _ _ Hpe) as [Hc|(pt & -> & Hc)]; [now apply (Hpart wevs)|].
    destruct (noop_fold _ (noop_cpre _ _ (flush_group_noop f1 a) Hc)) as [F1 F2].
    apply (Hfull wevs Htr pt 0%nat); [exact F1|exact F2|].
    pose proof (wtrace_le _ _ _ _ _ _ Htr). lia.
  - destruct (cpre_app_inv _ _ _ Hpe) as [Hc|(pt & -> & Hc)]; [now apply (Hpart wevs)|].
    destruct (tail_prefix _ _ _ _ _ _ Hc) as (mu & Hmu & F1 & F2).
    apply (Hfull wevs Htr pt mu); [exact F1|exact F2|lia].
Qed.


Lemma img_ok_len fs f off img D1 f1 short :
  img_ok fs f off img D1 f1 short -> full_file fs f -> off <= FB -> f1 <= U64_MAX ->
  off + lenN D1 <= (f1 - f + 1) * FB.
Proof.
  intros (Hle & _ & Hfiles & _ & Hstr) (b & Hb & Hlen) Hoff Hmax.
  apply (f_equal lenN) in Hstr.
  rewrite (lenN_stream_of _ FB) in Hstr.
  2:{ intros n Hn. apply nfiles_In in Hn; [|lia]. destruct (N.eq_dec f1 n) as [<-|Hne].
      - rewrite fcontent_zext_same. apply lenN_set_len.
      - rewrite fcontent_zext_other by lia. destruct (Hfiles n Hn) as (b' & Hb' & Hl').
        rewrite (fcontent_get _ _ _ Hb'). destruct (N.eqb_spec n f1) as [E|_]; [lia|].
        now rewrite andb_false_r in Hl'. }
  rewrite lenN_nfiles in Hstr by lia. rewrite (fcontent_get _ _ _ Hb) in Hstr.
  rewrite !lenN_app, lenN_takeN, lenN_dropN, lenN_app, lenN_zerosN, Hlen in Hstr.
  rewrite N.min_l in Hstr by exact Hoff.
  replace ((f1 - f + 1) * FB) with ((f1 - f) * FB + FB) in * by lia.
  set (x := (f1 - f) * FB) in *. clearbody x. clear - Hstr. lia.
Qed.

Lemma apply_event_nodup fs e : nodup_keys fs -> nodup_keys (apply_event fs e).
Proof.
  intros H. destruct e; cbn [apply_event]; try exact H.
  - now apply nodup_keys_put.
  - destruct (fs_get fs name) as [[]|]; try exact H. now apply nodup_keys_put.
  - destruct (fs_get fs name) as [[]|]; try exact H. now apply nodup_keys_put.
  - now apply nodup_keys_remove.
Qed.

Lemma fold_nodup evs : forall fs, nodup_keys fs -> nodup_keys (fold_left apply_event evs fs).
Proof.
  induction evs as [|e evs IH]; intros fs H; cbn [fold_left]; [exact H|].
  apply IH. now apply apply_event_nodup.
Qed.

(* from the stream of the kept files to the ghost stream *)
Lemma stream_to_ghost (buf T D1 : bytes) (c0 dl pos0 nFB e m : N) :
  lenN buf = pos0 -> lenN T <= c0 -> c0 = dl * FB + pos0 ->
  buf = dropN (dl * FB) (T ++ zerosN (c0 - lenN T)) ->
  pos0 <= nFB -> pos0 + lenN D1 <= nFB + e ->
  let S0 := buf ++ zerosN (nFB - pos0) in
  dropN m (takeN pos0 S0 ++ D1 ++ dropN (pos0 + lenN D1) (S0 ++ zerosN e)) =
  dropN (dl * FB + m)
        (T ++ zerosN (c0 - lenN T) ++ D1 ++ zerosN (nFB + e - pos0 - lenN D1)).
Proof.
  intros Hlb Ha Hc0 Ebuf Hpos Hl S0. unfold S0.
  rewrite takeN_app_exact' by exact Hlb.
  rewrite <- (app_assoc buf), (dropN_app_ge (pos0 + lenN D1) buf) by lia.
  rewrite <- FileStream.zerosN_app, dropN_zerosN.
  replace (nFB - pos0 + e - (pos0 + lenN D1 - lenN buf)) with (nFB + e - pos0 - lenN D1) by lia.
  rewrite Ebuf.
  rewrite <- (dropN_app_le (dl * FB) (T ++ zerosN (c0 - lenN T)))
    by (rewrite lenN_app, lenN_zerosN; lia).
  rewrite dropN_dropN, <- app_assoc. reflexivity.
Qed.

(* the directory of a state with nothing pending, in the terms used for the crash images *)
Lemma pinv_dir w G :
  PInv P w G -> w_pending w = [] ->
  let fs0 := c_fs (w_ctx w) in
  wlo w <= w_file w /\ w_files w = nfiles (wlo w) (w_file w) /\
  (forall n, wlo w <= n <= w_file w -> full_file fs0 n) /\
  good fs0 (w_file w) U64_MAX /\
  dir_of fs0 (nfiles (wlo w) (w_file w)) /\
  stream_of fs0 (nfiles (wlo w) (w_file w)) = wstream w.
Proof.
  intros HP Hp0. cbn zeta.
  pose proof HP as (Hw & (_ & Hdir) & _).
  pose proof Hw as (Hok & _ & _ & _ & Hu & Hfull & Hfresh).
  rewrite (vfs_nil w Hp0) in Hfull, Hfresh.
  destruct (wr_ok_len P (HN HB0) HNB w Hok) as (Hn & Hn1).
  assert (Hlo : wlo w <= w_file w) by lia.
  assert (Efiles : w_files w = nfiles (wlo w) (w_file w)).
  { rewrite (wr_ok_iota w Hok). unfold nfiles. f_equal. rewrite lenN_length in Hn. lia. }
  assert (Hfull0 : forall n, wlo w <= n <= w_file w -> full_file (c_fs (w_ctx w)) n).
  { intros n Hn'. apply Hfull. rewrite Efiles. apply nfiles_In; lia. }
  split; [exact Hlo|]. split; [exact Efiles|]. split; [exact Hfull0|].
  split. { split; [apply Hfull0; lia|]. intros n H1 H2. now apply Hfresh. }
  split. { rewrite <- Efiles. apply Hdir. exact Hu. }
  unfold wstream. now rewrite (vfs_nil w Hp0), Efiles.
Qed.

(* what Directory::open lists in such a directory *)
Lemma dir_listing fs lo hi :
  nodup_keys fs -> dir_of fs (nfiles lo hi) -> lo <= hi -> hi <= U64_MAX ->
  list_wal_numbers fs = nfiles lo hi.
Proof.
  intros Hnd Hdir Hle Hmax.
  set (w := mkWr (ctx_init fs None) (nfiles lo hi) hi 0 []).
  apply (dir_ok_listing w); [exact Hnd| |exact Hdir|exact Hmax].
  split.
  - apply contiguous_iota. exists lo, (N.to_nat (hi - lo)). reflexivity.
  - unfold w, nfiles. cbn [w_files w_file]. rewrite (iota_last P HBS_lo HBS_hi HNB). f_equal. lia.
Qed.

Theorem crash_image_shape st G a o tick st' out :
  Inv P st G -> w_pending (s_wr st) = [] -> s_pol st = PAlways a ->
  op_wf_strict (s_qs st) o ->
  stream_bound P G (map snd (step_log P st o)) ->
  step P st o tick = (st', out) -> (forall e, out <> OutIo e) ->
  let w := s_wr st in
  let fs0 := c_fs (w_ctx w) in
  let lo := wlo w in
  let T := gh_T P G in
  let c0 := call_cursor st G in
  let NEW := call_bytes st G o in
  exists evs,
    c_ev (w_ctx (s_wr st')) = rev evs ++ c_ev (w_ctx w) /\
    c_fs (w_ctx (s_wr st')) = fold_left apply_event evs fs0 /\
    call_trace lo (w_file w) (w_off w) NEW (w_file (s_wr st')) (w_off (s_wr st')) evs /\
    forall cut k,
      let pe := crash_events evs cut k in
      let img := fold_left apply_event pe fs0 in
      let j := lenN (ev_data pe) in
      exists (nu : nat) (hi : N) (short : bool) (z : N),
        let lo' := lo + N.of_nat nu in
        (* the file set *)
        lo' <= hi /\ w_file w <= hi /\ hi <= w_file (s_wr st') /\ hi <= U64_MAX /\
        nodup_keys img /\ dir_of img (nfiles lo' hi) /\ list_wal_numbers img = nfiles lo' hi /\
        (forall n, lo' <= n <= hi ->
           exists b, fs_get img (filename n) = Some (FFile b) /\
                     lenN b = if short && (n =? hi) then 0 else FB) /\
        (short = true -> w_file w < hi /\ nu = 0%nat) /\
        (* the stream *)
        ev_data pe = takeN j NEW /\ j <= lenN NEW /\
        stream_of (zext img hi) (nfiles lo' hi) =
          dropN ((lo' - gh_base G) * FB)
                (T ++ zerosN (c0 - lenN T) ++ takeN j NEW ++ zerosN z) /\
        c0 + j + z = (hi + 1 - gh_base G) * FB /\
        (* unlinks come after the flush *)
        (nu <> 0%nat -> j = lenN NEW).
Proof.
  intros HI Hp0 Hpol Hop Hbound Hstep Hno w fs0 lo T c0 NEW.
  subst w fs0 lo T c0 NEW. set (w := s_wr st) in *.
  assert (HP : PInv P w G) by apply HI.
  destruct (pinv_step_call_trace st G a o tick st' out HP Hp0 Hpol Hbound Hstep Hno)
    as (evs & Hev & Hfs & Hct & _). cbn zeta in *. fold w in Hev, Hfs, Hct.
  exists evs. split; [exact Hev|]. split; [exact Hfs|]. split; [exact Hct|].
  (* the final file number fits in a u64 *)
  destruct (inv_step P HBS_lo HBS_hi HNB Hcrc HGC st G o tick st' out HI Hop Hbound Hstep Hno)
    as (G' & HI' & _).
  destruct (Inv_winv P st' G' HI') as ((_ & _ & _ & _ & Hu' & _) & _ & _).
  destruct (pinv_setup w G HP) as (Hlb & Ebuf & HS & Hposn & Hn & Hn1). cbn zeta in *.
  pose proof HP as (Hw & _ & Hnd & Hbase & Hc1 & Hc2 & _). cbn zeta in Hc1, Hc2.
  pose proof Hw as (_ & _ & Hoff & _ & Hu & _).
  destruct (pinv_dir w G HP Hp0) as (Hlo & Efiles & Hfull0 & Hgood & Hdir0 & ES0). cbn zeta in *.
  set (fs0 := c_fs (w_ctx w)) in *. set (lo := wlo w) in *. set (f0 := w_file w) in *.
  assert (Epos : (f0 - lo) * FB + w_off w = wpos P w).
  { unfold wpos. f_equal. f_equal. lia. }
  intros cut k. cbn zeta.
  set (pe := crash_events evs cut k).
  pose proof (crash_events_cpre evs cut k) as Hc. fold pe in Hc.
  destruct (cpre_data_take _ _ Hc) as (Hdata & Hj).
  rewrite (call_trace_data _ _ _ _ _ _ _ Hct) in Hdata, Hj.
  destruct (call_trace_img _ _ _ _ _ _ _ Hct pe fs0 U64_MAX Hc Hgood Hlo Hu' (N.le_refl _))
    as (imgW & fc & short & mu & Hok' & Hfc & Hmu & Hfold & Hfullj).
  pose proof (img_ok_len _ _ _ _ _ _ _ Hok' (Hfull0 f0 ltac:(lia)) Hoff ltac:(lia)) as Hlen.
  destruct (assemble fs0 lo f0 (w_off w) imgW (ev_data pe) fc short mu Hlo ltac:(lia) Hfull0 Hdir0
              Hok' Hmu) as (Hdir' & Hlen' & Hstr').
  pose proof Hok' as (Hle' & _ & _ & Hshort' & _).
  set (j := lenN (ev_data pe)) in *.
  exists mu, fc, short,
    (lenN (w_files w) * FB + (fc - f0) * FB - wpos P w - j).
  rewrite Hfold.
  assert (Hndi : nodup_keys (remove_files imgW (iota lo mu))).
  { rewrite <- Hfold. apply fold_nodup. exact Hnd. }
  split; [exact Hmu|]. split; [exact Hle'|]. split; [exact Hfc|]. split; [lia|].
  split; [exact Hndi|].
  split; [exact Hdir'|]. split; [apply dir_listing; [exact Hndi|exact Hdir'|exact Hmu|lia]|].
  split; [exact Hlen'|].
  split.
  { intros Hs. split; [now apply Hshort'|].
    destruct mu as [|mu']; [reflexivity|].
    destruct (Hfullj ltac:(discriminate)) as (_ & E). congruence. }
  split; [exact Hdata|]. split; [exact Hj|].
  assert (Hbound' : wpos P w + j <= lenN (w_files w) * FB + (fc - f0) * FB).
  { rewrite <- Epos. replace (lenN (w_files w)) with (f0 - lo + 1) by lia. lia. }
  split.
  { rewrite Hstr', ES0, Epos, HS. rewrite <- Hdata.
    replace (lo + N.of_nat mu - gh_base G) with ((lo - gh_base G) + N.of_nat mu) by lia.
    rewrite N.mul_add_distr_r.
    apply stream_to_ghost; try assumption; try reflexivity. }
  split.
  { unfold call_cursor. fold w. fold lo.
    replace (fc + 1 - gh_base G) with ((lo - gh_base G) + lenN (w_files w) + (fc - f0)) by lia.
    lia. }
  intros Hnu. destruct (Hfullj Hnu) as (E & _). unfold j. now rewrite E.
Qed.

Lemma crash_events_none evs : crash_events evs 0 0 = [].
Proof. destruct evs as [|e r]; [reflexivity|]. now rewrite crash_events_cons0. Qed.

Lemma crash_events_all evs : crash_events evs (lenN evs) 0 = evs.
Proof. unfold crash_events. rewrite takeN_all by lia. cbn. apply app_nil_r. Qed.

Theorem img_zero evs fs0 : fold_left apply_event (crash_events evs 0 0) fs0 = fs0.
Proof. now rewrite crash_events_none. Qed.

Theorem img_full st G a o tick st' out :
  Inv P st G -> w_pending (s_wr st) = [] -> s_pol st = PAlways a ->
  stream_bound P G (map snd (step_log P st o)) ->
  step P st o tick = (st', out) -> (forall e, out <> OutIo e) ->
  exists evs,
    c_ev (w_ctx (s_wr st')) = rev evs ++ c_ev (w_ctx (s_wr st)) /\
    fold_left apply_event (crash_events evs (lenN evs) 0) (c_fs (w_ctx (s_wr st))) =
      c_fs (w_ctx (s_wr st')) /\
    c_fs (w_ctx (s_wr st')) = vfs (s_wr st').
Proof.
  intros HI Hp0 Hpol Hbound Hstep Hno.
  destruct (step_call_trace st G a o tick st' out HI Hp0 Hpol Hbound Hstep Hno)
    as (evs & Hev & Hfs & _ & Hp'). cbn zeta in *.
  exists evs. split; [exact Hev|]. split; [now rewrite crash_events_all|].
  symmetry. now apply vfs_nil.
Qed.

End Trace.

(* the GC of a call can unlink files created by the same call *)
Definition PX : params := mkParams 16 2 (fun _ _ => 5) 0 false false false.
Definition long_name : bytes := List.repeat x61 40.

(* (current file before the delete, current file after it, the files it unlinked) *)
Definition unlink_created : option (N * N * list N) :=
  match open PX [] None (PAlways true) [] with
  | OpenOk st0 =>
      let '(st1, _) := step PX st0 (OCreate long_name) false in
      let '(st1d, _) := drain_state st1 in
      let '(st2, _) := step PX st1d (ODelete long_name []) false in
      Some (w_file (s_wr st1), w_file (s_wr st2),
            flat_map (fun e => match e with
                               | EvUnlink n => match filename_to_position n with
                                               | Some k => [k] | None => [] end
                               | _ => [] end) (rev (c_ev (w_ctx (s_wr st2)))))
  | _ => None
  end.

Example unlink_created_example : unlink_created = Some (2, 5, [0; 1; 2; 3; 4]).
Proof. vm_compute. reflexivity. Qed.

Print Assumptions step_call_trace.
Print Assumptions crash_image_shape.
Print Assumptions crash_data_mono.
Print Assumptions img_zero.
Print Assumptions img_full.
