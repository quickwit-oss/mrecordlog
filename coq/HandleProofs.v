(* HandleProofs.v — the file handles held by the in-memory records cover the WAL entries that
   appended them (at the level of queues and replay).

   Each retained record has a ghost "attribution": the file number passed to append_record
   when it was appended (the writer's current file at a live call, the reader's current file
   at replay).  The implementation keeps a handle (m_file = Some f) only in the LAST record of
   a run of records appended with the same file; the invariant `handles_ok` says that every
   record's attribution file is held by that record or a later one of the same queue.
   It is preserved by append_record / append_all / truncate_head / ack_position, hence by
   apply_entry and by any replay; the attribution of a record tagged i by ReplaySpec.t_replay is
   the file of the i-th entry of the replayed list; a file that no record references
   (qs_ref f = false, the GC's criterion) is the attribution of no retained record. *)
From Coq Require Import Lia ZArith ZifyN ZifyNat ZifyBool List Sorted.
From MRL Require Import Bytes BytesProofs Params Record Mem Spec Log SpecRefine RecordProofs
                        GhostLog ReplaySpec.


Lemma opt_N_eqb_true o f : opt_N_eqb o f = true <-> o = Some f.
Proof.
  destruct o as [x|]; cbn [opt_N_eqb].
  - split; intros H.
    + apply N.eqb_eq in H. now subst.
    + inversion H; subst. apply N.eqb_refl.
  - split; discriminate.
Qed.

Lemma metas_ref_cons f m r : metas_ref f (m :: r) = opt_N_eqb (m_file m) f || metas_ref f r.
Proof. reflexivity. Qed.

Lemma metas_ref_nil f : metas_ref f [] = false.
Proof. reflexivity. Qed.

Lemma metas_ref_head f m r : m_file m = Some f -> metas_ref f (m :: r) = true.
Proof. intros H. rewrite metas_ref_cons. apply opt_N_eqb_true in H. now rewrite H. Qed.

Lemma metas_ref_app f a b : metas_ref f (a ++ b) = metas_ref f a || metas_ref f b.
Proof. unfold metas_ref. apply existsb_app. Qed.

Lemma metas_ref_true_iff f ms :
  metas_ref f ms = true <-> exists m, In m ms /\ m_file m = Some f.
Proof.
  unfold metas_ref. rewrite existsb_exists. split; intros (m & Hin & H); exists m; split;
    try exact Hin; now apply opt_N_eqb_true.
Qed.

Lemma metas_ref_map_rebase f off ms : metas_ref f (map (rebase off) ms) = metas_ref f ms.
Proof.
  induction ms as [|m r IH]; [reflexivity|].
  cbn [map]. rewrite !metas_ref_cons, IH. reflexivity.
Qed.

Lemma qs_ref_intro f qs q m :
  qs_get qs q = Some m -> metas_ref f (q_metas m) = true -> qs_ref f qs = true.
Proof.
  intros E H. unfold qs_ref. apply existsb_exists. exists (q, m). split; [|exact H].
  now apply qs_get_In_eq.
Qed.

Lemma dropN_map {A B} (f : A -> B) k l : dropN k (map f l) = map f (dropN k l).
Proof. rewrite !dropN_skipn. apply skipn_map. Qed.

Lemma lenN_eq_length {A B} (a : list A) (b : list B) : lenN a = lenN b <-> length a = length b.
Proof. rewrite !lenN_length. lia. Qed.

Lemma Forall_dropN {A} (P : A -> Prop) k l : Forall P l -> Forall P (dropN k l).
Proof.
  intros H. rewrite <- (takeN_dropN k l) in H. apply Forall_app in H. exact (proj2 H).
Qed.

Lemma map_repeat_eq {A B} (f : A -> B) a n : map f (repeat a n) = repeat (f a) n.
Proof. induction n as [|n IH]; cbn [repeat map]; [reflexivity|now rewrite IH]. Qed.

Lemma Forall_repeat {A} (P : A -> Prop) a n : P a -> Forall P (repeat a n).
Proof. intros H. induction n as [|n IH]; cbn [repeat]; constructor; assumption. Qed.

(* attrs: one attribution file per retained record, in queue order.  The j-th record's file is
   referenced by a handle held at index j or later. *)
Fixpoint handles_ok (attrs : list N) (ms : list meta) : Prop :=
  match attrs, ms with
  | [], [] => True
  | f :: ar, m :: mr => metas_ref f (m :: mr) = true /\ handles_ok ar mr
  | _, _ => False
  end.

Lemma handles_ok_nil : handles_ok [] [].
Proof. exact I. Qed.

Lemma handles_ok_cons f ar m mr :
  handles_ok (f :: ar) (m :: mr) <-> metas_ref f (m :: mr) = true /\ handles_ok ar mr.
Proof. reflexivity. Qed.

Lemma handles_ok_length : forall attrs ms, handles_ok attrs ms -> length attrs = length ms.
Proof.
  induction attrs as [|f ar IH]; intros [|m mr] H; cbn [handles_ok] in H; try contradiction.
  - reflexivity.
  - cbn [length]. f_equal. apply IH. exact (proj2 H).
Qed.

Lemma handles_ok_lenN attrs ms : handles_ok attrs ms -> lenN attrs = lenN ms.
Proof. intros H. apply lenN_eq_length. now apply handles_ok_length. Qed.

Lemma handles_ok_nil_l ms : handles_ok [] ms -> ms = [].
Proof. destruct ms; [reflexivity|contradiction]. Qed.

Lemma handles_ok_nil_r attrs : handles_ok attrs [] -> attrs = [].
Proof. destruct attrs; [reflexivity|contradiction]. Qed.

(* the meaning of the recursive definition: equal lengths, and for every index j a handle on
   the j-th attribution at some index j' >= j *)
Theorem handles_ok_spec attrs ms :
  handles_ok attrs ms <->
  length attrs = length ms /\
  forall j, (j < length attrs)%nat ->
    exists j', (j <= j' < length ms)%nat /\
               m_file (nth j' ms (mkMeta 0 None 0)) = Some (nth j attrs 0).
Proof.
  revert ms; induction attrs as [|f ar IH]; intros [|m mr]; cbn [handles_ok length].
  - split; [intros _; split; [reflexivity|intros j Hj; lia]|trivial].
  - split; [contradiction|intros (H & _); discriminate].
  - split; [contradiction|intros (H & _); discriminate].
  - rewrite IH. split.
    + intros (Href & Hlen & Hall). split; [lia|]. intros [|j] Hj.
      * apply metas_ref_true_iff in Href. destruct Href as (m0 & Hin & Hf).
        destruct (In_nth _ _ (mkMeta 0 None 0) Hin) as (j' & Hj' & E).
        exists j'. split; [cbn [length] in Hj'; lia|]. rewrite E. exact Hf.
      * destruct (Hall j ltac:(lia)) as (j' & Hj' & E). exists (S j'). split; [lia|exact E].
    + intros (Hlen & Hall). split; [|split; [lia|]].
      * destruct (Hall 0%nat ltac:(lia)) as (j' & Hj' & E). apply metas_ref_true_iff.
        exists (nth j' (m :: mr) (mkMeta 0 None 0)). split; [|exact E].
        apply nth_In. cbn [length]. lia.
      * intros j Hj. destruct (Hall (S j) ltac:(lia)) as ([|j'] & Hj' & E); [lia|].
        exists j'. split; [lia|exact E].
Qed.

(* the key consequence: every attribution file is referenced by the queue *)
Lemma handles_ok_ref_metas : forall attrs ms f,
  handles_ok attrs ms -> In f attrs -> metas_ref f ms = true.
Proof.
  induction attrs as [|g ar IH]; intros [|m mr] f H Hin; cbn [handles_ok] in H;
    try contradiction.
  destruct H as (H1 & H2). destruct Hin as [<-|Hin]; [exact H1|].
  rewrite metas_ref_cons, (IH _ _ H2 Hin). apply orb_true_r.
Qed.

Lemma handles_ok_ref attrs q f :
  handles_ok attrs (q_metas q) -> In f attrs -> metas_ref f (q_metas q) = true.
Proof. apply handles_ok_ref_metas. Qed.

(* pushing a record that holds its own file *)

Lemma handles_ok_snoc : forall attrs ms f m,
  handles_ok attrs ms -> m_file m = Some f -> handles_ok (attrs ++ [f]) (ms ++ [m]).
Proof.
  induction attrs as [|g ar IH]; intros [|m0 mr] f m H Hm; cbn [handles_ok] in H;
    try contradiction; cbn [app].
  - cbn [handles_ok]. split; [|exact I]. now apply metas_ref_head.
  - destruct H as (H1 & H2). apply handles_ok_cons. split; [|now apply IH].
    change (m0 :: mr ++ [m]) with ((m0 :: mr) ++ [m]). rewrite metas_ref_app, H1. reflexivity.
Qed.

(* the subtle case: the previous last handle (on the same file) is taken *)

(* whatever was referenced before is still referenced once the new record is pushed: only a
   handle on `file` was taken, and the new record holds `file` *)
Lemma metas_ref_take_last g file new : forall ms,
  (forall ml, last_opt ms = Some ml -> m_file ml = Some file) ->
  m_file new = Some file ->
  metas_ref g ms = true -> metas_ref g (take_last_file ms ++ [new]) = true.
Proof.
  intros ms Hlast Hnew. induction ms as [|m r IH]; intros Href; [discriminate|].
  rewrite take_last_file_cons. destruct r as [|m' r'].
  - rewrite metas_ref_cons, metas_ref_nil, orb_false_r in Href. apply opt_N_eqb_true in Href.
    specialize (Hlast m eq_refl). rewrite Href in Hlast. inversion Hlast; subst g.
    cbn [app]. rewrite metas_ref_cons, (metas_ref_head _ _ _ Hnew). apply orb_true_r.
  - cbn [app]. rewrite metas_ref_cons in *.
    destruct (opt_N_eqb (m_file m) g); [reflexivity|]. cbn [orb] in *.
    apply IH; [|exact Href]. intros ml Hl. apply Hlast. now rewrite last_opt_cons, Hl.
Qed.

Lemma handles_ok_take_snoc file new : forall attrs ms,
  (forall ml, last_opt ms = Some ml -> m_file ml = Some file) ->
  m_file new = Some file ->
  handles_ok attrs ms -> handles_ok (attrs ++ [file]) (take_last_file ms ++ [new]).
Proof.
  intros attrs ms Hlast Hnew. revert ms Hlast.
  induction attrs as [|g ar IH]; intros [|m mr] Hlast H; cbn [handles_ok] in H;
    try contradiction.
  - cbn [take_last_file app handles_ok]. split; [|exact I]. now apply metas_ref_head.
  - destruct H as (H1 & H2).
    pose proof (metas_ref_take_last g file new (m :: mr) Hlast Hnew H1) as Hcov.
    (* below the head, the handle is taken from mr just as from m :: mr *)
    assert (Ex : exists x, take_last_file (m :: mr) = x :: take_last_file mr).
    { rewrite take_last_file_cons. destruct mr; eexists; reflexivity. }
    destruct Ex as (x & Ex). rewrite Ex in *. cbn [app] in *.
    apply handles_ok_cons. split; [exact Hcov|].
    apply IH; [|exact H2]. intros ml Hl. apply Hlast. now rewrite last_opt_cons, Hl.
Qed.

(* append_record: the new record is attributed to `file` *)
Theorem append_record_handles q file target payload q' attrs :
  append_record q file target payload = Some q' ->
  handles_ok attrs (q_metas q) ->
  handles_ok (attrs ++ [file]) (q_metas q').
Proof.
  intros H Hok. apply append_record_some in H. destruct H as (_ & ->). cbn [q_metas].
  unfold metas_before. destruct (last_opt (q_metas q)) as [ml|] eqn:El.
  - destruct (opt_N_eqb (m_file ml) file) eqn:Ef.
    + apply handles_ok_take_snoc; [|reflexivity|exact Hok].
      intros ml' Hl. rewrite El in Hl. inversion Hl; subst ml'. now apply opt_N_eqb_true.
    + apply handles_ok_snoc; [exact Hok|reflexivity].
  - apply handles_ok_snoc; [exact Hok|reflexivity].
Qed.

Theorem append_all_handles : forall recs q file q' attrs,
  append_all q file recs = Some q' ->
  handles_ok attrs (q_metas q) ->
  handles_ok (attrs ++ repeat file (length recs)) (q_metas q').
Proof.
  induction recs as [|[p x] r IH]; intros q file q' attrs H Hok; cbn [append_all] in H.
  - inversion H; subst. cbn [length repeat]. now rewrite app_nil_r.
  - destruct (append_record q file p x) as [q1|] eqn:E1; [|discriminate].
    cbn [length repeat]. change (file :: repeat file (length r)) with ([file] ++ repeat file (length r)).
    rewrite app_assoc. eapply IH; [exact H|]. eapply append_record_handles; eassumption.
Qed.

(* truncate_head keeps a suffix *)

Lemma handles_ok_dropN : forall attrs ms k,
  handles_ok attrs ms -> handles_ok (dropN k attrs) (dropN k ms).
Proof.
  induction attrs as [|f ar IH]; intros [|m mr] k H; cbn [handles_ok] in H; try contradiction.
  - exact I.
  - destruct (N.eqb_spec k 0) as [->|Hk].
    + rewrite !dropN_0. exact H.
    + replace k with (1 + (k - 1)) by lia. rewrite !dropN_cons_succ. apply IH. exact (proj2 H).
Qed.

Lemma handles_ok_map_rebase off : forall attrs ms,
  handles_ok attrs ms -> handles_ok attrs (map (rebase off) ms).
Proof.
  induction attrs as [|f ar IH]; intros [|m mr] H; cbn [handles_ok] in H; try contradiction.
  - exact I.
  - destruct H as (H1 & H2). cbn [map]. apply handles_ok_cons. split; [|now apply IH].
    change (rebase off m :: map (rebase off) mr) with (map (rebase off) (m :: mr)).
    now rewrite metas_ref_map_rebase.
Qed.

(* truncate_head: the k evicted records lose their attributions *)
Theorem truncate_head_handles q p q' k attrs :
  truncate_head q p = (q', k) ->
  handles_ok attrs (q_metas q) ->
  handles_ok (dropN k attrs) (q_metas q').
Proof.
  unfold truncate_head. intros H Hok.
  destruct (p <? q_start q).
  - inversion H; subst. now rewrite dropN_0.
  - destruct (next_position q <=? p + 1).
    + inversion H; subst. cbn [q_metas].
      rewrite dropN_all by (rewrite (handles_ok_lenN _ _ Hok); lia). exact I.
    + inversion H; subst. cbn [q_metas]. apply handles_ok_map_rebase.
      now apply handles_ok_dropN.
Qed.

Lemma handles_ok_default : handles_ok [] (q_metas mq_default).
Proof. exact I. Qed.

Lemma handles_ok_with_next n : handles_ok [] (q_metas (mq_with_next n)).
Proof. exact I. Qed.

Lemma handles_ok_empty attrs q : handles_ok attrs (q_metas q) -> mq_is_empty q = true -> attrs = [].
Proof.
  unfold mq_is_empty. intros H He. apply isnil_true in He. rewrite He in H.
  now apply handles_ok_nil_r.
Qed.

(* A ghost map from queue names to one ghost value per retained record, in queue order.
   It is polymorphic in the ghost value so that the same replay can carry the attribution
   file (A = N), the index of the entry in the log (A = nat, the tags of ReplaySpec) or both
   (A = nat * N). *)
Section Ghost.
Context {A : Type}.

Definition gmap := list (bytes * list A).

Fixpoint g_get (m : gmap) (q : bytes) : option (list A) :=
  match m with
  | [] => None
  | (n, v) :: r => if bytes_eqb n q then Some v else g_get r q
  end.
Fixpoint g_remove (m : gmap) (q : bytes) : gmap :=
  match m with
  | [] => []
  | (n, v) :: r => if bytes_eqb n q then g_remove r q else (n, v) :: g_remove r q
  end.
Fixpoint g_put (m : gmap) (q : bytes) (v : list A) : gmap :=
  match m with
  | [] => [(q, v)]
  | (n, v0) :: r => if bytes_eqb n q then (n, v) :: r else (n, v0) :: g_put r q v
  end.

Lemma g_get_put_same m q v : g_get (g_put m q v) q = Some v.
Proof. exact (assoc_get_put_same m q v). Qed.

Lemma g_get_put_other m q v q' : q <> q' -> g_get (g_put m q v) q' = g_get m q'.
Proof. exact (assoc_get_put_other m q v q'). Qed.

Lemma g_get_remove_other m q q' : q <> q' -> g_get (g_remove m q) q' = g_get m q'.
Proof. exact (assoc_get_remove_other m q q'). Qed.

Lemma g_get_remove_same m q : g_get (g_remove m q) q = None.
Proof. exact (assoc_get_remove_same m q). Qed.

(* the ghost step, mirroring Log.apply_entry (qs = the queues BEFORE the entry, a = the ghost
   value of the entry):
   - EAppend adds one copy of a per appended record (creating the queue if absent),
   - ETruncate drops as many leading values as truncate_head evicts records,
   - EPosition leaves an empty queue (ack_position either resets the queue or finds it empty),
   - EDelete removes the queue. *)
Definition g_apply (am : gmap) (qs : queues) (a : A) (e : entry) : gmap :=
  match e with
  | EAppend q pos recs =>
      let old := match g_get am q with Some l => l | None => [] end in
      g_put am q (old ++ repeat a (length recs))
  | ETruncate q p =>
      match g_get am q, qs_get qs q with
      | Some l, Some mqv => g_put am q (dropN (snd (truncate_head mqv p)) l)
      | _, _ => am
      end
  | EPosition q p => g_put am q []
  | EDelete q _ => g_remove am q
  end.

(* the effect on the queue the entry names, and only on it *)
Definition gq_apply (v : option (list A)) (mqv : option mq) (a : A) (e : entry)
  : option (list A) :=
  match e with
  | EAppend _ _ recs =>
      Some (match v with Some l => l | None => [] end ++ repeat a (length recs))
  | ETruncate _ p =>
      match v, mqv with
      | Some l, Some m => Some (dropN (snd (truncate_head m p)) l)
      | _, _ => v
      end
  | EPosition _ _ => Some []
  | EDelete _ _ => None
  end.

Lemma g_apply_spec am qs a e :
  g_get (g_apply am qs a e) (entry_queue e) =
    gq_apply (g_get am (entry_queue e)) (qs_get qs (entry_queue e)) a e /\
  (forall q', entry_queue e <> q' -> g_get (g_apply am qs a e) q' = g_get am q').
Proof.
  destruct e as [q pos recs|q p|q p|q p]; cbn [g_apply gq_apply entry_queue].
  - rewrite g_get_put_same. split; [reflexivity|]. intros q' Hne. now apply g_get_put_other.
  - destruct (g_get am q) as [l|] eqn:E.
    + destruct (qs_get qs q) as [m|].
      * rewrite g_get_put_same. split; [reflexivity|]. intros q' Hne. now apply g_get_put_other.
      * rewrite E. split; reflexivity.
    + rewrite E. split; reflexivity.
  - rewrite g_get_put_same. split; [reflexivity|]. intros q' Hne. now apply g_get_put_other.
  - rewrite g_get_remove_same. split; [reflexivity|]. intros q' Hne. now apply g_get_remove_other.
Qed.

(* every ghost value of the map satisfies a property *)
Definition g_all (Pr : A -> Prop) (am : gmap) : Prop :=
  forall q l, g_get am q = Some l -> Forall Pr l.

Lemma g_all_nil Pr : g_all Pr [].
Proof. intros q l H. discriminate. Qed.

Lemma g_all_weaken (Pr Pr' : A -> Prop) am :
  (forall a, Pr a -> Pr' a) -> g_all Pr am -> g_all Pr' am.
Proof. intros Hi H q l E. eapply Forall_impl; [exact Hi|]. eapply H; exact E. Qed.

Lemma g_apply_all Pr am qs a e : g_all Pr am -> Pr a -> g_all Pr (g_apply am qs a e).
Proof.
  intros Hall Ha q l E. destruct (g_apply_spec am qs a e) as (H1 & H2).
  destruct (bytes_eqb (entry_queue e) q) eqn:Eq.
  - apply bytes_eqb_eq in Eq. subst q. rewrite H1 in E. clear H1 H2.
    pose proof (Hall (entry_queue e)) as Hq.
    destruct e as [q pos recs|q p|q p|q p]; cbn [gq_apply entry_queue] in *.
    + inversion E; subst l. apply Forall_app. split; [|now apply Forall_repeat].
      destruct (g_get am q) as [l0|]; [now apply Hq|constructor].
    + destruct (g_get am q) as [l0|]; [|discriminate].
      destruct (qs_get qs q) as [m|]; inversion E; subst l.
      * apply Forall_dropN. now apply Hq.
      * now apply Hq.
    + inversion E; subst l. constructor.
    + discriminate.
  - apply bytes_eqb_neq in Eq. rewrite (H2 q Eq) in E. eapply Hall; exact E.
Qed.

(* the ghost replay: apply_entry with the ghost threaded along *)

(* mk i f = the ghost value given to the entry of index i read from / written in file f *)
Fixpoint g_replay (mk : nat -> N -> A) (am : gmap) (qs : queues) (i : nat) (fes : glog)
  : option (gmap * queues) :=
  match fes with
  | [] => Some (am, qs)
  | (f, e) :: r =>
      match apply_entry qs f e with
      | Some qs' => g_replay mk (g_apply am qs (mk i f) e) qs' (S i) r
      | None => None
      end
  end.

Lemma g_replay_queues mk : forall fes am qs i,
  match replay_entries qs fes with
  | Some qs' => exists am', g_replay mk am qs i fes = Some (am', qs')
  | None => g_replay mk am qs i fes = None
  end.
Proof.
  induction fes as [|[f e] r IH]; intros am qs i; cbn [replay_entries g_replay].
  - exists am. reflexivity.
  - destruct (apply_entry qs f e) as [qs1|]; [apply IH|reflexivity].
Qed.

Lemma g_replay_some mk fes am qs i am' qs' :
  g_replay mk am qs i fes = Some (am', qs') -> replay_entries qs fes = Some qs'.
Proof.
  intros H. pose proof (g_replay_queues mk fes am qs i) as Hq.
  destruct (replay_entries qs fes) as [qs1|]; [|congruence].
  destruct Hq as (am1 & E). congruence.
Qed.

Lemma g_replay_app mk : forall a b am qs i,
  g_replay mk am qs i (a ++ b) =
  match g_replay mk am qs i a with
  | Some (am', qs') => g_replay mk am' qs' (i + length a) b
  | None => None
  end.
Proof.
  induction a as [|[f e] r IH]; intros b am qs i; cbn [app g_replay length].
  - now rewrite Nat.add_0_r.
  - destruct (apply_entry qs f e) as [qs1|]; [|reflexivity]. rewrite IH.
    replace (S i + length r)%nat with (i + S (length r))%nat by lia. reflexivity.
Qed.

End Ghost.

Arguments gmap A : clear implicits.

(* ReplaySpec.apply_entries and GhostLog.replay_entries are the same function *)
Lemma apply_entries_replay_entries : forall fes qs, apply_entries qs fes = replay_entries qs fes.
Proof.
  induction fes as [|[f e] r IH]; intros qs; cbn [apply_entries replay_entries]; [reflexivity|].
  destruct (apply_entry qs f e); [apply IH|reflexivity].
Qed.

(* the effect of an entry on the queue it names; the outer None = Corruption *)
Definition mq_apply (v : option mq) (file : N) (e : entry) : option (option mq) :=
  match e with
  | EAppend _ pos recs =>
      match append_all (match v with Some m => m | None => mq_with_next pos end) file recs with
      | Some m' => Some (Some m')
      | None => None
      end
  | ETruncate _ p =>
      Some (match v with Some m => Some (fst (truncate_head m p)) | None => None end)
  | EPosition _ p =>
      Some (Some (match v with
                  | Some m => if negb (mq_is_empty m) || negb (next_position m =? p)
                              then mq_with_next p else m
                  | None => mq_with_next p
                  end))
  | EDelete _ _ => Some None
  end.

Lemma apply_entry_spec qs file e :
  match apply_entry qs file e with
  | Some qs' =>
      mq_apply (qs_get qs (entry_queue e)) file e = Some (qs_get qs' (entry_queue e)) /\
      (forall q', entry_queue e <> q' -> qs_get qs' q' = qs_get qs q')
  | None => mq_apply (qs_get qs (entry_queue e)) file e = None
  end.
Proof.
  destruct e as [q pos recs|q p|q p|q p]; cbn [apply_entry mq_apply entry_queue].
  - rewrite qs_contains_get. destruct (qs_get qs q) as [m|] eqn:E.
    + rewrite E. destruct (append_all m file recs) as [m'|]; [|reflexivity].
      rewrite qs_get_put_same. split; [reflexivity|]. intros q' Hne. now apply qs_get_put_other.
    + unfold ack_position. rewrite E, qs_get_put_same.
      destruct (append_all (mq_with_next pos) file recs) as [m'|]; [|reflexivity].
      rewrite qs_get_put_same. split; [reflexivity|]. intros q' Hne.
      now rewrite !qs_get_put_other.
  - destruct (qs_get qs q) as [m|] eqn:E.
    + rewrite qs_get_put_same. split; [reflexivity|]. intros q' Hne. now apply qs_get_put_other.
    + rewrite E. split; reflexivity.
  - split; [|intros q' Hne; now apply qs_get_ack_other].
    unfold ack_position. destruct (qs_get qs q) as [m|] eqn:E.
    + destruct (negb (mq_is_empty m) || negb (next_position m =? p)).
      * now rewrite qs_get_put_same.
      * now rewrite E.
    + now rewrite qs_get_put_same.
  - rewrite qs_get_remove_same. split; [reflexivity|]. intros q' Hne.
    now apply qs_get_remove_other.
Qed.

Lemma apply_entry_some qs file e qs' :
  apply_entry qs file e = Some qs' ->
  mq_apply (qs_get qs (entry_queue e)) file e = Some (qs_get qs' (entry_queue e)) /\
  (forall q', entry_queue e <> q' -> qs_get qs' q' = qs_get qs q').
Proof. intros H. pose proof (apply_entry_spec qs file e) as Hs. now rewrite H in Hs. Qed.

Section HandleInv.
Context {A : Type}.
Variable proj : A -> N.     (* the attribution file carried by a ghost value *)

Definition hq_inv (v : option (list A)) (mqv : option mq) : Prop :=
  match v, mqv with
  | Some l, Some m => handles_ok (map proj l) (q_metas m)
  | None, None => True
  | _, _ => False
  end.

(* the same queue names on both sides; for every queue one ghost value per retained record,
   and the file of every record is held by that record or a later one *)
Definition ginv (am : gmap A) (qs : queues) : Prop :=
  forall q, hq_inv (g_get am q) (qs_get qs q).

Lemma ginv_nil : ginv [] [].
Proof. intros q. exact I. Qed.

Lemma ginv_get am qs q m :
  ginv am qs -> qs_get qs q = Some m ->
  exists l, g_get am q = Some l /\ handles_ok (map proj l) (q_metas m) /\
            lenN l = lenN (records_of (q_buf m) (q_metas m)).
Proof.
  intros Hi E. specialize (Hi q). rewrite E in Hi. unfold hq_inv in Hi.
  destruct (g_get am q) as [l|]; [|contradiction]. exists l. split; [reflexivity|].
  split; [exact Hi|]. rewrite lenN_records_of, <- (handles_ok_lenN _ _ Hi). now rewrite lenN_map.
Qed.

Lemma ginv_get_ghost am qs q l :
  ginv am qs -> g_get am q = Some l ->
  exists m, qs_get qs q = Some m /\ handles_ok (map proj l) (q_metas m).
Proof.
  intros Hi E. specialize (Hi q). rewrite E in Hi. unfold hq_inv in Hi.
  destruct (qs_get qs q) as [m|]; [|contradiction]. exists m. split; [reflexivity|exact Hi].
Qed.

Lemma hq_step v mqv a e mqv' :
  hq_inv v mqv -> mq_apply mqv (proj a) e = Some mqv' -> hq_inv (gq_apply v mqv a e) mqv'.
Proof.
  intros Hi H. destruct e as [q pos recs|q p|q p|q p]; cbn [mq_apply gq_apply] in *.
  - (* EAppend *)
    destruct (append_all _ (proj a) recs) as [m'|] eqn:Ea; [|discriminate].
    inversion H; subst mqv'. cbn [hq_inv]. rewrite map_app, map_repeat_eq.
    eapply append_all_handles; [exact Ea|].
    destruct v as [l|], mqv as [m|]; cbn [hq_inv] in Hi; try contradiction; [exact Hi|exact I].
  - (* ETruncate *)
    inversion H; subst mqv'.
    destruct v as [l|], mqv as [m|]; cbn [hq_inv] in *; try contradiction; [|exact I].
    rewrite <- dropN_map. eapply truncate_head_handles; [|exact Hi]. apply surjective_pairing.
  - (* EPosition *)
    inversion H; subst mqv'. cbn [hq_inv map].
    destruct v as [l|], mqv as [m|]; cbn [hq_inv] in Hi; try contradiction; [|exact I].
    destruct (mq_is_empty m) eqn:Ee; cbn [negb orb]; [|exact I].
    destruct (negb (next_position m =? p)); [exact I|].
    unfold mq_is_empty in Ee. apply isnil_true in Ee. rewrite Ee. exact I.
  - (* EDelete *)
    inversion H; subst mqv'. exact I.
Qed.

(* one step, from any state satisfying the invariant *)
Theorem apply_entry_handles am qs a e qs' :
  ginv am qs -> apply_entry qs (proj a) e = Some qs' -> ginv (g_apply am qs a e) qs'.
Proof.
  intros Hi H. destruct (apply_entry_some _ _ _ _ H) as (H1 & H2).
  destruct (g_apply_spec am qs a e) as (G1 & G2).
  refine (pointwise_step hq_inv (g_get am) (g_get (g_apply am qs a e)) (qs_get qs) (qs_get qs')
            (entry_queue e) Hi _ G2 H2).
  rewrite G1. eapply hq_step; [apply Hi|exact H1].
Qed.

Theorem g_replay_handles mk :
  (forall i f, proj (mk i f) = f) ->
  forall fes am qs i am' qs',
  ginv am qs -> g_replay mk am qs i fes = Some (am', qs') -> ginv am' qs'.
Proof.
  intros Hmk. induction fes as [|[f e] r IH]; intros am qs i am' qs' Hi H; cbn [g_replay] in H.
  - inversion H; subst. exact Hi.
  - destruct (apply_entry qs f e) as [qs1|] eqn:E; [|discriminate].
    eapply IH; [|exact H]. apply apply_entry_handles; [exact Hi|]. now rewrite Hmk.
Qed.

(* the GC's criterion: an unreferenced file is the attribution of no retained record *)
Theorem unreferenced_file_has_no_record am qs f :
  ginv am qs -> qs_ref f qs = false ->
  forall q l, g_get am q = Some l -> ~ In f (map proj l).
Proof.
  intros Hi Href q l E Hin. destruct (ginv_get_ghost _ _ _ _ Hi E) as (m & Em & Hok).
  rewrite (qs_ref_intro f qs q m Em (handles_ok_ref_metas _ _ _ Hok Hin)) in Href. discriminate.
Qed.

(* every attribution is a referenced file *)
Corollary attribution_referenced am qs q l a :
  ginv am qs -> g_get am q = Some l -> In a l -> qs_ref (proj a) qs = true.
Proof.
  intros Hi E Hin. destruct (qs_ref (proj a) qs) eqn:Er; [reflexivity|exfalso].
  eapply unreferenced_file_has_no_record; eauto. now apply in_map.
Qed.

(* what holds of every ghost value whose file is referenced holds of every ghost value *)
Lemma g_all_referenced (Pr Pr' : A -> Prop) am qs :
  ginv am qs -> (forall a, Pr a -> qs_ref (proj a) qs = true -> Pr' a) ->
  g_all Pr am -> g_all Pr' am.
Proof.
  intros Hi Himp Hall q l E. specialize (Hall q l E). rewrite Forall_forall in *.
  intros a Ha. apply Himp; [now apply Hall|]. exact (attribution_referenced am qs q l a Hi E Ha).
Qed.

(* the GC deletes files that are unreferenced: no retained record is attributed to a deleted
   file; if the tracked files were dropped ++ kept, every attribution is in kept *)
Corollary gc_keeps_attributed_files am qs dropped kept :
  ginv am qs ->
  Forall (fun f => qs_ref f qs = false) dropped ->
  g_all (fun a => In (proj a) (dropped ++ kept)) am ->
  g_all (fun a => In (proj a) kept) am.
Proof.
  intros Hi Hd. apply (g_all_referenced _ _ am qs Hi). intros a Hin Hr.
  apply in_app_or in Hin. destruct Hin as [Hin|Hin]; [|exact Hin].
  rewrite Forall_forall in Hd. rewrite (Hd _ Hin) in Hr. discriminate.
Qed.

(* numeric form: the GC deletes a prefix lo0 .. lo-1 of the file numbers, all unreferenced;
   every retained record then has an attribution >= lo, the first kept file *)
Corollary gc_prefix_attr_ge am qs lo0 lo :
  ginv am qs ->
  (forall f, lo0 <= f < lo -> qs_ref f qs = false) ->
  g_all (fun a => lo0 <= proj a) am ->
  g_all (fun a => lo <= proj a) am.
Proof.
  intros Hi Hd. apply (g_all_referenced _ _ am qs Hi). intros a Hlo Hr.
  destruct (N.le_gt_cases lo (proj a)) as [Hle|Hgt]; [exact Hle|].
  rewrite (Hd (proj a)) in Hr by lia. discriminate.
Qed.

End HandleInv.

(* on sorted positions, filtering by position = dropping the idx_ge first records; stated on any
   list that projects (by snd) onto the records of the queue, e.g. ReplaySpec's tagged records *)
Lemma filter_idx_drop {T} buf p : forall ms lp lo len (old : list (T * (N * bytes))),
  metas_ok lp lo len ms -> map snd old = records_of buf ms ->
  filter (fun r => p <=? fst (snd r)) old = dropN (idx_ge p ms) old.
Proof.
  induction ms as [|m r IH]; intros lp lo len old Hok Hm.
  - cbn [records_of] in Hm. apply map_eq_nil in Hm. subst old. reflexivity.
  - rewrite records_of_cons in Hm. destruct old as [|x t]; [discriminate|].
    cbn [map] in Hm. inversion Hm as [[Hx Ht]].
    cbn [idx_ge]. destruct (N.ltb_spec (m_pos m) p) as [Hlt|Hge].
    + rewrite dropN_cons_succ. cbn [filter]. rewrite Hx. cbn [fst].
      destruct (N.leb_spec p (m_pos m)) as [Hc|_]; [lia|].
      cbn [metas_ok] in Hok. destruct Hok as (_ & _ & H3). eapply IH; [exact H3|exact Ht].
    + rewrite dropN_0. apply filter_all_true. intros y Hy.
      assert (Hok' : metas_ok (m_pos m) lo len (m :: r)).
      { cbn [metas_ok] in *. destruct Hok as (H1 & H2 & H3). repeat split; try assumption; lia. }
      assert (Hin : In (snd y) (records_of buf (m :: r))).
      { rewrite records_of_cons, <- Hx, <- Ht. change (In (snd y) (map snd (x :: t))).
        now apply in_map. }
      pose proof (records_pos_ge _ _ _ _ _ _ Hok' Hin). lia.
Qed.

Lemma truncate_head_filter_drop {T} (old : list (T * (N * bytes))) m p :
  mq_inv m -> map snd old = records_of (q_buf m) (q_metas m) ->
  filter (fun r => p <? fst (snd r)) old = dropN (snd (truncate_head m p)) old.
Proof.
  intros Hi Hm.
  assert (Hpos : forall x, In x old -> q_start m <= fst (snd x) < next_position m).
  { intros x Hx. apply (records_pos_lt_next m (snd x) Hi). rewrite <- Hm. now apply in_map. }
  unfold truncate_head. destruct (N.ltb_spec p (q_start m)) as [Hlt|Hge]; cbn [snd].
  - rewrite dropN_0. apply filter_all_true. intros x Hx. specialize (Hpos x Hx). lia.
  - destruct (N.leb_spec (next_position m) (p + 1)) as [Hle|Hgt]; cbn [snd].
    + rewrite dropN_all.
      * apply filter_all_false. intros x Hx. specialize (Hpos x Hx). lia.
      * rewrite <- (lenN_map snd old), Hm, lenN_records_of. lia.
    + destruct Hi as (Hok & _ & _).
      rewrite <- (filter_idx_drop (q_buf m) (p + 1) (q_metas m) _ _ _ old Hok Hm).
      apply filter_ext. intros a. lia.
Qed.

Lemma map_fst_tag_with i new : map fst (tag_with i new) = repeat i (length new).
Proof.
  unfold tag_with. induction new as [|x r IH]; cbn [map length repeat fst]; [reflexivity|].
  now rewrite IH.
Qed.

Section TagInv.
Context {A : Type}.
Variable tagp : A -> nat.    (* the entry index carried by a ghost value *)

Definition tq_inv (v : option (list A)) (tv : option tqueue) : Prop :=
  match v, tv with
  | Some l, Some (recs, _) => map tagp l = map fst recs
  | None, None => True
  | _, _ => False
  end.

(* same queue names, and per queue the ghost values carry the tags of the tagged records *)
Definition tinv (am : gmap A) (tm : tmap) : Prop := forall q, tq_inv (g_get am q) (t_get tm q).

Lemma tinv_nil : tinv [] [].
Proof. intros q. exact I. Qed.

(* the tagged queue and the model queue describe the same records *)
Definition same_q (tv : option tqueue) (mqv : option mq) : Prop :=
  match tv, mqv with
  | Some v, Some m => untag_q v = abs_q m /\ mq_inv m
  | None, None => True
  | _, _ => False
  end.

Lemma tq_step v tv mqv a i e tv' :
  tq_inv v tv -> same_q tv mqv -> tagp a = i ->
  q_apply tv i e = Some tv' -> tq_inv (gq_apply v mqv a e) tv'.
Proof.
  intros Hi Hs Ha H. destruct e as [q pos recs|q p|q p|q p]; cbn [q_apply gq_apply] in *.
  - (* EAppend *)
    set (w := match tv with Some v0 => v0 | None => ([], pos) end) in *.
    assert (Hold : map tagp (match v with Some l => l | None => [] end) = map fst (fst w)).
    { unfold w. destruct v as [l|], tv as [[old next]|]; cbn [tq_inv] in Hi; try contradiction;
        [exact Hi|reflexivity]. }
    clearbody w. destruct w as [old next].
    rewrite t_append_all_eq in H. destruct (chk_pos next recs) as [n|]; [|discriminate].
    inversion H; subst tv'. cbn [tq_inv fst] in *.
    rewrite !map_app, map_repeat_eq, map_fst_tag_with, Ha, Hold. reflexivity.
  - (* ETruncate *)
    destruct tv as [[rf n]|].
    + inversion H; subst tv'. destruct v as [l|]; cbn [tq_inv] in Hi; [|contradiction].
      destruct mqv as [m|]; cbn [same_q] in Hs; [|contradiction]. destruct Hs as (Hu & Him).
      unfold untag_q, abs_q in Hu. cbn [fst snd] in Hu. inversion Hu as [[Hr Hn]].
      unfold t_truncate. cbn [tq_inv].
      rewrite (truncate_head_filter_drop rf m p Him Hr), <- !dropN_map, Hi. reflexivity.
    + inversion H; subst tv'. destruct v as [l|]; cbn [tq_inv] in Hi; [contradiction|].
      exact I.
  - (* EPosition *)
    destruct tv as [[rf n]|]; [|inversion H; subst tv'; reflexivity].
    destruct (isnil rf) eqn:En; cbn [negb orb] in H.
    + apply isnil_true in En. subst rf.
      destruct (negb (n =? p)); inversion H; subst tv'; reflexivity.
    + inversion H; subst tv'. reflexivity.
  - (* EDelete *)
    inversion H; subst tv'. exact I.
Qed.

Lemma same_q_get tm qs q :
  qs_inv qs -> untag tm = abs_qs qs -> same_q (t_get tm q) (qs_get qs q).
Proof.
  intros Hi Hu. pose proof (untag_abs_get tm qs q Hu) as Hg. unfold same_q.
  destruct (t_get tm q) as [v|], (qs_get qs q) as [m|] eqn:E; try contradiction; [|exact I].
  split; [exact Hg|]. eapply qs_inv_get; eauto.
Qed.

Theorem t_apply_tags am qs tm a i e tm' :
  tinv am tm -> qs_inv qs -> untag tm = abs_qs qs -> tagp a = i ->
  t_apply tm i e = Some tm' -> tinv (g_apply am qs a e) tm'.
Proof.
  intros Hi Hq Hu Ha H. destruct (t_apply_some _ _ _ _ H) as (H1 & H2).
  destruct (g_apply_spec am qs a e) as (G1 & G2).
  refine (pointwise_step tq_inv (g_get am) (g_get (g_apply am qs a e)) (t_get tm) (t_get tm')
            (entry_queue e) Hi _ G2 H2).
  rewrite G1. eapply tq_step; [apply Hi|now apply same_q_get|exact Ha|exact H1].
Qed.

(* any number of steps: the ghost replay runs in lockstep with the tagged spec-level replay *)
Theorem g_replay_tags mk :
  (forall i f, tagp (mk i f) = i) ->
  forall fes am qs tm i am' qs',
  tinv am tm -> qs_inv qs -> untag tm = abs_qs qs ->
  g_replay mk am qs i fes = Some (am', qs') ->
  exists tm', t_replay tm i (map snd fes) = Some tm' /\ tinv am' tm' /\
              untag tm' = abs_qs qs' /\ qs_inv qs'.
Proof.
  intros Hmk. induction fes as [|[f e] r IH]; intros am qs tm i am' qs' Hi Hq Hu H;
    cbn [g_replay map snd t_replay] in *.
  - inversion H; subst. exists tm. split; [reflexivity|]. split; [exact Hi|]. split; assumption.
  - pose proof (apply_entry_refines qs f i e Hq tm Hu) as Hr.
    destruct (apply_entry qs f e) as [qs1|]; [|discriminate].
    destruct Hr as (tm1 & Ht & Hu1 & Hq1). rewrite Ht.
    eapply IH; [|exact Hq1|exact Hu1|exact H].
    eapply t_apply_tags; eauto.
Qed.

End TagInv.

Definition gmap_map {A B} (h : A -> B) (m : gmap A) : gmap B :=
  map (fun '(n, l) => (n, map h l)) m.

Section Natural.
Context {A B : Type}.
Variable h : A -> B.

Lemma gmap_map_get m q : g_get (gmap_map h m) q = option_map (map h) (g_get m q).
Proof.
  induction m as [|[n0 l0] r IH]; [reflexivity|].
  cbn [gmap_map map g_get]. fold (gmap_map h r). destruct (bytes_eqb n0 q); [reflexivity|exact IH].
Qed.

Lemma gmap_map_put m q v : gmap_map h (g_put m q v) = g_put (gmap_map h m) q (map h v).
Proof.
  induction m as [|[n0 l0] r IH]; [reflexivity|].
  cbn [gmap_map map g_put]. fold (gmap_map h r).
  destruct (bytes_eqb n0 q); cbn [map]; [reflexivity|].
  fold (gmap_map h (g_put r q v)). now rewrite IH.
Qed.

Lemma gmap_map_remove m q : gmap_map h (g_remove m q) = g_remove (gmap_map h m) q.
Proof.
  induction m as [|[n0 l0] r IH]; [reflexivity|].
  cbn [gmap_map map g_remove]. fold (gmap_map h r).
  destruct (bytes_eqb n0 q); cbn [map]; [exact IH|].
  fold (gmap_map h (g_remove r q)). now rewrite IH.
Qed.

Lemma g_apply_map am qs a e :
  gmap_map h (g_apply am qs a e) = g_apply (gmap_map h am) qs (h a) e.
Proof.
  destruct e as [q pos recs|q p|q p|q p]; cbn [g_apply].
  - rewrite gmap_map_put, gmap_map_get, map_app, map_repeat_eq.
    destruct (g_get am q); reflexivity.
  - rewrite gmap_map_get. destruct (g_get am q) as [l|]; cbn [option_map]; [|reflexivity].
    destruct (qs_get qs q) as [m|]; [|reflexivity].
    now rewrite gmap_map_put, dropN_map.
  - now rewrite gmap_map_put.
  - now rewrite gmap_map_remove.
Qed.

Lemma g_replay_map (mk : nat -> N -> A) (mk' : nat -> N -> B) :
  (forall i f, h (mk i f) = mk' i f) ->
  forall fes am qs i,
  g_replay mk' (gmap_map h am) qs i fes =
  match g_replay mk am qs i fes with
  | Some (am', qs') => Some (gmap_map h am', qs')
  | None => None
  end.
Proof.
  intros Hmk. induction fes as [|[f e] r IH]; intros am qs i; cbn [g_replay]; [reflexivity|].
  destruct (apply_entry qs f e) as [qs1|]; [|reflexivity].
  rewrite <- Hmk, <- g_apply_map. apply IH.
Qed.

End Natural.

(* queue name -> attribution file of each retained record, in order *)
Definition amap := gmap N.

(* a_apply am qs file e: the attributions after applying e (read from / written in `file`) to
   the queues qs *)
Definition a_apply (am : amap) (qs : queues) (file : N) (e : entry) : amap :=
  g_apply am qs file e.

Definition a_replay (am : amap) (qs : queues) (fes : glog) : option (amap * queues) :=
  g_replay (fun _ f => f) am qs 0 fes.

(* the invariant: per queue, one attribution per retained record, covered by the handles *)
Definition attr_inv (am : amap) (qs : queues) : Prop :=
  forall q, match g_get am q, qs_get qs q with
            | Some attrs, Some m => handles_ok attrs (q_metas m)
            | None, None => True
            | _, _ => False
            end.

Lemma attr_inv_ginv am qs : attr_inv am qs <-> ginv (fun f => f) am qs.
Proof.
  unfold attr_inv, ginv, hq_inv. split; intros H q; specialize (H q);
    destruct (g_get am q) as [l|], (qs_get qs q) as [m|]; try exact H;
    [now rewrite map_id|now rewrite map_id in H].
Qed.

Lemma attr_inv_nil : attr_inv [] [].
Proof. intros q. exact I. Qed.

(* one replayed entry, from ANY state satisfying the invariant (a live call is the replay
   of the entries it logged: GhostLog.live_is_replay) *)
Theorem apply_entry_attr_inv am qs file e qs' :
  attr_inv am qs -> apply_entry qs file e = Some qs' -> attr_inv (a_apply am qs file e) qs'.
Proof.
  intros Hi H. apply attr_inv_ginv. apply attr_inv_ginv in Hi.
  exact (apply_entry_handles (fun f => f) am qs file e qs' Hi H).
Qed.

(* a whole list of entries, from any state satisfying the invariant *)
Theorem replay_handles_from am qs fes qs' :
  attr_inv am qs -> replay_entries qs fes = Some qs' ->
  exists am', a_replay am qs fes = Some (am', qs') /\ attr_inv am' qs'.
Proof.
  intros Hi H. pose proof (g_replay_queues (fun _ f => f) fes am qs 0) as Hq. rewrite H in Hq.
  destruct Hq as (am' & E). exists am'. split; [exact E|].
  apply attr_inv_ginv. apply attr_inv_ginv in Hi.
  eapply (g_replay_handles (fun f => f) (fun _ f => f)); [reflexivity|exact Hi|exact E].
Qed.

(* from the empty state: what `open` rebuilds, and every state reached by live calls *)
Theorem replay_handles fes qs :
  replay_entries [] fes = Some qs ->
  exists am, a_replay [] [] fes = Some (am, qs) /\
    forall q m, qs_get qs q = Some m ->
      exists attrs, g_get am q = Some attrs /\
        handles_ok attrs (q_metas m) /\
        lenN attrs = lenN (records_of (q_buf m) (q_metas m)).
Proof.
  intros H. destruct (replay_handles_from [] [] fes qs attr_inv_nil H) as (am & E & Hi).
  exists am. split; [exact E|]. intros q m Em. specialize (Hi q). rewrite Em in Hi.
  destruct (g_get am q) as [attrs|]; [|contradiction]. exists attrs.
  split; [reflexivity|]. split; [exact Hi|].
  rewrite lenN_records_of. now apply handles_ok_lenN.
Qed.

(* the GC consequence, for the attributed state *)
Theorem unreferenced_file_has_no_record_attr am qs f :
  attr_inv am qs -> qs_ref f qs = false ->
  forall q attrs, g_get am q = Some attrs -> ~ In f attrs.
Proof.
  intros Hi Hr q attrs E Hin. apply attr_inv_ginv in Hi.
  apply (unreferenced_file_has_no_record (fun f => f) am qs f Hi Hr q attrs E).
  now rewrite map_id.
Qed.

Theorem gc_prefix_attr_ge_attr am qs lo0 lo :
  attr_inv am qs ->
  (forall f, lo0 <= f < lo -> qs_ref f qs = false) ->
  (forall q attrs, g_get am q = Some attrs -> Forall (fun a => lo0 <= a) attrs) ->
  forall q attrs, g_get am q = Some attrs -> Forall (fun a => lo <= a) attrs.
Proof.
  intros Hi Hd Hall. apply attr_inv_ginv in Hi.
  exact (gc_prefix_attr_ge (fun f => f) am qs lo0 lo Hi Hd Hall).
Qed.

(* attributions and tags: the combined ghost (entry index, file) *)

Definition file_of (fes : glog) (i : nat) : N := nth i (map fst fes) 0.

Definition c_replay (cm : gmap (nat * N)) (qs : queues) (i : nat) (fes : glog) :=
  g_replay (fun i f => (i, f)) cm qs i fes.

(* every ghost pair (j, f) of the combined replay names the file of the j-th entry *)
Lemma c_replay_files : forall fes pre cm qs cm' qs',
  g_all (fun a => nth_error (map fst (pre ++ fes)) (fst a) = Some (snd a)) cm ->
  c_replay cm qs (length pre) fes = Some (cm', qs') ->
  g_all (fun a => nth_error (map fst (pre ++ fes)) (fst a) = Some (snd a)) cm'.
Proof.
  unfold c_replay.
  induction fes as [|[f e] r IH]; intros pre cm qs cm' qs' Hall H; cbn [g_replay] in H.
  - inversion H; subst. exact Hall.
  - destruct (apply_entry qs f e) as [qs1|]; [|discriminate].
    replace (pre ++ (f, e) :: r) with ((pre ++ [(f, e)]) ++ r) in * by (now rewrite <- app_assoc).
    eapply (IH (pre ++ [(f, e)])); [|rewrite app_length, Nat.add_1_r; exact H].
    apply g_apply_all; [exact Hall|]. cbn [fst snd].
    rewrite <- app_assoc, map_app, nth_error_app2 by (rewrite map_length; lia).
    rewrite map_length, Nat.sub_diag. reflexivity.
Qed.

Lemma map_snd_of_files (L : list N) : forall (l : list (nat * N)),
  Forall (fun a => nth_error L (fst a) = Some (snd a)) l ->
  map snd l = map (fun j => nth j L 0) (map fst l).
Proof.
  induction l as [|a t IH]; intros H; [reflexivity|].
  inversion H as [|? ? Ha Ht]; subst. cbn [map]. rewrite (IH Ht). f_equal.
  symmetry. now apply nth_error_nth.
Qed.

(* the three views of one replay of fes from the empty state: the model's queues qs, the
   attributions am, and ReplaySpec's tagged queues F *)
Theorem replay_views fes qs :
  replay_entries [] fes = Some qs ->
  exists cm am F,
    c_replay [] [] 0 fes = Some (cm, qs) /\
    a_replay [] [] fes = Some (am, qs) /\ am = gmap_map snd cm /\
    t_replay [] 0 (map snd fes) = Some F /\
    ginv snd cm qs /\ attr_inv am qs /\ tinv fst cm F /\
    g_all (fun a => nth_error (map fst fes) (fst a) = Some (snd a)) cm /\
    untag F = abs_qs qs /\ qs_inv qs.
Proof.
  intros H. pose proof (g_replay_queues (fun i f => (i, f)) fes [] [] 0) as Hq. rewrite H in Hq.
  destruct Hq as (cm & Ec).
  pose proof (g_replay_map snd (fun i f => (i, f)) (fun _ f => f) (fun _ _ => eq_refl)
                fes [] [] 0) as Ea. rewrite Ec in Ea. cbn [gmap_map map] in Ea.
  destruct (g_replay_tags fst (fun i f => (i, f)) (fun _ _ => eq_refl) fes [] [] [] 0 cm qs
              (tinv_nil fst) qs_inv_nil eq_refl Ec) as (F & EF & Ht & Hu & Hq).
  pose proof (g_replay_handles snd (fun i f => (i, f)) (fun _ _ => eq_refl) fes [] [] 0 cm qs
                (ginv_nil snd) Ec) as Hg.
  pose proof (c_replay_files fes [] [] [] cm qs (g_all_nil _) Ec) as Hf. cbn [app] in Hf.
  exists cm, (gmap_map snd cm), F. repeat (split; [first [assumption|reflexivity]|]).
  split; [|split; [exact Ht|split; [exact Hf|split; assumption]]].
  intros q. specialize (Hg q). unfold hq_inv in Hg. rewrite gmap_map_get.
  destruct (g_get cm q) as [l|], (qs_get qs q) as [m|]; cbn [option_map]; exact Hg.
Qed.

(* the attribution of a record tagged i by t_replay is the file of the i-th entry *)
Theorem attr_is_file_of_tag fes am qs F :
  a_replay [] [] fes = Some (am, qs) ->
  t_replay [] 0 (map snd fes) = Some F ->
  forall q,
    g_get am q =
    match t_get F q with
    | Some (rf, _) => Some (map (fun r => file_of fes (fst r)) rf)
    | None => None
    end.
Proof.
  intros Ha EF q. pose proof (g_replay_some _ _ _ _ _ _ _ Ha) as H.
  destruct (replay_views fes qs H) as (cm & am' & F' & _ & Ea & -> & EF' & _ & _ & Ht & Hf & _).
  unfold a_replay in *. rewrite Ea in Ha. inversion Ha; subst am. clear Ha.
  rewrite EF' in EF. inversion EF; subst F'. clear EF.
  rewrite gmap_map_get. specialize (Ht q). specialize (Hf q). unfold tq_inv in Ht.
  destruct (g_get cm q) as [l|], (t_get F q) as [[rf n]|]; try contradiction; [|reflexivity].
  cbn [option_map]. f_equal. rewrite (map_snd_of_files (map fst fes) l (Hf l eq_refl)), Ht.
  rewrite map_map. reflexivity.
Qed.

(* the same, without the ghost: the handles of the model's queues cover, for every retained
   record, the file of the entry that appended it (as identified by ReplaySpec's tag) *)
Theorem tagged_handles_ok fes qs F :
  replay_entries [] fes = Some qs ->
  t_replay [] 0 (map snd fes) = Some F ->
  forall q,
    match t_get F q, qs_get qs q with
    | Some (rf, _), Some m => handles_ok (map (fun r => file_of fes (fst r)) rf) (q_metas m)
    | None, None => True
    | _, _ => False
    end.
Proof.
  intros H EF q.
  destruct (replay_views fes qs H) as (cm & am & F' & _ & Ea & _ & _ & _ & Hi & _).
  pose proof (attr_is_file_of_tag fes am qs F Ea EF q) as Hg. specialize (Hi q).
  rewrite Hg in Hi. destruct (t_get F q) as [[rf n]|]; exact Hi.
Qed.

(* hence: the file of the entry that appended a retained record is referenced (the GC's
   criterion `referenced` holds for it, so the GC does not delete it) *)
Corollary tagged_record_file_referenced fes qs F q rf n r :
  replay_entries [] fes = Some qs ->
  t_replay [] 0 (map snd fes) = Some F ->
  t_get F q = Some (rf, n) -> In r rf ->
  qs_ref (file_of fes (fst r)) qs = true.
Proof.
  intros H EF Eq Hin. pose proof (tagged_handles_ok fes qs F H EF q) as Hq. rewrite Eq in Hq.
  destruct (qs_get qs q) as [m|] eqn:Em; [|contradiction].
  apply (qs_ref_intro _ qs q m Em). eapply handles_ok_ref_metas; [exact Hq|].
  apply (in_map (fun r => file_of fes (fst r))). exact Hin.
Qed.

(* contrapositive: an unreferenced file is the file of no entry that appended a retained record *)
Corollary unreferenced_file_no_tagged_record fes qs F f :
  replay_entries [] fes = Some qs ->
  t_replay [] 0 (map snd fes) = Some F ->
  qs_ref f qs = false ->
  forall q rf n r, t_get F q = Some (rf, n) -> In r rf -> file_of fes (fst r) <> f.
Proof.
  intros H EF Hr q rf n r Eq Hin E.
  rewrite <- E, (tagged_record_file_referenced fes qs F q rf n r H EF Eq Hin) in Hr.
  discriminate.
Qed.

Lemma a_replay_index : forall fes am qs i j,
  g_replay (fun _ f => f) am qs i fes = g_replay (fun _ (f : N) => f) am qs j fes.
Proof.
  induction fes as [|[f e] r IH]; intros am qs i j; cbn [g_replay]; [reflexivity|].
  destruct (apply_entry qs f e); [apply IH|reflexivity].
Qed.

Lemma a_replay_app a b am qs :
  a_replay am qs (a ++ b) =
  match a_replay am qs a with
  | Some (am', qs') => a_replay am' qs' b
  | None => None
  end.
Proof.
  unfold a_replay. rewrite g_replay_app.
  destruct (g_replay _ am qs 0 a) as [[am' qs']|]; [|reflexivity]. apply a_replay_index.
Qed.

Lemma a_replay_cons f e r am qs :
  a_replay am qs ((f, e) :: r) =
  match apply_entry qs f e with
  | Some qs' => a_replay (a_apply am qs f e) qs' r
  | None => None
  end.
Proof.
  unfold a_replay, a_apply. cbn [g_replay].
  destruct (apply_entry qs f e); [apply a_replay_index|reflexivity].
Qed.

(* a live call (without I/O error) keeps the invariant: it is the replay of what it logged *)
Theorem live_step_attr_inv P st L o tick st' L' out am :
  nodup_names (s_qs st) -> attr_inv am (s_qs st) ->
  gstep P (st, L) o tick = ((st', L'), out) -> (forall e, out <> OutIo e) ->
  exists es am', L' = L ++ es /\
                 a_replay am (s_qs st) es = Some (am', s_qs st') /\
                 attr_inv am' (s_qs st').
Proof.
  intros Hnd Hi H Hio.
  destruct (live_is_replay P st L o tick st' L' out Hnd H Hio) as (es & -> & Hr).
  destruct (replay_handles_from am (s_qs st) es (s_qs st') Hi Hr) as (am' & E & Hi').
  exists es, am'. split; [reflexivity|]. split; assumption.
Qed.

Lemma sorted_nth_le : forall (L : list N), StronglySorted N.le L ->
  forall i j, (i <= j < length L)%nat -> nth i L 0 <= nth j L 0.
Proof.
  induction L as [|x t IH]; intros Hs i j Hij; cbn [length] in Hij; [lia|].
  inversion Hs as [|? ? Hst Hall]; subst. destruct j as [|j'].
  - assert (i = 0)%nat by lia. subst i. cbn [nth]. lia.
  - destruct i as [|i'].
    + cbn [nth]. rewrite Forall_forall in Hall. apply Hall. apply nth_In. lia.
    + cbn [nth]. apply IH; [exact Hst|lia].
Qed.

Lemma tags_nd_files_sorted (L : list N) : StronglySorted N.le L ->
  forall (rf : list trec) lo, tags_nd lo rf -> Forall (fun r => (fst r < length L)%nat) rf ->
  StronglySorted N.le (map (fun r => nth (fst r) L 0) rf).
Proof.
  intros HL. induction rf as [|r t IH]; intros lo Hnd Hlt; cbn [map]; [constructor|].
  cbn [tags_nd] in Hnd. destruct Hnd as (_ & Hnd). inversion Hlt as [|? ? Hr Ht]; subst.
  constructor; [eapply IH; eassumption|].
  apply Forall_map. apply Forall_forall. intros x Hx.
  pose proof (tags_nd_ge _ _ _ Hnd Hx) as Hge. rewrite Forall_forall in Ht.
  specialize (Ht x Hx). cbn beta in Ht. apply sorted_nth_le; [exact HL|lia].
Qed.

(* if the files of the replayed entries never decrease (GhostLog.tags_mono_sorted for the live
   log; the reader's file number at replay), the attributions of every queue are sorted and each
   of them is the file of some entry *)
Theorem attrs_sorted fes am qs :
  StronglySorted N.le (map fst fes) ->
  a_replay [] [] fes = Some (am, qs) ->
  forall q attrs, g_get am q = Some attrs ->
    StronglySorted N.le attrs /\ Forall (fun a => In a (map fst fes)) attrs.
Proof.
  intros HL Ha q attrs E. pose proof (g_replay_some _ _ _ _ _ _ _ Ha) as H.
  destruct (replay_views fes qs H) as (_ & _ & F & _ & _ & _ & EF & _).
  rewrite (attr_is_file_of_tag fes am qs F Ha EF q) in E.
  pose proof (t_replay_wf (map snd fes) 0 [] F (wf_tmap_nil 0) EF q) as Hw.
  destruct (t_get F q) as [[rf n]|]; [|discriminate]. inversion E; subst attrs. clear E.
  cbn [wfq] in Hw. destruct Hw as (Hnd & Hlt & _).
  rewrite map_length, Nat.add_0_l, <- (map_length fst fes) in Hlt. split.
  - unfold file_of. eapply tags_nd_files_sorted; eassumption.
  - apply Forall_map. eapply Forall_impl; [|exact Hlt]. cbn beta. intros r Hr.
    unfold file_of. now apply nth_In.
Qed.

(* the GC deletes unreferenced files only: as soon as every entry file below lo (the first kept
   file) is unreferenced, every retained record is attributed to a file >= lo *)
Corollary attrs_ge_first_kept fes am qs lo :
  a_replay [] [] fes = Some (am, qs) ->
  (forall f, In f (map fst fes) -> f < lo -> qs_ref f qs = false) ->
  forall q attrs, g_get am q = Some attrs -> Forall (fun a => lo <= a) attrs.
Proof.
  intros Ha Hd q attrs E. pose proof (g_replay_some _ _ _ _ _ _ _ Ha) as H.
  destruct (replay_views fes qs H) as (cm & am' & F & _ & Ea & -> & _ & Hg & _ & _ & Hf & _).
  rewrite Ea in Ha. inversion Ha; subst am. clear Ha.
  (* an attribution is the file of an entry, and referenced: so it is not below lo *)
  assert (Hge : g_all (fun a => lo <= snd a) cm).
  { revert Hf. apply (g_all_referenced snd _ _ cm qs Hg). intros a Hfile Hr.
    destruct (N.le_gt_cases lo (snd a)) as [Hle|Hgt]; [exact Hle|].
    rewrite (Hd (snd a)) in Hr; [discriminate|eapply nth_error_In; exact Hfile|exact Hgt]. }
  rewrite gmap_map_get in E. destruct (g_get cm q) as [l|] eqn:El; [|discriminate].
  inversion E; subst attrs. apply Forall_map. exact (Hge q l El).
Qed.

(* a concrete instance: the subtle case of append_record *)

(* two batches appended to queue "a" while in file 3 (the handle of the first batch's last
   record is taken by the next record), one batch in file 4, then a truncation that evicts the
   first record: handles [None; None; Some 3; Some 4] for attributions [3; 3; 3; 4] *)
Definition ex_fes : glog :=
  [(3, EPosition qa 0);
   (3, EAppend qa 0 (number_from 0 [[x01]; [x02]]));
   (3, EAppend qa 2 (number_from 2 [[x03]; [x04]]));
   (4, EAppend qa 4 (number_from 4 [[x05]]));
   (4, ETruncate qa 0)].

Example ex_attr :
  exists am qs m,
    a_replay [] [] ex_fes = Some (am, qs) /\
    g_get am qa = Some [3; 3; 3; 4] /\
    qs_get qs qa = Some m /\
    map m_file (q_metas m) = [None; None; Some 3; Some 4] /\
    handles_ok [3; 3; 3; 4] (q_metas m).
Proof.
  do 3 eexists. split; [vm_compute; reflexivity|]. split; [reflexivity|].
  split; [reflexivity|]. split; [reflexivity|]. vm_compute. tauto.
Qed.

Print Assumptions handles_ok_spec.
Print Assumptions handles_ok_ref.
Print Assumptions append_record_handles.
Print Assumptions append_all_handles.
Print Assumptions truncate_head_handles.
Print Assumptions apply_entry_handles.
Print Assumptions g_replay_handles.
Print Assumptions unreferenced_file_has_no_record.
Print Assumptions gc_keeps_attributed_files.
Print Assumptions gc_prefix_attr_ge.
Print Assumptions t_apply_tags.
Print Assumptions g_replay_tags.
Print Assumptions apply_entry_attr_inv.
Print Assumptions replay_handles_from.
Print Assumptions replay_handles.
Print Assumptions unreferenced_file_has_no_record_attr.
Print Assumptions gc_prefix_attr_ge_attr.
Print Assumptions replay_views.
Print Assumptions attr_is_file_of_tag.
Print Assumptions tagged_handles_ok.
Print Assumptions tagged_record_file_referenced.
Print Assumptions unreferenced_file_no_tagged_record.
Print Assumptions live_step_attr_inv.
Print Assumptions attrs_sorted.
Print Assumptions attrs_ge_first_kept.
Print Assumptions ex_attr.
