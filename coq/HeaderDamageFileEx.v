(* HeaderDamageFileEx.v — instances for HeaderDamageFile.v, by computation with the real CRC-32
   (params Pc of DamageAtomic.Example: BS = 32, two blocks per file).
   (A) non-vacuity of open_header_damaged: the dropped directory of DamageAtomic.Example (files
       1..6 kept, file 0 deleted by the GC, so the kept files begin with two continuation frames
       of an entry whose first frame is gone), ONE byte changed: the length field of the Last
       frame of ETruncate a 1, in block 6 of the ghost stream.  All premises discharged.
   (B) the Corruption branch is real: one damaged byte can lose TWO entries (a DeleteQueue and
       the re-creation of the queue), and the replay of what is left fails: open returns
       OpenCorruption although every delivered entry is genuine. *)
From Coq Require Import Lia ZArith ZifyN ZifyNat ZifyBool List.
From MRL Require Import Bytes BytesProofs Params Names Frame Record Mem Rolling Log Driver Hist
  StreamProofs DamageProofs TornProofs ResyncProofs RecordProofs PolicyProofs GhostLog GcProofs FileStream OpenReplay
  RestartFinal DamageFile DamageAtomic HeaderDamageEv HeaderDamage HeaderDamageFile.
From MRL Require VacBase VacDamage HeaderDamageEx.
From MRL Require Import RestartInv.
Import ListNotations.
Import DamageAtomic.Example.

Local Notation K f := (f Pc Pc_BS_lo Pc_BS_hi Pc_crc) (only parsing).
Local Notation KN f := (f Pc Pc_BS_lo Pc_BS_hi Pc_NB Pc_crc) (only parsing).

Definition fspec_eqb (x y : fspec) : bool :=
  bytes_eqb (fs_c4 x) (fs_c4 y) && (ft_code (fs_ty x) =? ft_code (fs_ty y)) &&
  bytes_eqb (fs_pl x) (fs_pl y).

Lemma fspec_eqb_eq x y : fspec_eqb x y = true -> x = y.
Proof. exact (HeaderDamageEx.fspec_eqb_eq x y). Qed.

(* is (position q, the CRC-valid frame t p) one of the frames of xs? *)
Definition genuine_b (xs : list fspec) (q : N) (t : ftype) (p : bytes) : bool :=
  existsb (fun qx => (fst qx =? q) && fspec_eqb (snd qx) (good_fs Pc t p)) (fpos Pc 0 xs).

Lemma genuine_b_sound xs q t p : genuine_b xs q t p = true -> In (q, good_fs Pc t p) (fpos Pc 0 xs).
Proof. exact (HeaderDamageEx.genuine_in_sound Pc xs q t p). Qed.

Module A.
Definition h_ops : list (op * bool) :=
  flat_map (fun h => match h with HCall o t => [(o, t)] | _ => [] end) h_ex.
(* everything ever written, with the file each entry is attributed to *)
Definition L_ex : glog := Eval vm_compute in run_log Pc st0 h_ops.
Definition E_all : list entry := Eval vm_compute in map snd L_ex.
Definition E_pre : list entry := Eval vm_compute in firstn 3 E_all.
Definition E_1 : list entry := Eval vm_compute in firstn 1 (skipn 3 E_all).
Definition E_b : list entry := Eval vm_compute in firstn 2 (skipn 4 E_all).
Definition E_3 : list entry := Eval vm_compute in skipn 6 E_all.
Definition t0 : bytes := Eval vm_compute in encs_of Pc 0 (map entry_ser E_pre).
Definition t1 : bytes := Eval vm_compute in encs_of Pc (lenN t0) (map entry_ser E_1).
Definition tb : bytes := Eval vm_compute in encs_of Pc (lenN t0 + lenN t1) (map entry_ser E_b).
Definition t3 : bytes := Eval vm_compute in encs_of Pc (lenN t0 + lenN t1 + lenN tb) (map entry_ser E_3).
Definition T : bytes := Eval vm_compute in t0 ++ t1 ++ tb ++ t3.
Definition z : N := Eval vm_compute in 448 - lenN T.
Definition S : bytes := Eval vm_compute in T ++ zerosN z.

Example positions :
  starts Pc 0 (map entry_ser E_all) =
  [(0, 0); (19, 19); (45, 45);          (* E_pre; the third one ends at 122, in file 1 *)
   (122, 128);                           (* E_1: EAppend a [u], 128..176 *)
   (176, 176); (202, 202);               (* E_b: ETruncate a 1 (176..202), EPosition b 0 (202..221) *)
   (221, 224); (272, 272); (349, 352)]   (* E_3 *)
  /\ lenN T = 400 /\ dropN 64 S = S_ex.
Proof. vm_compute. repeat split; reflexivity. Qed.

(* ONE byte: the low byte of the length field of the Last frame of ETruncate a 1 (at 192, the
   start of block 6): 3 -> 4 *)
Definition D : bytes := Eval vm_compute in write_at S 196 ["004"%byte].
Definition fs_d : fsT :=
  Eval vm_compute in fs_put fs_ex (filename 3) (FFile (write_at (fcontent fs_ex 3) 4 ["004"%byte])).

Definition xs : list fspec := Eval vm_compute in HeaderDamageEx.parse Pc 100 0 T.

Lemma lay : layout Pc 0 xs T.
Proof. apply HeaderDamageEx.layout_b_sound. vm_compute. reflexivity. Qed.

(* no frame verifies on the reader's path (0, 11) through block 6 *)
Lemma path_ok : NoEmbeddedPath Pc D 6 T.
Proof.
  apply (K NoEmbeddedPath_of_X D 6 T xs lay).
  apply (K HeaderDamageEx.path_chk_sound 3); vm_compute; [congruence|reflexivity].
Qed.

Lemma full : forall f, In f (iota 1 6) ->
  exists b, fs_get fs_d (filename f) = Some (FFile b) /\ lenN b = FILE_BYTES Pc.
Proof.
  intros f Hf. cbn [iota In] in Hf.
  destruct Hf as [<-|[<-|[<-|[<-|[<-|[<-|[]]]]]]]; eexists; (split; [vm_compute; reflexivity|reflexivity]).
Qed.

Lemma wf_all : Forall wf_entry (E_1 ++ E_b ++ E_3).
Proof.
  assert (H : forall e, entry_deser (entry_ser e) = Some e -> wf_entry e).
  { intros e He. destruct (entry_deser_sound _ _ He) as (_ & _ & _ & Hw). exact Hw. }
  repeat constructor; apply H; vm_compute; reflexivity.
Qed.

Theorem instance : forall pol hint, exists w0 tags E_mid E_tail,
  DamageProofs.sublist E_mid E_b /\
  ((E_tail = E_3 /\
    ((6 + 1) * BS Pc <= lenN (t0 ++ t1 ++ tb ++ t3) ->
     exists sts, dmg_spec Pc fs_d 1 5 0 w0 tags sts (lenN (t0 ++ t1 ++ tb ++ t3)))) \/
   (E_tail = [] /\ stopped_in Pc D 6)) /\
  hd_spec fs_d 1 5 w0 tags (length (E_1 ++ E_mid ++ E_tail)) /\
  match replay_entries [] (combine tags (E_1 ++ E_mid ++ E_tail)) with
  | Some qs => open Pc fs_d None pol hint = open_finish Pc w0 qs pol hint
  | None => exists c, open Pc fs_d None pol hint = OpenCorruption c
  end.
Proof.
  intros pol hint.
  apply (KN open_header_damaged fs_d 1 5 full 0 E_pre E_1 E_b E_3 t0 t1 tb t3 z D 6 pol hint).
  - reflexivity.
  - vm_compute; congruence.
  - vm_compute; reflexivity.
  - exact wf_all.
  - change t0 with (encs_of Pc 0 (map entry_ser E_pre)). apply (K encs_of_rel).
  - change t1 with (encs_of Pc (lenN t0) (map entry_ser E_1)). apply (K encs_of_rel).
  - change tb with (encs_of Pc (lenN t0 + lenN t1) (map entry_ser E_b)). apply (K encs_of_rel).
  - change t3 with (encs_of Pc (lenN t0 + lenN t1 + lenN tb) (map entry_ser E_3)). apply (K encs_of_rel).
  - vm_compute; reflexivity.
  - vm_compute; reflexivity.
  - vm_compute; reflexivity.
  - vm_compute; reflexivity.
  - vm_compute; congruence.
  - vm_compute; congruence.
  - vm_compute; reflexivity.
  - vm_compute. repeat constructor.
  - vm_compute; congruence.
  - right. vm_compute; congruence.
  - right. vm_compute; congruence.
  - exact path_ok.
Qed.

(* what open actually does here: ETruncate a 1 is lost (its Last frame fails the CRC check and
   the damaged length makes the reader land one byte inside the frame of EPosition b 0, whose
   header then does not parse: that entry is lost too, the rest of the block is dropped); the
   reader resynchronises at block 7 and E_3 is replayed *)
Definition qs_of (fs : fsT) : option queues :=
  match open Pc fs None PNothing [] with OpenOk st => Some (s_qs st) | _ => None end.

Example what_open_does :
  qs_of fs_d = replay_entries [] (combine [1; 3; 4; 5] (E_1 ++ [] ++ E_3)) /\
  qs_of fs_ex = replay_entries [] (combine [1; 2; 3; 3; 4; 5] (E_1 ++ E_b ++ E_3)) /\
  qs_of fs_d <> None.
Proof. vm_compute. repeat split; try reflexivity; discriminate. Qed.
End A.

Module B.
(* queue b keeps file 0 alive; queue a is created, filled, deleted, created again, filled again *)
Definition h2 : list (op * bool) :=
  [(OCreate qb, false); (OAppend qb None [pay "z"%byte], false);
   (OCreate qa, false); (OAppend qa None [pay "x"%byte], false); (ODelete qa [], false);
   (OCreate qa, false); (OAppend qa None [pay "y"%byte], false)].
Definition st2 : state := Eval vm_compute in fst (run Pc st0 h2).
Definition L2 : glog := Eval vm_compute in run_log Pc st0 h2.
Definition E_all : list entry := Eval vm_compute in map snd L2.
Definition fs2 : fsT := Eval vm_compute in c_fs (drop_log st2).
Definition T : bytes := Eval vm_compute in encs_of Pc 0 (map entry_ser E_all).
Definition z : N := Eval vm_compute in 256 - lenN T.
Definition S : bytes := Eval vm_compute in T ++ zerosN z.

Example setting :
  snd (run Pc st0 h2) =
    [OutCreate 19; OutAppend (Some 0) 55; OutCreate 19; OutAppend (Some 0) 51; OutDelete 26;
     OutCreate 19; OutAppend (Some 0) 51] /\
  E_all = [EPosition qb 0; EAppend qb 0 [(0, pay "z"%byte)];
           EPosition qa 0; EAppend qa 0 [(0, pay "x"%byte)];
           EDelete qa 1; EPosition qa 0; EAppend qa 0 [(0, pay "y"%byte)]] /\
  starts Pc 0 (map entry_ser E_all) =
    [(0, 0); (19, 19); (74, 74); (93, 96);
     (144, 144); (170, 170);      (* EDelete a 1: 144..170 (Last frame at 160); EPosition a 0: 170..189 *)
     (189, 192)] /\
  w_files (s_wr st2) = [0; 1; 2; 3] /\
  stream_of fs2 [0; 1; 2; 3] = S.
Proof. vm_compute. repeat split; reflexivity. Qed.

(* ONE byte of file 2 (offset 36 = byte 164 of the stream, in block 5): the low byte of the
   length field of the Last frame of EDelete a 1: 3 -> 4 *)
Definition D : bytes := Eval vm_compute in write_at S 164 ["004"%byte].
Definition fs2d : fsT :=
  Eval vm_compute in fs_put fs2 (filename 2) (FFile (write_at (fcontent fs2 2) 36 ["004"%byte])).

Definition xs : list fspec := Eval vm_compute in HeaderDamageEx.parse Pc 100 0 T.
Lemma lay : layout Pc 0 xs T.
Proof. apply HeaderDamageEx.layout_b_sound. vm_compute. reflexivity. Qed.

(* the damaged directory is within the scope of open_header_damaged / C08_header_damage:
   no frame at all verifies on the reader's path (0, 11) through block 5 *)
Lemma path_ok : NoEmbeddedPath Pc D 5 T.
Proof.
  apply (K NoEmbeddedPath_of_X D 5 T xs lay).
  apply (K HeaderDamageEx.path_chk_sound 3); vm_compute; [congruence|reflexivity].
Qed.

Lemma in_scope :
  encs_rel Pc 0 (map entry_ser E_all) T /\
  lenN D = lenN S /\ takeN (5 * 32) D = takeN (5 * 32) S /\ dropN (6 * 32) D = dropN (6 * 32) S /\
  stream_of fs2d [0; 1; 2; 3] = D /\ NoEmbeddedPath Pc D 5 T.
Proof.
  split; [change T with (encs_of Pc 0 (map entry_ser E_all)); apply (K encs_of_rel)|].
  split; [vm_compute; reflexivity|]. split; [vm_compute; reflexivity|].
  split; [vm_compute; reflexivity|]. split; [vm_compute; reflexivity|]. exact path_ok.
Qed.

Definition verdict (r : open_result) : N :=
  match r with OpenOk _ => 0 | OpenIo _ _ => 1 | OpenCorruption _ => 2 | OpenFuel _ => 3 end.

(* the clean directory opens; with the one byte changed open fails with Corruption: EDelete a 1
   (CRC mismatch) and EPosition a 0 (the reader lands one byte inside its frame) are both lost,
   and EAppend a 0 [y] is then replayed on the OLD queue a, whose next position is 1:
   AppendError::Past, reported as Corruption.  Every entry delivered was written. *)
Theorem one_byte_corruption :
  verdict (open Pc fs2 None PNothing []) = 0 /\
  verdict (open Pc fs2d None PNothing []) = 2 /\
  replay_entries [] (combine [0; 0; 1; 1; 3] (firstn 4 E_all ++ skipn 6 E_all)) = None /\
  DamageProofs.sublist (firstn 4 E_all ++ skipn 6 E_all) E_all.
Proof.
  split; [vm_compute; reflexivity|]. split; [vm_compute; reflexivity|].
  split; [vm_compute; reflexivity|].
  unfold E_all. cbn [firstn skipn app].
  do 4 apply SL_keep. do 2 apply SL_skip. apply SL_keep. apply SL_nil.
Qed.
End B.

Module C.
(* the ghost state of VacDamage.ghost_ex for st_ex (DamageAtomic.Example): file 0 deleted, files
   1..6 kept, the ghost stream is 400 bytes long; block 6 (the first block of file 3) *)
Lemma premises_satisfiable :
  exists G D fs_d,
    Inv Pc st_ex G /\ header_damaged_dir Pc st_ex G 6 D fs_d /\ dmg_bound Pc st_ex G /\
    (6 + 1) * BS Pc <= lenN (gh_T Pc G) /\ ~ stopped_in Pc D 6.
Proof.
  destruct VacDamage.ghost_ex as (G & HI & Eb & Ed & El).
  assert (EA : gh_ALL G = map snd (VacBase.calls_log Pc st0 VacDamage.calls_ex))
    by (unfold gh_ALL; rewrite Ed, El; reflexivity).
  assert (ET : lenN (gh_T Pc G) = 400) by (unfold gh_T, gh_ser; rewrite EA; vm_compute; reflexivity).
  destruct (header_damaged_dir_exists Pc Pc_BS_lo Pc_BS_hi Pc_NB Pc_crc st_ex G 6 HI)
    as (D & fs_d & Hd & Hns).
  { rewrite Eb. vm_compute. congruence. }
  { rewrite Eb. vm_compute. reflexivity. }
  exists G, D, fs_d. split; [exact HI|]. split; [exact Hd|]. split.
  - apply (VacDamage.dmg_bound_by Pc Pc_BS_lo Pc_BS_hi Pc_NB Pc_crc 64 st_ex G [qa; qb]).
    + intros q Hq. apply VacBase.gh_E_names in Hq. rewrite El in Hq.
      vm_compute in Hq. vm_compute. intuition.
    + vm_compute. reflexivity.
    + vm_compute. intros H; discriminate H.
  - split; [rewrite ET; vm_compute; congruence|].
    apply Hns. destruct Hd as (_ & HlenD & _). cbv zeta in HlenD.
    rewrite HlenD, lenN_app, lenN_zerosN, ET, Eb. vm_compute. congruence.
Qed.

Theorem C08_header_damage_ok_inst :
  exists fs_d, forall pol hint, exists (G : ghost) tags Es',
    DamageProofs.sublist Es' (map snd (gh_E G)) /\ length tags = length Es' /\
    match replay_entries [] (combine tags Es') with
    | Some qD => exists st_r, open Pc fs_d None pol hint = OpenOk st_r /\ s_qs st_r = qD
    | None => exists c, open Pc fs_d None pol hint = OpenCorruption c
    end.
Proof.
  destruct premises_satisfiable as (G & D & fs_d & HI & Hd & Hb & Hbig & Hns).
  exists fs_d. intros pol hint. exists G.
  exact (C08_header_damage_ok Pc Pc_BS_lo Pc_BS_hi Pc_NB Pc_crc eq_refl eq_refl st_ex G 6 D fs_d
           HI Hd Hb Hbig Hns pol hint).
Qed.
End C.

Print Assumptions A.instance.
Print Assumptions C.premises_satisfiable.
Print Assumptions C.C08_header_damage_ok_inst.
Print Assumptions B.in_scope.
Print Assumptions B.one_byte_corruption.
