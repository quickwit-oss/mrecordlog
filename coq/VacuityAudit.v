(* VacuityAudit.v — are the hypotheses of the property theorems (Prop*.v) jointly
   satisfiable?  This file only gathers the parts and prints the assumptions of every instance
   (all `Closed under the global context`); the instances themselves are in

     VacBase.v     helpers: bounded checks by computation, encoding lengths, *_bound from a
                   computation, the invariant along a history of calls with its ghost log
     VacRestart.v  PropC01 (all 16), PropC04 / PropC18 (restart halves)     [RestartFinal.Example]
     VacCrash.v    PropC02 Inv-based (crash_atomic, history, call_entries_atomic, call_trace,
                   crash_image_shape)                                       [CrashAtomic.CrashExample]
     VacDamage.v   PropC09 end to end (damage_costs_one_entry, from_fresh, damaged_dir_exists)
                                                                            [DamageAtomic.Example]
     VacStream.v   stream level: PropC02 torn_*, PropC07, PropC08, PropC09, PropC12
     VacFiles.v    file level: open_one_damaged, open_damaged (C08/C09/C12), open_torn (C02/C12),
                   PropC07 files
     VacLive.v     PropC03, PropC04 (live), PropC05, PropC06, PropC08/09/12 entry level, PropC10, PropC11
     VacLive2.v    PropC13 .. PropC18 (live)
     VacCrc.v      finding F8: no_zero_collision is false for Crc.crc32, and
                   the C02 property itself fails in the model with the real CRC (counterexample)

   Convention: `<thm>_inst` = the Prop theorem applied to concrete data with ALL premises
   discharged (its conclusion, or a part of it, as a closed fact);
   `<thm>_premises_satisfiable` = exists witnesses, all premises;
   `<thm>_other_premises_satisfiable` = all premises except TornProofs.no_zero_collision (which is
   false for Crc.crc32, VacCrc.crc32_refutes_nzc; with a witness checksum for which it holds ALL
   premises are discharged in VacAudit2.v; theorems
   C02_crash_atomic, C02_history, C02_torn_read_nocoll, C02_open_torn, C12_torn_entry_all_or_nothing,
   C12_open_torn).  The coverage table is at the end of the file. *)
From MRL Require Export VacBase VacRestart VacCrash VacDamage VacStream VacFiles VacLive VacLive2 VacCrc.

Print Assumptions VacRestart.C01_restart_identity_inst.
Print Assumptions VacRestart.C01_history_spec_inst.
Print Assumptions VacRestart.C01_inv_reopen_premises_satisfiable.
Print Assumptions VacRestart.C01_inv_reopen_inst.
Print Assumptions VacRestart.C01_step_premises_satisfiable.
Print Assumptions VacRestart.C01_no_io_needed_inst.
Print Assumptions VacRestart.C01_inv_step_inst.
Print Assumptions VacRestart.C01_inv_fresh_inst.
Print Assumptions VacRestart.C01_live_is_replay_inst.
Print Assumptions VacRestart.C01_logged_entries_roundtrip_inst.
Print Assumptions VacRestart.C01_history_is_replay_inst.
Print Assumptions VacRestart.C01_replay_refines_spec_inst.
Print Assumptions VacRestart.C01_suffix_simulation_inst.
Print Assumptions VacRestart.C01_suffix_is_list_suffix_inst.
Print Assumptions VacRestart.C01_covered_suffix_equal_inst.
Print Assumptions VacRestart.C01_model_covered_suffix_equal_inst.
Print Assumptions VacRestart.C04_positions_fresh_with_restarts_inst.
Print Assumptions VacRestart.C04_after_truncate_with_restarts_inst.
Print Assumptions VacRestart.C04_restart_keeps_next_inst.
Print Assumptions VacRestart.C04_next_position_survives_restart_inst.
Print Assumptions VacRestart.C18_projection_with_restarts_inst.
Print Assumptions VacRestart.C18_others_and_restarts_invisible_inst.
Print Assumptions VacCrash.C02_crash_atomic_other_premises_satisfiable.
Print Assumptions VacCrash.C02_history_other_premises_satisfiable.
Print Assumptions VacCrash.C02_call_entries_atomic_inst.
Print Assumptions VacCrash.C02_call_trace_inst.
Print Assumptions VacCrash.C02_crash_image_shape_inst.
Print Assumptions VacDamage.ghost_ex.
Print Assumptions VacDamage.C09_damage_costs_one_entry_premises_satisfiable.
Print Assumptions VacDamage.C09_damage_costs_one_entry_inst.
Print Assumptions VacDamage.C09_from_fresh_inst.
Print Assumptions VacStream.C02_torn_read_premises_satisfiable.
Print Assumptions VacStream.C02_torn_read_inst.
Print Assumptions VacStream.C02_torn_read_written_inst.
Print Assumptions VacStream.C02_torn_resume_inst.
Print Assumptions VacStream.C02_torn_then_append_inst.
Print Assumptions VacStream.C07_roundtrip_mem_inst.
Print Assumptions VacStream.C07_write_count_inst.
Print Assumptions VacStream.C07_entry_codec_inst.
Print Assumptions VacStream.C07_batch_codec_inst.
Print Assumptions VacStream.C08_entry_deser_sound_inst.
Print Assumptions VacStream.C08_append_deser_exact_inst.
Print Assumptions VacStream.C12_batch_decodes_whole_inst.
Print Assumptions VacStream.C12_multi_parse_sound_inst.
Print Assumptions VacStream.C12_append_entry_roundtrip_inst.
Print Assumptions VacStream.C09_one_damaged_entry_inst.
Print Assumptions VacStream.C12_damaged_entry_dropped_whole_inst.
Print Assumptions VacStream.encs_any_damaged_exists.
Print Assumptions VacStream.C09_general_inst.
Print Assumptions VacStream.C08_detected_damage_subsequence_inst.
Print Assumptions VacStream.C09_bad_crc_frame_inst.
Print Assumptions VacFiles.C09_open_one_damaged_premises_satisfiable.
Print Assumptions VacFiles.C09_open_one_damaged_inst.
Print Assumptions VacFiles.open_damaged_premises_satisfiable.
Print Assumptions VacFiles.C09_open_damaged_inst.
Print Assumptions VacFiles.C08_open_damaged_replays_only_written_inst.
Print Assumptions VacFiles.C12_open_damaged_inst.
Print Assumptions VacFiles.open_torn_other_premises_satisfiable.
Print Assumptions VacFiles.open_torn_computed.
Print Assumptions VacFiles.C07_roundtrip_files_inst.
Print Assumptions VacFiles.C07_restart_continues_stream_inst.
Print Assumptions VacFiles.C07_reader_is_stream_reader_inst.
Print Assumptions VacLive.C03_fsync_durable_inst.
Print Assumptions VacLive.C03_power_loss_keeps_synced_prefix_inst.
Print Assumptions VacLive.C03_flush_in_os_inst.
Print Assumptions VacLive.C03_flush_bytes_inst.
Print Assumptions VacLive.C03_other_files_synced_inst.
Print Assumptions VacLive.C03_unlinks_after_sync_inst.
Print Assumptions VacLive.C03_unlink_guarded_inst.
Print Assumptions VacLive.C03_no_write_between_inst.
Print Assumptions VacLive.C03_open_establishes_inst.
Print Assumptions VacLive.C03_policy_independent_content_inst.
Print Assumptions VacLive.C04_spec_next_monotone_inst.
Print Assumptions VacLive.C04_log_positions_fresh_inst.
Print Assumptions VacLive.C04_log_lasts_increasing_inst.
Print Assumptions VacLive.C04_append_fresh_inst.
Print Assumptions VacLive.C04_truncate_next_inst.
Print Assumptions VacLive.C04_after_truncate_inst.
Print Assumptions VacLive.C04_step_positions_inst.
Print Assumptions VacLive.C05_refines_inst.
Print Assumptions VacLive.C05_run_refines_inst.
Print Assumptions VacLive.C05_open_establishes_inv_inst.
Print Assumptions VacLive.C05_range_all_bounds_inst.
Print Assumptions VacLive.C05_last_record_inst.
Print Assumptions VacLive.C05_ring_inst.
Print Assumptions VacLive.C05_past_only_guard_inst.
Print Assumptions VacLive.C06_gc_loop_inst.
Print Assumptions VacLive.C06_contiguous_preserved_inst.
Print Assumptions VacLive.C06_tight_inst.
Print Assumptions VacLive.C06_disk_used_inst.
Print Assumptions VacLive.C06_directory_is_tracker_inst.
Print Assumptions VacLive.C06_gc_no_err_inst.
Print Assumptions VacLive.C06_handles_cover_records_inst.
Print Assumptions VacLive.C06_unreferenced_file_is_empty_inst.
Print Assumptions VacLive.C06_live_handles_inst.
Print Assumptions VacLive.C06_attrs_ge_first_kept_inst.
Print Assumptions VacLive.C08_positions_increasing_any_directory_inst.
Print Assumptions VacLive.C10_result_wellformed_inst.
Print Assumptions VacLive.C08_replay_inserts_only_entry_records_inst.
Print Assumptions VacLive.C12_apply_all_or_nothing_inst.
Print Assumptions VacLive.C09_deletion_replay_some_inst.
Print Assumptions VacLive.C09_replay_tolerates_lost_entry_inst.
Print Assumptions VacLive.C10_open_terminates_inst.
Print Assumptions VacLive.C10_fuel_bound_inst.
Print Assumptions VacLive.C10_fuel_irrelevant_inst.
Print Assumptions VacLive.C11_ok_means_not_fired_inst.
Print Assumptions VacLive.C11_fired_is_io_inst.
Print Assumptions VacLive.C11_corruption_means_not_fired_inst.
Print Assumptions VacLive.C11_absorbed_computed.
Print Assumptions VacLive.C11_fired_is_io_fails_absorbed.
Print Assumptions VacLive.C11_absorbed_eof_only_first_read_inst.
Print Assumptions VacLive2.C13_no_trace_inst.
Print Assumptions VacLive2.C13_zero_bytes_inst.
Print Assumptions VacLive2.C13_shapes_complete_inst.
Print Assumptions VacLive2.C13_erasable_inst.
Print Assumptions VacLive2.C13_world_unchanged_inst.
Print Assumptions VacLive2.C14_step_policy_independent_inst.
Print Assumptions VacLive2.C14_run_policy_independent_inst.
Print Assumptions VacLive2.C14_drop_policy_independent_inst.
Print Assumptions VacLive2.C14_restart_policy_independent_inst.
Print Assumptions VacLive2.C14_open_ok_seqw_inst.
Print Assumptions VacLive2.C15_record_count_generic_inst.
Print Assumptions VacLive2.C15_bytes_exact_inst.
Print Assumptions VacLive2.C15_zero_iff_inst.
Print Assumptions VacLive2.C15_bytes_in_write_events_inst.
Print Assumptions VacLive2.C15_running_sum_inst.
Print Assumptions VacLive2.C16_used_exact_inst.
Print Assumptions VacLive2.C16_used_bounds_inst.
Print Assumptions VacLive2.C16_truncate_releases_inst.
Print Assumptions VacLive2.C16_baseline_when_empty_inst.
Print Assumptions VacLive2.C16_buffer_is_retained_payload_inst.
Print Assumptions VacLive2.C17_parse_print_inst.
Print Assumptions VacLive2.C17_parse_exact_inst.
Print Assumptions VacLive2.C17_filename_inj_inst.
Print Assumptions VacLive2.C17_foreign_never_named_inst.
Print Assumptions VacLive2.C17_step_events_wal_named_inst.
Print Assumptions VacLive2.C17_step_foreign_untouched_inst.
Print Assumptions VacLive2.C17_drop_foreign_untouched_inst.
Print Assumptions VacLive2.C17_open_foreign_untouched_inst.
Print Assumptions VacLive2.C17_run_foreign_untouched_inst.
Print Assumptions VacLive2.C17_listing_sound_inst.
Print Assumptions VacLive2.C17_unparsed_untouched_inst.
Print Assumptions VacLive2.C18_spec_projection_inst.
Print Assumptions VacLive2.C18_log_projection_inst.
Print Assumptions VacLive2.C18_log_step_other_inst.
Print Assumptions VacLive2.C18_replay_other_untouched_inst.
Print Assumptions VacCrc.T8_collides.
Print Assumptions VacCrc.crc32_zero_collision.
Print Assumptions VacCrc.crc32_refutes_nzc.
Print Assumptions VacCrc.crc32_refutes_nzc_bounded.
Print Assumptions VacCrc.crash_counterexample.
Print Assumptions VacCrc.C02_conclusion_false_for_crc32.
Print Assumptions VacCrc.production_params.

(* COVERAGE TABLE   theorem -> covering instance (in Vac*.v, unless another file is named)
   "params" = only the parameter premises (7 < BS <= 65542, 1 <= NB, crcf < 2^32, L_* = false):
   satisfied by RestartFinal.Example.Px (constant checksum), CrashExample.Pe / VacStream.Ps (CRC-32).
   "-" = no premise at all.
   PropC01
    C01_restart_identity            VacRestart.C01_restart_identity_inst (= RestartFinal.Example.C01_ex)
    C01_history_spec                VacRestart.C01_history_spec_inst
    C01_inv_reopen                  VacRestart.C01_inv_reopen_premises_satisfiable, _inst
    C01_no_io_needed                VacRestart.C01_step_premises_satisfiable, C01_no_io_needed_inst
    C01_inv_step                    VacRestart.C01_inv_step_inst
    C01_inv_fresh                   VacRestart.C01_inv_fresh_inst
    C01_instrumentation_erases      -
    C01_live_is_replay              VacRestart.C01_live_is_replay_inst
    C01_history_is_replay           VacRestart.C01_history_is_replay_inst
    C01_logged_entries_roundtrip    VacRestart.C01_logged_entries_roundtrip_inst
    C01_replay_refines_spec         VacRestart.C01_replay_refines_spec_inst (non-empty state)
    C01_suffix_simulation           VacRestart.C01_suffix_simulation_inst (ReplaySpec.ex_legal)
    C01_suffix_is_list_suffix       VacRestart.C01_suffix_is_list_suffix_inst
    C01_covered_suffix_equal        VacRestart.C01_covered_suffix_equal_inst
    C01_model_covered_suffix_equal  VacRestart.C01_model_covered_suffix_equal_inst (= ReplaySpec.ex_equal)
    C01_example                     -
   PropC02
    C02_crash_atomic                VACUOUS FOR crc32 (no_zero_collision is false; all premises, witness
                                    checksum: VacAudit2.SatAlways); all other premises:
                                    VacCrash.C02_crash_atomic_other_premises_satisfiable;
                                    conclusion FALSE for crc32: VacCrc.C02_conclusion_false_for_crc32
    C02_history                     VACUOUS (idem); VacCrash.C02_history_other_premises_satisfiable
    C02_call_entries_atomic         VacCrash.C02_call_entries_atomic_inst
    C02_torn_read                   VacStream.C02_torn_read_premises_satisfiable, _inst
    C02_torn_read_nocoll            VACUOUS (idem); other premises = those of C02_torn_read
    C02_torn_read_written           VacStream.C02_torn_read_written_inst
    C02_torn_resume                 VacStream.C02_torn_resume_inst
    C02_torn_then_append            VacStream.C02_torn_then_append_inst
    C02_one_call_one_logged_suffix  -
    C02_call_trace                  VacCrash.C02_call_trace_inst
    C02_crash_image_shape           VacCrash.C02_crash_image_shape_inst
    C02_open_torn                   VACUOUS (idem); VacFiles.open_torn_other_premises_satisfiable
                                    (lo > base, short last file, cut inside a frame)
   PropC03   (all in VacLive)
    C03_fsync_durable _inst; C03_power_loss_keeps_synced_prefix _inst; C03_flush_in_os _inst;
    C03_flush_bytes _inst; C03_other_files_synced _inst; C03_unlinks_after_sync _inst (3 unlinks);
    C03_unlink_guarded _inst; C03_no_write_between _inst (a trace with unlinks);
    C03_open_establishes _inst; C03_policy_independent_content _inst
   PropC04
    C04_spec_next_monotone, C04_log_positions_fresh, C04_log_lasts_increasing, C04_append_fresh,
    C04_truncate_next, C04_after_truncate, C04_step_positions           VacLive.<name>_inst
                                    (also QueueIso.QueueIso_nonvacuous / QueueIso_applied)
    C04_positions_fresh_with_restarts  VacRestart._inst (= ExampleCorollaries.positions_fresh_ex)
    C04_after_truncate_with_restarts   VacRestart._inst
    C04_restart_keeps_next             VacRestart._inst
    C04_next_position_survives_restart VacRestart._inst
   PropC05   VacLive.C05_{refines,run_refines,open_establishes_inv,range_all_bounds,last_record,
             ring,past_only_guard}_inst; C05_last_position: -; C05_nonvacuous: -
   PropC06   VacLive.C06_{gc_loop,contiguous_preserved,tight,disk_used,directory_is_tracker,
             gc_no_err,handles_cover_records,unreferenced_file_is_empty,live_handles,
             attrs_ge_first_kept}_inst (HandleProofs.ex_attr for the handle theorems)
   PropC07   VacStream.C07_{roundtrip_mem,write_count,entry_codec,batch_codec}_inst
             (C07_write_never_fails: params, used in C07_write_count_inst);
             VacFiles.C07_{roundtrip_files,restart_continues_stream,reader_is_stream_reader}_inst
   PropC08   C08_positions_increasing_any_directory VacLive._inst; C08_entry_deser_sound,
             C08_append_deser_exact, C08_detected_damage_subsequence VacStream._inst (real damage);
             C08_replay_inserts_only_entry_records VacLive._inst;
             C08_open_damaged_replays_only_written VacFiles._inst (real damage, lo > base)
   PropC09   C09_damage_costs_one_entry VacDamage._premises_satisfiable, _inst;
             C09_from_fresh VacDamage._inst (= DamageAtomic.Example.C09_ex);
             C09_damaged_dir_exists used in VacDamage; C09_bad_crc_frame, C09_one_damaged_entry,
             C09_general, C09_damage_exists VacStream; C09_open_one_damaged, C09_open_damaged VacFiles;
             C09_replay_tolerates_lost_entry, C09_deletion_replay_some VacLive (DeletionSim dx examples)
   PropC10   VacLive.C10_{open_terminates,fuel_bound,fuel_irrelevant,result_wellformed}_inst
   PropC11   VacLive.C11_{ok_means_not_fired,corruption_means_not_fired,fired_is_io}_inst (plans
             reportable: plan_{far,hit}_reportable); the excluded plans (site Read, kind
             UnexpectedEof): VacLive.C11_absorbed_computed, C11_fired_is_io_fails_absorbed,
             C11_absorbed_first_read_computed, C11_absorbed_eof_only_first_read_inst
   PropC12   C12_batch_decodes_whole, C12_multi_parse_sound, C12_append_entry_roundtrip,
             C12_damaged_entry_dropped_whole VacStream; C12_apply_all_or_nothing VacLive;
             C12_open_damaged VacFiles; C12_torn_entry_all_or_nothing, C12_open_torn: VACUOUS
             (no_zero_collision), other premises as C02_torn_read / C02_open_torn
   PropC13   VacLive2.C13_{no_trace,zero_bytes,shapes_complete,erasable,world_unchanged}_inst
   PropC14   VacLive2.C14_{step,run,drop,restart}_policy_independent_inst, C14_open_ok_seqw_inst;
             C14_open_policy_independent: -
   PropC15   VacLive2.C15_{record_count_generic,bytes_exact,zero_iff,bytes_in_write_events,
             running_sum}_inst
   PropC16   VacLive2.C16_{used_exact,used_bounds,truncate_releases,baseline_when_empty,
             buffer_is_retained_payload}_inst
   PropC17   VacLive2.C17_{parse_print,parse_exact,filename_inj,foreign_never_named,
             step_events_wal_named,step_foreign_untouched,drop_foreign_untouched,
             open_foreign_untouched,run_foreign_untouched,listing_sound,unparsed_untouched}_inst;
             C17_bad_shape_foreign used (foreign_s); C17_name_length, C17_open_events_wal_named,
             C17_listing_sorted: -
   PropC18   C18_spec_projection, C18_log_projection, C18_log_step_other,
             C18_replay_other_untouched VacLive2; C18_projection_with_restarts,
             C18_others_and_restarts_invisible VacRestart *)
