(* PowerLoss.v — property C03, POWER-LOSS model, end to end.
   The power-loss model of the drivers (Driver.power_events): at cut c ALL the metadata events
   (create, set_len, unlink) before c are applied, but an EvWrite survives only if an EvSyncData of
   the same file follows it before c.
   On event lists alone: the I/O discipline of the log (disc: every write goes to the
   current file; a file is created / sized / unlinked only when the current file has NO unsynced
   write, which is what roll_group and the guarded unlinks of the GC do) implies that the image of
   a power loss at cut c IS the process-crash image at a cut c' <= c: c' is the position of the
   first write that is lost (everything after it, up to c, is lost writes to the same file and
   flushes), so the surviving data is a byte PREFIX of the data written, and every
   create / set_len / unlink / sync_data before c is also before c'.
   The trace of a history from a persist point has that discipline (from PersistShape.btrace),
   hence the shape of power-loss images, C03_power_loss and C03_fsynced_survives_power_loss. *)
From Coq Require Import Lia ZArith ZifyN ZifyNat ZifyBool List Sorted.
From MRL Require Import Bytes BytesProofs Params Names NamesProofs Frame Record Mem Spec Rolling Log
  Driver Hist SpecRefine RecordProofs StreamProofs PolicyProofs GcProofs GhostLog ReplaySpec
  HandleProofs FileStream ResyncProofs TornProofs PersistProofs WriterProofs EffectsProofs
  RestartInv RestartWrite RestartGc RestartStep OpenReplay RestartFinal TornFile CrashTrace
  PersistTrace PersistGc PersistLogic PersistRecover PersistSurvive PersistShape PersistImage.

(* the events the log issues only when the current file has no unsynced write, and the syncs *)
Definition meta_ev (e : event) : Prop :=
  match e with EvCreate _ | EvSetLen _ _ | EvUnlink _ | EvSyncData _ => True | _ => False end.

(* disc cur dirty evs: cur = the number of the file being written, dirty = it may hold writes that
   no sync_data has followed yet.  Writes and syncs concern the current file only; a create (the
   roll-over to the next file), a set_len and an unlink happen only when dirty = false. *)
Fixpoint disc (cur : N) (dirty : bool) (evs : list event) : Prop :=
  match evs with
  | [] => True
  | EvWrite n _ _ :: r => n = filename cur /\ disc cur true r
  | EvSyncData n :: r => n = filename cur /\ disc cur false r
  | EvFlush _ :: r => disc cur dirty r
  | EvSyncDir :: r => disc cur dirty r
  | EvCreate _ :: r => dirty = false /\ disc (cur + 1) false r
  | EvSetLen _ _ :: r => dirty = false /\ disc cur false r
  | EvUnlink _ :: r => dirty = false /\ disc cur false r
  | _ :: _ => False
  end.

Lemma disc_mono l : forall cur, disc cur true l -> disc cur false l.
Proof.
  induction l as [|e l IH]; intros cur H; [exact I|].
  destruct e; cbn [disc] in *; try exact H; try (destruct H as [H _]; discriminate H).
  - now apply IH.
  - now apply IH.
Qed.

Lemma disc_any l cur d : disc cur true l -> disc cur d l.
Proof. destruct d; [auto|apply disc_mono]. Qed.

(* a dirty current file with no sync in sight: only writes to it and flushes; all is lost *)
Lemma lost_tail l : forall cur n,
  disc cur true l -> synced_later (filename cur) (firstn n l) = false ->
  (forall fs, fold_left apply_event (power_filter (firstn n l)) fs = fs) /\
  ev_data (power_filter (firstn n l)) = [] /\
  Forall (fun e => ~ meta_ev e) (firstn n l).
Proof.
  induction l as [|e l IH]; intros cur n Hd Hs.
  - rewrite firstn_nil. repeat split; constructor.
  - destruct n as [|n]; [cbn [firstn power_filter]; repeat split; constructor|].
    cbn [firstn] in *.
    destruct e; cbn [disc] in Hd; try (destruct Hd as [Hd _]; discriminate Hd); try contradiction.
    + (* write *)
      destruct Hd as [-> Hd]. cbn [synced_later] in Hs.
      destruct (IH cur n Hd Hs) as (I1 & I2 & I3).
      cbn [power_filter]. rewrite Hs. split; [exact I1|]. split; [exact I2|].
      constructor; [intros []|exact I3].
    + (* flush *)
      cbn [synced_later] in Hs. destruct (IH cur n Hd Hs) as (I1 & I2 & I3).
      cbn [power_filter fold_left apply_event ev_data].
      split; [exact I1|]. split; [exact I2|]. constructor; [intros []|exact I3].
    + (* sync of the current file: excluded *)
      destruct Hd as [-> _]. cbn [synced_later] in Hs. rewrite bytes_eqb_refl in Hs. discriminate Hs.
    + (* sync_dir *)
      cbn [synced_later] in Hs. destruct (IH cur n Hd Hs) as (I1 & I2 & I3).
      cbn [power_filter fold_left apply_event ev_data].
      split; [exact I1|]. split; [exact I2|]. constructor; [intros []|exact I3].
Qed.

(* THE KEY FACT: under the discipline, a power loss at cut n leaves the same directory as a
   process crash at some cut n' <= n (between two events), with the same surviving data, and no
   create / set_len / unlink / sync_data between n' and n. *)
Lemma power_as_crash l : forall cur d n,
  disc cur d l ->
  exists n', (n' <= n)%nat /\
    (forall fs, fold_left apply_event (power_filter (firstn n l)) fs =
                fold_left apply_event (firstn n' l) fs) /\
    ev_data (power_filter (firstn n l)) = ev_data (firstn n' l) /\
    Forall (fun e => ~ meta_ev e) (skipn n' (firstn n l)).
Proof.
  induction l as [|e l IH]; intros cur d n Hd.
  - exists 0%nat. rewrite !firstn_nil. cbn [power_filter skipn]. repeat split; [lia|constructor].
  - destruct n as [|n].
    { exists 0%nat. cbn [firstn power_filter skipn]. repeat split; [lia|constructor]. }
    assert (Hkeep : forall cur' d', disc cur' d' l ->
              power_filter (e :: firstn n l) = e :: power_filter (firstn n l) ->
              exists n', (n' <= S n)%nat /\
                (forall fs, fold_left apply_event (power_filter (firstn (S n) (e :: l))) fs =
                            fold_left apply_event (firstn n' (e :: l)) fs) /\
                ev_data (power_filter (firstn (S n) (e :: l))) = ev_data (firstn n' (e :: l)) /\
                Forall (fun e => ~ meta_ev e) (skipn n' (firstn (S n) (e :: l)))).
    { intros cur' d' Hd' Hpf. destruct (IH cur' d' n Hd') as (n' & Hn' & I1 & I2 & I3).
      exists (S n'). cbn [firstn skipn]. rewrite Hpf. split; [lia|].
      split; [intros fs; cbn [fold_left]; apply I1|]. split; [|exact I3].
      destruct e; cbn [ev_data]; try exact I2. now rewrite I2. }
    destruct e; cbn [disc] in Hd; try contradiction.
    + destruct Hd as [_ Hd]. exact (Hkeep _ _ Hd eq_refl).
    + destruct Hd as [_ Hd]. exact (Hkeep _ _ Hd eq_refl).
    + (* write *)
      destruct Hd as [-> Hd].
      destruct (synced_later (filename cur) (firstn n l)) eqn:Es.
      * apply (Hkeep _ _ Hd). cbn [power_filter]. now rewrite Es.
      * destruct (lost_tail l cur n Hd Es) as (L1 & L2 & L3).
        exists 0%nat. cbn [firstn skipn power_filter]. rewrite Es. split; [lia|].
        split; [intros fs; rewrite L1; reflexivity|]. split; [rewrite L2; reflexivity|].
        constructor; [intros []|exact L3].
    + exact (Hkeep _ _ Hd eq_refl).
    + destruct Hd as [_ Hd]. exact (Hkeep _ _ Hd eq_refl).
    + exact (Hkeep _ _ Hd eq_refl).
    + destruct Hd as [_ Hd]. exact (Hkeep _ _ Hd eq_refl).
Qed.

Lemma cpre_firstn n : forall l, cpre (firstn n l) l.
Proof.
  induction n as [|n IH]; intros l; [constructor|].
  destruct l as [|e l]; [constructor|]. cbn [firstn]. constructor. apply IH.
Qed.

(* a cut between two events is a process-crash cut *)
Lemma crash_events_k0 evs cut : crash_events evs cut 0 = takeN cut evs.
Proof. unfold crash_events. cbn. apply app_nil_r. Qed.

(* the same, on the driver's functions *)
Theorem power_is_crash evs cur d cut :
  disc cur d evs ->
  exists cut', cut' <= cut /\
    (forall fs, fold_left apply_event (power_events evs cut) fs =
                fold_left apply_event (crash_events evs cut' 0) fs) /\
    ev_data (power_events evs cut) = ev_data (crash_events evs cut' 0) /\
    Forall (fun e => ~ meta_ev e) (dropN cut' (takeN cut evs)).
Proof.
  intros Hd. destruct (power_as_crash evs cur d (N.to_nat cut) Hd) as (n' & Hn' & I1 & I2 & I3).
  exists (N.of_nat n'). unfold power_events. rewrite crash_events_k0, dropN_skipn, !takeN_firstn.
  rewrite Nnat.Nat2N.id. split; [lia|]. auto.
Qed.

Lemma all_synced_app_r a b : all_synced (a ++ b) -> all_synced b.
Proof.
  intros H name pre off d post E. apply (H name (a ++ pre) off d post).
  rewrite E, app_assoc. reflexivity.
Qed.

(* a power loss after a fully synced prefix keeps the whole prefix *)
Lemma power_events_app_ge a b cut :
  all_synced a -> lenN a <= cut ->
  power_events (a ++ b) cut = a ++ power_events b (cut - lenN a).
Proof.
  intros Ha Hc. unfold power_events. rewrite takeN_app_ge by exact Hc.
  now apply power_filter_all_synced_app.
Qed.

Section Main.
Variable P : params.
Hypothesis HBS_lo : 7 < BS P.
Hypothesis HBS_hi : BS P <= 65542.
Hypothesis HNB : 1 <= NB P.
Hypothesis Hcrc : forall t p, crcf P t p < 2 ^ 32.
Hypothesis HGC : L_GC P = false.
Hypothesis HIO : L_IO P = false.
Hypothesis HSHORT : L_SHORT P = false.
Hypothesis Hnc : no_zero_collision P.

Local Notation B := (BS P).
Local Notation FB := (FILE_BYTES P).
Local Notation encs_of := (encs_of P).
Local Notation sr := (map entry_ser).
Local Notation HW f := (f P HBS_lo HBS_hi HNB Hcrc) (only parsing).
Local Notation HG f := (f P HBS_lo HBS_hi HNB Hcrc HGC) (only parsing).
Local Notation HN f := (f P HBS_lo HBS_hi HNB) (only parsing).
Local Notation HA f := (f P HBS_lo HBS_hi HNB Hcrc HGC HIO HSHORT Hnc) (only parsing).
Local Notation Inv := (Inv P).
Local Notation stream_bound := (stream_bound P).
Local Notation absq st := (abs_qs (s_qs st)).
Local Notation stN st h m := (fst (run P st (firstn m h))).
Local Notation wabs := (wabs P).
Local Notation CB := (CB P).

Lemma wtrace_disc f off wevs D f' off' :
  wtrace P f off wevs D f' off' -> forall d rest, disc f' true rest -> disc f d (wevs ++ rest).
Proof.
  induction 1 as [f off|f off dd evs D f' off' _ _ IH|f evs D f' off' _ IH]; intros d rest Hr.
  - cbn [app]. now apply disc_any.
  - cbn [app disc]. split; [reflexivity|]. now apply IH.
  - unfold roll_group. cbn [app disc]. split; [reflexivity|]. split; [reflexivity|].
    split; [reflexivity|]. now apply IH.
Qed.

Lemma flush_group_disc f a d rest : disc f false rest -> (a = false -> disc f d rest) ->
  disc f d (flush_group f a ++ rest).
Proof.
  intros H1 H2. unfold flush_group. destruct a; cbn [app disc].
  - split; [reflexivity|exact H1].
  - now apply H2.
Qed.

Lemma unlinks_disc f rest m : forall lo, disc f false rest -> disc f false (unlinks lo m ++ rest).
Proof.
  unfold unlinks. induction m as [|m IH]; intros lo Hr; cbn [iota map app disc]; [exact Hr|].
  split; [reflexivity|]. now apply IH.
Qed.

Lemma btrace_disc lo f off evs D lo' f' off' :
  btrace P lo f off evs D lo' f' off' -> disc f true evs.
Proof.
  induction 1 as [lo f off wevs D f' off' Hw
                 |lo f off wevs D1 f1 off1 a rest D2 lo' f' off' Hw _ IH
                 |lo f off wevs D1 f1 off1 m tailf rest D2 lo' f' off' Hw _ Ht _ IH].
  - rewrite <- (app_nil_r wevs). apply (wtrace_disc _ _ _ _ _ _ Hw). exact I.
  - apply (wtrace_disc _ _ _ _ _ _ Hw). apply flush_group_disc; [now apply disc_mono|now intros _].
  - apply (wtrace_disc _ _ _ _ _ _ Hw). apply flush_group_disc; [|discriminate].
    apply unlinks_disc.
    assert (Hrest : disc f1 false rest) by now apply disc_mono.
    destruct Ht as [->|(a & ->)]; [exact Hrest|].
    apply flush_group_disc; [exact Hrest|now intros _].
Qed.

Section Setting.
(* a persist point: the restart invariant holds and nothing is buffered.  (For the image to be
   the directory after a REAL power loss, everything written before st0 must also have been
   synced - a POWER persist point: see C03_power_loss_total below; relative to the directory fs0
   that the OS holds at st0 this plays no role.) *)
Variables (st0 : state) (G0 : ghost).
Hypothesis HI0 : Inv st0 G0.
Hypothesis Hp0 : w_pending (s_wr st0) = [].
(* any further history, under any policy *)
Variable h : list (op * bool).
Hypothesis Hwf : hist_wf P st0 h.
Hypothesis Hb : stream_bound G0 (map snd (run_log P st0 h)).
(* the events it adds *)
Variable evs : list event.
Hypothesis Hevs : c_ev (w_ctx (s_wr (fst (run P st0 h)))) = rev evs ++ c_ev (w_ctx (s_wr st0)).

Local Notation fs0 := (c_fs (w_ctx (s_wr st0))).

Lemma history_disc : disc (w_file (s_wr st0)) true evs.
Proof.
  destruct (HG C03_trace_shape st0 G0 h evs HI0 Hp0 Hwf Hb Hevs) as (Dos & Hbt & _).
  exact (btrace_disc _ _ _ _ _ _ _ _ Hbt).
Qed.

(* the image of a power loss at cut c is the process-crash image at a cut c' <= c between two
   events; between c' and c nothing was created, sized, unlinked or synced (so every file that an
   unlink before c removed is removed, every roll-over before c has happened, and all the bytes
   written before any of these events or before any sync_data are in the image); the data that
   survives is the byte prefix of length j of what the history writes *)
Theorem C03_power_image_is_crash_image : forall cut,
  let NEWALL := encs_of (wabs (s_wr st0)) (sr (map snd (run_log P st0 h))) in
  let j := lenN (ev_data (power_events evs cut)) in
  exists cut', cut' <= cut /\
    fold_left apply_event (power_events evs cut) fs0 =
      fold_left apply_event (crash_events evs cut' 0) fs0 /\
    Forall (fun e => ~ meta_ev e) (dropN cut' (takeN cut evs)) /\
    ev_data (power_events evs cut) = takeN j NEWALL /\ j <= lenN NEWALL /\
    j = lenN (ev_data (takeN cut' evs)).
Proof.
  intros cut NEWALL j. subst NEWALL j.
  destruct (power_is_crash evs _ _ cut history_disc) as (cut' & Hc & I1 & I2 & I3).
  exists cut'. split; [exact Hc|]. split; [apply I1|]. split; [exact I3|].
  destruct (HG C03_trace_shape st0 G0 h evs HI0 Hp0 Hwf Hb Hevs) as (Dos & _ & HD & Hed).
  cbn zeta in HD. rewrite <- HD, I2.
  destruct (cpre_data_take _ _ (crash_events_cpre evs cut' 0)) as (E1 & E2).
  rewrite Hed in E1, E2. rewrite crash_events_k0 in *.
  split; [rewrite takeN_app_le by exact E2; exact E1|]. split; [rewrite lenN_app; lia|reflexivity].
Qed.

(* hence a power-loss image has the image description of a process-crash image
   (PersistImage.C03_image_shape), with j = the (smaller) number of bytes that were synced in
   time: the bytes of the write events that the power filter keeps *)
Theorem C03_power_image_shape : forall cut,
  let w0 := s_wr st0 in
  let img := fold_left apply_event (power_events evs cut) (c_fs (w_ctx w0)) in
  let base := gh_base G0 in
  let T0 := gh_T P G0 in
  let c0 := (wlo w0 - base) * FB + wpos P w0 in
  let NEW := fun hh => encs_of c0 (sr (map snd (run_log P st0 hh))) in
  let j := lenN (ev_data (power_events evs cut)) in
  exists (lo' hi : N) (short : bool) (z : N) (g : nat),
    (* the file set: contiguous, only the last file possibly still empty *)
    wlo w0 <= lo' /\ lo' <= hi /\ hi <= U64_MAX /\
    nodup_keys img /\ dir_of img (nfiles lo' hi) /\ list_wal_numbers img = nfiles lo' hi /\
    (forall n, lo' <= n <= hi ->
       exists b, fs_get img (filename n) = Some (FFile b) /\
                 lenN b = if short && (n =? hi) then 0 else FB) /\
    (* the stream: the old stream + a byte prefix of what the history writes + zeros *)
    j <= lenN (NEW h) /\
    stream_of (zext P img hi) (nfiles lo' hi) =
      dropN ((lo' - base) * FB) (T0 ++ zerosN (c0 - lenN T0) ++ takeN j (NEW h) ++ zerosN z) /\
    c0 + j + z = (hi + 1 - base) * FB /\
    (* unlinks come after flush + sync: all the bytes of the calls 1..g are in the image, and no
       file is missing that the live log still had after call g *)
    (g <= length h)%nat /\ lenN (NEW (firstn g h)) <= j /\
    lo' <= wlo (s_wr (stN st0 h g)).
Proof.
  intros cut. destruct (C03_power_image_is_crash_image cut) as (cut' & _ & E & _ & _ & _ & Ej).
  cbn zeta in Ej. rewrite crash_events_k0 in E.
  assert (Hc : cpre (takeN cut' evs) evs) by (rewrite <- crash_events_k0; apply crash_events_cpre).
  pose proof (HG C03_image_shape_j st0 G0 h evs HI0 Hp0 Hwf Hb Hevs _ Hc) as HS.
  cbn zeta in *. rewrite <- E, <- Ej in HS. exact HS.
Qed.

Hypothesis Hcb : CB st0 h.

Theorem C03_power_loss : forall cut pol hint,
  exists m st_r, (m <= length h)%nat /\
    open P (fold_left apply_event (power_events evs cut) fs0) None pol hint = OpenOk st_r /\
    forall q, s_get (absq st_r) q = s_get (absq (fst (run P st0 (firstn m h)))) q.
Proof.
  intros cut pol hint. destruct (C03_power_image_is_crash_image cut) as (cut' & _ & E & _).
  rewrite E. exact (HA C03_process_crash st0 G0 HI0 Hp0 h Hwf Hb Hcb evs Hevs cut' 0 pol hint).
Qed.

(* the same with the image built as the drivers do (CPower): the power filter applied to the
   WHOLE chronological trace, replayed over the seed directory.  Everything before st0 survives
   because st0 is a POWER persist point: everything written before it has been synced. *)
Theorem C03_power_loss_total (seeds : fsT) :
  wr_all_synced (s_wr st0) ->
  fs0 = replay_events seeds (chrono (w_ctx (s_wr st0))) ->
  forall cut pol hint, lenN (chrono (w_ctx (s_wr st0))) <= cut ->
  exists m st_r, (m <= length h)%nat /\
    open P (replay_events seeds (power_events (chrono (w_ctx (s_wr (fst (run P st0 h))))) cut))
         None pol hint = OpenOk st_r /\
    forall q, s_get (absq st_r) q = s_get (absq (fst (run P st0 (firstn m h)))) q.
Proof.
  intros Hall Hfs cut pol hint Hcut. unfold chrono in *. rewrite Hevs, rev_app_distr, rev_involutive.
  rewrite power_events_app_ge by assumption. unfold replay_events in *.
  rewrite fold_left_app, <- Hfs. apply C03_power_loss.
Qed.

End Setting.

(* the events a fully synced call boundary has added since st0 are fully synced *)
Lemma boundary_synced st0 st_i evs_i :
  c_ev (w_ctx (s_wr st_i)) = rev evs_i ++ c_ev (w_ctx (s_wr st0)) ->
  wr_all_synced (s_wr st_i) -> all_synced evs_i.
Proof.
  unfold wr_all_synced, chrono. intros -> H. rewrite rev_app_distr, rev_involutive in H.
  exact (all_synced_app_r _ _ H).
Qed.

Theorem C03_fsynced_survives_power_loss st0 G0 h evs i evs_i :
  Inv st0 G0 -> w_pending (s_wr st0) = [] ->
  hist_wf P st0 h -> stream_bound G0 (map snd (run_log P st0 h)) -> CB st0 h ->
  c_ev (w_ctx (s_wr (fst (run P st0 h)))) = rev evs ++ c_ev (w_ctx (s_wr st0)) ->
  (i <= length h)%nat ->
  let st_i := fst (run P st0 (firstn i h)) in
  (* call number i is itself a POWER persist point: it leaves nothing buffered and everything
     written so far synced (PersistProofs.durable) *)
  w_pending (s_wr st_i) = [] -> wr_all_synced (s_wr st_i) ->
  (* the events up to the end of call i *)
  c_ev (w_ctx (s_wr st_i)) = rev evs_i ++ c_ev (w_ctx (s_wr st0)) ->
  (* the power fails after call i returned *)
  forall cut pol hint, lenN evs_i <= cut ->
  exists m st_r, (i <= m)%nat /\ (m <= length h)%nat /\
    open P (fold_left apply_event (power_events evs cut) (c_fs (w_ctx (s_wr st0)))) None pol hint
      = OpenOk st_r /\
    forall q, s_get (absq st_r) q = s_get (absq (fst (run P st0 (firstn m h)))) q.
Proof.
  intros HI0 Hp0 Hwf Hb Hcb Hevs Hi st_i Hpi Hsi Hevi cut pol hint Hcut.
  pose proof (boundary_synced _ _ _ Hevi Hsi) as Hall.
  destruct (HG cut_at st0 G0 h evs i evs_i HI0 Hwf Hb Hcb Hevs Hevi)
    as (Hwf1 & Hb1 & Hcb1 & G_i & evs2 & HI_i & Hwf2 & Hb2 & Hcb2 & Hev2 & ->).
  pose proof (HA C03_directory_is_replay st0 G0 HI0 Hp0 _ Hwf1 Hb1 Hcb1 evs_i Hevi) as Hfs_i.
  destruct (C03_power_loss st_i G_i HI_i Hpi _ Hwf2 Hb2 evs2 Hev2 Hcb2 (cut - lenN evs_i) pol hint)
    as (m & st_r & Hm & Ho & Hq).
  rewrite skipn_length in Hm.
  exists (i + m)%nat, st_r. split; [lia|]. split; [lia|].
  split.
  - rewrite power_events_app_ge by assumption. rewrite fold_left_app, <- Hfs_i. exact Ho.
  - intros q. rewrite Hq, (HN stN_add) by exact Hi. reflexivity.
Qed.

End Main.

Print Assumptions power_is_crash.
Print Assumptions C03_image_shape_j.
Print Assumptions C03_power_image_is_crash_image.
Print Assumptions C03_power_image_shape.
Print Assumptions C03_power_loss.
Print Assumptions C03_power_loss_total.
Print Assumptions C03_fsynced_survives_power_loss.
