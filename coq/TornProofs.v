(* TornProofs.v — properties C02 / C12 at the stream level: a torn write (a prefix of the bytes
   of the entry in flight, followed by the zero prefill) never surfaces as data, and leaves the
   log usable (reader stops at a position from which everything is zero; entries appended there
   are read back). In-memory writer vecw / block reader vecr of Driver.v, setting of
   StreamProofs.v. *)
From Coq Require Import Lia ZArith ZifyN ZifyNat ZifyBool.
From MRL Require Import Bytes BytesProofs Params Frame Driver StreamProofs.

Lemma zerosN_app x y : zerosN x ++ zerosN y = zerosN (x + y).
Proof. symmetry. apply BytesProofs.zerosN_app. Qed.

Lemma zerosN_split x y : y <= x -> zerosN x = zerosN y ++ zerosN (x - y).
Proof. intros H. rewrite <- BytesProofs.zerosN_app. f_equal. lia. Qed.

Lemma all_zero_app_true a b : all_zero a = true -> all_zero b = true -> all_zero (a ++ b) = true.
Proof. intros Ha Hb. now rewrite all_zero_app, Ha, Hb. Qed.

Lemma all_zero_app_inv a b : all_zero (a ++ b) = true -> all_zero a = true /\ all_zero b = true.
Proof. rewrite all_zero_app. intros H. now apply andb_true_iff in H. Qed.

Lemma zeros_merge l z n :
  all_zero l = true -> lenN l + z = n -> l ++ zerosN z = zerosN n.
Proof.
  intros Hl Hn. apply all_zero_unique.
  - apply all_zero_app_true; [exact Hl | apply all_zero_zerosN].
  - apply all_zero_zerosN.
  - rewrite lenN_app, !lenN_zerosN. exact Hn.
Qed.

Lemma le_dec_zero l : all_zero l = true -> le_dec l = 0.
Proof.
  induction l as [|x l IH]; intros H; [reflexivity|].
  cbn [all_zero] in H. apply andb_true_iff in H as [Hx H].
  apply byte_eqb_eq in Hx. subst x. cbn [le_dec]. rewrite (IH H). reflexivity.
Qed.

Lemma collecting (f w : bool) : f = true \/ w = true -> (if f then true else w) = true.
Proof. intros [-> | ->]; [reflexivity | destruct f; reflexivity]. Qed.

Lemma takeN_whole (p : bytes) n : dropN n p = [] -> takeN n p = p.
Proof. intros H. pose proof (takeN_dropN n p) as E. rewrite H, app_nil_r in E. exact E. Qed.

(* what lies after p: zeros — or, for a block flagged because of a torn header, at most 6 bytes
   of that header and then zeros *)
Definition tail_ok (S : bytes) (fr : freader vecr) (p r : N) : Prop :=
  (fr_corrupt fr = false /\ all_zero (dropN p S) = true) \/
  (fr_corrupt fr = true /\ all_zero (dropN (p + 6) S) = true /\ p + 7 <= r).

Lemma tail_ok_app X post fr p r :
  tail_ok X fr p r -> p <= lenN X -> r <= lenN X -> all_zero post = true ->
  tail_ok (X ++ post) fr p r.
Proof.
  intros [[Hf Hz] | (Hf & Hz & Hle)] Hp Hr Hpost; [left | right]; (split; [exact Hf|]).
  - rewrite dropN_app_le by exact Hp. apply all_zero_app_true; assumption.
  - split; [|exact Hle]. rewrite dropN_app_le by lia. apply all_zero_app_true; assumption.
Qed.

Lemma header_take_type crc len t q :
  7 <= q -> all_zero (takeN q (header_bytes crc len t)) = false.
Proof.
  intros Hq. rewrite takeN_all by (rewrite lenN_header; lia). apply header_not_zero.
Qed.

(* a header cut before its type byte and completed by zeros has type code 0 *)
Lemma torn_header_type crc len t q :
  q < 7 -> le_dec (dropN 6 (takeN q (header_bytes crc len t) ++ zerosN (7 - q))) = 0.
Proof.
  intros Hq. apply le_dec_zero.
  rewrite dropN_app_ge by (rewrite lenN_takeN, lenN_header; lia).
  apply all_zero_dropN, all_zero_zerosN.
Qed.

Lemma ft_of_code_0 : ft_of_code 0 = None.
Proof. reflexivity. Qed.

Section Torn.
Variable P : params.
Hypothesis HBS_lo : 7 < BS P.
Hypothesis HBS_hi : BS P <= 65542.
Hypothesis Hcrc : forall t p, crcf P t p < 2 ^ 32.

Local Notation B := (BS P).
Local Notation rframe := (read_frame P vecr (vr_next P) vr_block).
Local Notation gonext := (go_next P vecr (vr_next P) vr_block).
Local Notation rdat := (rd_at P).
Local Notation padof := (pad_of P).
Local Notation chunkof := (chunk_of P).
Local Notation atpos := (at_pos P).
Local Notation sok := (stream_ok P).
Local Notation encrel := (enc_rel P).
Local Notation encsrel := (encs_rel P).
Local Notation fbytes := (frame_bytes P).

Lemma mulB_le m n : m <= n -> m * B <= n * B.
Proof. intros H. apply N.mul_le_mono_r. exact H. Qed.

Lemma mulB_le_inv m n : m * B <= n * B -> m <= n.
Proof. intros H. apply (N.mul_le_mono_pos_r m n B); [lia | exact H]. Qed.

Lemma mulB_lt_inv m n : m * B < n * B -> m < n.
Proof. intros H. apply (N.mul_lt_mono_pos_r B m n); [lia | exact H]. Qed.

Lemma blocks_below m n x : m * B <= n * B + x -> x < B -> m * B <= n * B.
Proof.
  intros H Hx. apply mulB_le.
  destruct (N.le_gt_cases m n) as [Hle|Hgt]; [exact Hle|].
  assert (Hn : n + 1 <= m) by lia.
  pose proof (mulB_le _ _ Hn). lia.
Qed.

Lemma blocks_above m n x : n * B + x <= m * B -> 0 < x -> (n + 1) * B <= m * B.
Proof. apply (blocks_room P HBS_lo HBS_hi). Qed.

Lemma kc_unique k c k' c' : k * B + c = k' * B + c' -> c < B -> c' < B -> k = k' /\ c = c'.
Proof.
  intros H Hc Hc'.
  assert (Hcc : c = c').
  { rewrite <- (mod_kc P HBS_lo HBS_hi k c Hc), <- (mod_kc P HBS_lo HBS_hi k' c' Hc'). now rewrite H. }
  split; [|exact Hcc]. subst c'.
  apply (N.mul_cancel_r k k' B); lia.
Qed.

Lemma pad_geom a :
  exists k' c',
    a + lenN (padof a) = k' * B + c' /\ c' + 7 <= B /\
    max_writable P (B - a mod B) = B - c' - 7 /\
    (lenN (padof a) = 0 \/
     (c' = 0 /\ 0 < lenN (padof a) < 7 /\ exists k0, k' = k0 + 1 /\ a = k0 * B + (B - lenN (padof a)))).
Proof.
  pose proof (N.div_mod a B) as Hdm. pose proof (mod_lt_B P HBS_lo HBS_hi a) as Hm.
  rewrite lenN_pad_of, max_writable_eq.
  set (m := a mod B) in *. set (q := a / B) in *. clearbody m q.
  destruct (N.ltb_spec (B - m) 7) as [Hlt|Hge].
  - exists (q + 1), 0. destruct (N.leb_spec 7 (B - m)) as [Hle|_]; [lia|].
    repeat split; try lia. right. repeat split; try lia. exists q. split; lia.
  - exists q, m. destruct (N.leb_spec 7 (B - m)) as [_|Hgt]; [|lia].
    repeat split; lia.
Qed.

Lemma blk_slice (S : bytes) k c d pre X post :
  S = pre ++ X ++ post -> lenN pre = k * B + c -> c + lenN X = d -> d <= B ->
  sliceN c d (sliceN (k * B) ((k + 1) * B) S) = X.
Proof.
  intros HS Hpre HX Hd. rewrite sliceN_sliceN by lia. rewrite HS.
  apply sliceN_app_mid'; [exact Hpre | lia].
Qed.

Definition rd_of (S : bytes) (k : N) : vecr :=
  mkVecR (dropN ((k + 1) * B) S) (sliceN (k * B) ((k + 1) * B) S).

Lemma rd_at_eq S k c : rdat S k c = mkFR (rd_of S k) c false.
Proof. reflexivity. Qed.

(* header bytes H at (k, c) that are not all zero but whose type byte is not a frame type *)
Lemma read_frame_badtype S k c pre H post :
  S = pre ++ H ++ post -> lenN pre = k * B + c -> lenN H = 7 -> c + 7 <= B ->
  all_zero H = false -> ft_of_code (le_dec (dropN 6 H)) = None ->
  rframe (rdat S k c) = (mkFR (rd_of S k) c true, FCorrupt).
Proof.
  intros HS Hpre HH Hc Hnz Hty.
  assert (Hhdr : sliceN c (c + 7) (sliceN (k * B) ((k + 1) * B) S) = H).
  { apply (blk_slice S k c (c + 7) pre H post); try assumption; lia. }
  unfold read_frame, StreamProofs.rd_at, HEADER_LEN. cbn [fr_corrupt fr_cursor fr_rd orb vr_block].
  destruct (N.ltb_spec (B - c) 7) as [Hlt|_]; [lia|].
  cbn [fr_corrupt fr_cursor fr_rd orb vr_block].
  rewrite Hhdr, Hnz, Hty. reflexivity.
Qed.

(* a complete header followed by an arbitrary payload pl of the announced length *)
Lemma read_frame_payload S k c pre crc ty pl post :
  S = pre ++ header_bytes crc (lenN pl) ty ++ pl ++ post -> lenN pre = k * B + c ->
  c + 7 + lenN pl <= B -> crc < 2 ^ 32 ->
  rframe (rdat S k c) =
    (rdat S k (c + 7 + lenN pl),
     if crcf P (n2b (ft_code ty)) pl =? crc then FOk ty pl else FCorrupt).
Proof.
  intros HS Hpre Hfit Hcr.
  assert (Hhdr : sliceN c (c + 7) (sliceN (k * B) ((k + 1) * B) S) = header_bytes crc (lenN pl) ty).
  { apply (blk_slice S k c (c + 7) pre _ (pl ++ post)); try assumption; [rewrite lenN_header|]; lia. }
  assert (Hpay : sliceN (c + 7) (c + 7 + lenN pl) (sliceN (k * B) ((k + 1) * B) S) = pl).
  { apply (blk_slice S k (c + 7) (c + 7 + lenN pl) (pre ++ header_bytes crc (lenN pl) ty) pl post).
    - rewrite HS, <- app_assoc. reflexivity.
    - rewrite lenN_app, lenN_header. lia.
    - reflexivity.
    - lia. }
  unfold read_frame, StreamProofs.rd_at, HEADER_LEN. cbn [fr_corrupt fr_cursor fr_rd orb vr_block].
  destruct (N.ltb_spec (B - c) 7) as [Hlt|_]; [lia|].
  cbn [fr_corrupt fr_cursor fr_rd orb vr_block].
  rewrite Hhdr, header_not_zero, header_type, ft_of_code_code.
  rewrite header_len by (change (2 ^ 16) with 65536; lia).
  rewrite header_crc by exact Hcr.
  destruct (N.ltb_spec B (c + 7 + lenN pl)) as [Hlt|_]; [lia|].
  rewrite Hpay.
  destruct (crcf P (n2b (ft_code ty)) pl =? crc); reflexivity.
Qed.

(* after a bad header the reader resumes at the next block *)
Lemma read_frame_corruptflag S k c :
  (k + 2) * B <= lenN S ->
  rframe (mkFR (rd_of S k) c true) = rframe (rdat S (k + 1) 0).
Proof.
  intros Hlen. unfold read_frame, StreamProofs.rd_at, rd_of, HEADER_LEN.
  cbn [fr_corrupt fr_cursor fr_rd orb].
  destruct (N.ltb_spec (B - 0) 7) as [Hlt|_]; [lia|].
  unfold vr_next. cbn [vr_rest vr_block].
  rewrite lenN_dropN.
  destruct (N.ltb_spec (lenN S - (k + 1) * B) B) as [Hlt|_]; [lia|].
  rewrite dropN_dropN.
  replace ((k + 1) * B + B) with ((k + 1 + 1) * B) by lia.
  replace (takeN B (dropN ((k + 1) * B) S)) with (sliceN ((k + 1) * B) ((k + 1 + 1) * B) S)
    by (unfold sliceN; f_equal; lia).
  reflexivity.
Qed.

(* the reader is at absolute position r, with room for a header in the current block *)
Definition at_posn (S : bytes) (fr : freader vecr) (r : N) : Prop :=
  exists k c, r = k * B + c /\ c + 7 <= B /\ (k + 1) * B <= lenN S /\ fr = rdat S k c.

(* the next read_frame of fr behaves as that of a reader at position r *)
Definition reads_at (S : bytes) (fr : freader vecr) (r : N) : Prop :=
  exists fr0, at_posn S fr0 r /\ rframe fr = rframe fr0.

Lemma at_pos_eq S fr a a' : atpos S fr a -> a = a' -> atpos S fr a'.
Proof. intros H <-. exact H. Qed.

Lemma at_posn_at_pos S fr r : at_posn S fr r -> atpos S fr r.
Proof. intros (k & c & Hr & Hc & Hb & Hfr). exists k, c. repeat split; try assumption; lia. Qed.

Lemma at_posn_reads_at S fr r : at_posn S fr r -> reads_at S fr r.
Proof. intros H. exists fr. split; [exact H | reflexivity]. Qed.

Lemma block_exists S k c x : sok S -> k * B + c + x <= lenN S -> 0 < x -> (k + 1) * B <= lenN S.
Proof.
  intros [m Hm] H Hx. rewrite Hm in *. apply (blocks_above m k (c + x)); lia.
Qed.

(* the reader at a reads like a reader at the start of the frame written at cursor a *)
Lemma at_pos_pad S fr a k' c' :
  sok S -> atpos S fr a ->
  a + lenN (padof a) = k' * B + c' -> c' + 7 <= B -> (k' + 1) * B <= lenN S ->
  rframe fr = rframe (rdat S k' c').
Proof.
  intros Hok (k & c & Ha & Hc & Hblk & Hfr) Ha' Hc' Hblk'. subst fr.
  rewrite lenN_pad_of in Ha'.
  destruct (N.ltb_spec (B - c) 7) as [Hskip|Hno].
  - assert (Hnext : a + (if B - a mod B <? 7 then B - a mod B else 0) = (k + 1) * B + 0).
    { destruct (N.eq_dec c B) as [E|E].
      - assert (Hmod : a mod B = 0) by (rewrite Ha, E; apply (mod_kB P HBS_lo HBS_hi)).
        rewrite Hmod. destruct (N.ltb_spec (B - 0) 7) as [Hlt|_]; lia.
      - assert (Hmod : a mod B = c) by (rewrite Ha; apply (mod_kc P HBS_lo HBS_hi); lia).
        rewrite Hmod. destruct (N.ltb_spec (B - c) 7) as [_|Hge]; lia. }
    rewrite Hnext in Ha'.
    destruct (kc_unique _ _ _ _ Ha') as [Hk Hcc]; [lia | lia |]. subst k' c'.
    apply (read_frame_skip P HBS_lo HBS_hi Hcrc); [exact Hskip | lia].
  - assert (Hmod : a mod B = c) by (rewrite Ha; apply (mod_kc P HBS_lo HBS_hi); lia).
    rewrite Hmod in Ha'. destruct (N.ltb_spec (B - c) 7) as [Hlt|_]; [lia|].
    rewrite Ha, N.add_0_r in Ha'.
    destruct (kc_unique _ _ _ _ Ha') as [Hk Hcc]; [lia | lia |]. subst k' c'. reflexivity.
Qed.

(* fr is the state (block k, cursor c, flag fl) at byte position p; its next read_frame
   examines position r (p itself, or the start of the next block when the block is flagged
   corrupt or has fewer than 7 bytes left) *)
Definition lands (S : bytes) (fr : freader vecr) (p r : N) : Prop :=
  exists k c fl, fr = mkFR (rd_of S k) c fl /\ (k + 1) * B <= lenN S /\ c <= B /\ p = k * B + c /\
    ((fl = false /\ c + 7 <= B /\ r = p) \/ ((fl = true \/ B < c + 7) /\ r = (k + 1) * B)).

Lemma at_pos_lands S fr a : atpos S fr a -> lands S fr a (a + lenN (padof a)).
Proof.
  intros (k & c & Ha & Hc & Hblk & Hfr).
  exists k, c, false. split; [exact Hfr|]. split; [exact Hblk|]. split; [exact Hc|].
  split; [exact Ha|]. rewrite lenN_pad_of.
  destruct (N.eq_dec c B) as [Ec|Hne].
  - right. split; [right; lia|]. subst c. rewrite Ha, (mod_kB P HBS_lo HBS_hi).
    destruct (N.ltb_spec (B - 0) 7); lia.
  - rewrite Ha, (mod_kc P HBS_lo HBS_hi) by lia.
    destruct (N.ltb_spec (B - c) 7) as [Hlt|Hge].
    + right. split; [right; lia | lia].
    + left. repeat split; lia.
Qed.

(* a reader that must leave its block reads like one at the start of the next block *)
Lemma read_frame_leave S k c fl :
  fl = true \/ B < c + 7 -> (k + 2) * B <= lenN S ->
  rframe (mkFR (rd_of S k) c fl) = rframe (rdat S (k + 1) 0).
Proof.
  intros Hskip Hnext. destruct fl.
  - apply read_frame_corruptflag. exact Hnext.
  - destruct Hskip as [Hf|Hc7]; [discriminate|].
    apply (read_frame_skip P HBS_lo HBS_hi Hcrc); [lia | exact Hnext].
Qed.

Lemma lands_reads_at S fr p r : sok S -> lands S fr p r -> r + 7 <= lenN S -> reads_at S fr r.
Proof.
  intros Hok (k & c & fl & -> & Hblk & Hc & Hp & [(-> & Hc7 & ->) | (Hskip & ->)]) Hr.
  - apply at_posn_reads_at. exists k, c. repeat split; assumption.
  - assert (Hnext : (k + 2) * B <= lenN S).
    { replace ((k + 2) * B) with ((k + 1 + 1) * B) by lia.
      apply (block_exists S (k + 1) 0 7 Hok); lia. }
    exists (rdat S (k + 1) 0). split.
    + exists (k + 1), 0. repeat split; lia.
    + apply read_frame_leave; assumption.
Qed.

Lemma go_next_corrupt fuel fr fr' rbuf within :
  rframe fr = (fr', FCorrupt) ->
  gonext (Datatypes.S fuel) (mkRR fr rbuf within) = (mkRR fr' rbuf false, RCorrupt).
Proof. intros Hrf. cbn [go_next rr_fr rr_buf rr_within]. rewrite Hrf. reflexivity. Qed.

Lemma go_next_ignored fuel fr fr' rbuf l fp :
  rframe fr = (fr', FOk (frame_type false l) fp) ->
  gonext (Datatypes.S fuel) (mkRR fr rbuf false) = gonext fuel (mkRR fr' rbuf false).
Proof.
  intros Hrf. cbn [go_next rr_fr rr_buf rr_within]. rewrite Hrf, is_first_frame_type. reflexivity.
Qed.

Lemma go_next_notavail fuel fr fr' rbuf within :
  rframe fr = (fr', FNotAvail) ->
  gonext (Datatypes.S fuel) (mkRR fr rbuf within) = (mkRR fr' rbuf within, REnd).
Proof. intros Hrf. cbn [go_next rr_fr rr_buf rr_within]. rewrite Hrf. reflexivity. Qed.

(* the CRC of a frame payload coincides with that of one of its proper zero-completed prefixes.
   Frame payloads have at most B - 7 bytes; the bound matters: without it no_zero_collision
   below would contradict Hcrc by pigeonhole (see NzcVacuous.v) *)
Definition crc_collision : Prop :=
  exists ty fp n, lenN fp + 7 <= B /\ n < lenN fp /\
    takeN n fp ++ zerosN (lenN fp - n) <> fp /\
    crcf P ty (takeN n fp ++ zerosN (lenN fp - n)) = crcf P ty fp.

Lemma pad_all_zero a : all_zero (padof a) = true.
Proof. unfold pad_of. destruct (B - a mod B <? 7); [apply all_zero_zerosN | reflexivity]. Qed.

(* One frame cut after j bytes: (r, W) is what the torn bytes and the zeros up to r look like to
   the reader, and the reader part gives the explicit state after at most one read_frame, for
   any stream that holds W at a (no spare block is needed after it). *)
Lemma torn_frame_st a ty fp j :
  lenN fp <= max_writable P (B - a mod B) ->
  j < lenN (padof a ++ fbytes ty fp) ->
  exists r W,
    a <= r /\ lenN W = r - a /\
    (forall z, r <= a + j + z ->
       takeN j (padof a ++ fbytes ty fp) ++ zerosN z = W ++ zerosN (a + j + z - r)) /\
    (forall m, a + j <= m * B -> r <= m * B) /\
    (forall m, m * B <= a + j -> m * B <= r) /\
    forall S pre post fr,
      sok S -> atpos S fr a -> S = pre ++ W ++ post -> lenN pre = a ->
      exists p, a <= p /\ p <= r /\
        ((lands S fr p r /\ tail_ok (pre ++ W) fr p r)
         \/ (exists fr', rframe fr = (fr', FCorrupt) /\
               lands S fr' p r /\ tail_ok (pre ++ W) fr' p r /\ a + 7 <= r)
         \/ (exists fr' fp', rframe fr = (fr', FOk ty fp') /\
               lands S fr' p r /\ tail_ok (pre ++ W) fr' p r /\
               p = a + lenN (padof a) + 7 + lenN fp /\
               ((fp' = fp /\ all_zero (dropN j (padof a ++ fbytes ty fp)) = true)
                \/ (fp' <> fp /\ crc_collision)))).
Proof.
  intros Hfp Hj.
  destruct (pad_geom a) as (k' & c' & Ha' & Hc' & Hmw & Hpadcase).
  rewrite Hmw in Hfp. clear Hmw.
  pose proof (pad_all_zero a) as Hpadz.
  set (pad := padof a) in *. set (lp := lenN pad) in *.
  unfold frame_bytes in *.
  set (tyb := n2b (ft_code ty)) in *.
  set (crc := crcf P tyb fp) in *.
  set (hb := header_bytes crc (lenN fp) ty) in *.
  assert (Hlhb : lenN hb = 7) by apply lenN_header.
  set (L := lenN fp) in *.
  assert (Hjlen : j < lp + (7 + L)).
  { rewrite !lenN_app, Hlhb in Hj. fold lp L in Hj. exact Hj. }
  destruct (all_zero (takeN j (pad ++ hb ++ fp))) eqn:Hz.
  - (* everything present is zero: invisible *)
    exists (a + lp), pad.
    split; [lia|]. split; [fold lp; lia|]. split.
    { intros z Hr.
      rewrite (zeros_merge _ z (j + z) Hz), (zeros_merge pad _ (j + z) Hpadz); [reflexivity| |].
      - fold lp. lia.
      - rewrite lenN_takeN, !lenN_app, Hlhb. fold lp L. lia. }
    split.
    { intros m Hm. destruct Hpadcase as [H0 | (Hc0 & Hlp & k0 & Hk' & Ha0)]; [lia|].
      rewrite Ha'. subst c' k'. rewrite N.add_0_r.
      apply (blocks_above m k0 (B - lp + j)); lia. }
    split.
    { intros m Hm. destruct (N.le_gt_cases j lp) as [Hle|Hgt]; [lia|].
      assert (Hq : j - lp < 7).
      { destruct (N.lt_ge_cases (j - lp) 7) as [Hlt|Hge]; [exact Hlt|]. exfalso.
        rewrite takeN_app_ge in Hz by (fold lp; lia). fold lp in Hz.
        apply all_zero_app_inv in Hz as [_ Hz].
        rewrite takeN_app_ge in Hz by lia.
        apply all_zero_app_inv in Hz as [Hz _].
        unfold hb in Hz. rewrite header_not_zero in Hz. discriminate. }
      rewrite Ha'. apply N.le_trans with (k' * B); [|lia].
      apply (blocks_below m k' (c' + (j - lp))); lia. }
    intros S pre post fr Hok Hat HS Hpre.
    exists a. split; [lia|]. split; [lia|]. left. split.
    + exact (at_pos_lands S fr a Hat).
    + left. split.
      * destruct Hat as (k & c & _ & _ & _ & ->). reflexivity.
      * rewrite dropN_app_exact' by exact Hpre. exact Hpadz.
  - (* some nonzero byte of the frame is present *)
    assert (Hjl : lp < j).
    { destruct (N.le_gt_cases j lp) as [Hle|Hgt]; [|exact Hgt]. exfalso.
      rewrite takeN_app_le in Hz by (fold lp; exact Hle).
      rewrite (all_zero_takeN j pad Hpadz) in Hz. discriminate. }
    set (q := j - lp).
    assert (Htk : takeN j (pad ++ hb ++ fp) = pad ++ takeN q (hb ++ fp)).
    { rewrite takeN_app_ge by (fold lp; lia). reflexivity. }
    assert (Hqnz : all_zero (takeN q (hb ++ fp)) = false).
    { rewrite Htk, all_zero_app, Hpadz in Hz. exact Hz. }
    destruct (N.lt_ge_cases q 7) as [Hq7|Hq7].
    + (* cut inside the header: the type byte reads 0, the block is flagged *)
      assert (Htq : takeN q (hb ++ fp) = takeN q hb) by (apply takeN_app_le; lia).
      rewrite Htq in Hqnz.
      set (W := pad ++ takeN q hb ++ zerosN (B - c' - q)).
      assert (HlW : lenN W = (k' + 1) * B - a).
      { unfold W. rewrite !lenN_app, lenN_takeN, lenN_zerosN, Hlhb. fold lp. lia. }
      exists ((k' + 1) * B), W.
      split; [lia|]. split; [exact HlW|]. split.
      { intros z Hr. unfold W. rewrite Htk, Htq, <- !app_assoc, <- BytesProofs.zerosN_app.
        do 3 f_equal. lia. }
      split.
      { intros m Hm. apply (blocks_above m k' (c' + q)); lia. }
      split.
      { intros m Hm. lia. }
      intros S pre post fr Hok Hat HS Hpre.
      assert (Hblk : (k' + 1) * B <= lenN S) by (rewrite HS, !lenN_app, HlW, Hpre; lia).
      set (H := takeN q hb ++ zerosN (7 - q)).
      assert (HS' : S = (pre ++ pad) ++ H ++ (zerosN (B - c' - 7) ++ post)).
      { rewrite HS. unfold W, H. rewrite (zerosN_split (B - c' - q) (7 - q)) by lia.
        replace (B - c' - q - (7 - q)) with (B - c' - 7) by lia.
        rewrite <- !app_assoc. reflexivity. }
      exists (a + lp). split; [lia|]. split; [lia|].
      right. left. exists (mkFR (rd_of S k') c' true). split.
      { rewrite (at_pos_pad S fr a k' c' Hok Hat Ha' Hc' Hblk).
        apply (read_frame_badtype S k' c' (pre ++ pad) H _ HS').
        - rewrite lenN_app. fold lp. lia.
        - unfold H. rewrite lenN_app, lenN_takeN, lenN_zerosN, Hlhb. lia.
        - exact Hc'.
        - unfold H. rewrite all_zero_app, Hqnz. reflexivity.
        - unfold H, hb. rewrite torn_header_type by exact Hq7. reflexivity. }
      split; [exists k', c', true; repeat split; lia|].
      split; [|lia].
      right. split; [reflexivity|]. split; [|lia].
      unfold W. rewrite !app_assoc.
      rewrite dropN_app_ge by (rewrite !lenN_app, lenN_takeN, Hlhb, Hpre; fold lp; lia).
      apply all_zero_dropN, all_zero_zerosN.
    + (* the header is complete, the payload is cut *)
      set (n := q - 7).
      assert (Hn : n < L) by lia.
      assert (Htq : takeN q (hb ++ fp) = hb ++ takeN n fp).
      { rewrite takeN_app_ge by lia. rewrite Hlhb. reflexivity. }
      set (pl := takeN n fp ++ zerosN (L - n)).
      assert (Hlpl : lenN pl = L).
      { unfold pl. rewrite lenN_app, lenN_takeN, lenN_zerosN. fold L. lia. }
      set (p := a + lp + 7 + L).
      assert (Hrex : exists r, (r = k' * B + (c' + 7 + L) /\ c' + 7 + L + 7 <= B)
                            \/ (r = (k' + 1) * B /\ B < c' + 7 + L + 7)).
      { destruct (N.le_gt_cases (c' + 7 + L + 7) B) as [Hle|Hgt].
        - exists (k' * B + (c' + 7 + L)). left. split; [reflexivity | exact Hle].
        - exists ((k' + 1) * B). right. split; [reflexivity | exact Hgt]. }
      destruct Hrex as [r Hrc].
      assert (Hr0 : p <= r /\ r <= (k' + 1) * B) by (unfold p; lia).
      set (W := pad ++ hb ++ pl ++ zerosN (r - p)).
      assert (HlW : lenN W = r - a).
      { unfold W. rewrite !lenN_app, Hlpl, lenN_zerosN, Hlhb. fold lp. unfold p in *. lia. }
      exists r, W.
      split; [unfold p in Hr0; lia|]. split; [exact HlW|]. split.
      { intros z Hr. unfold W, pl, p. rewrite Htk, Htq, <- !app_assoc, <- !BytesProofs.zerosN_app.
        do 4 f_equal. lia. }
      split.
      { intros m Hm. apply N.le_trans with ((k' + 1) * B); [lia|].
        apply (blocks_above m k' (c' + q)); lia. }
      split.
      { intros m Hm. unfold p in Hr0. lia. }
      intros S pre post fr Hok Hat HS Hpre.
      assert (Hblk : (k' + 1) * B <= lenN S).
      { apply (block_exists S k' c' 7 Hok); [|lia].
        rewrite HS, !lenN_app, HlW, Hpre. unfold p in Hr0. lia. }
      assert (HS' : S = (pre ++ pad) ++ header_bytes crc (lenN pl) ty ++ pl ++
                        (zerosN (r - p) ++ post)).
      { rewrite HS, Hlpl. fold hb. unfold W. rewrite <- !app_assoc. reflexivity. }
      assert (Hrf : rframe (rdat S k' c') =
                (rdat S k' (c' + 7 + L), if crcf P tyb pl =? crc then FOk ty pl else FCorrupt)).
      { rewrite <- Hlpl at 1.
        apply (read_frame_payload S k' c' (pre ++ pad) crc ty pl _ HS').
        - rewrite lenN_app. fold lp. lia.
        - lia.
        - apply Hcrc. }
      rewrite <- (at_pos_pad S fr a k' c' Hok Hat Ha' Hc' Hblk) in Hrf.
      assert (Hlands : lands S (rdat S k' (c' + 7 + L)) p r).
      { exists k', (c' + 7 + L), false. split; [reflexivity|]. split; [exact Hblk|].
        split; [lia|]. split; [unfold p; lia|].
        destruct Hrc as [[Er Hle] | [Er Hgt]].
        - left. unfold p. repeat split; lia.
        - right. split; [right; lia | exact Er]. }
      assert (Htail : tail_ok (pre ++ W) (rdat S k' (c' + 7 + L)) p r).
      { left. split; [reflexivity|]. unfold W. rewrite !app_assoc.
        rewrite dropN_app_exact'; [apply all_zero_zerosN|].
        rewrite !lenN_app, Hlhb, Hlpl, Hpre. reflexivity. }
      exists p. split; [unfold p; lia|]. split; [lia|].
      destruct (N.eqb_spec (crcf P tyb pl) crc) as [Heq|Hne].
      * right. right. exists (rdat S k' (c' + 7 + L)), pl.
        split; [exact Hrf|]. split; [exact Hlands|]. split; [exact Htail|].
        split; [reflexivity|].
        destruct (bytes_eqb pl fp) eqn:E.
        -- apply bytes_eqb_eq in E. left. split; [exact E|].
           rewrite dropN_app_ge by (fold lp; lia). fold lp. fold q.
           rewrite dropN_app_ge by lia. rewrite Hlhb. fold n.
           assert (E' : takeN n fp ++ zerosN (L - n) = takeN n fp ++ dropN n fp)
             by (rewrite takeN_dropN; exact E).
           apply app_inv_head in E'. rewrite <- E'. apply all_zero_zerosN.
        -- apply bytes_eqb_neq in E. right. split; [exact E|].
           exists tyb, fp, n. fold L. fold pl. fold crc.
           split; [lia|]. repeat split; assumption.
      * right. left. exists (rdat S k' (c' + 7 + L)).
        split; [exact Hrf|]. split; [exact Hlands|]. split; [exact Htail|]. unfold p in Hr0. lia.
Qed.

(* torn_frame_st for a reader that only needs to be known through its next read_frame; this
   needs a header's worth of stream after r *)
Lemma torn_frame a ty fp j :
  lenN fp <= max_writable P (B - a mod B) ->
  j < lenN (padof a ++ fbytes ty fp) ->
  exists r W,
    a <= r /\ lenN W = r - a /\
    (forall z, r <= a + j + z ->
       takeN j (padof a ++ fbytes ty fp) ++ zerosN z = W ++ zerosN (a + j + z - r)) /\
    (forall m, a + j <= m * B -> r <= m * B) /\
    (forall m, m * B <= a + j -> m * B <= r) /\
    forall S pre post fr,
      sok S -> atpos S fr a -> S = pre ++ W ++ post -> lenN pre = a -> r + 7 <= lenN S ->
      reads_at S fr r
      \/ (exists fr', rframe fr = (fr', FCorrupt) /\ reads_at S fr' r /\ a + 7 <= r)
      \/ (exists fr' fp', rframe fr = (fr', FOk ty fp') /\ reads_at S fr' r /\ a + 7 + lenN fp <= r /\
            ((fp' = fp /\ all_zero (dropN j (padof a ++ fbytes ty fp)) = true)
             \/ (fp' <> fp /\ crc_collision))).
Proof.
  intros Hfp Hj.
  destruct (torn_frame_st a ty fp j Hfp Hj) as (r & W & Har & HlW & Hspec & Hup & Hlo & Hrd).
  exists r, W. split; [exact Har|]. split; [exact HlW|]. split; [exact Hspec|].
  split; [exact Hup|]. split; [exact Hlo|].
  intros S pre post fr Hok Hat HS Hpre Hr.
  destruct (Hrd S pre post fr Hok Hat HS Hpre) as (p & Hap & Hpr & Hcase).
  destruct Hcase as [[Hl _] | [(fr' & Hrf & Hl & _ & Hge) | (fr' & fp' & Hrf & Hl & _ & Hp & Hcase)]].
  - left. exact (lands_reads_at S fr p r Hok Hl Hr).
  - right. left. exists fr'. split; [exact Hrf|].
    split; [exact (lands_reads_at S fr' p r Hok Hl Hr) | exact Hge].
  - right. right. exists fr', fp'. split; [exact Hrf|].
    split; [exact (lands_reads_at S fr' p r Hok Hl Hr)|]. split; [lia | exact Hcase].
Qed.

(* what the record reader does on the torn encoding: n complete frames are consumed, then the
   reader is in the explicit state rr1 (position p1, next read at r; X is the stream up to r):
   silently, or after reporting the torn frame corrupt, or after accepting the last frame *)
Definition walk_st (S X : bytes) (a r : N) (f : bool) (p e : bytes) (j : N) (k : nat)
    (fr : freader vecr) (rbuf : bytes) (within : bool) : Prop :=
  exists n rr1 p1,
    (n <= k)%nat /\ 7 * N.of_nat n <= r - a /\ a <= p1 /\ p1 <= r /\
    lands S (rr_fr rr1) p1 r /\ tail_ok X (rr_fr rr1) p1 r /\
    ( (forall fuel', gonext (n + fuel') (mkRR fr rbuf within) = gonext fuel' rr1)
      \/ (7 * N.of_nat n + 7 <= r - a /\
          forall fuel', gonext (n + Datatypes.S fuel') (mkRR fr rbuf within) = (rr1, RCorrupt))
      \/ (7 * N.of_nat n + 7 <= r - a /\ a + lenN e <= p1 /\
          exists p', rr_buf rr1 = (if f then [] else rbuf) ++ p' /\
            (forall fuel', gonext (n + Datatypes.S fuel') (mkRR fr rbuf within) = (rr1, RRecord)) /\
            ((p' = p /\ all_zero (dropN j e) = true) \/ (p' <> p /\ crc_collision)))).

Lemma walk_st_silent S X a r f p e j k fr rbuf within p1 :
  a <= p1 -> p1 <= r -> lands S fr p1 r -> tail_ok X fr p1 r ->
  walk_st S X a r f p e j k fr rbuf within.
Proof.
  intros Hap Hpr Hl Ht. exists 0%nat, (mkRR fr rbuf within), p1.
  split; [lia|]. split; [lia|]. split; [exact Hap|]. split; [exact Hpr|].
  split; [exact Hl|]. split; [exact Ht|]. left. intros fuel'. reflexivity.
Qed.

Lemma walk_st_corrupt S X a r f p e j k fr fr' rbuf within p1 :
  rframe fr = (fr', FCorrupt) -> a + 7 <= r ->
  a <= p1 -> p1 <= r -> lands S fr' p1 r -> tail_ok X fr' p1 r ->
  walk_st S X a r f p e j k fr rbuf within.
Proof.
  intros Hrf Hge Hap Hpr Hl Ht. exists 0%nat, (mkRR fr' rbuf false), p1.
  split; [lia|]. split; [lia|]. split; [exact Hap|]. split; [exact Hpr|].
  split; [exact Hl|]. split; [exact Ht|]. right. left. split; [lia|].
  intros fuel'. exact (go_next_corrupt fuel' fr fr' rbuf within Hrf).
Qed.

Lemma torn_walk_st a f p e k :
  encrel a f p e k -> forall j, j < lenN e ->
  exists r W,
    a <= r /\ lenN W = r - a /\
    (forall z, r <= a + j + z -> takeN j e ++ zerosN z = W ++ zerosN (a + j + z - r)) /\
    (forall m, a + j <= m * B -> r <= m * B) /\
    (forall m, m * B <= a + j -> m * B <= r) /\
    forall S pre post fr rbuf within,
      sok S -> atpos S fr a -> S = pre ++ W ++ post -> lenN pre = a ->
      (f = true \/ within = true) ->
      walk_st S (pre ++ W) a r f p e j k fr rbuf within.
Proof.
  induction 1 as [a f p Hd | a f p e k Hd Hr IH]; intros j Hj.
  - (* the torn frame is the last one of the record *)
    set (fp := takeN (chunkof a p) p) in *.
    assert (Hpfp : fp = p) by exact (takeN_whole p _ Hd).
    destruct (torn_frame_st a (frame_type f true) fp j
                (chunk_le_maxw P HBS_lo HBS_hi Hcrc a p) Hj)
      as (r & W & Har & HlW & Hspec & Hup & Hlo & Hrd).
    exists r, W. split; [exact Har|]. split; [exact HlW|]. split; [exact Hspec|].
    split; [exact Hup|]. split; [exact Hlo|].
    intros S pre post fr rbuf within Hok Hat HS Hpre Hfw.
    destruct (Hrd S pre post fr Hok Hat HS Hpre) as (p1 & Hap & Hpr & Hcase).
    destruct Hcase as [[Hl Ht] | [(fr' & Hrf & Hl & Ht & Hge)
                                 | (fr' & fp' & Hrf & Hl & Ht & Hp1 & Hcase)]].
    + exact (walk_st_silent _ _ _ _ _ _ _ _ _ _ _ _ _ Hap Hpr Hl Ht).
    + exact (walk_st_corrupt _ _ _ _ _ _ _ _ _ _ _ _ _ _ Hrf Hge Hap Hpr Hl Ht).
    + exists 0%nat, (mkRR fr' ((if f then [] else rbuf) ++ fp') false), p1.
      split; [lia|]. split; [lia|]. split; [exact Hap|]. split; [exact Hpr|].
      split; [exact Hl|]. split; [exact Ht|].
      right. right. split; [lia|]. split.
      { rewrite Hp1, !lenN_app, (lenN_frame_bytes P). lia. }
      exists fp'. split; [reflexivity|]. split.
      * intros fuel'. exact (go_next_frame P fuel' fr fr' rbuf within f true fp' Hrf Hfw).
      * rewrite <- Hpfp. exact Hcase.
  - (* at least one more frame follows *)
    set (fp := takeN (chunkof a p) p) in *.
    set (fb := fbytes (frame_type f false) fp) in *.
    assert (Hlfp : lenN fp = chunkof a p) by apply (lenN_take_chunk P HBS_lo HBS_hi Hcrc).
    assert (Hl1 : lenN (padof a ++ fb) = lenN (padof a) + 7 + chunkof a p).
    { unfold fb. rewrite lenN_app, (lenN_frame_bytes P), Hlfp. lia. }
    destruct (N.lt_ge_cases j (lenN (padof a ++ fb))) as [Hcut|Hcut].
    + (* the cut is in this frame *)
      destruct (torn_frame_st a (frame_type f false) fp j
                  (chunk_le_maxw P HBS_lo HBS_hi Hcrc a p) Hcut)
        as (r & W & Har & HlW & Hspec & Hup & Hlo & Hrd).
      fold fb in Hspec, Hrd.
      exists r, W. split; [exact Har|]. split; [exact HlW|]. split.
      { intros z Hz. rewrite app_assoc, takeN_app_le by lia. apply Hspec. exact Hz. }
      split; [exact Hup|]. split; [exact Hlo|].
      intros S pre post fr rbuf within Hok Hat HS Hpre Hfw.
      destruct (Hrd S pre post fr Hok Hat HS Hpre) as (p1 & Hap & Hpr & Hcase).
      destruct Hcase as [[Hl Ht] | [(fr' & Hrf & Hl & Ht & Hge)
                                   | (fr' & fp' & Hrf & Hl & Ht & Hp1 & _)]].
      * exact (walk_st_silent _ _ _ _ _ _ _ _ _ _ _ _ _ Hap Hpr Hl Ht).
      * exact (walk_st_corrupt _ _ _ _ _ _ _ _ _ _ _ _ _ _ Hrf Hge Hap Hpr Hl Ht).
      * (* accepted as a middle frame; whatever it holds is never delivered *)
        exists 1%nat, (mkRR fr' ((if f then [] else rbuf) ++ fp') true), p1.
        split; [lia|]. split; [lia|]. split; [exact Hap|]. split; [exact Hpr|].
        split; [exact Hl|]. split; [exact Ht|].
        left. intros fuel'. exact (go_next_frame P fuel' fr fr' rbuf within f false fp' Hrf Hfw).
    + (* this frame is complete *)
      set (l1 := lenN (padof a ++ fb)) in *.
      assert (Hj1 : j - l1 < lenN e).
      { rewrite app_assoc, lenN_app in Hj. fold l1 in Hj. lia. }
      destruct (IH (j - l1) Hj1) as (r & W & Har & HlW & Hspec & Hup & Hlo & Hrd).
      set (a1 := a + lenN (padof a) + 7 + chunkof a p) in *.
      assert (Ha1 : a1 = a + l1) by lia.
      exists r, (padof a ++ fb ++ W).
      split; [lia|]. split.
      { rewrite app_assoc, lenN_app. fold l1. lia. }
      split.
      { intros z Hz. rewrite (app_assoc (padof a) fb e), takeN_app_ge by (fold l1; lia).
        fold l1. rewrite <- !app_assoc. do 2 f_equal.
        replace (a + j + z - r) with (a1 + (j - l1) + z - r) by lia.
        apply Hspec. lia. }
      split.
      { intros m Hm. apply Hup. lia. }
      split.
      { intros m Hm. apply Hlo. lia. }
      intros S pre post fr rbuf within Hok Hat HS Hpre Hfw.
      rewrite <- !app_assoc in HS.
      destruct (read_frame_at P HBS_lo HBS_hi Hcrc S fr a pre _ _ (W ++ post) Hok Hat HS Hpre
                  (chunk_le_maxw P HBS_lo HBS_hi Hcrc a p)) as (fr' & Hrf & Hat').
      fold fp in Hrf, Hat'. rewrite Hlfp in Hat'. fold a1 in Hat'.
      destruct (Hrd S (pre ++ padof a ++ fb) post fr'
                  ((if f then [] else rbuf) ++ fp) true Hok Hat')
        as (n & rr1 & p1 & Hnk & Hn & Hap & Hpr & Hl & Ht & Hout).
      { rewrite HS, <- !app_assoc. reflexivity. }
      { rewrite lenN_app. fold l1. lia. }
      { right. reflexivity. }
      assert (Hstep : forall g, gonext (Datatypes.S n + g) (mkRR fr rbuf within) =
                                gonext (n + g) (mkRR fr' ((if f then [] else rbuf) ++ fp) true)).
      { intros g. exact (go_next_frame P (n + g) fr fr' rbuf within f false fp Hrf Hfw). }
      exists (Datatypes.S n), rr1, p1. split; [lia|]. split; [lia|]. split; [lia|].
      split; [exact Hpr|]. split; [exact Hl|]. split.
      { rewrite <- !app_assoc in Ht. exact Ht. }
      destruct Hout as [Hsil | [[Hn7 Hcor] | (Hn7 & Hend & p' & Hbuf & Hrec & Hcase)]].
      * left. intros fuel'. rewrite Hstep. apply Hsil.
      * right. left. split; [lia|]. intros fuel'. rewrite Hstep. apply Hcor.
      * right. right. split; [lia|]. split.
        { rewrite (app_assoc (padof a) fb e), lenN_app. fold l1. lia. }
        exists (fp ++ p'). split.
        { rewrite Hbuf. cbn match. rewrite <- app_assoc. reflexivity. }
        split.
        { intros fuel'. rewrite Hstep. apply Hrec. }
        destruct Hcase as [[Hp' Hz] | [Hp' Hcol]].
        -- left. split.
           ++ rewrite Hp'. apply takeN_dropN.
           ++ rewrite (app_assoc (padof a) fb e), dropN_app_ge by (fold l1; lia). exact Hz.
        -- right. split; [|exact Hcol]. intros E. apply Hp'.
           rewrite <- (takeN_dropN (chunkof a p) p) in E. fold fp in E.
           apply app_inv_head in E. exact E.
Qed.

(* what the record reader does on the torn encoding, up to (excluding) its read at r *)
Definition walk_out (S : bytes) (a r : N) (f : bool) (p e : bytes) (j : N)
    (fr : freader vecr) (rbuf : bytes) (within : bool) : Prop :=
  exists n rr1,
    7 * N.of_nat n <= r - a /\ reads_at S (rr_fr rr1) r /\
    ( (* complete frames of the record are consumed silently *)
      (forall fuel', gonext (n + fuel') (mkRR fr rbuf within) = gonext fuel' rr1)
      \/ (* ... then the torn frame is reported corrupt *)
      (7 * N.of_nat n + 7 <= r - a /\
       forall fuel', gonext (n + Datatypes.S fuel') (mkRR fr rbuf within) = (rr1, RCorrupt))
      \/ (* ... then the last frame is accepted *)
      (7 * N.of_nat n + 7 <= r - a /\
       exists p', rr_buf rr1 = (if f then [] else rbuf) ++ p' /\
         (forall fuel', gonext (n + Datatypes.S fuel') (mkRR fr rbuf within) = (rr1, RRecord)) /\
         ((p' = p /\ all_zero (dropN j e) = true) \/ (p' <> p /\ crc_collision)))).

Lemma walk_st_out S X a r f p e j k fr rbuf within :
  sok S -> r + 7 <= lenN S ->
  walk_st S X a r f p e j k fr rbuf within -> walk_out S a r f p e j fr rbuf within.
Proof.
  intros Hok Hr (n & rr1 & p1 & _ & Hn & _ & _ & Hl & _ & Hout).
  exists n, rr1. split; [exact Hn|]. split; [exact (lands_reads_at S _ p1 r Hok Hl Hr)|].
  destruct Hout as [Hsil | [Hcor | (Hn7 & _ & Hrec)]].
  - left. exact Hsil.
  - right. left. exact Hcor.
  - right. right. split; [exact Hn7 | exact Hrec].
Qed.

Lemma torn_walk a f p e k :
  encrel a f p e k -> forall j, j < lenN e ->
  exists r W,
    a <= r /\ lenN W = r - a /\
    (forall z, r <= a + j + z -> takeN j e ++ zerosN z = W ++ zerosN (a + j + z - r)) /\
    (forall m, a + j <= m * B -> r <= m * B) /\
    (forall m, m * B <= a + j -> m * B <= r) /\
    forall S pre post fr rbuf within,
      sok S -> atpos S fr a -> S = pre ++ W ++ post -> lenN pre = a -> r + 7 <= lenN S ->
      (f = true \/ within = true) ->
      walk_out S a r f p e j fr rbuf within.
Proof.
  intros He j Hj.
  destruct (torn_walk_st a f p e k He j Hj) as (r & W & Har & HlW & Hspec & Hup & Hlo & Hrd).
  exists r, W. split; [exact Har|]. split; [exact HlW|]. split; [exact Hspec|].
  split; [exact Hup|]. split; [exact Hlo|].
  intros S pre post fr rbuf within Hok Hat HS Hpre Hrlen Hfw.
  exact (walk_st_out S _ a r f p e j k fr rbuf within Hok Hrlen
           (Hrd S pre post fr rbuf within Hok Hat HS Hpre Hfw)).
Qed.

(* the read loop, also returning the final reader *)
Fixpoint mem_read_fin (fuel gofuel : nat) (rr : rreader vecr) : list mem_read * rreader vecr :=
  match fuel with
  | O => ([MrFuel], rr)
  | Datatypes.S fuel' =>
      match gonext gofuel rr with
      | (rr', RRecord) =>
          let res := mem_read_fin fuel' gofuel rr' in (MrEntry (rr_buf rr') :: fst res, snd res)
      | (rr', RCorrupt) =>
          let res := mem_read_fin fuel' gofuel rr' in (MrCorrupt :: fst res, snd res)
      | (rr', REnd) => ([MrEnd], rr')
      | (rr', RIo _) => ([MrEnd], rr')
      | (rr', RFuel) => ([MrFuel], rr')
      end
  end.

Lemma mem_read_fin_fst fuel gofuel : forall rr,
  fst (mem_read_fin fuel gofuel rr) = mem_read_all P fuel gofuel rr.
Proof.
  induction fuel as [|fuel IH]; intros rr; [reflexivity|].
  cbn [mem_read_fin mem_read_all].
  destruct (gonext gofuel rr) as [rr' [| | | |]]; cbn [fst]; try reflexivity.
  - now rewrite IH.
  - now rewrite IH.
Qed.

Definition rr_start (S : bytes) : rreader vecr :=
  rr_open vecr (mkVecR (dropN B S) (takeN B S)).

Lemma rr_start_at S : B <= lenN S -> atpos S (rr_fr (rr_start S)) 0.
Proof.
  intros H. exists 0, 0. repeat split; try lia.
  unfold rr_start, rr_open, fr_open, StreamProofs.rd_at. cbn [rr_fr]. unfold sliceN.
  replace ((0 + 1) * B) with B by lia. replace (0 * B) with 0 by lia.
  rewrite dropN_0, N.sub_0_r. reflexivity.
Qed.

Lemma gonext_cong fuel fr fr0 b w :
  rframe fr = rframe fr0 ->
  gonext (Datatypes.S fuel) (mkRR fr b w) = gonext (Datatypes.S fuel) (mkRR fr0 b w).
Proof.
  intros H. cbn [go_next rr_fr rr_buf rr_within]. rewrite H. reflexivity.
Qed.

Lemma at_pos_unique S fr r1 r2 : atpos S fr r1 -> atpos S fr r2 -> r1 = r2.
Proof.
  intros (k1 & c1 & H1 & Hc1 & Hb1 & Hf1) (k2 & c2 & H2 & Hc2 & Hb2 & Hf2).
  rewrite Hf1 in Hf2. unfold StreamProofs.rd_at in Hf2. inversion Hf2 as [[Hrest Hblk Hc]].
  assert (Hl : lenN (dropN ((k1 + 1) * B) S) = lenN (dropN ((k2 + 1) * B) S)) by now rewrite Hrest.
  rewrite !lenN_dropN in Hl.
  assert (Hk : (k1 + 1) * B = (k2 + 1) * B) by lia.
  apply N.mul_cancel_r in Hk; [|lia]. subst. f_equal. f_equal. lia.
Qed.

Lemma read_all_entries_fin a es t :
  encsrel a es t ->
  forall S pre post rr gofuel fuel2,
    sok S -> atpos S (rr_fr rr) a -> S = pre ++ t ++ post -> lenN pre = a ->
    lenN t <= 7 * N.of_nat gofuel ->
    exists rr',
      atpos S (rr_fr rr') (a + lenN t) /\
      mem_read_fin (length es + fuel2) gofuel rr =
        (map MrEntry es ++ fst (mem_read_fin fuel2 gofuel rr'), snd (mem_read_fin fuel2 gofuel rr')).
Proof.
  induction 1 as [a | a p ps e k t He Hes IH];
    intros S pre post rr gofuel fuel2 Hok Hat HS Hpre Hgf.
  - exists rr. rewrite (@lenN_nil byte), N.add_0_r. split; [exact Hat|].
    cbn [length Nat.add map app]. now destruct (mem_read_fin fuel2 gofuel rr).
  - destruct rr as [fr rbuf within]. cbn [rr_fr] in Hat.
    rewrite <- app_assoc in HS. rewrite lenN_app in Hgf.
    pose proof (enc_rel_frames P HBS_lo HBS_hi Hcrc _ _ _ _ _ He) as [Hk _].
    destruct (go_next_record P HBS_lo HBS_hi Hcrc a true p e k He S pre (t ++ post) fr rbuf within
                gofuel Hok Hat HS Hpre) as (fr' & Hgo & Hat'); [left; reflexivity | lia |].
    destruct (IH S (pre ++ e) post (mkRR fr' ([] ++ p) false) gofuel fuel2) as (rr' & Hat'' & Hrd).
    + exact Hok.
    + exact Hat'.
    + rewrite HS, <- app_assoc. reflexivity.
    + rewrite lenN_app. lia.
    + lia.
    + exists rr'. split.
      * apply (at_pos_eq _ _ _ _ Hat''). rewrite lenN_app. lia.
      * cbn [length Nat.add mem_read_fin map app]. rewrite Hgo. cbn [rr_buf].
        rewrite Hrd. reflexivity.
Qed.

(* at a position from which everything is zero, the reader reports the end and stays there *)
Lemma go_next_end S pre z rr r g :
  S = pre ++ zerosN z -> lenN pre <= r -> reads_at S (rr_fr rr) r ->
  exists fr0, at_posn S fr0 r /\
    gonext (Datatypes.S g) rr = (mkRR fr0 (rr_buf rr) (rr_within rr), REnd).
Proof.
  intros HS Hpre (fr0 & Hat & Hrf). exists fr0. split; [exact Hat|].
  destruct Hat as (k & c & Hr & Hc & Hblk & Hfr0).
  cbn [go_next]. rewrite Hrf, Hfr0.
  rewrite (read_frame_zero P HBS_lo HBS_hi Hcrc); [reflexivity | lia |].
  rewrite sliceN_sliceN by lia. rewrite HS. apply slice_zero. lia.
Qed.

(* what is read from the resume position r on *)
Lemma read_tail S r es2 t2 pre z nb gofuel :
  encsrel r es2 t2 -> S = pre ++ t2 ++ zerosN z -> lenN pre = r ->
  lenN S = (nb + 1) * B -> r + lenN t2 <= nb * B -> lenN t2 <= 7 * N.of_nat gofuel ->
  forall rr1 g rr fuel,
    reads_at S (rr_fr rr1) r -> gonext gofuel rr = gonext g rr1 ->
    lenN t2 + 7 <= 7 * N.of_nat g -> (length es2 + 1 <= fuel)%nat ->
    exists rrf, mem_read_fin fuel gofuel rr = (map MrEntry es2 ++ [MrEnd], rrf) /\
                (es2 = [] -> at_posn S (rr_fr rrf) r).
Proof.
  intros Hes2 HS Hpre HlenS Hnb Hgf rr1 g rr fuel Hra Hgo Hg Hfuel.
  assert (Hok : sok S) by (exists (nb + 1); exact HlenS).
  destruct fuel as [|fuel]; [lia|].
  destruct g as [|g]; [lia|].
  cbn [mem_read_fin]. rewrite Hgo.
  inversion Hes2 as [a0 Ha0 Hnil Ht2 | a0 p2 ps e2 k2 t2' He2 Hps Ha0 Hcons Ht2];
    subst a0 es2 t2 r.
  - (* nothing appended: end of the log *)
    cbn [app] in HS.
    destruct (go_next_end S pre z rr1 (lenN pre) g HS (N.le_refl _) Hra) as (fr0 & Hat0 & Hend).
    rewrite Hend. eexists. split; [reflexivity|]. intros _. exact Hat0.
  - destruct Hra as (fr0 & Hat0 & Hrf).
    destruct rr1 as [fr1 rbuf1 within1]. cbn [rr_fr] in Hrf.
    rewrite (gonext_cong g fr1 fr0 rbuf1 within1 Hrf).
    rewrite <- !app_assoc in HS. rewrite lenN_app in *.
    pose proof (enc_rel_frames P HBS_lo HBS_hi Hcrc _ _ _ _ _ He2) as [Hk2 Hk2'].
    destruct (go_next_record P HBS_lo HBS_hi Hcrc (lenN pre) true p2 e2 k2 He2 S pre
                (t2' ++ zerosN z) fr0 rbuf1 within1 (Datatypes.S g) Hok
                (at_posn_at_pos S fr0 _ Hat0) HS eq_refl)
      as (fr' & Hgo' & Hat'); [left; reflexivity | lia |].
    rewrite Hgo'. cbn [rr_buf app].
    cbn [length] in Hfuel.
    replace fuel with (length ps + Datatypes.S (fuel - length ps - 1))%nat by lia.
    destruct (read_all_entries_fin (lenN pre + lenN e2) ps t2' Hps S (pre ++ e2) (zerosN z)
                (mkRR fr' p2 false) gofuel (Datatypes.S (fuel - length ps - 1)) Hok Hat')
      as (rr' & Hat'' & Hrd).
    { rewrite HS, <- app_assoc. reflexivity. }
    { rewrite lenN_app. reflexivity. }
    { lia. }
    rewrite Hrd.
    destruct (read_frame_end P HBS_lo HBS_hi Hcrc S (pre ++ e2 ++ t2') z nb (rr_fr rr'))
      as (fr'' & Hrf'').
    { rewrite HS, <- !app_assoc. reflexivity. }
    { exact HlenS. }
    { rewrite !lenN_app. lia. }
    { apply (at_pos_eq _ _ _ _ Hat''). rewrite !lenN_app. lia. }
    assert (Hgf1 : exists g1, gofuel = Datatypes.S g1) by (destruct gofuel; [lia | eauto]).
    destruct Hgf1 as [g1 ->].
    cbn [mem_read_fin go_next]. rewrite Hrf''. cbn [fst snd map].
    eexists. split; [|discriminate].
    reflexivity.
Qed.

(* the possible traces of the torn entry x itself *)
Definition corr_ok (x e : bytes) (j : N) (corr : list mem_read) : Prop :=
  corr = []
  \/ corr = [MrCorrupt]
  \/ (corr = [MrEntry x] /\ all_zero (dropN j e) = true)
  \/ (exists y, corr = [MrEntry y] /\ y <> x /\ crc_collision).

Lemma after_walk S a r x e j fr rbuf within gofuel (es2 : list bytes) (Q : rreader vecr -> Prop) c fuel :
  walk_out S a r true x e j fr rbuf within ->
  (forall rr1 g rr fuel,
     reads_at S (rr_fr rr1) r -> gonext gofuel rr = gonext g rr1 ->
     c + 7 <= 7 * N.of_nat g -> (length es2 + 1 <= fuel)%nat ->
     exists rrf, mem_read_fin fuel gofuel rr = (map MrEntry es2 ++ [MrEnd], rrf) /\ Q rrf) ->
  (r - a) + 7 + c <= 7 * N.of_nat gofuel -> (length es2 + 2 <= fuel)%nat ->
  exists corr rrf,
    mem_read_fin fuel gofuel (mkRR fr rbuf within) = (corr ++ map MrEntry es2 ++ [MrEnd], rrf) /\
    Q rrf /\ corr_ok x e j corr.
Proof.
  intros (n & rr1 & Hn & Hra & Hout) Htail Hgf Hfuel.
  destruct Hout as [Hsil | [[Hn7 Hcor] | (Hn7 & p' & Hbuf & Hrec & Hcase)]].
  - destruct (Htail rr1 (gofuel - n)%nat (mkRR fr rbuf within) fuel Hra) as (rrf & Hrd & HQ).
    + rewrite <- Hsil. f_equal. lia.
    + lia.
    + lia.
    + exists [], rrf. split; [exact Hrd|]. split; [exact HQ|]. left. reflexivity.
  - assert (Hg : gonext gofuel (mkRR fr rbuf within) = (rr1, RCorrupt)).
    { rewrite <- (Hcor (gofuel - n - 1)%nat). f_equal. lia. }
    destruct fuel as [|fuel]; [lia|].
    destruct (Htail rr1 gofuel rr1 fuel Hra eq_refl) as (rrf & Hrd & HQ); [lia | lia |].
    exists [MrCorrupt], rrf. split.
    + cbn [mem_read_fin]. rewrite Hg, Hrd. reflexivity.
    + split; [exact HQ|]. right. left. reflexivity.
  - assert (Hg : gonext gofuel (mkRR fr rbuf within) = (rr1, RRecord)).
    { rewrite <- (Hrec (gofuel - n - 1)%nat). f_equal. lia. }
    destruct fuel as [|fuel]; [lia|].
    destruct (Htail rr1 gofuel rr1 fuel Hra eq_refl) as (rrf & Hrd & HQ); [lia | lia |].
    exists [MrEntry p'], rrf. split.
    + cbn [mem_read_fin]. rewrite Hg, Hrd, Hbuf. reflexivity.
    + split; [exact HQ|]. right. right.
      destruct Hcase as [[-> Hz] | [Hne Hcol]].
      * left. split; [reflexivity | exact Hz].
      * right. exists p'. repeat split; assumption.
Qed.

(* the torn log, possibly with entries appended at r *)
Lemma torn_master es t x e k j :
  encsrel 0 es t -> encrel (lenN t) true x e k -> j < lenN e ->
  exists r W,
    lenN t <= r /\ lenN W = r - lenN t /\
    (forall z, r <= lenN t + j + z -> takeN j e ++ zerosN z = W ++ zerosN (lenN t + j + z - r)) /\
    (forall m, lenN t + j <= m * B -> r <= m * B) /\
    (forall m, m * B <= lenN t + j -> m * B <= r) /\
    forall es2 t2 S z nb fuel gofuel,
      encsrel r es2 t2 -> S = (t ++ W ++ t2) ++ zerosN z ->
      lenN S = (nb + 1) * B -> r + lenN t2 <= nb * B ->
      (length es + length es2 + 3 <= fuel)%nat -> lenN S <= 7 * N.of_nat gofuel ->
      exists corr rrf,
        mem_read_fin fuel gofuel (rr_start S) =
          (map MrEntry es ++ corr ++ map MrEntry es2 ++ [MrEnd], rrf) /\
        (es2 = [] -> at_posn S (rr_fr rrf) r) /\ corr_ok x e j corr.
Proof.
  intros Hes He Hj.
  destruct (torn_walk _ _ _ _ _ He j Hj) as (r & W & Har & HlW & Hspec & Hup & Hlo & Hrd).
  exists r, W. split; [exact Har|]. split; [exact HlW|]. split; [exact Hspec|].
  split; [exact Hup|]. split; [exact Hlo|].
  intros es2 t2 S z nb fuel gofuel Hes2 HS HlenS Hnb Hfuel Hgf.
  assert (Hok : sok S) by (exists (nb + 1); exact HlenS).
  assert (HlS : lenN S = r + lenN t2 + z).
  { rewrite HS, !lenN_app, lenN_zerosN. lia. }
  rewrite <- !app_assoc in HS.
  replace fuel with (length es + (fuel - length es))%nat by lia.
  destruct (read_all_entries_fin 0 es t Hes S [] (W ++ t2 ++ zerosN z) (rr_start S) gofuel
              (fuel - length es) Hok) as (rr' & Hat' & Hrd1).
  { apply rr_start_at. lia. }
  { exact HS. }
  { reflexivity. }
  { lia. }
  rewrite Hrd1. rewrite N.add_0_l in Hat'.
  destruct rr' as [fr rbuf within]. cbn [rr_fr] in Hat'.
  assert (Hwalk : walk_out S (lenN t) r true x e j fr rbuf within).
  { apply (Hrd S t (t2 ++ zerosN z) fr rbuf within Hok Hat' HS eq_refl); [lia|].
    left. reflexivity. }
  destruct (after_walk S (lenN t) r x e j fr rbuf within gofuel es2
              (fun rrf => es2 = [] -> at_posn S (rr_fr rrf) r) (lenN t2) (fuel - length es)
              Hwalk) as (corr & rrf & Hrd2 & HQ & Hcorr).
  { assert (HS2 : S = (t ++ W) ++ t2 ++ zerosN z) by (rewrite HS, <- app_assoc; reflexivity).
    assert (Hpre2 : lenN (t ++ W) = r) by (rewrite lenN_app; lia).
    assert (Hgf2 : lenN t2 <= 7 * N.of_nat gofuel) by lia.
    exact (read_tail S r es2 t2 (t ++ W) z nb gofuel Hes2 HS2 Hpre2 HlenS Hnb Hgf2). }
  { lia. }
  { lia. }
  exists corr, rrf. rewrite Hrd2. cbn [fst snd]. split; [reflexivity|]. split; assumption.
Qed.

Lemma torn_stream_shape (t e W : bytes) j r :
  j < lenN e -> lenN t <= r -> lenN W = r - lenN t ->
  (forall z, r <= lenN t + j + z -> takeN j e ++ zerosN z = W ++ zerosN (lenN t + j + z - r)) ->
  (forall m, lenN t + j <= m * B -> r <= m * B) ->
  exists z nb,
    mem_stream P (t ++ takeN j e) = (t ++ W ++ []) ++ zerosN z /\
    lenN (mem_stream P (t ++ takeN j e)) = (nb + 1) * B /\ r <= nb * B.
Proof.
  intros Hj Har HlW Hspec Hup.
  destruct (mem_stream_shape P HBS_lo HBS_hi Hcrc (t ++ takeN j e)) as (z & nb & Hshape & HlenS & Hnb).
  assert (HlD : lenN (t ++ takeN j e) = lenN t + j) by (rewrite lenN_app, lenN_takeN; lia).
  rewrite HlD in Hnb.
  assert (Hrnb : r <= nb * B) by (apply Hup; exact Hnb).
  assert (Hz : lenN t + j + z = (nb + 1) * B).
  { rewrite <- HlenS, Hshape, lenN_app, lenN_zerosN, HlD. reflexivity. }
  exists (lenN t + j + z - r), nb. split; [|split; [exact HlenS | exact Hrnb]].
  rewrite Hshape, app_nil_r, <- !app_assoc. f_equal. apply Hspec. lia.
Qed.

(* what recovery reads from a torn log, and where it stops *)
Theorem torn_recovery es t x e k j fuel gofuel S :
  encsrel 0 es t -> encrel (lenN t) true x e k -> j < lenN e ->
  S = mem_stream P (t ++ takeN j e) ->
  (length es + 3 <= fuel)%nat -> lenN S <= 7 * N.of_nat gofuel ->
  exists corr rrf r,
    mem_read_fin fuel gofuel (rr_start S) = (map MrEntry es ++ corr ++ [MrEnd], rrf) /\
    corr_ok x e j corr /\
    atpos S (rr_fr rrf) r /\
    lenN t <= r /\
    all_zero (dropN r S) = true /\
    (forall m, m * B <= lenN t + j -> m * B <= r) /\
    (forall m, lenN t + j <= m * B -> r <= m * B) /\
    r + B <= lenN S.
Proof.
  intros Hes He Hj HS Hfuel Hgf.
  destruct (torn_master es t x e k j Hes He Hj) as (r & W & Har & HlW & Hspec & Hup & Hlo & HM).
  destruct (torn_stream_shape t e W j r Hj Har HlW Hspec Hup) as (z & nb & Hshape & HlenS & Hnb).
  rewrite <- HS in Hshape, HlenS.
  destruct (HM [] [] S z nb fuel gofuel (ES_nil P r) Hshape HlenS) as (corr & rrf & Hrd & Hat & Hcorr).
  { rewrite (@lenN_nil byte). lia. }
  { cbn [length]. lia. }
  { exact Hgf. }
  exists corr, rrf, r. split; [exact Hrd|]. split; [exact Hcorr|].
  split; [apply at_posn_at_pos, Hat; reflexivity|]. split; [exact Har|]. split.
  { rewrite Hshape, app_nil_r, dropN_app_exact' by (rewrite lenN_app; lia). apply all_zero_zerosN. }
  split; [exact Hlo|]. split; [exact Hup|]. lia.
Qed.

(* torn_recovery in terms of mem_read_all *)
Theorem torn_read es t x e k j fuel gofuel S :
  encsrel 0 es t -> encrel (lenN t) true x e k -> j < lenN e ->
  S = mem_stream P (t ++ takeN j e) ->
  (length es + 3 <= fuel)%nat -> lenN S <= 7 * N.of_nat gofuel ->
  exists tail,
    mem_read_all P fuel gofuel (rr_start S) = map MrEntry es ++ tail /\
    (tail = [MrEnd]
     \/ tail = [MrCorrupt; MrEnd]
     \/ (tail = [MrEntry x; MrEnd] /\ all_zero (dropN j e) = true)
     \/ (exists y, tail = [MrEntry y; MrEnd] /\ y <> x /\ crc_collision)).
Proof.
  intros Hes He Hj HS Hfuel Hgf.
  destruct (torn_recovery es t x e k j fuel gofuel S Hes He Hj HS Hfuel Hgf)
    as (corr & rrf & r & Hrd & Hcorr & _).
  exists (corr ++ [MrEnd]). split.
  - rewrite <- mem_read_fin_fst, Hrd. reflexivity.
  - destruct Hcorr as [-> | [-> | [[-> Hz] | (y & -> & Hy & Hcol)]]].
    + left. reflexivity.
    + right. left. reflexivity.
    + right. right. left. split; [reflexivity | exact Hz].
    + right. right. right. exists y. repeat split; assumption.
Qed.

(* no frame payload (at most B - 7 bytes) has the CRC of one of its zero-completed proper
   prefixes; satisfiable together with Hcrc: NzcVacuous.nzc_bounded_sat *)
Definition no_zero_collision : Prop :=
  forall ty fp n, lenN fp + 7 <= B -> n < lenN fp ->
    crcf P ty (takeN n fp ++ zerosN (lenN fp - n)) = crcf P ty fp ->
    takeN n fp ++ zerosN (lenN fp - n) = fp.

Lemma no_collision : no_zero_collision -> ~ crc_collision.
Proof. intros H (ty & fp & n & Hb & Hn & Hne & Heq). apply Hne. apply (H ty fp n Hb Hn Heq). Qed.

Corollary torn_read_nocoll es t x e k j fuel gofuel S :
  no_zero_collision ->
  encsrel 0 es t -> encrel (lenN t) true x e k -> j < lenN e ->
  S = mem_stream P (t ++ takeN j e) ->
  (length es + 3 <= fuel)%nat -> lenN S <= 7 * N.of_nat gofuel ->
  exists tail,
    mem_read_all P fuel gofuel (rr_start S) = map MrEntry es ++ tail /\
    (tail = [MrEnd]
     \/ tail = [MrCorrupt; MrEnd]
     \/ (tail = [MrEntry x; MrEnd] /\ all_zero (dropN j e) = true)).
Proof.
  intros Hnc Hes He Hj HS Hfuel Hgf.
  destruct (torn_read es t x e k j fuel gofuel S Hes He Hj HS Hfuel Hgf) as (tail & Hrd & Hcase).
  exists tail. split; [exact Hrd|].
  destruct Hcase as [H | [H | [H | (y & _ & _ & Hcol)]]]; auto.
  exfalso. exact (no_collision Hnc Hcol).
Qed.

(* all_zero (dropN j e): the bytes on disk are those of the completely written entry *)
Lemma all_zero_drop_iff (e : bytes) j :
  j <= lenN e -> (all_zero (dropN j e) = true <-> takeN j e ++ zerosN (lenN e - j) = e).
Proof.
  intros Hj. split; intros H.
  - rewrite <- (takeN_dropN j e) at 3. f_equal.
    rewrite (all_zero_is_zeros _ H), lenN_dropN. reflexivity.
  - rewrite <- (takeN_dropN j e) in H at 3. apply app_inv_head in H. rewrite <- H.
    apply all_zero_zerosN.
Qed.

(* the position where recovery stops *)
Theorem torn_resume es t x e k j fuel gofuel S :
  encsrel 0 es t -> encrel (lenN t) true x e k -> j < lenN e ->
  S = mem_stream P (t ++ takeN j e) ->
  (length es + 3 <= fuel)%nat -> lenN S <= 7 * N.of_nat gofuel ->
  exists r,
    atpos S (rr_fr (snd (mem_read_fin fuel gofuel (rr_start S)))) r /\
    lenN t <= r /\
    all_zero (dropN r S) = true /\
    (lenN (t ++ takeN j e) / B) * B <= r /\
    r <= ((lenN (t ++ takeN j e) + B - 1) / B) * B /\
    r + B <= lenN S.
Proof.
  intros Hes He Hj HS Hfuel Hgf.
  destruct (torn_recovery es t x e k j fuel gofuel S Hes He Hj HS Hfuel Hgf)
    as (corr & rrf & r & Hrd & _ & Hat & Har & Hz & Hlo & Hup & Hroom).
  exists r. rewrite Hrd. cbn [snd]. split; [exact Hat|]. split; [exact Har|]. split; [exact Hz|].
  assert (HlD : lenN (t ++ takeN j e) = lenN t + j) by (rewrite lenN_app, lenN_takeN; lia).
  rewrite HlD. split; [|split; [|exact Hroom]].
  - apply Hlo. rewrite N.mul_comm. apply N.mul_div_le. lia.
  - apply Hup.
    pose proof (N.div_mod (lenN t + j + B - 1) B) as Hdm.
    pose proof (mod_lt_B P HBS_lo HBS_hi (lenN t + j + B - 1)) as Hlt.
    set (q := (lenN t + j + B - 1) / B) in *. set (m := (lenN t + j + B - 1) mod B) in *.
    clearbody q m. lia.
Qed.

(* appending at the resume position makes the log fully usable again *)
Theorem torn_then_append es t x e k j fuel gofuel S :
  encsrel 0 es t -> encrel (lenN t) true x e k -> j < lenN e ->
  S = mem_stream P (t ++ takeN j e) ->
  (length es + 3 <= fuel)%nat -> lenN S <= 7 * N.of_nat gofuel ->
  forall r, atpos S (rr_fr (snd (mem_read_fin fuel gofuel (rr_start S)))) r ->
  forall es2 t2 S' fuel' gofuel',
    encsrel r es2 t2 ->
    S' = mem_stream P (takeN r S ++ t2) ->
    (length es + length es2 + 3 <= fuel')%nat -> lenN S' <= 7 * N.of_nat gofuel' ->
    exists corr,
      mem_read_all P fuel' gofuel' (rr_start S') =
        map MrEntry es ++ corr ++ map MrEntry es2 ++ [MrEnd] /\
      corr_ok x e j corr.
Proof.
  intros Hes He Hj HS Hfuel Hgf r0 Hat0 es2 t2 S' fuel' gofuel' Hes2 HS' Hfuel' Hgf'.
  destruct (torn_master es t x e k j Hes He Hj) as (r & W & Har & HlW & Hspec & Hup & Hlo & HM).
  destruct (torn_stream_shape t e W j r Hj Har HlW Hspec Hup) as (z & nb & Hshape & HlenS & Hnb).
  rewrite <- HS in Hshape, HlenS.
  destruct (HM [] [] S z nb fuel gofuel (ES_nil P r) Hshape HlenS) as (corr1 & rrf & Hrd & Hat & _).
  { rewrite (@lenN_nil byte). lia. }
  { cbn [length]. lia. }
  { exact Hgf. }
  rewrite Hrd in Hat0. cbn [snd] in Hat0.
  assert (Hr : r0 = r).
  { apply (at_pos_unique S (rr_fr rrf)); [exact Hat0|]. apply at_posn_at_pos, Hat. reflexivity. }
  subst r0.
  assert (Htake : takeN r S = t ++ W).
  { rewrite Hshape, app_nil_r. apply takeN_app_exact'. rewrite lenN_app. lia. }
  rewrite Htake in HS'.
  destruct (mem_stream_shape P HBS_lo HBS_hi Hcrc ((t ++ W) ++ t2)) as (z2 & nb2 & Hshape2 & HlenS2 & Hnb2).
  rewrite <- HS' in Hshape2, HlenS2. rewrite <- (app_assoc t W t2) in Hshape2.
  destruct (HM es2 t2 S' z2 nb2 fuel' gofuel' Hes2 Hshape2 HlenS2) as (corr & rrf2 & Hrd2 & _ & Hcorr).
  { rewrite !lenN_app in Hnb2. lia. }
  { exact Hfuel'. }
  { exact Hgf'. }
  exists corr. split; [|exact Hcorr].
  rewrite <- mem_read_fin_fst, Hrd2. reflexivity.
Qed.

Lemma roundtrip_fuel_ok es t (S : bytes) :
  encsrel 0 es t -> lenN t <= lenN S ->
  (length es + 3 <= N.to_nat (lenN S / HEADER_LEN + lenN S / B + 4))%nat /\
  lenN S <= 7 * N.of_nat (N.to_nat (lenN S / HEADER_LEN + lenN S / B + 4)).
Proof.
  intros Hes Hle. pose proof (encs_rel_len P HBS_lo HBS_hi Hcrc _ _ _ Hes) as Hcount.
  unfold HEADER_LEN. pose proof (N.div_mod (lenN S) 7) as Hdm.
  pose proof (N.mod_lt (lenN S) 7) as Hlt.
  set (r := lenN S mod 7) in *. clearbody r.
  set (q := lenN S / 7) in *. set (q' := lenN S / B). clearbody q q'. lia.
Qed.

(* the disk after a crash during the write of x that follows the writes of es: the first
   [written-so-far + j] bytes of what the writer would have produced *)
Theorem torn_read_written es x j :
  forall w w' S fuel,
    w = fst (mem_write_all P (mkVecW 0 []) es) ->
    w' = fst (write_record P vecw vw_write (vw_rem P) w x) ->
    lenN (vw_buf w) + j < lenN (vw_buf w') ->
    S = mem_stream P (takeN (lenN (vw_buf w) + j) (vw_buf w')) ->
    fuel = N.to_nat (lenN S / HEADER_LEN + lenN S / B + 4) ->
    exists tail,
      mem_read_all P fuel fuel (rr_start S) = map MrEntry es ++ tail /\
      (tail = [MrEnd]
       \/ tail = [MrCorrupt; MrEnd]
       \/ (tail = [MrEntry x; MrEnd] /\
           all_zero (dropN (lenN (vw_buf w) + j) (vw_buf w')) = true)
       \/ (exists y, tail = [MrEntry y; MrEnd] /\ y <> x /\ crc_collision)).
Proof.
  intros w w' S fuel Hw Hw' Hj HS Hfuel.
  destruct (mem_write_all_spec P HBS_lo HBS_hi Hcrc es (mkVecW 0 [])) as (ns & t & Hall & Hes & _ & _).
  rewrite Hall in Hw. cbn [fst vw_cursor vw_buf app] in Hw, Hes. rewrite N.add_0_l in Hw.
  destruct (write_record_vecw P HBS_lo HBS_hi Hcrc w x) as (e & k & He & Hwr).
  rewrite Hwr in Hw'. cbn [fst] in Hw'. subst w w'. cbn [vw_cursor vw_buf] in *.
  rewrite lenN_app in Hj.
  rewrite takeN_app_ge in HS by lia. replace (lenN t + j - lenN t) with j in HS by lia.
  rewrite dropN_app_ge by lia. replace (lenN t + j - lenN t) with j by lia.
  assert (HtS : lenN t <= lenN S).
  { destruct (mem_stream_shape P HBS_lo HBS_hi Hcrc (t ++ takeN j e)) as (z & nb & Hshape & _ & _).
    rewrite HS, Hshape, !lenN_app. lia. }
  destruct (roundtrip_fuel_ok es t S Hes HtS) as [Hf1 Hf2]. rewrite <- Hfuel in Hf1, Hf2.
  apply (torn_read es t x e k j fuel fuel S Hes He); try assumption. lia.
Qed.

End Torn.

Print Assumptions torn_recovery.
Print Assumptions torn_read.
Print Assumptions torn_read_nocoll.
Print Assumptions torn_resume.
Print Assumptions torn_then_append.
Print Assumptions torn_read_written.
Check torn_read.
Check torn_resume.
Check torn_then_append.
