(* VacAudit2.v — vacuity audit of the Prop theorems that VacuityAudit.v does not cover.
   Same conventions as VacuityAudit.v:
     <thm>_inst                       the Prop theorem applied to concrete data, ALL premises discharged
     <thm>_premises_satisfiable       exists witnesses, all premises
     <thm>_other_premises_satisfiable all premises except TornProofs.no_zero_collision, with the
                                      REAL CRC-32 (for which that premise is false: VacCrc.v)
   The important check here: the theorems of the crash setting assume no_zero_collision
   TOGETHER with Inv, hist_wf, stream_bound, CB / crash bounds.  Module SatCrash instantiates them
   with P := NzcVacuous.P_sat 32 2 (the witness checksum) on a history with roll-overs, buffering
   (PDelay), two GC passes with unlinks and a persist point in the middle.
   The coverage table is at the end of the file. *)
From Coq Require Import Lia ZArith ZifyN ZifyNat ZifyBool List.
From MRL Require Import Bytes BytesProofs Params Names Frame Record Mem Spec Rolling Log Driver Hist
  WriterProofs SpecRefine RecordProofs StreamProofs ResyncProofs GhostLog ReplaySpec QueueIso
  PersistProofs TornProofs RestartInv RestartWrite RestartStep OpenReplay RestartFinal
  RestartCorollaries CrashTrace NzcVacuous CrashAtomic DamageAtomic PersistRecover PersistSurvive
  PersistShape PersistImage CrashCorollaries PowerLoss PanicFree TornFile VacBase VacCrash VacDamage VacCrc.
From MRL Require VacStream VacFiles.
From MRL Require PropC02 PropC02x PropC03 PropC04 PropC10 PropC12 PropC18.
Import ListNotations.

Section Setting.
Variable P : params.
Hypothesis HBS_lo : 7 < BS P.
Hypothesis HBS_hi : BS P <= 65542.
Hypothesis HNB : 1 <= NB P.
Hypothesis Hcrc : forall t p, crcf P t p < 2 ^ 32.
Hypothesis HGC : L_GC P = false.

Local Notation stN st h m := (fst (run P st (firstn m h))).
Local Notation absq st := (abs_qs (s_qs st)).
Local Notation MAXB := (FILE_BYTES P * (U64_MAX + 1)).

Lemma calls_log_run_log h : forall st, calls_log P st h = run_log P st h.
Proof.
  induction h as [|[o t] h IH]; intros st; cbn [calls_log run_log]; [reflexivity|].
  now rewrite IH.
Qed.

(* CB by computation: K bounds the encoding of a position entry of every queue of every state
   along the history, and from one block after every writer position there is room for one such
   entry per queue.  The states after the prefixes of h are computed once (the let), not once for
   each pair (m1, m2). *)
Definition cb_check (K : N) (st : state) (h : list (op * bool)) : bool :=
  let sts := map (fun m => stN st h m) (seq 0 (S (length h))) in
  forallb (fun s2 =>
    enc_len_ok P K (map pos_ser (map fst (absq s2))) &&
    forallb (fun s1 => wabs P (s_wr s1) + BS P + K * N.of_nat (length (absq s2)) <=? MAXB) sts)
    sts.

Lemma CB_by K st h : cb_check K st h = true -> CB P st h.
Proof.
  intros Hc m1 m2 a extra Hm1 Hm2 Ha Hx.
  assert (Hin : forall m, (m <= length h)%nat ->
                  In (stN st h m) (map (fun m => stN st h m) (seq 0 (S (length h))))).
  { intros m Hm. apply (in_map (fun m => stN st h m)), in_seq. lia. }
  unfold cb_check in Hc. cbv zeta in Hc. rewrite forallb_forall in Hc.
  specialize (Hc _ (Hin m2 Hm2)). cbn beta in Hc.
  apply andb_true_iff in Hc. destruct Hc as [HK Hc].
  rewrite forallb_forall in Hc. specialize (Hc _ (Hin m1 Hm1)). cbn beta in Hc.
  apply N.leb_le in Hc.
  pose proof (pos_extra_bound P HBS_lo HBS_hi HNB Hcrc _ K a extra HK Hx) as Hb.
  unfold PersistGc.wabs in Ha. unfold wabs in Hc.
  set (M := MAXB) in *. set (KK := K * _) in *. lia.
Qed.

(* a persist point reached from a fresh directory by the calls h_pre, with its ghost state, and
   the stream bound of a further history h by computation on the (then known) ghost log *)
Lemma persist_point pol st0 h_pre stp h :
  open P [] None pol [] = OpenOk st0 ->
  hist_ok P st0 (hcalls_of h_pre) ->
  fst (run P st0 h_pre) = stp ->
  cursor_after P 0 (map entry_ser (map snd (run_log P st0 h_pre) ++ map snd (run_log P stp h))) <= MAXB ->
  exists G0, Inv P stp G0 /\ gh_base G0 = 0 /\ gh_dropped G0 = [] /\
             gh_log G0 = run_log P st0 h_pre /\
             RestartWrite.stream_bound P G0 (map snd (run_log P stp h)).
Proof.
  intros Ho Hok Es Hb.
  pose proof (inv_fresh P HBS_lo HBS_hi HNB pol st0 Ho) as HI0.
  destruct (calls_inv_log P HBS_lo HBS_hi HNB Hcrc HGC h_pre st0 gh_fresh HI0 Hok)
    as (G & HI & Eb & Ed & El & _).
  rewrite Es in HI. change (gh_log gh_fresh) with (@nil (N * entry)) in El.
  rewrite app_nil_l, calls_log_run_log in El.
  change (gh_base gh_fresh) with 0 in Eb. change (gh_dropped gh_fresh) with (@nil entry) in Ed.
  exists G. split; [exact HI|]. split; [exact Eb|]. split; [exact Ed|]. split; [exact El|].
  unfold RestartWrite.stream_bound, gh_ALL. rewrite Eb, Ed, El, app_nil_l, N.mul_0_r, N.add_0_l.
  exact Hb.
Qed.

Lemma run_fst_firstn_all st h : fst (run P st (firstn (length h) h)) = fst (run P st h).
Proof. now rewrite firstn_all. Qed.
End Setting.

Definition op_wf_b (qs : queues) (o : op) : bool :=
  match o with
  | OCreate q => utf8_valid q && (lenN q <? 2 ^ 16)
  | OAppend q pos pl =>
      forallb (fun x => lenN x <? 2 ^ 32) pl &&
      match pos, qs_get qs q with
      | Some p, _ => p + lenN pl <? 2 ^ 64
      | None, Some m => next_position m + lenN pl <? 2 ^ 64
      | None, None => true
      end
  | OTruncate _ p _ => p + 1 <? 2 ^ 64
  | _ => true
  end.

Lemma op_wf_b_ok qs o : op_wf_b qs o = true -> op_wf_strict qs o.
Proof.
  destruct o as [q|q hint|q pos pl|q p hint|a]; cbn [op_wf_b op_wf_strict]; intros H; try exact I.
  - apply andb_true_iff in H. split; [exact (proj1 H)|apply N.ltb_lt; exact (proj2 H)].
  - apply andb_true_iff in H. destruct H as [H1 H2]. split.
    + apply Forall_forall. intros x Hx. rewrite forallb_forall in H1. apply N.ltb_lt, H1, Hx.
    + destruct pos as [p|]; [apply N.ltb_lt; exact H2|].
      intros m Hm. rewrite Hm in H2. apply N.ltb_lt. exact H2.
  - apply N.ltb_lt. exact H.
Qed.

Fixpoint hist_wf_b (P : params) (st : state) (h : list (op * bool)) : bool :=
  match h with
  | [] => true
  | (o, t) :: r => op_wf_b (s_qs st) o && hist_wf_b P (fst (step P st o t)) r
  end.

Lemma hist_wf_b_ok P h : forall st, hist_wf_b P st h = true -> hist_wf P st h.
Proof.
  induction h as [|[o t] r IH]; intros st H; [exact I|].
  cbn [hist_wf_b] in H. apply andb_true_iff in H.
  split; [apply op_wf_b_ok; exact (proj1 H)|apply IH; exact (proj2 H)].
Qed.

(* the events a history added, in chronological order *)
Definition new_evs (st st' : state) : list event :=
  rev (firstn (length (c_ev (w_ctx (s_wr st'))) - length (c_ev (w_ctx (s_wr st))))
              (c_ev (w_ctx (s_wr st')))).

(* the I/O discipline of PowerLoss.disc, as a boolean *)
Fixpoint disc_b (cur : N) (dirty : bool) (evs : list event) : bool :=
  match evs with
  | [] => true
  | EvWrite n _ _ :: r => bytes_eqb n (filename cur) && disc_b cur true r
  | EvSyncData n :: r => bytes_eqb n (filename cur) && disc_b cur false r
  | EvFlush _ :: r => disc_b cur dirty r
  | EvSyncDir :: r => disc_b cur dirty r
  | EvCreate _ :: r => negb dirty && disc_b (cur + 1) false r
  | EvSetLen _ _ :: r => negb dirty && disc_b cur false r
  | EvUnlink _ :: r => negb dirty && disc_b cur false r
  | _ :: _ => false
  end.

Lemma disc_b_ok evs : forall cur d, disc_b cur d evs = true -> disc cur d evs.
Proof.
  induction evs as [|e r IH]; intros cur d H; [exact I|].
  destruct e; cbn [disc_b disc] in *; try discriminate H;
    try (apply andb_true_iff in H; destruct H as [H1 H2]);
    try (apply bytes_eqb_eq in H1); try (apply negb_true_iff in H1); auto.
Qed.

Fixpoint find_idx {A} (f : A -> bool) (l : list A) (i : nat) : option nat :=
  match l with [] => None | x :: r => if f x then Some i else find_idx f r (S i) end.

Lemma find_map_seq {A} (F : nat -> A) f n : forall i,
  find (fun m => f (F m)) (seq i n) = find_idx f (map F (seq i n)) i.
Proof. induction n as [|n IH]; intros i; cbn [seq map find find_idx]; [|rewrite IH]; reflexivity. Qed.

(* The images of all crash points of a trace.  Cut by cut, so that the events before the cut are
   replayed once for all the partial writes at that cut (as written, each point replays them again). *)
Definition crash_img (evs : list event) (fs : fsT) (ck : N * N) : fsT :=
  fold_left apply_event (crash_events evs (fst ck) (snd ck)) fs.
Definition cut_imgs (evs : list event) (fs : fsT) (cut : N) : list fsT :=
  let base := fold_left apply_event (takeN cut evs) fs in
  base :: match dropN cut evs with
          | EvWrite n off d :: _ =>
              map (fun k => apply_event base (EvWrite n off (takeN (k + 1) d)))
                  (CrashExample.nrange (length d - 1))
          | _ => []
          end.

Lemma crash_imgs_by_cut evs fs :
  map (crash_img evs fs) (CrashExample.crash_points evs) =
  flat_map (cut_imgs evs fs) (CrashExample.nrange (S (length evs))).
Proof.
  unfold CrashExample.crash_points.
  induction (CrashExample.nrange (S (length evs))) as [|cut cuts IH]; [reflexivity|].
  cbn [flat_map]. rewrite map_app, IH. f_equal.
  unfold cut_imgs. cbv zeta. cbn [map]. f_equal.
  - unfold crash_img, crash_events. cbn [fst snd N.eqb]. now rewrite app_nil_r.
  - destruct (dropN cut evs) as [|[] r] eqn:E; try reflexivity.
    rewrite map_map. apply map_ext. intros k.
    unfold crash_img, crash_events. cbn [fst snd]. rewrite E, fold_left_app.
    destruct (k + 1 =? 0) eqn:E0; [apply N.eqb_eq in E0; lia|reflexivity].
Qed.

(* wr_all_synced after a call that persists with fsync: others_synced is an invariant from open
   on, and such a call leaves every file synced (C03_fsync_durable) *)
Lemma synced_after P st0 h st o st' out :
  others_synced (s_wr st0) -> fst (run P st0 h) = st -> step P st o false = (st', out) ->
  fsync_call (s_pol st) o -> wrote out = true -> wr_all_synced (s_wr st').
Proof.
  intros H0 <- Hs Hf Hw.
  exact (proj1 (PropC03.C03_fsync_durable P _ o false st' out Hs Hf Hw (run_others_synced P h st0 H0))).
Qed.

(* a history without delete_queue deletes no queue, whatever the outcomes *)
Definition no_delete (h : list (op * bool)) : bool :=
  forallb (fun ot => match fst ot with ODelete _ _ => false | _ => true end) h.

Lemma no_delete_never q h : no_delete h = true -> forall outs, log_never_deleted q h outs.
Proof.
  unfold log_never_deleted.
  induction h as [|[o t] h IH]; intros H outs; [reflexivity|].
  destruct outs as [|out outs]; [reflexivity|].
  cbn [no_delete forallb] in H. apply andb_true_iff in H.
  cbn [combine forallb]. rewrite (IH (proj2 H)), andb_true_r.
  unfold l_deleted. cbn [fst snd] in *. destruct o; try reflexivity. discriminate (proj1 H).
Qed.

Lemma no_delete_firstn n h : no_delete h = true -> no_delete (firstn n h) = true.
Proof.
  intros H. unfold no_delete in *. rewrite <- (firstn_skipn n h), forallb_app in H.
  apply andb_true_iff in H. exact (proj1 H).
Qed.

Definition qa : bytes := ["a"%byte].
Definition qb : bytes := ["b"%byte].
Definition pay (c : byte) : bytes := [c; c; c; c; c; c; c; c; c; c].
Definition st_dummy : state := mkSt (mkWr (ctx_init [] None) [] 0 0 []) [] PNothing.

(* from a fresh directory to a persist point (under PDelay true: appends are buffered unless the
   timer ticks; create_queue always persists): two roll-overs *)
Definition h_pre : list (op * bool) :=
  [(OCreate qa, false); (OAppend qa None [pay "x"; pay "y"], false);
   (OAppend qa None [pay "z"], true); (OCreate qb, false)].
(* the further history: buffered appends
   (one of them a batch of three records over two roll-overs, on which the timer ticks), an
   explicit persist with fsync after a buffered append (a persist point in the middle, i = 4), a
   truncate that empties qa, whose GC logs a position entry and unlinks files 0-2, a buffered
   append, two truncates (the second one's GC unlinks files 3-5), a last append left in the buffer *)
Definition h_cr : list (op * bool) :=
  [(OAppend qa None [pay "u"], false);
   (OAppend qb None [pay "p"; pay "q"; pay "r"], true);
   (OAppend qa None [pay "t"], false);
   (OPersist true, false);
   (OTruncate qa 4 [qb], false);
   (OAppend qa None [pay "v"], false);
   (OTruncate qb 1 [], true);
   (OAppend qb None [pay "w"], false);
   (OTruncate qb 2 [qa], false);
   (OAppend qa None [pay "s"], false)].

(* the crash setting WITH no_zero_collision: P := NzcVacuous.P_sat 32 2 *)
Module SatCrash.
Definition Ps : params := P_sat 32 2.
Lemma Ps_BS_lo : 7 < BS Ps. Proof. reflexivity. Qed.
Lemma Ps_BS_hi : BS Ps <= 65542. Proof. intros H; discriminate H. Qed.
Lemma Ps_NB : 1 <= NB Ps. Proof. intros H; discriminate H. Qed.
Lemma Ps_crc : forall t p, crcf Ps t p < 2 ^ 32. Proof. exact crc_sat_lt. Qed.
Lemma Ps_nzc : no_zero_collision Ps. Proof. apply nzc_P_sat. intros H; discriminate H. Qed.

Definition st0 : state :=
  Eval vm_compute in match open Ps [] None (PDelay true) [] with OpenOk s => s | _ => st_dummy end.
Lemma open_st0 : open Ps [] None (PDelay true) [] = OpenOk st0.
Proof. vm_compute. reflexivity. Qed.
Definition stp : state := Eval vm_compute in fst (run Ps st0 h_pre).
Lemma run_pre : fst (run Ps st0 h_pre) = stp.
Proof. vm_compute. reflexivity. Qed.
Definition st_end : state := Eval vm_compute in fst (run Ps stp h_cr).
Lemma run_cr : fst (run Ps stp h_cr) = st_end.
Proof. vm_compute. reflexivity. Qed.
Definition evs_cr : list event := Eval vm_compute in new_evs stp st_end.

(* files, offset, buffered bytes, queues (positions, next) along h_pre and h_cr *)
Definition show (s : state) :=
  (w_files (s_wr s), w_off (s_wr s), lenN (w_pending (s_wr s)),
   map (fun '(q, (r, n)) => (q, map fst r, n)) (abs_qs (s_qs s))).
Example trace_s :
  map (fun k => show (fst (run Ps st0 (firstn k h_pre)))) [2; 3; 4]%nat =
    [([0; 1], 32, 0, [(qa, [0; 1], 2)]);
     ([0; 1; 2], 16, 0, [(qa, [0; 1; 2], 3)]);
     ([0; 1; 2], 42, 0, [(qa, [0; 1; 2], 3); (qb, [], 0)])] /\
  map (fun k => show (fst (run Ps stp (firstn k h_cr)))) [1; 2; 3; 4; 5; 6; 7; 8; 9; 10]%nat =
    [([0; 1; 2; 3], 26, 26, [(qa, [0; 1; 2; 3], 4); (qb, [], 0)]);
     ([0; 1; 2; 3; 4; 5], 10, 0, [(qa, [0; 1; 2; 3], 4); (qb, [0; 1; 2], 3)]);
     ([0; 1; 2; 3; 4; 5], 58, 26, [(qa, [0; 1; 2; 3; 4], 5); (qb, [0; 1; 2], 3)]);
     ([0; 1; 2; 3; 4; 5], 58, 0, [(qa, [0; 1; 2; 3; 4], 5); (qb, [0; 1; 2], 3)]);
     ([3; 4; 5; 6], 45, 0, [(qa, [], 5); (qb, [0; 1; 2], 3)]);
     ([3; 4; 5; 6; 7], 29, 29, [(qa, [5], 6); (qb, [0; 1; 2], 3)]);
     ([3; 4; 5; 6; 7], 51, 0, [(qa, [5], 6); (qb, [2], 3)]);
     ([3; 4; 5; 6; 7; 8], 42, 10, [(qa, [5], 6); (qb, [2; 3], 4)]);
     ([6; 7; 8], 61, 0, [(qa, [5], 6); (qb, [3], 4)]);
     ([6; 7; 8; 9], 48, 16, [(qa, [5; 6], 7); (qb, [3], 4)])] /\
  length evs_cr = 75%nat /\
  length (filter (fun e => match e with EvUnlink _ => true | _ => false end) evs_cr) = 6%nat /\
  snd (run Ps stp h_cr) =
    [OutAppend (Some 3) 48; OutAppend (Some 2) 112; OutAppend (Some 4) 48; OutPersist;
     OutTruncate 5 51; OutAppend (Some 5) 48; OutTruncate 2 22; OutAppend (Some 3) 55;
     OutTruncate 1 19; OutAppend (Some 6) 51].
Proof. vm_compute. repeat split; reflexivity. Qed.

Lemma hist_ok_pre : hist_ok Ps st0 (hcalls_of h_pre).
Proof. unfold h_pre, hcalls_of. cbn [map fst snd]. call_tac. call_tac. call_tac. call_tac. exact I. Qed.

Lemma hist_wf_cr : hist_wf Ps stp h_cr.
Proof. apply hist_wf_b_ok. vm_compute. reflexivity. Qed.

Lemma CB_cr : CB Ps stp h_cr.
Proof.
  apply (CB_by Ps Ps_BS_lo Ps_BS_hi Ps_NB Ps_crc 64). vm_compute. reflexivity.
Qed.

Lemma evs_cr_ok : c_ev (w_ctx (s_wr (fst (run Ps stp h_cr)))) = rev evs_cr ++ c_ev (w_ctx (s_wr stp)).
Proof. vm_compute. reflexivity. Qed.

(* ALL premises of the crash setting (C03_process_crash, C03_power_loss, C04_crash_next_positions,
   C18_crash_projection, C12_batch_crash ...) hold together, no_zero_collision included *)
Lemma crash_setting_premises_satisfiable :
  7 < BS Ps /\ BS Ps <= 65542 /\ 1 <= NB Ps /\ (forall t p, crcf Ps t p < 2 ^ 32) /\
  L_GC Ps = false /\ L_IO Ps = false /\ L_SHORT Ps = false /\ no_zero_collision Ps /\
  exists G0,
    Inv Ps stp G0 /\ w_pending (s_wr stp) = [] /\ hist_wf Ps stp h_cr /\
    RestartWrite.stream_bound Ps G0 (map snd (run_log Ps stp h_cr)) /\ CB Ps stp h_cr /\
    c_ev (w_ctx (s_wr (fst (run Ps stp h_cr)))) = rev evs_cr ++ c_ev (w_ctx (s_wr stp)).
Proof.
  split; [exact Ps_BS_lo|]. split; [exact Ps_BS_hi|]. split; [exact Ps_NB|]. split; [exact Ps_crc|].
  split; [reflexivity|]. split; [reflexivity|]. split; [reflexivity|]. split; [exact Ps_nzc|].
  destruct (persist_point Ps Ps_BS_lo Ps_BS_hi Ps_NB Ps_crc eq_refl (PDelay true) st0 h_pre stp h_cr
              open_st0 hist_ok_pre run_pre) as (G0 & HI & _ & _ & _ & Hsb).
  { vm_compute. intros H; discriminate H. }
  exists G0. split; [exact HI|]. split; [reflexivity|]. split; [exact hist_wf_cr|].
  split; [exact Hsb|]. split; [exact CB_cr|exact evs_cr_ok].
Qed.

Ltac setting G0 HI Hp Hwf Hsb Hcb Hev :=
  destruct crash_setting_premises_satisfiable
    as (_ & _ & _ & _ & _ & _ & _ & _ & G0 & HI & Hp & Hwf & Hsb & Hcb & Hev).
Local Notation TH f := (f Ps Ps_BS_lo Ps_BS_hi Ps_NB Ps_crc eq_refl eq_refl eq_refl Ps_nzc) (only parsing).

Lemma C03_process_crash_inst : forall cut k pol hint,
  exists m st_r, (m <= length h_cr)%nat /\
    open Ps (fold_left apply_event (crash_events evs_cr cut k) (c_fs (w_ctx (s_wr stp)))) None pol hint =
      OpenOk st_r /\
    (forall q, s_get (abs_qs (s_qs st_r)) q = s_get (abs_qs (s_qs (fst (run Ps stp (firstn m h_cr))))) q).
Proof.
  setting G0 HI Hp Hwf Hsb Hcb Hev.
  exact (TH PropC03.C03_process_crash stp G0 HI Hp h_cr Hwf Hsb Hcb evs_cr Hev).
Qed.

(* call i = 4 (the explicit persist, after a buffered append): 29 events up to its return *)
Definition st_i : state := Eval vm_compute in fst (run Ps stp (firstn 4 h_cr)).
Definition evs_i : list event := Eval vm_compute in new_evs stp st_i.
Lemma run_i : fst (run Ps stp (firstn 4 h_cr)) = st_i.
Proof. vm_compute. reflexivity. Qed.
Lemma evs_i_ok : c_ev (w_ctx (s_wr (fst (run Ps stp (firstn 4 h_cr))))) = rev evs_i ++ c_ev (w_ctx (s_wr stp)).
Proof. vm_compute. reflexivity. Qed.
Lemma pend_i : w_pending (s_wr (fst (run Ps stp (firstn 4 h_cr)))) = [].
Proof. vm_compute. reflexivity. Qed.
Example evs_i_len : lenN evs_i = 29 /\ (4 <= length h_cr)%nat.
Proof. vm_compute. split; [reflexivity|]. repeat constructor. Qed.

Lemma C03_persisted_survives_inst : forall cut k pol hint, 29 <= cut ->
  exists m st_r, (4 <= m)%nat /\ (m <= length h_cr)%nat /\
    open Ps (fold_left apply_event (crash_events evs_cr cut k) (c_fs (w_ctx (s_wr stp)))) None pol hint =
      OpenOk st_r /\
    (forall q, s_get (abs_qs (s_qs st_r)) q = s_get (abs_qs (s_qs (fst (run Ps stp (firstn m h_cr))))) q).
Proof.
  setting G0 HI Hp Hwf Hsb Hcb Hev. intros cut k pol hint Hcut.
  refine (TH PropC03.C03_persisted_survives stp G0 h_cr evs_cr 4%nat evs_i HI Hp Hwf Hsb Hcb Hev
            (proj2 evs_i_len) pend_i evs_i_ok cut k pol hint _).
  rewrite (proj1 evs_i_len). exact Hcut.
Qed.

Lemma C03_power_loss_inst : forall cut pol hint,
  exists m st_r, (m <= length h_cr)%nat /\
    open Ps (fold_left apply_event (power_events evs_cr cut) (c_fs (w_ctx (s_wr stp)))) None pol hint =
      OpenOk st_r /\
    (forall q, s_get (abs_qs (s_qs st_r)) q = s_get (abs_qs (s_qs (fst (run Ps stp (firstn m h_cr))))) q).
Proof.
  setting G0 HI Hp Hwf Hsb Hcb Hev.
  exact (TH PropC03.C03_power_loss stp G0 HI Hp h_cr Hwf Hsb evs_cr Hev Hcb).
Qed.

Lemma others_st0 : others_synced (s_wr st0).
Proof. exact (proj1 (PropC03.C03_open_establishes Ps [] None (PDelay true) [] st0 open_st0)). Qed.

(* the two persist points: after create_queue qb (the last call of h_pre), after the explicit persist *)
Definition st_p3 : state := Eval vm_compute in fst (run Ps st0 (firstn 3 h_pre)).
Lemma synced_stp : wr_all_synced (s_wr stp).
Proof.
  apply (synced_after Ps st0 (firstn 3 h_pre) st_p3 (OCreate qb) stp (OutCreate 26) others_st0);
    [vm_compute; reflexivity..|reflexivity|reflexivity].
Qed.

Definition st_3 : state := Eval vm_compute in fst (run Ps stp (firstn 3 h_cr)).
Lemma synced_i : wr_all_synced (s_wr (fst (run Ps stp (firstn 4 h_cr)))).
Proof.
  rewrite run_i.
  apply (synced_after Ps stp (firstn 3 h_cr) st_3 (OPersist true) st_i OutPersist
           (wr_all_synced_others _ synced_stp)); [vm_compute; reflexivity..|reflexivity|reflexivity].
Qed.

Lemma C03_fsynced_survives_power_loss_inst : forall cut pol hint, 29 <= cut ->
  exists m st_r, (4 <= m)%nat /\ (m <= length h_cr)%nat /\
    open Ps (fold_left apply_event (power_events evs_cr cut) (c_fs (w_ctx (s_wr stp)))) None pol hint =
      OpenOk st_r /\
    (forall q, s_get (abs_qs (s_qs st_r)) q = s_get (abs_qs (s_qs (fst (run Ps stp (firstn m h_cr))))) q).
Proof.
  setting G0 HI Hp Hwf Hsb Hcb Hev. intros cut pol hint Hcut.
  refine (TH PropC03.C03_fsynced_survives_power_loss stp G0 h_cr evs_cr 4%nat evs_i HI Hp Hwf Hsb Hcb Hev
            (proj2 evs_i_len) pend_i synced_i evs_i_ok cut pol hint _).
  rewrite (proj1 evs_i_len). exact Hcut.
Qed.

(* the whole trace from the fresh (empty) directory: 31 events up to the persist point *)
Lemma fs_stp : c_fs (w_ctx (s_wr stp)) = replay_events [] (chrono (w_ctx (s_wr stp))).
Proof. vm_compute. reflexivity. Qed.
Example chrono_stp_len : lenN (chrono (w_ctx (s_wr stp))) = 31.
Proof. vm_compute. reflexivity. Qed.

Lemma C03_power_loss_total_inst : forall cut pol hint, 31 <= cut ->
  exists m st_r, (m <= length h_cr)%nat /\
    open Ps (replay_events [] (power_events (chrono (w_ctx (s_wr (fst (run Ps stp h_cr))))) cut)) None pol hint =
      OpenOk st_r /\
    (forall q, s_get (abs_qs (s_qs st_r)) q = s_get (abs_qs (s_qs (fst (run Ps stp (firstn m h_cr))))) q).
Proof.
  setting G0 HI Hp Hwf Hsb Hcb Hev. intros cut pol hint Hcut.
  refine (TH PropC03.C03_power_loss_total stp G0 HI Hp h_cr Hwf Hsb evs_cr Hev Hcb [] synced_stp fs_stp
            cut pol hint _).
  rewrite chrono_stp_len. exact Hcut.
Qed.

(* C03_power_is_crash: the 75 events of h_cr have the discipline (file 2 current, possibly dirty) *)
Lemma disc_cr : disc 2 true evs_cr.
Proof. apply disc_b_ok. vm_compute. reflexivity. Qed.

Lemma C03_power_is_crash_inst : forall cut,
  exists cut', cut' <= cut /\
    (forall fs, fold_left apply_event (power_events evs_cr cut) fs =
                fold_left apply_event (crash_events evs_cr cut' 0) fs) /\
    CrashTrace.ev_data (power_events evs_cr cut) = CrashTrace.ev_data (crash_events evs_cr cut' 0) /\
    Forall (fun e => ~ meta_ev e) (dropN cut' (takeN cut evs_cr)).
Proof. intros cut. exact (PropC03.C03_power_is_crash evs_cr 2 true cut disc_cr). Qed.

(* a cut at which the power-loss image differs from the process-crash image at the same cut:
   after the first (buffered, then flushed at the roll-over) write but before its sync *)
Example power_differs : power_events evs_cr 1 <> crash_events evs_cr 1 0.
Proof. vm_compute. discriminate. Qed.

(* C03_trace_shape / C03_image_shape (no no_zero_collision needed; same instance) *)
Lemma C03_trace_shape_inst :
  exists Dos,
    Dos ++ w_pending (s_wr (fst (run Ps stp h_cr))) =
      ResyncProofs.encs_of Ps (PersistGc.wabs Ps (s_wr stp))
        (map entry_ser (map snd (run_log Ps stp h_cr))) /\
    CrashTrace.ev_data evs_cr = Dos /\ lenN (w_pending (s_wr (fst (run Ps stp h_cr)))) = 16.
Proof.
  setting G0 HI Hp Hwf Hsb Hcb Hev.
  destruct (PropC03.C03_trace_shape Ps Ps_BS_lo Ps_BS_hi Ps_NB Ps_crc eq_refl stp G0 h_cr evs_cr
              HI Hp Hwf Hsb Hev) as (Dos & _ & H2 & H3).
  exists Dos. split; [exact H2|]. split; [exact H3|]. vm_compute. reflexivity.
Qed.

Lemma C03_image_shape_inst : forall cut k,
  let img := fold_left apply_event (crash_events evs_cr cut k) (c_fs (w_ctx (s_wr stp))) in
  exists lo' hi,
    FileStream.wlo (s_wr stp) <= lo' /\ lo' <= hi /\ GcProofs.nodup_keys img /\
    list_wal_numbers img = CrashTrace.nfiles lo' hi.
Proof.
  setting G0 HI Hp Hwf Hsb Hcb Hev. intros cut k.
  destruct (PropC03.C03_image_shape Ps Ps_BS_lo Ps_BS_hi Ps_NB Ps_crc eq_refl stp G0 h_cr evs_cr
              HI Hp Hwf Hsb Hev cut k)
    as (lo' & hi & short & z & j & g & H1 & H2 & _ & H4 & _ & H6 & _).
  exists lo', hi. auto.
Qed.

Lemma C04_crash_next_positions_inst : forall cut k pol hint,
  exists m st_r, (m <= length h_cr)%nat /\
    open Ps (fold_left apply_event (crash_events evs_cr cut k) (c_fs (w_ctx (s_wr stp)))) None pol hint =
      OpenOk st_r /\
    (forall q, log_next st_r q = log_next (fst (run Ps stp (firstn m h_cr))) q) /\
    (* neither queue is deleted in h_cr: their next positions never fall below 3 and 0 *)
    3 <= log_next st_r qa /\ qs_get (s_qs st_r) qb <> None.
Proof.
  setting G0 HI Hp Hwf Hsb Hcb Hev. intros cut k pol hint.
  destruct (TH PropC04.C04_crash_next_positions stp G0 HI Hp h_cr Hwf Hsb Hcb evs_cr Hev cut k pol hint)
    as (m & st_r & Hm & Ho & _ & H2 & H3).
  exists m, st_r. split; [exact Hm|]. split; [exact Ho|]. split; [intros q; apply (H2 q)|].
  split.
  - destruct (H3 qa (no_delete_never qa h_cr eq_refl _)) as [Hn _].
    replace (log_next stp qa) with 3 in Hn by (vm_compute; reflexivity). exact Hn.
  - destruct (H3 qb (no_delete_never qb h_cr eq_refl _)) as [_ Hn].
    apply Hn. vm_compute. discriminate.
Qed.

Lemma C04_crash_next_after_persist_inst : forall cut k pol hint, 29 <= cut ->
  exists m st_r, (4 <= m)%nat /\ (m <= length h_cr)%nat /\
    open Ps (fold_left apply_event (crash_events evs_cr cut k) (c_fs (w_ctx (s_wr stp)))) None pol hint =
      OpenOk st_r /\
    (forall q, log_next st_r q = log_next (fst (run Ps stp (firstn m h_cr))) q) /\
    5 <= log_next st_r qa /\ 3 <= log_next st_r qb.
Proof.
  setting G0 HI Hp Hwf Hsb Hcb Hev. intros cut k pol hint Hcut.
  destruct (TH PropC04.C04_crash_next_after_persist stp G0 HI Hp h_cr Hwf Hsb Hcb evs_cr Hev
              4%nat evs_i (proj2 evs_i_len) pend_i evs_i_ok cut k pol hint
              ltac:(rewrite (proj1 evs_i_len); exact Hcut))
    as (m & st_r & Hm1 & Hm2 & Ho & _ & H2 & H3).
  exists m, st_r. split; [exact Hm1|]. split; [exact Hm2|]. split; [exact Ho|]. split; [exact H2|].
  split.
  - destruct (H3 qa (no_delete_never qa (skipn 4 h_cr) eq_refl _)) as [Hn _].
    replace (log_next (fst (run Ps stp (firstn 4 h_cr))) qa) with 5 in Hn by (vm_compute; reflexivity).
    exact Hn.
  - destruct (H3 qb (no_delete_never qb (skipn 4 h_cr) eq_refl _)) as [Hn _].
    replace (log_next (fst (run Ps stp (firstn 4 h_cr))) qb) with 3 in Hn by (vm_compute; reflexivity).
    exact Hn.
Qed.

Lemma C18_crash_projection_inst : forall cut k pol hint,
  exists m st_r, (m <= length h_cr)%nat /\
    open Ps (fold_left apply_event (crash_events evs_cr cut k) (c_fs (w_ctx (s_wr stp)))) None pol hint =
      OpenOk st_r /\
    (forall q m0, s_get m0 q = s_get (abs_qs (s_qs stp)) q ->
       let mq := fst (s_run m0 (filter (addressed q) (firstn m (sops h_cr)))) in
       s_get (abs_qs (s_qs st_r)) q = s_get mq q /\
       (forall lo hi, log_range st_r q lo hi = s_range mq q lo hi) /\
       log_last_position st_r q = s_last_position mq q /\
       log_last_record st_r q = s_last_record mq q /\ log_next st_r q = next_or0 (s_get mq q)).
Proof.
  setting G0 HI Hp Hwf Hsb Hcb Hev.
  exact (TH PropC18.C18_crash_projection stp G0 HI Hp h_cr Hwf Hsb Hcb evs_cr Hev).
Qed.

(* PropC12 (crash halves): the batch is the append of three records to qb *)
Definition h1_b : list (op * bool) := [(OAppend qa None [pay "u"], false)].
Definition pl_b : list bytes := [pay "p"; pay "q"; pay "r"].
Definition h2_b : list (op * bool) := skipn 2 h_cr.
Lemma h_cr_split : h_cr = h1_b ++ (OAppend qb None pl_b, true) :: h2_b.
Proof. reflexivity. Qed.
Lemma out_b : snd (step Ps (fst (run Ps stp h1_b)) (OAppend qb None pl_b) true) = OutAppend (Some 2) 112.
Proof. vm_compute. reflexivity. Qed.

Lemma C12_batch_crash_inst : forall cut k pol hint,
  exists m st_r, (m <= length h_cr)%nat /\
    open Ps (fold_left apply_event (crash_events evs_cr cut k) (c_fs (w_ctx (s_wr stp)))) None pol hint =
      OpenOk st_r /\
    (forall q', Spec.s_get (abs_qs (s_qs st_r)) q' =
                Spec.s_get (abs_qs (s_qs (fst (Hist.run Ps stp (firstn m h_cr))))) q') /\
    batch_at Ps stp h1_b qb pl_b h2_b
      (fst (step Ps (fst (Hist.run Ps stp h1_b)) (OAppend qb None pl_b) true)) 2 m
      (Spec.s_get (abs_qs (s_qs st_r)) qb).
Proof.
  setting G0 HI Hp Hwf Hsb Hcb Hev.
  exact (TH PropC12.C12_batch_crash stp G0 HI Hp h_cr Hwf Hsb Hcb evs_cr Hev h1_b qb None pl_b true
           h2_b 2 112 h_cr_split out_b).
Qed.

(* the timer ticks on the batch append: it leaves nothing buffered; 24 events up to its return *)
Definition st_b : state := Eval vm_compute in fst (step Ps (fst (run Ps stp h1_b)) (OAppend qb None pl_b) true).
Definition evs_b : list event := Eval vm_compute in new_evs stp st_b.
Lemma pend_b : w_pending (s_wr (fst (step Ps (fst (run Ps stp h1_b)) (OAppend qb None pl_b) true))) = [].
Proof. vm_compute. reflexivity. Qed.
Lemma evs_b_ok :
  c_ev (w_ctx (s_wr (fst (step Ps (fst (run Ps stp h1_b)) (OAppend qb None pl_b) true)))) =
  rev evs_b ++ c_ev (w_ctx (s_wr stp)).
Proof. vm_compute. reflexivity. Qed.
Example evs_b_len : lenN evs_b = 24.
Proof. vm_compute. reflexivity. Qed.

Lemma C12_batch_crash_persisted_inst : forall cut k pol hint, 24 <= cut ->
  exists m st_r, (length h1_b < m)%nat /\ (m <= length h_cr)%nat /\
    open Ps (fold_left apply_event (crash_events evs_cr cut k) (c_fs (w_ctx (s_wr stp)))) None pol hint =
      OpenOk st_r /\
    (* qb is never deleted: what is recovered of the batch is a suffix of it *)
    exists recs next j,
      Spec.s_get (abs_qs (s_qs st_r)) qb = Some (recs, next) /\ 2 < next /\
      filter (in_span (2 + 1 - lenN pl_b) (2 + 1)) recs = skipn j (Spec.s_number (2 + 1 - lenN pl_b) pl_b).
Proof.
  setting G0 HI Hp Hwf Hsb Hcb Hev. intros cut k pol hint Hcut.
  destruct (TH PropC12.C12_batch_crash_persisted stp G0 HI Hp h_cr Hwf Hsb Hcb evs_cr Hev h1_b qb None pl_b
              true h2_b 2 112 evs_b h_cr_split out_b pend_b evs_b_ok cut k pol hint
              ltac:(rewrite evs_b_len; exact Hcut))
    as (m & st_r & Hm1 & Hm2 & Ho & Hb).
  exists m, st_r. split; [exact Hm1|]. split; [exact Hm2|]. split; [exact Ho|].
  apply Hb. exact (no_delete_never qb _ (no_delete_firstn _ h2_b eq_refl) _).
Qed.

(* independent check by computation (not via the theorems): EVERY process-crash image of the 75
   events (every cut, every number of bytes of every write: 495 images) is opened, and the
   recovered abstract state is compared with the states after the prefixes of h_cr: the list
   gives, for m = 0 .. 10, the number of images recovered to the state after m calls (the first
   matching m: call 4, the explicit persist, does not change the abstract state; call 10, the last
   append, never leaves the buffer); none fails *)
Definition verdict (ck : N * N) : option nat :=
  let img := fold_left apply_event (crash_events evs_cr (fst ck) (snd ck)) (c_fs (w_ctx (s_wr stp))) in
  match open Ps img None PNothing [] with
  | OpenOk st_r =>
      find (fun m => CrashExample.smap_ext_eqb (abs_qs (s_qs st_r))
                       (abs_qs (s_qs (fst (run Ps stp (firstn m h_cr))))))
           (seq 0 11)
  | _ => None
  end.
Definition census : list nat * nat :=
  let vs := map verdict (CrashExample.crash_points evs_cr) in
  (map (fun m => length (filter (fun v => match v with Some m' => Nat.eqb m m' | None => false end) vs))
       (seq 0 11),
   length (filter (fun v => match v with None => true | _ => false end) vs)).
(* the reference states are tabulated once; evaluating [verdict] as written would run the
   prefixes of h_cr again for every image *)
Definition refs : list smap :=
  Eval vm_compute in map (fun m => abs_qs (s_qs (fst (run Ps stp (firstn m h_cr))))) (seq 0 11).
Lemma refs_ok : map (fun m => abs_qs (s_qs (fst (run Ps stp (firstn m h_cr))))) (seq 0 11) = refs.
Proof. vm_compute. reflexivity. Qed.

Lemma find_refs st_r :
  find (fun m => CrashExample.smap_ext_eqb (abs_qs (s_qs st_r))
                   (abs_qs (s_qs (fst (run Ps stp (firstn m h_cr)))))) (seq 0 11) =
  find_idx (CrashExample.smap_ext_eqb (abs_qs (s_qs st_r))) refs 0.
Proof.
  rewrite <- refs_ok.
  exact (find_map_seq (fun m => abs_qs (s_qs (fst (run Ps stp (firstn m h_cr))))) _ 11 0).
Qed.

Definition verdict_of (fs : fsT) : option nat :=
  match open Ps fs None PNothing [] with
  | OpenOk st_r => find_idx (CrashExample.smap_ext_eqb (abs_qs (s_qs st_r))) refs 0
  | _ => None
  end.

Lemma verdict_tab ck : verdict ck = verdict_of (crash_img evs_cr (c_fs (w_ctx (s_wr stp))) ck).
Proof.
  unfold verdict, verdict_of, crash_img.
  destruct (open Ps _ None PNothing []); [apply find_refs|reflexivity..].
Qed.

(* Flush, sync and read events leave the directory alone, so the crash points on either side of
   one give the same image: the 495 points have 203 distinct images.  Each is opened once, and the
   points are indices into them. *)
Definition imgs_cr : list fsT :=
  Eval vm_compute in
    distinct fs_key fs_eqb (flat_map (cut_imgs evs_cr (c_fs (w_ctx (s_wr stp)))) (CrashExample.nrange 76)).
Definition img_ix : list N :=
  Eval vm_compute in
    indices fs_key fs_eqb (keyed fs_key imgs_cr)
      (flat_map (cut_imgs evs_cr (c_fs (w_ctx (s_wr stp)))) (CrashExample.nrange 76)).
Lemma img_ix_ok :
  map (crash_img evs_cr (c_fs (w_ctx (s_wr stp)))) (CrashExample.crash_points evs_cr) =
  map (pick imgs_cr []) img_ix.
Proof.
  rewrite crash_imgs_by_cut. vm_eq.
Qed.

Definition img_verdicts : list (option nat) := Eval vm_compute in map verdict_of imgs_cr.
Lemma img_verdicts_ok : map verdict_of imgs_cr = img_verdicts.
Proof. vm_eq. Qed.

Definition verdicts : list (option nat) := Eval vm_compute in map (pick img_verdicts None) img_ix.
Lemma verdicts_ok : map verdict (CrashExample.crash_points evs_cr) = verdicts.
Proof.
  rewrite (map_ext _ _ verdict_tab), <- (map_map (crash_img _ _) verdict_of), img_ix_ok, map_pick,
    img_verdicts_ok.
  vm_eq.
Qed.

Example census_cr : census = ([53; 122; 51; 33; 0; 85; 22; 63; 19; 47; 0]%nat, 0%nat).
Proof. unfold census. rewrite verdicts_ok. reflexivity. Qed.
End SatCrash.

(* the same setting with the REAL CRC-32: every premise except no_zero_collision (which is false for
   it: VacCrc.crc32_refutes_nzc) *)
Module RealCrash.
Import CrashAtomic.CrashExample.
Definition st0 : state :=
  Eval vm_compute in match open Pe [] None (PDelay true) [] with OpenOk s => s | _ => st_dummy end.
Lemma open_st0 : open Pe [] None (PDelay true) [] = OpenOk st0.
Proof. vm_compute. reflexivity. Qed.
Definition stp : state := Eval vm_compute in fst (run Pe st0 h_pre).
Lemma run_pre : fst (run Pe st0 h_pre) = stp.
Proof. vm_compute. reflexivity. Qed.
Definition st_end : state := Eval vm_compute in fst (run Pe stp h_cr).
Definition evs_cr : list event := Eval vm_compute in new_evs stp st_end.
Definition st_i : state := Eval vm_compute in fst (run Pe stp (firstn 4 h_cr)).
Definition evs_i : list event := Eval vm_compute in new_evs stp st_i.
Definition st_p3 : state := Eval vm_compute in fst (run Pe st0 (firstn 3 h_pre)).
Definition st_3 : state := Eval vm_compute in fst (run Pe stp (firstn 3 h_cr)).
Definition st_b : state :=
  Eval vm_compute in fst (step Pe (fst (run Pe stp SatCrash.h1_b)) (OAppend qb None SatCrash.pl_b) true).
Definition evs_b : list event := Eval vm_compute in new_evs stp st_b.

(* the checksum does not change lengths: same files, offsets, buffered bytes and events as with
   the witness checksum *)
Example same_shape_as_sat :
  map (fun k => SatCrash.show (fst (run Pe stp (firstn k h_cr)))) (seq 0 11) =
  map (fun k => SatCrash.show (fst (run SatCrash.Ps SatCrash.stp (firstn k h_cr)))) (seq 0 11) /\
  length evs_cr = 75%nat.
Proof. vm_compute. split; reflexivity. Qed.

Lemma hist_ok_pre : hist_ok Pe st0 (hcalls_of h_pre).
Proof. unfold h_pre, hcalls_of. cbn [map fst snd]. call_tac. call_tac. call_tac. call_tac. exact I. Qed.

Lemma hist_wf_cr : hist_wf Pe stp h_cr.
Proof. apply hist_wf_b_ok. vm_compute. reflexivity. Qed.

Lemma others_st0 : others_synced (s_wr st0).
Proof. exact (proj1 (PropC03.C03_open_establishes Pe [] None (PDelay true) [] st0 open_st0)). Qed.

Lemma synced_stp : wr_all_synced (s_wr stp).
Proof.
  apply (synced_after Pe st0 (firstn 3 h_pre) st_p3 (OCreate qb) stp (OutCreate 26) others_st0);
    [vm_compute; reflexivity..|reflexivity|reflexivity].
Qed.

Lemma synced_i : wr_all_synced (s_wr (fst (run Pe stp (firstn 4 h_cr)))).
Proof.
  replace (fst (run Pe stp (firstn 4 h_cr))) with st_i by (vm_compute; reflexivity).
  apply (synced_after Pe stp (firstn 3 h_cr) st_3 (OPersist true) st_i OutPersist
           (wr_all_synced_others _ synced_stp)); [vm_compute; reflexivity..|reflexivity|reflexivity].
Qed.

(* the premises of C03_process_crash, C03_power_loss, C04_crash_next_positions,
   C18_crash_projection (first block), with those added by C03_persisted_survives /
   C04_crash_next_after_persist (i = 4), C03_fsynced_survives_power_loss, C03_power_loss_total and
   C12_batch_crash / C12_batch_crash_persisted (the batch) *)
Lemma crash_setting_other_premises_satisfiable :
  7 < BS Pe /\ BS Pe <= 65542 /\ 1 <= NB Pe /\ (forall t p, crcf Pe t p < 2 ^ 32) /\
  L_GC Pe = false /\ L_IO Pe = false /\ L_SHORT Pe = false /\
  exists G0,
    (Inv Pe stp G0 /\ w_pending (s_wr stp) = [] /\ hist_wf Pe stp h_cr /\
     RestartWrite.stream_bound Pe G0 (map snd (run_log Pe stp h_cr)) /\ CB Pe stp h_cr /\
     c_ev (w_ctx (s_wr (fst (run Pe stp h_cr)))) = rev evs_cr ++ c_ev (w_ctx (s_wr stp))) /\
    ((4 <= length h_cr)%nat /\
     w_pending (s_wr (fst (run Pe stp (firstn 4 h_cr)))) = [] /\
     c_ev (w_ctx (s_wr (fst (run Pe stp (firstn 4 h_cr))))) = rev evs_i ++ c_ev (w_ctx (s_wr stp)) /\
     lenN evs_i <= 29) /\
    wr_all_synced (s_wr (fst (run Pe stp (firstn 4 h_cr)))) /\
    (wr_all_synced (s_wr stp) /\
     c_fs (w_ctx (s_wr stp)) = replay_events [] (chrono (w_ctx (s_wr stp))) /\
     lenN (chrono (w_ctx (s_wr stp))) <= 31) /\
    (h_cr = SatCrash.h1_b ++ (OAppend qb None SatCrash.pl_b, true) :: SatCrash.h2_b /\
     snd (step Pe (fst (run Pe stp SatCrash.h1_b)) (OAppend qb None SatCrash.pl_b) true) =
       OutAppend (Some 2) 112 /\
     w_pending (s_wr (fst (step Pe (fst (run Pe stp SatCrash.h1_b)) (OAppend qb None SatCrash.pl_b) true))) = [] /\
     c_ev (w_ctx (s_wr (fst (step Pe (fst (run Pe stp SatCrash.h1_b)) (OAppend qb None SatCrash.pl_b) true)))) =
       rev evs_b ++ c_ev (w_ctx (s_wr stp)) /\
     lenN evs_b <= 24).
Proof.
  split; [exact Pe_BS_lo|]. split; [exact Pe_BS_hi|]. split; [exact Pe_NB|]. split; [exact Pe_crc|].
  split; [reflexivity|]. split; [reflexivity|]. split; [reflexivity|].
  destruct (persist_point Pe Pe_BS_lo Pe_BS_hi Pe_NB Pe_crc eq_refl (PDelay true) st0 h_pre stp h_cr
              open_st0 hist_ok_pre run_pre) as (G0 & HI & _ & _ & _ & Hsb).
  { vm_compute. intros H; discriminate H. }
  exists G0. split.
  { split; [exact HI|]. split; [reflexivity|]. split; [exact hist_wf_cr|]. split; [exact Hsb|].
    split; [|vm_compute; reflexivity].
    apply (CB_by Pe Pe_BS_lo Pe_BS_hi Pe_NB Pe_crc 64). vm_compute. reflexivity. }
  split.
  { split; [vm_compute; repeat constructor|]. split; [vm_compute; reflexivity|].
    split; [vm_compute; reflexivity|]. vm_compute. intros H; discriminate H. }
  split; [exact synced_i|]. split.
  { split; [exact synced_stp|]. split; [vm_compute; reflexivity|]. vm_compute. intros H; discriminate H. }
  split; [reflexivity|]. split; [vm_compute; reflexivity|]. split; [vm_compute; reflexivity|].
  split; [vm_compute; reflexivity|]. vm_compute. intros H; discriminate H.
Qed.

(* C03_trace_shape and C03_image_shape do not assume no_zero_collision: instances with the real CRC *)
Lemma C03_trace_shape_real_inst :
  exists Dos,
    Dos ++ w_pending (s_wr (fst (run Pe stp h_cr))) =
      ResyncProofs.encs_of Pe (PersistGc.wabs Pe (s_wr stp))
        (map entry_ser (map snd (run_log Pe stp h_cr))) /\
    CrashTrace.ev_data evs_cr = Dos.
Proof.
  destruct crash_setting_other_premises_satisfiable
    as (_ & _ & _ & _ & _ & _ & _ & G0 & (HI & Hp & Hwf & Hsb & Hcb & Hev) & _).
  destruct (PropC03.C03_trace_shape Pe Pe_BS_lo Pe_BS_hi Pe_NB Pe_crc eq_refl stp G0 h_cr evs_cr
              HI Hp Hwf Hsb Hev) as (Dos & _ & H2 & H3).
  exists Dos. split; [exact H2|exact H3].
Qed.

Lemma C03_image_shape_real_inst : forall cut k,
  let img := fold_left apply_event (crash_events evs_cr cut k) (c_fs (w_ctx (s_wr stp))) in
  exists lo' hi,
    FileStream.wlo (s_wr stp) <= lo' /\ lo' <= hi /\ GcProofs.nodup_keys img /\
    list_wal_numbers img = CrashTrace.nfiles lo' hi.
Proof.
  destruct crash_setting_other_premises_satisfiable
    as (_ & _ & _ & _ & _ & _ & _ & G0 & (HI & Hp & Hwf & Hsb & Hcb & Hev) & _).
  intros cut k.
  destruct (PropC03.C03_image_shape Pe Pe_BS_lo Pe_BS_hi Pe_NB Pe_crc eq_refl stp G0 h_cr evs_cr
              HI Hp Hwf Hsb Hev cut k)
    as (lo' & hi & short & z & j & g & H1 & H2 & _ & H4 & _ & H6 & _).
  exists lo', hi. auto.
Qed.
End RealCrash.

(* the "Always policies from a fresh directory" variants, WITH no_zero_collision:
   C04_crash_next_always, C18_crash_projection_always, C12_batch_crash_always (and C02_crash_atomic
   / C02_history, which VacuityAudit.v shows satisfiable only without that premise) *)
Module SatAlways.
Import SatCrash.
Import CrashAtomic.CrashExample.
(* CrashExample.h_ex: create a, append [x;y] (a batch), append, create b, append at 5, RESTART,
   append; then the call in flight: truncate(a, ..=6) with GC hint [b] *)
Definition s0 : state :=
  Eval vm_compute in match open Ps [] None (PAlways true) [] with OpenOk s => s | _ => st_dummy end.
Lemma open_s0 : open Ps [] None (PAlways true) [] = OpenOk s0.
Proof. vm_compute. reflexivity. Qed.
Definition s_ex : state :=
  Eval vm_compute in match hrun Ps s0 h_ex with Some (s, _) => s | None => st_dummy end.
Definition outs_s : list outcome :=
  Eval vm_compute in match hrun Ps s0 h_ex with Some (_, o) => o | None => [] end.
Lemma hrun_s : hrun Ps s0 h_ex = Some (s_ex, outs_s).
Proof. vm_compute. reflexivity. Qed.

Lemma hist_ok_s : hist_ok Ps s0 h_ex.
Proof.
  unfold h_ex.
  call_tac. call_tac. call_tac. call_tac. call_tac.
  eapply hist_ok_restart; [vm_compute; reflexivity| |].
  { apply (restart_bound_by Ps Ps_BS_lo Ps_BS_hi Ps_NB Ps_crc 64); [vm_compute; reflexivity|le_tac]. }
  call_tac. exact I.
Qed.

Definition s_cr : state := Eval vm_compute in fst (step Ps s_ex o_cr false).
Definition out_s : outcome := Eval vm_compute in snd (step Ps s_ex o_cr false).
Lemma step_s : step Ps s_ex o_cr false = (s_cr, out_s).
Proof. vm_compute. reflexivity. Qed.

Example s_shape :
  out_s = OutTruncate 5 67 /\ w_files (s_wr s_ex) = [0; 1; 2; 3; 4] /\ w_files (s_wr s_cr) = [4; 5] /\
  map snd (step_log Ps s_ex o_cr) = [ETruncate qa 6; EPosition qb 0; EPosition qa 7] /\
  abs_qs (s_qs s_cr) = [(qa, ([], 7)); (qb, ([], 0))] /\
  outs_s = [OutCreate 19; OutAppend (Some 1) 77; OutAppend (Some 2) 48; OutCreate 26;
            OutAppend (Some 5) 48; OutAppend (Some 6) 48].
Proof. vm_compute. repeat split; reflexivity. Qed.

Lemma op_wf_s : op_wf_strict (s_qs s_ex) o_cr.
Proof. unfold o_cr. wf_tac. Qed.
Lemma cpb_before : crash_phys_bound Ps (s_wr s_ex) (map snd (step_log Ps s_ex o_cr)) (abs_qs (s_qs s_ex)).
Proof.
  apply (crash_phys_bound_by Ps Ps_BS_lo Ps_BS_hi Ps_NB Ps_crc 64); [vm_compute; reflexivity|le_tac].
Qed.
Lemma cpb_after : crash_phys_bound Ps (s_wr s_ex) (map snd (step_log Ps s_ex o_cr)) (abs_qs (s_qs s_cr)).
Proof.
  apply (crash_phys_bound_by Ps Ps_BS_lo Ps_BS_hi Ps_NB Ps_crc 64); [vm_compute; reflexivity|le_tac].
Qed.

Lemma always_premises_satisfiable :
  7 < BS Ps /\ BS Ps <= 65542 /\ 1 <= NB Ps /\ (forall t p, crcf Ps t p < 2 ^ 32) /\
  L_GC Ps = false /\ L_IO Ps = false /\ L_SHORT Ps = false /\ no_zero_collision Ps /\
  open Ps [] None (PAlways true) [] = OpenOk s0 /\
  hrun Ps s0 h_ex = Some (s_ex, outs_s) /\ hist_ok Ps s0 h_ex /\ always_hist true h_ex /\
  op_wf_strict (s_qs s_ex) o_cr /\
  crash_phys_bound Ps (s_wr s_ex) (map snd (step_log Ps s_ex o_cr)) (abs_qs (s_qs s_ex)) /\
  crash_phys_bound Ps (s_wr s_ex) (map snd (step_log Ps s_ex o_cr)) (abs_qs (s_qs s_cr)) /\
  step Ps s_ex o_cr false = (s_cr, out_s) /\
  (* C12_batch_crash_always: the batch is call 1 of h_ex *)
  hcalls h_ex = [OCreate qa] ++ OAppend qa None [pay "x"; pay "y"] :: skipn 2 (hcalls h_ex) /\
  nth_error outs_s (length [OCreate qa]) = Some (OutAppend (Some 1) 77) /\
  log_never_deleted qa (RestartCorollaries.hcalls_t h_ex) outs_s.
Proof.
  split; [exact Ps_BS_lo|]. split; [exact Ps_BS_hi|]. split; [exact Ps_NB|]. split; [exact Ps_crc|].
  split; [reflexivity|]. split; [reflexivity|]. split; [reflexivity|]. split; [exact Ps_nzc|].
  split; [exact open_s0|]. split; [exact hrun_s|]. split; [exact hist_ok_s|].
  split; [exact always_ex|]. split; [exact op_wf_s|]. split; [exact cpb_before|].
  split; [exact cpb_after|]. split; [exact step_s|]. split; [reflexivity|].
  split; [reflexivity|]. vm_compute. reflexivity.
Qed.

Ltac always_prem Ho Hr Hok Ha Hwf Hb1 Hb2 Hs Hc Hn Hd :=
  destruct always_premises_satisfiable
    as (_ & _ & _ & _ & _ & _ & _ & _ & Ho & Hr & Hok & Ha & Hwf & Hb1 & Hb2 & Hs & Hc & Hn & Hd).
Local Notation TH f := (f Ps Ps_BS_lo Ps_BS_hi Ps_NB Ps_crc eq_refl eq_refl eq_refl Ps_nzc) (only parsing).

Lemma C04_crash_next_always_inst :
  exists evs,
    c_ev (w_ctx (s_wr s_cr)) = rev evs ++ c_ev (w_ctx (s_wr s_ex)) /\
    forall cut k pol hint, exists st_r,
      open Ps (fold_left Driver.apply_event (Driver.crash_events evs cut k) (c_fs (w_ctx (s_wr s_ex))))
        None pol hint = OpenOk st_r /\
      ((forall q, log_next st_r q = log_next s_ex q /\ log_last_position st_r q = log_last_position s_ex q) \/
       (forall q, log_next st_r q = log_next s_cr q /\ log_last_position st_r q = log_last_position s_cr q)) /\
      (forall q, l_deleted q (o_cr, false) out_s = false -> log_next s_ex q <= log_next st_r q).
Proof.
  always_prem Ho Hr Hok Ha Hwf Hb1 Hb2 Hs Hc Hn Hd.
  exact (TH PropC04.C04_crash_next_always true s0 h_ex s_ex outs_s o_cr false s_cr out_s
           Ho Hr Hok Ha Hwf Hb1 Hb2 Hs).
Qed.

Lemma C18_crash_projection_always_inst :
  exists evs,
    c_ev (w_ctx (s_wr s_cr)) = rev evs ++ c_ev (w_ctx (s_wr s_ex)) /\
    forall cut k pol hint, exists st_r calls_r,
      open Ps (fold_left Driver.apply_event (Driver.crash_events evs cut k) (c_fs (w_ctx (s_wr s_ex))))
        None pol hint = OpenOk st_r /\
      (calls_r = map sop_of (hcalls h_ex) \/ calls_r = map sop_of (hcalls h_ex) ++ [sop_of o_cr]) /\
      forall q, s_get (abs_qs (s_qs st_r)) q = s_get (fst (s_run [] (filter (addressed q) calls_r))) q.
Proof.
  always_prem Ho Hr Hok Ha Hwf Hb1 Hb2 Hs Hc Hn Hd.
  destruct (TH PropC18.C18_crash_projection_always true s0 h_ex s_ex outs_s o_cr false s_cr out_s
              Ho Hr Hok Ha Hwf Hb1 Hb2 Hs) as (evs & He & Hall).
  exists evs. split; [exact He|]. intros cut k pol hint.
  destruct (Hall cut k pol hint) as (st_r & calls_r & H1 & H2 & H3).
  exists st_r, calls_r. split; [exact H1|]. split; [exact H2|]. intros q. exact (proj1 (H3 q)).
Qed.

Lemma C12_batch_crash_always_inst :
  exists evs,
    c_ev (w_ctx (s_wr s_cr)) = rev evs ++ c_ev (w_ctx (s_wr s_ex)) /\
    forall cut k pol hint, exists st_r,
      open Ps (fold_left apply_event (crash_events evs cut k) (c_fs (w_ctx (s_wr s_ex)))) None pol hint =
        OpenOk st_r /\
      exists recs next j,
        Spec.s_get (abs_qs (s_qs st_r)) qa = Some (recs, next) /\ 1 < next /\
        filter (in_span (1 + 1 - lenN [pay "x"; pay "y"]) (1 + 1)) recs =
          skipn j (Spec.s_number (1 + 1 - lenN [pay "x"; pay "y"]) [pay "x"; pay "y"]).
Proof.
  always_prem Ho Hr Hok Ha Hwf Hb1 Hb2 Hs Hc Hn Hd.
  destruct (TH PropC12.C12_batch_crash_always true s0 h_ex s_ex outs_s o_cr false s_cr out_s
              Ho Hr Hok Ha Hwf Hb1 Hb2 Hs [OCreate qa] qa None [pay "x"; pay "y"]
              (skipn 2 (hcalls h_ex)) 1 77 Hc Hn Hd) as (evs & He & Hall).
  exists evs. split; [exact He|]. intros cut k pol hint.
  destruct (Hall cut k pol hint) as (st_r & H1 & [[H2 _]|H2]).
  - vm_compute in H2. discriminate H2.
  - exists st_r. split; [exact H1|exact H2].
Qed.

(* the two theorems of PropC02 that VacuityAudit.v leaves at "other premises" *)
Lemma C02_history_inst :
  exists m_before souts m_after so evs,
    s_run [] (map sop_of (hcalls h_ex)) = (m_before, souts) /\
    s_step m_before (sop_of o_cr) = (m_after, so) /\
    c_ev (w_ctx (s_wr s_cr)) = rev evs ++ c_ev (w_ctx (s_wr s_ex)) /\
    forall cut k pol hint, exists st_r,
      open Ps (fold_left apply_event (crash_events evs cut k) (c_fs (w_ctx (s_wr s_ex)))) None pol hint =
        OpenOk st_r /\
      ((forall q, s_get (abs_qs (s_qs st_r)) q = s_get m_before q) \/
       (forall q, s_get (abs_qs (s_qs st_r)) q = s_get m_after q)).
Proof.
  always_prem Ho Hr Hok Ha Hwf Hb1 Hb2 Hs Hc Hn Hd.
  destruct (TH PropC02.C02_history true s0 h_ex s_ex outs_s o_cr false s_cr out_s
              Ho Hr Hok Ha Hwf Hb1 Hb2 Hs) as (mb & souts & ma & so & evs & H1 & H2 & _ & H4 & H5).
  exists mb, souts, ma, so, evs. auto.
Qed.

Lemma C02_crash_atomic_premises_satisfiable :
  exists G,
    Inv Ps s_ex G /\ w_pending (s_wr s_ex) = [] /\ s_pol s_ex = PAlways true /\
    op_wf_strict (s_qs s_ex) o_cr /\
    RestartWrite.stream_bound Ps G (map snd (step_log Ps s_ex o_cr)) /\
    crash_bound Ps G (map snd (step_log Ps s_ex o_cr)) (abs_qs (s_qs s_ex)) /\
    crash_bound Ps G (map snd (step_log Ps s_ex o_cr)) (abs_qs (s_qs s_cr)) /\
    step Ps s_ex o_cr false = (s_cr, out_s) /\ (forall e, out_s <> OutIo e) /\ no_zero_collision Ps.
Proof.
  pose proof (inv_fresh Ps Ps_BS_lo Ps_BS_hi Ps_NB (PAlways true) s0 open_s0) as HI0.
  destruct (hrun_inv Ps Ps_BS_lo Ps_BS_hi Ps_NB Ps_crc eq_refl eq_refl h_ex s0 gh_fresh
              HI0 hist_ok_s) as (st' & outs & G & Er & HI & Eb & _).
  rewrite hrun_s in Er. injection Er as <- <-. exists G.
  pose proof (crash_phys_bound_ghost Ps Ps_BS_lo Ps_BS_hi Ps_NB Ps_crc _ G _ _ (proj1 HI) cpb_before) as Hb1.
  pose proof (crash_phys_bound_ghost Ps Ps_BS_lo Ps_BS_hi Ps_NB Ps_crc _ G _ _ (proj1 HI) cpb_after) as Hb2.
  split; [exact HI|]. split; [reflexivity|]. split; [reflexivity|]. split; [exact op_wf_s|].
  split; [exact (crash_bound_stream_bound Ps Ps_BS_lo Ps_BS_hi Ps_NB Ps_crc _ _ _ Hb1)|].
  split; [exact Hb1|]. split; [exact Hb2|]. split; [exact step_s|].
  split; [intros e H; discriminate H|exact Ps_nzc].
Qed.

Lemma C02_crash_atomic_inst :
  exists evs,
    c_ev (w_ctx (s_wr s_cr)) = rev evs ++ c_ev (w_ctx (s_wr s_ex)) /\
    forall cut k pol hint, exists st_r,
      open Ps (fold_left apply_event (crash_events evs cut k) (c_fs (w_ctx (s_wr s_ex)))) None pol hint =
        OpenOk st_r /\
      ((forall q, s_get (abs_qs (s_qs st_r)) q = s_get (abs_qs (s_qs s_ex)) q) \/
       (forall q, s_get (abs_qs (s_qs st_r)) q = s_get (abs_qs (s_qs s_cr)) q)).
Proof.
  destruct C02_crash_atomic_premises_satisfiable
    as (G & HI & Hp & Hpol & Hwf & Hsb & Hb1 & Hb2 & Hs & Hno & _).
  exact (TH PropC02.C02_crash_atomic s_ex G true o_cr false s_cr out_s HI Hp Hpol Hwf Hsb Hb1 Hb2 Hs Hno).
Qed.
End SatAlways.

(* the extra premises of C12_batch_crash_always with the real CRC (the common ones are
   VacCrash.C02_history_other_premises_satisfiable) *)
Lemma C12_batch_crash_always_other_premises_satisfiable :
  (open CrashExample.Pe [] None (PAlways true) [] = OpenOk CrashExample.st0 /\
   hrun CrashExample.Pe CrashExample.st0 CrashExample.h_ex = Some (CrashExample.st_ex, outs_ex) /\
   hist_ok CrashExample.Pe CrashExample.st0 CrashExample.h_ex /\ always_hist true CrashExample.h_ex /\
   op_wf_strict (s_qs CrashExample.st_ex) o_cr /\
   crash_phys_bound CrashExample.Pe (s_wr CrashExample.st_ex)
     (map snd (step_log CrashExample.Pe CrashExample.st_ex o_cr)) (abs_qs (s_qs CrashExample.st_ex)) /\
   crash_phys_bound CrashExample.Pe (s_wr CrashExample.st_ex)
     (map snd (step_log CrashExample.Pe CrashExample.st_ex o_cr)) (abs_qs (s_qs st_cr)) /\
   step CrashExample.Pe CrashExample.st_ex o_cr false = (st_cr, out_cr)) /\
  hcalls CrashExample.h_ex =
    [OCreate CrashExample.qa] ++
    OAppend CrashExample.qa None [CrashExample.pay "x"; CrashExample.pay "y"] ::
    skipn 2 (hcalls CrashExample.h_ex) /\
  nth_error outs_ex (length [OCreate CrashExample.qa]) = Some (OutAppend (Some 1) 77) /\
  log_never_deleted CrashExample.qa (RestartCorollaries.hcalls_t CrashExample.h_ex) outs_ex.
Proof.
  split; [exact C02_history_other_premises_satisfiable|]. split; [reflexivity|].
  split; [reflexivity|]. vm_compute. reflexivity.
Qed.

(* C12, damage: C12_batch_damage_self / C12_batch_damage_other (no no_zero_collision;
   DamageAtomic.Example, real CRC-32) *)
Module Damage.
Import DamageAtomic.Example.
Definition log_ex : glog := Eval vm_compute in calls_log Pc st0 calls_ex.

(* the ghost state of VacDamage.ghost_ex: which entries are in the kept files is not given, but the
   invariant forces the last two entries of the log (two batch appends) to be among them: were
   fewer kept, a restart would not give back the records of qa *)
Lemma ghost_two : exists G i j fA fB,
  Inv Pc st_ex G /\ gh_log G = log_ex /\ gh_dropped G = [] /\ dmg_bound Pc st_ex G /\
  nth_error (gh_E G) i = Some (fA, EAppend qb 1 [(1, pay "w")]) /\
  nth_error (gh_E G) j = Some (fB, EAppend qa 3 [(3, pay "v"); (4, pay "t")]) /\ j <> i.
Proof.
  destruct ghost_ex as (G & HI & _ & Ed & El). exists G.
  pose proof (dmg_bound_ex G El) as Hdb.
  replace (calls_log Pc st0 calls_ex) with log_ex in El by (vm_compute; reflexivity).
  assert (EE : gh_E G = skipn (length (gh_pre G)) log_ex)
    by (rewrite <- El; symmetry; apply RestartGc.skipn_app_exact).
  assert (Hlen : (length (gh_pre G) <= 9)%nat).
  { apply (f_equal (@length _)) in El. unfold gh_log in El. rewrite app_length in El.
    change (length log_ex) with 9%nat in El. lia. }
  destruct (inv_restart_equal Pc st_ex G HI (repeat 0 (length (gh_E G))) (repeat_length _ _))
    as (qs' & Hr & _ & _ & Heq).
  pose proof (Heq qa) as Ha.
  replace (s_get (abs_qs (s_qs st_ex)) qa)
    with (Some ([(2, pay "u"); (3, pay "v"); (4, pay "t")], 5)) in Ha by (vm_compute; reflexivity).
  unfold gh_log in EE. remember (length (gh_pre G)) as n0 eqn:En in *. clear En.
  assert (Hn : (n0 <= 7)%nat).
  { destruct (le_lt_dec n0 7) as [H|H]; [exact H|exfalso].
    assert (En : n0 = 8%nat \/ n0 = 9%nat) by lia.
    destruct En as [-> | ->]; unfold log_ex in EE; cbn [skipn] in EE; rewrite EE in Hr;
      vm_compute in Hr; injection Hr as <-; vm_compute in Ha; discriminate Ha. }
  exists (8 - n0)%nat, (7 - n0)%nat. eexists _, _.
  split; [exact HI|]. split; [exact El|]. split; [exact Ed|]. split; [exact Hdb|].
  rewrite EE, !RestartGc.nth_error_skipn'.
  replace (n0 + (8 - n0))%nat with 8%nat by lia. replace (n0 + (7 - n0))%nat with 7%nat by lia.
  split; [reflexivity|]. split; [reflexivity|lia].
Qed.

(* all premises of both theorems: the damaged entry is the batch EAppend qb 1 [(1, w)] (entry 8 of
   the log); the other batch is EAppend qa 3 [(3, v); (4, t)] *)
Lemma C12_batch_damage_premises_satisfiable :
  exists G i ex0 ed k fs_d j fB,
    Inv Pc st_ex G /\
    damaged_dir Pc st_ex G i (EAppend qb 1 [(1, pay "w")]) ex0 ed k fs_d /\
    dmg_bound Pc st_ex G /\
    nth_error (gh_E G) j = Some (fB, EAppend qa 3 [(3, pay "v"); (4, pay "t")]) /\ j <> i /\
    gh_ALL G = map snd log_ex /\ (gh_k G + i)%nat = 8%nat /\ (gh_k G + j)%nat = 7%nat.
Proof.
  destruct ghost_two as (G & i & j & fA & fB & HI & El & Ed & Hdb & Hi & Hj & Hne).
  destruct (PropC09.C09_damaged_dir_exists Pc Pc_BS_lo Pc_BS_hi Pc_NB Pc_crc st_ex G i _ fA HI Hi)
    as (ex0 & ed & k & fs_d & Hd).
  assert (EA : gh_ALL G = map snd log_ex) by (unfold gh_ALL; rewrite Ed, El; reflexivity).
  exists G, i, ex0, ed, k, fs_d, j, fB. split; [exact HI|]. split; [exact Hd|].
  split; [exact Hdb|]. split; [exact Hj|]. split; [exact Hne|]. split; [exact EA|].
  split.
  - pose proof (dmg_nth Pc Pc_BS_lo Pc_BS_hi Pc_NB G i _ fA Hi) as Hn. rewrite EA in Hn.
    remember (gh_k G + i)%nat as n eqn:En. clear En.
    do 8 (destruct n as [|n]; [vm_compute in Hn; discriminate Hn|]).
    destruct n as [|n]; [reflexivity|]. vm_compute in Hn. destruct n; discriminate Hn.
  - pose proof (dmg_nth Pc Pc_BS_lo Pc_BS_hi Pc_NB G j _ fB Hj) as Hn. rewrite EA in Hn.
    remember (gh_k G + j)%nat as n eqn:En. clear En.
    do 7 (destruct n as [|n]; [vm_compute in Hn; discriminate Hn|]).
    destruct n as [|n]; [reflexivity|]. vm_compute in Hn.
    destruct n as [|n]; [discriminate Hn|]. destruct n; discriminate Hn.
Qed.

Lemma C12_batch_damage_self_inst :
  exists fs_d, forall pol hint, exists st_r,
    open Pc fs_d None pol hint = OpenOk st_r /\
    (* the damaged batch is lost as a whole *)
    (forall m, qs_get (s_qs st_r) qb = Some m -> ~ In (1, pay "w") (records_of (q_buf m) (q_metas m))) /\
    (* every recovered record was appended by another entry *)
    (forall q' m rec, qs_get (s_qs st_r) q' = Some m -> In rec (records_of (q_buf m) (q_metas m)) ->
       exists idx pos recs', idx <> 8%nat /\
         nth_error (map snd log_ex) idx = Some (EAppend q' pos recs') /\ In rec recs').
Proof.
  destruct C12_batch_damage_premises_satisfiable
    as (G & i & ex0 & ed & k & fs_d & j & fB & HI & Hd & Hb & Hj & Hne & EA & Ek & Ej).
  exists fs_d. intros pol hint.
  destruct (PropC12.C12_batch_damage_self Pc Pc_BS_lo Pc_BS_hi Pc_NB Pc_crc eq_refl eq_refl
              st_ex G i ex0 ed k fs_d qb 1 [(1, pay "w")] HI Hd Hb pol hint)
    as (st_r & F & Ho & _ & _ & H2 & H3).
  rewrite EA, Ek in H2, H3.
  exists st_r. split; [exact Ho|]. split; [|exact H2].
  intros m Hm. refine (H3 _ m (1, pay "w") Hm (or_introl eq_refl)).
  intros idx pos recs' Hidx Hn rec [<-|[]] Hin.
  do 9 (destruct idx as [|idx]; [vm_compute in Hn; try discriminate Hn;
                                 try (injection Hn as <- <-; vm_compute in Hin; intuition discriminate);
                                 try (now apply Hidx)|]).
  vm_compute in Hn. destruct idx; discriminate Hn.
Qed.

Lemma C12_batch_damage_other_inst :
  exists fs_d, forall pol hint, exists st_r m,
    open Pc fs_d None pol hint = OpenOk st_r /\
    (* the OTHER batch is recovered whole *)
    qs_get (s_qs st_r) qa = Some m /\
    In (3, pay "v") (records_of (q_buf m) (q_metas m)) /\
    In (4, pay "t") (records_of (q_buf m) (q_metas m)).
Proof.
  destruct C12_batch_damage_premises_satisfiable
    as (G & i & ex0 & ed & k & fs_d & j & fB & HI & Hd & Hb & Hj & Hne & EA & Ek & Ej).
  exists fs_d. intros pol hint.
  destruct (PropC12.C12_batch_damage_other Pc Pc_BS_lo Pc_BS_hi Pc_NB Pc_crc eq_refl eq_refl
              st_ex G i _ ex0 ed k fs_d j fB qa 3 [(3, pay "v"); (4, pay "t")] HI Hd Hb Hj Hne pol hint)
    as (st_r & F & Ho & HF & H).
  rewrite EA in HF. vm_compute in HF. injection HF as <-. rewrite Ej in H.
  specialize (H [(3%nat, (2, pay "u")); (7%nat, (3, pay "v")); (7%nat, (4, pay "t"))] 5 eq_refl).
  destruct (H (7%nat, (3, pay "v")) ltac:(right; left; reflexivity) eq_refl) as (_ & m & Hm & H3).
  destruct (H (7%nat, (4, pay "t")) ltac:(right; right; left; reflexivity) eq_refl) as (_ & m' & Hm' & H4).
  rewrite Hm in Hm'. injection Hm' as <-.
  exists st_r, m. split; [exact Ho|]. split; [exact Hm|]. split; [exact H3|exact H4].
Qed.
End Damage.

(* the torn-write theorems at stream and file level WITH no_zero_collision: P := P_sat 16 2 (the
   data of VacStream / VacFiles) *)
Module SatTorn.
Import TornFile.
Definition Pt : params := P_sat 16 2.
Lemma Pt_BS_lo : 7 < BS Pt. Proof. reflexivity. Qed.
Lemma Pt_BS_hi : BS Pt <= 65542. Proof. intros H; discriminate H. Qed.
Lemma Pt_NB : 1 <= NB Pt. Proof. intros H; discriminate H. Qed.
Lemma Pt_crc : forall t p, crcf Pt t p < 2 ^ 32. Proof. exact crc_sat_lt. Qed.
Lemma Pt_nzc : no_zero_collision Pt. Proof. apply nzc_P_sat. intros H; discriminate H. Qed.

(* stream level: C02_torn_read_nocoll = C12_torn_entry_all_or_nothing *)
Definition es1 := VacStream.es1.
Definition x_t := VacStream.x_t.
Definition t1 : bytes := Eval vm_compute in ResyncProofs.encs_of Pt 0 es1.
Definition ex : bytes := Eval vm_compute in enc_of Pt (lenN t1) x_t.
Definition S0 : bytes := Eval vm_compute in mem_stream Pt (t1 ++ takeN 30 ex).

Lemma torn_read_nocoll_premises_satisfiable :
  exists k, no_zero_collision Pt /\ encs_rel Pt 0 es1 t1 /\ enc_rel Pt (lenN t1) true x_t ex k /\
            30 < lenN ex /\ S0 = mem_stream Pt (t1 ++ takeN 30 ex) /\ (length es1 + 3 <= 5)%nat /\
            lenN S0 <= 7 * N.of_nat 20.
Proof.
  destruct (enc_of_rel Pt Pt_BS_lo Pt_BS_hi Pt_crc (lenN t1) x_t) as [k Hk].
  exists k. split; [exact Pt_nzc|]. split.
  { replace t1 with (ResyncProofs.encs_of Pt 0 es1) by (vm_compute; reflexivity).
    apply (encs_of_rel Pt Pt_BS_lo Pt_BS_hi Pt_crc). }
  split; [exact Hk|]. split; [reflexivity|]. split; [vm_compute; reflexivity|].
  split; [cbn; lia|]. vm_compute. intros H; discriminate H.
Qed.

Lemma C12_torn_entry_all_or_nothing_inst :
  exists tail, mem_read_all Pt 5 20 (rr_start Pt S0) = map MrEntry es1 ++ tail /\
    (tail = [MrEnd] \/ tail = [MrCorrupt; MrEnd] \/
     tail = [MrEntry x_t; MrEnd] /\ all_zero (dropN 30 ex) = true).
Proof.
  destruct torn_read_nocoll_premises_satisfiable as (k & H0 & H1 & H2 & H3 & H4 & H5 & H6).
  exact (PropC12.C12_torn_entry_all_or_nothing Pt Pt_BS_lo Pt_BS_hi Pt_crc es1 t1 x_t ex k 30 5 20 S0
           H0 H1 H2 H3 H4 H5 H6).
Qed.

Lemma C02_torn_read_nocoll_inst :
  exists tail, mem_read_all Pt 5 20 (rr_start Pt S0) = map MrEntry es1 ++ tail /\
    (tail = [MrEnd] \/ tail = [MrCorrupt; MrEnd] \/
     tail = [MrEntry x_t; MrEnd] /\ all_zero (dropN 30 ex) = true).
Proof.
  destruct torn_read_nocoll_premises_satisfiable as (k & H0 & H1 & H2 & H3 & H4 & H5 & H6).
  exact (PropC02.C02_torn_read_nocoll Pt Pt_BS_lo Pt_BS_hi Pt_crc es1 t1 x_t ex k 30 5 20 S0
           H0 H1 H2 H3 H4 H5 H6).
Qed.

(* file level: C02_open_torn = C12_open_torn *)
(* base 0, lo 1 (file 0 deleted); E_all = E1 ++ [X] written from 0 (106 bytes); the call in flight
   logs the three entries of E2 from c0 = 106, cut after j = 50 of their 112 bytes (inside the
   third frame of the first entry); the last file (4) is SHORT: 28 bytes instead of 32 *)
Definition E1 := VacFiles.E1.
Definition X := VacFiles.X.
Definition E2 := VacFiles.E2.
Definition T_t : bytes := Eval vm_compute in ResyncProofs.encs_of Pt 0 (map entry_ser (E1 ++ [X])).
Definition S_t : bytes :=
  Eval vm_compute in T_t ++ zerosN (106 - lenN T_t) ++
                     takeN 50 (ResyncProofs.encs_of Pt 106 (map entry_ser E2)) ++ zerosN 4.
Definition fs_t : fsT :=
  Eval vm_compute in
    [(filename 1, FFile (sliceN 32 64 S_t)); (filename 2, FFile (sliceN 64 96 S_t));
     (filename 3, FFile (sliceN 96 128 S_t)); (filename 4, FFile (sliceN 128 156 S_t))].

Lemma open_torn_premises_satisfiable :
  no_zero_collision Pt /\
  list_wal_numbers fs_t = GcProofs.iota 1 4 /\
  (forall f, In f (GcProofs.iota 1 4) ->
     exists b, fs_get fs_t (filename f) = Some (FFile b) /\
               lenN b <= FILE_BYTES Pt /\ (f <> 1 + N.of_nat 3 -> lenN b = FILE_BYTES Pt)) /\
  0 <= 1 /\ L_IO Pt = false /\ L_SHORT Pt = false /\
  Forall wf_entry (E1 ++ [X]) /\ Forall wf_entry E2 /\
  encs_rel Pt 0 (map entry_ser (E1 ++ [X])) T_t /\
  lenN T_t <= 106 /\ 106 <= ResyncProofs.first_frame_pos Pt (lenN T_t) /\ (1 - 0) * FILE_BYTES Pt <= 106 /\
  50 <= lenN (ResyncProofs.encs_of Pt 106 (map entry_ser E2)) /\
  FileStream.stream_of (fs_ext Pt fs_t 1 3) (GcProofs.iota 1 4) =
    dropN ((1 - 0) * FILE_BYTES Pt)
          (T_t ++ zerosN (106 - lenN T_t) ++ takeN 50 (ResyncProofs.encs_of Pt 106 (map entry_ser E2)) ++ zerosN 4) /\
  lenN (T_t ++ zerosN (106 - lenN T_t) ++ takeN 50 (ResyncProofs.encs_of Pt 106 (map entry_ser E2)) ++ zerosN 4) =
    (1 + N.of_nat 3 - 0 + 1) * FILE_BYTES Pt.
Proof.
  split; [exact Pt_nzc|].
  split; [vm_compute; reflexivity|]. split.
  { intros f Hf. cbn in Hf.
    destruct Hf as [<-|[<-|[<-|[<-|[]]]]]; eexists;
      (split; [vm_compute; reflexivity|]);
      (split; [vm_compute; intros H; discriminate H|]); intros Hne;
      first [vm_compute; reflexivity | exfalso; apply Hne; reflexivity]. }
  split; [lia|]. split; [reflexivity|]. split; [reflexivity|].
  split; [exact VacFiles.wf_E1X|]. split; [exact VacFiles.wf_E2|]. split.
  { replace T_t with (ResyncProofs.encs_of Pt 0 (map entry_ser (E1 ++ [X]))) by (vm_compute; reflexivity).
    apply (encs_of_rel Pt Pt_BS_lo Pt_BS_hi Pt_crc). }
  split; [vm_compute; intros H; discriminate H|]. split; [vm_compute; intros H; discriminate H|].
  split; [vm_compute; intros H; discriminate H|]. split; [vm_compute; intros H; discriminate H|].
  split; vm_compute; reflexivity.
Qed.

Lemma C12_open_torn_inst : forall pol hint,
  exists w0 tags E_suf Xd,
    (Xd = [] \/ Xd = [EAppend VacStream.qa 1 [(1, ["z"%byte])]]) /\
    match replay_entries [] (combine tags (E_suf ++ Xd)) with
    | Some qs => open Pt fs_t None pol hint = open_finish Pt w0 qs pol hint
    | None => exists c', open Pt fs_t None pol hint = OpenCorruption c'
    end.
Proof.
  intros pol hint.
  destruct open_torn_premises_satisfiable
    as (H0 & H1 & H2 & H3 & H4 & H5 & H6 & H7 & H8 & H9 & H10 & H11 & H12 & H13 & H14).
  destruct (PropC12.C12_open_torn Pt Pt_BS_lo Pt_BS_hi Pt_NB Pt_crc H0 fs_t 1 3%nat H1 H2 0 H3
              (E1 ++ [X]) E2 T_t 106 50 4 pol hint H4 H5 H6 H7 H8 H9 H10 H11 H12 H13 H14)
    as (w0 & tags & E_pre & E_suf & X1 & Xr & Xd & pf & _ & _ & _ & EX & HX1 & HXr & HXd & _ & _ & _ & _ & _ & _ & Hres).
  exists w0, tags, E_suf, Xd. split; [|exact Hres].
  (* X1 = [] : the first entry of E2 takes more than 50 bytes *)
  destruct X1 as [|x1 X1].
  - destruct HXd as [->|(x & X2 & EXr & -> & _)]; [now left|right].
    cbn [app] in EX. rewrite EXr in EX. unfold E2, VacFiles.E2 in EX. injection EX as <- _. reflexivity.
  - exfalso. unfold E2, VacFiles.E2 in EX. cbn [app] in EX. injection EX as <- EX.
    assert (Hmono : lenN (ResyncProofs.encs_of Pt 106 (map entry_ser [EAppend VacStream.qa 1 [(1, ["z"%byte])]]))
                    <= lenN (ResyncProofs.encs_of Pt 106 (map entry_ser (EAppend VacStream.qa 1 [(1, ["z"%byte])] :: X1)))).
    { change (EAppend VacStream.qa 1 [(1, ["z"%byte])] :: X1) with ([EAppend VacStream.qa 1 [(1, ["z"%byte])]] ++ X1).
      rewrite map_app, (ResyncProofs.encs_of_app Pt Pt_BS_lo Pt_BS_hi Pt_crc), lenN_app. lia. }
    assert (Hlen : lenN (ResyncProofs.encs_of Pt 106 (map entry_ser [EAppend VacStream.qa 1 [(1, ["z"%byte])]])) = 52)
      by (vm_compute; reflexivity).
    lia.
Qed.

Lemma C02_open_torn_inst : forall pol hint,
  exists w0 tags E_suf Xd,
    match replay_entries [] (combine tags (E_suf ++ Xd)) with
    | Some qs => open Pt fs_t None pol hint = open_finish Pt w0 qs pol hint
    | None => exists c', open Pt fs_t None pol hint = OpenCorruption c'
    end.
Proof.
  intros pol hint.
  destruct open_torn_premises_satisfiable
    as (H0 & H1 & H2 & H3 & H4 & H5 & H6 & H7 & H8 & H9 & H10 & H11 & H12 & H13 & H14).
  destruct (PropC02.C02_open_torn Pt Pt_BS_lo Pt_BS_hi Pt_NB Pt_crc H0 fs_t 1 3%nat H1 H2 0 H3
              (E1 ++ [X]) E2 T_t 106 50 4 pol hint H4 H5 H6 H7 H8 H9 H10 H11 H12 H13 H14)
    as (w0 & tags & E_pre & E_suf & X1 & Xr & Xd & pf & _ & _ & _ & _ & _ & _ & _ & _ & _ & _ & _ & _ & _ & Hres).
  exists w0, tags, E_suf, Xd. exact Hres.
Qed.
End SatTorn.

Module Panic.
Import SatTorn.

Lemma fs_bounded_by P fs :
  forallb (fun kv => match snd kv with FFile b => lenN b <=? FILE_BYTES P | _ => true end) fs = true ->
  fs_bounded P fs.
Proof.
  intros H n. unfold OpenTerm.fcontent.
  induction fs as [|[name e] r IH]; cbn [fs_get].
  - rewrite (@lenN_nil byte). lia.
  - cbn [forallb fst snd] in H. apply andb_true_iff in H. destruct H as [H1 H2].
    destruct (bytes_eqb name (filename n)).
    + destruct e as [b| | ]; [apply N.leb_le in H1; exact H1|rewrite (@lenN_nil byte); lia|rewrite (@lenN_nil byte); lia].
    + apply IH. exact H2.
Qed.

(* open_small (the hypothesis of the debug profile) as a boolean *)
Definition entry_small_b (e : entry) : bool :=
  match e with
  | EAppend _ _ recs => forallb (fun r => fst r + 1 <? U64) recs
  | ETruncate _ p => p + 1 <? U64
  | _ => true
  end.

Lemma entry_small_b_ok e : entry_small_b e = true -> entry_small e.
Proof.
  destruct e as [q p recs|q p|q p|q p]; cbn [entry_small_b entry_small]; try (intros _; exact I).
  - intros H r Hr. rewrite forallb_forall in H. specialize (H r Hr). cbn beta in H.
    apply N.ltb_lt in H. exact H.
  - intros H. apply N.ltb_lt in H. exact H.
Qed.

Fixpoint replay_small_b (P : params) (fuel gofuel : nat) (rr : rreader_t) (qs : queues) : bool :=
  match fuel with
  | O => true
  | S fuel' =>
      let file := rd_file (fr_rd (rr_fr rr)) in
      match go_next P rreaderS (rd_next P) rd_block gofuel rr with
      | (rr', RRecord) =>
          match entry_deser (rr_buf rr') with
          | None => replay_small_b P fuel' gofuel rr' qs
          | Some e =>
              entry_small_b e &&
              match apply_entry qs file e with
              | Some qs' => replay_small_b P fuel' gofuel rr' qs'
              | None => true
              end
          end
      | (rr', REnd) => true
      | (rr', RCorrupt) => replay_small_b P fuel' gofuel rr' qs
      | (rr', RIo e) => if L_IO P then replay_small_b P fuel' gofuel rr' qs else true
      | (rr', RFuel) => true
      end
  end.

Lemma replay_small_b_ok P gofuel : forall fuel rr qs,
  replay_small_b P fuel gofuel rr qs = true -> replay_small P fuel gofuel rr qs.
Proof.
  induction fuel as [|fuel IH]; intros rr qs H; [exact I|].
  cbn [replay_small_b replay_small] in *.
  destruct (go_next P rreaderS (rd_next P) rd_block gofuel rr) as [rr' [ | | |e| ]]; try exact I.
  - destruct (entry_deser (rr_buf rr')) as [e|]; [|now apply IH].
    apply andb_true_iff in H. destruct H as [H1 H2]. split; [now apply entry_small_b_ok|].
    destruct (apply_entry qs _ e) as [qs'|]; [now apply IH|exact I].
  - now apply IH.
  - destruct (L_IO P); [now apply IH|exact I].
Qed.

Definition open_small_b (P : params) (fuel : nat) (fs : fsT) (plan : option fplan) (pol : policy)
           (hint : list bytes) : bool :=
  match rd_open P (ctx_init fs plan) with
  | (_, Err _) => true
  | (_, Ok rd) =>
      replay_small_b P fuel fuel (rr_open rreaderS rd) [] &&
      match replay_loop P fuel fuel (rr_open rreaderS rd) [] with
      | (rr, RpDone qs) =>
          let fr := rr_fr rr in
          let st := mkSt (rd_into_writer P (fr_rd fr) (fr_cursor fr)) qs pol in
          forallb (fun f => f + gc_budget P st hint <? U64) (rd_files (fr_rd fr))
      | _ => true
      end
  end.

Lemma open_small_b_ok P fuel fs plan pol hint :
  open_small_b P fuel fs plan pol hint = true -> open_small P fuel fs plan pol hint.
Proof.
  unfold open_small_b, open_small.
  destruct (rd_open P (ctx_init fs plan)) as [c [rd|e]]; [|intros _; exact I].
  intros H. apply andb_true_iff in H. destruct H as [H1 H2].
  split; [now apply replay_small_b_ok|].
  destruct (replay_loop P fuel fuel (rr_open rreaderS rd) []) as [rr [qs| |e|]]; try exact I.
  cbn zeta in *. intros f Hf. rewrite forallb_forall in H2. specialize (H2 f Hf). cbn beta in H2.
  apply N.ltb_lt in H2. exact H2.
Qed.

(* the directory: the crash image of SatCrash after 20 events and 3 bytes of the next write
   (BS = 32, NB = 2; files 0-5 of 64 bytes, the batch append to qb torn) *)
Definition fs_img : fsT :=
  Eval vm_compute in
    fold_left apply_event (crash_events SatCrash.evs_cr 20 3) (c_fs (w_ctx (s_wr SatCrash.stp))).
Definition st_img : state :=
  Eval vm_compute in
    match open SatCrash.Ps fs_img None (PAlways true) [] with OpenOk s => s | _ => st_dummy end.
Lemma open_img : open SatCrash.Ps fs_img None (PAlways true) [] = OpenOk st_img.
Proof. vm_compute. reflexivity. Qed.
Example img_shape :
  map (fun kv => match snd kv with FFile b => lenN b | _ => 0 end) fs_img = [64; 64; 64; 64; 64; 64] /\
  SatCrash.show st_img = ([0; 1; 2; 3; 4; 5], 32, 0, [(qa, [0; 1; 2; 3], 4); (qb, [], 0)]).
Proof. vm_compute. split; reflexivity. Qed.

Lemma fs_img_bounded : fs_bounded SatCrash.Ps fs_img.
Proof. apply fs_bounded_by. vm_compute. reflexivity. Qed.

Lemma C10_open_read_panic_free_inst : forall plan,
  open_read_guards SatCrash.Ps false (open_fuel SatCrash.Ps fs_img) fs_img plan.
Proof.
  intros plan. apply PropC10.C10_open_read_panic_free. intros H; discriminate H.
Qed.

Lemma C10_open_panic_free_inst : forall plan pol hint, open_guards SatCrash.Ps false fs_img plan pol hint.
Proof.
  intros plan pol hint.
  apply PropC10.C10_open_panic_free; [intros H; discriminate H|reflexivity|exact fs_img_bounded].
Qed.

Lemma C10_accessors_after_open_inst : forall q lo hi,
  log_range_guards st_img q lo hi /\ log_last_record_guards st_img q /\
  log_last_position_guards false st_img q /\ log_summary_guards false st_img.
Proof. exact (PropC10.C10_accessors_after_open SatCrash.Ps fs_img None (PAlways true) [] st_img open_img). Qed.

Lemma C10_accessors_panic_free_inst : forall q lo hi,
  log_range_guards SatCrash.st_end q lo hi /\ log_last_record_guards SatCrash.st_end q /\
  log_last_position_guards false SatCrash.st_end q /\ log_summary_guards false SatCrash.st_end.
Proof.
  apply PropC10.C10_accessors_panic_free.
  destruct SatCrash.crash_setting_premises_satisfiable
    as (_ & _ & _ & _ & _ & _ & _ & _ & G0 & HI & Hp & Hwf & Hsb & Hcb & Hev).
  destruct (PersistSurvive.run_inv SatCrash.Ps SatCrash.Ps_BS_lo SatCrash.Ps_BS_hi SatCrash.Ps_NB
              SatCrash.Ps_crc eq_refl h_cr SatCrash.stp G0 HI Hwf Hsb) as (G' & HI' & _).
  rewrite SatCrash.run_cr in HI'. exact (Inv_qs_inv SatCrash.Ps _ _ HI').
Qed.

(* the debug profile: all premises, open_small by computation of its boolean form *)
Lemma C10_open_debug_panic_free_premises_satisfiable :
  7 <= BS SatCrash.Ps /\ 0 < NB SatCrash.Ps /\
  FILE_BYTES SatCrash.Ps + BS SatCrash.Ps + 65536 <= U64 /\ fs_bounded SatCrash.Ps fs_img /\
  open_small SatCrash.Ps (open_fuel SatCrash.Ps fs_img) fs_img None (PAlways true) [qb].
Proof.
  split; [intros H; discriminate H|]. split; [reflexivity|].
  split; [vm_compute; intros H; discriminate H|]. split; [exact fs_img_bounded|].
  apply open_small_b_ok. vm_compute. reflexivity.
Qed.

Lemma C10_open_debug_panic_free_inst : open_guards SatCrash.Ps true fs_img None (PAlways true) [qb].
Proof.
  destruct C10_open_debug_panic_free_premises_satisfiable as (H1 & H2 & H3 & H4 & H5).
  exact (PropC10.C10_open_debug_panic_free SatCrash.Ps fs_img None (PAlways true) [qb] H1 H2 H3 H4 H5).
Qed.
End Panic.

Module Misc.
Import CrashCorollaries.ExampleBatch.

(* C12_batch_all_or_nothing_spec on CrashCorollaries.ExampleBatch: queue a holds positions 0,1; the
   batch of three gets 2,3,4; then truncate(a, ..=2) and one more append *)
Lemma C12_batch_all_or_nothing_spec_premises_satisfiable :
  QueueIso.s_inv [] /\
  snd (Spec.s_step (fst (s_run [] h1)) (Spec.SAppend qa None pl)) = Spec.SAppended (Some 4).
Proof. split; [exact s_inv_nil|]. vm_compute. reflexivity. Qed.

(* after the whole history (k = 5) what is left of the batch is its suffix from position 3 on *)
Lemma C12_batch_all_or_nothing_spec_inst :
  exists recs next j,
    Spec.s_get (fst (s_run [] (h1 ++ Spec.SAppend qa None pl :: h2))) qa = Some (recs, next) /\
    4 < next /\ filter (in_span 2 5) recs = skipn j (Spec.s_number 2 pl) /\
    map fst (filter (in_span 2 5) recs) = [3; 4].
Proof.
  destruct C12_batch_all_or_nothing_spec_premises_satisfiable as [H1 H2].
  destruct (PropC12.C12_batch_all_or_nothing_spec [] h1 qa None pl h2 4 H1 H2 5%nat)
    as [[Hk _]|[_ H]]; [vm_compute; repeat constructor|vm_compute in Hk; lia|].
  cbn zeta in H. destruct H as [Hm H].
  destruct H as (recs & next & j & Hg & Hn & Hf); [vm_compute; reflexivity|].
  exists recs, next, j.
  replace (firstn 5 (h1 ++ Spec.SAppend qa None pl :: h2)) with (h1 ++ Spec.SAppend qa None pl :: h2)
    in Hg by reflexivity.
  split; [exact Hg|]. split; [exact Hn|]. split; [exact Hf|].
  vm_compute in Hg. injection Hg as <- <-. vm_compute. reflexivity.
Qed.

(* C02_hypotheses_satisfiable: its two premises at the production sizes *)
Lemma C02_hypotheses_satisfiable_inst :
  exists P, BS P = 32768 /\ NB P = 4096 /\ (forall t p, crcf P t p < 2 ^ 32) /\ no_zero_collision P /\
            L_GC P = false /\ L_IO P = false /\ L_SHORT P = false.
Proof.
  destruct (PropC02.C02_hypotheses_satisfiable 32768 4096 ltac:(reflexivity) ltac:(intros H; discriminate H))
    as (P & H1 & H2 & _ & _ & H5 & H6 & H7 & H8 & H9).
  exists P. auto 10.
Qed.

(* C02_unbounded_hypothesis_inconsistent.
   Its conclusion is False: its two premises are JOINTLY UNSATISFIABLE by design (that is what the
   theorem says).  It is not vacuous in the harmful sense, because each premise alone is
   satisfiable: the 32-bit bound by any real checksum (VacCrash.Pe_crc), the unbounded
   no-collision formula by an injective "checksum" (below) *)
Fixpoint inj (p : bytes) : N :=
  match p with [] => 1 | b :: r => N.of_nat (Byte.to_nat b) + 256 * inj r end.

Lemma inj_pos p : 1 <= inj p.
Proof. induction p as [|b r IH]; cbn [inj]; lia. Qed.

Lemma inj_inj : forall p q, inj p = inj q -> p = q.
Proof.
  induction p as [|b r IH]; intros [|b' r'] H; cbn [inj] in H.
  - reflexivity.
  - pose proof (inj_pos r'). lia.
  - pose proof (inj_pos r). lia.
  - pose proof (Byte.to_nat_bounded b). pose proof (Byte.to_nat_bounded b').
    assert (E1 : Byte.to_nat b = Byte.to_nat b') by lia.
    assert (E2 : inj r = inj r') by lia.
    f_equal; [|now apply IH].
    pose proof (Byte.of_to_nat b) as B1. pose proof (Byte.of_to_nat b') as B2.
    rewrite E1 in B1. rewrite B1 in B2. now injection B2.
Qed.

Lemma C02_unbounded_each_premise_satisfiable :
  (exists P, forall t p, crcf P t p < 2 ^ 32) /\
  (exists P, forall (ty : byte) (fp : list byte) (n : N), n < lenN fp ->
     crcf P ty (takeN n fp ++ zerosN (lenN fp - n)) = crcf P ty fp ->
     takeN n fp ++ zerosN (lenN fp - n) = fp).
Proof.
  split; [exists CrashExample.Pe; exact Pe_crc|].
  exists (mkParams 32 2 (fun _ p => inj p) 24 false false false).
  intros ty fp n _ E. cbn [crcf] in E. now apply inj_inj.
Qed.

Lemma C02_refuted_crc32_collision_inst : crc_collision CrashExample.Pe /\ crc_collision P_prod.
Proof.
  split; apply PropC02x.C02_refuted_crc32_collision; try reflexivity; intros H; discriminate H.
Qed.

Lemma C02_refuted_premise_false_inst : ~ no_zero_collision CrashExample.Pe /\ ~ no_zero_collision P_prod.
Proof.
  split; apply PropC02x.C02_refuted_premise_false; try reflexivity; intros H; discriminate H.
Qed.
End Misc.

Print Assumptions SatCrash.crash_setting_premises_satisfiable.
Print Assumptions SatCrash.C03_process_crash_inst.
Print Assumptions SatCrash.C03_persisted_survives_inst.
Print Assumptions SatCrash.C03_power_loss_inst.
Print Assumptions SatCrash.C03_fsynced_survives_power_loss_inst.
Print Assumptions SatCrash.C03_power_loss_total_inst.
Print Assumptions SatCrash.C03_power_is_crash_inst.
Print Assumptions SatCrash.C03_trace_shape_inst.
Print Assumptions SatCrash.C03_image_shape_inst.
Print Assumptions SatCrash.C04_crash_next_positions_inst.
Print Assumptions SatCrash.C04_crash_next_after_persist_inst.
Print Assumptions SatCrash.C18_crash_projection_inst.
Print Assumptions SatCrash.C12_batch_crash_inst.
Print Assumptions SatCrash.C12_batch_crash_persisted_inst.
Print Assumptions SatCrash.census_cr.
Print Assumptions RealCrash.crash_setting_other_premises_satisfiable.
Print Assumptions RealCrash.C03_trace_shape_real_inst.
Print Assumptions RealCrash.C03_image_shape_real_inst.
Print Assumptions SatAlways.always_premises_satisfiable.
Print Assumptions SatAlways.C04_crash_next_always_inst.
Print Assumptions SatAlways.C18_crash_projection_always_inst.
Print Assumptions SatAlways.C12_batch_crash_always_inst.
Print Assumptions SatAlways.C02_history_inst.
Print Assumptions SatAlways.C02_crash_atomic_premises_satisfiable.
Print Assumptions SatAlways.C02_crash_atomic_inst.
Print Assumptions C12_batch_crash_always_other_premises_satisfiable.
Print Assumptions Damage.C12_batch_damage_premises_satisfiable.
Print Assumptions Damage.C12_batch_damage_self_inst.
Print Assumptions Damage.C12_batch_damage_other_inst.
Print Assumptions SatTorn.torn_read_nocoll_premises_satisfiable.
Print Assumptions SatTorn.C12_torn_entry_all_or_nothing_inst.
Print Assumptions SatTorn.C02_torn_read_nocoll_inst.
Print Assumptions SatTorn.open_torn_premises_satisfiable.
Print Assumptions SatTorn.C12_open_torn_inst.
Print Assumptions SatTorn.C02_open_torn_inst.
Print Assumptions Panic.C10_open_read_panic_free_inst.
Print Assumptions Panic.C10_open_panic_free_inst.
Print Assumptions Panic.C10_accessors_after_open_inst.
Print Assumptions Panic.C10_accessors_panic_free_inst.
Print Assumptions Panic.C10_open_debug_panic_free_premises_satisfiable.
Print Assumptions Panic.C10_open_debug_panic_free_inst.
Print Assumptions Misc.C12_batch_all_or_nothing_spec_premises_satisfiable.
Print Assumptions Misc.C12_batch_all_or_nothing_spec_inst.
Print Assumptions Misc.C02_hypotheses_satisfiable_inst.
Print Assumptions Misc.C02_unbounded_each_premise_satisfiable.
Print Assumptions Misc.C02_refuted_crc32_collision_inst.
Print Assumptions Misc.C02_refuted_premise_false_inst.

(* COVERAGE TABLE   theorem -> covering instance in this file
   Ps  = NzcVacuous.P_sat 32 2  (witness checksum: no_zero_collision HOLDS, NzcVacuous.nzc_P_sat)
   Pt  = NzcVacuous.P_sat 16 2
   Pe  = CrashAtomic.CrashExample.Pe (BS 32, NB 2, the REAL CRC-32: no_zero_collision is FALSE)
   "nzc" = the theorem assumes TornProofs.no_zero_collision: vacuous for the real CRC-32
           (VacCrc.crc32_refutes_nzc); covered twice: all premises with Ps/Pt, all other premises
           with the real CRC.
   The crash setting (Inv, w_pending = [], hist_wf, stream_bound, CB, the events), data: from a
   fresh directory under PDelay true, h_pre (2 roll-overs) to a persist point, then h_cr (10
   calls, 75 events, 5 roll-overs, buffering, 2 GC passes with 6 unlinks, a persist point at
   i = 4, a last append that never leaves the buffer):
     ALL premises incl. nzc, Ps   SatCrash.crash_setting_premises_satisfiable
     all other premises, Pe       RealCrash.crash_setting_other_premises_satisfiable
                                  (with the extra premises of the theorems below)
     independent computation      SatCrash.census_cr: all 495 crash images open and recover the
                                  state after a prefix of h_cr (first matching prefix: 0-3 and 5-9 all occur)
   PropC03
    C03_process_crash (nzc)                SatCrash.C03_process_crash_inst
    C03_persisted_survives (nzc)           SatCrash.C03_persisted_survives_inst (i = 4, cut >= 29)
    C03_power_loss (nzc)                   SatCrash.C03_power_loss_inst
    C03_fsynced_survives_power_loss (nzc)  SatCrash.C03_fsynced_survives_power_loss_inst
                                           (wr_all_synced at i = 4 from C03_fsync_durable)
    C03_power_is_crash                     SatCrash.C03_power_is_crash_inst (disc 2 true evs_cr by
                                           computation; power_differs: the two images differ)
    C03_power_loss_total (nzc)             SatCrash.C03_power_loss_total_inst (seeds = [], cut >= 31)
    C03_trace_shape                        SatCrash.C03_trace_shape_inst, RealCrash.C03_trace_shape_real_inst
    C03_image_shape                        SatCrash.C03_image_shape_inst, RealCrash.C03_image_shape_real_inst
   PropC04
    C04_crash_next_positions (nzc)         SatCrash.C04_crash_next_positions_inst
    C04_crash_next_after_persist (nzc)     SatCrash.C04_crash_next_after_persist_inst
    C04_crash_next_always (nzc)            SatAlways.C04_crash_next_always_inst
                                           (other premises, Pe: VacCrash.C02_history_other_premises_satisfiable)
   PropC18
    C18_crash_projection (nzc)             SatCrash.C18_crash_projection_inst
    C18_crash_projection_always (nzc)      SatAlways.C18_crash_projection_always_inst (other premises: idem)
   PropC12
    C12_batch_all_or_nothing_spec          Misc.C12_batch_all_or_nothing_spec_premises_satisfiable, _inst
                                           (CrashCorollaries.ExampleBatch)
    C12_batch_crash (nzc)                  SatCrash.C12_batch_crash_inst (batch = call 1 of h_cr)
    C12_batch_crash_persisted (nzc)        SatCrash.C12_batch_crash_persisted_inst (cut >= 24)
    C12_batch_crash_always (nzc)           SatAlways.C12_batch_crash_always_inst; other premises, Pe:
                                           C12_batch_crash_always_other_premises_satisfiable
    C12_batch_damage_self                  Damage.C12_batch_damage_premises_satisfiable, _self_inst
    C12_batch_damage_other                 Damage.C12_batch_damage_premises_satisfiable, _other_inst
                                           (DamageAtomic.Example, real CRC; the damaged entry and the
                                           other batch are the last two entries of the ghost log)
    C12_open_torn (nzc)                    SatTorn.open_torn_premises_satisfiable, C12_open_torn_inst
                                           (other premises, real CRC: VacFiles.open_torn_other_premises_satisfiable)
    C12_open_damaged                       VacFiles.C12_open_damaged_inst (no nzc)
    (also, left vacuous by VacuityAudit.v: C12_torn_entry_all_or_nothing, C02_torn_read_nocoll,
     C02_open_torn, C02_history, C02_crash_atomic: the _inst lemmas of SatTorn, SatAlways.C02_history_inst,
     SatAlways.C02_crash_atomic_premises_satisfiable, C02_crash_atomic_inst)
   PropC10
    C10_open_read_panic_free               Panic.C10_open_read_panic_free_inst (any fault plan; also
                                           PanicFree.overlong_read_ok)
    C10_open_panic_free                    Panic.C10_open_panic_free_inst (fs_bounded by computation;
                                           also PanicFree.f6_release_ok)
    C10_open_panic_free_needs_bounded_files  - (closed negative statement: the PanicFree.overlong examples)
    C10_accessors_after_open               Panic.C10_accessors_after_open_inst
    C10_accessors_panic_free               Panic.C10_accessors_panic_free_inst (qs_inv from Inv)
    C10_open_debug_panic_free              Panic.C10_open_debug_panic_free_premises_satisfiable, _inst
                                           (open_small through its boolean form open_small_b)
    C10_f6_shape                           - (closed statement)
   PropC02
    C02_hypotheses_satisfiable             Misc.C02_hypotheses_satisfiable_inst (32768 x 4096)
    C02_unbounded_hypothesis_inconsistent  premises JOINTLY UNSATISFIABLE BY DESIGN (the conclusion is
                                           False); each one alone is satisfiable:
                                           Misc.C02_unbounded_each_premise_satisfiable
   PropC02x
    C02_refuted_crc32_collision            Misc.C02_refuted_crc32_collision_inst (Pe and P_prod)
    C02_refuted_premise_false              Misc.C02_refuted_premise_false_inst (Pe and P_prod)
    C02_refuted_production, C02_refuted_counterexample, C02_refuted   - (closed statements)
   FINDINGS
   1. No unsatisfiable or only-trivially-satisfiable premise set.  In particular Inv, hist_wf,
      stream_bound, CB, crash_phys_bound, hist_ok, always_hist ARE jointly satisfiable with
      no_zero_collision on non-trivial data (SatCrash, SatAlways, SatTorn).
   2. (finding F8) every "nzc" theorem is vacuous for the production checksum: for
      crcf P = Crc.crc32 and BS P >= 15 the premise no_zero_collision P is false, and the
      end-to-end conclusion itself fails (PropC02x).  The only checksums for which these
      theorems say anything are artificial ones such as NzcVacuous.crc_sat.
   3. C02_unbounded_hypothesis_inconsistent has contradictory premises on purpose. *)
