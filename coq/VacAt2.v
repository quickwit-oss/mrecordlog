(* VacAt2.v — vacuity audit of CrashAt2.v.
   Same instance as VacAt.v (BS = 32, NB = 2, FILE = 64; create qa; interrupted call
   append qa [10 bytes] whose single entry spans file 0 and file 1):
     events 0: Write(file0,19,13)  1: Write(file0,32,32)  2: Flush 3: SyncData 4: SyncDir
            5: Create(file1)  6: SetLen(file1,64)  7: Write(file1,0,10)  8: Flush 9: SyncData 10: SyncDir.
   P_sat 32 2: the premises of jstate_crash_at2 are satisfiable at the crash points
     (6,0)          file1 created, still EMPTY (length 0)
     (7,0)          file1 sized, nothing written in it: the torn entry ends at the file boundary
     (7,1)..(7,9)   the Last frame of the entry torn in file1: the junk SPANS the file boundary
     (8,0)..(11,0)  everything written
   and the theorem is applied.  Not covered (the gap): (2,0)..(5,0), the data end exactly at the
   end of file 0 and file 1 does not exist yet; and (1,k) with the cut in the last block of file 0
   (computed with the real CRC in VacAt.all_points_ok: all recover correctly in the model). *)
From Coq Require Import Lia ZArith ZifyN ZifyNat ZifyBool List.
From MRL Require Import Bytes BytesProofs Params Names Frame Record Mem Spec Rolling Log Driver Hist
  WriterProofs SpecRefine RecordProofs StreamProofs ResyncProofs GhostLog ReplaySpec TornProofs
  RestartInv RestartWrite RestartStep OpenReplay RestartFinal CrashTrace CrashAtomic NzcVacuous
  PolicyProofs VacBase VacCrash CrashRecovered CrashRecovered2 CrashHistories JRecover4 CrashAt VacRecovered
  VacAt JRecover5 CrashAt2.
Import ListNotations.
Import CrashAtomic.CrashExample.

Definition pts2 : list (N * N) :=
  [(6,0); (7,0); (7,1); (7,2); (7,3); (7,4); (7,5); (7,6); (7,7); (7,8); (7,9);
   (8,0); (9,0); (10,0); (11,0)].

Example pts2_shape :
  map (fun ck => let pe := crash_events evs_r (fst ck) (snd ck) in
                 let img := fold_left apply_event pe (c_fs (w_ctx (s_wr w1s))) in
                 (lenN (ev_data pe), lenN (PolicyProofs.fcontent img 0), lenN (PolicyProofs.fcontent img 1)))
      [(6,0); (7,0); (7,5)] = [(45, 64, 0); (45, 64, 64); (50, 64, 64)].
Proof. vm_compute. reflexivity. Qed.

Lemma point_ok2_r ck : In ck pts2 -> crash_point_ok2 Pw w1s (crash_events evs_r (fst ck) (snd ck)).
Proof.
  intros Hin. unfold pts2 in Hin. cbn [In] in Hin.
  repeat (destruct Hin as [<-|Hin];
          [apply (crash_point_ok2_of_file Pw w1s _ 1);
             [le_tac | vm_compute; discriminate | le_tac]|]).
  contradiction.
Qed.

Theorem jstate_crash_at2_inst :
  forall ck pol hint, In ck pts2 -> exists st_r,
    open Pw (fold_left apply_event (crash_events evs_r (fst ck) (snd ck)) (c_fs (w_ctx (s_wr w1s)))) None pol hint
      = OpenOk st_r /\ jstate Pw st_r /\
    ((forall q, s_get (abs_qs (s_qs st_r)) q = s_get (abs_qs (s_qs w1s)) q) \/
     (forall q, s_get (abs_qs (s_qs st_r)) q = s_get (abs_qs (s_qs w2s)) q)).
Proof.
  intros ck pol hint Hin.
  destruct (jstate_crash_at2 Pw Pw_BS_lo Pw_BS_hi Pw_NB Pw_crc eq_refl eq_refl eq_refl Pw_nzc
              w1s true o_r false w2s out_r jstate_w1 call_ok0_r) as (_ & evs & Hev & Hall).
  rewrite (new_evs_unique _ _ _ _ evs_r_eq Hev) in Hall.
  destruct (Hall (fst ck) (snd ck) pol hint (point_ok2_r ck Hin)) as (st_r & Ho & Hj & _ & _ & Ha).
  exists st_r. auto.
Qed.

(* the gap is real for this premise: at (5,0) the top file of the image is file 0 and it is full *)
Example gap_point :
  let pe := crash_events evs_r 5 0 in
  let img := fold_left apply_event pe (c_fs (w_ctx (s_wr w1s))) in
  (w_off (s_wr w1s) + lenN (ev_data pe), fs_get img (filename 1)) = (64, None).
Proof. vm_compute. reflexivity. Qed.

Print Assumptions jstate_crash_at2_inst.
