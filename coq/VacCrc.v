(* VacCrc.v — vacuity audit, finding F8: TornProofs.no_zero_collision (payload length bounded by
   the block size) is satisfiable for some checksum function
   (NzcVacuous.nzc_bounded_sat) but it is FALSE FOR THE PRODUCTION CHECKSUM Crc.crc32 as soon as
   a frame can carry 8 payload bytes (BS >= 15): the CRC being affine, any payload ending in
      T8 = d ++ le32 (crc32_update 0 d)          (here d = 01 00 00 00)
   has the same CRC as the payload with these 8 bytes replaced by zeros.
   Hence every theorem that assumes no_zero_collision is vacuous for
   P with crcf P = Crc.crc32, i.e. for the implementation as it is, and the property itself
   (C02: a crash recovers the state before or after the call) is FALSE in the model with the real
   CRC-32: crash_counterexample below exhibits a state under the global invariant, a well-formed
   append and a crash image (the write of the last frame cut after its 7 header bytes) on which
   `open` succeeds and returns a record that was never appended - with every other premise of
   C02_crash_atomic satisfied. *)
From Coq Require Import Lia ZArith ZifyN ZifyNat ZifyBool List.
From MRL Require Import Bytes BytesProofs Params Names Frame Record Mem Spec Rolling Log Driver Hist
  SpecRefine RecordProofs StreamProofs TornProofs ResyncProofs GhostLog RestartInv RestartWrite
  RestartFinal CrashAtomic NzcVacuous Crc VacBase VacCrash.
Import ListNotations.
Import CrashAtomic.CrashExample.

Definition T8 : bytes :=
  Eval vm_compute in [x01; x00; x00; x00] ++ le_enc 4 (crc32_update 0 [x01; x00; x00; x00]).

Example T8_value : T8 = [x01; x00; x00; x00; x65; x67; xbc; xb8].
Proof. reflexivity. Qed.

Lemma T8_collides : forall ty, crc32 ty T8 = crc32 ty (zerosN 8).
Proof. destruct ty; vm_compute; reflexivity. Qed.

Section RealCrc.
Variable P : params.
Hypothesis Hcrc32 : crcf P = crc32.

Hypothesis HB15 : 15 <= BS P.

(* the 4th alternative of C02_torn_read is REAL for the production checksum *)
Theorem crc32_zero_collision : crc_collision P.
Proof.
  exists x01, T8, 0. split; [change (lenN T8) with 8; lia|]. split; [reflexivity|]. split; [discriminate|].
  rewrite Hcrc32. symmetry. apply T8_collides.
Qed.

(* hence the hypothesis no_zero_collision is FALSE for the production checksum, for every
   block size that lets a frame carry eight payload bytes *)
Theorem crc32_refutes_nzc : ~ no_zero_collision P.
Proof. intros H. exact (no_collision P H crc32_zero_collision). Qed.

Theorem crc32_refutes_nzc_bounded : ~ no_zero_collision P.
Proof. exact crc32_refutes_nzc. Qed.
End RealCrc.

(* The property itself fails in the model with the real CRC-32.
   CrashExample: BS = 32, NB = 2, crcf = crc32; st_ex is reached from a fresh directory by a
   hist_ok history (VacCrash.hist_ok_ex) and satisfies Inv.  The call: append to qb one record
   whose payload ends with T8. *)
Definition o_adv : op := OAppend qb None [pay "x"%byte ++ T8].
Definition st_adv : state := Eval vm_compute in fst (step Pe st_ex o_adv false).
Definition out_adv : outcome := Eval vm_compute in snd (step Pe st_ex o_adv false).
Lemma step_adv : step Pe st_ex o_adv false = (st_adv, out_adv).
Proof. vm_compute. reflexivity. Qed.
Definition evs_adv : list event := Eval vm_compute in new_events st_ex st_adv.
Definition img_adv : fsT :=
  Eval vm_compute in fold_left apply_event (crash_events evs_adv 7 7) (c_fs (w_ctx (s_wr st_ex))).
Definition st_rec : state :=
  Eval vm_compute in match open Pe img_adv None (PAlways true) [] with OpenOk s => s | _ => st_dummy end.

Lemma op_wf_adv : op_wf_strict (s_qs st_ex) o_adv.
Proof. unfold o_adv. wf_tac. Qed.

Theorem crash_counterexample :
  (* all premises of C02_crash_atomic except no_zero_collision *)
  (exists G,
     Inv Pe st_ex G /\ w_pending (s_wr st_ex) = [] /\ s_pol st_ex = PAlways true /\
     op_wf_strict (s_qs st_ex) o_adv /\
     RestartWrite.stream_bound Pe G (map snd (step_log Pe st_ex o_adv)) /\
     crash_bound Pe G (map snd (step_log Pe st_ex o_adv)) (abs_qs (s_qs st_ex)) /\
     crash_bound Pe G (map snd (step_log Pe st_ex o_adv)) (abs_qs (s_qs st_adv)) /\
     step Pe st_ex o_adv false = (st_adv, out_adv) /\ (forall e, out_adv <> OutIo e)) /\
  (* the trace of the call *)
  c_ev (w_ctx (s_wr st_adv)) = rev evs_adv ++ c_ev (w_ctx (s_wr st_ex)) /\
  (* the crash image: event 7 (the write of the last frame) cut after 7 bytes *)
  img_adv = fold_left apply_event (crash_events evs_adv 7 7) (c_fs (w_ctx (s_wr st_ex))) /\
  open Pe img_adv None (PAlways true) [] = OpenOk st_rec /\
  (* the recovered state is neither the state before nor the state after the call: *)
  s_get (abs_qs (s_qs st_ex)) qb = Some ([], 0) /\
  s_get (abs_qs (s_qs st_adv)) qb = Some ([(0, pay "x"%byte ++ T8)], 1) /\
  s_get (abs_qs (s_qs st_rec)) qb = Some ([(0, pay "x"%byte ++ zerosN 8)], 1).
Proof.
  split.
  { destruct VacCrash.inv_ex as (G & HI & _). exists G.
    assert (Hb1 : crash_phys_bound Pe (s_wr st_ex) (map snd (step_log Pe st_ex o_adv)) (abs_qs (s_qs st_ex))).
    { apply (crash_phys_bound_by Pe Pe_BS_lo Pe_BS_hi Pe_NB Pe_crc 64); [vm_compute; reflexivity|le_tac]. }
    assert (Hb2 : crash_phys_bound Pe (s_wr st_ex) (map snd (step_log Pe st_ex o_adv)) (abs_qs (s_qs st_adv))).
    { apply (crash_phys_bound_by Pe Pe_BS_lo Pe_BS_hi Pe_NB Pe_crc 64); [vm_compute; reflexivity|le_tac]. }
    destruct (crash_bounds_by Pe Pe_BS_lo Pe_BS_hi Pe_NB Pe_crc _ G _ _ _ HI Hb1 Hb2) as (Hs & Hc1 & Hc2).
    split; [exact HI|]. split; [reflexivity|]. split; [reflexivity|]. split; [exact op_wf_adv|].
    split; [exact Hs|]. split; [exact Hc1|]. split; [exact Hc2|]. split; [exact step_adv|]. intros e H; discriminate H. }
  split; [vm_compute; reflexivity|]. split; [reflexivity|]. split; [vm_compute; reflexivity|].
  split; [vm_compute; reflexivity|]. split; vm_compute; reflexivity.
Qed.

(* consequently the conclusion of C02_crash_atomic is false for this instance: no proof of it can
   exist for Pe without a contradictory hypothesis *)
Corollary C02_conclusion_false_for_crc32 :
  ~ (exists evs,
       c_ev (w_ctx (s_wr st_adv)) = rev evs ++ c_ev (w_ctx (s_wr st_ex)) /\
       forall cut k pol hint,
         let img := fold_left apply_event (crash_events evs cut k) (c_fs (w_ctx (s_wr st_ex))) in
         exists st_r, open Pe img None pol hint = OpenOk st_r /\
           ((forall q, s_get (abs_qs (s_qs st_r)) q = s_get (abs_qs (s_qs st_ex)) q) \/
            (forall q, s_get (abs_qs (s_qs st_r)) q = s_get (abs_qs (s_qs st_adv)) q))).
Proof.
  intros (evs & Hev & Hall).
  destruct crash_counterexample as (_ & Hev' & Himg & Hopen & Hb & Ha & Hr).
  rewrite (new_evs_unique _ _ _ _ Hev' Hev) in Hall.
  specialize (Hall 7 7 (PAlways true) []). cbv zeta in Hall. rewrite <- Himg in Hall.
  destruct Hall as (st_r & Ho & [H|H]); rewrite Hopen in Ho; injection Ho as <-; specialize (H qb).
  - rewrite Hr, Hb in H. discriminate H.
  - rewrite Hr, Ha in H. injection H as H. discriminate H.
Qed.

(* The production configuration: the parameter premises of the theorems hold for the constants of
   the crate, with the real checksum; so do crc_collision and the negation of
   no_zero_collision.  BLOCK_NUM_BYTES_c = 32768, NUM_BLOCKS_PER_FILE_c = 4096,
   RECORD_META_SIZE_c = 24 in Consts.v (which is not part of _CoqProject). *)
Definition P_prod : params := mkParams 32768 4096 crc32 24 false false false.

Theorem production_params :
  7 < BS P_prod /\ BS P_prod <= 65542 /\ 1 <= NB P_prod /\ (forall t p, crcf P_prod t p < 2 ^ 32) /\
  L_GC P_prod = false /\ L_IO P_prod = false /\ L_SHORT P_prod = false /\
  crc_collision P_prod /\ ~ no_zero_collision P_prod.
Proof.
  split; [reflexivity|]. split; [intros H; discriminate H|]. split; [intros H; discriminate H|].
  split; [exact Pe_crc|]. split; [reflexivity|]. split; [reflexivity|]. split; [reflexivity|].
  assert (HB : 15 <= BS P_prod) by (intros H; discriminate H).
  split; [exact (crc32_zero_collision P_prod eq_refl HB)|].
  exact (crc32_refutes_nzc P_prod eq_refl HB).
Qed.
