(* JRecoverL2.v — the logical invariant after any prefix of the entries of one call from a state
   satisfying the junk-tolerant invariant (as CrashAtomic.call_entries_atomic, exporting the ghost). *)
From Coq Require Import Lia ZArith ZifyN ZifyNat ZifyBool List Sorted.
From MRL Require Import Bytes BytesProofs Params Names NamesProofs Frame Record Mem Spec Rolling Log
  Driver Hist NoopProofs SpecRefine RecordProofs StreamProofs PolicyProofs GcProofs GhostLog ReplaySpec
  HandleProofs FileStream ResyncProofs QueueIso RestartInv RestartWrite RestartGc RestartStep
  OpenReplay RestartFinal CrashAtomic JInv JGc JStep JRecoverL.

Section CallPrefixJ.
Variable P : params.
Hypothesis HBS_lo : 7 < BS P.
Hypothesis HBS_hi : BS P <= 65542.
Hypothesis HNB : 1 <= NB P.
Hypothesis Hcrc : forall t p, crcf P t p < 2 ^ 32.
Hypothesis HGC : L_GC P = false.
Variable PRE : bytes.
Variable OLD : list entry.
Variable opos : list (N * N).
Hypothesis Hpre : pre_ok PRE OLD opos.

Local Notation HN f := (f P HBS_lo HBS_hi HNB) (only parsing).
Local Notation InvJ := (InvJ P PRE OLD opos).

Theorem call_prefix_linvJ st G o tick st' out :
  InvJ st G -> op_wf_strict (s_qs st) o ->
  stream_boundJ P PRE OLD G (map snd (step_log P st o)) ->
  step P st o tick = (st', out) -> (forall e, out <> OutIo e) ->
  forall Xd Xr, map snd (step_log P st o) = Xd ++ Xr ->
  exists Gd qsd,
    LInv qsd (wlo (s_wr st)) Gd /\ gh_base Gd = gh_base G /\ gh_before Gd = gh_before G /\
    map snd (gh_E Gd) = map snd (gh_E G) ++ Xd /\
    (Xd = [] -> forall q, s_get (abs_qs qsd) q = s_get (abs_qs (s_qs st)) q) /\
    (Xd <> [] -> forall q, s_get (abs_qs qsd) q = s_get (abs_qs (s_qs st')) q).
Proof.
  intros HI Hop Hb Hstep Hno Xd Xr HX.
  pose proof HI as (HP & HL).
  destruct Xd as [|x Xd'].
  { exists G, (s_qs st). split; [exact HL|]. split; [reflexivity|]. split; [reflexivity|].
    split; [now rewrite app_nil_r|]. split; [intros _ q; reflexivity|]. intros H; now destruct H. }
  destruct (invJ_step P HBS_lo HBS_hi HNB Hcrc HGC PRE OLD opos Hpre st G o tick st' out HI Hop Hb Hstep Hno)
    as (G' & (HP' & HL') & Eb & Ed & Elog).
  pose proof (LInv_nodup _ _ _ HL) as Hnd.
  pose proof (step_replay P st o tick Hnd) as Hrep. rewrite Hstep in Hrep. cbn [fst snd] in Hrep.
  specialize (Hrep Hno).
  destruct (step_log_shape P st o) as [E0|(e & rest & Elg & Hshape)].
  { rewrite E0 in HX. discriminate. }
  rewrite Elg in *. cbn [map snd app] in HX. injection HX as <- HX.
  set (f := w_file (s_wr st)) in *.
  cbn [replay_entries] in Hrep.
  destruct (apply_entry (s_qs st) f e) as [qs_m|] eqn:Hap; [|discriminate].
  pose proof (apply_entry_nodup _ _ _ _ Hnd Hap) as Hndm.
  specialize (Hshape qs_m eq_refl Hndm).
  set (lo := wlo (s_wr st)) in *.
  assert (Hlof : lo <= f).
  { destruct HP as (Hw & _). exact (HN winv_wlo_le _ Hw). }
  assert (Hleg : forall F, t_replay [] 0 (gh_ALL G) = Some F -> legal F e).
  { intros F EF. destruct HL' as (_ & Hleg' & _).
    assert (EA : gh_ALL G' = gh_ALL G ++ e :: map snd rest).
    { unfold gh_ALL. rewrite Ed, Elog, map_app, app_assoc. reflexivity. }
    rewrite EA in Hleg'. destruct (legal_log_app _ _ _ _ Hleg') as (F0 & EF0 & Hl0).
    rewrite EF in EF0. inversion EF0; subst F0.
    now destruct (legal_log_cons_inv _ _ _ _ Hl0). }
  assert (Hwfm : qs_wf qs_m /\ s_qs st' = qs_m).
  { assert (Hfin : forall qsx, replay_entries qs_m rest = Some qsx -> qsx = s_qs st')
      by (intros qsx E; rewrite E in Hrep; now injection Hrep).
    assert (Hid' : forall fx, pos_extra (abs_qs qs_m) (map snd fx) ->
              replay_entries qs_m fx = Some qs_m).
    { induction fx as [|[f1 e1] fx IH]; intros Hx; [reflexivity|].
      cbn [map snd] in Hx. destruct (pos_extra_cons _ _ _ Hx) as ((q & p & -> & Hg) & Hx').
      destruct (abs_empty_queue qs_m q p Hg) as (m & Em & Hem & <-).
      cbn [replay_entries apply_entry]. rewrite (ack_position_empty_id qs_m q m Em Hem).
      now apply IH. }
    pose proof (Hfin _ (Hid' rest Hshape)) as E. split; [|now symmetry].
    rewrite E. exact (proj1 HL'). }
  destruct Hwfm as (Hwfm & Eqm).
  pose proof (linv_apply _ _ _ f e qs_m HL Hwfm Hleg Hap Hlof) as HL1.
  assert (Hxp : pos_extra (abs_qs qs_m) Xd').
  { rewrite HX in Hshape. exact (pos_extra_prefix _ _ _ Hshape). }
  set (fx := map (pair lo) Xd').
  assert (Efx : map snd fx = Xd').
  { unfold fx. rewrite map_map. cbn [snd]. apply map_id. }
  destruct (linv_pos_extra qs_m lo (gh_snoc G f e) fx HL1) as (HL2 & _).
  { now rewrite Efx. }
  { unfold fx. apply Forall_forall. intros fe Hin. apply in_map_iff in Hin.
    destruct Hin as (y & <- & _). cbn [fst]. lia. }
  exists (gh_app (gh_snoc G f e) fx), qs_m.
  split; [exact HL2|]. split; [reflexivity|]. split; [reflexivity|].
  split.
  { cbn [gh_app gh_snoc gh_E]. rewrite !map_app, Efx. cbn [map snd]. now rewrite <- app_assoc. }
  split; [discriminate|]. intros _ q. now rewrite Eqm.
Qed.

End CallPrefixJ.

Print Assumptions call_prefix_linvJ.
