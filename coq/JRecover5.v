(* JRecover5.v — the top WAL file of a crash image.  The premises on a crash point in CrashAt2.v
   and CrashAt3.v are on this file: that the data of the interrupted call reach its start is
   proved (KReach.call_trace_reach); a torn entry that spans the boundary of two files is junk
   that can be entered at the file boundary (KWalk/KJunk/JRecoverS4). *)
From Coq Require Import Lia ZArith List.
From MRL Require Import Bytes BytesProofs Params Names NamesProofs Mem Rolling.

(* hi is the top WAL file of the directory img *)
Definition is_top (img : fsT) (hi : N) : Prop :=
  hi <= U64_MAX /\ (exists b, fs_get img (filename hi) = Some (FFile b)) /\
  forall x, hi < x -> x <= U64_MAX -> fs_get img (filename x) = None.

Lemma is_top_unique img a b : is_top img a -> is_top img b -> a = b.
Proof.
  intros (Ha & (ba & Hba) & Hta) (Hb & (bb & Hbb) & Htb).
  destruct (N.lt_trichotomy a b) as [Hlt|[E|Hlt]]; [|exact E|].
  - rewrite (Hta b Hlt Hb) in Hbb. discriminate.
  - rewrite (Htb a Hlt Ha) in Hba. discriminate.
Qed.
