(* JRecoverL.v — the logical half of the invariant for the state recovered from a crash image.
   linv_reopen_suffix: the ghost re-chosen at a (crash) restart when MORE than E is delivered. *)
From Coq Require Import Lia ZArith ZifyN ZifyNat ZifyBool List Sorted.
From MRL Require Import Bytes BytesProofs Params Names NamesProofs Frame Record Mem Spec Rolling Log
  Driver Hist NoopProofs SpecRefine RecordProofs StreamProofs PolicyProofs GcProofs GhostLog ReplaySpec
  HandleProofs FileStream ResyncProofs QueueIso RestartInv RestartWrite RestartGc RestartStep
  OpenReplay RestartFinal CrashAtomic.

Definition gh_resplit (G : ghost) (E_pre E_suf : list entry) (tags : list N) : ghost :=
  mkGhost (gh_base G) E_pre [] (combine tags E_suf).

Lemma gh_resplit_ALL G E_pre E_suf tags :
  length tags = length E_suf -> gh_ALL (gh_resplit G E_pre E_suf tags) = E_pre ++ E_suf.
Proof.
  intros H. unfold gh_ALL, gh_log, gh_resplit. cbn [gh_dropped gh_pre gh_E app].
  now rewrite map_snd_combine.
Qed.

Lemma linv_reopen_suffix qs lo G E_pre E_suf tags lo' qs' :
  LInv qs lo G -> gh_ALL G = E_pre ++ E_suf -> (length E_pre <= gh_k G)%nat ->
  length tags = length E_suf -> Forall (fun f => lo' <= f) tags ->
  replay_entries [] (combine tags E_suf) = Some qs' -> qs_wf qs' ->
  LInv qs' lo' (gh_resplit G E_pre E_suf tags).
Proof.
  intros (_ & Hleg & _ & F & EF & Hcov) Hsplit Hk Hlen Htags Hrep Hwf.
  pose proof (gh_ALL_split G) as Hs2. rewrite Hsplit in Hs2.
  destruct (app_split_len E_pre E_suf (gh_before G) (map snd (gh_E G)) Hs2) as (mid & Hb & Hsuf).
  { now rewrite gh_before_length. }
  assert (Hkm : gh_k G = (length E_pre + length mid)%nat).
  { rewrite <- gh_before_length, Hb, app_length. reflexivity. }
  unfold LInv. rewrite (gh_resplit_ALL G E_pre E_suf tags Hlen), <- Hsplit.
  split; [exact Hwf|]. split; [exact Hleg|].
  split; [exact Hrep|].
  exists F. split; [exact EF|].
  intros q rf n Eq. destruct (Hcov q rf n Eq) as (Hc & Hr).
  assert (EkG : gh_k (gh_resplit G E_pre E_suf tags) = length E_pre).
  { unfold gh_k, gh_resplit. cbn [gh_dropped gh_pre length]. lia. }
  assert (EE : map snd (gh_E (gh_resplit G E_pre E_suf tags)) = E_suf).
  { cbn [gh_resplit gh_E]. now apply map_snd_combine. }
  split.
  - rewrite EE, Hsuf, existsb_app, Hc. apply orb_true_r.
  - eapply Forall_impl; [|exact Hr].
    intros r (j & f & e & Ej & En & _ & Hcr).
    assert (Hj' : (length mid + j < length tags)%nat).
    { assert (Hjl : (j < length (gh_E G))%nat) by (apply nth_error_Some; congruence).
      rewrite Hlen, Hsuf, app_length, map_length. lia. }
    destruct (nth_error_Some_ex tags (length mid + j) Hj') as (f' & Ef').
    exists (length mid + j)%nat, f', e. split; [rewrite EkG; lia|]. split.
    + cbn [gh_resplit gh_E]. apply nth_error_combine; [exact Ef'|].
      rewrite Hsuf, nth_error_app2 by lia. replace (length mid + j - length mid)%nat with j by lia.
      now rewrite nth_error_map, En.
    + split; [|exact Hcr]. rewrite Forall_forall in Htags. apply Htags.
      eapply nth_error_In; exact Ef'.
Qed.

Print Assumptions linv_reopen_suffix.
