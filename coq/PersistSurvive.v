(* PersistSurvive.v — property C03, process-crash model, end to end: from a persist point (a state
   satisfying the restart invariant with nothing buffered), after ANY further history under ANY
   persist policy, EVERY process-crash image of the directory is recovered by `open` to the
   abstract state after SOME prefix of the history (never older than the persist point, never an
   inconsistent mixture); and once a call has left nothing buffered, no later crash can undo it
   or anything before it. *)
From Coq Require Import Lia ZArith ZifyN ZifyNat ZifyBool List Sorted.
From MRL Require Import Bytes BytesProofs Params Names NamesProofs Frame Record Mem Spec Rolling Log
  Driver Hist SpecRefine RecordProofs StreamProofs PolicyProofs GcProofs GhostLog ReplaySpec
  HandleProofs FileStream ResyncProofs TornProofs PersistProofs WriterProofs EffectsProofs
  RestartInv RestartWrite RestartGc RestartStep OpenReplay RestartFinal TornFile CrashTrace
  PersistTrace PersistGc PersistLogic PersistRecover.

Lemma no_new_events {A} (evs l : list A) : l = rev evs ++ l -> evs = [].
Proof. intros H. apply rev_inj. exact (eq_sym (app_inv_tail l [] (rev evs) H)). Qed.

Lemma cpre_nil_inv pe : cpre pe [] -> pe = [].
Proof. intros H. inversion H. reflexivity. Qed.

Definition nu_ev (e : event) : Prop :=
  match e with EvFlush _ | EvSyncData _ | EvSyncDir | EvUnlink _ => True | _ => False end.

Lemma noop_nu e : noop_ev e -> nu_ev e.
Proof. destruct e; cbn; auto. Qed.

Section Call.
Variable P : params.
Hypothesis HBS_lo : 7 < BS P.
Hypothesis HBS_hi : BS P <= 65542.
Hypothesis HNB : 1 <= NB P.
Hypothesis Hcrc : forall t p, crcf P t p < 2 ^ 32.
Hypothesis HGC : L_GC P = false.

Local Notation B := (BS P).
Local Notation FB := (FILE_BYTES P).
Local Notation encs_of := (encs_of P).
Local Notation sr := (map entry_ser).
Local Notation wtrace := (wtrace P).
Local Notation HW f := (f P HBS_lo HBS_hi HNB Hcrc) (only parsing).
Local Notation HG f := (f P HBS_lo HBS_hi HNB Hcrc HGC) (only parsing).
Local Notation HN f := (f P HBS_lo HBS_hi HNB) (only parsing).
Local Notation H3 f := (f P HBS_lo HBS_hi Hcrc) (only parsing).
Local Notation wabs := (wabs P).

Lemma wtrace_split f off A DA fA offA :
  wtrace f off A DA fA offA -> forall X D f' off',
  wtrace f off (A ++ X) D f' off' ->
  exists DX, wtrace fA offA X DX f' off' /\ D = DA ++ DX.
Proof.
  induction 1 as [f off|f off d evs D0 f1 off1 Hfit _ IH|f evs D0 f1 off1 _ IH]; intros X D f' off' H2.
  - exists D. split; [exact H2|reflexivity].
  - cbn [app] in H2. inversion H2 as [| ? ? ? ? D2 ? ? Hfit2 Htr2 |]; subst.
    destruct (IH _ _ _ _ Htr2) as (DX & Hx & ->). exists DX. split; [exact Hx|apply app_assoc].
  - rewrite <- app_assoc in H2. inversion H2 as [| |? evs2 ? ? ? Htr2]; subst.
    exact (IH _ _ _ _ Htr2).
Qed.

Lemma wtrace_nu_nil f off l D f' off' :
  wtrace f off l D f' off' -> Forall nu_ev l -> l = [] /\ D = [] /\ f' = f /\ off' = off.
Proof.
  intros H Hl. destruct H as [f off|f off d evs D f' off' _ _|f evs D f' off' _].
  - auto.
  - inversion Hl as [|? ? He _]; subst. destruct He.
  - unfold roll_group in Hl. cbn [app] in Hl.
    inversion Hl as [|? ? _ H1]; subst. inversion H1 as [|? ? _ H2]; subst.
    inversion H2 as [|? ? _ H3']; subst. inversion H3' as [|? ? He _]; subst. destruct He.
Qed.

(* the data writes of the whole (wevs) extend those up to an earlier point (E_i) *)
Lemma ev_align f0 off0 wevs D' f' off' E_i Dos_i fi oi tail evs1 :
  wtrace f0 off0 wevs D' f' off' -> wtrace f0 off0 E_i Dos_i fi oi ->
  wevs ++ tail = E_i ++ evs1 -> Forall nu_ev tail ->
  exists l DX, wevs = E_i ++ l /\ evs1 = l ++ tail /\ wtrace fi oi l DX f' off' /\ D' = Dos_i ++ DX.
Proof.
  intros Hw He Heq Hnu.
  destruct (app_eq_app _ _ _ _ Heq) as (l & [(E1 & E2) | (E1 & E2)]).
  - rewrite E1 in Hw. destruct (wtrace_split _ _ _ _ _ _ He _ _ _ _ Hw) as (DX & Hx & HD).
    exists l, DX. auto.
  - rewrite E1 in He. destruct (wtrace_split _ _ _ _ _ _ Hw _ _ _ _ He) as (DX & Hx & HD).
    assert (Hl : Forall nu_ev l) by (rewrite E2 in Hnu; apply Forall_app in Hnu; apply Hnu).
    destruct (wtrace_nu_nil _ _ _ _ _ _ Hx Hl) as (-> & -> & -> & ->).
    rewrite app_nil_r in *. subst E_i Dos_i. cbn [app] in E2. subst tail.
    exists [], []. rewrite !app_nil_r. repeat split; try reflexivity. constructor.
Qed.

Section Ext.
Variable ev0 : list event.
Variable fs0 : fsT.
Variables f0 off0 M : N.
Variable buf0 : bytes.
Variables lo0 cur0 : N.
Local Notation TI := (tinv P ev0 fs0 f0 off0 M buf0 lo0 cur0).

Lemma TI_wabs w D : TI w D -> wabs w = lo0 * FB + (cur0 + lenN D) /\ wlo w = lo0.
Proof.
  intros Ht. destruct (tinv_facts _ _ _ _ _ _ _ _ _ _ _ Ht) as ((Hok & _) & Hlo & _).
  destruct Ht as ((_ & Hc & _) & _). cbn [vw_cursor] in Hc.
  destruct (wr_ok_len P (HN HB0) HNB w Hok) as (Hn & Hn1).
  split; [|exact Hlo]. rewrite Hc. unfold PersistGc.wabs, wpos. rewrite <- Hlo.
  assert (E : w_file w * FB = wlo w * FB + (lenN (w_files w) - 1) * FB).
  { rewrite <- N.mul_add_distr_r. f_equal. lia. }
  lia.
Qed.

Theorem call_kinds st D o t st' out E_i evs1 :
  TI (s_wr st) D ->
  cur0 + lenN D + lenN (encs_of (cur0 + lenN D) (sr (map snd (step_log P st o)))) <= M ->
  step P st o t = (st', out) -> no_io out ->
  c_ev (w_ctx (s_wr st)) = rev E_i ++ ev0 ->
  c_ev (w_ctx (s_wr st')) = rev evs1 ++ c_ev (w_ctx (s_wr st)) ->
  let NEW1 := encs_of (cur0 + lenN D) (sr (map snd (step_log P st o))) in
  let fi := w_file (s_wr st) in let oi := os_pos (s_wr st) in
  let f' := w_file (s_wr st') in
  wabs (s_wr st') = wabs (s_wr st) + lenN NEW1 /\
  c_fs (w_ctx (s_wr st')) = fold_left apply_event evs1 (c_fs (w_ctx (s_wr st))) /\
  ((TI (s_wr st') (D ++ NEW1) /\
    exists D1, wtrace fi oi evs1 D1 f' (os_pos (s_wr st')) /\
               w_pending (s_wr st) ++ NEW1 = D1 ++ w_pending (s_wr st')) \/
   (w_pending (s_wr st') = [] /\ wlo (s_wr st') = lo0 /\
    exists w1 a, evs1 = w1 ++ flush_group f' a /\
                 wtrace fi oi w1 (w_pending (s_wr st) ++ NEW1) f' (w_off (s_wr st'))) \/
   (w_pending (s_wr st') = [] /\
    exists w1 mg tailf,
      evs1 = w1 ++ flush_group f' true ++ unlinks lo0 mg ++ tailf /\
      wtrace fi oi w1 (w_pending (s_wr st) ++ NEW1) f' (w_off (s_wr st')) /\
      lo0 + N.of_nat mg <= f' /\ (tailf = [] \/ exists a, tailf = flush_group f' a) /\
      wlo (s_wr st') = lo0 + N.of_nat mg /\
      (* the garbage collection: its state st1 after the flush that precedes the unlinks *)
      exists st2 e st3 k c files',
        mid_state P st o = Some st2 /\ own_entry st o = Some e /\ has_deletable st2 = true /\
        run_gc_if_necessary P st2 (gc_hint o) = (st3, Ok k) /\
        let st1 := gc_st1 P st2 (gc_hint o) in
        gc_loop (w_ctx (s_wr st1)) (w_files (s_wr st1)) (referenced st1 (w_file (s_wr st2))) =
          (c, files', Ok tt) /\
        w_files (s_wr st1) = iota lo0 mg ++ files' /\ wlo (s_wr st1) = lo0 /\
        c_fs (w_ctx (s_wr st1)) = fold_left apply_event w1 (c_fs (w_ctx (s_wr st))) /\
        wabs (s_wr st1) = wabs (s_wr st'))).
Proof.
  intros Ht HM Es Hno HEi Hev1 NEW1 fi oi f'.
  destruct (HW TI_trace _ _ _ _ _ _ _ _ _ _ _ Ht HEi) as (Dos_i & Htri & HDi & Hosi & Hoffi & Hfsi).
  destruct (TI_wabs _ _ Ht) as (Habs & Hloi).
  assert (Hoi : oi <= FB) by (unfold oi; lia).
  assert (HD' : D ++ NEW1 = Dos_i ++ (w_pending (s_wr st) ++ NEW1)) by (rewrite HDi, <- app_assoc; reflexivity).
  assert (Habs_i : wabs (s_wr st) = fi * FB + oi + lenN (w_pending (s_wr st))).
  { unfold PersistGc.wabs, fi, oi. lia. }
  assert (Hcev : forall x, rev x ++ ev0 = c_ev (w_ctx (s_wr st')) -> x = E_i ++ evs1).
  { intros x Hx. rewrite Hev1, HEi, app_assoc in Hx. apply app_inv_tail in Hx.
    apply rev_inj. rewrite rev_app_distr. exact Hx. }
  destruct (HW gstep_trace _ _ _ _ _ _ _ _ st D o t st' out Ht HM Es Hno) as [HN|[HPk|HGk]];
    fold NEW1 in HN || fold NEW1 in HPk || fold NEW1 in HGk.
  - split.
    { destruct (TI_wabs _ _ HN) as (Habs' & _). rewrite Habs', Habs, lenN_app. lia. }
    assert (HE' : c_ev (w_ctx (s_wr st')) = rev (E_i ++ evs1) ++ ev0).
    { rewrite Hev1, HEi, rev_app_distr, app_assoc. reflexivity. }
    destruct (HW TI_trace _ _ _ _ _ _ _ _ _ _ _ HN HE') as (Dos' & Htr' & HD2 & _ & _ & Hfs').
    split; [rewrite Hfs', fold_left_app, <- Hfsi; reflexivity|].
    left. split; [exact HN|].
    destruct (wtrace_split _ _ _ _ _ _ Htri _ _ _ _ Htr') as (D1 & Hx & ->).
    exists D1. split; [exact Hx|].
    rewrite HD', <- app_assoc in HD2. now apply app_inv_head in HD2.
  - destruct HPk as (wevs & a & HevP & HfsP & HtrP & HpP & HloP).
    pose proof (Hcev _ (eq_sym HevP)) as EE.
    destruct (ev_align _ _ _ _ _ _ _ _ _ _ _ _ HtrP Htri EE) as (l & DX & E1 & E2 & Hl & HDX).
    { eapply Forall_impl; [apply noop_nu|apply flush_group_noop]. }
    rewrite HD' in HDX. apply app_inv_head in HDX. subst DX.
    split.
    { destruct (HW wtrace_pos _ _ _ _ _ _ Hl Hoi) as (_ & Hp). rewrite lenN_app in Hp.
      rewrite Habs_i. unfold PersistGc.wabs. fold f'. lia. }
    split; [rewrite HfsP, EE, fold_left_app, <- Hfsi; reflexivity|].
    right. left. split; [exact HpP|]. split; [exact HloP|]. exists l, a. auto.
  - destruct HGk as (st2 & st3 & k & e & D2 & Hmid & Hown & Hdel & Hgc & Efin & ED2 & Ht2 & Elog & ED'g).
    assert (HM2 : cur0 + lenN D2 +
                  lenN (encs_of (cur0 + lenN D2) (sr (map snd (gc_log P st2 (gc_hint o))))) <= M).
    { rewrite Elog in HM. cbn [map snd ResyncProofs.encs_of] in HM. rewrite lenN_app in HM.
      rewrite ED2, lenN_app, !N.add_assoc. lia. }
    destruct (HG gc_trace _ _ _ _ _ _ _ _ st2 D2 (gc_hint o) st3 k Ht2 HM2 Hdel Hgc)
      as (wevs & mg & c & files' & Hev1g & Hfs1g & Htrg & Hp1g & Egc & Efiles & Est3 & Hevc & Hfsc &
          Hmg & Epol1 & Eqs1 & Hlo1g & Hwi1).
    cbn zeta in *. rewrite <- ED'g in Htrg.
    set (st1 := gc_st1 P st2 (gc_hint o)) in *. set (f1 := w_file (s_wr st1)) in *.
    assert (Hp3 : w_pending (s_wr st3) = []) by (rewrite Est3; cbn [set_wr s_wr w_pending]; exact Hp1g).
    assert (Hf3 : w_file (s_wr st3) = f1) by (rewrite Est3; reflexivity).
    destruct (fin_state_tail o t st3 Hp3) as (tailf & Htailf0 & Hevf & Hfsf & Hpf & Hff & Hof & Hlof).
    cbn zeta in *. rewrite <- Efin in Hevf, Hfsf, Hpf, Hff, Hof, Hlof. rewrite Hf3 in Htailf0.
    assert (Htailf : Forall noop_ev tailf).
    { destruct Htailf0 as [->|(a & ->)]; [constructor|apply flush_group_noop]. }
    assert (Hev3 : c_ev (w_ctx (s_wr st3)) = rev (unlinks lo0 mg) ++ c_ev (w_ctx (s_wr st1))).
    { rewrite Est3. cbn [set_wr s_wr w_ctx]. exact Hevc. }
    assert (EE : wevs ++ flush_group f1 true ++ unlinks lo0 mg ++ tailf = E_i ++ evs1).
    { apply Hcev. rewrite Hevf, Hev3, Hev1g, !rev_app_distr, !app_assoc. reflexivity. }
    destruct (ev_align _ _ _ _ _ _ _ _ _ _ _ _ Htrg Htri EE) as (l & DX & E1 & E2 & Hl & HDX).
    { apply Forall_app. split; [eapply Forall_impl; [apply noop_nu|apply flush_group_noop]|].
      apply Forall_app. split; [|eapply Forall_impl; [apply noop_nu|exact Htailf]].
      unfold unlinks. apply Forall_forall. intros x Hx. apply in_map_iff in Hx.
      destruct Hx as (y & <- & _). exact I. }
    rewrite HD' in HDX. apply app_inv_head in HDX. subst DX.
    assert (Ef' : f' = f1) by (unfold f'; rewrite Hff, Hf3; reflexivity).
    assert (Eo' : w_off (s_wr st') = w_off (s_wr st1)) by (rewrite Hof, Est3; reflexivity).
    assert (Eabs1 : wabs (s_wr st1) = wabs (s_wr st')).
    { unfold PersistGc.wabs. rewrite Eo'. change (w_file (s_wr st')) with f'. rewrite Ef'. reflexivity. }
    assert (Efs1 : c_fs (w_ctx (s_wr st1)) = fold_left apply_event l (c_fs (w_ctx (s_wr st))))
      by (rewrite Hfs1g, E1, fold_left_app, <- Hfsi; reflexivity).
    rewrite <- Ef' in *. rewrite <- Eo' in Hl.
    split.
    { destruct (HW wtrace_pos _ _ _ _ _ _ Hl Hoi) as (_ & Hp). rewrite lenN_app in Hp.
      rewrite Habs_i. unfold PersistGc.wabs. fold f'. lia. }
    split.
    { rewrite Hfsf, Est3. cbn [set_wr s_wr w_ctx]. rewrite Hfsc, Hfs1g.
      rewrite Hfsi, <- fold_left_app, <- EE, !fold_left_app, fold_flush_group.
      rewrite (proj1 (noop_fold _ Htailf)). unfold unlinks. now rewrite fold_unlinks. }
    right. right. split; [exact Hpf|]. exists l, mg, tailf.
    split; [exact E2|]. split; [exact Hl|]. split; [exact Hmg|]. split; [exact Htailf0|].
    split.
    { rewrite Hlof, Est3. unfold wlo. cbn [set_wr s_wr w_file w_files].
      pose proof Hwi1 as (Hok1 & _). destruct (wr_ok_len P (HN HB0) HNB _ Hok1) as (Hn & _).
      rewrite Efiles, lenN_app, lenN_iota, Hlo1g in Hn. subst f1. lia. }
    exists st2, e, st3, k, c, files'. cbn zeta. fold st1. repeat (split; [assumption|]). exact Eabs1.
Qed.

End Ext.

End Call.

Section Main.
Variable P : params.
Hypothesis HBS_lo : 7 < BS P.
Hypothesis HBS_hi : BS P <= 65542.
Hypothesis HNB : 1 <= NB P.
Hypothesis Hcrc : forall t p, crcf P t p < 2 ^ 32.
Hypothesis HGC : L_GC P = false.
Hypothesis HIO : L_IO P = false.
Hypothesis HSHORT : L_SHORT P = false.
Hypothesis Hnc : no_zero_collision P.

Local Notation B := (BS P).
Local Notation FB := (FILE_BYTES P).
Local Notation encs_of := (encs_of P).
Local Notation cursor_after := (cursor_after P).
Local Notation sr := (map entry_ser).
Local Notation HW f := (f P HBS_lo HBS_hi HNB Hcrc) (only parsing).
Local Notation HG f := (f P HBS_lo HBS_hi HNB Hcrc HGC) (only parsing).
Local Notation HN f := (f P HBS_lo HBS_hi HNB) (only parsing).
Local Notation H3 f := (f P HBS_lo HBS_hi Hcrc) (only parsing).
Local Notation HA f := (f P HBS_lo HBS_hi HNB Hcrc HGC HIO HSHORT Hnc) (only parsing).
Local Notation Inv := (Inv P).
Local Notation stream_bound := (stream_bound P).
Local Notation absq st := (abs_qs (s_qs st)).
Local Notation MAXB := (FB * (U64_MAX + 1)).
Local Notation stN st h m := (fst (run P st (firstn m h))).
Local Notation wabs := (wabs P).

(* the bound needed by the recovery-time garbage collector: from any position up to one block after the writer's position at any call boundary of the
   history, the position entries of the empty queues of the state after any prefix of the history
   fit below 2^64 files *)
Definition CB (st : state) (h : list (op * bool)) : Prop :=
  forall m1 m2 a extra, (m1 <= length h)%nat -> (m2 <= length h)%nat ->
    a <= wabs (s_wr (stN st h m1)) + B ->
    pos_extra (absq (stN st h m2)) extra -> cursor_after a (sr extra) <= MAXB.

Lemma CB_at st h m1 : CB st h -> (m1 <= length h)%nat ->
  crash_bound_at P st h (wabs (s_wr (stN st h m1))).
Proof. intros H Hm a extra m Hm' Ha Hx. exact (H m1 m a extra Hm Hm' Ha Hx). Qed.

Lemma CB_prefix st a b : CB st (a ++ b) -> CB st a.
Proof.
  intros H m1 m2 x extra H1 H2 Ha Hx.
  apply (H m1 m2 x extra); rewrite ?app_length; try lia; rewrite (HN stN_app_le) by lia; assumption.
Qed.

Lemma CB_suffix st a b : CB st (a ++ b) -> CB (fst (run P st a)) b.
Proof.
  intros H m1 m2 x extra H1 H2 Ha Hx.
  apply (H (length a + m1)%nat (length a + m2)%nat x extra); rewrite ?app_length; try lia;
    rewrite (HN stN_app_ge); assumption.
Qed.

(* the trace invariant relative to the anchor st_g *)
Definition ATI (st_g : state) (M : N) (w' : rwriter) (D : bytes) : Prop :=
  let w := s_wr st_g in
  tinv P (c_ev (w_ctx w)) (c_fs (w_ctx w)) (w_file w) (w_off w) M
       (takeN (wpos P w) (wstream w)) (wlo w) (wpos P w) w' D.

(* the events of a call, then the events of the rest of the history *)
Lemma ev_split st o t h evs :
  c_ev (w_ctx (s_wr (fst (run P st ((o, t) :: h))))) = rev evs ++ c_ev (w_ctx (s_wr st)) ->
  let st' := fst (step P st o t) in
  exists evs1 evs2, evs = evs1 ++ evs2 /\
    c_ev (w_ctx (s_wr st')) = rev evs1 ++ c_ev (w_ctx (s_wr st)) /\
    c_ev (w_ctx (s_wr (fst (run P st' h)))) = rev evs2 ++ c_ev (w_ctx (s_wr st')).
Proof.
  intros H st'. rewrite run_cons_fst in H. fold st' in H.
  destruct (step_cext P st o t) as (e1 & H1 & _). fold st' in H1.
  destruct (run_cext P h st') as (e2 & H2' & _).
  exists (rev e1), (rev e2). rewrite !rev_involutive. split; [|split; assumption].
  rewrite H2', H1, app_assoc in H. apply app_inv_tail in H.
  apply rev_inj. rewrite rev_app_distr, !rev_involutive. now symmetry.
Qed.

Lemma anchor_ATI st_g G_g h :
  Inv st_g G_g -> w_pending (s_wr st_g) = [] ->
  stream_bound G_g (map snd (run_log P st_g h)) ->
  ATI st_g (wpos P (s_wr st_g) + lenN (encs_of (wpos P (s_wr st_g)) (sr (map snd (run_log P st_g h)))))
      (s_wr st_g) [].
Proof. intros (HP & _) Hp Hb. exact (HW anchor_tinv (s_wr st_g) G_g _ HP Hp Hb). Qed.

(* a segment that started at st_g has reached st_i after h_pre; one more call (o, t): the history
   up to and including it, and the bytes logged so far *)
Lemma seg_extend st_g h_pre o t h st_i D_i M :
  fst (run P st_g h_pre) = st_i ->
  let cur0 := wpos P (s_wr st_g) in
  D_i = encs_of cur0 (sr (map snd (run_log P st_g h_pre))) ->
  M = cur0 + lenN (encs_of cur0 (sr (map snd (run_log P st_g (h_pre ++ (o, t) :: h))))) ->
  let hx := h_pre ++ [(o, t)] in
  let NEW1 := encs_of (cur0 + lenN D_i) (sr (map snd (step_log P st_i o))) in
  hx ++ h = h_pre ++ (o, t) :: h /\
  fst (run P st_g hx) = fst (step P st_i o t) /\
  run_log P st_g hx = run_log P st_g h_pre ++ step_log P st_i o /\
  D_i ++ NEW1 = encs_of cur0 (sr (map snd (run_log P st_g hx))) /\
  cur0 + lenN D_i + lenN NEW1 <= M.
Proof.
  intros Hrun cur0 ED EM hx NEW1.
  assert (Eapp : hx ++ h = h_pre ++ (o, t) :: h) by exact (eq_sym (app_assoc h_pre [(o, t)] h)).
  assert (Er' : fst (run P st_g hx) = fst (step P st_i o t)).
  { unfold hx. rewrite (run_app_fst P), Hrun, run_cons_fst. reflexivity. }
  assert (Elog1 : run_log P st_g hx = run_log P st_g h_pre ++ step_log P st_i o).
  { unfold hx. rewrite (run_log_app P), Hrun. cbn [run_log]. now rewrite app_nil_r. }
  assert (ED' : D_i ++ NEW1 = encs_of cur0 (sr (map snd (run_log P st_g hx)))).
  { unfold NEW1. rewrite Elog1, !map_app, (H3 encs_of_app), <- ED. reflexivity. }
  repeat (split; [assumption|]).
  rewrite EM, <- Eapp, (run_log_app P), !map_app, (H3 encs_of_app), <- ED', !lenN_app.
  clear. lia.
Qed.

Lemma seg_main : forall h h_pre st_g G_g st_i G_i D_i M,
  Inv st_g G_g -> w_pending (s_wr st_g) = [] ->
  fst (run P st_g h_pre) = st_i ->
  hist_wf P st_g (h_pre ++ h) ->
  stream_bound G_g (map snd (run_log P st_g (h_pre ++ h))) ->
  Inv st_i G_i -> stream_bound G_i (map snd (run_log P st_i h)) ->
  M = wpos P (s_wr st_g) +
      lenN (encs_of (wpos P (s_wr st_g)) (sr (map snd (run_log P st_g (h_pre ++ h))))) ->
  ATI st_g M (s_wr st_i) D_i ->
  D_i = encs_of (wpos P (s_wr st_g)) (sr (map snd (run_log P st_g h_pre))) ->
  (forall m, (m <= length h_pre)%nat -> wlo (s_wr (stN st_g h_pre m)) = wlo (s_wr st_g)) ->
  CB st_g (h_pre ++ h) ->
  forall evs, c_ev (w_ctx (s_wr (fst (run P st_i h)))) = rev evs ++ c_ev (w_ctx (s_wr st_i)) ->
  (* the directory is the replay of the events *)
  c_fs (w_ctx (s_wr (fst (run P st_i h)))) = fold_left apply_event evs (c_fs (w_ctx (s_wr st_i))) /\
  (* every crash image is recovered *)
  forall pt, cpre pt evs -> forall pol hint,
  exists m st_r, (m <= length (h_pre ++ h))%nat /\
    open P (fold_left apply_event pt (c_fs (w_ctx (s_wr st_i)))) None pol hint = OpenOk st_r /\
    forall q, s_get (absq st_r) q = s_get (absq (stN st_g (h_pre ++ h) m)) q.
Proof.
  induction h as [|[o t] h IH];
    intros h_pre st_g G_g st_i G_i D_i M HIg Hpg Hrun Hwf Hbg HIi Hbi EM Ht ED Hwlo Hcb
           evs Hev.
  - (* no further call: the crash is at st_i (its buffered bytes are lost) *)
    cbn [run fst] in Hev. apply no_new_events in Hev. subst evs.
    split; [reflexivity|]. intros pt Hc pol hint.
    apply cpre_nil_inv in Hc. subst pt. cbn [fold_left]. rewrite app_nil_r in *.
    destruct (tinv_facts _ _ _ _ _ _ _ _ _ _ _ Ht) as (_ & _ & (E & Dos & HevE & HfsE & _)).
    rewrite HfsE.
    assert (Hwlo' : forall m, (m < length h_pre)%nat -> wlo (s_wr (stN st_g h_pre m)) = wlo (s_wr st_g))
      by (intros m Hm; apply Hwlo; lia).
    assert (Hcb' : crash_bound_at P st_g h_pre (wabs (s_wr st_i))).
    { rewrite <- Hrun. rewrite <- (firstn_all h_pre) at 2. apply CB_at; [exact Hcb|lia]. }
    exact (HA tinv_recover st_g G_g h_pre st_i D_i M E pol hint HIg Hpg Hrun Hwf Hbg Ht ED
             Hwlo' Hcb' E HevE (cpre_refl E)).
  - (* one more call *)
    pose proof Hwf as Hwf0. apply hist_wf_app in Hwf0. destruct Hwf0 as (Hwf_pre & Hwf_i).
    rewrite Hrun in Hwf_i. cbn [hist_wf] in Hwf_i. destruct Hwf_i as (Hop & Hwf_h).
    destruct (step_advance P HBS_lo HBS_hi HNB Hcrc HGC st_i G_i o t h HIi (conj Hop Hwf_h) Hbi)
      as (_ & _ & Hb1 & Hno & G' & HI' & Eb' & Ed' & El' & Hb2).
    destruct (ev_split st_i o t h evs Hev) as (evs1 & evs2 & Eevs & Hev1 & Hev2).
    destruct (seg_extend st_g h_pre o t h st_i D_i M Hrun ED EM) as (Eapp & Er' & Elog1 & ED' & HM).
    destruct (step P st_i o t) as [st' out] eqn:Es. cbn [fst snd] in *.
    set (cur0 := wpos P (s_wr st_g)) in *.
    set (D' := D_i ++ encs_of (cur0 + lenN D_i) (sr (map snd (step_log P st_i o)))) in *.
    destruct (tinv_facts _ _ _ _ _ _ _ _ _ _ _ Ht) as (_ & _ & (E_i & Dos_i & HevEi & HfsEi & _)).
    assert (Hwf1 : hist_wf P st_g (h_pre ++ [(o, t)])).
    { rewrite <- Eapp in Hwf. apply hist_wf_app in Hwf. apply Hwf. }
    assert (Hbg1 : stream_bound G_g (map snd (run_log P st_g (h_pre ++ [(o, t)])))).
    { rewrite <- Eapp in Hbg. exact (stream_bound_app P HBS_lo HBS_hi HNB Hcrc _ _ _ _ Hbg). }
    assert (Hcb1 : CB st_g (h_pre ++ [(o, t)])).
    { rewrite <- Eapp in Hcb. exact (CB_prefix _ _ _ Hcb). }
    assert (Hlen1 : length (h_pre ++ [(o, t)]) = S (length h_pre))
      by (rewrite app_length; cbn [length]; lia).
    assert (Hst1 : stN st_g (h_pre ++ [(o, t)]) (S (length h_pre)) = st').
    { rewrite <- Hlen1, firstn_all. exact Er'. }
    assert (Hwlo1 : forall m, (m < length (h_pre ++ [(o, t)]))%nat ->
              wlo (s_wr (stN st_g (h_pre ++ [(o, t)]) m)) = wlo (s_wr st_g)).
    { intros m Hm. rewrite (HN stN_app_le) by lia. apply Hwlo. lia. }
    assert (Hcb1' : crash_bound_at P st_g (h_pre ++ [(o, t)]) (wabs (s_wr st'))).
    { rewrite <- Hst1. apply CB_at; [exact Hcb1|lia]. }
    (* the conclusion, from a recovery to a prefix of the history up to this call *)
    assert (Hlift : forall pol hint img,
              (exists m st_r, (m <= length (h_pre ++ [(o, t)]))%nat /\
                 open P img None pol hint = OpenOk st_r /\
                 forall q, s_get (absq st_r) q = s_get (absq (stN st_g (h_pre ++ [(o, t)]) m)) q) ->
              exists m st_r, (m <= length (h_pre ++ (o, t) :: h))%nat /\
                 open P img None pol hint = OpenOk st_r /\
                 forall q, s_get (absq st_r) q = s_get (absq (stN st_g (h_pre ++ (o, t) :: h) m)) q).
    { intros pol hint img (m & st_r & Hm & Ho & Hq). exists m, st_r.
      split; [rewrite <- Eapp, app_length; lia|]. split; [exact Ho|].
      intros q. rewrite <- Eapp, (HN stN_app_le) by exact Hm. apply Hq. }
    (* what the rest of the history has to give: its directory, and the recovery of the crash
       images after this call *)
    pose (Cont := c_fs (w_ctx (s_wr (fst (run P st' h)))) =
                    fold_left apply_event evs2 (c_fs (w_ctx (s_wr st'))) /\
              forall pt2, cpre pt2 evs2 -> forall pol hint,
              exists m st_r, (m <= length (h_pre ++ (o, t) :: h))%nat /\
                open P (fold_left apply_event (evs1 ++ pt2) (c_fs (w_ctx (s_wr st_i)))) None pol hint
                  = OpenOk st_r /\
                forall q, s_get (absq st_r) q = s_get (absq (stN st_g (h_pre ++ (o, t) :: h) m)) q).
    (* continuation: the segment goes on *)
    assert (ContN : ATI st_g M (s_wr st') D' ->
              c_fs (w_ctx (s_wr st')) = fold_left apply_event evs1 (c_fs (w_ctx (s_wr st_i))) -> Cont).
    { intros Ht' Hfs'.
      specialize (IH (h_pre ++ [(o, t)]) st_g G_g st' G' D' M HIg Hpg Er').
      rewrite Eapp in IH.
      assert (Hwlo2 : forall m, (m <= length (h_pre ++ [(o, t)]))%nat ->
                wlo (s_wr (stN st_g (h_pre ++ [(o, t)]) m)) = wlo (s_wr st_g)).
      { intros m Hm. destruct (Nat.eq_dec m (S (length h_pre))) as [->|Hne].
        - rewrite Hst1. now destruct (tinv_facts _ _ _ _ _ _ _ _ _ _ _ Ht') as (_ & Hlo' & _).
        - apply Hwlo1. lia. }
      destruct (IH Hwf Hbg HI' Hb2 EM Ht' ED' Hwlo2 Hcb evs2 Hev2) as [IH1 IH2].
      split; [exact IH1|]. intros pt2 Hc2 pol hint. rewrite fold_left_app, <- Hfs'.
      exact (IH2 pt2 Hc2 pol hint). }
    (* continuation: a new segment starts at st' *)
    assert (ContA : w_pending (s_wr st') = [] ->
              c_fs (w_ctx (s_wr st')) = fold_left apply_event evs1 (c_fs (w_ctx (s_wr st_i))) -> Cont).
    { intros Hp' Hfs'.
      assert (Hwlo2 : forall m, (m <= length (@nil (op * bool)))%nat ->
                wlo (s_wr (stN st' (@nil (op * bool)) m)) = wlo (s_wr st')).
      { intros m Hm. destruct m; [reflexivity|cbn [length] in Hm; lia]. }
      assert (Hcb2 : CB st' ([] ++ h)).
      { cbn [app]. rewrite <- Er'. apply CB_suffix. rewrite Eapp. exact Hcb. }
      destruct (IH [] st' G' st' G' [] _ HI' Hp' eq_refl Hwf_h Hb2 HI' Hb2 eq_refl
                  (anchor_ATI st' G' h HI' Hp' Hb2) eq_refl Hwlo2 Hcb2 evs2 Hev2) as [IH1 IH2].
      split; [exact IH1|]. intros pt2 Hc2 pol hint. rewrite fold_left_app, <- Hfs'.
      destruct (IH2 pt2 Hc2 pol hint) as (m & st_r & Hm & Ho & Hq).
      cbn [app] in *. exists (S (length h_pre) + m)%nat, st_r.
        split; [rewrite <- Eapp, app_length, Hlen1; lia|]. split; [exact Ho|].
        intros q. rewrite Hq, <- Eapp, <- Hlen1, (HN stN_app_ge), Er'. reflexivity. }
    assert (Hfin0 : forall (Hfs' : c_fs (w_ctx (s_wr st')) =
                                  fold_left apply_event evs1 (c_fs (w_ctx (s_wr st_i)))),
              c_fs (w_ctx (s_wr (fst (run P st' h)))) = fold_left apply_event evs2 (c_fs (w_ctx (s_wr st'))) ->
              c_fs (w_ctx (s_wr (fst (run P st_i ((o, t) :: h))))) =
              fold_left apply_event evs (c_fs (w_ctx (s_wr st_i)))).
    { intros Hfs' H. rewrite run_cons_fst, Es. cbn [fst]. rewrite H, Hfs', Eevs, fold_left_app.
      reflexivity. }
    destruct (HW TI_trace _ _ _ _ _ _ _ _ _ _ _ Ht HevEi) as (Dos & Htri & HDi & _).
    destruct (HG call_kinds _ _ _ _ _ _ _ _ st_i D_i o t st' out E_i evs1 Ht HM Es Hno HevEi Hev1)
      as (_ & Hfs' & Hk).
    cbn zeta in Hk.
    pose proof HI' as (((_ & _ & _ & _ & Hu' & _) & _) & _).
    assert (Hcont : Cont).
    { destruct Hk as [(HN & _)|[(Hp' & _)|(Hp' & _)]];
        [exact (ContN HN Hfs')|exact (ContA Hp' Hfs')|exact (ContA Hp' Hfs')]. }
    destruct Hcont as [C1 C2].
    split; [exact (Hfin0 Hfs' C1)|]. intros pt Hc pol hint. rewrite Eevs in Hc.
    destruct (cpre_app_inv _ _ _ Hc) as [Hc1|(pt2 & -> & Hc2)]; [|now apply C2].
    (* the crash is inside this call: recovery to a prefix of the history up to it *)
    apply Hlift. rewrite HfsEi, <- fold_left_app.
    (* the data writes from the anchor to the end of the call *)
    assert (Hanchor : forall w1 f' off',
              wtrace P (w_file (s_wr st_i)) (os_pos (s_wr st_i)) w1
                     (w_pending (s_wr st_i) ++
                      encs_of (cur0 + lenN D_i) (sr (map snd (step_log P st_i o)))) f' off' ->
              wtrace P (w_file (s_wr st_g)) (w_off (s_wr st_g)) (E_i ++ w1) D' f' off').
    { intros w1 f' off' Hw1. pose proof (wtrace_app P _ _ _ _ _ _ _ _ _ _ Htri Hw1) as Hw.
      rewrite app_assoc, <- HDi in Hw. exact Hw. }
    destruct Hk as [(HN & _)|[(Hp' & Hlo' & w1 & a & -> & Hw1)|
                              (Hp' & w1 & mg & tailf & -> & Hw1 & Hmg & Htl & Hlo' & GC)]].
    +       apply (HA tinv_recover st_g G_g (h_pre ++ [(o, t)]) st' D' M (E_i ++ pt) pol hint
               HIg Hpg Er' Hwf1 Hbg1 HN ED' Hwlo1 Hcb1' (E_i ++ evs1)).
      * rewrite Hev1, HevEi, rev_app_distr, app_assoc. reflexivity.
      * now apply cpre_app_r.
    +       apply (HA torn_recover st_g G_g (h_pre ++ [(o, t)]) D' (w_file (s_wr st')) (w_off (s_wr st'))
               (E_i ++ w1) (flush_group (w_file (s_wr st')) a) (E_i ++ pt) pol hint
               HIg Hpg Hwf1 Hbg1 ED' (Hanchor _ _ _ Hw1) (flush_group_noop _ _) Hu').
      * rewrite <- app_assoc. now apply cpre_app_r.
      * exact Hwlo1.
      * intros _ _ _ _ _. rewrite Er'. exact Hlo'.
      * exact Hcb1'.
    +       destruct GC as (st2 & e & st3 & k & c & files' & Hmid & Hown & Hdel & Hgc & Egc & Efiles & Hlo1 &
                      Hfs1 & Eabs1).
      set (st1 := gc_st1 P st2 (gc_hint o)) in *.
      assert (Hc1' : cpre (E_i ++ pt) ((E_i ++ w1) ++ flush_group (w_file (s_wr st')) true ++
                                       unlinks (wlo (s_wr st_g)) mg ++ tailf)).
      { rewrite <- app_assoc. now apply cpre_app_r. }
      destruct (cpre_app_inv _ _ _ Hc1') as [Hcw|(ptu & Eptu & Hcu)].
      * (* before the unlinks *)
        apply (HA torn_recover st_g G_g (h_pre ++ [(o, t)]) D' (w_file (s_wr st')) (w_off (s_wr st'))
                 (E_i ++ w1) [] (E_i ++ pt) pol hint HIg Hpg Hwf1 Hbg1 ED' (Hanchor _ _ _ Hw1)
                 (Forall_nil _) Hu').
        -- rewrite app_nil_r. exact Hcw.
        -- exact Hwlo1.
        -- intros pre o0 t0 Hsp Hm0. exfalso. apply app_inj_tail in Hsp. destruct Hsp as [<- Ho0].
           injection Ho0 as <- <-. rewrite Hrun, Hmid in Hm0. discriminate.
        -- exact Hcb1'.
      * (* among or after the unlinks *)
        assert (Hcu2 : exists a', cpre ptu (flush_group (w_file (s_wr st')) true ++
                                            unlinks (wlo (s_wr st_g)) mg ++
                                            flush_group (w_file (s_wr st')) a')).
        { destruct Htl as [->|(a & ->)]; [|now exists a].
          exists false. rewrite app_nil_r in Hcu. rewrite app_assoc. now apply cpre_app_l. }
        destruct Hcu2 as (a' & Hcu2).
        destruct (HN tail_prefix _ _ _ _ _ _ Hcu2) as (mu & Hmu & Hfoldu & _).
        rewrite Eptu, fold_left_app, Hfoldu, fold_left_app, <- HfsEi, <- Hfs1, <- Hlo1.
        assert (Eabs : forall q, s_get (absq st') q = s_get (absq st2) q).
        { intros q. pose proof (step_mid_qs P st_i o t st2 Hmid) as Hs. rewrite Es in Hs.
          cbn [fst snd] in Hs. now rewrite (Hs Hno). }
        rewrite <- Hlo1 in Efiles.
        destruct (unlink_recover P HBS_lo HBS_hi HNB Hcrc HGC HIO st_i G_i o st2 e st3 k mg c files' mu
                    (wabs (s_wr st1)) pol hint HIi Hop Hb1 Hmid Hown Hdel Hgc Egc Efiles Hmu)
          as (st_r & Ho & Hq).
        -- intros a0 extra Ha Hx. apply (Hcb1' a0 extra (S (length h_pre))); [lia| |].
           ++ rewrite <- Eabs1. exact Ha.
           ++ rewrite Hst1. apply (pos_extra_ext (absq st2)); [exact Eabs|exact Hx].
        -- reflexivity.
        -- exists (S (length h_pre)), st_r. split; [lia|]. split; [exact Ho|].
           intros q. rewrite Hst1, Hq, Eabs. reflexivity.
Qed.

(* the invariant along a history (RestartStep.inv_run without the hypothesis on the outcomes:
   under the invariant and the bound no call reports an I/O error) *)
Lemma run_inv h : forall st G,
  Inv st G -> hist_wf P st h -> stream_bound G (map snd (run_log P st h)) ->
  exists G', Inv (fst (run P st h)) G' /\ gh_base G' = gh_base G /\
             gh_dropped G' = gh_dropped G /\ gh_log G' = gh_log G ++ run_log P st h.
Proof.
  induction h as [|[o t] h IH]; intros st G HI Hwf Hb.
  - exists G. cbn [run fst run_log]. rewrite app_nil_r. auto.
  - destruct (step_advance P HBS_lo HBS_hi HNB Hcrc HGC st G o t h HI Hwf Hb)
      as (_ & Hwf1 & _ & _ & G1 & HI1 & Eb1 & Ed1 & El1 & Hb2).
    destruct (IH _ G1 HI1 Hwf1 Hb2) as (G2 & HI2 & Eb2 & Ed2 & El2).
    exists G2. rewrite run_cons_fst. split; [exact HI2|]. split; [congruence|]. split; [congruence|].
    cbn [run_log]. rewrite El2, El1. now rewrite <- app_assoc.
Qed.

(* a history can be cut anywhere: the hypotheses hold for both parts *)
Lemma run_segment a b st G :
  Inv st G -> hist_wf P st (a ++ b) -> stream_bound G (map snd (run_log P st (a ++ b))) ->
  hist_wf P st a /\ stream_bound G (map snd (run_log P st a)) /\
  exists Ga, Inv (fst (run P st a)) Ga /\ hist_wf P (fst (run P st a)) b /\
             stream_bound Ga (map snd (run_log P (fst (run P st a)) b)).
Proof.
  intros HI Hwf Hb. apply hist_wf_app in Hwf. destruct Hwf as (Hwf1 & Hwf2).
  pose proof (stream_bound_app P HBS_lo HBS_hi HNB Hcrc _ _ _ _ Hb) as Hb1.
  split; [exact Hwf1|]. split; [exact Hb1|].
  destruct (run_inv a st G HI Hwf1 Hb1) as (Ga & HIa & Eb & Ed & El).
  exists Ga. split; [exact HIa|]. split; [exact Hwf2|].
  rewrite (run_log_app P), map_app in Hb.
  exact (stream_bound_advance P G Ga _ _ Eb Ed El Hb).
Qed.

(* the events a history adds, in chronological order *)
Lemma run_events st h :
  exists evs, c_ev (w_ctx (s_wr (fst (run P st h)))) = rev evs ++ c_ev (w_ctx (s_wr st)).
Proof.
  destruct (run_cext P h st) as (e & He & _). exists (rev e). now rewrite rev_involutive.
Qed.

Section Setting.
(* a persist point: the restart invariant holds and nothing is buffered *)
Variables (st0 : state) (G0 : ghost).
Hypothesis HI0 : Inv st0 G0.
Hypothesis Hp0 : w_pending (s_wr st0) = [].
(* any further history, under any policy *)
Variable h : list (op * bool).
Hypothesis Hwf : hist_wf P st0 h.
Hypothesis Hb : stream_bound G0 (map snd (run_log P st0 h)).
Hypothesis Hcb : CB st0 h.
(* the events it adds *)
Variable evs : list event.
Hypothesis Hevs : c_ev (w_ctx (s_wr (fst (run P st0 h)))) = rev evs ++ c_ev (w_ctx (s_wr st0)).

Local Notation fs0 := (c_fs (w_ctx (s_wr st0))).

Lemma setting_main :
  c_fs (w_ctx (s_wr (fst (run P st0 h)))) = fold_left apply_event evs fs0 /\
  forall pt, cpre pt evs -> forall pol hint,
  exists m st_r, (m <= length h)%nat /\
    open P (fold_left apply_event pt fs0) None pol hint = OpenOk st_r /\
    forall q, s_get (absq st_r) q = s_get (absq (stN st0 h m)) q.
Proof.
  apply (seg_main h [] st0 G0 st0 G0 [] _ HI0 Hp0 eq_refl Hwf Hb HI0 Hb eq_refl
           (anchor_ATI st0 G0 h HI0 Hp0 Hb) eq_refl).
  - intros m Hm. destruct m; [reflexivity|cbn [length] in Hm; lia].
  - exact Hcb.
  - exact Hevs.
Qed.

(* the directory the OS holds at the end is the replay of the events *)
Theorem C03_directory_is_replay :
  c_fs (w_ctx (s_wr (fst (run P st0 h)))) = fold_left apply_event evs fs0.
Proof. exact (proj1 setting_main). Qed.

(* EVERY process-crash image (cut before any event, or after any number of bytes of a write)
   is recovered by open, under any policy and hint, to the abstract state after SOME prefix of
   the history: at least as recent as the persist point, never an inconsistent mixture *)
Theorem C03_process_crash : forall cut k pol hint,
  exists m st_r, (m <= length h)%nat /\
    open P (fold_left apply_event (crash_events evs cut k) fs0) None pol hint = OpenOk st_r /\
    forall q, s_get (absq st_r) q = s_get (absq (fst (run P st0 (firstn m h)))) q.
Proof.
  intros cut k pol hint. apply (proj2 setting_main). apply crash_events_cpre.
Qed.

End Setting.

Lemma crash_events_app_ge a b cut k :
  lenN a <= cut -> crash_events (a ++ b) cut k = a ++ crash_events b (cut - lenN a) k.
Proof.
  intros H. unfold crash_events. rewrite takeN_app_ge, dropN_app_ge by exact H.
  now rewrite <- app_assoc.
Qed.

(* a history cut after call i: both parts satisfy the hypotheses of Setting, and the events split *)
Lemma cut_at st0 G0 h evs i evs_i :
  Inv st0 G0 -> hist_wf P st0 h -> stream_bound G0 (map snd (run_log P st0 h)) -> CB st0 h ->
  c_ev (w_ctx (s_wr (fst (run P st0 h)))) = rev evs ++ c_ev (w_ctx (s_wr st0)) ->
  let st_i := fst (run P st0 (firstn i h)) in
  c_ev (w_ctx (s_wr st_i)) = rev evs_i ++ c_ev (w_ctx (s_wr st0)) ->
  hist_wf P st0 (firstn i h) /\ stream_bound G0 (map snd (run_log P st0 (firstn i h))) /\
  CB st0 (firstn i h) /\
  exists G_i evs2, Inv st_i G_i /\ hist_wf P st_i (skipn i h) /\
    stream_bound G_i (map snd (run_log P st_i (skipn i h))) /\ CB st_i (skipn i h) /\
    c_ev (w_ctx (s_wr (fst (run P st_i (skipn i h))))) = rev evs2 ++ c_ev (w_ctx (s_wr st_i)) /\
    evs = evs_i ++ evs2.
Proof.
  intros HI0 Hwf Hb Hcb Hevs st_i Hevi.
  rewrite <- (firstn_skipn i h) in Hwf, Hb, Hcb, Hevs.
  destruct (run_segment _ _ st0 G0 HI0 Hwf Hb) as (Hwf1 & Hb1 & G_i & HI_i & Hwf2 & Hb2).
  split; [exact Hwf1|]. split; [exact Hb1|]. split; [exact (CB_prefix _ _ _ Hcb)|].
  destruct (run_events st_i (skipn i h)) as (evs2 & Hev2).
  exists G_i, evs2. repeat (split; [assumption|]). split; [exact (CB_suffix _ _ _ Hcb)|].
  split; [exact Hev2|].
  rewrite (run_app_fst P) in Hevs. fold st_i in Hevs. rewrite Hev2, Hevi in Hevs.
  exact (ev_suffix_split _ _ _ _ Hevs).
Qed.

Theorem C03_persisted_survives st0 G0 h evs i evs_i :
  Inv st0 G0 -> w_pending (s_wr st0) = [] ->
  hist_wf P st0 h -> stream_bound G0 (map snd (run_log P st0 h)) -> CB st0 h ->
  c_ev (w_ctx (s_wr (fst (run P st0 h)))) = rev evs ++ c_ev (w_ctx (s_wr st0)) ->
  (* call number i is itself a persist point: it leaves nothing buffered *)
  (i <= length h)%nat ->
  let st_i := fst (run P st0 (firstn i h)) in
  w_pending (s_wr st_i) = [] ->
  (* the events up to the end of call i *)
  c_ev (w_ctx (s_wr st_i)) = rev evs_i ++ c_ev (w_ctx (s_wr st0)) ->
  (* the crash happens after call i returned *)
  forall cut k pol hint, lenN evs_i <= cut ->
  exists m st_r, (i <= m)%nat /\ (m <= length h)%nat /\
    open P (fold_left apply_event (crash_events evs cut k) (c_fs (w_ctx (s_wr st0)))) None pol hint
      = OpenOk st_r /\
    forall q, s_get (absq st_r) q = s_get (absq (fst (run P st0 (firstn m h)))) q.
Proof.
  intros HI0 Hp0 Hwf Hb Hcb Hevs Hi st_i Hpi Hevi cut k pol hint Hcut.
  destruct (cut_at st0 G0 h evs i evs_i HI0 Hwf Hb Hcb Hevs Hevi)
    as (Hwf1 & Hb1 & Hcb1 & G_i & evs2 & HI_i & Hwf2 & Hb2 & Hcb2 & Hev2 & ->).
  pose proof (C03_directory_is_replay st0 G0 HI0 Hp0 _ Hwf1 Hb1 Hcb1 evs_i Hevi) as Hfs_i.
  destruct (C03_process_crash st_i G_i HI_i Hpi _ Hwf2 Hb2 Hcb2 evs2 Hev2 (cut - lenN evs_i) k pol hint)
    as (m & st_r & Hm & Ho & Hq).
  rewrite skipn_length in Hm.
  exists (i + m)%nat, st_r. split; [lia|]. split; [lia|].
  split.
  - rewrite crash_events_app_ge by exact Hcut. rewrite fold_left_app, <- Hfs_i. exact Ho.
  - intros q. rewrite Hq, (HN stN_add) by exact Hi. reflexivity.
Qed.

End Main.

Print Assumptions seg_main.
Print Assumptions C03_directory_is_replay.
Print Assumptions C03_process_crash.
Print Assumptions C03_persisted_survives.
