(* KWalk.v — the junk (r, W) left by a torn encoding, as in TornProofs.torn_walk, read by three
   readers:
   (A) a reader in record mode at its start (the conclusion of torn_walk);
   (C) a reader that meets the torn encoding of a non-first continuation while it is NOT within
       a record (within = false) walks over it without delivering anything;
   (D) so does a reader started at any block boundary strictly inside the junk.
   Hence a file boundary inside the junk left by a torn entry that spans two files is harmless. *)
From Coq Require Import Lia ZArith ZifyN ZifyNat ZifyBool List.
From MRL Require Import Bytes BytesProofs Params Frame Driver StreamProofs DamageProofs TornProofs ResyncProofs.

Section Walk.
Variable P : params.
Hypothesis HBS_lo : 7 < BS P.
Hypothesis HBS_hi : BS P <= 65542.
Hypothesis Hcrc : forall t p, crcf P t p < 2 ^ 32.

Local Notation B := (BS P).
Local Notation rframe := (read_frame P vecr (vr_next P) vr_block).
Local Notation gonext := (go_next P vecr (vr_next P) vr_block).
Local Notation padof := (pad_of P).
Local Notation chunkof := (chunk_of P).
Local Notation encrel := (enc_rel P).
Local Notation rdat := (rd_at P).
Local Notation atpos := (at_pos P).
Local Notation readsat := (reads_at P).
Local Notation sok := (stream_ok P).
Local Notation fbytes := (frame_bytes P).
Local Notation ffp := (first_frame_pos P).
Local Notation H3 f := (f P HBS_lo HBS_hi Hcrc) (only parsing).
Local Notation H2 f := (f P HBS_lo HBS_hi) (only parsing).

(* from rr, after n silently consumed frames, possibly one reported corruption, the reader reads
   at r; no record is delivered *)
Definition nr_walk (S : bytes) (a0 r : N) (rr : rreader vecr) : Prop :=
  exists n rr1 c, (c <= 1)%nat /\ 7 * N.of_nat n <= r - a0 /\ readsat S (rr_fr rr1) r /\
    ((c = 0%nat /\ forall fuel', gonext (n + Datatypes.S fuel') rr = gonext (Datatypes.S fuel') rr1) \/
     (c = 1%nat /\ forall fuel', gonext (n + Datatypes.S fuel') rr = (rr1, RCorrupt))).

(* what read_frame does on one torn frame (the conclusion of TornProofs.torn_frame) *)
Definition frame_out (S : bytes) (a r : N) ty fp (Z : Prop) (fr : freader vecr) : Prop :=
  readsat S fr r
  \/ (exists fr', rframe fr = (fr', FCorrupt) /\ readsat S fr' r /\ a + 7 <= r)
  \/ (exists fr' fp', rframe fr = (fr', FOk ty fp') /\ readsat S fr' r /\ a + 7 + lenN fp <= r /\
        ((fp' = fp /\ Z) \/ (fp' <> fp /\ crc_collision P))).

(* one torn frame, met while not within a record *)
Lemma frame_skip S a r ty fp (Z : Prop) fr rbuf :
  is_first_frame ty = false -> a <= r -> frame_out S a r ty fp Z fr ->
  nr_walk S a r (mkRR fr rbuf false).
Proof.
  intros Hnf Har [HA | [(fr' & Hrf & Hra & Hge) | (fr' & fp' & Hrf & Hra & Hge & _)]].
  - exists 0%nat, (mkRR fr rbuf false), 0%nat. split; [lia|]. split; [lia|]. split; [exact HA|].
    left. split; [reflexivity|]. intros fuel'. reflexivity.
  - exists 0%nat, (mkRR fr' rbuf false), 1%nat. split; [lia|]. split; [lia|]. split; [exact Hra|].
    right. split; [reflexivity|]. intros fuel'.
    cbn [Nat.add go_next rr_fr rr_buf rr_within]. rewrite Hrf. reflexivity.
  - exists 1%nat, (mkRR fr' rbuf false), 0%nat. split; [lia|]. split; [lia|]. split; [exact Hra|].
    left. split; [reflexivity|]. intros fuel'.
    cbn [Nat.add go_next rr_fr rr_buf rr_within]. rewrite Hrf, Hnf. reflexivity.
Qed.

(* one step of the record reader, while not within a record, over an intact frame that does not
   start a record (in record mode the step is StreamProofs.go_next_frame) *)
Lemma gonext_skip fr fr' fp rbuf g :
  rframe fr = (fr', FOk (frame_type false false) fp) ->
  gonext (Datatypes.S g) (mkRR fr rbuf false) = gonext g (mkRR fr' rbuf false).
Proof. intros Hrf. cbn [go_next rr_fr rr_buf rr_within]. rewrite Hrf. reflexivity. Qed.

(* a walk from a1, after one more silently consumed frame that starts at a *)
Lemma nr_walk_more S a a1 r rr rr' :
  (forall g, gonext (Datatypes.S g) rr = gonext g rr') -> a + 7 <= a1 -> a1 <= r ->
  nr_walk S a1 r rr' -> nr_walk S a r rr.
Proof.
  intros Hstep Ha Har (n & rr1 & c & Hc & Hn & Hra & Hout).
  exists (Datatypes.S n), rr1, c. split; [exact Hc|]. split; [lia|]. split; [exact Hra|].
  destruct Hout as [(-> & Hsil)|(-> & Hcor)].
  - left. split; [reflexivity|]. intros fuel'. cbn [Nat.add]. rewrite Hstep. apply Hsil.
  - right. split; [reflexivity|]. intros fuel'. cbn [Nat.add]. rewrite Hstep. apply Hcor.
Qed.

(* nr_walk_more in record mode: the frame at a is an intact non-last frame of the record, e1 its
   bytes (with the pad), c the length of its payload *)
Lemma walk_out_more S a a1 r f p c (e1 e : bytes) j fr fr' rbuf within :
  rframe fr = (fr', FOk (frame_type f false) (takeN c p)) -> (f = true \/ within = true) ->
  a + 7 <= a1 -> a1 <= r -> lenN e1 <= j ->
  walk_out P S a1 r false (dropN c p) e (j - lenN e1) fr' ((if f then [] else rbuf) ++ takeN c p) true ->
  walk_out P S a r f p (e1 ++ e) j fr rbuf within.
Proof.
  intros Hrf Hfw Ha Har Hj (n & rr1 & Hn & Hra & Hout).
  pose proof (fun g => StreamProofs.go_next_frame P g fr fr' rbuf within f false (takeN c p) Hrf Hfw) as Hstep.
  cbv iota in Hstep.
  exists (Datatypes.S n), rr1. split; [lia|]. split; [exact Hra|].
  destruct Hout as [Hsil | [[Hn7 Hcor] | (Hn7 & p' & Hbuf & Hrec & Hcase)]].
  - left. intros fuel'. cbn [Nat.add]. rewrite Hstep. apply Hsil.
  - right. left. split; [lia|]. intros fuel'. cbn [Nat.add]. rewrite Hstep. apply Hcor.
  - right. right. split; [lia|]. exists (takeN c p ++ p'). split.
    { rewrite Hbuf. cbn match. rewrite <- app_assoc. reflexivity. }
    split.
    { intros fuel'. cbn [Nat.add]. rewrite Hstep. apply Hrec. }
    destruct Hcase as [[Hp' Hz] | [Hp' Hcol]].
    + left. split; [rewrite Hp'; apply takeN_dropN|].
      rewrite dropN_app_ge by exact Hj. exact Hz.
    + right. split; [|exact Hcol]. intros E. apply Hp'.
      rewrite <- (takeN_dropN c p) in E at 2. apply app_inv_head in E. exact E.
Qed.

Lemma read_whole_frame a f p S pre post fr :
  sok S -> atpos S fr a -> lenN pre = a ->
  S = pre ++ padof a ++ fbytes (frame_type f false) (takeN (chunkof a p) p) ++ post ->
  exists fr', rframe fr = (fr', FOk (frame_type f false) (takeN (chunkof a p) p)) /\
              atpos S fr' (a + lenN (padof a) + 7 + chunkof a p).
Proof.
  intros Hok Hat Hpre HS.
  destruct (H3 StreamProofs.read_frame_at S fr a pre _ _ post Hok Hat HS Hpre
              (H3 StreamProofs.chunk_le_maxw a p)) as (fr' & Hrf & Hat').
  rewrite (H3 StreamProofs.lenN_take_chunk) in Hat'. exists fr'. split; assumption.
Qed.

(* one torn frame, met by a reader that accepts it as the next frame of its record: if it is not
   the last frame of the record it is consumed silently even when it reads as intact *)
Lemma frame_walk S a r f (last : bool) p e j fp (Z : Prop) fr rbuf within :
  (f = true \/ within = true) ->
  (last = true -> fp = p /\ (Z -> all_zero (dropN j e) = true)) ->
  frame_out S a r (frame_type f last) fp Z fr ->
  walk_out P S a r f p e j fr rbuf within.
Proof.
  intros Hfw Hlast [HA | [(fr' & Hrf & Hra & Hge) | (fr' & fp' & Hrf & Hra & Hge & Hcase)]].
  - exists 0%nat, (mkRR fr rbuf within). split; [lia|]. split; [exact HA|].
    left. intros fuel'. reflexivity.
  - exists 0%nat, (mkRR fr' rbuf false). split; [lia|]. split; [exact Hra|].
    right. left. split; [lia|]. intros fuel'.
    cbn [Nat.add go_next rr_fr rr_buf rr_within]. rewrite Hrf. reflexivity.
  - pose proof (fun g => StreamProofs.go_next_frame P g fr fr' rbuf within f last fp' Hrf Hfw) as Hgo.
    destruct last.
    + destruct (Hlast eq_refl) as (Hpfp & HZ).
      exists 0%nat, (mkRR fr' ((if f then [] else rbuf) ++ fp') false).
      split; [lia|]. split; [exact Hra|].
      right. right. split; [lia|]. exists fp'. split; [reflexivity|].
      split; [intros fuel'; apply Hgo|].
      rewrite <- Hpfp. destruct Hcase as [[E HZ']|Hc]; [left; split; [exact E|exact (HZ HZ')]|right; exact Hc].
    + exists 1%nat, (mkRR fr' ((if f then [] else rbuf) ++ fp') true).
      split; [lia|]. split; [exact Hra|].
      left. intros fuel'. apply Hgo.
Qed.

(* a frame lies in the block of its first-frame position: no block boundary is strictly inside it *)
Lemma no_boundary_in_frame a n kb :
  n <= max_writable P (B - a mod B) -> ffp a < kb * B -> kb * B < ffp a + 7 + n -> False.
Proof.
  intros Hn H1 H2'. unfold first_frame_pos in *.
  destruct (H2 TornProofs.pad_geom a) as (k' & c' & Hp & Hc' & Hmw & _).
  rewrite Hmw in Hn. rewrite Hp in *.
  assert (Hk1 : k' * B < kb * B) by lia. apply (H2 TornProofs.mulB_lt_inv) in Hk1.
  assert (Hk2 : kb * B < (k' + 1) * B) by lia. apply (H2 TornProofs.mulB_lt_inv) in Hk2. lia.
Qed.

(* the first block boundary after the first-frame position of a is at or after the end of the frame
   written at a *)
Lemma frame_end_le a p kb : ffp a < kb * B -> a + lenN (padof a) + 7 + chunkof a p <= kb * B.
Proof.
  intros H1. destruct (N.le_gt_cases (a + lenN (padof a) + 7 + chunkof a p) (kb * B)) as [Hle|Hgt];
    [exact Hle|exfalso].
  pose proof (H3 StreamProofs.chunk_le_maxw a p) as Hmw. rewrite (H3 StreamProofs.lenN_take_chunk) in Hmw.
  exact (no_boundary_in_frame a (chunkof a p) kb Hmw H1 Hgt).
Qed.

(* a frame that is not the last one of its record ends at a block boundary *)
Lemma full_frame_end a p :
  dropN (chunkof a p) p <> [] ->
  ffp (a + lenN (padof a) + 7 + chunkof a p) = a + lenN (padof a) + 7 + chunkof a p.
Proof.
  intros Hd. destruct (H2 TornProofs.pad_geom a) as (k' & c' & Hp & Hc' & Hmw & _).
  rewrite (H3 chunk_full a p Hd), Hmw.
  replace (a + lenN (padof a) + 7 + (B - c' - 7)) with ((k' + 1) * B) by lia. apply (H2 ffp_aligned).
Qed.

(* a frame cut at j: there is no block boundary strictly between its first-frame position and the
   end r of the junk, which is at or before the first block boundary after the cut *)
Lemma no_interior a ty fp j kb r :
  lenN fp <= max_writable P (B - a mod B) -> j < lenN (padof a ++ fbytes ty fp) ->
  (forall m, a + j <= m * B -> r <= m * B) ->
  ffp a < kb * B -> kb * B < r -> False.
Proof.
  intros Hfp Hj Hup H1 H2'.
  rewrite lenN_app, (StreamProofs.lenN_frame_bytes P) in Hj.
  destruct (N.le_gt_cases (a + j) (kb * B)) as [Hle|Hgt].
  - specialize (Hup kb Hle). lia.
  - apply (no_boundary_in_frame a (lenN fp) kb Hfp H1). unfold first_frame_pos. lia.
Qed.

(* the three readers on the junk (r, W) that TornProofs.torn_frame makes of one torn frame *)
Lemma torn_frame_walks a f (last : bool) p e fp j r W :
  lenN fp <= max_writable P (B - a mod B) ->
  j < lenN (padof a ++ fbytes (frame_type f last) fp) ->
  (last = true -> fp = p /\ e = padof a ++ fbytes (frame_type f last) fp) ->
  a <= r -> (forall m, a + j <= m * B -> r <= m * B) ->
  (forall S pre post fr,
     sok S -> atpos S fr a -> S = pre ++ W ++ post -> lenN pre = a -> r + 7 <= lenN S ->
     frame_out S a r (frame_type f last) fp
               (all_zero (dropN j (padof a ++ fbytes (frame_type f last) fp)) = true) fr) ->
  forall S pre post,
    sok S -> S = pre ++ W ++ post -> lenN pre = a -> r + 7 <= lenN S ->
    (forall fr rbuf within, atpos S fr a -> (f = true \/ within = true) ->
       walk_out P S a r f p e j fr rbuf within) /\
    (f = false -> forall fr rbuf, atpos S fr a -> nr_walk S a r (mkRR fr rbuf false)) /\
    (forall kb rbuf, ffp a < kb * B -> kb * B < r -> nr_walk S (kb * B) r (mkRR (rdat S kb 0) rbuf false)).
Proof.
  intros Hfp Hj Hlast Har Hup Hrd S pre post Hok HS Hpre Hrlen.
  split; [|split].
  - intros fr rbuf within Hat Hfw.
    eapply (frame_walk S a r f last p e j fp _ fr rbuf within Hfw); [|exact (Hrd S pre post fr Hok Hat HS Hpre Hrlen)].
    intros El. destruct (Hlast El) as (Hpfp & ->). split; [exact Hpfp|]. intros H. exact H.
  - intros -> fr rbuf Hat.
    eapply (frame_skip S a r (frame_type false last) fp _ fr rbuf); [destruct last; reflexivity|exact Har|].
    exact (Hrd S pre post fr Hok Hat HS Hpre Hrlen).
  - intros kb rbuf H1 H2'. exfalso. exact (no_interior a _ fp j kb r Hfp Hj Hup H1 H2').
Qed.

Theorem torn_walk3 a f p e k :
  encrel a f p e k -> forall j, j < lenN e ->
  exists r W,
    a <= r /\ lenN W = r - a /\
    (forall z, r <= a + j + z -> takeN j e ++ zerosN z = W ++ zerosN (a + j + z - r)) /\
    (forall m, a + j <= m * B -> r <= m * B) /\
    (forall m, m * B <= a + j -> m * B <= r) /\
    forall S pre post,
      sok S -> S = pre ++ W ++ post -> lenN pre = a -> r + 7 <= lenN S ->
      (forall fr rbuf within, atpos S fr a -> (f = true \/ within = true) ->
         walk_out P S a r f p e j fr rbuf within) /\
      (f = false -> forall fr rbuf, atpos S fr a -> nr_walk S a r (mkRR fr rbuf false)) /\
      (forall kb rbuf, ffp a < kb * B -> kb * B < r -> nr_walk S (kb * B) r (mkRR (rdat S kb 0) rbuf false)).
Proof.
  induction 1 as [a f p Hd | a f p e k Hd Hr IH]; intros j Hj.
  - (* the torn frame is the last one of the record *)
    set (fp := takeN (chunkof a p) p) in *.
    pose proof (TornProofs.takeN_whole p (chunkof a p) Hd) as Hpfp. fold fp in Hpfp.
    destruct (H3 TornProofs.torn_frame a (frame_type f true) fp j
                (H3 StreamProofs.chunk_le_maxw a p) Hj)
      as (r & W & Har & HlW & Hspec & Hup & Hlo & Hrd).
    exists r, W. split; [exact Har|]. split; [exact HlW|]. split; [exact Hspec|].
    split; [exact Hup|]. split; [exact Hlo|].
    refine (torn_frame_walks a f true p _ fp j r W (H3 StreamProofs.chunk_le_maxw a p) Hj _ Har Hup Hrd).
    intros _. split; [exact Hpfp|reflexivity].
  - (* at least one more frame follows *)
    set (fp := takeN (chunkof a p) p) in *.
    set (fb := fbytes (frame_type f false) fp) in *.
    assert (Hlfp : lenN fp = chunkof a p) by apply (H3 StreamProofs.lenN_take_chunk).
    set (a1 := a + lenN (padof a) + 7 + chunkof a p) in *.
    assert (Ea1 : a1 = a + lenN (padof a ++ fb)).
    { unfold fb. rewrite lenN_app, (StreamProofs.lenN_frame_bytes P), Hlfp. lia. }
    pose proof (frame_end_le a p) as Hnext. pose proof (full_frame_end a p Hd) as Ef. fold a1 in Hnext, Ef.
    destruct (N.lt_ge_cases j (lenN (padof a ++ fb))) as [Hcut|Hcut].
    + (* the cut is in this frame *)
      destruct (H3 TornProofs.torn_frame a (frame_type f false) fp j
                  (H3 StreamProofs.chunk_le_maxw a p) Hcut)
        as (r & W & Har & HlW & Hspec & Hup & Hlo & Hrd).
      fold fb in Hspec, Hrd.
      exists r, W. split; [exact Har|]. split; [exact HlW|]. split.
      { intros z Hz. rewrite app_assoc, takeN_app_le by lia. apply Hspec. exact Hz. }
      split; [exact Hup|]. split; [exact Hlo|].
      refine (torn_frame_walks a f false p _ fp j r W (H3 StreamProofs.chunk_le_maxw a p) Hcut _ Har Hup Hrd).
      discriminate.
    + (* this frame is complete *)
      set (l1 := lenN (padof a ++ fb)) in *.
      assert (Hj1 : j - l1 < lenN e).
      { rewrite app_assoc, lenN_app in Hj. fold l1 in Hj. lia. }
      destruct (IH (j - l1) Hj1) as (r & W & Har & HlW & Hspec & Hup & Hlo & Hrd).
      exists r, (padof a ++ fb ++ W).
      split; [lia|]. split.
      { rewrite app_assoc, lenN_app. fold l1. lia. }
      split.
      { intros z Hz. rewrite (app_assoc (padof a) fb e), takeN_app_ge by (fold l1; lia).
        fold l1. rewrite <- !app_assoc. do 2 f_equal.
        replace (a + j + z - r) with (a1 + (j - l1) + z - r) by lia.
        apply Hspec. lia. }
      split; [intros m Hm; apply Hup; lia|].
      split; [intros m Hm; apply Hlo; lia|].
      intros S pre post Hok HS Hpre Hrlen.
      rewrite <- !app_assoc in HS.
      assert (HS1 : S = (pre ++ padof a ++ fb) ++ W ++ post) by (rewrite HS, <- !app_assoc; reflexivity).
      assert (Hpre1 : lenN (pre ++ padof a ++ fb) = a1) by (rewrite lenN_app; fold l1; lia).
      destruct (Hrd S (pre ++ padof a ++ fb) post Hok HS1 Hpre1 Hrlen) as (HrdA & HrdC & HrdD).
      pose proof (fun fr Hat => read_whole_frame a f p S pre (W ++ post) fr Hok Hat Hpre HS) as Hframe.
      fold fp a1 in Hframe.
      split; [|split].
      * intros fr rbuf within Hat Hfw.
        destruct (Hframe fr Hat) as (fr' & Hrf & Hat').
        rewrite (app_assoc (padof a) fb e).
        apply (walk_out_more S a a1 r f p (chunkof a p) (padof a ++ fb) e j fr fr' rbuf within Hrf Hfw);
          [lia|exact Har|exact Hcut|].
        exact (HrdA fr' _ true Hat' (or_intror eq_refl)).
      * intros -> fr rbuf Hat.
        destruct (Hframe fr Hat) as (fr' & Hrf & Hat').
        apply (nr_walk_more S a a1 r _ (mkRR fr' rbuf false) (fun g => gonext_skip fr fr' fp rbuf g Hrf));
          [lia|exact Har|].
        exact (HrdC eq_refl fr' rbuf Hat').
      * intros kb rbuf H1 H2'. pose proof (Hnext kb H1) as Hge1.
        destruct (N.eq_dec (kb * B) a1) as [E|Hne].
        -- rewrite E.
           assert (Hblk : (kb + 1) * B <= lenN S) by (apply (H3 TornProofs.block_exists S kb 0 1 Hok); lia).
           pose proof (H3 at_pos_boundary S kb Hblk) as Hatb. rewrite E in Hatb.
           exact (HrdC eq_refl (rdat S kb 0) rbuf Hatb).
        -- apply HrdD; [rewrite Ef; lia|exact H2'].
Qed.

End Walk.

Print Assumptions torn_walk3.
